(* ListFacts.v — facts about firstn / skipn / nth / seq / NoDup that the Coq 8.16
   standard library lacks and that proofs in every directory need. *)
From Coq Require Import List Arith Lia.
Import ListNotations.

Section Lists.
  Context {A : Type}.
  Implicit Types (l u v : list A) (d : A).

  Lemma nth_firstn_lt l d : forall n k, k < n -> nth k (firstn n l) d = nth k l d.
  Proof.
    induction l as [|x l IH]; intros [|n] [|k] H; simpl; try lia; auto.
    apply IH. lia.
  Qed.

  Lemma nth_skipn l d : forall n k, nth k (skipn n l) d = nth (n + k) l d.
  Proof.
    induction l as [|x l IH]; intros [|n] k; simpl; auto. now destruct k.
  Qed.

  Lemma skipn_skipn l : forall a b, skipn a (skipn b l) = skipn (b + a) l.
  Proof.
    induction l as [|x l IH]; intros a [|b]; simpl; auto using skipn_nil.
  Qed.

  Lemma skipn_add l a b : skipn (a + b) l = skipn b (skipn a l).
  Proof. symmetry. apply skipn_skipn. Qed.

  Lemma firstn_add l : forall a b, firstn (a + b) l = firstn a l ++ firstn b (skipn a l).
  Proof.
    induction l as [|x l IH]; intros [|a] b; simpl; auto using firstn_nil.
    now rewrite IH.
  Qed.

  Lemma firstn_S_nth d : forall n l, n < length l -> firstn (S n) l = firstn n l ++ [nth n l d].
  Proof.
    induction n; intros [|x l] H; simpl in *; try lia; auto.
    now rewrite <- IHn by lia.
  Qed.

  Lemma firstn_app_exact u v k : length u = k -> firstn k (u ++ v) = u.
  Proof. intros <-. rewrite firstn_app, Nat.sub_diag, firstn_all, firstn_O. apply app_nil_r. Qed.

  Lemma skipn_app_exact u v k : length u = k -> skipn k (u ++ v) = v.
  Proof. intros <-. now rewrite skipn_app, Nat.sub_diag, skipn_all. Qed.

  Lemma NoDup_snoc l x : NoDup l -> ~ In x l -> NoDup (l ++ [x]).
  Proof.
    intros Hl Hx. apply NoDup_rev in Hl. rewrite <- (rev_involutive (l ++ [x])), rev_unit.
    apply NoDup_rev. constructor; [now rewrite <- in_rev|assumption].
  Qed.

  Lemma NoDup_app_iff u v :
    NoDup (u ++ v) <-> NoDup u /\ NoDup v /\ (forall x, In x u -> ~ In x v).
  Proof.
    induction u as [|h t IH]; simpl.
    - split; [intros H; repeat split; auto; constructor | now intros (_ & H & _)].
    - rewrite !NoDup_cons_iff, IH, in_app_iff. split.
      + intros (Hn & H1 & H2 & H3). repeat split; auto.
        intros x [<-|Hx]; auto.
      + intros ((Hn & H1) & H2 & H3). repeat split; auto.
        intros [Hi|Hi]; [auto|exact (H3 h (or_introl eq_refl) Hi)].
  Qed.

  Lemma Forall_repeat (P : A -> Prop) x n : P x -> Forall P (repeat x n).
  Proof. intros H. induction n; simpl; auto. Qed.
End Lists.

Lemma nth_map_seq {A} (f : nat -> A) n k d : k < n -> nth k (map f (seq 0 n)) d = f k.
Proof.
  intros H. rewrite nth_indep with (d' := f 0) by (rewrite map_length, seq_length; lia).
  now rewrite map_nth, seq_nth.
Qed.

Lemma map_seq_shift {A} (g : nat -> A) a m : map g (seq a m) = map (fun r => g (a + r)) (seq 0 m).
Proof.
  revert a. induction m as [|m IH]; intros a; simpl; [reflexivity|].
  rewrite Nat.add_0_r, IH, <- seq_shift, map_map. f_equal. apply map_ext. intros r. f_equal. lia.
Qed.

Lemma map_nth_seq {A B} (g : A -> B) (d : A) l :
  map g l = map (fun i => g (nth i l d)) (seq 0 (length l)).
Proof.
  induction l as [|x l IH]; [reflexivity|].
  simpl. f_equal. now rewrite <- seq_shift, map_map.
Qed.

Lemma Forall2_len {A B} (R : A -> B -> Prop) l1 l2 : Forall2 R l1 l2 -> length l1 = length l2.
Proof. induction 1; simpl; congruence. Qed.

Lemma nonnil_of_length {A B} (l : list A) (l' : list B) : length l' = length l -> l <> [] -> l' <> [].
Proof. intros E H ->. destruct l; [contradiction|discriminate]. Qed.
