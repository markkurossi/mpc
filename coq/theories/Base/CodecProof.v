From Coq Require Import NArith List Arith Lia ZifyN ZifyNat.
From Mpc Require Import Base.Codec.
Import ListNotations.
Open Scope N_scope.

Lemma of_be_app l b : of_be (l ++ [b]) = of_be l * 256 + b.
Proof. unfold of_be. rewrite fold_left_app. reflexivity. Qed.

Lemma of_be_be k : forall x, of_be (be k x) = x mod 256 ^ N.of_nat k.
Proof.
  induction k as [|k IH]; intros x.
  - cbn. rewrite N.mod_1_r. reflexivity.
  - cbn [be]. rewrite of_be_app, IH.
    rewrite Nat2N.inj_succ, N.pow_succ_r'.
    assert (H256 : 256 ^ N.of_nat k <> 0) by (apply N.pow_nonzero; lia).
    rewrite N.mod_mul_r by lia.
    generalize ((x / 256) mod 256 ^ N.of_nat k), (x mod 256). intros; lia.
Qed.

Lemma be_length k : forall x, length (be k x) = k.
Proof. induction k as [|k IH]; intros x; cbn [be]; [reflexivity|]. rewrite app_length, IH. cbn. lia. Qed.

(* big.Int.Bytes then SetBytes is the identity *)
Lemma big_bytes_roundtrip x : of_be (big_bytes x) = x.
Proof.
  unfold big_bytes. rewrite of_be_be. apply N.mod_small.
  eapply N.lt_le_trans; [apply N.size_gt|].
  replace 256 with (2 ^ 8) by reflexivity. rewrite <- N.pow_mul_r.
  apply N.pow_le_mono_r; [lia|]. unfold nbytes.
  assert (N.to_nat (N.size x) <= 8 * ((N.to_nat (N.size x) + 7) / 8))%nat.
  { pose proof (Nat.div_mod (N.to_nat (N.size x) + 7) 8 ltac:(lia)).
    pose proof (Nat.mod_upper_bound (N.to_nat (N.size x) + 7) 8 ltac:(lia)). lia. }
  lia.
Qed.

Lemma bits_to_N_app a b : bits_to_N (a ++ b) = bits_to_N a + 2 ^ N.of_nat (length a) * bits_to_N b.
Proof.
  induction a as [|x a IH]; cbn [bits_to_N app length].
  - change (N.of_nat 0) with 0. rewrite N.pow_0_r. lia.
  - rewrite IH, Nat2N.inj_succ, N.pow_succ_r'.
    generalize (2 ^ N.of_nat (length a)), (bits_to_N a), (bits_to_N b). intros; destruct x; nia.
Qed.

Lemma bits_to_N_bound a : bits_to_N a < 2 ^ N.of_nat (length a).
Proof.
  induction a as [|x a IH]; cbn [bits_to_N length].
  - change (N.of_nat 0) with 0. rewrite N.pow_0_r. lia.
  - rewrite Nat2N.inj_succ, N.pow_succ_r'.
    revert IH. generalize (2 ^ N.of_nat (length a)), (bits_to_N a). intros; destruct x; lia.
Qed.

(* IO.Split cuts the value into the declared fields, in order *)
Lemma split_bits_spec : forall sizes bs,
  length bs = fold_right Nat.add 0%nat sizes ->
  split_bits sizes (bits_to_N bs) = map bits_to_N (chunks sizes bs).
Proof.
  induction sizes as [|s rest IH]; intros bs Hlen; cbn [split_bits chunks map].
  - reflexivity.
  - cbn [fold_right] in Hlen.
    rewrite <- (firstn_skipn s bs) at 1 2.
    assert (Hf : length (firstn s bs) = s) by (rewrite firstn_length; lia).
    rewrite bits_to_N_app, Hf.
    pose proof (bits_to_N_bound (firstn s bs)) as Hb. rewrite Hf in Hb.
    assert (Hp : 2 ^ N.of_nat s <> 0) by (apply N.pow_nonzero; lia).
    rewrite (N.mul_comm (2 ^ N.of_nat s)).
    f_equal.
    + rewrite N.mod_add by exact Hp. apply N.mod_small; exact Hb.
    + rewrite N.div_add by exact Hp.
      rewrite N.div_small by exact Hb. rewrite N.add_0_l.
      apply IH. rewrite skipn_length. lia.
Qed.

Lemma concat_chunks {A} : forall sizes (l : list A),
  length l = fold_right Nat.add 0%nat sizes -> concat (chunks sizes l) = l.
Proof.
  induction sizes as [|s rest IH]; intros l H; cbn [chunks concat fold_right] in *.
  - destruct l; [reflexivity|discriminate].
  - rewrite IH by (rewrite skipn_length; lia). apply firstn_skipn.
Qed.
