(* Label.v — model of ot.Label (ot/label.go): a 128-bit value, D0 the high
   word.  Labels are [N]; the 128-bit width is written into [mul2]/[mul4]
   (the only operations that can overflow).  [S] is the point-and-permute
   bit (top bit of D0 = bit 127). *)
From Coq Require Import NArith List Bool Btauto Lia.
Import ListNotations.
Open Scope N_scope.

Notation label := N (only parsing).
Definition W128 : N := 2 ^ 128.
Definition lxor (a b : label) : label := N.lxor a b.
Definition sbit (l : label) : bool := N.testbit l 127.
Definition setS (l : label) : label := N.lor l (2 ^ 127).
Definition mul2 (l : label) : label := (l * 2) mod W128.
Definition mul4 (l : label) : label := (l * 4) mod W128.
(* ot.NewTweak(uint32): the tweak counter is a Go uint32 and wraps. *)
Definition tweak (t : N) : label := t mod 2 ^ 32.

Record wire := mkWire { L0 : label; L1 : label }.
Definition w0 : wire := mkWire 0 0.
Definition pick (w : wire) (b : bool) : label := if b then L1 w else L0 w.

Section Hash.
  Variable pi : N -> N.   (* the fixed-key block cipher, arbitrary *)

  (* circuit.makeK *)
  Definition makeK (a b : label) (t : N) : label :=
    lxor (lxor (mul2 a) (mul4 b)) (tweak t).
  (* circuit.encrypt / decrypt *)
  Definition enc (a b c : label) (t : N) : label :=
    let k := makeK a b t in lxor (lxor (pi k) k) c.
  Definition dec (a b : label) (t : N) (c : label) : label :=
    let k := makeK a b t in lxor (lxor c (pi k)) k.
  (* circuit.encryptHalf *)
  Definition half (x : label) (i : N) : label :=
    let k := lxor (mul2 x) (tweak i) in lxor (pi k) k.
End Hash.

(* xor reasoning: reduce an equation between lxor-terms to a boolean ring
   identity at an arbitrary bit position. *)
Ltac xor_solve :=
  unfold lxor in *;
  apply N.bits_inj; let n := fresh "n" in intro n;
  repeat rewrite N.lxor_spec; repeat rewrite N.bits_0;
  repeat match goal with
         | |- context [N.testbit ?x n] =>
             let b := fresh "b" in generalize (N.testbit x n); intro b
         end;
  btauto.

Lemma lxor_comm a b : lxor a b = lxor b a. Proof. xor_solve. Qed.
Lemma lxor_assoc a b c : lxor (lxor a b) c = lxor a (lxor b c). Proof. xor_solve. Qed.
Lemma lxor_0_r a : lxor a 0 = a. Proof. xor_solve. Qed.
Lemma lxor_0_l a : lxor 0 a = a. Proof. xor_solve. Qed.
Lemma lxor_nilp a : lxor a a = 0. Proof. xor_solve. Qed.
Lemma lxor_cancel_r a b : lxor (lxor a b) b = a. Proof. xor_solve. Qed.

Lemma sbit_lxor a b : sbit (lxor a b) = xorb (sbit a) (sbit b).
Proof. unfold sbit, lxor. apply N.lxor_spec. Qed.

Lemma sbit_setS l : sbit (setS l) = true.
Proof.
  unfold sbit, setS. rewrite N.lor_spec, N.pow2_bits_true. apply orb_true_r.
Qed.

Lemma lxor_eq_0 a b : lxor a b = 0 -> a = b.
Proof. unfold lxor. apply N.lxor_eq. Qed.

Lemma sbit_nonzero r : sbit r = true -> r <> 0.
Proof. intros H E. subst. unfold sbit in H. rewrite N.bits_0 in H. discriminate. Qed.

Lemma lxor_neq l r : r <> 0 -> lxor l r <> l.
Proof.
  intros H E. apply H.
  replace r with (lxor (lxor l r) l) by xor_solve. rewrite E. apply lxor_nilp.
Qed.

Lemma lxor_r_neq l r : sbit r = true -> lxor l r <> l.
Proof. intros H. apply lxor_neq, sbit_nonzero, H. Qed.

Lemma dec_enc pi a b c t : dec pi a b t (enc pi a b c t) = c.
Proof. unfold dec, enc. cbv zeta. generalize (pi (makeK a b t)), (makeK a b t). intros. xor_solve. Qed.
