(* C07: NewKoggeStoneAdder / NewKoggeStoneSubtractor (GMW target): the
   parallel-prefix circuits compute (x + y) mod 2^(result width) resp.
   (x + not y + 1) mod 2^n, n = min (larger operand width + 1, result width), for
   all operand and result widths >= 1.  Both are one carry-in adder
   ([ks_sum]) inside one padding / truncation frame ([okp_ks_frame]). *)
From Coq Require Import NArith List Bool Arith Lia.
From Mpc Require Import Base.ListFacts.
From Mpc Require Import Builders.Emit Builders.EmitProof Builders.Adder Builders.Sub.
Import ListNotations.
Open Scope N_scope.

Notation nb i l := (nth i l false).

(* Boolean-list mirrors of the builders' loops.  Like the loops, each stops at
   the shortest of its arguments. *)
Fixpoint zipb (f : bool -> bool -> bool) (x y : list bool) : list bool :=
  match x, y with
  | a :: x', b :: y' => f a b :: zipb f x' y'
  | _, _ => []
  end.

Lemma zipb_length f : forall x y, length (zipb f x y) = Nat.min (length x) (length y).
Proof.
  induction x as [|a x IH]; intros y; [reflexivity|].
  destruct y as [|b y]; [reflexivity|]. cbn [zipb length]. rewrite IH. reflexivity.
Qed.

Lemma nth_zipb f : forall x y i, (i < length x)%nat -> (i < length y)%nat ->
  nb i (zipb f x y) = f (nb i x) (nb i y).
Proof.
  induction x as [|a x IH]; intros y i Hx Hy; [cbn in Hx; lia|].
  destruct y as [|b y]; [cbn in Hy; lia|].
  destruct i as [|i]; cbn [zipb nth]; [reflexivity|]. apply IH; cbn in *; lia.
Qed.

Fixpoint cellsB (pi gi pj gj : list bool) : list bool * list bool :=
  match pi, gi, pj, gj with
  | p :: pi', g :: gi', pl :: pj', gl :: gj' =>
      let r := cellsB pi' gi' pj' gj' in
      ((p && pl) :: fst r, xorb g (p && gl) :: snd r)
  | _, _, _, _ => ([], [])
  end.

Definition stageB (shift : nat) (p g : list bool) : list bool * list bool :=
  let r := cellsB (skipn shift p) (skipn shift g) p g in
  (firstn shift p ++ fst r, firstn shift g ++ snd r).

Fixpoint stagesB (k shift : nat) (p g : list bool) : list bool * list bool :=
  match k with
  | O => (p, g)
  | S k' => let r := stageB shift p g in stagesB k' (2 * shift) (fst r) (snd r)
  end.

Fixpoint postB (x y g : list bool) : list bool :=
  match x, y, g with
  | a :: x', b :: y', c :: g' => xorb (xorb a b) c :: postB x' y' g'
  | _, _, _ => []
  end.

(* new contents of the destination vector z after a loop that writes p xor g
   into it *)
Fixpoint writeB (p g z : list bool) : list bool :=
  match p, g, z with
  | a :: p', c :: g', _ :: z' => xorb a c :: writeB p' g' z'
  | _, _, _ => z
  end.

Lemma writeB_firstn : forall p g z n,
  length p = n -> (n <= length g)%nat -> (n <= length z)%nat ->
  firstn n (writeB p g z) = zipb xorb p g.
Proof.
  induction p as [|a p IH]; intros g z n Lp Hg Hz; subst n; [reflexivity|].
  destruct g as [|c g]; [cbn in Hg; lia|].
  destruct z as [|d z]; [cbn in Hz; lia|].
  cbn [writeB zipb length firstn]. rewrite (IH g z) by (cbn in *; lia). reflexivity.
Qed.

Lemma postB_zip : forall x y g, postB x y g = zipb xorb (zipb xorb x y) g.
Proof.
  induction x as [|a x IH]; intros y g; [reflexivity|].
  destruct y as [|b y]; [reflexivity|]. destruct g as [|c g]; [reflexivity|].
  cbn [postB zipb]. rewrite IH. reflexivity.
Qed.

Lemma okm_ks_pre t : forall x y,
  okm t (ks_pre x y)
      (fun r e => map e (fst r) = zipb xorb (map e x) (map e y) /\
                  map e (snd r) = zipb andb (map e x) (map e y)).
Proof.
  induction x as [|xi x IH]; intros y.
  - cbn. apply okm_ret. auto.
  - destruct y as [|yi y]; [cbn; apply okm_ret; auto|].
    cbn [ks_pre]. mstep okm_fresh. mstep okm_fresh. mstep okm_emit. mstep okm_emit.
    eapply okm_bind; [apply IH|]. intros [ps gs]. apply okm_ret.
    cbn. intros e [H1 H2] E2 E1 _ _. rewrite H1, H2, E1, E2. auto.
Qed.

Lemma okm_ks_cells t : forall pi gi pj gj,
  okm t (ks_cells pi gi pj gj)
      (fun r e =>
         map e (fst r) = fst (cellsB (map e pi) (map e gi) (map e pj) (map e gj)) /\
         map e (snd r) = snd (cellsB (map e pi) (map e gi) (map e pj) (map e gj))).
Proof.
  induction pi as [|p pi IH]; intros gi pj gj.
  - cbn. apply okm_ret. auto.
  - destruct gi as [|g gi]; [cbn; apply okm_ret; auto|].
    destruct pj as [|pl pj]; [cbn; apply okm_ret; auto|].
    destruct gj as [|gl gj]; [cbn; apply okm_ret; auto|].
    cbn [ks_cells]. mstep okm_fresh. mstep okm_fresh. mstep okm_fresh.
    mstep okm_emit. mstep okm_emit. mstep okm_emit.
    eapply okm_bind; [apply IH|]. intros [ps gs]. apply okm_ret.
    cbn. intros e [H1 H2] E3 E2 E1 _ _ _. rewrite H1, H2, E3, E2, E1. auto.
Qed.

Lemma okm_ks_stage t shift p g :
  okm t (ks_stage shift p g)
      (fun r e => map e (fst r) = fst (stageB shift (map e p) (map e g)) /\
                  map e (snd r) = snd (stageB shift (map e p) (map e g))).
Proof.
  unfold ks_stage. eapply okm_bind; [apply okm_ks_cells|]. intros [ps gs]. apply okm_ret.
  cbn. intros e [H1 H2]. unfold stageB. cbn [fst snd].
  rewrite !map_app, H1, H2, <- !firstn_map, <- !skipn_map. auto.
Qed.

Lemma okm_ks_stages t : forall k shift p g,
  okm t (ks_stages k shift p g)
      (fun r e => map e (fst r) = fst (stagesB k shift (map e p) (map e g)) /\
                  map e (snd r) = snd (stagesB k shift (map e p) (map e g))).
Proof.
  induction k as [|k IH]; intros shift p g.
  - cbn. apply okm_ret. auto.
  - cbn [ks_stages]. eapply okm_bind; [apply okm_ks_stage|]. intros [p' g'].
    eapply okm_weaken; [apply IH|]. cbn. intros r e [H1 H2] [E1 E2].
    rewrite H1, H2, E1, E2. auto.
Qed.

Lemma okm_ks_post_z t : forall x y g z,
  okm t (ks_post x y g z)
      (fun _ e => map e z = writeB (zipb xorb (map e x) (map e y)) (map e g) (map e z)).
Proof.
  induction x as [|xi x IH]; intros y g z.
  - cbn. apply okm_ret. auto.
  - destruct y as [|yi y]; [cbn; apply okm_ret; auto|].
    destruct g as [|gi g]; [cbn; apply okm_ret; auto|].
    destruct z as [|zi z]; [cbn; apply okm_ret; auto|].
    cbn [ks_post]. mstep okm_fresh. mstep okm_emit. mstep okm_emit.
    eapply okm_weaken; [apply IH|].
    cbn. intros _ e H E2 E1 _. rewrite <- H, E2, E1. auto.
Qed.

Lemma okm_ks_post t : forall x y g z,
  length y = length x -> (length x <= length g)%nat -> (length x <= length z)%nat ->
  okm t (ks_post x y g z)
      (fun _ e => map e (firstn (length x) z) = postB (map e x) (map e y) (map e g)).
Proof.
  intros x y g z Hy Hg Hz. eapply okm_weaken; [apply okm_ks_post_z|].
  cbv beta. intros _ e H. rewrite <- firstn_map, H, postB_zip.
  apply writeB_firstn; rewrite ?zipb_length, ?map_length; lia.
Qed.

Lemma cellsB_zip : forall pi gi pj gj,
  length gi = length pi -> length gj = length pj -> (length pi <= length pj)%nat ->
  cellsB pi gi pj gj = (zipb andb pi pj, zipb xorb gi (zipb andb pi gj)).
Proof.
  induction pi as [|p pi IH]; intros gi pj gj Hg Hj Hl.
  - destruct gi; [reflexivity|discriminate].
  - destruct gi as [|g gi]; [discriminate|].
    destruct pj as [|pl pj]; [cbn in Hl; lia|].
    destruct gj as [|gl gj]; [discriminate|].
    cbn [cellsB zipb]. rewrite IH by (cbn in *; lia). reflexivity.
Qed.

Lemma stageB_spec d p g :
  length g = length p ->
  length (fst (stageB d p g)) = length p /\
  length (snd (stageB d p g)) = length p /\
  forall i, (i < length p)%nat ->
    nb i (fst (stageB d p g)) = (if (i <? d)%nat then nb i p else nb i p && nb (i - d) p) /\
    nb i (snd (stageB d p g)) =
      (if (i <? d)%nat then nb i g else xorb (nb i g) (nb i p && nb (i - d) g)).
Proof.
  intros Hg. unfold stageB. rewrite cellsB_zip by (rewrite ?skipn_length; lia). cbn [fst snd].
  rewrite !app_length, !zipb_length, !firstn_length, !skipn_length.
  split; [lia|]. split; [lia|]. intros i Hi.
  destruct (Nat.ltb_spec i d).
  - rewrite !app_nth1 by (rewrite firstn_length; lia). rewrite !nth_firstn_lt by lia. auto.
  - rewrite !app_nth2 by (rewrite firstn_length; lia). rewrite !firstn_length.
    replace (Nat.min d (length p)) with d by lia. replace (Nat.min d (length g)) with d by lia.
    rewrite !nth_zipb by (rewrite ?zipb_length, ?skipn_length; lia). rewrite !nth_skipn.
    replace (d + (i - d))%nat with i by lia. auto.
Qed.

(* the prefix operator on (generate, propagate) pairs: high part on the left;
   XOR instead of OR (see [grp_excl] / [gpop_or] below) *)
Definition gpop (a b : bool * bool) : bool * bool :=
  (xorb (fst a) (snd a && fst b), snd a && snd b).

Lemma gpop_assoc a b c : gpop a (gpop b c) = gpop (gpop a b) c.
Proof. destruct a as [[] []], b as [[] []], c as [[] []]; reflexivity. Qed.
Lemma gpop_id_r a : gpop a (false, true) = a.
Proof. destruct a as [[] []]; reflexivity. Qed.
Lemma gpop_id_l a : gpop (false, true) a = a.
Proof. destruct a as [[] []]; reflexivity. Qed.

(* the textbook operator with OR *)
Definition gpop_or (a b : bool * bool) : bool * bool :=
  (fst a || (snd a && fst b), snd a && snd b).
Definition excl (a : bool * bool) : Prop := fst a && snd a = false.
Lemma gpop_excl a b : excl a -> excl b -> excl (gpop a b).
Proof. unfold excl. destruct a as [[] []], b as [[] []]; cbn; auto. Qed.
Lemma gpop_or_eq a b : excl a -> gpop a b = gpop_or a b.
Proof. unfold excl. destruct a as [[] []], b as [[] []]; cbn; auto; discriminate. Qed.

Section Prefix.
  Variables gf pf : nat -> bool.

  (* group signal of the bit positions lo .. lo+len-1 *)
  Fixpoint grp (lo len : nat) : bool * bool :=
    match len with
    | O => (false, true)
    | S k => gpop (gf (lo + k)%nat, pf (lo + k)%nat) (grp lo k)
    end.

  Lemma grp_app lo a b : grp lo (a + b) = gpop (grp (lo + a) b) (grp lo a).
  Proof.
    induction b.
    - rewrite Nat.add_0_r. cbn. rewrite gpop_id_l. reflexivity.
    - rewrite Nat.add_succ_r. cbn [grp]. rewrite IHb, gpop_assoc, Nat.add_assoc. reflexivity.
  Qed.

  Lemma grp_excl lo len :
    (forall i, gf i && pf i = false) -> excl (grp lo len).
  Proof.
    intros H. induction len; [reflexivity|]. cbn [grp]. apply gpop_excl; auto. apply H.
  Qed.

  (* (g_i, p_i) is the group signal of the (at most d) positions ending at i *)
  Definition ksinv (d n : nat) (p g : list bool) : Prop :=
    length p = n /\ length g = n /\
    forall i, (i < n)%nat ->
      (nb i g, nb i p) = grp (S i - Nat.min (S i) d) (Nat.min (S i) d).

  Lemma stage_inv d n p g :
    (1 <= d)%nat -> ksinv d n p g ->
    ksinv (2 * d) n (fst (stageB d p g)) (snd (stageB d p g)).
  Proof.
    intros Hd (Lp & Lg & I). destruct (stageB_spec d p g) as (L1 & L2 & N); [lia|].
    split; [lia|]. split; [lia|]. intros i Hi.
    destruct (N i) as [N1 N2]; [lia|]. rewrite N1, N2.
    destruct (Nat.ltb_spec i d).
    - rewrite (I i Hi). f_equal; lia.
    - replace (Nat.min (S i) (2 * d)) with (Nat.min (S (i - d)) d + d)%nat by lia.
      rewrite grp_app.
      pose proof (I i Hi) as Ii. pose proof (I (i - d)%nat ltac:(lia)) as Ij.
      replace (Nat.min (S i) d) with d in Ii by lia.
      replace (S i - (Nat.min (S (i - d)) d + d) + Nat.min (S (i - d)) d)%nat
        with (S i - d)%nat by lia.
      replace (S i - (Nat.min (S (i - d)) d + d))%nat
        with (S (i - d) - Nat.min (S (i - d)) d)%nat by lia.
      rewrite <- Ii, <- Ij. reflexivity.
  Qed.

  Lemma stages_inv n : forall k d p g,
    (1 <= d)%nat -> ksinv d n p g ->
    ksinv (2 ^ k * d) n (fst (stagesB k d p g)) (snd (stagesB k d p g)).
  Proof.
    induction k as [|k IH]; intros d p g Hd I.
    - cbn [stagesB fst snd Nat.pow]. rewrite Nat.mul_1_l. exact I.
    - cbn [stagesB]. replace (2 ^ S k * d)%nat with (2 ^ k * (2 * d))%nat by (cbn [Nat.pow]; lia).
      apply IH; [lia|]. apply stage_inv; auto.
  Qed.

  Definition carry (i : nat) : bool := fst (grp 0 i).

  Lemma carry_0 : carry 0 = false. Proof. reflexivity. Qed.
  Lemma carry_S i : carry (S i) = xorb (gf i) (pf i && carry i).
  Proof. reflexivity. Qed.

  Lemma ksinv_init n p g :
    length p = n -> length g = n ->
    (forall i, (i < n)%nat -> nb i p = pf i /\ nb i g = gf i) ->
    ksinv 1 n p g.
  Proof.
    intros Lp Lg H. split; [auto|]. split; [auto|]. intros i Hi.
    replace (Nat.min (S i) 1) with 1%nat by lia. replace (S i - 1)%nat with i by lia.
    cbn [grp]. rewrite gpop_id_r, Nat.add_0_r. destruct (H i Hi) as [-> ->]. reflexivity.
  Qed.

  Lemma ksinv_full d n p g :
    (n <= d)%nat -> ksinv d n p g ->
    forall i, (i < n)%nat -> nb i g = carry (S i).
  Proof.
    intros Hn (_ & _ & I) i Hi. specialize (I i Hi).
    replace (Nat.min (S i) d) with (S i) in I by lia. rewrite Nat.sub_diag in I.
    unfold carry. rewrite <- I. reflexivity.
  Qed.
End Prefix.

Lemma ceil_log2_aux_bound : forall fuel p n,
  (1 <= p)%nat -> (n <= p + fuel)%nat -> (n <= 2 ^ ceil_log2_aux fuel p n * p)%nat.
Proof.
  induction fuel as [|f IH]; intros p n Hp Hn.
  - cbn. lia.
  - cbn [ceil_log2_aux]. destruct (Nat.leb_spec n p).
    + cbn. lia.
    + specialize (IH (2 * p)%nat n ltac:(lia) ltac:(lia)).
      cbn [Nat.pow]. lia.
Qed.

Lemma ceil_log2_bound n : (n <= 2 ^ ceil_log2 n)%nat.
Proof.
  pose proof (ceil_log2_aux_bound n 1 n ltac:(lia) ltac:(lia)) as H.
  unfold ceil_log2. lia.
Qed.

Fixpoint valf (f : nat -> bool) (k : nat) : N :=
  match k with
  | O => 0
  | S k' => valf f k' + 2 ^ N.of_nat k' * N.b2n (f k')
  end.

Lemma valf_ext f g k : (forall i, (i < k)%nat -> f i = g i) -> valf f k = valf g k.
Proof.
  induction k; intros H; [reflexivity|]. cbn [valf]. rewrite IHk, H by auto. reflexivity.
Qed.

Lemma valf_shift f k : valf f (S k) = N.b2n (f 0%nat) + 2 * valf (fun i => f (S i)) k.
Proof.
  induction k.
  - cbn [valf]. change (2 ^ N.of_nat 0) with 1. lia.
  - change (valf f (S (S k))) with (valf f (S k) + 2 ^ N.of_nat (S k) * N.b2n (f (S k))).
    rewrite IHk. cbn [valf]. rewrite pow2_S. lia.
Qed.

Lemma to_N_valf l : to_N l = valf (fun i => nb i l) (length l).
Proof.
  induction l as [|b l IH]; [reflexivity|].
  cbn [length]. rewrite valf_shift. cbn [to_N nth]. rewrite IH. reflexivity.
Qed.

Definition gen_of (xf yf : nat -> bool) (i : nat) : bool := xf i && yf i.
Definition prop_of (xf yf : nat -> bool) (i : nat) : bool := xorb (xf i) (yf i).
Definition sumbit (xf yf : nat -> bool) (i : nat) : bool :=
  xorb (prop_of xf yf i) (carry (gen_of xf yf) (prop_of xf yf) i).

(* the prefix carries are the ripple carries: c_0 = 0, c_(i+1) = maj (x_i, y_i, c_i) *)
Lemma carry_maj xf yf i :
  carry (gen_of xf yf) (prop_of xf yf) (S i) =
  (xf i && yf i) || (carry (gen_of xf yf) (prop_of xf yf) i && xorb (xf i) (yf i)).
Proof.
  rewrite carry_S. unfold gen_of, prop_of.
  destruct (xf i), (yf i), (carry _ _ i); reflexivity.
Qed.

Fixpoint carryc (c : bool) (gf pf : nat -> bool) (i : nat) : bool :=
  match i with
  | O => c
  | S k => xorb (gf k) (pf k && carryc c gf pf k)
  end.

Lemma carryc_false gf pf i : carryc false gf pf i = carry gf pf i.
Proof. induction i; [reflexivity|]. rewrite carry_S, <- IHi. reflexivity. Qed.

Definition sumbitc (c : bool) (xf yf : nat -> bool) (i : nat) : bool :=
  xorb (prop_of xf yf i) (carryc c (gen_of xf yf) (prop_of xf yf) i).

Lemma sumbitc_arith c xf yf k :
  N.b2n (sumbitc c xf yf k) + 2 * N.b2n (carryc c (gen_of xf yf) (prop_of xf yf) (S k))
  = N.b2n (xf k) + N.b2n (yf k) + N.b2n (carryc c (gen_of xf yf) (prop_of xf yf) k).
Proof.
  cbn [carryc]. unfold sumbitc.
  generalize (carryc c (gen_of xf yf) (prop_of xf yf) k) as ci. intros ci.
  unfold gen_of, prop_of. destruct (xf k), (yf k), ci; reflexivity.
Qed.

Lemma ripplec c xf yf k :
  valf (sumbitc c xf yf) k + 2 ^ N.of_nat k * N.b2n (carryc c (gen_of xf yf) (prop_of xf yf) k)
  = valf xf k + valf yf k + N.b2n c.
Proof.
  induction k.
  - destruct c; reflexivity.
  - cbn [valf]. rewrite pow2_S. pose proof (sumbitc_arith c xf yf k) as A.
    assert (E : 2 ^ N.of_nat k *
                (N.b2n (sumbitc c xf yf k)
                 + 2 * N.b2n (carryc c (gen_of xf yf) (prop_of xf yf) (S k)))
                = 2 ^ N.of_nat k *
                  (N.b2n (xf k) + N.b2n (yf k)
                   + N.b2n (carryc c (gen_of xf yf) (prop_of xf yf) k)))
      by (rewrite A; reflexivity).
    lia.
Qed.

Lemma ripple xf yf k :
  valf (sumbit xf yf) k + 2 ^ N.of_nat k * N.b2n (carry (gen_of xf yf) (prop_of xf yf) k)
  = valf xf k + valf yf k.
Proof.
  rewrite <- carryc_false, (valf_ext (sumbit xf yf) (sumbitc false xf yf)), ripplec.
  - apply N.add_0_r.
  - intros i _. unfold sumbit, sumbitc. rewrite carryc_false. reflexivity.
Qed.

(* The common end of the adder and the subtractor: once g holds the carries
   out of every position for carry-in c, writing (x_i xor y_i) xor (carry into
   position i) into the destination yields x + y + c. *)
Lemma ks_sum c x y g z :
  let n := length x in
  let xf := fun i => nb i x in
  let yf := fun i => nb i y in
  length y = n -> length g = n -> (n <= length z)%nat ->
  (forall i, (i < n)%nat -> nb i g = carryc c (gen_of xf yf) (prop_of xf yf) (S i)) ->
  to_N (firstn n (writeB (zipb xorb x y) (c :: g) z))
  = (to_N x + to_N y + N.b2n c) mod 2 ^ N.of_nat n.
Proof.
  intros n xf yf Ly Lg Lz Hg.
  assert (Lp : length (zipb xorb x y) = n) by (rewrite zipb_length; lia).
  rewrite writeB_firstn by (cbn [length]; lia).
  set (zb := zipb xorb (zipb xorb x y) (c :: g)).
  assert (Lzb : length zb = n) by (unfold zb; rewrite zipb_length; cbn [length]; lia).
  assert (Hz : forall i, (i < n)%nat -> nb i zb = sumbitc c xf yf i).
  { intros i Hi. unfold zb, sumbitc. rewrite !nth_zipb by (cbn [length]; lia).
    f_equal. destruct i as [|i]; [reflexivity|]. apply Hg. lia. }
  pose proof (ripplec c xf yf n) as R.
  rewrite (to_N_valf x), (to_N_valf y), Ly. fold n xf yf.
  pose proof (to_N_lt zb) as B. rewrite Lzb in B.
  rewrite (to_N_valf zb), Lzb in *.
  rewrite (valf_ext _ _ _ Hz) in *.
  apply N.mod_unique with (q := N.b2n (carryc c (gen_of xf yf) (prop_of xf yf) n)); [exact B|].
  lia.
Qed.

Theorem ks_pure x y z :
  let n := length x in
  let p := zipb xorb x y in
  let g := zipb andb x y in
  let r := stagesB (ceil_log2 n) 1 p g in
  length y = n -> (n <= length z)%nat ->
  to_N (firstn n (writeB p (false :: snd r) z)) = (to_N x + to_N y) mod 2 ^ N.of_nat n.
Proof.
  intros n p g r Ly Lz.
  set (xf := fun i => nb i x). set (yf := fun i => nb i y).
  assert (I : ksinv (gen_of xf yf) (prop_of xf yf) 1 n p g).
  { apply ksinv_init.
    - unfold p. rewrite zipb_length. lia.
    - unfold g. rewrite zipb_length. lia.
    - intros i Hi. unfold p, g. rewrite !nth_zipb by lia. split; reflexivity. }
  apply (stages_inv _ _ n (ceil_log2 n)) in I; [|lia]. fold r in I.
  replace (to_N x + to_N y) with (to_N x + to_N y + N.b2n false) by apply N.add_0_r.
  apply ks_sum.
  - exact Ly.
  - apply I.
  - exact Lz.
  - intros i Hi. rewrite carryc_false. eapply ksinv_full; [|exact I|exact Hi].
    pose proof (ceil_log2_bound n). lia.
Qed.

(* NewKoggeStoneAdder after padding / truncating both operands to n wires *)
Definition ks_core (n : nat) (x y z : list wire) : M (list wire) :=
  bind (ks_pre (firstn n x) (firstn n y)) (fun pg =>
  match pg with (p, g) =>
  bind (ks_stages (ceil_log2 n) 1 p g) (fun pg' =>
  match pg' with (_, g) =>
  bind (match x, y, z with
        | x0 :: x', y0 :: y', z0 :: z' =>
            bind (emit XOR x0 y0 z0) (fun _ => ks_post (firstn (n - 1) x') y' g z')
        | _, _, _ => ret tt
        end) (fun _ => zero_tail z n)
  end)
  end).

Lemma ks_adder_unfold x y z :
  ks_adder x y z =
  (let n := Nat.max (length x) (length y) in
   let n := if Nat.ltb n (length z) then S n else n in
   bind (pad x n) (fun x => bind (pad y n) (fun y =>
     let trunc := Nat.ltb (length z) (length x) in
     ks_core (if trunc then length z else n)
             (if trunc then firstn (length z) x else x)
             (if trunc then firstn (length z) y else y) z))).
Proof. reflexivity. Qed.

Lemma okm_ks_out t x0 y0 z0 xs ys g zs :
  okm t (bind (emit XOR x0 y0 z0) (fun _ => ks_post xs ys g zs))
      (fun _ e => map e (z0 :: zs) =
                  writeB (zipb xorb (map e (x0 :: xs)) (map e (y0 :: ys)))
                         (false :: map e g) (map e (z0 :: zs))).
Proof.
  mstep okm_emit. eapply okm_weaken; [apply okm_ks_post_z|].
  cbn. intros _ e H E. rewrite <- H, E, xorb_false_r. reflexivity.
Qed.

Lemma okp_ks_core t n x y z :
  length x = n -> length y = n -> (1 <= n)%nat -> (n <= length z)%nat ->
  okp t (ks_core n x y z) (fun z' => length z' = length z)
      (fun z' e => valN e z' = (valN e x + valN e y) mod 2 ^ N.of_nat n).
Proof.
  intros Lx Ly Hn Hz. unfold ks_core. rewrite !(firstn_all2 (n := n)) by lia.
  destruct x as [|x0 xs]; [cbn in *; lia|].
  destruct y as [|y0 ys]; [cbn in *; lia|].
  destruct z as [|z0 zs]; [cbn in *; lia|].
  rewrite (firstn_all2 (n := (n - 1)%nat)) by (cbn in *; lia).
  eapply okp_bind; [apply okp_of_okm, okm_ks_pre|]. intros [p g] _.
  eapply okp_bind; [apply okp_of_okm, okm_ks_stages|]. intros [p' g'] _.
  ostep okm_ks_out.
  eapply okp_weaken; [apply okp_zero_tail_val | auto |].
  cbv beta. intros z' e _ Hv Hout [_ Hs] [Hp Hg]. cbn [fst snd] in *.
  rewrite Hv. unfold valN. rewrite <- firstn_map, Hout, Hs, Hp, Hg.
  pose proof (ks_pure (map e (x0 :: xs)) (map e (y0 :: ys)) (map e (z0 :: zs))) as KP.
  cbv zeta in KP. rewrite !map_length, Lx in KP. apply KP; assumption.
Qed.

(* what NewKoggeStoneAdder and NewKoggeStoneSubtractor do around their cores:
   both operands are zero-padded to max (len x, len y) (+ 1 if z has room for
   the carry) and then cut to len z.  The core runs on
   n = min (max (len x, len y) + 1, len z) wires, on x mod 2^n and y mod 2^n. *)
Definition ks_frame (core : nat -> list wire -> list wire -> list wire -> M (list wire))
    (x y z : list wire) : M (list wire) :=
  let n := Nat.max (length x) (length y) in
  let n := if Nat.ltb n (length z) then S n else n in
  bind (pad x n) (fun x => bind (pad y n) (fun y =>
    let trunc := Nat.ltb (length z) (length x) in
    core (if trunc then length z else n)
         (if trunc then firstn (length z) x else x)
         (if trunc then firstn (length z) y else y) z)).

Lemma okp_ks_frame t core (F : nat -> N -> N -> N) :
  (forall n x y z,
     length x = n -> length y = n -> (1 <= n)%nat -> (n <= length z)%nat ->
     okp t (core n x y z) (fun z' => length z' = length z)
         (fun z' e => valN e z' = F n (valN e x) (valN e y))) ->
  forall x y z, (1 <= length z)%nat -> (1 <= Nat.max (length x) (length y))%nat ->
  okp t (ks_frame core x y z) (fun z' => length z' = length z)
      (fun z' e =>
         let n := Nat.min (S (Nat.max (length x) (length y))) (length z) in
         valN e z' = F n (valN e x mod 2 ^ N.of_nat n) (valN e y mod 2 ^ N.of_nat n)).
Proof.
  intros Hcore x y z Hz Hm. unfold ks_frame.
  set (m := Nat.max (length x) (length y)) in *. cbv zeta.
  set (n1 := if Nat.ltb m (length z) then S m else m).
  assert (Hn1 : (m < length z /\ n1 = S m)%nat \/ (length z <= m /\ n1 = m)%nat).
  { unfold n1. destruct (Nat.ltb_spec m (length z)); lia. }
  clearbody n1.
  eapply okp_bind; [apply okp_pad_val|]. intros x1 Lx. cbv beta in Lx |- *.
  eapply okp_bind; [apply okp_pad_val|]. intros y1 Ly. cbv beta in Ly |- *.
  destruct (Nat.ltb_spec (length z) (length x1)) as [ET|ET].
  - (* operands wider than the result: truncated *)
    replace (Nat.min (S m) (length z)) with (length z) by lia.
    eapply okp_weaken; [apply Hcore; rewrite ?firstn_length; lia | auto |].
    cbv beta. intros z' e _ V Vy Vx. rewrite V, !valN_firstn, Vx, Vy. reflexivity.
  - replace (Nat.min (S m) (length z)) with n1 by lia.
    eapply okp_weaken; [apply Hcore; lia | auto |].
    cbv beta. intros z' e _ V Vy Vx. rewrite V, Vx, Vy, !valN_small by lia. reflexivity.
Qed.

Lemma okp_ks_adder t x y z :
  (1 <= length z)%nat -> (1 <= Nat.max (length x) (length y))%nat ->
  okp t (ks_adder x y z) (fun z' => length z' = length z)
      (fun z' e => valN e z' = (valN e x + valN e y) mod 2 ^ N.of_nat (length z)).
Proof.
  intros Hz Hm. rewrite ks_adder_unfold.
  eapply okp_weaken; [| intros z' L; exact L |].
  { exact (okp_ks_frame t ks_core (fun n a b => (a + b) mod 2 ^ N.of_nat n)
                        (okp_ks_core t) x y z Hz Hm). }
  cbv beta zeta. intros z' e _ V. set (m := Nat.max (length x) (length y)) in *.
  rewrite V, <- N.add_mod by (apply N.pow_nonzero; discriminate).
  (* if z is wider than the operands there is room for the carry *)
  apply mod_pow_min. rewrite pow2_S.
  pose proof (valN_pow_le e x m ltac:(lia)). pose proof (valN_pow_le e y m ltac:(lia)). lia.
Qed.

Theorem okm_ks_adder : forall t x y z,
  (1 <= length z)%nat -> (1 <= Nat.max (length x) (length y))%nat ->
  okm t (ks_adder x y z)
      (fun z' e => length z' = length z /\
                   valN e z' = (valN e x + valN e y) mod 2 ^ N.of_nat (length z)).
Proof. intros t x y z Hz Hm. apply okm_of_okp, okp_ks_adder; assumption. Qed.

(* the subtractor's stage loop "for step := 1; step < n; step *= 2" *)
Fixpoint kstagesB (fuel step n : nat) (p g : list bool) : list bool * list bool :=
  match fuel with
  | O => (p, g)
  | S f =>
      if Nat.ltb step n
      then let r := stageB step p g in kstagesB f (2 * step) n (fst r) (snd r)
      else (p, g)
  end.

Lemma okp_kss_pre t : forall x y,
  okp t (kss_pre x y)
      (fun r => length (fst r) = Nat.min (length x) (length y) /\
                length (snd r) = Nat.min (length x) (length y))
      (fun r e => map e (fst r) = zipb xorb (map e x) (map negb (map e y)) /\
                  map e (snd r) = zipb andb (map e x) (map negb (map e y))).
Proof.
  induction x as [|xi x IH]; intros y.
  - cbn. apply okp_ret; auto.
  - destruct y as [|yi y]; [cbn; apply okp_ret; auto|].
    cbn [kss_pre]. ostep okm_fresh. ostep okm_cc_inv. ostep okm_fresh. ostep okm_emit.
    ostep okm_fresh. ostep okm_emit.
    eapply okp_bind; [apply IH|]. intros [ps gs] [L1 L2]. apply okp_ret.
    + cbn in *. lia.
    + cbn. intros e [H1 H2] E3 _ E2 _ E1 _. rewrite H1, H2, E3, E2, E1. auto.
Qed.

Lemma okm_kss_cells t : forall pi gi pj gj,
  okm t (kss_cells pi gi pj gj)
      (fun r e =>
         map e (fst r) = fst (cellsB (map e pi) (map e gi) (map e pj) (map e gj)) /\
         map e (snd r) = snd (cellsB (map e pi) (map e gi) (map e pj) (map e gj))).
Proof.
  induction pi as [|p pi IH]; intros gi pj gj.
  - cbn. apply okm_ret. auto.
  - destruct gi as [|g gi]; [cbn; apply okm_ret; auto|].
    destruct pj as [|pl pj]; [cbn; apply okm_ret; auto|].
    destruct gj as [|gl gj]; [cbn; apply okm_ret; auto|].
    cbn [kss_cells]. mstep okm_fresh. mstep okm_emit. mstep okm_fresh. mstep okm_emit.
    mstep okm_fresh. mstep okm_emit.
    eapply okm_bind; [apply IH|]. intros [ps gs]. apply okm_ret.
    cbn. intros e [H1 H2] E3 _ E2 _ E1 _. rewrite H1, H2, E3, E2, E1. auto.
Qed.

Lemma okm_kss_stages t : forall fuel step n p g,
  okm t (kss_stages fuel step n p g)
      (fun r e => map e (fst r) = fst (kstagesB fuel step n (map e p) (map e g)) /\
                  map e (snd r) = snd (kstagesB fuel step n (map e p) (map e g))).
Proof.
  induction fuel as [|f IH]; intros step n p g.
  - cbn. apply okm_ret. auto.
  - cbn [kss_stages kstagesB]. destruct (Nat.ltb step n).
    + eapply okm_bind; [apply okm_kss_cells|]. intros [ps gs].
      eapply okm_weaken; [apply IH|]. cbn [fst snd]. intros r e [H1 H2] [E1 E2].
      rewrite H1, H2. unfold stageB. cbn [fst snd].
      rewrite !map_app, E1, E2, <- !firstn_map, <- !skipn_map. auto.
    + apply okm_ret. auto.
Qed.

Lemma okm_kss_post t : forall p g z,
  okm t (kss_post p g z) (fun _ e => map e z = writeB (map e p) (map e g) (map e z)).
Proof.
  induction p as [|pi p IH]; intros g z.
  - cbn. apply okm_ret. auto.
  - destruct g as [|gi g]; [cbn; apply okm_ret; auto|].
    destruct z as [|zi z]; [cbn; apply okm_ret; auto|].
    cbn [kss_post]. mstep okm_emit.
    eapply okm_weaken; [apply IH|].
    cbn. intros _ e H E. rewrite <- H, E. auto.
Qed.

Lemma kstages_inv gf pf n : forall fuel d m p g,
  (1 <= d)%nat -> ksinv gf pf d n p g -> (m <= d + fuel)%nat ->
  exists d', (m <= d')%nat /\
    ksinv gf pf d' n (fst (kstagesB fuel d m p g)) (snd (kstagesB fuel d m p g)).
Proof.
  induction fuel as [|f IH]; intros d m p g Hd I Hm.
  - exists d. cbn. split; [lia|exact I].
  - cbn [kstagesB]. destruct (Nat.ltb_spec d m).
    + apply IH; [lia| |lia]. apply stage_inv; auto.
    + exists d. cbn. split; [lia|exact I].
Qed.

(* carry-in 1 folded into the generate signal of position 0 *)
Definition gen_cin (gf pf : nat -> bool) (i : nat) : bool :=
  match i with O => xorb (gf 0%nat) (pf 0%nat) | S _ => gf i end.

Lemma carry_cin gf pf i : carry (gen_cin gf pf) pf (S i) = carryc true gf pf (S i).
Proof.
  induction i.
  - rewrite carry_S, carry_0. cbn. destruct (gf 0%nat), (pf 0%nat); reflexivity.
  - rewrite carry_S, IHi. reflexivity.
Qed.

Theorem kss_pure x w z :
  let n := length x in
  let p := zipb xorb x w in
  let g := zipb andb x w in
  let g1 := xorb (nb 0 g) (nb 0 p) :: tl g in
  let r := kstagesB n 1 n p g1 in
  length w = n -> (1 <= n)%nat -> (n <= length z)%nat ->
  to_N (firstn n (writeB p (true :: snd r) z)) = (to_N x + to_N w + 1) mod 2 ^ N.of_nat n.
Proof.
  intros n p g g1 r Lw Hn Lz.
  set (xf := fun i => nb i x). set (wf := fun i => nb i w).
  assert (Lp : length p = n) by (unfold p; rewrite zipb_length; lia).
  assert (Lg : length g = n) by (unfold g; rewrite zipb_length; lia).
  assert (N0 : forall i, (i < n)%nat -> nb i p = prop_of xf wf i /\ nb i g = gen_of xf wf i).
  { intros i Hi. unfold p, g. rewrite !nth_zipb by lia. split; reflexivity. }
  assert (I : ksinv (gen_cin (gen_of xf wf) (prop_of xf wf)) (prop_of xf wf) 1 n p g1).
  { apply ksinv_init.
    - exact Lp.
    - unfold g1. destruct g; cbn [length tl] in *; lia.
    - intros i Hi. destruct (N0 i Hi) as [Ep Eg]. split; [exact Ep|].
      unfold g1. destruct i as [|i].
      + cbn [nth gen_cin]. rewrite Ep, Eg. reflexivity.
      + cbn [gen_cin]. rewrite <- Eg. destruct g; [cbn in Lg; lia|]. reflexivity. }
  destruct (kstages_inv _ _ n n 1 n _ _ (le_n 1) I ltac:(lia)) as (d' & Hd' & I1).
  fold r in I1.
  change 1 with (N.b2n true). apply ks_sum.
  - exact Lw.
  - apply I1.
  - exact Lz.
  - intros i Hi. rewrite <- carry_cin. eapply ksinv_full; [exact Hd'|exact I1|exact Hi].
Qed.

Lemma to_N_negb l : to_N (map negb l) + to_N l + 1 = 2 ^ N.of_nat (length l).
Proof.
  induction l as [|b l IH]; [reflexivity|].
  cbn [map to_N length]. rewrite pow2_S. destruct b; cbn [negb N.b2n]; lia.
Qed.

(* NewKoggeStoneSubtractor after padding / truncating both operands to n wires *)
Definition kss_core (n : nat) (x y z : list wire) : M (list wire) :=
  bind (kss_pre (firstn n x) (firstn n y)) (fun pg =>
  match pg with (pinit, g) =>
  bind fresh (fun w =>
  bind (emit XOR (nth 0%nat g 0) (nth 0%nat pinit 0) w) (fun _ =>
  bind (kss_stages n 1 n pinit (w :: tl g)) (fun pg' =>
  match pg' with (_, g) =>
  bind (match pinit, z with
        | p0 :: p', z0 :: z' => bind (cc_inv p0 z0) (fun _ => kss_post p' g z')
        | _, _ => ret tt
        end) (fun _ => zero_tail z n)
  end)))
  end).

Lemma ks_subtractor_unfold x y z :
  ks_subtractor x y z =
  (let n := Nat.max (length x) (length y) in
   let n := if Nat.ltb n (length z) then S n else n in
   bind (pad x n) (fun x => bind (pad y n) (fun y =>
     let trunc := Nat.ltb (length z) (length x) in
     kss_core (if trunc then length z else n)
              (if trunc then firstn (length z) x else x)
              (if trunc then firstn (length z) y else y) z))).
Proof. reflexivity. Qed.

Lemma okm_kss_out t p0 z0 ps g zs :
  okm t (bind (cc_inv p0 z0) (fun _ => kss_post ps g zs))
      (fun _ e => map e (z0 :: zs) =
                  writeB (map e (p0 :: ps)) (true :: map e g) (map e (z0 :: zs))).
Proof.
  mstep okm_cc_inv. eapply okm_weaken; [apply okm_kss_post|].
  cbn. intros _ e H E. rewrite <- H, E, xorb_true_r. reflexivity.
Qed.

Lemma okp_kss_core t n x y z :
  length x = n -> length y = n -> (1 <= n)%nat -> (n <= length z)%nat ->
  okp t (kss_core n x y z) (fun z' => length z' = length z)
      (fun z' e => valN e z' = (valN e x + (2 ^ N.of_nat n - 1 - valN e y) + 1)
                               mod 2 ^ N.of_nat n).
Proof.
  intros Lx Ly Hn Hz. unfold kss_core. rewrite !(firstn_all2 (n := n)) by lia.
  destruct z as [|z0 zs]; [cbn in *; lia|].
  eapply okp_bind; [apply okp_kss_pre|]. intros [pinit g] [Lp Lg]. cbn [fst snd] in *.
  destruct pinit as [|p0 ps]; [cbn in *; lia|].
  destruct g as [|g0 gs]; [cbn in *; lia|].
  cbn [nth tl].
  eapply okp_bind; [apply okp_of_okm, okm_fresh|]. intros w _. ostep okm_emit.
  eapply okp_bind; [apply okp_of_okm, okm_kss_stages|]. intros [p' g'] _.
  ostep okm_kss_out.
  eapply okp_weaken; [apply okp_zero_tail_val | auto |].
  cbv beta. intros z' e _ Hv Hout [_ Hs] Ew _ [Hp Hg]. cbn [fst snd gsem] in *.
  pose proof (kss_pure (map e x) (map negb (map e y)) (map e (z0 :: zs))) as KP.
  cbv zeta in KP. rewrite !map_length, Lx, <- Hp, <- Hg in KP.
  cbn [map nth tl] in KP, Hout, Hs. rewrite <- Ew, <- Hs, <- Hout in KP.
  rewrite Hv. unfold valN. rewrite <- firstn_map. cbn [map]. rewrite KP by assumption.
  pose proof (to_N_negb (map e y)) as NB. rewrite map_length, Ly in NB.
  f_equal. lia.
Qed.

Lemma okp_ks_subtractor t x y z :
  (1 <= length z)%nat -> (1 <= Nat.max (length x) (length y))%nat ->
  okp t (ks_subtractor x y z) (fun z' => length z' = length z)
      (fun z' e =>
         let n := Nat.min (S (Nat.max (length x) (length y))) (length z) in
         valN e z' = (valN e x mod 2 ^ N.of_nat n
                      + (2 ^ N.of_nat n - 1 - valN e y mod 2 ^ N.of_nat n) + 1)
                     mod 2 ^ N.of_nat n).
Proof.
  intros Hz Hm. rewrite ks_subtractor_unfold.
  exact (okp_ks_frame t kss_core
           (fun n a b => (a + (2 ^ N.of_nat n - 1 - b) + 1) mod 2 ^ N.of_nat n)
           (okp_kss_core t) x y z Hz Hm).
Qed.

Theorem okm_ks_subtractor : forall t x y z,
  (1 <= length z)%nat -> (1 <= Nat.max (length x) (length y))%nat ->
  okm t (ks_subtractor x y z)
      (fun z' e => length z' = length z /\
         let n := Nat.min (S (Nat.max (length x) (length y))) (length z) in
         valN e z' = (valN e x mod 2 ^ N.of_nat n
                      + (2 ^ N.of_nat n - 1 - valN e y mod 2 ^ N.of_nat n) + 1)
                     mod 2 ^ N.of_nat n).
Proof. intros t x y z Hz Hm. apply okm_of_okp, okp_ks_subtractor; assumption. Qed.

Lemma sub_mod_char P x y : P <> 0 ->
  ((x mod P + (P - 1 - y mod P) + 1) mod P + y) mod P = x mod P.
Proof.
  intros H. rewrite N.add_mod_idemp_l by auto. rewrite <- N.add_mod_idemp_r by auto.
  pose proof (N.mod_lt y P H).
  replace (x mod P + (P - 1 - y mod P) + 1 + y mod P) with (x mod P + 1 * P) by lia.
  rewrite N.mod_add by auto. apply N.mod_mod; auto.
Qed.

Lemma sub_mod_noborrow P x y : P <> 0 -> y <= x ->
  (x mod P + (P - 1 - y mod P) + 1) mod P = (x - y) mod P.
Proof.
  intros H Hxy. pose proof (N.mod_lt y P H). pose proof (N.div_mod' y P) as D.
  rewrite <- N.add_assoc, N.add_mod_idemp_l by auto.
  replace (x + (P - 1 - y mod P + 1)) with ((x - y) + (y / P + 1) * P) by lia.
  apply N.mod_add; auto.
Qed.

Corollary okm_ks_subtractor_mod t x y z :
  (1 <= length z)%nat -> (1 <= Nat.max (length x) (length y))%nat ->
  okm t (ks_subtractor x y z)
      (fun z' e => length z' = length z /\
         let n := Nat.min (S (Nat.max (length x) (length y))) (length z) in
         valN e z' < 2 ^ N.of_nat n /\
         (valN e z' + valN e y) mod 2 ^ N.of_nat n = valN e x mod 2 ^ N.of_nat n).
Proof.
  intros Hz Hm. eapply okm_weaken; [apply okm_ks_subtractor; assumption|].
  cbv beta zeta. intros z' e [L V]. split; [exact L|].
  assert (NZ : 2 ^ N.of_nat (Nat.min (S (Nat.max (length x) (length y))) (length z)) <> 0)
    by (apply N.pow_nonzero; discriminate).
  rewrite V. split; [apply N.mod_lt; exact NZ|]. apply sub_mod_char; exact NZ.
Qed.

Corollary okm_ks_subtractor_noborrow t x y z :
  (1 <= length z)%nat -> (1 <= Nat.max (length x) (length y))%nat ->
  okm t (ks_subtractor x y z)
      (fun z' e => length z' = length z /\
         (valN e y <= valN e x ->
          valN e z' = (valN e x - valN e y) mod 2 ^ N.of_nat (length z))).
Proof.
  intros Hz Hm. eapply okm_weaken; [apply okm_ks_subtractor; assumption|].
  cbv beta zeta. intros z' e [L V]. split; [exact L|]. intros Hxy.
  assert (NZ : 2 ^ N.of_nat (Nat.min (S (Nat.max (length x) (length y))) (length z)) <> 0)
    by (apply N.pow_nonzero; discriminate).
  rewrite V, sub_mod_noborrow by assumption.
  apply mod_pow_min.
  pose proof (valN_pow_le e x (S (Nat.max (length x) (length y))) ltac:(lia)). lia.
Qed.

Lemma sub_mod_compl P x y : P <> 0 ->
  (x mod P + (P - 1 - y mod P) + 1) mod P = (x + P - y mod P) mod P.
Proof.
  intros NZ. pose proof (N.mod_lt y P NZ) as By.
  replace (x mod P + (P - 1 - y mod P) + 1) with (x mod P + (P - y mod P)) by lia.
  rewrite N.add_mod_idemp_l by exact NZ. f_equal. lia.
Qed.

(* the form in which the ripple-borrow subtractor is specified (SubProof.v) *)
Lemma okp_ks_subtractor_narrow t x y z :
  (1 <= length z)%nat -> (1 <= Nat.max (length x) (length y))%nat ->
  (length z <= Nat.max (length x) (length y) + 1)%nat ->
  okp t (ks_subtractor x y z) (fun z' => length z' = length z)
      (fun z' e =>
         valN e z' = (valN e x + 2 ^ N.of_nat (length z)
                      - valN e y mod 2 ^ N.of_nat (length z)) mod 2 ^ N.of_nat (length z)).
Proof.
  intros Hz Hm Hw. eapply okp_weaken; [apply okp_ks_subtractor; assumption | auto |].
  cbv beta zeta. intros z' e _ V.
  replace (Nat.min (S (Nat.max (length x) (length y))) (length z)) with (length z) in V by lia.
  rewrite V. apply sub_mod_compl, N.pow_nonzero. discriminate.
Qed.

Corollary okm_new_subtractor_gmw x y z :
  (1 <= length z)%nat -> (1 <= Nat.max (length x) (length y))%nat ->
  okm true (new_subtractor x y z)
      (fun z' e => length z' = length z /\
         let n := Nat.min (S (Nat.max (length x) (length y))) (length z) in
         valN e z' = (valN e x mod 2 ^ N.of_nat n
                      + (2 ^ N.of_nat n - 1 - valN e y mod 2 ^ N.of_nat n) + 1)
                     mod 2 ^ N.of_nat n).
Proof.
  intros Hz Hm. unfold new_subtractor. apply okm_dispatch.
  exact (okm_ks_subtractor true x y z Hz Hm).
Qed.

(* why XOR may replace OR in the adder's black cells *)
Lemma gen_prop_excl xf yf i : gen_of xf yf i && prop_of xf yf i = false.
Proof. unfold gen_of, prop_of. destruct (xf i), (yf i); reflexivity. Qed.

Lemma ksinv_excl gf pf d n p g :
  (forall i, gf i && pf i = false) -> ksinv gf pf d n p g ->
  forall i, (i < n)%nat -> nb i g && nb i p = false.
Proof.
  intros H (_ & _ & I) i Hi.
  pose proof (grp_excl gf pf (S i - Nat.min (S i) d) (Nat.min (S i) d) H) as E.
  rewrite <- (I i Hi) in E. exact E.
Qed.

Fixpoint grp_or (gf pf : nat -> bool) (lo len : nat) : bool * bool :=
  match len with
  | O => (false, true)
  | S k => gpop_or (gf (lo + k)%nat, pf (lo + k)%nat) (grp_or gf pf lo k)
  end.

Lemma grp_or_eq gf pf lo len :
  (forall i, gf i && pf i = false) -> grp_or gf pf lo len = grp gf pf lo len.
Proof.
  intros H. induction len; [reflexivity|]. cbn [grp_or grp]. rewrite IHlen.
  symmetry. apply gpop_or_eq. apply H.
Qed.