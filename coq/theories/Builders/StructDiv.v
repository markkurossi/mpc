(* C07: structural lemmas (single assignment, defined before use) for
   NewUDividerLong / NewUDivider / NewIDivider (Yao target), for every width,
   and the theorems about the EVALUATED divider circuits. *)
From Coq Require Import NArith List Arith Lia.
From Mpc Require Import Base.ListFacts Builders.Emit Builders.StructProof Builders.StructAdder
  Builders.StructArith Builders.Mux Builders.Div Builders.DivProof.
Import ListNotations.
Open Scope N_scope.

Lemma removelast_Forall {A} (P : A -> Prop) : forall l, Forall P l -> Forall P (removelast l).
Proof.
  induction l as [|a l IH]; intros F; cbn; auto. destruct l; [constructor|].
  inversion F; subst. constructor; auto.
Qed.

Lemma skipn_last1 {A} (l : list A) : (1 <= length l)%nat ->
  exists c, skipn (length l - 1) l = [c] /\ In c l.
Proof.
  intros H. assert (L : length (skipn (length l - 1) l) = 1%nat) by (rewrite skipn_length; lia).
  destruct (skipn (length l - 1) l) as [|c [|? ?]] eqn:E; try discriminate.
  exists c. split; auto. apply (In_skipn (length l - 1)). rewrite E. cbn. auto.
Qed.

Section D.
Variable ninp : N.
Notation defd := (defd ninp). Notation pend := (pend ninp). Notation wfst := (wfst ninp).
Notation step := (step ninp). Notation oks := (@oks ninp _).

(* q[i] = NOT borrow *)
Lemma qbit_s s c i q :
  wfst s -> defd s c -> Forall (pend s) (firstn 1 (skipn i q)) ->
  oks (if Nat.ltb i (length q)
       then bind zero_wire (fun z => bind one_wire (fun o =>
              new_mux [c] [z] [o] (firstn 1 (skipn i q))))
       else ret tt) s
      (fun _ s' => step s s' (firstn 1 (skipn i q)) /\ Forall (defd s') (firstn 1 (skipn i q))).
Proof.
  intros W Dc Pq. destruct (Nat.ltb i (length q)) eqn:E.
  - apply Nat.ltb_lt in E.
    assert (L : length (firstn 1 (skipn i q)) = 1%nat) by (rewrite firstn_length, skipn_length; lia).
    destruct (firstn 1 (skipn i q)) as [|qi [|? ?]]; try discriminate.
    sbind zero_s. intros z s1 W1 (S1 & Dz). cbv beta.
    sbind one_s. intros o s2 W2 (S2 & Do). cbv beta.
    assert (Pq2 : Forall (pend s2) [qi]).
    { eapply Forall_pend_step; [exact S2| |auto]. eapply Forall_pend_step; [exact S1|exact Pq|auto]. }
    eapply oks_conseq; [apply new_mux_s; auto|].
    + sdb.
    + constructor; [sdb|constructor].
    + constructor; [intros []|constructor].
    + cbv beta. intros _ s3 W3 (S3 & F3). split; auto.
      eapply step_weaken; [eapply step_trans; [exact S1|eapply step_trans; [exact S2|exact S3]]|].
      cbn. apply incl_refl.
  - apply Nat.ltb_ge in E. rewrite skipn_all2 by lia. cbn. apply oks_ret; auto.
    split; [apply step_refl|constructor].
Qed.

(* the destination of the remainder MUX: fresh wires, or (last iteration) rret *)
Lemma nr_s s i rret n :
  wfst s -> Forall (pend s) rret -> NoDup rret ->
  oks (if Nat.eqb i 0
       then bind (fresh_n (n - Nat.min (length rret) n))
                 (fun fr => ret (firstn (Nat.min (length rret) n) rret ++ fr))
       else fresh_n n) s
      (fun nr s' => step s s' [] /\ Forall (pend s') nr /\ NoDup nr /\ length nr = n /\
         (forall w, In w nr -> next s <= w \/ (i = 0%nat /\ In w rret)) /\
         (i = 0%nat -> firstn (Nat.min (length rret) n) nr = firstn (Nat.min (length rret) n) rret)).
Proof.
  intros W Pr ND. destruct (Nat.eqb i 0) eqn:E.
  - apply Nat.eqb_eq in E. set (k := Nat.min (length rret) n).
    sbind fresh_n_s. intros fr s1 W1 (S1 & NDf & Lf & Pf). cbv beta.
    apply oks_ret; auto. split; [exact S1|].
    assert (Lk : length (firstn k rret) = k) by (rewrite firstn_length; unfold k; lia).
    split; [|split; [|split; [|split]]].
    + apply Forall_app. split.
      * eapply Forall_pend_step; [exact S1|apply Forall_firstn; exact Pr|auto].
      * apply Forall_forall. intros w Hw. apply Pf; auto.
    + apply NoDup_app_iff. split; [apply NoDup_firstn; auto|]. split; [auto|].
      intros w H1 H2. apply In_firstn in H1. rewrite Forall_forall in Pr.
      pose proof (pend_next _ _ _ (Pr _ H1)). destruct (Pf _ H2). lia.
    + rewrite app_length, Lk, Lf. unfold k. lia.
    + intros w Hw. apply in_app_iff in Hw. destruct Hw as [H|H].
      * right. split; auto. eapply In_firstn; eauto.
      * left. apply Pf; auto.
    + intros _. rewrite firstn_app, firstn_firstn, Nat.min_id, Lk, Nat.sub_diag. cbn.
      apply app_nil_r.
  - apply Nat.eqb_neq in E.
    eapply oks_conseq; [apply fresh_n_s; auto|]. cbv beta.
    intros nr s1 W1 (S1 & NDf & Lf & Pf). split; auto. split; [|split; [auto|split; [auto|split]]].
    + apply Forall_forall. intros w Hw. apply Pf; auto.
    + intros w Hw. left. apply Pf; auto.
    + intros; contradiction.
Qed.

Lemma udiv_long_loop_s : forall ra b q rret r s,
  wfst s ->
  Forall (defd s) ra -> Forall (defd s) b -> Forall (defd s) r -> (1 <= length r)%nat ->
  Forall (pend s) (firstn (length ra) q ++ rret) -> NoDup (firstn (length ra) q ++ rret) ->
  oks (udiv_long_loop ra (length ra - 1) b q rret r) s
      (fun _ s' => step s s' (firstn (length ra) q ++ rret) /\
                   (ra <> [] -> Forall (defd s') (firstn (length ra) q) /\
                                Forall (defd s') (firstn (Nat.min (length rret) (length r)) rret))).
Proof.
  induction ra as [|ai ra IH]; intros b q rret r s W Fa Fb Fr Lr Po ND.
  - cbn. apply oks_ret; auto.
    split; [apply step_nil_any, step_refl|congruence].
  - cbn [udiv_long_loop]. cbv zeta.
    remember (ai :: removelast r) as r1 eqn:Er1.
    cbn [length] in Po, ND |- *.
    replace (S (length ra) - 1)%nat with (length ra) by lia.
    remember (length ra) as i eqn:Ei in Po, ND |- *.
    assert (Lr1 : length r1 = length r) by (subst r1; cbn; rewrite removelast_len; lia).
    apply Forall_cons_iff in Fa as (Dai & Fa').
    assert (Fr1 : Forall (defd s) r1) by (subst r1; constructor; [auto|apply removelast_Forall; auto]).
    clear Er1.
    rewrite (firstn_S_split i q) in Po, ND |- *.
    set (Qi := firstn 1 (skipn i q)) in *. set (Q := firstn i q) in *.
    destruct (dest_split _ _ _ _ Po ND) as (PQ & PQi & Prr & NDrr & ND' & Dj).
    sbind fresh_n_s. intros diff0 s1 W1 (S1 & ND0 & L0 & P0). cbv beta.
    eapply oks_bind; [apply new_subtractor_s; auto|].
    + eapply Forall_defd_step; eauto.
    + eapply Forall_defd_step; eauto.
    + apply Forall_forall. intros w Hw. apply P0; auto.
    + lia.
    + lia.
    + intros diff s2 W2 (S2 & Fd & Ld). cbv beta.
      destruct (skipn_last1 diff) as (c & Ec & Ic); [lia|]. rewrite Ec.
      assert (Dc : defd s2 c) by (rewrite Forall_forall in Fd; auto).
      assert (S02 : step s s2 []).
      { eapply step_weaken_fresh; [eapply step_trans; [exact S1|exact S2]|].
        cbn [app]. intros w Hw. right. apply P0; auto. }
      eapply oks_bind; [apply (qbit_s s2 c i q); auto|].
      { eapply Forall_pend_step; [exact S02|exact PQi|auto]. }
      intros _ s3 W3 (S3 & FQ). cbv beta. fold Qi in S3, FQ.
      pose proof (step_trans _ _ _ _ _ _ S02 S3) as S03. cbn [app] in S03.
      eapply oks_bind; [apply (nr_s s3 i rret (length r1)); auto|].
      { eapply Forall_pend_step; [exact S03|exact Prr|].
        intros w H H'. apply (Dj w H'). apply in_or_app; auto. }
      intros nr s4 W4 (S4 & Pn & NDn & Ln & Hn & Hk). cbv beta.
      pose proof (step_trans _ _ _ _ _ _ S03 S4) as S04. rewrite app_nil_r in S04.
      eapply oks_bind; [apply new_mux_s; auto|].
      { eapply step_defd; [exact S4|]. eapply step_defd; [exact S3|exact Dc]. }
      { eapply Forall_defd_step; [exact S04|auto]. }
      { apply Forall_firstn. eapply Forall_defd_step; [exact S4|].
        eapply Forall_defd_step; [exact S3|auto]. }
      { rewrite firstn_length. lia. }
      intros _ s5 W5 (S5 & Fn). cbv beta.
      pose proof (step_trans _ _ _ _ _ _ S04 S5) as S05.
      assert (FQ5 : Forall (defd s5) Qi).
      { eapply Forall_defd_step; [exact S5|]. eapply Forall_defd_step; [exact S4|auto]. }
      pose proof (step_next _ _ _ _ S03) as N03.
      destruct ra as [|a2 ra'].
      * (* last iteration: i = 0 *)
        cbn in Ei. cbn [udiv_long_loop]. apply oks_ret; auto. split.
        -- eapply step_weaken_fresh; [exact S05|]. intros w Hw.
           apply in_app_or in Hw. destruct Hw as [Hw|Hw].
           ++ left. apply in_or_app. left. apply in_or_app. auto.
           ++ destruct (Hn _ Hw) as [H|(_ & H)]; [right; lia|left; apply in_or_app; auto].
        -- intros _. split; [apply Forall_app; split; [unfold Q; rewrite Ei; constructor|exact FQ5]|].
           rewrite <- Lr1, <- (Hk Ei). apply Forall_firstn. exact Fn.
      * assert (Hi : i <> 0%nat) by (subst i; discriminate).
        assert (S05' : step s s5 Qi).
        { eapply step_weaken_fresh; [exact S05|]. intros w Hw.
          apply in_app_or in Hw. destruct Hw as [Hw|Hw]; [auto|].
          destruct (Hn _ Hw) as [H|(H & _)]; [right; lia|contradiction]. }
        subst i.
        eapply oks_conseq; [apply (IH b q rret nr s5); auto|].
        -- eapply Forall_defd_step; [exact S05'|auto].
        -- eapply Forall_defd_step; [exact S05'|auto].
        -- lia.
        -- eapply Forall_pend_step; [exact S05'|apply Forall_app; split; [exact PQ|exact Prr]|].
           intros w H H'. apply (Dj w H' H).
        -- cbv beta. intros _ s6 W6 (S6 & F6). fold Q in S6, F6.
           destruct F6 as (F6q & F6r); [discriminate|]. split.
           ++ eapply step_weaken; [eapply step_trans; [exact S05'|exact S6]|].
              apply incl_dest.
           ++ intros _. split.
              ** apply Forall_app. split; [exact F6q|]. eapply Forall_defd_step; [exact S6|exact FQ5].
              ** rewrite Ln, Lr1 in F6r. exact F6r.
Qed.

Lemma udivider_long_s s a b q rret :
  wfst s -> Forall (defd s) a -> Forall (defd s) b ->
  Forall (pend s) (q ++ rret) -> NoDup (q ++ rret) ->
  (1 <= Nat.max (length a) (length b))%nat ->
  oks (udivider_long a b q rret) s
      (fun _ s' => step s s' (q ++ rret) /\
                   Forall (defd s') (firstn (Nat.max (length a) (length b)) q) /\
                   Forall (defd s') (firstn (Nat.max (length a) (length b)) rret)).
Proof.
  intros W Fa Fb Po ND Hm. unfold udivider_long.
  sbind zero_pad_s. intros [a' b'] s1 W1 (S1 & Fa' & Fb' & La & Lb). cbn [fst snd] in *.
  cbv beta iota.
  set (n := Nat.max (length a) (length b)) in *.
  replace (Nat.eqb (length a') 0) with false by (symmetry; apply Nat.eqb_neq; lia).
  eapply oks_bind with (P := fun r s2 => step s1 s2 [] /\ exists z, defd s2 z /\ r = repeat z (length a')).
  { sbind zero_s. intros z s2 W2 (S2 & Dz). cbv beta.
    apply oks_ret; [exact W2|]. split; [exact S2|]. exists z. auto. }
  cbv beta. intros r s2 W2 (S2 & z & Dz & Er).
  pose proof (step_trans _ _ _ _ _ _ S1 S2) as S02. cbn [app] in S02.
  replace (length a' - 1)%nat with (length (rev a') - 1)%nat by (rewrite rev_length; reflexivity).
  apply Forall_app in Po as (Pq & Pr). apply NoDup_app_iff in ND as (NDq & NDr & Dj).
  eapply oks_conseq; [apply udiv_long_loop_s; auto|].
  - apply Forall_forall. intros w Hw. apply in_rev in Hw. rewrite Forall_forall in Fa'.
    eapply step_defd; [exact S2|auto].
  - eapply Forall_defd_step; [exact S2|auto].
  - rewrite Er. apply Forall_repeat; auto.
  - rewrite Er, repeat_length. lia.
  - eapply Forall_pend_step; [exact S02| |auto].
    apply Forall_app. split; [apply Forall_firstn; auto|auto].
  - apply NoDup_app_iff. split; [apply NoDup_firstn; auto|]. split; [auto|].
    intros w Hw. apply Dj. eapply In_firstn; eauto.
  - cbv beta. rewrite rev_length, La. intros _ s3 W3 (S3 & F3). split.
    + eapply step_weaken; [eapply step_trans; [exact S02|exact S3]|]. cbn [app].
      intros w Hw. apply in_app_or in Hw. apply in_or_app.
      destruct Hw as [Hw|Hw]; [left; eapply In_firstn; eauto|auto].
    + destruct F3 as (F3q & F3r).
      { intros E. apply (f_equal (@length wire)) in E. rewrite rev_length in E. cbn in E. lia. }
      split; [exact F3q|]. rewrite Er, repeat_length, La, firstn_min_len in F3r. exact F3r.
Qed.

Lemma new_udivider_yao_s s a b q rret :
  gmw s = false -> wfst s -> Forall (defd s) a -> Forall (defd s) b ->
  Forall (pend s) (q ++ rret) -> NoDup (q ++ rret) ->
  (1 <= Nat.max (length a) (length b))%nat ->
  oks (new_udivider a b q rret) s
      (fun _ s' => step s s' (q ++ rret) /\
                   Forall (defd s') (firstn (Nat.max (length a) (length b)) q) /\
                   Forall (defd s') (firstn (Nat.max (length a) (length b)) rret)).
Proof.
  intros G W Fa Fb Po ND Hm.
  apply oks_target; [congruence|intros _]. apply udivider_long_s; auto.
Qed.

Corollary new_udivider_yao_eq_s s a b q rret :
  gmw s = false -> wfst s -> Forall (defd s) a -> Forall (defd s) b ->
  Forall (pend s) (q ++ rret) -> NoDup (q ++ rret) ->
  (1 <= length a)%nat -> length b = length a -> length q = length a -> length rret = length a ->
  oks (new_udivider a b q rret) s
      (fun _ s' => step s s' (q ++ rret) /\ Forall (defd s') q /\ Forall (defd s') rret).
Proof.
  intros G W Fa Fb Po ND Ha Lb Lq Lr.
  eapply oks_conseq; [apply new_udivider_yao_s; auto; lia|].
  cbv beta. intros _ s' W' (S & Fq & Fr). rewrite Lb, Nat.max_id in Fq, Fr.
  rewrite firstn_all2 in Fq, Fr by lia. auto.
Qed.

Lemma Forall_pend_of s (ws : list wire) (X : wire -> Prop) :
  (forall w, In w ws -> pend s w /\ X w) -> Forall (pend s) ws.
Proof. intros H. apply Forall_forall. intros w Hw. apply H; auto. Qed.

Local Notation vec_post := (fun (z x : list wire) s' => Forall (defd s') x /\ length x = length z).
Local Notation mux_post := (fun (z : list wire) (_ : unit) s' => Forall (defd s') z).
Local Notation bit_post := (fun (w : wire) (_ : unit) s' => Forall (defd s') [w]).

Lemma idiv_prefix_s s a b n :
  gmw s = false -> wfst s -> Forall (defd s) a -> Forall (defd s) b ->
  n = Nat.max (length a) (length b) -> (1 <= n)%nat ->
  oks (idiv_prefix a b) s
      (fun p s' => let '(a2, b2, neg4, z0) := p in
         step s s' [] /\ Forall (defd s') a2 /\ Forall (defd s') b2 /\ defd s' neg4 /\ defd s' z0 /\
         length a2 = n /\ length b2 = n).
Proof.
  intros _ W Fa Fb En Hn. unfold idiv_prefix.
  sbind zero_pad_s. intros [a' b'] s1 W1 (S1 & Fa' & Fb' & La' & Lb'). cbn [fst snd] in *.
  cbv beta iota zeta. rewrite <- En in La', Lb'.
  sbind zero_s. intros z0 s2 W2 (S2 & Dz0). cbv beta.
  destruct (skipn_last1 a') as (ca & -> & Ica); [lia|].
  destruct (skipn_last1 b') as (cb & -> & Icb); [lia|].
  assert (Dca : defd s1 ca) by (rewrite Forall_forall in Fa'; auto).
  assert (Dcb : defd s1 cb) by (rewrite Forall_forall in Fb'; auto).
  (* neg1 = INV(neg0) *)
  eapply fresh_wire_s with (R := fun w _ s' => defd s' w); [exact W2| |].
  { intros w sA WA SA PA. apply cc_inv_s; [auto|sdb|exact PA]. }
  intros neg1 _ s3 W3 S3 D1.
  (* a1 = 0 - a *)
  eapply fresh_dest_s with (R := vec_post); [exact W3| |].
  { intros z sA WA SA PA NA LA.
    apply new_subtractor_s; auto; [constructor; [sdb|constructor]|sfd|lia|cbn [length]; lia]. }
  intros z a1 s4 W4 S4 Lz (Fa1 & La1). cbv beta. rewrite Lz in La1. clear z Lz.
  (* neg2 = a[last] ? neg1 : neg0 *)
  eapply fresh_wire_s with (R := bit_post); [exact W4| |].
  { intros w sA WA SA PA. apply new_mux_s; auto; [sdb|constructor; [sdb|constructor]..|repeat constructor; intros []]. }
  intros neg2 _ s5 W5 S5 F2. apply Forall_cons_iff in F2 as (D2 & _).
  (* a2 = a[last] ? a1 : a *)
  eapply fresh_dest_s with (R := mux_post); [exact W5| |].
  { intros z sA WA SA PA NA LA. apply new_mux_s; auto; [sdb|sfd|sfd|lia]. }
  intros a2 _ s6 W6 S6 La2 Fa2. cbv beta.
  (* neg3 = INV(neg2) *)
  eapply fresh_wire_s with (R := fun w _ s' => defd s' w); [exact W6| |].
  { intros w sA WA SA PA. apply cc_inv_s; [auto|sdb|exact PA]. }
  intros neg3 _ s7 W7 S7 D3.
  (* b1 = 0 - b *)
  eapply fresh_dest_s with (R := vec_post); [exact W7| |].
  { intros z sA WA SA PA NA LA.
    apply new_subtractor_s; auto; [constructor; [sdb|constructor]|sfd|lia|cbn [length]; lia]. }
  intros z b1 s8 W8 S8 Lz (Fb1 & Lb1). cbv beta. rewrite Lz in Lb1. clear z Lz.
  (* neg4 = b[last] ? neg3 : neg2 *)
  eapply fresh_wire_s with (R := bit_post); [exact W8| |].
  { intros w sA WA SA PA. apply new_mux_s; auto; [sdb|constructor; [sdb|constructor]..|repeat constructor; intros []]. }
  intros neg4 _ s9 W9 S9 F4. apply Forall_cons_iff in F4 as (D4 & _).
  (* b2 = b[last] ? b1 : b *)
  eapply fresh_dest_s with (R := mux_post); [exact W9| |].
  { intros z sA WA SA PA NA LA. apply new_mux_s; auto; [sdb|sfd|sfd|lia]. }
  intros b2 _ s10 W10 S10 Lb2 Fb2. cbv beta.
  apply oks_ret; [exact W10|]. split; [snil|]. split; [sfd|]. split; [exact Fb2|].
  split; [sdb|]. split; [sdb|]. lia.
Qed.

Lemma new_idivider_yao_s s a b q r :
  gmw s = false -> wfst s -> Forall (defd s) a -> Forall (defd s) b ->
  Forall (pend s) (q ++ r) -> NoDup (q ++ r) ->
  (1 <= length a)%nat -> length b = length a -> length q = length a -> length r = length a ->
  oks (new_idivider a b q r) s
      (fun _ s' => step s s' (q ++ r) /\ Forall (defd s') q /\ Forall (defd s') r).
Proof.
  intros G W Fa Fb Po ND Ha Lb Lq Lr. eapply oks_ext; [apply idiv_split|].
  apply Forall_app in Po as (Pq & Pr). apply NoDup_app_iff in ND as (NDq & NDr & Dj).
  eapply oks_bind; [apply (idiv_prefix_s s a b _ G W Fa Fb eq_refl); lia|].
  intros [[[a2 b2] neg4] z0] s1 W1 (S1 & Fa2 & Fb2 & Dn & Dz & La2 & Lb2). cbv beta.
  rewrite Lb, Nat.max_id in La2, Lb2. unfold idiv_suffix.
  replace (Nat.eqb (length q) 0) with false by (symmetry; apply Nat.eqb_neq; lia).
  sbind fresh_n_s. intros q0 s2 W2 (S2 & ND2 & L2 & P2). cbv beta.
  pose proof (step_next _ _ _ _ S1) as N1.
  assert (Pr2 : Forall (pend s2) r) by (eapply Forall_pend_step0; [exact S2|eapply Forall_pend_step0; eauto]).
  eapply oks_bind; [apply (new_udivider_yao_eq_s s2 a2 b2 q0 r); auto; try lia|].
  { rewrite (step_gmw _ _ _ _ S2), (step_gmw _ _ _ _ S1). exact G. }
  { sfd. }
  { sfd. }
  { apply Forall_app. split; [eapply Forall_pend_of; eauto|exact Pr2]. }
  { apply NoDup_app_iff. split; [auto|split; [auto|]]. intros w I1 I2.
    apply P2 in I1. destruct I1 as (_ & I1). rewrite Forall_forall in Pr.
    pose proof (pend_next _ _ _ (Pr _ I2)). unfold wire in *. lia. }
  intros _ s3 W3 (S3 & Fq0 & Fr3). cbv beta.
  assert (S03 : step s s3 r).
  { eapply step_weaken_fresh; [exact (step_trans_nil_l _ _ _ _ _ S1 (step_trans_nil_l _ _ _ _ _ S2 S3))|].
    intros w Hw. apply in_app_or in Hw. destruct Hw as [Hw|Hw]; [right|left; exact Hw].
    apply P2 in Hw. destruct Hw. unfold wire in *. lia. }
  (* q1 = 0 - q0 *)
  eapply fresh_dest_s with (R := vec_post); [exact W3| |].
  { intros z sA WA SA PA NA LA.
    apply new_subtractor_s; auto; [constructor; [sdb|constructor]|sfd|lia|cbn [length]; lia]. }
  intros z q1 s4 W4 S4 Lz (Fq1 & Lq1). cbv beta. rewrite Lz in Lq1. clear z Lz.
  (* q = neg4 ? q1 : q0 *)
  eapply oks_conseq; [apply new_mux_s; auto|].
  { sdb. }
  { sfd. }
  { eapply Forall_pend_step0; [exact S4|]. eapply Forall_pend_step; [exact S03|exact Pq|].
    intros w I1 I2. apply (Dj w I1 I2). }
  { lia. }
  cbv beta. intros _ s5 W5 (S5 & Fq). split; [|split; [exact Fq|sfd]].
  eapply step_weaken; [exact (step_trans _ _ _ _ _ _ S03 (step_trans_nil_l _ _ _ _ _ S4 S5))|].
  intros w Hw. apply in_app_or in Hw. apply in_or_app. tauto.
Qed.

End D.

Theorem udivider_long_eval (n : nat) (e0 : env) :
  (1 <= n)%nat ->
  let a := wrange 0 n in
  let b := wrange (N.of_nat n) n in
  let ninp := 2 * N.of_nat n in
  let q := wrange ninp n in
  let r := wrange (3 * N.of_nat n) n in
  exists s', udivider_long a b q r (st0 (4 * N.of_nat n) false) = (tt, s') /\
    wfc_b ninp (gates s') = true /\ dbu ninp (gates s') /\
    (valN e0 b <> 0 ->
     valN (eval_rev (gates s') e0) q = valN e0 a / valN e0 b /\
     valN (eval_rev (gates s') e0) r = valN e0 a mod valN e0 b).
Proof.
  intros Hn. cbv zeta.
  replace (2 * N.of_nat n) with (N.of_nat n + N.of_nat n) by lia.
  replace (3 * N.of_nat n) with (N.of_nat n + N.of_nat n + N.of_nat n) by lia.
  replace (4 * N.of_nat n) with (N.of_nat n + N.of_nat n + N.of_nat n + N.of_nat n) by lia.
  set (ninp := N.of_nat n + N.of_nat n).
  edestruct (eval22 false n n n n udivider_long
               (fun _ e A B => B <> 0 -> valN e (wrange ninp n) = A / B /\
                                         valN e (wrange (ninp + N.of_nat n) n) = A mod B))
    with (e0 := e0) as ([] & s' & E & C & D & H & _);
    [| | |exists s'; split; [exact E|]; split; [exact C|]; split; [exact D|exact H]]; [unfold ninp; lia| |].
  - apply okm_udivider_long; rewrite ?wrange_length; lia.
  - intros s G W Fa Fb Pqr ND. apply udivider_long_s; rewrite ?wrange_length; auto; lia.
Qed.

Theorem new_udivider_yao_eval (n : nat) (e0 : env) :
  (1 <= n)%nat ->
  let a := wrange 0 n in
  let b := wrange (N.of_nat n) n in
  let ninp := 2 * N.of_nat n in
  let q := wrange ninp n in
  let r := wrange (3 * N.of_nat n) n in
  exists s', new_udivider a b q r (st0 (4 * N.of_nat n) false) = (tt, s') /\
    wfc_b ninp (gates s') = true /\ dbu ninp (gates s') /\
    (valN e0 b <> 0 ->
     valN (eval_rev (gates s') e0) q = valN e0 a / valN e0 b /\
     valN (eval_rev (gates s') e0) r = valN e0 a mod valN e0 b).
Proof.
  intros Hn. exact (udivider_long_eval n e0 Hn).
Qed.

Lemma last_In {A} (d : A) : forall l, l <> [] -> In (last l d) l.
Proof.
  induction l as [|x l IH]; intros H; [congruence|].
  destruct l as [|y l]; [cbn; auto|]. right. apply IH. discriminate.
Qed.

Theorem new_idivider_yao_eval (n : nat) (e0 : env) :
  (1 <= n)%nat ->
  let a := wrange 0 n in
  let b := wrange (N.of_nat n) n in
  let ninp := 2 * N.of_nat n in
  let q := wrange ninp n in
  let r := wrange (3 * N.of_nat n) n in
  exists s', new_idivider a b q r (st0 (4 * N.of_nat n) false) = (tt, s') /\
    wfc_b ninp (gates s') = true /\ dbu ninp (gates s') /\
    (valN e0 b <> 0 ->
     let e := eval_rev (gates s') e0 in
     let sa := e0 (last a 0) in
     let sb := e0 (last b 0) in
     let A := if sa then negN n (valN e0 a) else valN e0 a in
     let B := if sb then negN n (valN e0 b) else valN e0 b in
     valN e r = A mod B /\
     valN e q = if xorb sa sb then negN n (A / B) else A / B).
Proof.
  intros Hn. cbv zeta.
  replace (2 * N.of_nat n) with (N.of_nat n + N.of_nat n) by lia.
  replace (3 * N.of_nat n) with (N.of_nat n + N.of_nat n + N.of_nat n) by lia.
  replace (4 * N.of_nat n) with (N.of_nat n + N.of_nat n + N.of_nat n + N.of_nat n) by lia.
  set (ninp := N.of_nat n + N.of_nat n).
  set (a := wrange 0 n). set (b := wrange (N.of_nat n) n).
  assert (Hl : forall k, (k = 0 \/ k = N.of_nat n) -> last (wrange k n) 0 < ninp).
  { intros k Hk. assert (H1 : In (last (wrange k n) 0) (wrange k n)).
    { apply last_In. intros Z. apply (f_equal (@length wire)) in Z.
      rewrite wrange_length in Z. cbn in Z. lia. }
    apply wrange_In in H1. unfold ninp. lia. }
  edestruct (eval22 false n n n n new_idivider
               (fun _ e A B => B <> 0 ->
                  let sa := e (last a 0) in let sb := e (last b 0) in
                  let A := if sa then negN n A else A in
                  let B := if sb then negN n B else B in
                  valN e (wrange (ninp + N.of_nat n) n) = A mod B /\
                  valN e (wrange ninp n) = if xorb sa sb then negN n (A / B) else A / B))
    with (e0 := e0) as ([] & s' & E & C & D & H & I); [unfold ninp; lia| | |].
  - pose proof (okm_new_idivider a b (wrange ninp n) (wrange (ninp + N.of_nat n) n)) as Sem.
    unfold a, b in *. rewrite !wrange_length in Sem. apply Sem; auto.
  - intros s G W Fa Fb Pqr ND. apply new_idivider_yao_s; rewrite ?wrange_length; auto.
  - exists s'. split; [exact E|]. split; [exact C|]. split; [exact D|].
    cbv zeta in H. unfold a, b in H. rewrite (I _ (Hl 0 (or_introl eq_refl))), (I _ (Hl _ (or_intror eq_refl))) in H.
    exact H.
Qed.
