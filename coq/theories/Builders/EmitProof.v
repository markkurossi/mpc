(* Meaning of a circuit emitted by the monad of Emit.v.  A valuation [e : wire -> bool] is
   *consistent* with a gate list when every gate's output wire carries the
   gate function of its input wires ([sat]).  A builder specification
   [okm t m P] says: from every well-formed compiler state of target [t] the
   builder [m] returns [a] and a state whose gate list extends the old one
   (nothing already emitted is changed), and in EVERY valuation consistent with
   the new gate list the postcondition [P a e] holds.  Because gate lists only
   grow, facts established about earlier wires remain true ("never disturbs
   already-assigned wires" is built in).  [eval_rev_sat] links this to
   gate-by-gate evaluation: for a single-assignment gate list ([wfc_b]) the
   valuation computed by evaluating the gates in emission order is consistent,
   so the postcondition holds of the evaluated circuit. *)
From Coq Require Import NArith List Bool Arith Lia.
From Mpc Require Import Builders.Emit.
Import ListNotations.
Open Scope N_scope.

Lemma sat_cons e g gs : sat e (g :: gs) <-> holds e g /\ sat e gs.
Proof. unfold sat. split; intro H. inversion H; auto. destruct H; constructor; auto. Qed.

Lemma sat_app e a b : sat e (a ++ b) <-> sat e a /\ sat e b.
Proof. unfold sat. apply Forall_app. Qed.

Definition ext (s s' : st) : Prop :=
  (exists new, gates s' = new ++ gates s) /\ gmw s' = gmw s.

Lemma ext_refl s : ext s s.
Proof. split; auto. exists []. reflexivity. Qed.

Lemma ext_trans a b c : ext a b -> ext b c -> ext a c.
Proof.
  intros [[n1 H1] G1] [[n2 H2] G2]. split; [|congruence].
  exists (n2 ++ n1). rewrite H2, H1. apply app_assoc.
Qed.

Lemma sat_ext e s s' : ext s s' -> sat e (gates s') -> sat e (gates s).
Proof. intros [[n H] _] S. rewrite H in S. apply sat_app in S. tauto. Qed.

Definition wfs (s : st) : Prop :=
  forall e, sat e (gates s) ->
    (forall w, zero s = Some w -> e w = false) /\
    (forall w, one s = Some w -> e w = true) /\
    (forall w, inv0 s = Some w -> e w = negb (e 0)).

Lemma wfs_st0 n t : wfs (st0 n t).
Proof. intros e _. cbn. repeat split; intros; discriminate. Qed.

Definition okm (t : bool) {A} (m : M A) (P : A -> env -> Prop) : Prop :=
  forall s, wfs s -> gmw s = t ->
    exists a s', m s = (a, s') /\ wfs s' /\ ext s s' /\
                 (forall e, sat e (gates s') -> P a e).

Ltac ok_here := split; [reflexivity | split; [solve [auto] | split; [apply ext_refl | ]]].

(* specifications with a pure part [R] about the result (lengths, shapes) that
   is available before any valuation is considered (control flow of the
   continuation may depend on it) *)
Definition okp (t : bool) {A} (m : M A) (R : A -> Prop) (P : A -> env -> Prop) : Prop :=
  forall s, wfs s -> gmw s = t ->
    exists a s', m s = (a, s') /\ wfs s' /\ ext s s' /\ R a /\
                 (forall e, sat e (gates s') -> P a e).

Lemma okp_ret t {A} (a : A) (R : A -> Prop) (P : A -> env -> Prop) :
  R a -> (forall e, P a e) -> okp t (ret a) R P.
Proof. intros HR H s W G. exists a, s. ok_here. auto. Qed.

Lemma okp_bind t {A B} (m : M A) (f : A -> M B) (R : A -> Prop) (P : A -> env -> Prop)
      (R' : B -> Prop) (Q : B -> env -> Prop) :
  okp t m R P ->
  (forall a, R a -> okp t (f a) R' (fun b e => P a e -> Q b e)) ->
  okp t (bind m f) R' Q.
Proof.
  intros Hm Hf s W G.
  destruct (Hm s W G) as (a & s1 & E1 & W1 & X1 & HR & P1).
  assert (G1 : gmw s1 = t) by (destruct X1; congruence).
  destruct (Hf a HR s1 W1 G1) as (b & s2 & E2 & W2 & X2 & HR2 & P2).
  exists b, s2. unfold bind. rewrite E1, E2.
  split; [reflexivity | split; [exact W2 | split; [eapply ext_trans; eauto | split; [exact HR2|] ]]].
  intros e S. apply P2; auto. apply P1. eapply sat_ext; eauto.
Qed.

Lemma okp_weaken t {A} (m : M A) (R R' : A -> Prop) (P Q : A -> env -> Prop) :
  okp t m R P -> (forall a, R a -> R' a) -> (forall a e, R a -> P a e -> Q a e) -> okp t m R' Q.
Proof.
  intros H I1 I2 s W G. destruct (H s W G) as (a & s' & E & W' & X & HR & HP).
  exists a, s'. split; [exact E | split; [exact W' | split; [exact X | split; [auto|] ]]].
  intros e S. auto.
Qed.

(* the dispatch on Params.Target, in a state of target t *)
Lemma okp_dispatch t {A} (m1 m2 : M A) (R : A -> Prop) (P : A -> env -> Prop) :
  okp t (if t then m1 else m2) R P -> okp t (b <- target_gmw;; if b then m1 else m2) R P.
Proof. intros H s W G. unfold bind, target_gmw. rewrite G. exact (H s W G). Qed.

Lemma okp_of_okm t {A} (m : M A) P : okm t m P -> okp t m (fun _ => True) P.
Proof.
  intros H s W G. destruct (H s W G) as (a & s' & E & W' & X & HP).
  exists a, s'. split; [exact E | split; [exact W' | split; [exact X | split; [exact I | exact HP]]]].
Qed.

Lemma okm_of_okp_weaken t {A} (m : M A) (R : A -> Prop) (P Q : A -> env -> Prop) :
  okp t m R P -> (forall a e, R a -> P a e -> Q a e) -> okm t m Q.
Proof.
  intros H I s W G. destruct (H s W G) as (a & s' & E & W' & X & HR & HP).
  exists a, s'. split; [exact E | split; [exact W' | split; [exact X | ]]]. intros e S. auto.
Qed.

Lemma okm_of_okp t {A} (m : M A) R P : okp t m R P -> okm t m (fun a e => R a /\ P a e).
Proof. intros H. apply (okm_of_okp_weaken _ _ _ _ _ H). auto. Qed.

Lemma okm_ret t {A} (a : A) (P : A -> env -> Prop) :
  (forall e, P a e) -> okm t (ret a) P.
Proof. intros H. apply (okm_of_okp_weaken _ _ _ _ _ (okp_ret t a _ P I H)). auto. Qed.

Lemma okm_ret_bind t {A B} (a : A) (f : A -> M B) (Q : B -> env -> Prop) :
  okm t (f a) Q -> okm t (bind (ret a) f) Q.
Proof. intros H. exact H. Qed.

Lemma okm_weaken t {A} (m : M A) (P Q : A -> env -> Prop) :
  okm t m P -> (forall a e, P a e -> Q a e) -> okm t m Q.
Proof. intros H I. apply (okm_of_okp_weaken _ _ _ _ _ (okp_of_okm _ _ _ H)). auto. Qed.

Lemma okm_bind_p t {A B} (m : M A) (f : A -> M B) (R : A -> Prop) (P : A -> env -> Prop)
      (Q : B -> env -> Prop) :
  okp t m R P ->
  (forall a, R a -> okm t (f a) (fun b e => P a e -> Q b e)) ->
  okm t (bind m f) Q.
Proof.
  intros Hm Hf.
  apply (okm_of_okp_weaken _ _ _ _ _ (okp_bind _ _ _ _ _ _ Q Hm (fun a r => okp_of_okm _ _ _ (Hf a r)))).
  auto.
Qed.

Lemma okm_bind t {A B} (m : M A) (f : A -> M B) (P : A -> env -> Prop) (Q : B -> env -> Prop) :
  okm t m P ->
  (forall a, okm t (f a) (fun b e => P a e -> Q b e)) ->
  okm t (bind m f) Q.
Proof. intros Hm Hf. apply (okm_bind_p _ _ _ _ _ _ (okp_of_okm _ _ _ Hm)). auto. Qed.

Lemma okm_dispatch t {A} (m1 m2 : M A) (P : A -> env -> Prop) :
  okm t (if t then m1 else m2) P -> okm t (b <- target_gmw;; if b then m1 else m2) P.
Proof.
  intros H. apply (okm_of_okp_weaken _ _ _ _ _ (okp_dispatch _ _ _ _ _ (okp_of_okm _ _ _ H))). auto.
Qed.

Lemma okm_ext t {A} (m m' : M A) (P : A -> env -> Prop) :
  (forall s, m s = m' s) -> okm t m' P -> okm t m P.
Proof. intros H K s W G. rewrite H. apply K; assumption. Qed.

Lemma okm_fresh t : okm t fresh (fun _ _ => True).
Proof.
  intros s W G. eexists _, _. split; [reflexivity|]. cbn.
  split; [exact W | split; [|auto]]. split; auto. exists []. reflexivity.
Qed.

Lemma okm_emit t op a b o :
  okm t (emit op a b o) (fun _ e => e o = gsem op (e a) (e b)).
Proof.
  intros s W G. eexists _, _. split; [reflexivity|]. cbn.
  split; [|split].
  - intros e S. apply sat_cons in S. destruct S as [_ S]. apply (W e S).
  - split; auto. exists [mkG op a b o]. reflexivity.
  - intros e S. apply sat_cons in S. destruct S as [H _]. exact H.
Qed.

Lemma okm_target t : okm t target_gmw (fun b _ => b = t).
Proof. intros s W G. exists (gmw s), s. ok_here. auto. Qed.

(* InvI0Wire asks nothing of the state but that the wire it has cached, if any,
   means what it should; so it can run while zero / one is being set up *)
Lemma inv_i0_wire_raw s : exists i s',
  inv_i0_wire s = (i, s') /\ zero s' = zero s /\ one s' = one s /\ gmw s' = gmw s /\
  inv0 s' = Some i /\ (exists new, gates s' = new ++ gates s) /\
  forall e, sat e (gates s') -> (forall w, inv0 s = Some w -> e w = negb (e 0)) -> e i = negb (e 0).
Proof.
  unfold inv_i0_wire. destruct (inv0 s) as [w|] eqn:E.
  - exists w, s. do 5 (split; [auto|]). split; [exists []; reflexivity | auto].
  - eexists _, _. split; [reflexivity|]. cbn. do 4 (split; [reflexivity|]).
    split; [eexists [_]; reflexivity|]. intros e S _. apply sat_cons in S. apply S.
Qed.

Lemma okm_inv0 t : okm t inv_i0_wire (fun w e => e w = negb (e 0)).
Proof.
  intros s W G. destruct (inv_i0_wire_raw s) as (i & s' & E & Z & O & G' & I & [new N] & H).
  assert (K : forall e, sat e (gates s') -> sat e (gates s))
    by (intros e S; rewrite N in S; apply sat_app in S; apply S).
  exists i, s'. split; [exact E|]. split; [|split; [split; [exists new; exact N | exact G']|]].
  - intros e S. destruct (W e (K e S)) as (Hz & Ho & Hi). rewrite Z, O, I.
    split; [exact Hz|]. split; [exact Ho|]. intros w [= <-]. exact (H e S Hi).
  - intros e S. apply (H e S), (W e (K e S)).
Qed.

Lemma and_inv_false b : b && negb b = false. Proof. destruct b; reflexivity. Qed.
Lemma xor_inv_true b : xorb b (negb b) = true. Proof. destruct b; reflexivity. Qed.

(* The tail of ZeroWire / OneWire.  The state s0 agrees with a well-formed s,
   except that its zero / one field already names w (last hypothesis: once
   e w = v, these fields of s0 mean what they should); the gate
   w = op (in0, INV in0)  then restores well-formedness. *)
Lemma const_gate op v w s s0 :
  wfs s -> gates s0 = gates s -> inv0 s0 = inv0 s -> gmw s0 = gmw s ->
  (forall b, gsem op b (negb b) = v) ->
  (forall e, e w = v ->
     (forall x, zero s = Some x -> e x = false) -> (forall x, one s = Some x -> e x = true) ->
     (forall x, zero s0 = Some x -> e x = false) /\ (forall x, one s0 = Some x -> e x = true)) ->
  exists s', (i <- inv_i0_wire;; emit op in0 i w;; ret w) s0 = (w, s') /\ wfs s' /\ ext s s' /\
             forall e, sat e (gates s') -> e w = v.
Proof.
  intros W Eg Ei Em Hop F.
  destruct (inv_i0_wire_raw s0) as (i & s1 & E & Z & O & G & I & [new N] & H).
  unfold bind. rewrite E. eexists. split; [reflexivity|]. cbn.
  assert (K : forall e, sat e (mkG op in0 i w :: gates s1) ->
              e w = v /\ sat e (gates s) /\ e i = negb (e 0)).
  { intros e S. apply sat_cons in S. destruct S as [Hg S].
    assert (S0 : sat e (gates s)) by (rewrite N, Eg in S; apply sat_app in S; apply S).
    assert (Hi : e i = negb (e 0)) by (apply (H e S); rewrite Ei; apply (W e S0)).
    split; [|auto]. rewrite <- (Hop (e 0)), <- Hi. exact Hg. }
  split; [|split].
  - intros e S. destruct (K e S) as (Hw & S0 & Hi). destruct (W e S0) as (Hz & Ho & _).
    cbn. rewrite Z, O, I. destruct (F e Hw Hz Ho) as [Fz Fo].
    split; [exact Fz|]. split; [exact Fo|]. intros x [= <-]. exact Hi.
  - split; [exists (mkG op in0 i w :: new); cbn; rewrite N, Eg; reflexivity | cbn; congruence].
  - intros e S. apply (K e S).
Qed.

Lemma okm_zero t : okm t zero_wire (fun w e => e w = false).
Proof.
  intros s W G. unfold zero_wire. destruct (zero s) as [w|] eqn:E.
  - exists w, s. ok_here. intros e S. apply (W e S); auto.
  - destruct (const_gate AND false (next s) s
                (mkSt (N.succ (next s)) (gates s) (Some (next s)) (one s) (inv0 s) (gmw s))
                W eq_refl eq_refl eq_refl and_inv_false) as (s' & E' & W' & X & H).
    { cbn. intros e Hw _ Ho. split; [intros x [= <-]; exact Hw | exact Ho]. }
    exists (next s), s'. auto.
Qed.

Lemma okm_one t : okm t one_wire (fun w e => e w = true).
Proof.
  intros s W G. unfold one_wire. destruct (one s) as [w|] eqn:E.
  - exists w, s. ok_here. intros e S. apply (W e S); auto.
  - destruct (const_gate XOR true (next s) s
                (mkSt (N.succ (next s)) (gates s) (zero s) (Some (next s)) (inv0 s) (gmw s))
                W eq_refl eq_refl eq_refl xor_inv_true) as (s' & E' & W' & X & H).
    { cbn. intros e Hw Hz _. split; [exact Hz | intros x [= <-]; exact Hw]. }
    exists (next s), s'. auto.
Qed.

Ltac mstep L := eapply okm_bind; [ apply L | intros ?; cbv beta ].
Ltac pstep L := eapply okm_bind_p; [ apply L | intros ? ?; cbv beta ].
Ltac mstepn L n := eapply okm_bind; [ apply L | intros n; cbv beta ].
Ltac ostep L := eapply okp_bind; [ apply okp_of_okm, L | intros ? _; cbv beta ].

Lemma okm_cc_inv t i o : okm t (cc_inv i o) (fun _ e => e o = negb (e i)).
Proof.
  unfold cc_inv. eapply okm_bind; [apply okm_one|]. intros w.
  eapply okm_weaken; [apply okm_emit|]. cbn. intros _ e H H1. rewrite H, H1.
  destruct (e i); reflexivity.
Qed.

Lemma okm_cc_id t i o : okm t (cc_id i o) (fun _ e => e o = e i).
Proof.
  unfold cc_id. eapply okm_bind; [apply okm_zero|]. intros w.
  eapply okm_weaken; [apply okm_emit|]. cbn. intros _ e H H1. rewrite H, H1.
  destruct (e i); reflexivity.
Qed.

Lemma okm_cc_or t a b o : okm t (cc_or a b o) (fun _ e => e o = e a || e b).
Proof.
  unfold cc_or.
  mstep okm_fresh. mstep okm_emit. mstep okm_fresh. mstep okm_emit.
  eapply okm_weaken; [apply okm_emit|]. cbn. intros _ e H3 H2 _ H1 _.
  rewrite H3, H2, H1. destruct (e a), (e b); reflexivity.
Qed.

Lemma okp_fresh_n t n : okp t (fresh_n n) (fun ws => length ws = n) (fun _ _ => True).
Proof.
  induction n; cbn [fresh_n].
  - apply okp_ret; auto.
  - eapply okp_bind; [apply okp_of_okm, okm_fresh|]. intros w _.
    eapply okp_bind; [apply IHn|]. intros ws Hl. cbv beta.
    apply okp_ret; auto. cbn. congruence.
Qed.

Lemma valN_nil e : valN e [] = 0. Proof. reflexivity. Qed.
Lemma valN_cons e w ws : valN e (w :: ws) = N.b2n (e w) + 2 * valN e ws.
Proof. reflexivity. Qed.

Lemma pow2_S k : 2 ^ N.of_nat (S k) = 2 * 2 ^ N.of_nat k.
Proof. rewrite Nat2N.inj_succ, N.pow_succ_r'. reflexivity. Qed.

Lemma pow2_pos k : 0 < 2 ^ N.of_nat k.
Proof. apply N.neq_0_lt_0, N.pow_nonzero. discriminate. Qed.

Lemma valN_app e a b : valN e (a ++ b) = valN e a + 2 ^ N.of_nat (length a) * valN e b.
Proof.
  induction a as [|w a IH]; cbn [app length].
  - rewrite valN_nil. cbn. destruct (valN e b); reflexivity.
  - rewrite !valN_cons, IH, pow2_S. ring.
Qed.

Lemma b2n_le1 b : N.b2n b <= 1. Proof. destruct b; cbn; lia. Qed.

Lemma to_N_lt bs : to_N bs < 2 ^ N.of_nat (length bs).
Proof.
  induction bs as [|b bs IH]; cbn [length to_N].
  - cbn. lia.
  - rewrite pow2_S. pose proof (b2n_le1 b). lia.
Qed.

Lemma valN_lt e ws : valN e ws < 2 ^ N.of_nat (length ws).
Proof. unfold valN. rewrite <- (map_length e ws). apply to_N_lt. Qed.

Lemma mod_pow_min v k l :
  v < 2 ^ N.of_nat k -> v mod 2 ^ N.of_nat (Nat.min k l) = v mod 2 ^ N.of_nat l.
Proof.
  intros B. destruct (Nat.le_gt_cases l k) as [C|C].
  - replace (Nat.min k l) with l by lia. reflexivity.
  - replace (Nat.min k l) with k by lia.
    assert (Bl : 2 ^ N.of_nat k <= 2 ^ N.of_nat l) by (apply N.pow_le_mono_r; lia).
    rewrite !N.mod_small by lia. reflexivity.
Qed.

Lemma valN_repeat0 e z k : e z = false -> valN e (repeat z k) = 0.
Proof.
  intros H. induction k; cbn [repeat]; [reflexivity|].
  rewrite valN_cons, IHk, H. reflexivity.
Qed.

Lemma mod2p b v p : b <= 1 -> 0 < p -> (b + 2 * v) mod (2 * p) = b + 2 * (v mod p).
Proof.
  intros Hb Hp. symmetry. apply N.mod_unique with (q := v / p).
  - pose proof (N.mod_lt v p). lia.
  - pose proof (N.div_mod' v p). lia.
Qed.

Lemma valN_firstn e k ws : valN e (firstn k ws) = valN e ws mod 2 ^ N.of_nat k.
Proof.
  revert ws. induction k; intros ws.
  - cbn. rewrite N.mod_1_r. reflexivity.
  - destruct ws as [|w ws]; cbn [firstn].
    + rewrite valN_nil, N.mod_0_l; [reflexivity|]. apply N.pow_nonzero. discriminate.
    + rewrite !valN_cons, IHk, pow2_S, mod2p; auto using b2n_le1, pow2_pos.
Qed.

Lemma valN_firstn_S e : forall n (z : list wire), (n < length z)%nat ->
  valN e (firstn (S n) z) = valN e (firstn n z) + 2 ^ N.of_nat n * N.b2n (e (nth n z 0)).
Proof.
  induction n; intros [|w z] H; try (cbn in H; lia).
  - cbn [firstn nth]. rewrite valN_cons, !valN_nil. change (2 ^ N.of_nat 0) with 1. lia.
  - rewrite !firstn_cons, !valN_cons, (IHn z), pow2_S by (cbn in H; lia). cbn [nth]. ring.
Qed.

Lemma valN_split_last e n (r : list wire) : length r = S n ->
  valN e r = valN e (firstn n r) + 2 ^ N.of_nat n * N.b2n (e (nth n r 0)).
Proof. intros H. rewrite <- (firstn_all r) at 1. rewrite H. apply valN_firstn_S. lia. Qed.

Lemma valN_pow_le e ws k : (length ws <= k)%nat -> valN e ws < 2 ^ N.of_nat k.
Proof.
  intros H. eapply N.lt_le_trans; [apply valN_lt|]. apply N.pow_le_mono_r; lia.
Qed.

Lemma valN_small e ws k : (length ws <= k)%nat -> valN e ws mod 2 ^ N.of_nat k = valN e ws.
Proof. intros H. apply N.mod_small, valN_pow_le, H. Qed.

Definition pad_shape (ws x : list wire) (n : nat) : Prop :=
  exists zw, ws = x ++ repeat zw (n - length x).
Definition pad_zero (e : env) (ws x : list wire) : Prop :=
  forall w, In w (skipn (length x) ws) -> e w = false.

Lemma pad_shape_len ws x n : pad_shape ws x n -> length ws = Nat.max n (length x).
Proof. intros (zw & ->). rewrite app_length, repeat_length. lia. Qed.

Lemma pad_shape_firstn ws x n : pad_shape ws x n -> firstn (length x) ws = x.
Proof. intros (zw & ->). rewrite firstn_app, Nat.sub_diag, firstn_all. cbn. apply app_nil_r. Qed.

Lemma valN_all_zero e ws : (forall w, In w ws -> e w = false) -> valN e ws = 0.
Proof.
  induction ws as [|w ws IH]; intros H; [reflexivity|].
  rewrite valN_cons, IH by (intros; apply H; cbn; auto).
  rewrite (H w) by (cbn; auto). reflexivity.
Qed.

Lemma pad_val e ws x n : pad_shape ws x n -> pad_zero e ws x -> valN e ws = valN e x.
Proof.
  intros (zw & ->) Z. unfold pad_zero in Z.
  rewrite skipn_app, Nat.sub_diag, skipn_all in Z. cbn in Z.
  rewrite valN_app, (valN_all_zero e (repeat zw _)) by auto. lia.
Qed.

Lemma okp_pad t x n : okp t (pad x n) (fun ws => pad_shape ws x n) (fun ws e => pad_zero e ws x).
Proof.
  unfold pad. destruct (Nat.leb n (length x)) eqn:E.
  - apply Nat.leb_le in E. apply okp_ret.
    + exists 0. replace (n - length x)%nat with 0%nat by lia. cbn. rewrite app_nil_r. reflexivity.
    + intros e w. rewrite skipn_all. intros [].
  - eapply okp_bind; [apply okp_of_okm, okm_zero|]. intros z _. cbv beta. apply okp_ret.
    + exists z. reflexivity.
    + intros e Hz w. rewrite skipn_app, Nat.sub_diag, skipn_all. cbn.
      intros Hin. apply repeat_spec in Hin. subst. exact Hz.
Qed.

Lemma okp_zero_pad t x y :
  okp t (zero_pad x y)
      (fun p => let mx := Nat.max (length x) (length y) in
                pad_shape (fst p) x mx /\ pad_shape (snd p) y mx)
      (fun p e => pad_zero e (fst p) x /\ pad_zero e (snd p) y).
Proof.
  unfold zero_pad. destruct (Nat.eqb (length x) (length y)) eqn:E.
  - apply Nat.eqb_eq in E. apply okp_ret.
    + cbn. split; exists 0.
      * replace (Nat.max (length x) (length y) - length x)%nat with 0%nat by lia.
        cbn. rewrite app_nil_r. reflexivity.
      * replace (Nat.max (length x) (length y) - length y)%nat with 0%nat by lia.
        cbn. rewrite app_nil_r. reflexivity.
    + intros e. cbn. split; intros w; rewrite skipn_all; intros [].
  - eapply okp_bind; [apply okp_of_okm, okm_zero|]. intros z _. cbv beta. apply okp_ret.
    + cbn. split; exists z; reflexivity.
    + intros e Hz. cbn. split; intros w; rewrite skipn_app, Nat.sub_diag, skipn_all; cbn;
        intros Hin; apply repeat_spec in Hin; subst; exact Hz.
Qed.

Lemma okp_zero_tail t z k :
  okp t (zero_tail z k)
      (fun z' => exists zw, z' = firstn k z ++ repeat zw (length z - k))
      (fun z' e => forall w, In w (skipn k z') -> (k <= length z)%nat -> e w = false).
Proof.
  unfold zero_tail. destruct (Nat.ltb k (length z)) eqn:E.
  - apply Nat.ltb_lt in E.
    eapply okp_bind; [apply okp_of_okm, okm_zero|]. intros zw _. cbv beta. apply okp_ret.
    + exists zw. reflexivity.
    + intros e Hz w Hin _. rewrite skipn_app in Hin.
      rewrite firstn_length_le in Hin by lia. rewrite Nat.sub_diag in Hin.
      rewrite skipn_all2 in Hin by (rewrite firstn_length; lia). cbn in Hin.
      apply repeat_spec in Hin. subst. exact Hz.
  - apply Nat.ltb_ge in E. apply okp_ret.
    + exists 0. replace (length z - k)%nat with 0%nat by lia. cbn. rewrite app_nil_r.
      rewrite firstn_all2 by lia. reflexivity.
    + intros e w Hin Hk. rewrite skipn_all2 in Hin by lia. destruct Hin.
Qed.

Lemma zero_tail_len (z' z : list wire) (k : nat) : (exists zw, z' = firstn k z ++ repeat zw (length z - k)) -> length z' = length z.
Proof. intros (zw & ->). rewrite app_length, firstn_length, repeat_length. lia. Qed.

Lemma okp_pad_val t x n :
  okp t (pad x n) (fun ws => length ws = Nat.max n (length x)) (fun ws e => valN e ws = valN e x).
Proof.
  eapply okp_weaken; [apply okp_pad | intros ws S; exact (pad_shape_len _ _ _ S) | ].
  intros ws e S Z. exact (pad_val e ws x n S Z).
Qed.

Lemma okp_zero_pad_val t x y :
  okp t (zero_pad x y)
      (fun p => length (fst p) = Nat.max (length x) (length y) /\
                length (snd p) = Nat.max (length x) (length y))
      (fun p e => valN e (fst p) = valN e x /\ valN e (snd p) = valN e y).
Proof.
  eapply okp_weaken; [apply okp_zero_pad | | ]; cbv zeta.
  - intros p [Sx Sy]. apply pad_shape_len in Sx, Sy. lia.
  - intros p e [Sx Sy] [Zx Zy]. split; eapply pad_val; eassumption.
Qed.

Lemma okp_zero_tail_val t z k :
  okp t (zero_tail z k) (fun z' => length z' = length z)
      (fun z' e => valN e z' = valN e (firstn k z)).
Proof.
  eapply okp_weaken; [apply okp_zero_tail | intros z' H; exact (zero_tail_len _ _ _ H) | ].
  intros z' e (zw & ->) Hz.
  destruct (le_lt_dec k (length z)) as [Hk|Hk].
  - rewrite valN_app, (valN_all_zero e (repeat zw _)); [lia|].
    intros w Hin. apply Hz; [|exact Hk].
    rewrite skipn_app, firstn_length_le, Nat.sub_diag, skipn_all2 by (rewrite ?firstn_length; lia).
    exact Hin.
  - replace (length z - k)%nat with 0%nat by lia. cbn [repeat]. rewrite app_nil_r. reflexivity.
Qed.

Lemma mentions_false_cons w g r :
  mentions w (g :: r) = false ->
  w <> g_a g /\ w <> g_b g /\ w <> g_o g /\ mentions w r = false.
Proof.
  cbn. intros H. apply orb_false_iff in H. destruct H as [H H4].
  apply orb_false_iff in H. destruct H as [H H3].
  apply orb_false_iff in H. destruct H as [H1 H2].
  apply N.eqb_neq in H1, H2, H3. auto.
Qed.

Lemma upd_other e w v x : x <> w -> upd e w v x = e x.
Proof. intros H. unfold upd. apply N.eqb_neq in H. rewrite H. reflexivity. Qed.
Lemma upd_same e w v : upd e w v w = v.
Proof. unfold upd. rewrite N.eqb_refl. reflexivity. Qed.

Lemma sat_upd_unmentioned e w v gs :
  mentions w gs = false -> sat e gs -> sat (upd e w v) gs.
Proof.
  induction gs as [|g r IH]; intros M S; [constructor|].
  apply mentions_false_cons in M. destruct M as (Ha & Hb & Ho & M).
  apply sat_cons in S. destruct S as [H S]. apply sat_cons. split; auto.
  unfold holds, gate_val in *. rewrite !upd_other by auto. exact H.
Qed.

Theorem eval_rev_sat ninp gs e0 : wfc_b ninp gs = true -> sat (eval_rev gs e0) gs.
Proof.
  induction gs as [|g r IH]; intros W; [constructor|].
  cbn in W. apply andb_true_iff in W. destruct W as [W W5].
  apply andb_true_iff in W. destruct W as [W W4].
  apply andb_true_iff in W. destruct W as [W W3].
  apply andb_true_iff in W. destruct W as [W1 W2].
  apply negb_true_iff in W2, W3, W4. apply N.eqb_neq in W2, W3.
  cbn [eval_rev]. apply sat_cons. split.
  - unfold holds, gate_val. rewrite upd_same, !upd_other by auto. reflexivity.
  - apply sat_upd_unmentioned; auto.
Qed.

Theorem eval_rev_inputs ninp gs e0 w : wfc_b ninp gs = true -> w < ninp -> eval_rev gs e0 w = e0 w.
Proof.
  induction gs as [|g r IH]; intros W Hw; [reflexivity|].
  cbn in W. apply andb_true_iff in W. destruct W as [W W5].
  apply andb_true_iff in W. destruct W as [W _].
  apply andb_true_iff in W. destruct W as [W _].
  apply andb_true_iff in W. destruct W as [W1 _].
  apply negb_true_iff in W1. apply N.ltb_ge in W1.
  cbn [eval_rev]. rewrite upd_other by lia. auto.
Qed.

Lemma okm_eval_st0 t {A} (m : M A) P n ninp e0 :
  okm t m P -> wfc_b ninp (gates (snd (m (st0 n t)))) = true ->
  P (fst (m (st0 n t))) (eval_rev (gates (snd (m (st0 n t)))) e0).
Proof.
  intros H C. destruct (H (st0 n t) (wfs_st0 n t) eq_refl) as (a & s' & E & _ & _ & HP).
  rewrite E in *. apply HP. eapply eval_rev_sat. exact C.
Qed.

Lemma valN_input_bits (e : env) : forall n k a,
  (forall i, (i < n)%nat -> e (N.of_nat (k + i)) = N.testbit a (N.of_nat i)) ->
  valN e (map N.of_nat (seq k n)) = a mod 2 ^ N.of_nat n.
Proof.
  induction n as [|n IH]; intros k a H.
  - cbn. rewrite N.mod_1_r. reflexivity.
  - cbn [seq map]. rewrite valN_cons, (IH (S k) (N.div2 a)).
    + rewrite <- (Nat.add_0_r k) at 1. rewrite (H 0%nat) by lia. change (N.of_nat 0) with 0.
      rewrite N.bit0_odd, pow2_S, <- mod2p by auto using b2n_le1, pow2_pos.
      f_equal. pose proof (N.div2_odd a). lia.
    + intros i Hi. replace (S k + i)%nat with (k + S i)%nat by lia. rewrite (H (S i)) by lia.
      rewrite Nat2N.inj_succ, N.div2_spec, N.shiftr_spec', N.add_1_r. reflexivity.
Qed.
