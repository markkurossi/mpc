(* C07: structural lemmas (single assignment, defined before use) for the
   Kogge-Stone adder and subtractor (NewKoggeStoneAdder / NewKoggeStoneSubtractor,
   the GMW-target NewAdder / NewSubtractor), for every width and target, and the
   theorems about the EVALUATED circuits in the harness wire layout. *)
From Coq Require Import NArith List Arith Lia.
From Mpc Require Import Builders.Emit Builders.StructProof
  Builders.Adder Builders.Sub Builders.KsProof.
Import ListNotations.
Open Scope N_scope.

Section K.
Variable ninp : N.
Notation defd := (defd ninp). Notation pend := (pend ninp). Notation wfst := (wfst ninp).
Notation step := (step ninp). Notation oks := (@oks ninp _).

Definition min4 (a b c d : nat) : nat := Nat.min (Nat.min a b) (Nat.min c d).

(* the propagate / generate loops at the point where one of their lists has run out *)
Lemma pg_end_s s n : wfst s -> n = 0%nat ->
  oks (ret ([], [])) s
      (fun pg s' => step s s' [] /\ Forall (defd s') (fst pg) /\ Forall (defd s') (snd pg) /\
                    length (fst pg) = n /\ length (snd pg) = n).
Proof.
  intros W ->. apply oks_ret; [exact W|]. cbn. split; [apply step_refl|]. repeat split; constructor.
Qed.

Lemma ks_pre_s : forall x y s, wfst s -> Forall (defd s) x -> Forall (defd s) y ->
  oks (ks_pre x y) s
      (fun pg s' => step s s' [] /\ Forall (defd s') (fst pg) /\ Forall (defd s') (snd pg) /\
                    length (fst pg) = Nat.min (length x) (length y) /\
                    length (snd pg) = Nat.min (length x) (length y)).
Proof.
  induction x as [|xi x IH]; intros y s W Fx Fy.
  - apply pg_end_s; [exact W|reflexivity].
  - destruct y as [|yi y].
    + apply pg_end_s; [exact W|reflexivity].
    + cbn [ks_pre]. inversion Fx; subst. inversion Fy; subst.
      apply oks_fresh; [exact W|]. intros p s1 W1 (E1 & P1 & S1 & N1).
      apply oks_fresh; [exact W1|]. intros g s2 W2 (E2 & P2 & S2 & N2).
      eapply oks_then; [apply emit_s; [auto|sdb|sdb|sp]|sincl|]. intros _ s3 W3 S3 (D3 & N3).
      eapply oks_then; [apply emit_s; [auto|sdb|sdb|sp]|sincl|]. intros _ s4 W4 S4 (D4 & N4).
      eapply oks_then; [apply IH; [auto|sfd|sfd]|sincl|].
      intros [ps gs] s5 W5 S5 (Fp & Fg & Lp & Lg). cbn [fst snd] in *.
      apply oks_ret; auto. cbn [fst snd length Nat.min]. split; [apply step_nil_any, step_refl|].
      split; [constructor; [sdb|auto]|]. split; [constructor; [sdb|auto]|]. lia.
Qed.

Lemma ks_cells_s : forall pi gi pj gj s, wfst s ->
  Forall (defd s) pi -> Forall (defd s) gi -> Forall (defd s) pj -> Forall (defd s) gj ->
  oks (ks_cells pi gi pj gj) s
      (fun pg s' => step s s' [] /\ Forall (defd s') (fst pg) /\ Forall (defd s') (snd pg) /\
                    length (fst pg) = min4 (length pi) (length gi) (length pj) (length gj) /\
                    length (snd pg) = min4 (length pi) (length gi) (length pj) (length gj)).
Proof.
  induction pi as [|p pi IH]; intros gi pj gj s W Fpi Fgi Fpj Fgj.
  - apply pg_end_s; [exact W|reflexivity].
  - destruct gi as [|g gi]; [apply pg_end_s; [exact W|reflexivity]|].
    destruct pj as [|pl pj]; [apply pg_end_s; [exact W|reflexivity]|].
    destruct gj as [|gl gj]; [apply pg_end_s; [exact W|reflexivity]|].
    cbn [ks_cells]. inversion Fpi; subst. inversion Fgi; subst. inversion Fpj; subst. inversion Fgj; subst.
    apply oks_fresh; [exact W|]. intros nG s1 W1 (E1 & P1 & S1 & N1).
    apply oks_fresh; [exact W1|]. intros nP s2 W2 (E2 & P2 & S2 & N2).
    apply oks_fresh; [exact W2|]. intros aG s3 W3 (E3 & P3 & S3 & N3).
    eapply oks_then; [apply emit_s; [auto|sdb|sdb|sp]|sincl|]. intros _ s4 W4 S4 (D4 & N4).
    eapply oks_then; [apply emit_s; [auto|sdb|sdb|sp]|sincl|]. intros _ s5 W5 S5 (D5 & N5).
    eapply oks_then; [apply emit_s; [auto|sdb|sdb|sp]|sincl|]. intros _ s6 W6 S6 (D6 & N6).
    eapply oks_then; [apply IH; [auto|sfd|sfd|sfd|sfd]|sincl|].
    intros [ps gs] s7 W7 S7 (Fp & Fg & Lp & Lg). cbn [fst snd] in *.
    apply oks_ret; auto. unfold min4 in *. cbn [fst snd length Nat.min].
    split; [apply step_nil_any, step_refl|].
    split; [constructor; [sdb|auto]|]. split; [constructor; [sdb|auto]|]. lia.
Qed.

Lemma ks_stage_s shift p g s : wfst s -> Forall (defd s) p -> Forall (defd s) g ->
  length p = length g ->
  oks (ks_stage shift p g) s
      (fun pg s' => step s s' [] /\ Forall (defd s') (fst pg) /\ Forall (defd s') (snd pg) /\
                    length (fst pg) = length p /\ length (snd pg) = length p).
Proof.
  intros W Fp Fg L. unfold ks_stage.
  eapply oks_bind; [apply ks_cells_s; auto using Forall_skipn|].
  intros [ps gs] s1 W1 (S1 & Fps & Fgs & Lp & Lg). cbn [fst snd] in *. cbv beta.
  apply oks_ret; auto. cbn [fst snd]. split; [auto|].
  unfold min4 in *. rewrite !skipn_length in *.
  split; [apply Forall_app; split; [apply Forall_firstn; sfd|auto]|].
  split; [apply Forall_app; split; [apply Forall_firstn; sfd|auto]|].
  rewrite !app_length, !firstn_length. lia.
Qed.

Lemma ks_stages_s : forall k shift p g s, wfst s -> Forall (defd s) p -> Forall (defd s) g ->
  length p = length g ->
  oks (ks_stages k shift p g) s
      (fun pg s' => step s s' [] /\ Forall (defd s') (fst pg) /\ Forall (defd s') (snd pg) /\
                    length (fst pg) = length p /\ length (snd pg) = length p).
Proof.
  induction k as [|k IH]; intros shift p g s W Fp Fg L.
  - cbn. apply oks_ret; auto. cbn. split; [apply step_refl|]. auto.
  - cbn [ks_stages].
    eapply oks_bind; [apply ks_stage_s; auto|].
    intros [p1 g1] s1 W1 (S1 & Fp1 & Fg1 & Lp1 & Lg1). cbn [fst snd] in *. cbv beta.
    eapply oks_conseq; [apply IH; auto; lia|].
    cbv beta. intros [p2 g2] s2 W2 (S2 & Fp2 & Fg2 & Lp2 & Lg2). cbn [fst snd] in *.
    split; [|repeat split; auto; lia].
    eapply step_weaken; [eapply step_trans; eauto|]. apply incl_refl.
Qed.

Lemma ks_post_s : forall x y g z s, wfst s ->
  Forall (defd s) x -> Forall (defd s) y -> Forall (defd s) g -> Forall (pend s) z -> NoDup z ->
  oks (ks_post x y g z) s
      (fun _ s' => step s s' z /\
                   Forall (defd s') (firstn (min4 (length x) (length y) (length g) (length z)) z)).
Proof.
  induction x as [|xi x IH]; intros y g z s W Fx Fy Fg Pz ND.
  - apply loop_end_s; [exact W|reflexivity].
  - destruct y as [|yi y]; [apply loop_end_s; [exact W|reflexivity]|].
    destruct g as [|gi g]; [apply loop_end_s; [exact W|reflexivity]|].
    destruct z as [|zi z]; [apply loop_end_s; [exact W|reflexivity]|].
    cbn [ks_post]. inversion Fx; subst. inversion Fy; subst. inversion Fg; subst.
    inversion Pz; subst. inversion ND; subst.
    apply gate_s; auto. intros t s1 W1 S1 D1.
    apply (oks_after _ _ s s1 _ _ S1).
    eapply oks_bind; [apply emit_s; [auto|sdb|sdb|eapply step_pend; [exact S1|eassumption|intros []]]|].
    intros _ s2 W2 (S2 & D2 & N2). cbv beta.
    assert (Pz2 : Forall (pend s2) z).
    { eapply Forall_pend_step; [exact S2|eapply Forall_pend_step0; eauto|].
      intros w Hin [<-|[]]. auto. }
    eapply oks_conseq; [apply IH; [auto|sfd|sfd|sfd|auto|auto]|].
    cbv beta. intros _ s3 W3 (S3 & F3). split; [exact (step_trans _ _ _ _ _ _ S2 S3)|].
    unfold min4 in *. cbn [length Nat.min firstn]. constructor; [sdb|exact F3].
Qed.

Lemma ks_core_s n x y z s :
  length x = n -> length y = n -> (1 <= n)%nat -> (n <= length z)%nat ->
  wfst s -> Forall (defd s) x -> Forall (defd s) y -> Forall (pend s) z -> NoDup z ->
  oks (ks_core n x y z) s
      (fun z' s' => step s s' z /\ Forall (defd s') z' /\ length z' = length z).
Proof.
  intros Lx Ly Hn Hz W Fx Fy Pz ND. unfold ks_core.
  rewrite !(firstn_all2 (n := n)) by lia.
  eapply oks_bind; [apply ks_pre_s; auto|].
  intros [p g] s1 W1 (S1 & Fp & Fg & Lp & Lg). cbn [fst snd] in *. cbv beta.
  eapply oks_bind; [apply ks_stages_s; auto; lia|].
  intros [p2 g2] s2 W2 (S2 & Fp2 & Fg2 & Lp2 & Lg2). cbn [fst snd] in *. cbv beta.
  destruct x as [|x0 xs]; [cbn in *; lia|].
  destruct y as [|y0 ys]; [cbn in *; lia|].
  destruct z as [|z0 zs]; [cbn in *; lia|].
  inversion Fx; subst. inversion Fy; subst. inversion Pz; subst. inversion ND; subst.
  cbn [length] in *.
  assert (Pz2 : Forall (pend s2) (z0 :: zs)).
  { eapply Forall_pend_step0; [exact S2|]. eapply Forall_pend_step0; [exact S1|]. exact Pz. }
  inversion Pz2; subst.
  eapply (oks_bind _ _ _ _ (fun _ s4 => step s2 s4 (z0 :: zs) /\ defd s4 z0 /\ Forall (defd s4) (firstn (length xs) zs))).
  { eapply oks_bind; [apply emit_s; [auto|sdb|sdb|auto]|]. intros u s3 W3 (S3 & D3 & N3). cbv beta.
    eapply oks_conseq;
      [apply ks_post_s; [auto|apply Forall_firstn; sfd|sfd|sfd| |auto]|].
    - eapply Forall_pend_step; [exact S3|eassumption|].
      intros w Hin HI. cbn in HI. destruct HI as [E|HI]; [subst w; auto|exact HI].
    - cbv beta. intros u' s4 W4 (S4 & F4). split; [|split; [sdb|]].
      + eapply step_weaken; [eapply step_trans; eauto|]. cbn. apply incl_refl.
      + rewrite firstn_length in F4. unfold min4 in F4.
        replace (Nat.min (Nat.min (Nat.min (S (length xs) - 1) (length xs)) (length ys))
                     (Nat.min (length g2) (length zs))) with (length xs) in F4 by lia.
        exact F4. }
  intros u s4 W4 (S4 & D4 & F4). cbv beta.
  eapply oks_conseq; [apply zero_tail_s; auto|].
  cbv beta. intros z' s5 W5 (S5 & Lz' & Fz' & Tz').
  split; [|split; [|exact Lz']].
  - eapply step_weaken; [eapply step_trans; [eapply step_trans; [eapply step_trans|]|]; eauto|].
    cbn. rewrite app_nil_r. apply incl_refl.
  - rewrite <- (firstn_skipn (S (length xs)) z'). apply Forall_app. split; [|exact Tz'].
    rewrite Fz'. cbn [firstn]. constructor; [sdb|]. sfd.
Qed.

(* NewKoggeStoneAdder / NewKoggeStoneSubtractor around their cores: the operands
   are padded to the wider one (plus a carry position if z has room) and cut to
   the width of z. *)
Lemma ks_outer_s (core : nat -> list wire -> list wire -> list wire -> M (list wire)) s x y z :
  (forall n x y z s,
     length x = n -> length y = n -> (1 <= n)%nat -> (n <= length z)%nat ->
     wfst s -> Forall (defd s) x -> Forall (defd s) y -> Forall (pend s) z -> NoDup z ->
     oks (core n x y z) s (fun z' s' => step s s' z /\ Forall (defd s') z' /\ length z' = length z)) ->
  wfst s -> Forall (defd s) x -> Forall (defd s) y -> Forall (pend s) z -> NoDup z ->
  (1 <= length z)%nat ->
  oks (let n := Nat.max (length x) (length y) in
       let n := if Nat.ltb n (length z) then S n else n in
       bind (pad x n) (fun x => bind (pad y n) (fun y =>
         let trunc := Nat.ltb (length z) (length x) in
         core (if trunc then length z else n)
              (if trunc then firstn (length z) x else x)
              (if trunc then firstn (length z) y else y) z))) s
      (fun z' s' => step s s' z /\ Forall (defd s') z' /\ length z' = length z).
Proof.
  intros core_s W Fx Fy Pz ND Hz.
  set (m := Nat.max (length x) (length y)) in *. cbv zeta.
  set (n1 := if Nat.ltb m (length z) then S m else m).
  assert (Hn1 : (m < length z /\ n1 = S m)%nat \/ (length z <= m /\ n1 = m)%nat).
  { unfold n1. destruct (Nat.ltb_spec m (length z)); lia. }
  sbind pad_s. intros x1 s1 W1 (S1 & Fx1 & Lx1). cbv beta.
  eapply oks_bind; [apply pad_s; [auto|sfd]|]. intros y1 s2 W2 (S2 & Fy1 & Ly1). cbv beta.
  apply (oks_after _ _ s s2 _ _ (step_trans_nil_l _ _ _ _ _ S1 S2)).
  assert (Pz2 : Forall (pend s2) z).
  { eapply Forall_pend_step0; [exact S2|]. eapply Forall_pend_step0; [exact S1|]. exact Pz. }
  destruct (Nat.ltb_spec (length z) (length x1)) as [ET|ET];
    apply core_s; rewrite ?firstn_length; try lia; auto; try apply Forall_firstn; sfd.
Qed.

Lemma ks_adder_s s x y z :
  wfst s -> Forall (defd s) x -> Forall (defd s) y -> Forall (pend s) z -> NoDup z ->
  (1 <= length z)%nat -> (1 <= Nat.max (length x) (length y))%nat ->
  oks (ks_adder x y z) s
      (fun z' s' => step s s' z /\ Forall (defd s') z' /\ length z' = length z).
Proof. rewrite ks_adder_unfold. intros W Fx Fy Pz ND Hz _. apply ks_outer_s; auto. exact ks_core_s. Qed.

Lemma kss_pre_s : forall x y s, wfst s -> Forall (defd s) x -> Forall (defd s) y ->
  oks (kss_pre x y) s
      (fun pg s' => step s s' [] /\ Forall (defd s') (fst pg) /\ Forall (defd s') (snd pg) /\
                    length (fst pg) = Nat.min (length x) (length y) /\
                    length (snd pg) = Nat.min (length x) (length y)).
Proof.
  induction x as [|xi x IH]; intros y s W Fx Fy.
  - apply pg_end_s; [exact W|reflexivity].
  - destruct y as [|yi y].
    + apply pg_end_s; [exact W|reflexivity].
    + cbn [kss_pre]. inversion Fx; subst. inversion Fy; subst.
      eapply fresh_wire_s with (R := fun w _ s' => defd s' w); [exact W| |].
      { intros bi s1 W1 S1 P1. apply cc_inv_s; [auto|sdb|exact P1]. }
      intros bi _ s2 W2 S2 D2. cbv beta in D2.
      apply gate_s; [auto|sdb|sdb|]. intros p s3 W3 S3 D3.
      apply gate_s; [auto|sdb|sdb|]. intros g s4 W4 S4 D4.
      eapply oks_bind; [apply IH; [auto|sfd|sfd]|].
      intros [ps gs] s5 W5 (S5 & Fp & Fg & Lp & Lg). cbn [fst snd] in *. cbv beta.
      apply oks_ret; auto. cbn [fst snd length Nat.min]. split; [snil|].
      split; [constructor; [sdb|auto]|]. split; [constructor; [sdb|auto]|]. lia.
Qed.

Lemma kss_cells_s : forall pi gi pj gj s, wfst s ->
  Forall (defd s) pi -> Forall (defd s) gi -> Forall (defd s) pj -> Forall (defd s) gj ->
  oks (kss_cells pi gi pj gj) s
      (fun pg s' => step s s' [] /\ Forall (defd s') (fst pg) /\ Forall (defd s') (snd pg) /\
                    length (fst pg) = min4 (length pi) (length gi) (length pj) (length gj) /\
                    length (snd pg) = min4 (length pi) (length gi) (length pj) (length gj)).
Proof.
  induction pi as [|p pi IH]; intros gi pj gj s W Fpi Fgi Fpj Fgj.
  - apply pg_end_s; [exact W|reflexivity].
  - destruct gi as [|g gi]; [apply pg_end_s; [exact W|reflexivity]|].
    destruct pj as [|pl pj]; [apply pg_end_s; [exact W|reflexivity]|].
    destruct gj as [|gl gj]; [apply pg_end_s; [exact W|reflexivity]|].
    cbn [kss_cells]. inversion Fpi; subst. inversion Fgi; subst. inversion Fpj; subst. inversion Fgj; subst.
    apply gate_s; auto. intros pg s1 W1 S1 D1.
    apply gate_s; [auto|sdb|sdb|]. intros w1 s2 W2 S2 D2.
    apply gate_s; [auto|sdb|sdb|]. intros w2 s3 W3 S3 D3.
    eapply oks_bind; [apply IH; [auto|sfd|sfd|sfd|sfd]|].
    intros [ps gs] s4 W4 (S4 & Fp & Fg & Lp & Lg). cbn [fst snd] in *. cbv beta.
    apply oks_ret; auto. unfold min4 in *. cbn [fst snd length Nat.min]. split; [|split; [|split]].
    + exact (step_trans_nil_l _ _ _ _ _ S1 (step_trans_nil_l _ _ _ _ _ S2 (step_trans_nil_l _ _ _ _ _ S3 S4))).
    + constructor; [sdb|auto].
    + constructor; [sdb|auto].
    + lia.
Qed.

Lemma kss_stages_s : forall fuel stp n p g s, wfst s -> Forall (defd s) p -> Forall (defd s) g ->
  length p = length g ->
  oks (kss_stages fuel stp n p g) s
      (fun pg s' => step s s' [] /\ Forall (defd s') (fst pg) /\ Forall (defd s') (snd pg) /\
                    length (fst pg) = length p /\ length (snd pg) = length p).
Proof.
  induction fuel as [|k IH]; intros stp n p g s W Fp Fg L.
  - cbn. apply oks_ret; auto. cbn. split; [apply step_refl|]. auto.
  - cbn [kss_stages]. destruct (Nat.ltb stp n).
    + eapply oks_bind; [apply kss_cells_s; auto using Forall_skipn|].
      intros [ps gs] s1 W1 (S1 & Fps & Fgs & Lp & Lg). cbn [fst snd] in *. cbv beta.
      unfold min4 in *. rewrite !skipn_length in *.
      eapply oks_conseq; [apply IH; [auto| | |]|].
      * apply Forall_app; split; [apply Forall_firstn; sfd|auto].
      * apply Forall_app; split; [apply Forall_firstn; sfd|auto].
      * rewrite !app_length, !firstn_length. lia.
      * cbv beta. intros [p2 g2] s2 W2 (S2 & Fp2 & Fg2 & Lp2 & Lg2). cbn [fst snd] in *.
        rewrite !app_length, !firstn_length in *.
        split; [|repeat split; auto; lia].
        eapply step_weaken; [eapply step_trans; eauto|]. apply incl_refl.
    + apply oks_ret; auto. cbn. split; [apply step_refl|]. auto.
Qed.

Lemma kss_post_s : forall x g z s, wfst s ->
  Forall (defd s) x -> Forall (defd s) g -> Forall (pend s) z -> NoDup z ->
  oks (kss_post x g z) s
      (fun _ s' => step s s' z /\
                   Forall (defd s') (firstn (Nat.min (length x) (Nat.min (length g) (length z))) z)).
Proof.
  induction x as [|xi x IH]; intros g z s W Fx Fg Pz ND.
  - apply loop_end_s; [exact W|reflexivity].
  - destruct g as [|gi g]; [apply loop_end_s; [exact W|reflexivity]|].
    destruct z as [|zi z]; [apply loop_end_s; [exact W|reflexivity]|].
    cbn [kss_post]. inversion Fx; subst. inversion Fg; subst.
    inversion Pz; subst. inversion ND; subst.
    eapply oks_bind; [apply emit_s; [auto|sdb|sdb|auto]|]. intros u1 s1 W1 (S1 & D1 & N1). cbv beta.
    assert (Pz1 : Forall (pend s1) z).
    { eapply Forall_pend_step; [exact S1|eassumption|].
      intros w Hin HI. cbn in HI. destruct HI as [E|HI]; [subst w; auto|exact HI]. }
    eapply oks_conseq; [apply IH; [auto|sfd|sfd|auto|auto]|].
    cbv beta. intros u2 s2 W2 (S2 & F2). split.
    + eapply step_weaken; [eapply step_trans; eauto|]. cbn. apply incl_refl.
    + cbn [length Nat.min firstn]. constructor; [sdb|exact F2].
Qed.

Lemma kss_core_s n x y z s :
  length x = n -> length y = n -> (1 <= n)%nat -> (n <= length z)%nat ->
  wfst s -> Forall (defd s) x -> Forall (defd s) y -> Forall (pend s) z -> NoDup z ->
  oks (kss_core n x y z) s
      (fun z' s' => step s s' z /\ Forall (defd s') z' /\ length z' = length z).
Proof.
  intros Lx Ly Hn Hz W Fx Fy Pz ND. unfold kss_core.
  rewrite !(firstn_all2 (n := n)) by lia.
  eapply oks_then; [apply kss_pre_s; auto|sincl|].
  intros [p g] s1 W1 S1 (Fp & Fg & Lp & Lg). cbn [fst snd] in *.
  destruct p as [|p0 ps]; [cbn in *; lia|].
  destruct g as [|g0 gs]; [cbn in *; lia|].
  destruct z as [|z0 zs]; [cbn in *; lia|].
  cbn [nth tl]. inversion Fp; subst. inversion Fg; subst.
  apply oks_fresh; [exact W1|]. intros w s2 W2 (E2 & P2 & S2 & N2).
  eapply oks_then; [apply emit_s; [auto|sdb|sdb|sp]|sincl|]. intros u3 s3 W3 S3 (D3 & N3).
  eapply oks_then; [apply kss_stages_s; [auto|sfd| |cbn in *; lia]|sincl|].
  { constructor; [sdb|sfd]. }
  intros [p4 g4] s4 W4 S4 (Fp4 & Fg4 & Lp4 & Lg4). cbn [fst snd] in *.
  assert (Pz4 : Forall (pend s4) (z0 :: zs)).
  { apply Forall_forall. intros v Hin. rewrite Forall_forall in Pz. specialize (Pz _ Hin).
    pose proof (pend_next _ _ _ Pz) as Lv. pose proof (step_next _ _ _ _ S1). unfold wire in *. sp. }
  inversion Pz4; subst. inversion ND; subst.
  eapply oks_then with (w1 := z0 :: zs)
                       (P := fun _ s6 => defd s6 z0 /\ Forall (defd s6) (firstn (length ps) zs)); [|sincl|].
  { eapply oks_then; [apply cc_inv_s; [auto|sdb|auto]|sincl|]. intros u5 s5 W5 S5 D5. cbv beta in D5.
    eapply oks_step_incl with (w1 := zs); [|sincl].
    eapply oks_conseq; [apply kss_post_s; [auto|sfd|sfd| |auto]|].
    - eapply Forall_pend_step; [exact S5|eassumption|].
      intros v Hin HI. cbn in HI. destruct HI as [E|HI]; [subst v; auto|exact HI].
    - cbv beta. intros u6 s6 W6 (S6 & F6). split; [exact S6|]. split; [sdb|].
      cbn [length] in *.
      replace (Nat.min (length ps) (Nat.min (length g4) (length zs))) with (length ps) in F6 by lia.
      exact F6. }
  intros u6 s6 W6 S6 (D6 & F6).
  eapply oks_step_incl with (w1 := []); [|sincl].
  eapply oks_conseq; [apply zero_tail_s; auto|].
  cbv beta. intros z' s7 W7 (S7 & Lz' & Fz' & Tz').
  assert (Ln : length x = S (length ps)) by (cbn in *; lia).
  split; [exact S7|]. split; [|exact Lz'].
  rewrite <- (firstn_skipn (length x) z'). apply Forall_app. split; [|exact Tz'].
  rewrite Fz', Ln. cbn [firstn]. constructor; [sdb|]. sfd.
Qed.

Lemma ks_subtractor_s s x y z :
  wfst s -> Forall (defd s) x -> Forall (defd s) y -> Forall (pend s) z -> NoDup z ->
  (1 <= length z)%nat -> (1 <= Nat.max (length x) (length y))%nat ->
  oks (ks_subtractor x y z) s
      (fun z' s' => step s s' z /\ Forall (defd s') z' /\ length z' = length z).
Proof. rewrite ks_subtractor_unfold. intros W Fx Fy Pz ND Hz _. apply ks_outer_s; auto. exact kss_core_s. Qed.

End K.

Theorem ks_adder_eval (tg : bool) (xw yw zw : nat) (e0 : env) :
  (1 <= zw)%nat -> (1 <= Nat.max xw yw)%nat ->
  let x := wrange 0 xw in
  let y := wrange (N.of_nat xw) yw in
  let ninp := N.of_nat xw + N.of_nat yw in
  let z := wrange ninp zw in
  exists z' s', ks_adder x y z (st0 (ninp + N.of_nat zw) tg) = (z', s') /\
    wfc_b ninp (gates s') = true /\ dbu ninp (gates s') /\
    length z' = zw /\
    valN (eval_rev (gates s') e0) z' = (valN e0 x + valN e0 y) mod 2 ^ N.of_nat zw.
Proof.
  intros Hz Hm.
  eapply (eval2 tg xw yw zw ks_adder
            (fun z' e a b n => length z' = n /\ valN e z' = (a + b) mod 2 ^ N.of_nat n)); [lia| |].
  - apply okm_ks_adder; rewrite ?wrange_length; lia.
  - intros s G W Fx Fy Pz ND. apply ks_adder_s; rewrite ?wrange_length; auto; lia.
Qed.

Theorem ks_subtractor_eval (tg : bool) (xw yw zw : nat) (e0 : env) :
  (1 <= zw)%nat -> (1 <= Nat.max xw yw)%nat ->
  let x := wrange 0 xw in
  let y := wrange (N.of_nat xw) yw in
  let ninp := N.of_nat xw + N.of_nat yw in
  let z := wrange ninp zw in
  let n := Nat.min (S (Nat.max xw yw)) zw in
  exists z' s', ks_subtractor x y z (st0 (ninp + N.of_nat zw) tg) = (z', s') /\
    wfc_b ninp (gates s') = true /\ dbu ninp (gates s') /\
    length z' = zw /\
    valN (eval_rev (gates s') e0) z' =
      (valN e0 x mod 2 ^ N.of_nat n + (2 ^ N.of_nat n - 1 - valN e0 y mod 2 ^ N.of_nat n) + 1)
      mod 2 ^ N.of_nat n.
Proof.
  intros Hz Hm.
  eapply (eval2 tg xw yw zw ks_subtractor
            (fun z' e a b k => let n := Nat.min (S (Nat.max xw yw)) k in length z' = k /\
               valN e z' = (a mod 2 ^ N.of_nat n + (2 ^ N.of_nat n - 1 - b mod 2 ^ N.of_nat n) + 1)
                           mod 2 ^ N.of_nat n)); [lia| |].
  - pose proof (okm_ks_subtractor tg (wrange 0 xw) (wrange (N.of_nat xw) yw)
                  (wrange (N.of_nat xw + N.of_nat yw) zw)) as H.
    rewrite !wrange_length in *. apply H; lia.
  - intros s G W Fx Fy Pz ND. apply ks_subtractor_s; rewrite ?wrange_length; auto; lia.
Qed.

Corollary ks_subtractor_eval_noborrow (tg : bool) (xw yw zw : nat) (e0 : env) :
  (1 <= zw)%nat -> (1 <= Nat.max xw yw)%nat ->
  let x := wrange 0 xw in
  let y := wrange (N.of_nat xw) yw in
  let ninp := N.of_nat xw + N.of_nat yw in
  let z := wrange ninp zw in
  valN e0 y <= valN e0 x ->
  exists z' s', ks_subtractor x y z (st0 (ninp + N.of_nat zw) tg) = (z', s') /\
    wfc_b ninp (gates s') = true /\ dbu ninp (gates s') /\
    length z' = zw /\
    valN (eval_rev (gates s') e0) z' = (valN e0 x - valN e0 y) mod 2 ^ N.of_nat zw.
Proof.
  intros Hz Hm. cbv zeta. intros Hxy.
  edestruct (eval2 tg xw yw zw ks_subtractor
               (fun z' e a b n => length z' = n /\ (b <= a -> valN e z' = (a - b) mod 2 ^ N.of_nat n)))
    as (z' & s' & E & C & D & L & V); [lia| | |].
  - apply okm_ks_subtractor_noborrow; rewrite ?wrange_length; lia.
  - intros s G W Fx Fy Pz ND. apply ks_subtractor_s; rewrite ?wrange_length; auto; lia.
  - exists z', s'. split; [exact E|]. split; [exact C|]. split; [exact D|]. split; [exact L|].
    exact (V Hxy).
Qed.

Corollary new_adder_gmw_eval (xw yw zw : nat) (e0 : env) :
  (1 <= zw)%nat -> (1 <= Nat.max xw yw)%nat ->
  let x := wrange 0 xw in
  let y := wrange (N.of_nat xw) yw in
  let ninp := N.of_nat xw + N.of_nat yw in
  let z := wrange ninp zw in
  exists z' s', new_adder x y z (st0 (ninp + N.of_nat zw) true) = (z', s') /\
    wfc_b ninp (gates s') = true /\ dbu ninp (gates s') /\
    length z' = zw /\
    valN (eval_rev (gates s') e0) z' = (valN e0 x + valN e0 y) mod 2 ^ N.of_nat zw.
Proof. exact (ks_adder_eval true xw yw zw e0). Qed.

Corollary new_subtractor_gmw_eval (xw yw zw : nat) (e0 : env) :
  (1 <= zw)%nat -> (1 <= Nat.max xw yw)%nat ->
  let x := wrange 0 xw in
  let y := wrange (N.of_nat xw) yw in
  let ninp := N.of_nat xw + N.of_nat yw in
  let z := wrange ninp zw in
  let n := Nat.min (S (Nat.max xw yw)) zw in
  exists z' s', new_subtractor x y z (st0 (ninp + N.of_nat zw) true) = (z', s') /\
    wfc_b ninp (gates s') = true /\ dbu ninp (gates s') /\
    length z' = zw /\
    valN (eval_rev (gates s') e0) z' =
      (valN e0 x mod 2 ^ N.of_nat n + (2 ^ N.of_nat n - 1 - valN e0 y mod 2 ^ N.of_nat n) + 1)
      mod 2 ^ N.of_nat n.
Proof. exact (ks_subtractor_eval true xw yw zw e0). Qed.
