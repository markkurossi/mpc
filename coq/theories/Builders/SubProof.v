(* C07: NewFullSubtractor and the ripple-borrow NewSubtractor (Yao target)
   compute (x - y) mod 2^(result width) for every operand width and every result
   width up to max(len x, len y) + 1; with the Kogge-Stone subtractor of
   KsProof.v this is NewSubtractor under either target (okp_new_subtractor). *)
From Coq Require Import NArith List Arith Lia.
From Mpc Require Import Base.ListFacts Builders.Emit Builders.EmitProof Builders.Sub Builders.KsProof.
Import ListNotations.
Open Scope N_scope.

(* borrow-out of a - b - c *)
Definition bor (a b c : bool) : bool := (negb a && b) || (negb (xorb a b) && c).

Lemma fs_arith a b c :
  N.b2n a + 2 * N.b2n (bor a b c) = N.b2n (xorb (xorb a b) c) + N.b2n b + N.b2n c.
Proof. destruct a, b, c; reflexivity. Qed.

(* NewFullSubtractor(x, y, cin, d, cout): cout is the borrow-out of  y - x - cin
   (NOT of x - y - cin: e.g. x=0,y=1,cin=0 gives w1 = 0, w3 = 0, cout = 0).
   NewSubtractor calls it with the operands swapped, so the ripple subtractor
   computes x - y. *)
Lemma okm_full_subtractor t x y cin d cout :
  okm t (full_subtractor x y cin d cout)
      (fun _ e => e d = xorb (xorb (e x) (e y)) (e cin) /\
                  forall c, cout = Some c -> e c = bor (e y) (e x) (e cin)).
Proof.
  unfold full_subtractor. mstep okm_fresh. mstep okm_emit. mstep okm_emit.
  destruct cout as [cw|].
  - mstep okm_fresh. mstep okm_emit. mstep okm_fresh. mstep okm_emit.
    eapply okm_weaken; [apply okm_emit|]. cbn.
    intros _ e H5 H4 _ H3 _ H2 H1 _. split.
    + rewrite H2, H1. destruct (e x), (e y), (e cin); reflexivity.
    + intros ? [= <-]. rewrite H5, H4, H3, H1. unfold bor.
      destruct (e x), (e y), (e cin); reflexivity.
  - apply okm_ret. cbn. intros e H2 H1 _. split.
    + rewrite H2, H1. destruct (e x), (e y), (e cin); reflexivity.
    + intros; discriminate.
Qed.

Lemma okm_sub_loop t : forall xs ys zs cin last,
  xs <> [] -> length ys = length xs -> (length xs <= length zs)%nat ->
  okm t (sub_loop xs ys zs cin last)
      (fun _ e =>
         let n := length xs in
         exists k : bool,
           (forall l, last = Some l -> e l = k) /\
           valN e xs + 2 ^ N.of_nat n * N.b2n k
           = valN e (firstn n zs) + valN e ys + N.b2n (e cin)).
Proof.
  induction xs as [|x xs IH]; intros ys zs cin last Hne Hy Hz; [congruence|].
  destruct ys as [|y ys]; [discriminate|]. destruct zs as [|z zs]; [cbn in Hz; lia|].
  destruct xs as [|x2 xs'].
  - destruct ys; [|discriminate]. cbn [sub_loop].
    eapply okm_weaken; [apply okm_full_subtractor|]. cbn [length firstn].
    intros _ e [Hs Hc]. exists (bor (e x) (e y) (e cin)). split; [exact Hc|].
    rewrite !valN_cons, !valN_nil. change (2 ^ N.of_nat 1) with 2.
    rewrite Hs. destruct (e x), (e y), (e cin); reflexivity.
  - cbn [sub_loop]. mstep okm_fresh. mstep okm_full_subtractor.
    eapply okm_weaken; [apply IH; cbn in *; try lia; congruence|].
    cbv beta. intros _ e HI [Hs Hc] _. specialize (Hc _ eq_refl).
    cbv zeta in HI. destruct HI as (k & Hl & HI). exists k. split; [exact Hl|].
    pose proof (fs_arith (e x) (e y) (e cin)) as FS.
    replace (xorb (xorb (e x) (e y)) (e cin)) with (e z) in FS
      by (rewrite Hs; destruct (e x), (e y), (e cin); reflexivity).
    rewrite <- Hc in FS.
    remember (x2 :: xs') as xs eqn:Exs.
    cbn [length firstn]. rewrite !valN_cons, pow2_S. lia.
Qed.

(* D is the difference of the truncated operands, k the final borrow; when there
   is room (n < len z) the borrow is stored as bit n, and the bits above are the
   zero wire. *)
Lemma okp_ripple_subtractor_borrow t x y z :
  (0 < length z)%nat -> (0 < Nat.max (length x) (length y))%nat ->
  okp t (ripple_subtractor x y z)
      (fun z' => length z' = length z)
      (fun z' e =>
         let n := Nat.min (length z) (Nat.max (length x) (length y)) in
         let P := 2 ^ N.of_nat (length z) in
         exists (D : N) (k : bool),
           D < 2 ^ N.of_nat n /\
           valN e x mod P + 2 ^ N.of_nat n * N.b2n k = D + valN e y mod P /\
           valN e z' = D + (if Nat.ltb n (length z) then 2 ^ N.of_nat n * N.b2n k else 0)).
Proof.
  intros Hz Hm. unfold ripple_subtractor.
  eapply okp_bind; [apply okp_zero_pad_val|]. intros [x' y'] [Lx Ly]. cbn [fst snd] in *. cbv zeta.
  remember (firstn (length z) x') as x2 eqn:Ex2.
  remember (firstn (length z) y') as y2 eqn:Ey2.
  assert (Lx2 : length x2 = Nat.min (length z) (Nat.max (length x) (length y))).
  { subst x2. rewrite firstn_length. lia. }
  assert (Ly2 : length y2 = length x2).
  { subst y2. rewrite firstn_length. lia. }
  rewrite <- Lx2. remember (length x2) as n eqn:En.
  eapply okp_bind; [apply okp_of_okm, okm_zero | intros cin _; cbv beta].
  set (last := if Nat.ltb n (length z) then Some (nth n z 0) else None).
  eapply okp_bind.
  { apply okp_of_okm. apply (okm_sub_loop t x2 y2 z cin last); try lia.
    intros ->. cbn in En. lia. }
  intros u _. cbv beta.
  eapply okp_weaken; [apply okp_zero_tail_val | auto | ].
  cbv beta zeta. intros z' e _ Hv (k & Hl & Hcore) Hcin [Vx Vy].
  rewrite <- En, Hcin, N.add_0_r in Hcore.
  rewrite Ex2, Ey2, (valN_firstn e _ x'), (valN_firstn e _ y'), Vx, Vy in Hcore.
  exists (valN e (firstn n z)), k.
  split; [apply valN_pow_le; rewrite firstn_length; lia|]. split; [exact Hcore|].
  rewrite Hv. subst last. destruct (Nat.ltb n (length z)) eqn:EL.
  - apply Nat.ltb_lt in EL. replace (n + 1)%nat with (S n) by lia.
    rewrite valN_firstn_S by exact EL.
    rewrite (Hl _ eq_refl). lia.
  - apply Nat.ltb_ge in EL. rewrite !firstn_all2 by lia. lia.
Qed.

Lemma sub_mod_wide X Y Zn k P :
  X < P -> Y < P -> Zn < P -> X + P * N.b2n k = Zn + Y ->
  Zn + P * N.b2n k = (X + 2 * P - Y mod (2 * P)) mod (2 * P).
Proof.
  intros HX HY HZ E. rewrite (N.mod_small Y) by lia.
  destruct k; cbn [N.b2n] in *.
  - rewrite N.mod_small by lia. lia.
  - apply N.mod_unique with (q := 1); lia.
Qed.

Lemma sub_mod_trunc X Y Z k P :
  0 < P -> Z < P -> X mod P + P * N.b2n k = Z + Y mod P ->
  Z = (X + P - Y mod P) mod P.
Proof.
  intros HP HZ E.
  pose proof (N.div_mod' X P) as DX. pose proof (N.mod_lt X P) as LX.
  pose proof (N.mod_lt Y P) as LY.
  destruct k; cbn [N.b2n] in *.
  - apply N.mod_unique with (q := X / P); lia.
  - apply N.mod_unique with (q := X / P + 1); lia.
Qed.

(* For len(z) > max(len x, len y) + 1 the statement is FALSE: the builder stores
   the final borrow in bit max(len x, len y) and fills the bits above with the
   zero wire (instead of sign-extending the borrow), so for x < y the result is
   2^(max+1) + x - y rather than 2^len(z) + x - y; see [sub_wide_counterexample]. *)
Theorem okp_ripple_subtractor t x y z :
  (0 < length z)%nat -> (0 < Nat.max (length x) (length y))%nat ->
  (length z <= Nat.max (length x) (length y) + 1)%nat ->
  okp t (ripple_subtractor x y z)
      (fun z' => length z' = length z)
      (fun z' e =>
         valN e z' = (valN e x + 2 ^ N.of_nat (length z)
                      - valN e y mod 2 ^ N.of_nat (length z)) mod 2 ^ N.of_nat (length z)).
Proof.
  intros Hz Hm Hw.
  eapply okp_weaken; [apply okp_ripple_subtractor_borrow; assumption | auto | ].
  cbv beta zeta. intros z' e _ (D & k & HD & Hcore & ->).
  destruct (Nat.ltb_spec (Nat.min (length z) (Nat.max (length x) (length y))) (length z)) as [EL|EL].
  - (* len z = max + 1: the final borrow is the top bit *)
    replace (Nat.min (length z) (Nat.max (length x) (length y)))
      with (Nat.max (length x) (length y)) in * by lia.
    replace (length z) with (S (Nat.max (length x) (length y))) in * by lia.
    set (n := Nat.max (length x) (length y)) in *.
    pose proof (valN_pow_le e x n ltac:(lia)) as Bx.
    pose proof (valN_pow_le e y n ltac:(lia)) as By.
    rewrite pow2_S in *. rewrite !N.mod_small in Hcore by lia.
    apply sub_mod_wide; assumption.
  - (* len z <= max: truncated operands, the borrow is dropped *)
    replace (Nat.min (length z) (Nat.max (length x) (length y))) with (length z) in * by lia.
    rewrite N.add_0_r. eapply sub_mod_trunc; eauto using pow2_pos.
Qed.

Theorem okp_ripple_subtractor_noborrow t x y z :
  (0 < Nat.max (length x) (length y))%nat ->
  (Nat.max (length x) (length y) + 1 < length z)%nat ->
  okp t (ripple_subtractor x y z)
      (fun z' => length z' = length z)
      (fun z' e => valN e y <= valN e x -> valN e z' = valN e x - valN e y).
Proof.
  intros Hm Hw.
  eapply okp_weaken; [apply okp_ripple_subtractor_borrow; [lia | exact Hm] | auto | ].
  cbv beta zeta. intros z' e _ (D & k & HD & Hcore & ->) Hle.
  replace (Nat.min (length z) (Nat.max (length x) (length y)))
    with (Nat.max (length x) (length y)) in * by lia.
  set (n := Nat.max (length x) (length y)) in *.
  pose proof (valN_pow_le e x n ltac:(lia)) as Bx.
  pose proof (valN_pow_le e y n ltac:(lia)) as By.
  assert (Bz : 2 ^ N.of_nat n <= 2 ^ N.of_nat (length z)) by (apply N.pow_le_mono_r; lia).
  rewrite !N.mod_small in Hcore by lia.
  destruct (Nat.ltb_spec n (length z)); [|lia].
  destruct k; cbn [N.b2n] in *; lia.
Qed.

Theorem okm_ripple_subtractor t x y z :
  (0 < length z)%nat -> (0 < Nat.max (length x) (length y))%nat ->
  (length z <= Nat.max (length x) (length y) + 1)%nat ->
  okm t (ripple_subtractor x y z)
      (fun z' e => length z' = length z /\
         valN e z' = (valN e x + 2 ^ N.of_nat (length z)
                      - valN e y mod 2 ^ N.of_nat (length z)) mod 2 ^ N.of_nat (length z)).
Proof. intros Hz Hm Hw. apply okm_of_okp, okp_ripple_subtractor; assumption. Qed.

Corollary okp_new_subtractor t x y z :
  (0 < length z)%nat -> (0 < Nat.max (length x) (length y))%nat ->
  (length z <= Nat.max (length x) (length y) + 1)%nat ->
  okp t (new_subtractor x y z)
      (fun z' => length z' = length z)
      (fun z' e =>
         valN e z' = (valN e x + 2 ^ N.of_nat (length z)
                      - valN e y mod 2 ^ N.of_nat (length z)) mod 2 ^ N.of_nat (length z)).
Proof.
  intros Hz Hm Hw. apply okp_dispatch.
  destruct t; [apply okp_ks_subtractor_narrow | apply okp_ripple_subtractor]; assumption.
Qed.

Corollary okm_new_subtractor_yao x y z :
  (0 < length z)%nat -> (0 < Nat.max (length x) (length y))%nat ->
  (length z <= Nat.max (length x) (length y) + 1)%nat ->
  okm false (new_subtractor x y z)
      (fun z' e => length z' = length z /\
         valN e z' = (valN e x + 2 ^ N.of_nat (length z)
                      - valN e y mod 2 ^ N.of_nat (length z)) mod 2 ^ N.of_nat (length z)).
Proof. intros Hz Hm Hw. apply okm_of_okp, okp_new_subtractor; assumption. Qed.

Theorem okp_new_subtractor_yao_any x y z :
  (0 < length z)%nat -> (0 < Nat.max (length x) (length y))%nat ->
  okp false (new_subtractor x y z)
      (fun z' => length z' = length z)
      (fun z' e =>
         (length z <= Nat.max (length x) (length y) + 1)%nat \/ valN e y <= valN e x ->
         valN e z' = (valN e x + 2 ^ N.of_nat (length z)
                      - valN e y mod 2 ^ N.of_nat (length z)) mod 2 ^ N.of_nat (length z)).
Proof.
  intros Hz Hm. apply okp_dispatch.
  destruct (le_lt_dec (length z) (Nat.max (length x) (length y) + 1)) as [Hw|Hw].
  - eapply okp_weaken; [apply okp_ripple_subtractor; assumption | auto | ].
    cbv beta. intros a e _ H _. exact H.
  - eapply okp_weaken; [apply okp_ripple_subtractor_noborrow; assumption | auto | ].
    cbv beta. intros a e _ H [Hc|Hc]; [lia|]. rewrite (H Hc).
    pose proof (valN_pow_le e x (length z) ltac:(lia)) as Bx.
    pose proof (valN_pow_le e y (length z) ltac:(lia)) as By.
    rewrite (N.mod_small (valN e y)) by lia.
    apply N.mod_unique with (q := 1); lia.
Qed.

(* 0 - 1 on one-wire operands and three result wires: z = 3 = 0b011 (borrow in
   bit 1, zero wire in bit 2), whereas (0 - 1) mod 2^3 = 7. *)
Example sub_wide_counterexample :
  let '(z', s') := ripple_subtractor [0] [1] [2; 3; 4] (st0 5 false) in
  let e := eval_rev (gates s') (fun w => N.eqb w 1) in
  wfc_b 2 (gates s') = true /\
  valN e [0] = 0 /\ valN e [1] = 1 /\
  z' = [2; 3; 5] /\ valN e z' = 3 /\
  (valN e [0] + 2 ^ 3 - valN e [1] mod 2 ^ 3) mod 2 ^ 3 = 7.
Proof. vm_compute. repeat split. Qed.

(* hence the specification of [okm_ripple_subtractor] does not extend to wider results *)
Theorem ripple_subtractor_wide_false :
  ~ okm false (ripple_subtractor [0] [1] [2; 3; 4])
      (fun z' e => length z' = 3%nat /\
         valN e z' = (valN e [0] + 2 ^ N.of_nat 3 - valN e [1] mod 2 ^ N.of_nat 3)
                     mod 2 ^ N.of_nat 3).
Proof.
  intros H.
  destruct (okm_eval_st0 false _ _ 5 2 (fun w => N.eqb w 1) H eq_refl) as [_ HP].
  vm_compute in HP. discriminate.
Qed.
