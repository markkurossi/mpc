(* C07: NewMUX selects t when cond = 1 and f when cond = 0, for operands of
   any widths and a result as wide as the wider one, and both targets. *)
From Coq Require Import NArith List Arith Lia.
From Mpc Require Import Builders.Emit Builders.EmitProof Builders.Mux.
Import ListNotations.
Open Scope N_scope.

Lemma mux_bit c t f : xorb (xorb f t && c) f = if c then t else f.
Proof. destruct c, t, f; reflexivity. Qed.

Lemma okm_mux_loop tg c : forall t f out,
  length t = length f -> length t = length out ->
  okm tg (mux_loop c t f out)
      (fun _ e => map e out = if e c then map e t else map e f).
Proof.
  induction t as [|ti t IH]; intros f out Hf Ho.
  - destruct f, out; try discriminate. cbn. apply okm_ret. intros e. destruct (e c); reflexivity.
  - destruct f as [|fi f], out as [|oi out]; try discriminate. cbn [mux_loop].
    mstepn okm_fresh w1. mstepn okm_fresh w2.
    mstepn okm_emit u1. mstepn okm_emit u2. mstepn okm_emit u3.
    eapply okm_weaken; [apply IH; cbn in *; lia|].
    cbn. intros _ e H H3 H2 H1 _ _.
    rewrite H3, H2, H1, H. rewrite mux_bit. destruct (e c); reflexivity.
Qed.

Theorem okm_new_mux tg c t f out :
  length out = Nat.max (length t) (length f) ->
  okm tg (new_mux [c] t f out)
      (fun _ e => valN e out = if e c then valN e t else valN e f).
Proof.
  intros Ho. unfold new_mux.
  eapply okm_bind_p; [apply okp_zero_pad_val|]. intros [t' f'] [Lt Lf]. cbn [fst snd] in *.
  rewrite Ho, Lt, !Nat.eqb_refl. cbn [andb nth].
  eapply okm_weaken; [apply okm_mux_loop; lia|].
  cbn. intros _ e H [<- <-]. unfold valN. rewrite H. destruct (e c); reflexivity.
Qed.

Theorem okm_new_mux_bits tg c t f out :
  length t = length f -> length t = length out ->
  okm tg (new_mux [c] t f out)
      (fun _ e => map e out = if e c then map e t else map e f).
Proof.
  intros Hf Ho. unfold new_mux, zero_pad. rewrite Hf, Nat.eqb_refl. apply okm_ret_bind.
  rewrite Ho, !Nat.eqb_refl. apply okm_mux_loop; assumption.
Qed.
