(* C07: the final correction step of the GMW Goldschmidt divider (step 4 "Parallelized
   Correction Logic" of NewUDividerGoldschmidtFast in compiler/circuits/circ_gmw_divider.go,
   model Gmwdiv.gmw_correction), every width n >= 1, both targets.

   From the quotient estimate q the circuit computes qb = low n bits of q*b,
   r = a - qb on n+1 bits (two's complement, bit n = isNeg), q-1, q+1, r+b,
   r-b (n+1 bits, isGe = not borrow) and selects
       isNeg ? (q-1, r+b) : (isGe ? (q+1, r-b) : (q, r)).

   An estimate Q = A/B or Q+1 = A/B is repaired.  Q = A/B+1 is repaired iff Q*B < 2^n:
   the product is truncated to n bits before the subtraction, so for Q*B >= 2^n
   qb = Q*B - 2^n <= A, isNeg = 0 and the circuit outputs Q or Q+1 instead of Q-1
   (okm_gmw_correction_over_overflow).  Hence "|Q - A/B| <= 1 implies the outputs
   are exact" is FALSE (gmw_correction_pm1_refuted; witness n = 3, A = 7, B = 3, Q = 3:
   the circuit returns (4, 3) instead of (2, 1)).  Q = A/B+1 = 2^n is not
   representable at all (covered: then Q*B >= 2^n). *)
From Coq Require Import NArith List Bool Arith Lia.
From Mpc Require Import Builders.Emit Builders.EmitProof Builders.Adder Builders.Sub
  Builders.Mux Builders.MuxProof Builders.Mult Builders.KsProof Builders.WallaceProof
  Builders.Gmwdiv.
Import ListNotations.
Open Scope N_scope.

Lemma pow2_double n : 2 ^ N.of_nat (2 * n) = 2 ^ N.of_nat n * 2 ^ N.of_nat n.
Proof.
  replace (2 * n)%nat with (n + n)%nat by lia. rewrite Nat2N.inj_add, N.pow_add_r. reflexivity.
Qed.

Lemma mod_sq_mod x P : P <> 0 -> (x mod (P * P)) mod P = x mod P.
Proof.
  intros H. assert (HP : P * P <> 0) by lia.
  pose proof (N.div_mod' x (P * P)) as D.
  rewrite D at 2. replace (P * P * (x / (P * P)) + x mod (P * P))
    with (x mod (P * P) + (P * (x / (P * P))) * P) by ring.
  rewrite N.mod_add by exact H. reflexivity.
Qed.

Lemma subsem P x y : x < P -> y < P ->
  (x + P - y mod P) mod P = if y <=? x then x - y else P + x - y.
Proof.
  intros Hx Hy. rewrite (N.mod_small y P) by assumption.
  destruct (N.leb_spec y x).
  - symmetry. apply N.mod_unique with (q := 1); lia.
  - symmetry. apply N.mod_unique with (q := 0); lia.
Qed.

Lemma addsem P x y : x < P -> y < P ->
  (x + y) mod P = if x + y <? P then x + y else x + y - P.
Proof.
  intros Hx Hy. destruct (N.ltb_spec (x + y) P).
  - apply N.mod_small; assumption.
  - symmetry. apply N.mod_unique with (q := 1); lia.
Qed.

Lemma okp_ks_sub_cases t x y z k :
  (1 <= Nat.max (length x) (length y))%nat -> (length x <= k)%nat -> (length y <= k)%nat ->
  length z = k -> (k <= Nat.max (length x) (length y) + 1)%nat ->
  okp t (ks_subtractor x y z) (fun z' => length z' = k)
      (fun z' e => valN e z' = if valN e y <=? valN e x then valN e x - valN e y
                               else 2 ^ N.of_nat k + valN e x - valN e y).
Proof.
  intros Hm Lx Ly Lz Hw.
  eapply okp_weaken; [apply okp_ks_subtractor_narrow; lia | intros z' L; exact (eq_trans L Lz) |].
  cbv beta. intros z' e _ V. rewrite V, Lz. apply subsem; apply valN_pow_le; assumption.
Qed.

Lemma okp_ks_add_cases t x y z k :
  (1 <= Nat.max (length x) (length y))%nat -> (length x <= k)%nat -> (length y <= k)%nat ->
  (1 <= k)%nat -> length z = k ->
  okp t (ks_adder x y z) (fun z' => length z' = k)
      (fun z' e => valN e z' = if valN e x + valN e y <? 2 ^ N.of_nat k then valN e x + valN e y
                               else valN e x + valN e y - 2 ^ N.of_nat k).
Proof.
  intros Hm Lx Ly Hk Lz.
  eapply okp_weaken; [apply okp_ks_adder; lia | intros z' L; exact (eq_trans L Lz) |].
  cbv beta. intros z' e _ V. rewrite V, Lz. apply addsem; apply valN_pow_le; assumption.
Qed.

Lemma valN_one e o : e o = true -> valN e [o] = 1.
Proof. intros H. rewrite valN_cons, valN_nil, H. reflexivity. Qed.

Lemma okp_sub_const_one t q k : (1 <= k)%nat -> length q = k ->
  okp t (sub_const_one q) (fun r => length r = k)
      (fun r e => valN e r = if 1 <=? valN e q then valN e q - 1 else 2 ^ N.of_nat k + valN e q - 1).
Proof.
  intros Hk Lq. unfold sub_const_one.
  eapply okp_bind; [apply okp_of_okm, okm_one|]. intros o _. cbv beta.
  eapply okp_bind; [apply okp_fresh_n|]. intros out Lo. cbv beta in Lo |- *.
  eapply okp_weaken; [apply (okp_ks_sub_cases t q [o] out k); cbn [length]; lia | auto |].
  cbv beta. intros z' e _ V _ Ho. rewrite (valN_one e o Ho) in V. exact V.
Qed.

Lemma okp_add_const_one t q k : (1 <= k)%nat -> length q = k ->
  okp t (add_const_one q) (fun r => length r = k)
      (fun r e => valN e r = if valN e q + 1 <? 2 ^ N.of_nat k then valN e q + 1
                             else valN e q + 1 - 2 ^ N.of_nat k).
Proof.
  intros Hk Lq. unfold add_const_one.
  eapply okp_bind; [apply okp_of_okm, okm_one|]. intros o _. cbv beta.
  eapply okp_bind; [apply okp_fresh_n|]. intros out Lo. cbv beta in Lo |- *.
  eapply okp_weaken; [apply (okp_ks_add_cases t q [o] out k); cbn [length]; lia | auto |].
  cbv beta. intros z' e _ V _ Ho. rewrite (valN_one e o Ho) in V. exact V.
Qed.

(* With P = 2^n and qb = (Q*B) mod P:
     r    = A - qb           on n+1 bits, two's complement; low n bits Rlo, top bit neg
     rm   = Rlo - B          on n+1 bits;                   low n bits RMlo, top bit mb
     qFinal = neg ? Q-1 (mod P) : (not mb ? Q+1 (mod P) : Q)
     rFinal = neg ? Rlo+B (mod P) : (not mb ? RMlo : Rlo)                              *)
Definition corr_sem (P A B Q qf rf : N) : Prop :=
  let qb := (Q * B) mod P in
  exists (neg mb : bool) (Rlo RMlo : N),
    Rlo < P /\ RMlo < P /\
    (if qb <=? A then A - qb else 2 * P + A - qb) = Rlo + P * N.b2n neg /\
    (if B <=? Rlo then Rlo - B else 2 * P + Rlo - B) = RMlo + P * N.b2n mb /\
    qf = (if neg then (if 1 <=? Q then Q - 1 else P + Q - 1)
          else if negb mb then (if Q + 1 <? P then Q + 1 else Q + 1 - P) else Q) /\
    rf = (if neg then (if Rlo + B <? P then Rlo + B else Rlo + B - P)
          else if negb mb then RMlo else Rlo).

Theorem okm_gmw_correction_sem t a b q qFinal rFinal :
  (1 <= length a)%nat -> length b = length a -> length q = length a ->
  length qFinal = length a -> length rFinal = length a ->
  okm t (gmw_correction a b q qFinal rFinal)
      (fun _ e => corr_sem (2 ^ N.of_nat (length a)) (valN e a) (valN e b) (valN e q)
                           (valN e qFinal) (valN e rFinal)).
Proof.
  intros Hn Lb Lq Lqf Lrf. unfold gmw_correction. cbv zeta.
  set (n := length a) in *.
  eapply okm_bind_p; [apply okp_fresh_n | intros qbL0 LqbL0; cbv beta in LqbL0 |- *].
  eapply okm_bind_p; [apply okp_wallace_multiplier; lia | intros qbL LqbL; cbv beta in LqbL |- *].
  assert (Lqb : length (firstn n qbL) = n) by (rewrite firstn_length; lia).
  eapply okm_bind_p; [apply okp_fresh_n | intros r0 Lr0; cbv beta in Lr0 |- *].
  eapply okm_bind_p; [apply (okp_ks_sub_cases t a (firstn n qbL) r0 (S n)); lia
                     | intros r Lr; cbv beta in Lr |- *].
  assert (Lrl : length (firstn n r) = n) by (rewrite firstn_length; lia).
  eapply okm_bind_p; [apply (okp_sub_const_one t q n); lia | intros qm Lqm; cbv beta in Lqm |- *].
  eapply okm_bind_p; [apply (okp_add_const_one t q n); lia | intros qp Lqp; cbv beta in Lqp |- *].
  eapply okm_bind_p; [apply okp_fresh_n | intros rp0 Lrp0; cbv beta in Lrp0 |- *].
  eapply okm_bind_p; [apply (okp_ks_add_cases t (firstn n r) b rp0 n); lia
                     | intros rp Lrp; cbv beta in Lrp |- *].
  eapply okm_bind_p; [apply okp_fresh_n | intros rm0 Lrm0; cbv beta in Lrm0 |- *].
  eapply okm_bind_p; [apply (okp_ks_sub_cases t (firstn n r) b rm0 (S n)); lia
                     | intros rm Lrm; cbv beta in Lrm |- *].
  assert (Lrml : length (firstn n rm) = n) by (rewrite firstn_length; lia).
  eapply okm_bind; [apply okm_fresh | intros isGe; cbv beta].
  eapply okm_bind; [apply okm_cc_inv | intros ?; cbv beta].
  eapply okm_bind_p; [apply okp_fresh_n | intros qHigh LqH; cbv beta in LqH |- *].
  eapply okm_bind_p; [apply okp_fresh_n | intros rHigh LrH; cbv beta in LrH |- *].
  eapply okm_bind; [apply okm_new_mux; lia | intros ?; cbv beta].
  eapply okm_bind; [apply okm_new_mux; lia | intros ?; cbv beta].
  eapply okm_bind; [apply okm_new_mux; lia | intros ?; cbv beta].
  eapply okm_weaken; [apply okm_new_mux; lia|].
  cbv beta. intros _ e Hrf Hqf Hrh Hqh _ _ Hge _ Hrm _ Hrp _ Hqp Hqm Hr _ Hqb _.
  rewrite pow2_S in Hr, Hrm.
  set (P := 2 ^ N.of_nat n) in *.
  assert (HP : P <> 0) by (pose proof (pow2_pos n); unfold P; lia).
  assert (Vqb : valN e (firstn n qbL) = (valN e q * valN e b) mod P).
  { rewrite valN_firstn, Hqb, LqbL0, pow2_double. apply mod_sq_mod. exact HP. }
  rewrite Vqb in Hr.
  pose proof (valN_split_last e n r ltac:(lia)) as Sr.
  pose proof (valN_split_last e n rm ltac:(lia)) as Srm.
  pose proof (valN_pow_le e (firstn n r) n ltac:(lia)) as Brl.
  pose proof (valN_pow_le e (firstn n rm) n ltac:(lia)) as Brml.
  fold P in Sr, Srm, Brl, Brml.
  unfold corr_sem. cbv zeta.
  exists (e (nth n r 0)), (e (nth n rm 0)), (valN e (firstn n r)), (valN e (firstn n rm)).
  split; [exact Brl|]. split; [exact Brml|].
  split; [rewrite <- Hr; exact Sr|].
  split; [rewrite <- Hrm; exact Srm|].
  rewrite Hqf, Hrf, Hqh, Hrh, Hge, Hqm, Hqp, Hrp.
  split; reflexivity.
Qed.

Lemma wide_sub_cases P x y R (c : bool) : x < P -> y < P -> R < P ->
  (if y <=? x then x - y else 2 * P + x - y) = R + P * N.b2n c ->
  (c = false /\ y <= x /\ R = x - y) \/ (c = true /\ x < y /\ R + y = P + x).
Proof.
  intros Hx Hy HR E. destruct (N.leb_spec y x); destruct c; cbn [N.b2n] in E; [lia | left | right | lia].
  - split; [reflexivity|]. split; [assumption|lia].
  - split; [reflexivity|]. split; [assumption|lia].
Qed.

Lemma est_small P A B Q : A < P -> B <> 0 ->
  (Q = A / B \/ Q + 1 = A / B \/ (Q = A / B + 1 /\ Q * B < P)) -> Q * B < P.
Proof.
  intros HA HB0 Hest.
  pose proof (N.div_mod' A B) as D. pose proof (N.mod_lt A B HB0) as M.
  set (d := A / B) in *. set (m := A mod B) in *. clearbody d m.
  destruct Hest as [E|[E|[_ E]]].
  - subst Q. rewrite (N.mul_comm d B). lia.
  - assert (K : B * d = Q * B + B) by (rewrite <- E; ring). lia.
  - exact E.
Qed.

(* Each admissible estimate fixes both selector bits.  With T = Q * B (< P) and
   A = B * d + m:  Q = d gives A - T = m (no borrow, then m - B borrows);
   Q + 1 = d gives A - T = m + B (no borrow twice);  Q = d + 1 gives a borrow. *)
Lemma corr_arith P A B Q qf rf : A < P -> B < P -> Q < P -> B <> 0 ->
  (Q = A / B \/ Q + 1 = A / B \/ (Q = A / B + 1 /\ Q * B < P)) ->
  corr_sem P A B Q qf rf -> qf = A / B /\ rf = A mod B.
Proof.
  intros HA HB HQ HB0 Hest (neg & mb & Rlo & RMlo & H1 & H2 & H3 & H4 & -> & ->).
  pose proof (est_small P A B Q HA HB0 Hest) as HQB.
  rewrite (N.mod_small (Q * B) P) in H3 by exact HQB.
  pose proof (N.div_mod' A B) as D. pose proof (N.mod_lt A B HB0) as M.
  set (d := A / B) in *. set (m := A mod B) in *. clearbody d m.
  assert (Hd : d <= d * B) by (rewrite <- (N.mul_1_r d) at 1; apply N.mul_le_mono_l; lia).
  rewrite (N.mul_comm B d) in D.
  apply wide_sub_cases in H3; [|assumption..]. apply wide_sub_cases in H4; [|assumption..].
  destruct Hest as [E|[E|[E _]]].
  - subst Q. set (T := d * B) in *. clearbody T.
    destruct H3 as [(-> & _ & ->)|(_ & C & _)]; [|lia].
    destruct H4 as [(_ & C & _)|(-> & _ & _)]; [lia|]. cbn [negb]. lia.
  - subst d. rewrite N.mul_add_distr_r, N.mul_1_l in D, Hd. set (T := Q * B) in *. clearbody T.
    destruct H3 as [(-> & _ & ->)|(_ & C & _)]; [|lia].
    destruct H4 as [(-> & _ & ->)|(_ & C & _)]; [|lia]. cbn [negb].
    destruct (N.ltb_spec (Q + 1) P); lia.
  - subst Q. rewrite N.mul_add_distr_r, N.mul_1_l in H3, HQB. set (T := d * B) in *. clearbody T.
    destruct H3 as [(_ & C & _)|(-> & _ & ER)]; [lia|].
    destruct (N.leb_spec 1 (d + 1)); [|lia]. destruct (N.ltb_spec (Rlo + B) P); lia.
Qed.

(* an over-estimate whose product overflows n bits is never repaired: the
   truncated product Q * B - P is at most A, so there is no borrow and the
   circuit answers Q or Q + 1 *)
Lemma corr_arith_over_overflow P A B Q qf rf : A < P -> B < P -> Q < P -> B <> 0 ->
  Q = A / B + 1 -> P <= Q * B ->
  corr_sem P A B Q qf rf -> qf <> A / B.
Proof.
  intros HA HB HQ HB0 E Hov (neg & mb & Rlo & RMlo & H1 & H2 & H3 & H4 & -> & _).
  pose proof (N.div_mod' A B) as D. pose proof (N.mod_lt A B HB0) as M.
  set (d := A / B) in *. set (m := A mod B) in *. clearbody d m.
  subst Q. rewrite (N.mul_comm B d) in D. rewrite N.mul_add_distr_r, N.mul_1_l in H3, Hov.
  assert (T0 : d = 0 -> d * B = 0) by (intros ->; reflexivity).
  set (T := d * B) in *. clearbody T.
  assert (Em : (T + B) mod P = T + B - P) by (symmetry; apply N.mod_unique with (q := 1); lia).
  rewrite Em in H3. apply wide_sub_cases in H3; [|lia..].
  destruct H3 as [(-> & _ & _)|(_ & C & _)]; [|lia].
  destruct (negb mb); [|lia]. destruct (N.ltb_spec (d + 1 + 1) P); lia.
Qed.

Theorem okm_gmw_correction t a b q qFinal rFinal :
  (1 <= length a)%nat -> length b = length a -> length q = length a ->
  length qFinal = length a -> length rFinal = length a ->
  okm t (gmw_correction a b q qFinal rFinal)
      (fun _ e => let A := valN e a in let B := valN e b in let Q := valN e q in
         B <> 0 ->
         (Q = A / B \/ Q + 1 = A / B \/ (Q = A / B + 1 /\ Q * B < 2 ^ N.of_nat (length a))) ->
         valN e qFinal = A / B /\ valN e rFinal = A mod B).
Proof.
  intros Hn Lb Lq Lqf Lrf.
  eapply okm_weaken; [apply okm_gmw_correction_sem; assumption|].
  cbv beta zeta. intros _ e S HB0 Hest.
  pose proof (valN_lt e a) as BA. pose proof (valN_lt e b) as BB. pose proof (valN_lt e q) as BQ.
  rewrite Lb in BB. rewrite Lq in BQ.
  exact (corr_arith _ _ _ _ _ _ BA BB BQ HB0 Hest S).
Qed.

Corollary okm_gmw_correction_under t a b q qFinal rFinal :
  (1 <= length a)%nat -> length b = length a -> length q = length a ->
  length qFinal = length a -> length rFinal = length a ->
  okm t (gmw_correction a b q qFinal rFinal)
      (fun _ e => let A := valN e a in let B := valN e b in let Q := valN e q in
         B <> 0 -> (Q = A / B \/ Q + 1 = A / B) ->
         valN e qFinal = A / B /\ valN e rFinal = A mod B).
Proof.
  intros Hn Lb Lq Lqf Lrf.
  eapply okm_weaken; [apply okm_gmw_correction; assumption|].
  cbv beta zeta. intros _ e H HB0 Hest. apply H; [exact HB0|]. tauto.
Qed.

Corollary okm_gmw_correction_over t a b q qFinal rFinal :
  (1 <= length a)%nat -> length b = length a -> length q = length a ->
  length qFinal = length a -> length rFinal = length a ->
  okm t (gmw_correction a b q qFinal rFinal)
      (fun _ e => let A := valN e a in let B := valN e b in let Q := valN e q in
         B <> 0 -> Q = A / B + 1 -> Q * B < 2 ^ N.of_nat (length a) ->
         valN e qFinal = A / B /\ valN e rFinal = A mod B).
Proof.
  intros Hn Lb Lq Lqf Lrf.
  eapply okm_weaken; [apply okm_gmw_correction; assumption|].
  cbv beta zeta. intros _ e H HB0 E Hs. apply H; [exact HB0|]. right; right. split; assumption.
Qed.

(* the side condition of okm_gmw_correction_over is necessary *)
Theorem okm_gmw_correction_over_overflow t a b q qFinal rFinal :
  (1 <= length a)%nat -> length b = length a -> length q = length a ->
  length qFinal = length a -> length rFinal = length a ->
  okm t (gmw_correction a b q qFinal rFinal)
      (fun _ e => let A := valN e a in let B := valN e b in let Q := valN e q in
         B <> 0 -> Q = A / B + 1 -> 2 ^ N.of_nat (length a) <= Q * B ->
         valN e qFinal <> A / B).
Proof.
  intros Hn Lb Lq Lqf Lrf.
  eapply okm_weaken; [apply okm_gmw_correction_sem; assumption|].
  cbv beta zeta. intros _ e S HB0 E Hov.
  pose proof (valN_lt e a) as BA. pose proof (valN_lt e b) as BB. pose proof (valN_lt e q) as BQ.
  rewrite Lb in BB. rewrite Lq in BQ.
  exact (corr_arith_over_overflow _ _ _ _ _ _ BA BB BQ HB0 E Hov S).
Qed.

(* The plain "+-1" statement is false.
   Width 3: a = wires 0..2, b = 3..5, q = 6..8 (inputs), qFinal = 9..11, rFinal = 12..14.
   Inputs A = 7, B = 3, Q = 3 = 7/3 + 1 (input assignment = the bits of 223 = 7 + 8*3 + 64*3). *)
Definition corr3_gates : list gate :=
  gates (snd (gmw_correction [0; 1; 2] [3; 4; 5] [6; 7; 8] [9; 10; 11] [12; 13; 14] (st0 15 true))).

Example gmw_correction_w3_counterexample :
  wfc_b 9 corr3_gates = true /\
  let e := eval_rev corr3_gates (N.testbit 223) in
  valN e [0; 1; 2] = 7 /\ valN e [3; 4; 5] = 3 /\ valN e [6; 7; 8] = 3 /\
  valN e [9; 10; 11] = 4 /\ valN e [12; 13; 14] = 3.
Proof. vm_compute. repeat split; reflexivity. Qed.

Definition gmw_correction_pm1_statement : Prop :=
  forall t a b q qFinal rFinal,
    (1 <= length a)%nat -> length b = length a -> length q = length a ->
    length qFinal = length a -> length rFinal = length a ->
    okm t (gmw_correction a b q qFinal rFinal)
        (fun _ e => let A := valN e a in let B := valN e b in let Q := valN e q in
           B <> 0 -> (Q = A / B \/ Q + 1 = A / B \/ Q = A / B + 1) ->
           valN e qFinal = A / B /\ valN e rFinal = A mod B).

Theorem gmw_correction_pm1_refuted : ~ gmw_correction_pm1_statement.
Proof.
  intros H.
  specialize (H true [0; 1; 2] [3; 4; 5] [6; 7; 8] [9; 10; 11] [12; 13; 14]
                (le_n_S _ _ (Nat.le_0_l _)) eq_refl eq_refl eq_refl eq_refl).
  destruct (H (st0 15 true) (wfs_st0 _ _) eq_refl) as (u & s' & E & _ & _ & HP).
  assert (Es : gates s' = corr3_gates) by (unfold corr3_gates; rewrite E; reflexivity).
  destruct gmw_correction_w3_counterexample as (W & VA & VB & VQ & Vq & Vr).
  specialize (HP (eval_rev corr3_gates (N.testbit 223))).
  rewrite Es in HP. specialize (HP (eval_rev_sat 9 _ _ W)).
  cbv zeta in HP. rewrite VA, VB, VQ, Vq, Vr in HP.
  destruct HP as [K _]; [discriminate | right; right; reflexivity | discriminate K].
Qed.
