(* C07: NewBinaryAND / NewBinaryOR / NewBinaryXOR / NewBinaryClear
   (Bitwise.v) compute N.land / N.lor / N.lxor / N.ldiff of the zero padded
   operands, truncated to the width of the result, for both targets and every
   width of the operands, when the result is no wider than the wider operand
   (the wires of a wider result beyond that width are not driven). *)
From Coq Require Import NArith List Bool Arith Lia.
From Mpc Require Import Builders.Emit Builders.EmitProof Builders.Bitwise.
Import ListNotations.
Open Scope N_scope.

Fixpoint zipb (op : bool -> bool -> bool) (a b : list bool) : list bool :=
  match a, b with
  | ai :: a', bi :: b' => op ai bi :: zipb op a' b'
  | _, _ => []
  end.

Definition padb (bs : list bool) (n : nat) : list bool := bs ++ repeat false (n - length bs).

Lemma padb_length bs n : length (padb bs n) = Nat.max n (length bs).
Proof. unfold padb. rewrite app_length, repeat_length. lia. Qed.

Lemma pad_bits e ws x n : pad_shape ws x n -> pad_zero e ws x -> map e ws = padb (map e x) n.
Proof.
  intros (zw & ->) Z. unfold pad_zero in Z.
  rewrite skipn_app, Nat.sub_diag, skipn_all in Z. cbn in Z.
  unfold padb. rewrite map_app, map_length. f_equal.
  remember (n - length x)%nat as k. clear Heqk.
  induction k; cbn; [reflexivity|]. f_equal.
  - apply Z. cbn. auto.
  - apply IHk. intros w H. apply Z. cbn. auto.
Qed.

Definition bitop_spec (op : bool -> bool -> bool) (Nop : N -> N -> N) : Prop :=
  forall a b n, N.testbit (Nop a b) n = op (N.testbit a n) (N.testbit b n).

Lemma Nop_double op Nop : bitop_spec op Nop ->
  forall b c a d, Nop (N.b2n b + 2 * a) (N.b2n c + 2 * d) = N.b2n (op b c) + 2 * Nop a d.
Proof.
  intros S b c a d. apply N.bits_inj. intros n.
  rewrite S, !(N.add_comm (N.b2n _)).
  destruct n as [|p] using N.peano_ind.
  - rewrite !N.testbit_0_r. reflexivity.
  - rewrite !N.testbit_succ_r, S. reflexivity.
Qed.

Lemma Nop_00 op Nop : bitop_spec op Nop -> op false false = false -> Nop 0 0 = 0.
Proof.
  intros S H. apply N.bits_inj. intros n. rewrite S, N.bits_0. exact H.
Qed.

Lemma to_N_zipb op Nop : bitop_spec op Nop -> op false false = false ->
  forall a b, length a = length b -> to_N (zipb op a b) = Nop (to_N a) (to_N b).
Proof.
  intros S H0. induction a as [|ai a IH]; intros [|bi b] L; try discriminate.
  - cbn. symmetry. apply (Nop_00 op Nop S H0).
  - cbn [zipb to_N]. rewrite IH by (cbn in L; lia). symmetry. apply (Nop_double op Nop S).
Qed.

Lemma Nop_mod op Nop : bitop_spec op Nop -> op false false = false ->
  forall a b k, Nop (a mod 2 ^ k) (b mod 2 ^ k) = Nop a b mod 2 ^ k.
Proof.
  intros S H0 a b k. apply N.bits_inj. intros n. rewrite S.
  destruct (N.lt_ge_cases n k) as [L|L].
  - rewrite !N.mod_pow2_bits_low by exact L. rewrite S. reflexivity.
  - rewrite !N.mod_pow2_bits_high by exact L. exact H0.
Qed.

Lemma land_bitop : bitop_spec andb N.land.
Proof. intros a b n. apply N.land_spec. Qed.
Lemma lor_bitop : bitop_spec orb N.lor.
Proof. intros a b n. apply N.lor_spec. Qed.
Lemma lxor_bitop : bitop_spec xorb N.lxor.
Proof. intros a b n. apply N.lxor_spec. Qed.
Definition andnb (a b : bool) : bool := a && negb b.
Lemma ldiff_bitop : bitop_spec andnb N.ldiff.
Proof. intros a b n. apply N.ldiff_spec. Qed.

Lemma land_double b c a d :
  N.land (N.b2n b + 2 * a) (N.b2n c + 2 * d) = N.b2n (b && c) + 2 * N.land a d.
Proof. apply (Nop_double andb N.land land_bitop). Qed.
Lemma lor_double b c a d :
  N.lor (N.b2n b + 2 * a) (N.b2n c + 2 * d) = N.b2n (b || c) + 2 * N.lor a d.
Proof. apply (Nop_double orb N.lor lor_bitop). Qed.
Lemma lxor_double b c a d :
  N.lxor (N.b2n b + 2 * a) (N.b2n c + 2 * d) = N.b2n (xorb b c) + 2 * N.lxor a d.
Proof. apply (Nop_double xorb N.lxor lxor_bitop). Qed.
Lemma ldiff_double b c a d :
  N.ldiff (N.b2n b + 2 * a) (N.b2n c + 2 * d) = N.b2n (b && negb c) + 2 * N.ldiff a d.
Proof. apply (Nop_double andnb N.ldiff ldiff_bitop). Qed.

Lemma okm_bitwise_loop t f op :
  (forall a b o, okm t (f a b o) (fun _ e => e o = op (e a) (e b))) ->
  forall x y r, length x = length r -> length y = length r ->
  okm t (bitwise_loop f x y r) (fun _ e => map e r = zipb op (map e x) (map e y)).
Proof.
  intros Hf. induction x as [|xi x IH]; intros y r Lx Ly.
  - destruct r; try discriminate. destruct y; try discriminate.
    cbn. apply okm_ret. reflexivity.
  - destruct r as [|ri r]; try discriminate. destruct y as [|yi y]; try discriminate.
    cbn [bitwise_loop]. mstepn (Hf xi yi ri) u.
    eapply okm_weaken; [apply IH; cbn in *; lia|].
    cbn. intros _ e H H1. rewrite H, H1. reflexivity.
Qed.

Lemma okm_bitwise_core t f op x y r :
  (forall a b o, okm t (f a b o) (fun _ e => e o = op (e a) (e b))) ->
  (length r <= Nat.max (length x) (length y))%nat ->
  okm t (bitwise f x y r)
      (fun _ e => exists x' y',
           let mx := Nat.max (length x) (length y) in
           pad_shape x' x mx /\ pad_shape y' y mx /\ pad_zero e x' x /\ pad_zero e y' y /\
           map e r = zipb op (map e (firstn (length r) x')) (map e (firstn (length r) y'))).
Proof.
  intros Hf Lr. unfold bitwise.
  eapply okm_bind_p; [apply okp_zero_pad|]. intros [x' y'] [Sx Sy]. cbn [fst snd] in *.
  pose proof (pad_shape_len _ _ _ Sx) as Lx. pose proof (pad_shape_len _ _ _ Sy) as Ly.
  eapply okm_weaken; [apply (okm_bitwise_loop t f op Hf); rewrite firstn_length; lia|].
  cbn. intros _ e H [Zx Zy]. exists x', y'. auto.
Qed.

Theorem okm_bitwise_bits t f op x y r :
  (forall a b o, okm t (f a b o) (fun _ e => e o = op (e a) (e b))) ->
  (length r <= Nat.max (length x) (length y))%nat ->
  okm t (bitwise f x y r)
      (fun _ e => let mx := Nat.max (length x) (length y) in
                  map e r = zipb op (firstn (length r) (padb (map e x) mx))
                                    (firstn (length r) (padb (map e y) mx))).
Proof.
  intros Hf Lr. eapply okm_weaken; [apply (okm_bitwise_core t f op x y r Hf Lr)|].
  cbn. intros _ e (x' & y' & Sx & Sy & Zx & Zy & H).
  rewrite H, <- !firstn_map, (pad_bits e x' x _ Sx Zx), (pad_bits e y' y _ Sy Zy). reflexivity.
Qed.

Theorem okm_bitwise_N t f op Nop x y r :
  bitop_spec op Nop -> op false false = false ->
  (forall a b o, okm t (f a b o) (fun _ e => e o = op (e a) (e b))) ->
  (length r <= Nat.max (length x) (length y))%nat ->
  okm t (bitwise f x y r)
      (fun _ e => valN e r = Nop (valN e x) (valN e y) mod 2 ^ N.of_nat (length r)).
Proof.
  intros S H0 Hf Lr. eapply okm_weaken; [apply (okm_bitwise_core t f op x y r Hf Lr)|].
  cbn. intros _ e (x' & y' & Sx & Sy & Zx & Zy & H).
  pose proof (pad_shape_len _ _ _ Sx) as Lx. pose proof (pad_shape_len _ _ _ Sy) as Ly.
  unfold valN at 1. rewrite H, (to_N_zipb op Nop S H0).
  - fold (valN e (firstn (length r) x')). fold (valN e (firstn (length r) y')).
    rewrite !valN_firstn, (pad_val e x' x _ Sx Zx), (pad_val e y' y _ Sy Zy).
    apply (Nop_mod op Nop S H0).
  - rewrite !map_length, !firstn_length. lia.
Qed.

Theorem okm_bitwise_N_full t f op Nop x y r :
  bitop_spec op Nop -> op false false = false ->
  (forall a b o, okm t (f a b o) (fun _ e => e o = op (e a) (e b))) ->
  length r = Nat.max (length x) (length y) ->
  okm t (bitwise f x y r) (fun _ e => valN e r = Nop (valN e x) (valN e y)).
Proof.
  intros S H0 Hf Lr.
  eapply okm_weaken; [apply (okm_bitwise_N t f op Nop x y r S H0 Hf); lia|].
  cbn. intros _ e H. rewrite H, <- (Nop_mod op Nop S H0), !valN_small by lia. reflexivity.
Qed.

Lemma okm_and_gate t a b o : okm t (emit AND a b o) (fun _ e => e o = e a && e b).
Proof. apply okm_emit. Qed.
Lemma okm_xor_gate t a b o : okm t (emit XOR a b o) (fun _ e => e o = xorb (e a) (e b)).
Proof. apply okm_emit. Qed.
Lemma okm_clear_gate t a b o :
  okm t (w <- fresh;; cc_inv b w;; emit AND a w o) (fun _ e => e o = andnb (e a) (e b)).
Proof.
  mstepn okm_fresh w. mstepn okm_cc_inv u.
  eapply okm_weaken; [apply okm_emit|]. cbn. intros _ e H H1 _. rewrite H, H1. reflexivity.
Qed.

Theorem okm_binary_and t x y r :
  length r = Nat.max (length x) (length y) ->
  okm t (binary_and x y r) (fun _ e => valN e r = N.land (valN e x) (valN e y)).
Proof.
  intros L. apply (okm_bitwise_N_full t _ andb N.land x y r land_bitop eq_refl (okm_and_gate t) L).
Qed.

Theorem okm_binary_and_trunc t x y r :
  (length r <= Nat.max (length x) (length y))%nat ->
  okm t (binary_and x y r)
      (fun _ e => valN e r = N.land (valN e x) (valN e y) mod 2 ^ N.of_nat (length r)).
Proof.
  intros L. apply (okm_bitwise_N t _ andb N.land x y r land_bitop eq_refl (okm_and_gate t) L).
Qed.

Theorem okm_binary_and_bits t x y r :
  (length r <= Nat.max (length x) (length y))%nat ->
  okm t (binary_and x y r)
      (fun _ e => let mx := Nat.max (length x) (length y) in
                  map e r = zipb andb (firstn (length r) (padb (map e x) mx))
                                      (firstn (length r) (padb (map e y) mx))).
Proof. intros L. apply (okm_bitwise_bits t _ andb x y r (okm_and_gate t) L). Qed.

Theorem okm_binary_or t x y r :
  length r = Nat.max (length x) (length y) ->
  okm t (binary_or x y r) (fun _ e => valN e r = N.lor (valN e x) (valN e y)).
Proof.
  intros L. apply (okm_bitwise_N_full t _ orb N.lor x y r lor_bitop eq_refl (okm_cc_or t) L).
Qed.

Theorem okm_binary_or_trunc t x y r :
  (length r <= Nat.max (length x) (length y))%nat ->
  okm t (binary_or x y r)
      (fun _ e => valN e r = N.lor (valN e x) (valN e y) mod 2 ^ N.of_nat (length r)).
Proof.
  intros L. apply (okm_bitwise_N t _ orb N.lor x y r lor_bitop eq_refl (okm_cc_or t) L).
Qed.

Theorem okm_binary_or_bits t x y r :
  (length r <= Nat.max (length x) (length y))%nat ->
  okm t (binary_or x y r)
      (fun _ e => let mx := Nat.max (length x) (length y) in
                  map e r = zipb orb (firstn (length r) (padb (map e x) mx))
                                     (firstn (length r) (padb (map e y) mx))).
Proof. intros L. apply (okm_bitwise_bits t _ orb x y r (okm_cc_or t) L). Qed.

Theorem okm_binary_xor t x y r :
  length r = Nat.max (length x) (length y) ->
  okm t (binary_xor x y r) (fun _ e => valN e r = N.lxor (valN e x) (valN e y)).
Proof.
  intros L. apply (okm_bitwise_N_full t _ xorb N.lxor x y r lxor_bitop eq_refl (okm_xor_gate t) L).
Qed.

Theorem okm_binary_xor_trunc t x y r :
  (length r <= Nat.max (length x) (length y))%nat ->
  okm t (binary_xor x y r)
      (fun _ e => valN e r = N.lxor (valN e x) (valN e y) mod 2 ^ N.of_nat (length r)).
Proof.
  intros L. apply (okm_bitwise_N t _ xorb N.lxor x y r lxor_bitop eq_refl (okm_xor_gate t) L).
Qed.

Theorem okm_binary_xor_bits t x y r :
  (length r <= Nat.max (length x) (length y))%nat ->
  okm t (binary_xor x y r)
      (fun _ e => let mx := Nat.max (length x) (length y) in
                  map e r = zipb xorb (firstn (length r) (padb (map e x) mx))
                                      (firstn (length r) (padb (map e y) mx))).
Proof. intros L. apply (okm_bitwise_bits t _ xorb x y r (okm_xor_gate t) L). Qed.

Theorem okm_binary_clear t x y r :
  length r = Nat.max (length x) (length y) ->
  okm t (binary_clear x y r) (fun _ e => valN e r = N.ldiff (valN e x) (valN e y)).
Proof.
  intros L. apply (okm_bitwise_N_full t _ andnb N.ldiff x y r ldiff_bitop eq_refl (okm_clear_gate t) L).
Qed.

Theorem okm_binary_clear_trunc t x y r :
  (length r <= Nat.max (length x) (length y))%nat ->
  okm t (binary_clear x y r)
      (fun _ e => valN e r = N.ldiff (valN e x) (valN e y) mod 2 ^ N.of_nat (length r)).
Proof.
  intros L. apply (okm_bitwise_N t _ andnb N.ldiff x y r ldiff_bitop eq_refl (okm_clear_gate t) L).
Qed.

Theorem okm_binary_clear_bits t x y r :
  (length r <= Nat.max (length x) (length y))%nat ->
  okm t (binary_clear x y r)
      (fun _ e => let mx := Nat.max (length x) (length y) in
                  map e r = zipb andnb (firstn (length r) (padb (map e x) mx))
                                       (firstn (length r) (padb (map e y) mx))).
Proof. intros L. apply (okm_bitwise_bits t _ andnb x y r (okm_clear_gate t) L). Qed.
