(* C07: structural lemmas (single assignment, defined before use) for
   NewArrayMultiplier (every width), the Karatsuba multiplier and NewMultiplier
   under the Yao target, and the theorems about the EVALUATED circuits. *)
From Coq Require Import NArith List Bool Arith Lia.
From Mpc Require Import Base.ListFacts Builders.Emit Builders.StructProof
  Builders.StructAdder Builders.StructArith Builders.Adder Builders.Mult Builders.MultProof
  Builders.KaratsubaProof.
Import ListNotations.
Open Scope N_scope.

Section A.
Variable ninp : N.
Notation defd := (defd ninp). Notation pend := (pend ninp). Notation wfst := (wfst ninp).
Notation step := (step ninp). Notation oks := (@oks ninp _).

Lemma oks_ret_bind {X Y} (a : X) (f : X -> M Y) s (Q : Y -> st -> Prop) :
  oks (f a) s Q -> oks (bind (ret a) f) s Q.
Proof. intros (b & s' & E & H). exists b, s'. split; auto. Qed.

Lemma am_ands_s : forall xs yj s, wfst s -> Forall (defd s) xs -> defd s yj ->
  oks (am_ands xs yj) s (fun r s' => step s s' [] /\ Forall (defd s') r /\ length r = length xs).
Proof.
  induction xs as [|xn xs IH]; intros yj s W Fx Dy; cbn [am_ands].
  - apply oks_ret; auto. split; [apply step_refl|]. split; [constructor|reflexivity].
  - apply Forall_cons_iff in Fx as (Dx & Fx').
    apply gate_s; auto. intros w s1 W1 S1 D1.
    eapply oks_bind; [apply IH; [auto|eapply Forall_defd_step; eauto|sdb]|].
    intros r s2 W2 (S2 & F2 & L2). cbv beta.
    apply oks_ret; auto. split; [exact (step_trans_nil_l _ _ _ _ _ S1 S2)|]. split.
    + constructor; [sdb|auto].
    + cbn. congruence.
Qed.

Lemma am_row0_ands xs y0 : am_row0 xs y0 = am_ands xs y0.
Proof. induction xs as [|xn xs IH]; cbn; [reflexivity|]. rewrite IH. reflexivity. Qed.

Lemma am_row0_s xs y0 s : wfst s -> Forall (defd s) xs -> defd s y0 ->
  oks (am_row0 xs y0) s (fun r s' => step s s' [] /\ Forall (defd s') r /\ length r = length xs).
Proof. rewrite am_row0_ands. apply am_ands_s. Qed.

Lemma am_sums_s : forall ands sums c s,
  wfst s -> Forall (defd s) ands -> Forall (defd s) sums -> defd s c ->
  oks (am_sums ands sums c) s
      (fun p s' => step s s' [] /\ Forall (defd s') (fst p) /\ defd s' (snd p) /\
                   length (fst p) = length ands).
Proof.
  induction ands as [|a ands IH]; intros sums c s W Fa Fs Dc; cbn [am_sums].
  - apply oks_ret; auto. cbn. split; [apply step_refl|]. auto.
  - apply Forall_cons_iff in Fa as (Da & Fa').
    apply oks_fresh; [exact W|]. intros cout s1 W1 (E1 & P1 & S1 & N1).
    apply oks_fresh; [exact W1|]. intros so s2 W2 (E2 & P2 & S2 & N2).
    eapply oks_then with (w1 := [so; cout]) (P := fun _ s' => defd s' so /\ defd s' cout); [|sincl|].
    { destruct sums as [|si sums'].
      - eapply oks_conseq; [apply half_adder_s; [auto|sdb|sdb|sp|]|].
        + intros cw [= <-]. split; [sp|unfold wire in *; lia].
        + cbv beta. intros _ s3 W3 (S3 & D3 & D4). cbn [optl app] in S3. auto.
      - apply Forall_cons_iff in Fs as (Dsi & _).
        eapply oks_conseq; [apply full_adder_s; [auto|sdb|sdb|sdb|sp|]|].
        + intros cw [= <-]. split; [sp|unfold wire in *; lia].
        + cbv beta. intros _ s3 W3 (S3 & D3 & D4). cbn [optl app] in S3. auto. }
    intros _ s3 W3 S3 (D3 & D4).
    eapply oks_then; [apply IH; [auto|sfd|apply Forall_tl; sfd|exact D4]|sincl|].
    intros [ns c'] s4 W4 S4 (F4 & D5 & L4). cbn [fst snd] in *.
    apply oks_ret; auto. cbn [fst snd]. split; [apply step_nil_any, step_refl|].
    split; [constructor; [sdb|auto]|]. split; [auto|]. cbn. congruence.
Qed.

Lemma am_layer_s s x yj zj sums :
  wfst s -> Forall (defd s) x -> (1 <= length x)%nat -> defd s yj -> pend s zj ->
  Forall (defd s) sums ->
  oks (am_layer x yj zj sums) s
      (fun sums' s' => step s s' [zj] /\ defd s' zj /\ Forall (defd s') sums' /\
                       length sums' = length x).
Proof.
  intros W Fx Lx Dy Pz Fs. unfold am_layer. pose proof (pend_next _ _ _ Pz) as Lz.
  eapply oks_then; [apply am_ands_s; auto|sincl|]. intros ands s1 W1 S1 (F1 & L1).
  destruct ands as [|a0 ands']; [cbn in L1; lia|].
  apply Forall_cons_iff in F1 as (Da0 & Fa').
  apply oks_fresh; [exact W1|]. intros cout s2 W2 (E2 & P2 & S2 & N2).
  eapply oks_then; [apply half_adder_s; [auto|sdb|apply defd_nth; [auto|sfd]|sp|]|sincl|].
  { intros cw [= <-]. split; [auto|]. pose proof (step_next _ _ _ _ S1). unfold wire in *. lia. }
  intros _ s3 W3 S3 (D3 & D4). specialize (D4 _ eq_refl).
  eapply oks_then; [apply am_sums_s; [auto|sfd|apply Forall_tl; sfd|exact D4]|sincl|].
  intros [ns c] s4 W4 S4 (F4 & D5 & L4). cbn [fst snd] in *.
  apply oks_ret; auto. split; [apply step_nil_any, step_refl|]. split; [sdb|split].
  - apply Forall_app; split; auto.
  - rewrite app_length. cbn in *. lia.
Qed.

Lemma am_layers_s x : forall ys zs sums s,
  wfst s -> Forall (defd s) x -> (1 <= length x)%nat -> Forall (defd s) ys ->
  Forall (pend s) zs -> NoDup zs -> (length ys <= length zs)%nat -> Forall (defd s) sums ->
  oks (am_layers x ys zs sums) s
      (fun sums' s' => step s s' (firstn (length ys) zs) /\
                       Forall (defd s') (firstn (length ys) zs) /\ Forall (defd s') sums').
Proof.
  induction ys as [|yj ys IH]; intros zs sums s W Fx Lx Fy Pz ND Lz Fs; cbn [am_layers].
  - apply oks_ret; auto. cbn. split; [apply step_refl|]. split; auto.
  - destruct zs as [|zj zs]; [cbn in Lz; lia|]. cbn [nth tl length firstn] in *.
    apply Forall_cons_iff in Fy as (Dy & Fy'). apply Forall_cons_iff in Pz as (Pzj & Pz').
    apply NoDup_cons_iff in ND as (Nz & ND').
    eapply oks_bind; [apply am_layer_s; auto|]. intros sums' s1 W1 (S1 & D1 & F1 & L1). cbv beta.
    eapply oks_conseq; [apply IH; auto; try lia;
                        try (eapply Forall_defd_step; [exact S1|assumption])|].
    + eapply Forall_pend_step; [exact S1|exact Pz'|]. intros w Hin [E|[]]; subst; auto.
    + cbv beta. intros sums'' s2 W2 (S2 & F2 & F3). split; [|split; auto].
      * eapply step_weaken; [eapply step_trans; eauto|]. cbn. apply incl_refl.
      * constructor; [sdb|auto].
Qed.

Lemma am_final_add_s s (i0 : bool) a sums c zi cout :
  wfst s -> defd s a -> Forall (defd s) sums -> (i0 = true \/ defd s c) ->
  pend s zi -> pend s cout -> cout <> zi ->
  oks (if i0 then half_adder a (nth 0 sums 0) zi (Some cout)
       else match sums with
            | [] => half_adder a c zi (Some cout)
            | si :: _ => full_adder a si c zi (Some cout)
            end) s
      (fun _ s' => step s s' [zi; cout] /\ defd s' zi /\ defd s' cout).
Proof.
  intros W Da Fs Hc Pz Pc Nc.
  assert (HC : forall cw, Some cout = Some cw -> pend s cw /\ cw <> zi) by (intros cw [= <-]; auto).
  destruct i0.
  - eapply oks_conseq; [apply half_adder_s; auto; apply defd_nth; auto|].
    cbv beta. intros _ s1 W1 (S1 & D1 & D2). cbn [optl app] in S1. auto.
  - destruct Hc as [Hc|Dc]; [discriminate|]. destruct sums as [|si sums'].
    + eapply oks_conseq; [apply half_adder_s; auto|].
      cbv beta. intros _ s1 W1 (S1 & D1 & D2). cbn [optl app] in S1. auto.
    + apply Forall_cons_iff in Fs as (Dsi & _).
      eapply oks_conseq; [apply full_adder_s; auto|].
      cbv beta. intros _ s1 W1 (S1 & D1 & D2). cbn [optl app] in S1. auto.
Qed.

(* The final layer writes zs[0 .. len xs - 1] and, if it exists, zs[len xs] (the
   last carry).  Invariant for the incoming carry c: it is defined, or this is
   position 0 (c unused), or the destinations have run out (zs = []: no adder is
   emitted any more, so the never-driven fresh carry wire is not read). *)
Lemma am_final_s : forall xs i0 yj sums zs c s,
  wfst s -> Forall (defd s) xs -> defd s yj -> Forall (defd s) sums ->
  Forall (pend s) zs -> NoDup zs ->
  (i0 = true \/ defd s c \/ zs = []) -> xs <> [] ->
  oks (am_final i0 xs yj sums zs c) s
      (fun _ s' => step s s' (firstn (length xs + 1) zs) /\
                   Forall (defd s') (firstn (length xs + 1) zs)).
Proof.
  induction xs as [|xn xs' IH]; intros i0 yj sums zs c s W Fx Dy Fs Pz ND Hc Hne; [congruence|].
  cbn [am_final]. apply Forall_cons_iff in Fx as (Dx & Fx').
  apply gate_s; auto. intros a s2 W2 S2 D2.
  apply (oks_after _ _ s s2 _ _ S2).
  assert (Pz2 : Forall (pend s2) zs) by (eapply Forall_pend_step0; eauto).
  assert (Fs2 : Forall (defd s2) sums) by (eapply Forall_defd_step; eauto).
  assert (Hc2 : i0 = true \/ defd s2 c \/ zs = []) by (destruct Hc as [?|[?|?]]; auto; right; left; sdb).
  (* the carry wire allocated next (at s2) never counts as written *)
  assert (FR : forall s' wr wr', step s2 s' wr ->
                 (forall v, In v wr -> v = next s2 \/ In v wr') -> step s2 s' wr').
  { intros s' wr wr' S H. eapply step_weaken_fresh; [exact S|].
    intros v Hv. destruct (H v Hv) as [->|Hin]; [right; lia|left; exact Hin]. }
  destruct xs' as [|x2 xs''].
  - destruct zs as [|zi [|zn zs'']]; cbn [tl length Nat.add firstn].
    + sbind fresh_s. intros cout s3 W3 (E3 & P3 & S3 & N3). cbv beta.
      apply oks_ret_bind. cbn [am_final]. apply oks_ret; auto.
    + apply Forall_cons_iff in Pz2 as (Pzi & _). pose proof (pend_next _ _ _ Pzi) as Lzi.
      sbind fresh_s. intros cout s3 W3 (E3 & P3 & S3 & N3). cbv beta.
      eapply oks_bind; [apply am_final_add_s; [auto|sdb| | |sp|auto|unfold wire in *; lia]|].
      { eapply Forall_defd_step; eauto. }
      { destruct Hc2 as [?|[?|?]]; [auto|right; sdb|discriminate]. }
      intros _ s4 W4 (S4 & D4 & D5). cbv beta. cbn [am_final]. apply oks_ret; auto.
      split; [|constructor; [auto|constructor]].
      apply (FR s4 _ _ (step_trans_nil_l _ _ _ _ _ S3 S4)). subst cout. cbn. intuition.
    + apply Forall_cons_iff in Pz2 as (Pzi & Pz2'). apply Forall_cons_iff in Pz2' as (Pzn & _).
      apply NoDup_cons_iff in ND as (Nzi & _).
      apply oks_ret_bind.
      eapply oks_bind; [apply am_final_add_s; [auto|sdb|auto| |auto|auto|]|].
      { destruct Hc2 as [?|[?|?]]; [auto|right; sdb|discriminate]. }
      { intro; subst; apply Nzi; cbn; auto. }
      intros _ s4 W4 (S4 & D4 & D5). cbv beta. cbn [am_final]. apply oks_ret; auto.
  - cbv iota. remember (x2 :: xs'') as xs' eqn:Exs.
    assert (Hne' : xs' <> []) by (subst xs'; discriminate).
    change (length (xn :: xs') + 1)%nat with (S (length xs' + 1)).
    destruct zs as [|zi zs'].
    + cbn [tl firstn].
      eapply oks_bind; [apply fresh_s; auto|]. intros cout s3 W3 (E3 & P3 & S3 & N3). cbv beta.
      apply oks_ret_bind. apply (oks_after _ _ s2 s3 _ _ S3).
      eapply oks_conseq; [apply IH; [auto| | sdb | | constructor | constructor | right; right; reflexivity | auto]|].
      * eapply Forall_impl; [|exact Fx']. intros; sdb.
      * apply Forall_tl. eapply Forall_defd_step; eauto.
      * cbv beta. intros _ s4 W4 (S4 & F4). rewrite firstn_nil in S4. split; [exact S4|constructor].
    + cbn [tl firstn] in *.
      apply Forall_cons_iff in Pz2 as (Pzi & Pz2'). pose proof (pend_next _ _ _ Pzi) as Lzi.
      apply NoDup_cons_iff in ND as (Nzi & ND').
      eapply oks_bind; [apply fresh_s; auto|]. intros cout s3 W3 (E3 & P3 & S3 & N3). cbv beta.
      eapply oks_bind; [apply am_final_add_s; [auto|sdb| | |sp|auto|unfold wire in *; lia]|].
      { eapply Forall_defd_step; eauto. }
      { destruct Hc2 as [?|[?|?]]; [auto|right; sdb|discriminate]. }
      intros _ s4 W4 (S4 & D4 & D5). cbv beta.
      assert (Pz4 : Forall (pend s4) zs').
      { eapply Forall_pend_step; [exact S4|eapply Forall_pend_step0; eauto|].
        intros w Hin [E|[E|[]]]; subst w; [auto|].
        rewrite Forall_forall in Pz2'. pose proof (pend_next _ _ _ (Pz2' _ Hin)).
        pose proof (step_next _ _ _ _ S3). unfold wire in *. lia. }
      eapply oks_conseq; [apply IH; [auto| | sdb | | exact Pz4 | exact ND' | right; left; exact D5 | auto]|].
      * eapply Forall_impl; [|exact Fx']. intros; sdb.
      * apply Forall_tl. eapply Forall_impl; [|exact Fs2]. intros; sdb.
      * cbv beta. intros _ s5 W5 (S5 & F5). split; [|constructor; [sdb|auto]].
        apply (FR s5 _ _ (step_trans_nil_l _ _ _ _ _ S3 (step_trans _ _ _ _ _ _ S4 S5))).
        subst cout. cbn. intuition.
Qed.

Lemma array_multiplier_s s x y z :
  wfst s -> Forall (defd s) x -> Forall (defd s) y -> Forall (pend s) z -> NoDup z ->
  (1 <= length z)%nat -> (1 <= Nat.max (length x) (length y))%nat ->
  oks (array_multiplier x y z) s
      (fun z' s' => step s s' z /\ Forall (defd s') z' /\ length z' = length z).
Proof.
  intros W Fx Fy Pz ND Hz Hm. unfold array_multiplier.
  eapply oks_bind; [apply (zero_pad_firstn_s _ _ _ _ (length z)); auto|].
  intros [x' y'] s1 W1 (S1 & Fx2 & Fy2 & Lx2 & Ly2). cbn [fst snd] in *. cbv beta iota zeta.
  apply (oks_after _ _ s s1 _ _ S1).
  generalize dependent (firstn (length z) x'). intros x2 Fx2 Lx2.
  generalize dependent (firstn (length z) y'). intros y2 Fy2 Ly2.
  assert (Pz1 : Forall (pend s1) z) by (eapply Forall_pend_step0; eauto).
  destruct z as [|z0 zt]; [cbn in Hz; lia|].
  pose proof Pz1 as Pz1'. apply Forall_cons_iff in Pz1' as (Pz0 & Pzt).
  pose proof ND as ND0. apply NoDup_cons_iff in ND0 as (Nz0 & NDt).
  cbn [nth tl].
  destruct (Nat.eqb (length x2) 1) eqn:E1.
  - apply (zero_tail_after _ _ (z0 :: zt) 1).
    eapply oks_conseq; [apply emit_s; [auto|apply defd_nth; auto|apply defd_nth; auto|exact Pz0]|].
    cbv beta. intros _ s2 W2 (S2 & D2 & _). split; [exact S2|]. constructor; [exact D2|constructor].
  - apply Nat.eqb_neq in E1.
    remember (length y2 - 1)%nat as j eqn:Ej.
    destruct j as [|j']; [cbn [length] in *; lia|].
    replace (S j' - 1)%nat with j' by lia. cbn [skipn].
    eapply oks_bind; [apply emit_s; [auto|apply defd_nth; auto|apply defd_nth; auto|exact Pz0]|].
    intros _ s2 W2 (S2 & D2 & _). cbv beta.
    eapply oks_bind; [apply am_row0_s; [auto| |]|].
    { apply Forall_tl. eapply Forall_defd_step; eauto. }
    { apply defd_nth; auto. eapply Forall_defd_step; eauto. }
    intros sums s3 W3 (S3 & F3 & _). cbv beta.
    assert (Fx3 : Forall (defd s3) x2) by (eapply Forall_impl; [|exact Fx2]; intros; sdb).
    assert (Fy3 : Forall (defd s3) y2) by (eapply Forall_impl; [|exact Fy2]; intros; sdb).
    assert (Pzt3 : Forall (pend s3) zt).
    { eapply Forall_pend_step0; [exact S3|].
      eapply Forall_pend_step; [exact S2|exact Pzt|]. intros w Hin [E|[]]; subst; auto. }
    assert (Lys : length (firstn j' (tl y2)) = j') by (rewrite firstn_length, length_tl; lia).
    eapply oks_bind; [apply am_layers_s; [auto|exact Fx3| | |exact Pzt3|exact NDt| |exact F3]|].
    { cbn [length] in *; lia. }
    { apply Forall_firstn, Forall_tl; auto. }
    { rewrite Lys. cbn [length] in *. lia. }
    rewrite Lys. intros sums' s4 W4 (S4 & F4 & F4'). cbv beta.
    assert (Pk4 : Forall (pend s4) (skipn j' zt)).
    { eapply Forall_pend_step; [exact S4|apply Forall_skipn; exact Pzt3|].
      intros w Hs Hf. exact (NoDup_firstn_skipn _ _ _ NDt Hf Hs). }
    apply (oks_after_incl _ _ s1 s4 (z0 :: firstn j' zt) _ _
             (step_trans _ _ _ _ _ _ S2 (step_trans_nil_l _ _ _ _ _ S3 S4))).
    { intros w [E|Hin]; [left; exact E|right; exact (In_firstn _ _ _ Hin)]. }
    apply (zero_tail_after _ _ (z0 :: zt) (S j' + length x2 + 1)).
    eapply oks_conseq; [apply am_final_s; [auto| | | exact F4' | exact Pk4 | | left; reflexivity | ]|].
    { eapply Forall_defd_step; eauto. }
    { apply defd_nth; auto. eapply Forall_defd_step; eauto. }
    { apply NoDup_skipn; exact NDt. }
    { intro; subst x2; cbn [length] in *; lia. }
    cbv beta. intros _ s5 W5 (S5 & F5).
    replace (S j' + length x2 + 1)%nat with (S (j' + (length x2 + 1))) by lia.
    cbn [firstn]. rewrite firstn_add. split.
    + eapply step_weaken; [exact S5|]. intros w Hin. right. apply in_or_app. right. exact Hin.
    + constructor; [sdb|]. apply Forall_app; split; [|exact F5].
      eapply Forall_defd_step; eauto.
Qed.

End A.

Theorem array_multiplier_eval (tg : bool) (xw yw zw : nat) (e0 : env) :
  (1 <= Nat.max xw yw)%nat -> (1 <= zw)%nat ->
  let x := wrange 0 xw in
  let y := wrange (N.of_nat xw) yw in
  let ninp := N.of_nat xw + N.of_nat yw in
  let z := wrange ninp zw in
  exists z' s', array_multiplier x y z (st0 (ninp + N.of_nat zw) tg) = (z', s') /\
    wfc_b ninp (gates s') = true /\ dbu ninp (gates s') /\ length z' = zw /\
    valN (eval_rev (gates s') e0) z' = (valN e0 x * valN e0 y) mod 2 ^ N.of_nat zw.
Proof.
  intros Hm Hz.
  eapply (eval2 tg xw yw zw array_multiplier
            (fun z' e a b n => length z' = n /\ valN e z' = (a * b) mod 2 ^ N.of_nat n)); [lia| |].
  - apply okm_array_multiplier_gen; rewrite ?wrange_length; lia.
  - intros s G W Fx Fy Pz ND. apply array_multiplier_s; rewrite ?wrange_length; auto; lia.
Qed.

Section K.
Variable ninp : N.
Notation defd := (defd ninp). Notation pend := (pend ninp). Notation wfst := (wfst ninp).
Notation step := (step ninp). Notation oks := (@oks ninp _).

Lemma shift_left_s s w size count : wfst s -> Forall (defd s) w ->
  oks (shift_left w size count) s
      (fun r s' => step s s' [] /\ Forall (defd s') r /\ length r = size).
Proof.
  intros W F. unfold shift_left.
  assert (B : forall z s', defd s' z -> Forall (defd s') w ->
    let r := firstn size (repeat z count ++ firstn (size - count) w ++
                          repeat z (size - count - length (firstn (size - count) w))) in
    Forall (defd s') r /\ length r = size).
  { intros z s' Dz Fw. cbv zeta. split.
    - apply Forall_firstn. apply Forall_app; split; [apply Forall_repeat; auto|].
      apply Forall_app; split; [apply Forall_firstn; auto|apply Forall_repeat; auto].
    - rewrite firstn_length, !app_length, !repeat_length.
      set (lb := length (firstn (size - count) w)). lia. }
  destruct (Nat.ltb 0 count || Nat.ltb (count + length w) size).
  - sbind zero_s. intros z s1 W1 (S1 & Dz). cbv beta. apply oks_ret; auto. split; auto.
    apply B; auto. eapply Forall_defd_step; eauto.
  - apply oks_ret; auto. split; [apply step_refl|]. apply B; auto. apply defd_in0; auto.
Qed.

(* carry every [Forall (defd sA) l] over a step S : step sA sB _ *)
Ltac fwd S :=
  match type of S with
  | StructProof.step _ ?sA ?sB _ =>
      repeat match goal with
      | H : Forall (StructProof.defd _ sA) ?l |- _ =>
          lazymatch goal with
          | _ : Forall (StructProof.defd _ sB) l |- _ => fail
          | _ => pose proof (Forall_defd_step _ _ _ _ _ S H)
          end
      end
  end.

Local Notation vec_post := (fun z x s' => Forall (defd s') x /\ length x = length z).

Lemma karatsuba_s : forall fuel limit a b r s,
  (3 <= limit)%nat ->
  (S (Nat.max (length a) (length b)) <= fuel)%nat ->
  wfst s -> Forall (defd s) a -> Forall (defd s) b -> Forall (pend s) r -> NoDup r ->
  (1 <= length r)%nat -> (1 <= Nat.max (length a) (length b))%nat ->
  oks (karatsuba fuel limit a b r) s
      (fun r' s' => step s s' r /\ Forall (defd s') r' /\ length r' = length r).
Proof.
  induction fuel as [|f IH]; intros limit a b r s HL HF W Fa Fb Pr ND Hr Hm; [lia|].
  cbn [karatsuba].
  eapply oks_bind; [apply (zero_pad_firstn_s _ _ _ _ (length r)); auto|].
  intros [a' b'] s1 W1 (S1 & Fa2 & Fb2 & La2 & Lb2). cbn [fst snd] in *. cbv beta iota zeta.
  apply (oks_after _ _ s s1 _ _ S1).
  generalize dependent (firstn (length r) a'). intros a2 Fa2 La2.
  generalize dependent (firstn (length r) b'). intros b2 Fb2 Lb2.
  assert (Pr1 : Forall (pend s1) r) by (eapply Forall_pend_step0; eauto).
  remember (length a2) as n eqn:En.
  destruct (Nat.leb n limit) eqn:EL.
  - apply array_multiplier_s; auto; lia.
  - apply Nat.leb_gt in EL.
    pose proof (Nat.div_mod n 2 ltac:(lia)) as DM. pose proof (Nat.mod_upper_bound n 2 ltac:(lia)) as MB.
    remember (n / 2)%nat as mid eqn:Emid.
    (* all the arithmetic below needs: 4 <= n <= f, n <= |r|, mid = n/2 *)
    assert (Hn : (4 <= n <= f /\ n <= length r /\ mid + mid <= n <= mid + mid + 1)%nat) by lia.
    assert (FaL : Forall (defd s1) (firstn mid a2)) by (apply Forall_firstn; auto).
    assert (FbL : Forall (defd s1) (firstn mid b2)) by (apply Forall_firstn; auto).
    assert (FaH : Forall (defd s1) (skipn mid a2)) by (apply Forall_skipn; auto).
    assert (FbH : Forall (defd s1) (skipn mid b2)) by (apply Forall_skipn; auto).
    assert (LaL : length (firstn mid a2) = mid) by (rewrite firstn_length; lia).
    assert (LbL : length (firstn mid b2) = mid) by (rewrite firstn_length; lia).
    assert (LaH : length (skipn mid a2) = (n - mid)%nat) by (rewrite skipn_length; lia).
    assert (LbH : length (skipn mid b2) = (n - mid)%nat) by (rewrite skipn_length; lia).
    generalize dependent (firstn mid a2). intros aLow FaL LaL.
    generalize dependent (firstn mid b2). intros bLow FbL LbL.
    generalize dependent (skipn mid a2). intros aHigh FaH LaH.
    generalize dependent (skipn mid b2). intros bHigh FbH LbH.
    clear DM MB Emid En La2 Lb2 HF Hm Hr EL Fa Fb Fa2 Fb2.
    (* z0 = aLow * bLow *)
    eapply fresh_dest_s with (R := vec_post); [exact W1| |].
    { intros z sA WA SA PA NA LA. fwd SA. apply IH; auto; lia. }
    intros _ z0 s2 W2 S2 _ (Fz0 & _). cbv beta. fwd S2.
    (* aSum, bSum *)
    eapply fresh_dest_s with (R := vec_post); [exact W2| |].
    { intros z sA WA SA PA NA LA. fwd SA. apply new_adder_s; auto; lia. }
    intros zS aSum s3 W3 S3 LzS (FaS & LaS). cbv beta. rewrite LzS in LaS. clear zS LzS. fwd S3.
    eapply fresh_dest_s with (R := vec_post); [exact W3| |].
    { intros z sA WA SA PA NA LA. fwd SA. apply new_adder_s; auto; lia. }
    intros zS bSum s4 W4 S4 LzS (FbS & LbS). cbv beta. rewrite LzS in LbS. clear zS LzS. fwd S4.
    (* z1 = aSum * bSum *)
    eapply fresh_dest_s with (R := vec_post); [exact W4| |].
    { intros z sA WA SA PA NA LA. fwd SA. apply IH; auto; lia. }
    intros zS z1 s5 W5 S5 LzS (Fz1 & Lz1). cbv beta. fwd S5.
    assert (Hz1 : (1 <= length z1)%nat) by lia.
    clear zS LzS Lz1 LaS LbS.
    (* z2 = aHigh * bHigh *)
    eapply fresh_dest_s with (R := vec_post); [exact W5| |].
    { intros z sA WA SA PA NA LA. fwd SA. apply IH; auto; lia. }
    intros _ z2 s6 W6 S6 _ (Fz2 & _). cbv beta. fwd S6.
    clear LaL LbL LaH LbH.
    (* sub1 = z1 - z2, sub2 = sub1 - z0 *)
    eapply fresh_dest_s with (R := vec_post); [exact W6| |].
    { intros z sA WA SA PA NA LA. fwd SA. apply new_subtractor_s; auto; lia. }
    intros zS sub1 s7 W7 S7 LzS (Fs1 & Ls1). cbv beta. rewrite LzS in Ls1. clear zS LzS. fwd S7.
    eapply fresh_dest_s with (R := vec_post); [exact W7| |].
    { intros z sA WA SA PA NA LA. fwd SA. apply new_subtractor_s; auto; lia. }
    intros _ sub2 s8 W8 S8 _ (Fs2 & _). cbv beta. fwd S8.
    (* shifts *)
    eapply oks_bind; [apply shift_left_s; [exact W8|eassumption]|].
    intros shift1 s9 W9 (S9 & Fh1 & Lh1). cbv beta. fwd S9.
    eapply oks_bind; [apply shift_left_s; [exact W9|eassumption]|].
    intros shift2 s10 W10 (S10 & Fh2 & _). cbv beta. fwd S10.
    (* add1 = shift1 + shift2, r = add1 + z0 *)
    eapply fresh_dest_s with (R := vec_post); [exact W10| |].
    { intros z sA WA SA PA NA LA. fwd SA. apply new_adder_s; auto; lia. }
    intros zS add1 s11 W11 S11 LzS (Fd1 & Ld1). cbv beta. rewrite LzS in Ld1. clear zS LzS. fwd S11.
    assert (ST : step s1 s11 []) by snil.
    apply (oks_after _ _ s1 s11 _ _ ST).
    apply new_adder_s; auto; try lia. eapply Forall_pend_step0; eauto.
Qed.

Lemma new_multiplier_yao_s tbl thr s x y z :
  (forall k v, lookup_threshold tbl k = Some v -> (3 <= v)%nat) ->
  gmw s = false ->
  wfst s -> Forall (defd s) x -> Forall (defd s) y -> Forall (pend s) z -> NoDup z ->
  (1 <= length z)%nat -> (1 <= Nat.max (length x) (length y))%nat ->
  oks (new_multiplier tbl thr x y z) s
      (fun z' s' => step s s' z /\ Forall (defd s') z' /\ length z' = length z).
Proof.
  intros HT G W Fx Fy Pz ND Hz Hm.
  assert (HL : (3 <= (if Nat.ltb thr 8
                      then match lookup_threshold tbl (length x) with Some v => v | None => 21%nat end
                      else thr))%nat).
  { destruct (Nat.ltb thr 8) eqn:E.
    - destruct (lookup_threshold tbl (length x)) eqn:EL; [eapply HT; eauto|lia].
    - apply Nat.ltb_ge in E. lia. }
  apply oks_target; [congruence|intros _]. apply karatsuba_s; auto.
Qed.

End K.

Theorem karatsuba_eval (limit xw yw zw : nat) (e0 : env) :
  (3 <= limit)%nat -> (1 <= Nat.max xw yw)%nat -> (1 <= zw)%nat ->
  let x := wrange 0 xw in
  let y := wrange (N.of_nat xw) yw in
  let ninp := N.of_nat xw + N.of_nat yw in
  let z := wrange ninp zw in
  exists z' s', karatsuba (S (Nat.max xw yw)) limit x y z (st0 (ninp + N.of_nat zw) false) = (z', s') /\
    wfc_b ninp (gates s') = true /\ dbu ninp (gates s') /\ length z' = zw /\
    valN (eval_rev (gates s') e0) z' = (valN e0 x * valN e0 y) mod 2 ^ N.of_nat zw.
Proof.
  intros HL Hm Hz.
  eapply (eval2 false xw yw zw (karatsuba (S (Nat.max xw yw)) limit)
            (fun z' e a b n => length z' = n /\ valN e z' = (a * b) mod 2 ^ N.of_nat n)); [lia| |].
  - apply okm_karatsuba; rewrite ?wrange_length; lia.
  - intros s G W Fx Fy Pz ND. apply karatsuba_s; rewrite ?wrange_length; auto; lia.
Qed.

Theorem new_multiplier_yao_eval (thr xw yw zw : nat) (e0 : env) :
  (1 <= Nat.max xw yw)%nat -> (1 <= zw)%nat ->
  let x := wrange 0 xw in
  let y := wrange (N.of_nat xw) yw in
  let ninp := N.of_nat xw + N.of_nat yw in
  let z := wrange ninp zw in
  exists z' s', new_multiplier Mpc.Gen.Thresholds.multiplierArrayTresholds thr x y z
                  (st0 (ninp + N.of_nat zw) false) = (z', s') /\
    wfc_b ninp (gates s') = true /\ dbu ninp (gates s') /\ length z' = zw /\
    valN (eval_rev (gates s') e0) z' = (valN e0 x * valN e0 y) mod 2 ^ N.of_nat zw.
Proof.
  intros Hm Hz.
  eapply (eval2 false xw yw zw (new_multiplier Mpc.Gen.Thresholds.multiplierArrayTresholds thr)
            (fun z' e a b n => length z' = n /\ valN e z' = (a * b) mod 2 ^ N.of_nat n)); [lia| |].
  - apply okm_new_multiplier_yao_shipped; rewrite ?wrange_length; lia.
  - intros s G W Fx Fy Pz ND. apply new_multiplier_yao_s; rewrite ?wrange_length; auto; [|lia..].
    apply thresholds_ge_3.
Qed.
