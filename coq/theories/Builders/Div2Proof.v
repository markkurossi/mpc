(* C07: NewUDividerRestoring and NewUDividerArray compute the quotient
   and the remainder for EVERY operand width, every quotient / remainder width,
   both targets, every dividend and every divisor — a zero divisor included
   (all-ones quotient, remainder = dividend). *)
From Coq Require Import NArith List Bool Arith Lia.
From Mpc Require Import Builders.Emit Builders.EmitProof Builders.Div2 Builders.AdderProof Builders.SubProof Builders.KsProof Builders.MuxProof
     Builders.DivProof.
Import ListNotations.
Open Scope N_scope.

Lemma split_hi x X R P : x < P -> x + P * X = R * P -> X = R.
Proof. intros H E. nia. Qed.

(* "r << 1" on the double-width remainder  R * P + L * K  (P = 2 K I, R < K,
   L < 2 I): nothing is lost, and the shifted value splits into the new high
   part 2 R + bit and the remaining dividend bits *)
Lemma shift_split K I R L : 0 < K -> 0 < I -> R < K -> L < 2 * I ->
  L / I <= 1 /\ L mod I * (2 * K) < 2 * K * I /\
  R * (2 * K * I) + L * K < 2 * K * I * (K * I) /\
  2 * (R * (2 * K * I) + L * K) = (2 * R + L / I) * (2 * K * I) + L mod I * (2 * K).
Proof.
  intros HK HI HR HL.
  pose proof (N.div_mod' L I) as E. pose proof (N.mod_lt L I) as M.
  set (bit := L / I) in *. set (L' := L mod I) in *.
  assert (Hbit : bit <= 1).
  { destruct (N.le_gt_cases bit 1) as [C|C]; [exact C|].
    assert (I * 2 <= I * bit) by (apply N.mul_le_mono_l; lia). lia. }
  assert (HLo : L' * (2 * K) < I * (2 * K)) by (apply N.mul_lt_mono_pos_r; lia).
  assert (HRP : (R + 1) * (2 * K * I) <= K * (2 * K * I)) by (apply N.mul_le_mono_r; lia).
  assert (HLK : L * K < 2 * I * K) by (apply N.mul_lt_mono_pos_r; lia).
  assert (HKI : K * (2 * K * I) * 1 <= K * (2 * K * I) * I) by (apply N.mul_le_mono_l; lia).
  split; [exact Hbit|]. split; [lia|]. split; [lia|]. rewrite E. ring.
Qed.

Lemma scaled_borrow P RI Lo B D (t : bool) : Lo < P ->
  (t = true /\ RI * P + Lo < B * P) \/ (t = false /\ RI * P + Lo = B * P + D) ->
  (negb t = true <-> B <= RI) /\
  (if t then RI * P + Lo else D) = (if negb t then RI - B else RI) * P + Lo.
Proof.
  intros HLo [[-> H]|[-> H]]; cbn [negb].
  - split; [|reflexivity]. split; [discriminate|]. intros C.
    assert (B * P <= RI * P) by (apply N.mul_le_mono_r; exact C). lia.
  - assert (C : B <= RI).
    { destruct (N.le_gt_cases B RI) as [C|C]; [exact C|].
      assert ((RI + 1) * P <= B * P) by (apply N.mul_le_mono_r; lia). lia. }
    split; [split; [intros _; exact C|reflexivity]|].
    assert (B * P <= RI * P) by (apply N.mul_le_mono_r; exact C).
    rewrite N.mul_sub_distr_r. lia.
Qed.

Lemma valN_mid e (lo mid hi : list wire) R n : length lo = n ->
  valN e (lo ++ mid ++ hi) = R * 2 ^ N.of_nat n ->
  valN e mid = R mod 2 ^ N.of_nat (length mid).
Proof.
  intros <-. rewrite !valN_app. intros H.
  apply split_hi in H; [|apply valN_lt].
  apply N.mod_unique with (q := valN e hi); [apply valN_lt|]. rewrite <- H. lia.
Qed.

Lemma firstn1_skipn_nth (q : list wire) i : (i < length q)%nat ->
  firstn 1 (skipn i q) = [nth i q 0].
Proof.
  revert i. induction q as [|w q IH]; intros i H; [cbn in H; lia|].
  destruct i; [reflexivity|]. cbn [skipn nth]. apply IH. cbn in H. lia.
Qed.

(* destination of the new partial remainder (2n wires): new wires; in the last
   iteration the upper half starts with the wires of rret *)
Lemma okp_next_r2 t i n (rret r1 : list wire) : length r1 = (2 * n)%nat ->
  okp t (if Nat.eqb i 0
         then let k := Nat.min (length rret) n in
              bind (fresh_n n) (fun lo => bind (fresh_n (n - k)) (fun hi =>
                ret (lo ++ firstn k rret ++ hi)))
         else fresh_n (length r1))
      (fun nr => length nr = (2 * n)%nat /\
                 (i = 0%nat -> exists lo hi, length lo = n /\
                    nr = lo ++ firstn (Nat.min (length rret) n) rret ++ hi))
      (fun _ _ => True).
Proof.
  intros Hl. destruct (Nat.eqb i 0) eqn:E.
  - cbv zeta.
    eapply okp_bind; [apply okp_fresh_n|]. intros lo Llo. cbv beta in Llo |- *.
    eapply okp_bind; [apply okp_fresh_n|]. intros hi Lhi. cbv beta in Lhi |- *.
    apply okp_ret; [|auto]. split.
    + rewrite !app_length, firstn_length. lia.
    + intros _. exists lo, hi. auto.
  - apply Nat.eqb_neq in E.
    eapply okp_weaken; [apply okp_fresh_n | |]; cbv beta; auto.
    intros a H. split; [lia|]. intros; lia.
Qed.

(* After k iterations (cnt = n - k
   remain) the 2n-wire vector r carries  R * 2^n + L * 2^k : R = the partial
   remainder (below 2^k, below b when b <> 0), L = the cnt dividend bits not yet
   consumed; d carries b * 2^n.  "r << 1" (dropping r's top wire) loses nothing.
   The loop finishes the division of  R * 2^cnt + L  by b. *)
Lemma okm_udiv_restoring_loop t n : forall cnt k d q rret r,
  (k + cnt = n)%nat -> length d = (2 * n)%nat -> length r = (2 * n)%nat ->
  okm t (udiv_restoring_loop cnt n d q rret r)
      (fun _ e => forall B R L,
         valN e d = B * 2 ^ N.of_nat n ->
         valN e r = R * 2 ^ N.of_nat n + L * 2 ^ N.of_nat k ->
         L < 2 ^ N.of_nat cnt -> R < 2 ^ N.of_nat k -> (B <> 0 -> R < B) ->
         B < 2 ^ N.of_nat n ->
         valN e (firstn cnt q)
           = dq cnt (R * 2 ^ N.of_nat cnt + L) B mod 2 ^ N.of_nat (length q) /\
         (cnt <> 0%nat ->
          valN e (firstn n rret)
            = dr (R * 2 ^ N.of_nat cnt + L) B mod 2 ^ N.of_nat (length rret))).
Proof.
  induction cnt as [|i IH]; intros k d q rret r Hk Ld Lr.
  - cbn [udiv_restoring_loop]. apply okm_ret. intros e B R L _ _ HL _ HRB _.
    cbn [firstn]. rewrite valN_nil. change (2 ^ N.of_nat 0) with 1 in *.
    assert (L = 0) by lia. subst L. rewrite N.mul_1_r, N.add_0_r, dq_0 by exact HRB.
    split; [|congruence]. symmetry. apply N.mod_0_l, N.pow_nonzero. discriminate.
  - cbn [udiv_restoring_loop].
    mstepn okm_zero z0. cbv zeta.
    remember (z0 :: removelast r) as r1 eqn:Er1.
    assert (Lr1 : length r1 = (2 * n)%nat).
    { subst r1. cbn [length]. rewrite removelast_len. lia. }
    eapply okm_bind_p; [apply okp_fresh_n | intros d0 Ld0; cbv beta in Ld0 |- *].
    eapply okm_bind_p; [apply okp_new_subtractor; lia | intros diff Ld'; cbv beta in Ld' |- *].
    rewrite Ld0, Lr1 in Ld'. destruct (top_split diff (2 * n) Ld') as (dl & tw & -> & Ldl & -> & ->).
    eapply okm_bind; [apply okm_qbit | intros u1; cbv beta].
    eapply okm_bind_p; [apply okp_next_r2; exact Lr1 | intros nr [Lnr Hnr]; cbv beta].
    eapply okm_bind; [apply okm_new_mux; lia | intros u2; cbv beta].
    eapply okm_weaken.
    { apply (IH (S k) d q rret nr); lia. }
    cbv beta. intros _ e HI Hmux _ Hq Hsub _ Hz0 B R L HD HR HL HRk HRB HB.
    (* powers: K = 2^k, I = 2^i, P = 2^n = 2 K I *)
    pose proof (pow2_pos k) as HK0. pose proof (pow2_pos i) as HI0.
    assert (HN : 2 ^ N.of_nat n = 2 * 2 ^ N.of_nat k * 2 ^ N.of_nat i).
    { replace n with (S (k + i)) by lia. rewrite pow2_S, Nat2N.inj_add, N.pow_add_r. ring. }
    assert (H2N1 : 2 ^ N.of_nat (2 * n - 1) = 2 ^ N.of_nat n * (2 ^ N.of_nat k * 2 ^ N.of_nat i)).
    { rewrite <- !N.pow_add_r. f_equal. lia. }
    rewrite pow2_S in HL.
    destruct (shift_split _ _ R L HK0 HI0 HRk HL) as (Hbit & HLo & Hsmall & Hdbl).
    pose proof (N.div_mod' L (2 ^ N.of_nat i)) as HLs. rewrite N.mul_comm in HLs.
    assert (HL' : L mod 2 ^ N.of_nat i < 2 ^ N.of_nat i) by (apply N.mod_lt; lia).
    rewrite <- HN in HLo, Hsmall, Hdbl.
    set (K := 2 ^ N.of_nat k) in *. set (I := 2 ^ N.of_nat i) in *. set (P := 2 ^ N.of_nat n) in *.
    set (bit := L / I) in *. set (L' := L mod I) in *.
    set (RI := 2 * R + bit) in *. set (Lo := L' * (2 * K)) in *.
    (* r << 1 *)
    assert (HR1 : valN e r1 = RI * P + Lo).
    { subst r1. rewrite valN_cons, valN_removelast, Lr, Hz0, N.mod_small by (rewrite HR, H2N1; exact Hsmall).
      rewrite HR. exact Hdbl. }
    (* the subtraction, its borrow, and the MUX *)
    rewrite Ld0, Lr1 in Hsub. apply (sub_borrow e r1 d dl tw (2 * n) Lr1 Ld Ldl) in Hsub.
    rewrite HR1, HD in Hsub.
    destruct (scaled_borrow P RI Lo B (valN e dl) (e tw) HLo Hsub) as [Hc HNR].
    rewrite <- HR1, <- Hmux in HNR.
    set (c := negb (e tw)) in *. set (R' := if c then RI - B else RI) in *.
    destruct (div2_step R B bit L' i c R' Hbit HL' HRB Hc eq_refl) as (SQ & SR & SB).
    fold I in SQ, SR. rewrite <- HLs in SQ, SR.
    assert (HR'lt : R' < 2 * K) by (clear - HRk Hbit; unfold R', RI; destruct c; lia).
    destruct (HI B R' L') as [IQ IRm]; try assumption.
    { rewrite HNR, pow2_S. reflexivity. }
    { rewrite pow2_S. exact HR'lt. }
    split.
    + rewrite SQ. apply valN_firstn_S_q; [exact IQ | apply dq_lt; assumption | exact Hq].
    + intros _. rewrite SR. destruct i as [|i']; [|apply IRm; discriminate].
      (* last iteration: the upper half of nr starts with rret *)
      destruct (Hnr eq_refl) as (lo & hi & Llo & Enr).
      assert (HL0 : L' = 0) by (clear - HL'; change I with 1 in HL'; lia).
      assert (HKP : 2 * K = P) by (rewrite HN; change I with 1; symmetry; apply N.mul_1_r).
      rewrite Enr in HNR. unfold Lo in HNR. rewrite HL0, N.mul_0_l, N.add_0_r in HNR.
      apply (valN_mid _ _ _ _ _ _ Llo) in HNR.
      rewrite HL0, N.add_0_r. change I with 1. rewrite N.mul_1_r, dr_small by exact SB.
      rewrite firstn_length in HNR.
      rewrite <- (firstn_min_len rret n), HNR, Nat.min_l by apply Nat.le_min_l.
      rewrite Nat.min_comm. apply mod_pow_min. fold P. rewrite <- HKP. exact HR'lt.
Qed.

(* q and rret may have any width (nil included); their wires at positions >= n
   are not driven, hence the firstn. *)
Theorem okm_udivider_restoring t a b q rret :
  (1 <= Nat.max (length a) (length b))%nat ->
  okm t (udivider_restoring a b q rret)
      (fun _ e =>
         let n := Nat.max (length a) (length b) in
         let A := valN e a in
         let B := valN e b in
         valN e (firstn n q)
           = (if B =? 0 then 2 ^ N.of_nat n - 1 else A / B) mod 2 ^ N.of_nat (length q) /\
         valN e (firstn n rret)
           = (if B =? 0 then A else A mod B) mod 2 ^ N.of_nat (length rret)).
Proof.
  intros Hm. unfold udivider_restoring.
  eapply okm_bind_p; [apply okp_zero_pad_val|]. intros [a' b'] [La' Lb']. cbn [fst snd] in *.
  cbv zeta. set (n := Nat.max (length a) (length b)) in *.
  rewrite La', Lb'.
  replace (Nat.eqb n 0) with false by (symmetry; apply Nat.eqb_neq; lia).
  mstepn okm_zero z.
  eapply okm_weaken.
  { apply (okm_udiv_restoring_loop t n n 0%nat (repeat z n ++ b') q rret (a' ++ repeat z n));
      rewrite ?app_length, ?repeat_length; unfold wire in *; lia. }
  cbv beta. intros _ e HI Hz [Va Vb]. cbn [fst snd] in Va, Vb.
  destruct (HI (valN e b) 0 (valN e a)) as [HQ HRm].
  - rewrite valN_app, repeat_length, valN_repeat0, Vb by exact Hz. ring.
  - rewrite valN_app, (valN_repeat0 e z) by exact Hz. change (2 ^ N.of_nat 0) with 1.
    rewrite Va. ring.
  - rewrite <- Va, <- La'. apply valN_lt.
  - cbn. lia.
  - intros; lia.
  - rewrite <- Vb, <- Lb'. apply valN_lt.
  - rewrite N.mul_0_l, N.add_0_l in HQ, HRm. split; [exact HQ|]. apply HRm. lia.
Qed.

(* 7 / 5, 6 / 3 and 5 / 0 on three-wire operands *)
Example udiv_restoring_run :
  let '(_, s') := udivider_restoring [0; 1; 2] [3; 4; 5] [6; 7; 8] [9; 10; 11] (st0 12 false) in
  let e1 := eval_rev (gates s') (fun w => match w with 0 | 1 | 2 | 3 | 5 => true | _ => false end) in
  let e2 := eval_rev (gates s') (fun w => match w with 1 | 2 | 3 | 4 => true | _ => false end) in
  let e3 := eval_rev (gates s') (fun w => match w with 0 | 2 => true | _ => false end) in
  wfc_b 6 (gates s') = true /\
  (valN e1 [0; 1; 2], valN e1 [3; 4; 5], valN e1 [6; 7; 8], valN e1 [9; 10; 11]) = (7, 5, 1, 2) /\
  (valN e2 [0; 1; 2], valN e2 [3; 4; 5], valN e2 [6; 7; 8], valN e2 [9; 10; 11]) = (6, 3, 2, 0) /\
  (valN e3 [0; 1; 2], valN e3 [3; 4; 5], valN e3 [6; 7; 8], valN e3 [9; 10; 11]) = (5, 0, 7, 5).
Proof. vm_compute. repeat split. Qed.

Lemma okp_uda_binv t : forall b,
  okp t (uda_binv b) (fun ws => length ws = length b)
      (fun ws e => map e ws = map negb (map e b)).
Proof.
  induction b as [|bi b IH]; cbn [uda_binv].
  - apply okp_ret; auto.
  - eapply okp_bind; [apply okp_of_okm, okm_fresh|]. intros w _. cbv beta.
    eapply okp_bind; [apply okp_of_okm, okm_cc_inv|]. intros u _. cbv beta.
    eapply okp_bind; [apply IH|]. intros ws Hl. cbv beta.
    apply okp_ret; [cbn; congruence|]. intros e Hws Hinv _. cbn [map]. rewrite Hinv, Hws. reflexivity.
Qed.

Lemma okp_uda_adders t : forall rin bw cin, length rin = length bw ->
  okp t (uda_adders rin bw cin)
      (fun p => length (fst p) = length rin)
      (fun p e => valN e (fst p) + 2 ^ N.of_nat (length rin) * N.b2n (e (snd p))
                  = valN e rin + valN e bw + N.b2n (e cin)).
Proof.
  induction rin as [|ri rin IH]; intros bw cin Hl.
  - destruct bw; [|discriminate]. cbn [uda_adders]. apply okp_ret; [reflexivity|].
    intros e. cbn [fst snd length]. rewrite !valN_nil. change (2 ^ N.of_nat 0) with 1. lia.
  - destruct bw as [|b bw]; [discriminate|]. cbn [uda_adders].
    eapply okp_bind; [apply okp_of_okm, okm_fresh|]. intros co _. cbv beta.
    eapply okp_bind; [apply okp_of_okm, okm_fresh|]. intros ro _. cbv beta.
    eapply okp_bind; [apply okp_of_okm, okm_full_adder_arith|]. intros u _. cbv beta.
    eapply okp_bind; [apply (IH bw co); cbn in Hl; lia|]. intros [ros c] Hlr. cbv beta iota.
    cbn [fst snd] in *.
    apply okp_ret; [cbn [fst length]; congruence|].
    intros e Hih FA _ _. cbn [fst snd length]. rewrite !valN_cons, pow2_S. nia.
Qed.

Lemma okp_uda_mux_loop t last c : forall k rout rin r,
  (k <= length rout)%nat -> (k <= length rin)%nat ->
  okp t (uda_mux_loop last c k rout rin r)
      (fun res => length res = k /\
                  (last = true -> firstn (Nat.min k (length r)) res = firstn (Nat.min k (length r)) r))
      (fun res e => map e res = if e c then map e (firstn k rout) else map e (firstn k rin)).
Proof.
  induction k as [|x IH]; intros rout rin r Ho Hi; cbn [uda_mux_loop].
  - apply okp_ret; [split; [reflexivity|intros _; reflexivity]|]. intros e. destruct (e c); reflexivity.
  - eapply okp_bind with (R := fun ro => last = true -> (x < length r)%nat -> ro = nth x r 0)
                         (P := fun _ _ => True).
    { destruct (last && Nat.ltb x (length r)) eqn:E.
      - apply okp_ret; auto.
      - eapply okp_weaken; [apply okp_of_okm, okm_fresh| |]; cbv beta; auto.
        intros a _ Hl Hx. apply andb_false_iff in E. destruct E as [E|E]; [congruence|].
        apply Nat.ltb_ge in E. lia. }
    intros ro Hro. cbv beta.
    assert (L1 : length (firstn 1 (skipn x rout)) = 1%nat) by (rewrite firstn_length, skipn_length; lia).
    assert (L2 : length (firstn 1 (skipn x rin)) = 1%nat) by (rewrite firstn_length, skipn_length; lia).
    eapply okp_bind; [apply okp_of_okm, okm_new_mux_bits; cbn [length]; lia|]. intros u _. cbv beta.
    eapply okp_bind; [apply (IH rout rin r); lia|]. intros lo [Llo Hlo]. cbv beta.
    apply okp_ret.
    + split; [rewrite app_length; cbn [length]; lia|]. intros Hl.
      destruct (Nat.lt_ge_cases x (length r)) as [C|C].
      * rewrite Nat.min_l by lia. rewrite (firstn_S_split x r), firstn1_skipn_nth by lia.
        rewrite <- (Hro Hl C). rewrite firstn_all2 by (rewrite app_length; cbn [length]; lia).
        f_equal. specialize (Hlo Hl). rewrite Nat.min_l in Hlo by lia.
        rewrite <- Hlo. symmetry. apply firstn_all2. lia.
      * rewrite Nat.min_r by lia. specialize (Hlo Hl). rewrite Nat.min_r in Hlo by lia.
        rewrite firstn_app. replace (length r - length lo)%nat with 0%nat by lia.
        cbn [firstn]. rewrite app_nil_r. exact Hlo.
    + intros e Hmap Hmux _. rewrite map_app, Hmap, Hmux.
      rewrite !(firstn_S_split x), !map_app. destruct (e c); reflexivity.
Qed.

Lemma to_N_map_negb e (ws : list wire) :
  to_N (map negb (map e ws)) + valN e ws + 1 = 2 ^ N.of_nat (length ws).
Proof. unfold valN. rewrite to_N_negb, map_length. reflexivity. Qed.

(* ra = the dividend bits not yet
   consumed (most significant first), the low n wires of rout = the partial
   remainder R (below 2^k after k rows, below b when b <> 0), binv = NOT b. *)
Lemma okp_uda_rows t n : forall ra k binv q r rout,
  (k + length ra = n)%nat -> length binv = n -> (n <= length rout)%nat ->
  okp t (uda_rows ra n binv q r rout)
      (fun res => (ra = [] -> res = rout) /\
                  (ra <> [] -> length res = S n /\
                     firstn (Nat.min (S n) (length r)) res = firstn (Nat.min (S n) (length r)) r))
      (fun res e => forall B R,
         valN e binv + B + 1 = 2 ^ N.of_nat n ->
         valN e (firstn n rout) = R -> R < 2 ^ N.of_nat k -> (B <> 0 -> R < B) ->
         let A' := R * 2 ^ N.of_nat (length ra) + valN e (rev ra) in
         valN e (firstn (length ra) q) = dq (length ra) A' B mod 2 ^ N.of_nat (length q) /\
         valN e (firstn n res) = dr A' B).
Proof.
  induction ra as [|ai ra IH]; intros k binv q r rout Hk Lb Lo.
  - cbn [uda_rows]. apply okp_ret; [split; [reflexivity|congruence]|].
    intros e B R _ HR _ HRB. cbv zeta. cbn [length rev firstn]. rewrite !valN_nil.
    change (2 ^ N.of_nat 0) with 1. rewrite N.mul_1_r, N.add_0_r, dq_0, dr_small by exact HRB.
    split; [|exact HR]. symmetry. apply N.mod_0_l, N.pow_nonzero. discriminate.
  - cbn [uda_rows]. cbv zeta. cbn [length] in Hk.
    set (i := length ra) in *.
    remember (ai :: firstn n rout) as rin eqn:Erin.
    assert (Lrin : length rin = S n) by (subst rin; cbn [length]; rewrite firstn_length; lia).
    eapply okp_bind; [apply okp_of_okm, okm_one|]. intros cin _. cbv beta.
    eapply okp_bind; [apply okp_of_okm, okm_one|]. intros o _. cbv beta.
    eapply okp_bind; [apply (okp_uda_adders t rin (binv ++ [o]) cin); rewrite app_length; cbn [length]; lia|].
    intros [rout1 c] Lr1. cbn [fst snd] in Lr1. cbv beta iota.
    eapply okp_bind with (R := fun _ => True)
      (P := fun _ e => (i < length q)%nat -> e (nth i q 0) = e c).
    { destruct (Nat.ltb_spec i (length q)) as [C|C].
      - eapply okp_bind; [apply okp_of_okm, okm_fresh|]. intros w _. cbv beta.
        eapply okp_bind; [apply okp_of_okm, okm_cc_inv|]. intros u _. cbv beta.
        eapply okp_weaken; [apply okp_of_okm, okm_cc_inv | auto |].
        cbv beta. intros _ e _ H2 H1 _ _. rewrite H2, H1. apply negb_involutive.
      - apply okp_ret; auto. intros e Hc. lia. }
    intros u _. cbv beta.
    replace (n + 1)%nat with (S n) by lia.
    eapply okp_bind; [apply (okp_uda_mux_loop t (Nat.eqb i 0) c (S n) rout1 rin r); lia|].
    intros rout2 [Lr2 Hr2]. cbv beta.
    eapply okp_weaken; [apply (IH (S k) binv q r rout2); lia | |].
    + intros res [Hnil Hcons]. split; [discriminate|]. intros _.
      destruct ra as [|a2 ra'].
      * rewrite (Hnil eq_refl). split; [exact Lr2|]. apply Hr2. reflexivity.
      * apply Hcons. discriminate.
    + cbv beta. intros res e _ HI Hmux Hq Hadd Ho Hcin B R HBinv HRv HRk HRB. cbv zeta.
      cbn [fst snd] in Hadd.
      pose proof (pow2_pos k) as HK0. pose proof (pow2_pos i) as HI0.
      assert (HN : 2 ^ N.of_nat n = 2 * 2 ^ N.of_nat k * 2 ^ N.of_nat i).
      { replace n with (S (k + i)) by lia. rewrite pow2_S, Nat2N.inj_add, N.pow_add_r. ring. }
      set (K := 2 ^ N.of_nat k) in *. set (I := 2 ^ N.of_nat i) in *.
      set (P := 2 ^ N.of_nat n) in *.
      set (bit := N.b2n (e ai)). pose proof (b2n_le1 (e ai)) as Hbit. fold bit in Hbit.
      set (RI := 2 * R + bit).
      assert (HRI : valN e rin = RI).
      { subst rin. rewrite valN_cons, HRv. unfold RI, bit. lia. }
      assert (HRIlt : RI < 2 * K) by (unfold RI; lia).
      assert (HKP : 2 * K <= P) by (rewrite HN; nia).
      assert (HBlt : B < P) by lia.
      rewrite Lrin, pow2_S, HRI, valN_app, valN_cons, valN_nil, Lb, Ho, Hcin in Hadd.
      cbn [N.b2n] in Hadd. fold P in Hadd.
      assert (HR1lt : valN e rout1 < 2 * P).
      { unfold P. rewrite <- pow2_S, <- Lrin, <- Lr1. apply valN_lt. }
      remember (e c) as cb eqn:Ecb.
      assert (Hc : cb = true <-> B <= RI).
      { destruct cb; cbn [N.b2n] in Hadd; split; intros H0; [lia | reflexivity | discriminate | exfalso; lia]. }
      set (R' := if cb then RI - B else RI).
      assert (HR2 : valN e rout2 = R').
      { assert (E2 : valN e rout2 = if cb then valN e rout1 else valN e rin).
        { unfold valN. rewrite Hmux, !firstn_all2 by lia. destruct cb; reflexivity. }
        rewrite E2. unfold R'. destruct cb; cbn [N.b2n] in Hadd; lia. }
      assert (HR'lt : R' < 2 * K) by (unfold R'; destruct cb; lia).
      destruct (div2_step R B bit (valN e (rev ra)) i cb R' Hbit (valN_rev_lt e ra)) as (SQ & SR & SB);
        try assumption; try reflexivity.
      destruct (HI B R') as [IQ IRm]; try assumption.
      { rewrite valN_firstn, HR2. apply N.mod_small. lia. }
      { rewrite pow2_S. exact HR'lt. }
      cbv zeta in IQ, IRm. fold i in IQ, IRm. fold I in IQ, IRm, SQ, SR.
      rewrite valN_rev_cons. cbn [length]. fold i I bit. split.
      * rewrite SQ. apply valN_firstn_S_q; [exact IQ | | ].
        -- apply dq_lt; [apply valN_rev_lt | exact SB].
        -- intros C. rewrite firstn1_skipn_nth by exact C.
           rewrite valN_cons, valN_nil, (Hq C). lia.
      * rewrite SR. exact IRm.
Qed.

(* The claim is about the RETURNED vectors: in them the destination wires at
   positions >= n are replaced by the zero wire (zero_tail). *)
Theorem okm_udivider_array t a b q r :
  (1 <= Nat.max (length a) (length b))%nat ->
  okm t (udivider_array a b q r)
      (fun p e =>
         let n := Nat.max (length a) (length b) in
         let A := valN e a in
         let B := valN e b in
         length (fst p) = length q /\ length (snd p) = length r /\
         valN e (fst p)
           = (if B =? 0 then 2 ^ N.of_nat n - 1 else A / B) mod 2 ^ N.of_nat (length q) /\
         valN e (snd p)
           = (if B =? 0 then A else A mod B) mod 2 ^ N.of_nat (length r)).
Proof.
  intros Hm. unfold udivider_array.
  eapply okm_bind_p; [apply okp_zero_pad_val|]. intros [a' b'] [La' Lb']. cbn [fst snd] in *.
  set (n := Nat.max (length a) (length b)) in *.
  eapply okm_bind_p; [apply okp_uda_binv|]. intros binv Lbinv. cbv beta in Lbinv |- *.
  rewrite La', Lb'.
  replace (Nat.eqb n 0) with false by (symmetry; apply Nat.eqb_neq; lia).
  eapply okm_bind_p with (R := fun r0 : list wire => length r0 = n)
                         (P := fun r0 e => valN e r0 = 0).
  { eapply okp_bind; [apply okp_of_okm, okm_zero|]. intros z _. cbv beta.
    apply okp_ret; [apply repeat_length|]. intros e Hz. apply valN_repeat0. exact Hz. }
  intros r0 Lr0. cbv beta.
  eapply okm_bind_p.
  { apply (okp_uda_rows t n (rev a') 0%nat binv q r r0); rewrite ?rev_length; unfold wire in *; lia. }
  intros rfin [_ Hfin]. cbv beta.
  destruct Hfin as [Lfin Efin].
  { intros E. apply (f_equal (@length wire)) in E. rewrite rev_length in E. cbn in E. lia. }
  eapply okm_bind_p; [apply okp_zero_tail_val|]. intros q' Lq'. cbv beta.
  eapply okm_bind_p; [apply okp_zero_tail_val|]. intros r' Lr'. cbv beta.
  apply okm_ret. intros e Vr Vq HI Hr0 Hbinv [Va Vb]. cbv zeta. cbn [fst snd] in *.
  split; [exact Lq'|]. split; [exact Lr'|]. rewrite Vq, Vr.
  destruct (HI (valN e b) 0) as [HQ HRm].
  - pose proof (to_N_map_negb e b') as T. rewrite <- Hbinv in T. fold (valN e binv) in T.
    rewrite Lb', Vb in T. lia.
  - rewrite firstn_all2 by lia. exact Hr0.
  - cbn. lia.
  - intros; lia.
  - cbv zeta in HQ, HRm. rewrite rev_length, rev_involutive, La', N.mul_0_l, N.add_0_l, Va in HQ, HRm.
    unfold dq, dr in HQ, HRm. split; [exact HQ|].
    (* remainder: the low min(n, len r) wires of the last row are the wires of r *)
    set (D := if valN e b =? 0 then valN e a else valN e a mod valN e b) in *.
    assert (Hlt : D < 2 ^ N.of_nat n).
    { rewrite <- HRm. eapply N.lt_le_trans; [apply valN_lt|].
      apply N.pow_le_mono_r; [discriminate|]. rewrite firstn_length. lia. }
    set (m := Nat.min n (length r)).
    assert (E1 : firstn n r = firstn m r).
    { unfold m. rewrite Nat.min_comm. symmetry. apply firstn_min_len. }
    assert (E2 : firstn m r = firstn m (firstn n rfin)).
    { apply (f_equal (firstn m)) in Efin. rewrite !firstn_firstn in Efin. rewrite firstn_firstn.
      replace (Nat.min m (Nat.min (S n) (length r))) with m in Efin by (unfold m; lia).
      replace (Nat.min m n) with m by (unfold m; lia). symmetry. exact Efin. }
    rewrite E1, E2, valN_firstn, HRm. unfold m. apply mod_pow_min. exact Hlt.
Qed.

Example udiv_array_run :
  let '(_, s') := udivider_array [0; 1; 2] [3; 4; 5] [6; 7; 8] [9; 10; 11] (st0 12 false) in
  let e1 := eval_rev (gates s') (fun w => match w with 0 | 1 | 2 | 3 | 5 => true | _ => false end) in
  let e2 := eval_rev (gates s') (fun w => match w with 1 | 2 | 3 | 4 => true | _ => false end) in
  let e3 := eval_rev (gates s') (fun w => match w with 0 | 2 => true | _ => false end) in
  wfc_b 6 (gates s') = true /\
  (valN e1 [0; 1; 2], valN e1 [3; 4; 5], valN e1 [6; 7; 8], valN e1 [9; 10; 11]) = (7, 5, 1, 2) /\
  (valN e2 [0; 1; 2], valN e2 [3; 4; 5], valN e2 [6; 7; 8], valN e2 [9; 10; 11]) = (6, 3, 2, 0) /\
  (valN e3 [0; 1; 2], valN e3 [3; 4; 5], valN e3 [6; 7; 8], valN e3 [9; 10; 11]) = (5, 0, 7, 5).
Proof. vm_compute. repeat split. Qed.
