(* Regression record of finding F12 (fixed in /repo by commit
   40c507d "NewArrayMultiplier zeroes all unused high result bits").
   Before the fix both zero-fill loops of NewArrayMultiplier assigned z[1]
   instead of z[i]; [array_multiplier_old] is the faithful model of that code.
   It is NOT exact for result widths > 2*max: 1-bit x = 1 times 2-bit y = 2 with
   a 7-bit result evaluates to 0 ([array_multiplier_old_wide_refuted]); the
   current model (Mult.array_multiplier, tied to the current Go code by the
   correspondence check) gives 2 and is proved exact for every width in
   MultProof.v. *)
From Coq Require Import NArith List Bool Arith Lia.
From Mpc Require Import Builders.Emit Builders.Mult.
Import ListNotations.
Open Scope monad_scope.

Definition array_multiplier_old (x y z : list wire) : M (list wire) :=
  '(x, y) <- zero_pad x y;;
  let x := firstn (length z) x in
  let y := firstn (length z) y in
  if Nat.eqb (length x) 1 then
    emit AND (nth 0 x 0%N) (nth 0 y 0%N) (nth 0 z 0%N);;
    (* if len(z) > 1 { z[1] = cc.ZeroWire() } *)
    (if Nat.ltb 1 (length z) then zw <- zero_wire;; ret (set_nth z 1 zw) else ret z)
  else
    emit AND (nth 0 x 0%N) (nth 0 y 0%N) (nth 0 z 0%N);;
    sums <- am_row0 (tl x) (nth 0 y 0%N);;
    let j := (length y - 1)%nat in
    sums <- am_layers x (firstn (j - 1) (tl y)) (tl z) sums;;
    am_final true x (nth j y 0%N) sums (skipn j z) 0%N;;
    (* for i := j+len(x)+1; i < len(z); i++ { z[1] = cc.ZeroWire() }   <- the typo *)
    (if Nat.ltb (j + length x + 1) (length z)
     then zw <- zero_wire;; ret (set_nth z 1 zw)
     else ret z).

Open Scope N_scope.

Definition f12_x : list wire := [0].
Definition f12_y : list wire := [1; 2].
Definition f12_z : list wire := [3; 4; 5; 6; 7; 8; 9].
Definition f12_e0 : env := fun w => N.eqb w 0 || N.eqb w 2.

Lemma f12_inputs : valN f12_e0 f12_x = 1 /\ valN f12_e0 f12_y = 2.
Proof. split; reflexivity. Qed.

Theorem array_multiplier_old_wide_refuted :
  exists x y z e0,
    (2 * Nat.max (length x) (length y) < length z)%nat /\
    let '(z', s') := array_multiplier_old x y z (st0 10 false) in
    wfc_b 3 (gates s') = true /\
    valN (eval_rev (gates s') e0) z' <> (valN e0 x * valN e0 y) mod 2 ^ N.of_nat (length z).
Proof.
  exists f12_x, f12_y, f12_z, f12_e0. split; [cbn; lia|].
  vm_compute. split; [reflexivity|discriminate].
Qed.

(* bit 1, the only set bit of the product 2, was zeroed *)
Example f12_old_value :
  let '(z', s') := array_multiplier_old f12_x f12_y f12_z (st0 10 false) in
  valN (eval_rev (gates s') f12_e0) z' = 0.
Proof. vm_compute. reflexivity. Qed.

Example f12_fixed_value :
  let '(z', s') := array_multiplier f12_x f12_y f12_z (st0 10 false) in
  valN (eval_rev (gates s') f12_e0) z' = 2.
Proof. vm_compute. reflexivity. Qed.

Example f12_fixed_via_multiplier :
  let '(z', s') := new_multiplier [] 0 f12_x f12_y f12_z (st0 10 false) in
  valN (eval_rev (gates s') f12_e0) z' = 2.
Proof. vm_compute. reflexivity. Qed.
