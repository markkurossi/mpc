(* The map-based evaluator of EvalFast.v computes exactly Emit.eval_rev. *)
From Coq Require Import NArith List Bool Arith FMapPositive Lia.
From Mpc Require Import Builders.Emit Builders.EmitProof Builders.EvalFast.
Import ListNotations.

Lemma wkey_inj a b : wkey a = wkey b -> a = b.
Proof.
  unfold wkey. intros H.
  assert (K : N.pos (N.succ_pos a) = N.pos (N.succ_pos b)) by congruence.
  rewrite !N.succ_pos_spec in K. lia.
Qed.

Theorem evalm_correct gs e0 w : evalm gs e0 w = eval_rev gs e0 w.
Proof.
  unfold evalm. revert w. induction gs as [|g r IH]; intros w; cbn [evalm_rev eval_rev].
  - unfold mget. rewrite PositiveMap.gempty. reflexivity.
  - unfold upd, gate_val. destruct (N.eqb w (g_o g)) eqn:E.
    + apply N.eqb_eq in E. subst w. unfold mget at 1. rewrite PositiveMap.gss.
      rewrite !IH. reflexivity.
    + apply N.eqb_neq in E. unfold mget at 1. rewrite PositiveMap.gso.
      * apply IH.
      * intros K. apply wkey_inj in K. congruence.
Qed.

Corollary evalm_valN gs e0 ws : valN (evalm gs e0) ws = valN (eval_rev gs e0) ws.
Proof. unfold valN. f_equal. apply map_ext. intros w. apply evalm_correct. Qed.

(* [wfc_b] searches the earlier gates for every output wire; this check looks the
   wire up in a map, so that checking a concrete circuit is not quadratic. *)
Definition wset := PositiveMap.t unit.
Definition seen (u : wset) (w : wire) : bool :=
  match PositiveMap.find (wkey w) u with Some _ => true | None => false end.
Definition see (w : wire) (u : wset) : wset := PositiveMap.add (wkey w) tt u.

Fixpoint wfc_seen (ninp : N) (gs : list gate) : option wset :=
  match gs with
  | [] => Some (PositiveMap.empty unit)
  | g :: r =>
      match wfc_seen ninp r with
      | Some u =>
          if negb (N.ltb (g_o g) ninp) && negb (N.eqb (g_o g) (g_a g)) && negb (N.eqb (g_o g) (g_b g))
             && negb (seen u (g_o g))
          then Some (see (g_a g) (see (g_b g) (see (g_o g) u))) else None
      | None => None
      end
  end.

Definition wfc_fast (ninp : N) (gs : list gate) : bool :=
  match wfc_seen ninp gs with Some _ => true | None => false end.

Lemma seen_see u v w : seen (see v u) w = N.eqb w v || seen u w.
Proof.
  unfold seen, see. destruct (N.eqb_spec w v) as [->|E].
  - rewrite PositiveMap.gss. reflexivity.
  - rewrite PositiveMap.gso; [reflexivity|]. intros K. apply wkey_inj in K. congruence.
Qed.

Lemma wfc_seen_spec ninp gs : forall u, wfc_seen ninp gs = Some u ->
  wfc_b ninp gs = true /\ forall w, seen u w = mentions w gs.
Proof.
  induction gs as [|g r IH]; cbn [wfc_seen wfc_b mentions]; intros u H.
  - inversion H. split; [reflexivity|]. intros w. unfold seen. rewrite PositiveMap.gempty. reflexivity.
  - destruct (wfc_seen ninp r) as [u1|]; [|discriminate].
    destruct (IH u1 eq_refl) as [C M]. rewrite C, <- M, andb_true_r.
    destruct (_ && _); inversion H. split; [reflexivity|].
    intros w. rewrite !seen_see, M, !orb_assoc. reflexivity.
Qed.

Theorem wfc_fast_correct ninp gs : wfc_fast ninp gs = true -> wfc_b ninp gs = true.
Proof.
  unfold wfc_fast. destruct (wfc_seen ninp gs) as [u|] eqn:E; [|discriminate].
  intros _. apply (wfc_seen_spec _ _ _ E).
Qed.

Open Scope N_scope.

(* The test layout of the multipliers: operands of width n on wires 0..n-1 and
   n..2n-1 carrying a and b, the l destination wires next.  The pair returned is
   (value on the result wires after gate-by-gate evaluation, (a * b) mod 2^l). *)
Definition mul_run (t : bool) (bld : list wire -> list wire -> list wire -> M (list wire))
           (n l : nat) (a b : N) : N * N :=
  let x := map N.of_nat (seq 0 n) in
  let y := map N.of_nat (seq n n) in
  let z := map N.of_nat (seq (2 * n) l) in
  let '(z', s) := bld x y z (st0 (N.of_nat (2 * n + l)) t) in
  let e0 := fun w => if N.ltb w (N.of_nat n) then N.testbit a w
                     else N.testbit b (w - N.of_nat n) in
  let e := eval_rev (gates s) e0 in
  (valN e z', (a * b) mod 2 ^ N.of_nat l).

Section MulRun.
Variables (t : bool) (bld : list wire -> list wire -> list wire -> M (list wire)) (n l : nat).
Let x := map N.of_nat (seq 0 n).
Let y := map N.of_nat (seq n n).
Let z := map N.of_nat (seq (2 * n) l).
Hypothesis spec :
  okm t (bld x y z)
      (fun z' e => length z' = length z /\
                   valN e z' = (valN e x * valN e y) mod 2 ^ N.of_nat (length z)).
Hypothesis wfc :
  wfc_fast (N.of_nat (2 * n)) (gates (snd (bld x y z (st0 (N.of_nat (2 * n + l)) t)))) = true.

Lemma mul_run_ok a b :
  a < 2 ^ N.of_nat n -> b < 2 ^ N.of_nat n -> (let '(u, v) := mul_run t bld n l a b in N.eqb u v) = true.
Proof.
  intros Ha Hb. unfold mul_run. fold x y z.
  pose proof (wfc_fast_correct _ _ wfc) as C.
  set (e0 := fun w => if N.ltb w (N.of_nat n) then N.testbit a w else N.testbit b (w - N.of_nat n)).
  destruct (okm_eval_st0 t _ _ _ _ e0 spec C) as [_ V].
  replace (length z) with l in V by (unfold z; rewrite map_length, seq_length; reflexivity).
  destruct (bld x y z _) as [z' s]. cbn [fst snd] in *. apply N.eqb_eq. rewrite V. unfold x, y.
  assert (I : forall k m, (k + m <= 2 * n)%nat ->
            valN (eval_rev (gates s) e0) (map N.of_nat (seq k m)) = valN e0 (map N.of_nat (seq k m))).
  { intros k m Hk. unfold valN. f_equal. apply map_ext_in. intros w Hw.
    apply in_map_iff in Hw. destruct Hw as (i & <- & Hi). apply in_seq in Hi.
    apply (eval_rev_inputs _ _ _ _ C). lia. }
  rewrite !I by lia. f_equal. f_equal.
  - rewrite (valN_input_bits e0 n 0 a), N.mod_small; [reflexivity | exact Ha |].
    intros i Hi. unfold e0. destruct (N.ltb_spec (N.of_nat (0 + i)) (N.of_nat n)); [reflexivity | lia].
  - rewrite (valN_input_bits e0 n n b), N.mod_small; [reflexivity | exact Hb |].
    intros i Hi. unfold e0. destruct (N.ltb_spec (N.of_nat (n + i)) (N.of_nat n)); [lia|].
    f_equal. lia.
Qed.

Lemma mul_check_ok :
  forallb (fun a => forallb (fun b => let '(u, v) := mul_run t bld n l (N.of_nat a) (N.of_nat b) in N.eqb u v)
                            (seq 0 (2 ^ n))) (seq 0 (2 ^ n)) = true.
Proof.
  apply forallb_forall. intros a Ia. apply forallb_forall. intros b Ib.
  apply in_seq in Ia, Ib.
  assert (B : forall c, (c < 2 ^ n)%nat -> N.of_nat c < 2 ^ N.of_nat n).
  { intros c Hc. change 2 with (N.of_nat 2). rewrite <- Nat2N.inj_pow. lia. }
  apply mul_run_ok; apply B; lia.
Qed.

Lemma mul_spots_ok ps :
  forallb (fun p => N.ltb (fst p) (2 ^ N.of_nat n) && N.ltb (snd p) (2 ^ N.of_nat n)) ps = true ->
  forallb (fun p => let '(u, v) := mul_run t bld n l (fst p) (snd p) in N.eqb u v) ps = true.
Proof.
  rewrite !forallb_forall. intros H p Hp. specialize (H p Hp).
  apply andb_true_iff in H. destruct H as [Ha Hb]. apply N.ltb_lt in Ha, Hb.
  exact (mul_run_ok _ _ Ha Hb).
Qed.
End MulRun.

(* closes a conjunction or list of concrete checks, each by the lemma [L] whose
   side conditions are bounds and the evaluated single-assignment test *)
Ltac checks_by L := cbn [forallb andb]; rewrite !L by (try lia; vm_compute; reflexivity); reflexivity.
