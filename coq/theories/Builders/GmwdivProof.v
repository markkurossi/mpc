(* C07: the GMW Goldschmidt divider (NewUDividerGoldschmidtFast).

   The correction step (q-1, q, q+1) can repair a quotient estimate that is
   within +-1 of floor(a/b).  The estimate of the faithful model (and of the Go
   code) is not always that close: at width 7 it is 11 = floor(127/13) + 2 for
   127 / 13 ([gmw_divider_w7_refuted], one evaluated witness).  For the widths
   1..5 the divider is exact for all operands with b <> 0
   ([gmw_divider_small_exact], one bit-sliced run of the circuit per width).
   Both statements are about gate-by-gate evaluation: gmwdiv_run is
   Emit.eval_rev by [gmwdiv_run_eval_rev].  The correction lemma for all widths
   is in GmwCorrProof.v, with the exact side condition it needs; the harness
   oracle covers wider widths. *)
From Coq Require Import NArith List Bool Arith Lia.
From Mpc Require Import Base.ListFacts Builders.Emit Builders.EvalFast Builders.EvalFastProof
  Builders.EvalSliced Builders.Gmwdiv.
Import ListNotations.
Open Scope N_scope.

Definition wires_from (from n : nat) : list wire := map N.of_nat (seq from n).
Definition bits_of (v : N) (n : nat) : list bool := map (fun i => N.testbit v (N.of_nat i)) (seq 0 n).
Definition env_of (vals : list bool) : env := fun w => nth (N.to_nat w) vals false.

Definition gmwdiv_gates (n : nat) : list gate :=
  gates (snd (gmw_divider (wires_from 0 n) (wires_from n n) (wires_from (2 * n) n) (wires_from (3 * n) n)
                          (st0 (N.of_nat (4 * n)) true))).

Definition gmwdiv_run (n : nat) (gs : list gate) (a b : N) : N * N :=
  let e := evalm gs (env_of (bits_of a n ++ bits_of b n)) in
  (valN e (wires_from (2 * n) n), valN e (wires_from (3 * n) n)).

(* 127 / 13 at width 7: quotient 11 (exact: 9), remainder 112 (exact: 10) *)
Lemma gmw_divider_w7_value : gmwdiv_run 7 (gmwdiv_gates 7) 127 13 = (11, 112).
Proof. vm_compute. reflexivity. Qed.

Lemma gmwdiv_run_eval_rev n gs a b :
  gmwdiv_run n gs a b =
  (valN (eval_rev gs (env_of (bits_of a n ++ bits_of b n))) (wires_from (2 * n) n),
   valN (eval_rev gs (env_of (bits_of a n ++ bits_of b n))) (wires_from (3 * n) n)).
Proof. unfold gmwdiv_run. cbv zeta. rewrite !evalm_valN. reflexivity. Qed.

Theorem gmw_divider_w7_refuted :
  exists (n : nat) (a b : N),
    b <> 0 /\ a < 2 ^ N.of_nat n /\ b < 2 ^ N.of_nat n /\
    exists q r,
      (valN (eval_rev (gmwdiv_gates n) (env_of (bits_of a n ++ bits_of b n))) (wires_from (2 * n) n),
       valN (eval_rev (gmwdiv_gates n) (env_of (bits_of a n ++ bits_of b n))) (wires_from (3 * n) n))
      = (q, r) /\ q <> a / b /\ r <> a mod b.
Proof.
  exists 7%nat, 127, 13. split; [discriminate|]. split; [reflexivity|]. split; [reflexivity|].
  exists 11, 112. split.
  - rewrite <- gmwdiv_run_eval_rev. exact gmw_divider_w7_value.
  - split; vm_compute; discriminate.
Qed.

Lemma env_of_operands n a b w : a < 2 ^ N.of_nat n -> b < 2 ^ N.of_nat n ->
  env_of (bits_of a n ++ bits_of b n) w = N.testbit (a + 2 ^ N.of_nat n * b) w.
Proof.
  intros La Lb. unfold env_of, bits_of.
  assert (P : 2 ^ N.of_nat n <> 0) by (apply N.pow_nonzero; discriminate).
  rewrite <- (N2Nat.id w) at 2.
  destruct (Nat.lt_ge_cases (N.to_nat w) n) as [L|L].
  - rewrite app_nth1, nth_map_seq by (rewrite ?map_length, ?seq_length; exact L).
    rewrite <- (N.mod_pow2_bits_low (a + _) (N.of_nat n)) by lia.
    rewrite N.mul_comm, N.mod_add, N.mod_small by assumption. reflexivity.
  - rewrite app_nth2; rewrite map_length, seq_length; [|exact L].
    replace (N.of_nat (N.to_nat w)) with (N.of_nat (N.to_nat w - n) + N.of_nat n) by lia.
    rewrite <- N.div_pow2_bits, N.mul_comm, N.div_add, N.div_small, N.add_0_l by assumption.
    destruct (Nat.lt_ge_cases (N.to_nat w - n) n) as [L2|L2].
    + apply (nth_map_seq (fun i => N.testbit b (N.of_nat i))), L2.
    + rewrite nth_overflow by (rewrite map_length, seq_length; exact L2).
      rewrite <- (N.mod_small b (2 ^ N.of_nat n) Lb). symmetry. apply N.mod_pow2_bits_high. lia.
Qed.

(* assignment k is the operand pair (k mod 2^n, k / 2^n); [valid] leaves out b = 0 *)
Definition gmwdiv_check (n : nat) : bool :=
  let len := Nat.pow 4 n in
  let p := 2 ^ N.of_nat n in
  let m := evalw (gmwdiv_gates n) (wires_from 0 (2 * n)) (fun k w => N.testbit k w) len in
  let valid k := negb (N.eqb (k / p) 0) in
  outs_agree m valid (fun k => (k mod p) / (k / p)) len (wires_from (2 * n) n)
  && outs_agree m valid (fun k => (k mod p) mod (k / p)) len (wires_from (3 * n) n).

Lemma gmw_divider_small_sweep : forallb gmwdiv_check [1; 2; 3; 4; 5]%nat = true.
Proof. vm_compute. reflexivity. Qed.

Theorem gmw_divider_small_exact :
  forall n a b, In n [1; 2; 3; 4; 5]%nat ->
    (a < Nat.pow 2 n)%nat -> (1 <= b < Nat.pow 2 n)%nat ->
    gmwdiv_run n (gmwdiv_gates n) (N.of_nat a) (N.of_nat b)
    = (N.of_nat a / N.of_nat b, N.of_nat a mod N.of_nat b).
Proof.
  intros n a b Hn Ha Hb.
  pose proof gmw_divider_small_sweep as S. rewrite forallb_forall in S.
  specialize (S n Hn). unfold gmwdiv_check in S. cbv zeta in S.
  apply andb_true_iff in S. destruct S as [Sq Sr].
  set (p := 2 ^ N.of_nat n) in *.
  assert (Pn : N.of_nat (Nat.pow 2 n) = p) by (unfold p; rewrite Nat2N.inj_pow; reflexivity).
  assert (La : N.of_nat a < p) by lia. assert (Lb : N.of_nat b < p) by lia.
  assert (P : p <> 0) by (apply N.pow_nonzero; discriminate).
  set (k := N.of_nat a + p * N.of_nat b).
  assert (Kd : k / p = N.of_nat b) by (unfold k; rewrite N.mul_comm, N.div_add, N.div_small by assumption; lia).
  assert (Km : k mod p = N.of_nat a) by (unfold k; rewrite N.mul_comm, N.mod_add; [apply N.mod_small|]; assumption).
  assert (L : k < N.of_nat (Nat.pow 4 n)).
  { change 4%nat with (2 * 2)%nat. rewrite Nat.pow_mul_l, Nat2N.inj_mul, Pn. unfold k. nia. }
  assert (V : negb (N.eqb (k / p) 0) = true) by (rewrite Kd; apply negb_true_iff, N.eqb_neq; lia).
  assert (Z : forall w, existsb (N.eqb w) (wires_from 0 (2 * n)) = false -> N.testbit k w = false).
  { intros w E. rewrite <- (N.mod_small k (2 ^ N.of_nat (2 * n))).
    - apply N.mod_pow2_bits_high. destruct (N.le_gt_cases (N.of_nat (2 * n)) w) as [G|G]; [exact G|].
      rewrite <- not_true_iff_false in E. exfalso. apply E, existsb_exists. exists w.
      split; [|apply N.eqb_refl]. unfold wires_from. rewrite <- (N2Nat.id w). apply in_map, in_seq. lia.
    - rewrite Nat2N.inj_mul, N.pow_mul_r. change (2 ^ N.of_nat 2) with 4.
      rewrite Nat2N.inj_pow in L. exact L. }
  rewrite gmwdiv_run_eval_rev.
  rewrite (sliced_check _ _ _ _ _ _ _ k _ Sq L V Z (fun w => env_of_operands n _ _ w La Lb)).
  rewrite (sliced_check _ _ _ _ _ _ _ k _ Sr L V Z (fun w => env_of_operands n _ _ w La Lb)).
  cbv beta. unfold wires_from. rewrite !map_length, !seq_length, Kd, Km. fold p.
  assert (Q : N.of_nat a / N.of_nat b < p)
    by (apply N.le_lt_trans with (N.of_nat a); [apply N.div_le_upper_bound; nia|exact La]).
  assert (R : N.of_nat a mod N.of_nat b < p)
    by (apply N.lt_trans with (N.of_nat b); [apply N.mod_lt; lia|exact Lb]).
  rewrite !N.mod_small by assumption. reflexivity.
Qed.
