(* C07: NewWallaceMultiplier (the GMW target multiplier) computes
   (a * b) mod 2^(result width) for every result width >= 1 and every operand width.

   Invariant: the weighted column sum  colsum e cols = sum_i 2^i * #(true wires of column i).
   The partial products give it the value a' * b' (the n-bit operands); a reduction round
   preserves it modulo 2^(number of columns) (carries of the last column are dropped).
   The fuel 2n+8 of the reduction loop suffices: while the maximal column height M is >= 3
   a round lowers it to at most M-1, and the initial height is <= n. *)
From Coq Require Import NArith List Arith Lia.
From Mpc Require Import Builders.Emit Builders.EmitProof Builders.EvalFastProof Builders.AdderProof
                        Builders.Mult Builders.KsProof.
Import ListNotations.
Open Scope N_scope.

Fixpoint cnt (e : env) (c : list wire) : N :=
  match c with
  | [] => 0
  | w :: r => N.b2n (e w) + cnt e r
  end.

Fixpoint colsum (e : env) (cols : list (list wire)) : N :=
  match cols with
  | [] => 0
  | c :: r => cnt e c + 2 * colsum e r
  end.

Lemma cnt_app e a b : cnt e (a ++ b) = cnt e a + cnt e b.
Proof. induction a as [|w a IH]; cbn [app cnt]; [reflexivity|]. rewrite IH. lia. Qed.

Lemma colsum_app e x y :
  colsum e (x ++ y) = colsum e x + 2 ^ N.of_nat (length x) * colsum e y.
Proof.
  induction x as [|c x IH]; cbn [app colsum length].
  - change (2 ^ N.of_nat 0) with 1. lia.
  - rewrite IH, pow2_S. ring.
Qed.

Lemma colsum_repeat_nil e m : colsum e (repeat [] m) = 0.
Proof. induction m; cbn [repeat colsum cnt]; [reflexivity|]. rewrite IHm. reflexivity. Qed.

Lemma add_col_length : forall cols k w, length (add_col cols k w) = length cols.
Proof. induction cols as [|c r IH]; intros [|k] w; cbn; auto. Qed.

Lemma colsum_add_col e w : forall cols k, (k < length cols)%nat ->
  colsum e (add_col cols k w) = colsum e cols + 2 ^ N.of_nat k * N.b2n (e w).
Proof.
  induction cols as [|c r IH]; intros k H; [cbn in H; lia|].
  destruct k as [|k]; cbn [add_col colsum].
  - rewrite cnt_app. cbn [cnt]. change (2 ^ N.of_nat 0) with 1. lia.
  - rewrite IH by (cbn in H; lia). rewrite pow2_S. ring.
Qed.

Lemma add_col_nth_len : forall cols k w j,
  (length (nth j (add_col cols k w) []) <= length (nth j cols []) + (if Nat.eqb j k then 1 else 0))%nat.
Proof.
  induction cols as [|c r IH]; intros k w j.
  - destruct k, j; cbn; lia.
  - destruct k as [|k], j as [|j]; cbn [add_col nth Nat.eqb].
    + rewrite app_length. cbn. lia.
    + lia.
    + lia.
    + apply IH.
Qed.

Lemma okp_wal_pp_row t ai : forall bs k cols,
  okp t (wal_pp_row ai bs k cols)
      (fun cols' => length cols' = length cols /\
         forall j, (length (nth j cols' []) <= length (nth j cols []) + (if Nat.leb k j then 1 else 0))%nat)
      (fun cols' e => (k + length bs <= length cols)%nat ->
         colsum e cols' = colsum e cols + 2 ^ N.of_nat k * (N.b2n (e ai) * valN e bs)).
Proof.
  induction bs as [|bj bs IH]; intros k cols; cbn [wal_pp_row].
  - apply okp_ret.
    + split; auto. intros j. lia.
    + intros e _. rewrite valN_nil, !N.mul_0_r, N.add_0_r. reflexivity.
  - ostep okm_fresh. rename a into w. ostep okm_emit.
    eapply okp_weaken; [apply IH| |].
    + intros cols' [HL HJ]. rewrite add_col_length in HL. split; auto.
      intros j. specialize (HJ j). pose proof (add_col_nth_len cols k w j) as HA.
      destruct (Nat.leb_spec (S k) j), (Nat.leb_spec k j), (Nat.eqb_spec j k); lia.
    + cbv beta. intros cols' e _ HP Hemit _ Hlen. cbn [length] in Hlen.
      rewrite HP by (rewrite add_col_length; lia).
      rewrite colsum_add_col by lia. rewrite valN_cons, pow2_S, Hemit. cbn [gsem].
      destruct (e ai), (e bj); cbn [N.b2n andb]; ring.
Qed.

Lemma okp_wal_pp t b : forall a i cols,
  okp t (wal_pp a b i cols)
      (fun cols' => length cols' = length cols /\
         forall j, (length (nth j cols' []) <= length (nth j cols []) + length a)%nat)
      (fun cols' e => (i + length a + length b <= S (length cols))%nat ->
         colsum e cols' = colsum e cols + 2 ^ N.of_nat i * (valN e a * valN e b)).
Proof.
  induction a as [|ai a IH]; intros i cols; cbn [wal_pp].
  - apply okp_ret.
    + split; auto. intros j. lia.
    + intros e _. rewrite valN_nil, N.mul_0_l, N.mul_0_r, N.add_0_r. reflexivity.
  - eapply okp_bind; [apply okp_wal_pp_row|]. intros cols1 [L1 J1]. cbv beta.
    eapply okp_weaken; [apply IH| |].
    + intros cols' [L J]. split; [congruence|]. intros j.
      specialize (J j). specialize (J1 j). cbn [length]. destruct (Nat.leb i j); lia.
    + cbv beta. intros cols' e _ HP Hrow Hlen. cbn [length] in Hlen.
      rewrite HP by lia. rewrite Hrow by lia. rewrite valN_cons, pow2_S. ring.
Qed.

(* with enough fuel a column of height h leaves at most ceil(h/3) sums (and
   pass-through wires) and floor((h+1)/3) carries *)
Lemma okp_wal_col t : forall fuel col,
  okp t (wal_col fuel col)
      (fun r => (length col <= fuel)%nat ->
                (3 * length (fst r) <= length col + 2 /\ 3 * length (snd r) <= length col + 1)%nat)
      (fun r e => cnt e (fst r) + 2 * cnt e (snd r) = cnt e col).
Proof.
  induction fuel as [|f IH]; intros col; cbn [wal_col].
  - apply okp_ret.
    + cbn [fst snd length]. intros H. destruct col; cbn [length] in *; lia.
    + intros e. cbn [fst snd cnt]. lia.
  - destruct col as [|u [|v [|w rest]]].
    + apply okp_ret; [cbn; lia | intros e; reflexivity].
    + apply okp_ret; [cbn; lia | intros e; cbn [fst snd cnt]; lia].
    + ostep okm_fresh. rename a into s. ostep okm_fresh. rename a into c.
      ostep okm_half_adder_arith. apply okp_ret.
      * cbn. lia.
      * intros e H _ _. cbn [fst snd cnt]. lia.
    + ostep okm_fresh. rename a into s. ostep okm_fresh. rename a into c.
      ostep okm_full_adder_arith.
      eapply okp_bind; [apply IH|]. intros [ss cs] HR. cbv beta iota.
      apply okp_ret.
      * cbn [fst snd length] in *. intros H. lia.
      * intros e HP H _ _. cbn [fst snd cnt] in *. lia.
Qed.

Lemma max_height_Forall M : forall cols,
  Forall (fun c : list wire => (length c <= M)%nat) cols <-> (max_height cols <= M)%nat.
Proof.
  induction cols as [|c r IH]; cbn [max_height fold_right].
  - split; [lia | constructor].
  - fold (max_height r). split.
    + intros H. inversion H; subst. apply IH in H3. lia.
    + intros H. constructor; [lia|]. apply IH. lia.
Qed.

Lemma Forall_nth_len M : forall cols : list (list wire),
  (forall j, (length (nth j cols []) <= M)%nat) -> Forall (fun c => (length c <= M)%nat) cols.
Proof.
  induction cols as [|c r IH]; intros H; constructor.
  - apply (H 0%nat).
  - apply IH. intros j. apply (H (S j)).
Qed.

Lemma Forall_firstn_w {A} (P : A -> Prop) k (l : list A) : Forall P l -> Forall P (firstn k l).
Proof.
  intros H. rewrite <- (firstn_skipn k l) in H. apply Forall_app in H. tauto.
Qed.

(* d: the dropped carries of the last column *)
Lemma okp_wal_round t : forall cols cin,
  okp t (wal_round cols cin)
      (fun cols' => length cols' = length cols /\
         forall M, (3 <= M)%nat -> (3 * length cin <= M + 1)%nat ->
                   Forall (fun c => (length c <= M)%nat) cols ->
                   Forall (fun c => (length c <= M - 1)%nat) cols')
      (fun cols' e => exists d,
         colsum e cols' + 2 ^ N.of_nat (length cols) * d = cnt e cin + colsum e cols).
Proof.
  induction cols as [|col rest IH]; intros cin; cbn [wal_round].
  - apply okp_ret.
    + split; auto.
    + intros e. exists (cnt e cin). cbn [colsum length]. change (2 ^ N.of_nat 0) with 1. lia.
  - eapply okp_bind; [apply okp_wal_col|]. intros [ss cs] HC. cbv beta iota.
    cbn [fst snd] in HC. specialize (HC (le_n _)). destruct HC as [HC1 HC2].
    eapply okp_bind; [apply IH|]. intros rest' [L HM]. cbv beta.
    apply okp_ret.
    + split; [cbn [length]; congruence|].
      intros M HM3 Hcin HF. inversion HF; subst. constructor.
      * rewrite app_length. unfold wire in *. lia.
      * apply HM; auto. unfold wire in *. lia.
    + intros e [d HI] Hcol. exists d. cbn [fst snd] in Hcol.
      cbn [colsum length]. rewrite cnt_app, pow2_S. nia.
Qed.

Lemma okp_wal_reduce t : forall fuel cols,
  okp t (wal_reduce fuel cols)
      (fun cols' => length cols' = length cols /\
         ((max_height cols <= fuel + 2)%nat -> Forall (fun c => (length c <= 2)%nat) cols'))
      (fun cols' e => exists d, colsum e cols' + 2 ^ N.of_nat (length cols) * d = colsum e cols).
Proof.
  induction fuel as [|f IH]; intros cols; cbn [wal_reduce].
  - apply okp_ret.
    + split; auto. intros H. apply max_height_Forall. lia.
    + intros e. exists 0. lia.
  - destruct (Nat.ltb 2 (max_height cols)) eqn:E.
    + apply Nat.ltb_lt in E.
      eapply okp_bind; [apply okp_wal_round|]. intros cols1 [L1 HM]. cbv beta.
      eapply okp_weaken; [apply IH| |].
      * intros cols' [L H]. split; [congruence|]. intros Hf. apply H.
        apply max_height_Forall.
        eapply Forall_impl; [|apply (HM (max_height cols)); [lia | cbn; lia | apply max_height_Forall; lia]].
        cbv beta. intros c Hc. lia.
      * cbv beta. intros cols' e _ [d Hd] [d1 Hd1]. rewrite L1 in Hd. cbn [cnt] in Hd1.
        exists (d + d1). nia.
    + apply Nat.ltb_ge in E. apply okp_ret.
      * split; auto. intros _. apply max_height_Forall. lia.
      * intros e. exists 0. lia.
Qed.

Lemma okm_zero_b2n t : okm t zero_wire (fun r e => N.b2n (e r) = 0).
Proof. eapply okm_weaken; [apply okm_zero|]. cbv beta. intros r e H. rewrite H. reflexivity. Qed.

Lemma okm_row1 t (col : list wire) :
  okm t (match col with w :: _ => ret w | [] => zero_wire end)
      (fun r e => N.b2n (e r) = match col with w :: _ => N.b2n (e w) | [] => 0 end).
Proof. destruct col as [|w ?]; [apply okm_zero_b2n | apply okm_ret; reflexivity]. Qed.

Lemma okm_row2 t (col : list wire) :
  okm t (match col with _ :: w :: _ => ret w | _ => zero_wire end)
      (fun r e => N.b2n (e r) = match col with _ :: w :: _ => N.b2n (e w) | _ => 0 end).
Proof.
  destruct col as [|w1 [|w2 ?]]; [apply okm_zero_b2n | apply okm_zero_b2n | apply okm_ret; reflexivity].
Qed.

Lemma okp_wal_rows t : forall cols,
  okp t (wal_rows cols)
      (fun r => length (fst r) = length cols /\ length (snd r) = length cols)
      (fun r e => Forall (fun c : list wire => (length c <= 2)%nat) cols ->
                  valN e (fst r) + valN e (snd r) = colsum e cols).
Proof.
  induction cols as [|col rest IH]; cbn [wal_rows].
  - apply okp_ret; [split; reflexivity | intros e _; reflexivity].
  - ostep okm_row1. rename a into r1. ostep okm_row2. rename a into r2.
    eapply okp_bind; [apply IH|]. intros [ra rb] [La Lb]. cbv beta iota.
    cbn [fst snd] in La, Lb.
    apply okp_ret.
    + cbn [fst snd length]. split; congruence.
    + intros e HI H2 H1 HF. inversion HF; subst. cbn [fst snd] in *.
      rewrite !valN_cons. cbn [colsum]. specialize (HI H4).
      destruct col as [|w1 [|w2 [|w3 ?]]]; cbn [cnt length] in *; lia.
Qed.

Lemma wal_mod_arith F X d va vb p :
  0 < p -> F + p * X + p * p * d = (va mod p) * (vb mod p) -> F mod p = (va * vb) mod p.
Proof.
  intros Hp H. assert (Hp0 : p <> 0) by lia.
  rewrite (N.mul_mod va vb p Hp0), <- H.
  replace (F + p * X + p * p * d) with (F + (X + p * d) * p) by ring.
  rewrite N.mod_add by exact Hp0. reflexivity.
Qed.

Theorem okp_wallace_multiplier t a b r : (1 <= length r)%nat ->
  okp t (wallace_multiplier a b r)
      (fun r' => length r' = length r)
      (fun r' e => valN e r' = (valN e a * valN e b) mod 2 ^ N.of_nat (length r)).
Proof.
  intros Hr. unfold wallace_multiplier. cbv zeta.
  remember (length r) as n eqn:En.
  eapply okp_bind; [apply okp_pad_val|]. intros a1 La. cbv beta in *.
  eapply okp_bind; [apply okp_pad_val|]. intros b1 Lb. cbv beta in *.
  remember (firstn n a1) as a2 eqn:Ea2. remember (firstn n b1) as b2 eqn:Eb2.
  assert (La2 : length a2 = n) by (subst a2; rewrite firstn_length; lia).
  assert (Lb2 : length b2 = n) by (subst b2; rewrite firstn_length; lia).
  eapply okp_bind; [apply okp_wal_pp|]. intros cols0 [L0 J0]. cbv beta.
  rewrite repeat_length in L0.
  assert (H0 : (max_height cols0 <= 2 * n + 8 + 2)%nat).
  { apply max_height_Forall. apply Forall_nth_len. intros j.
    pose proof (J0 j) as J. rewrite nth_repeat in J. cbn [length] in J.
    rewrite La2 in J. clear - J. unfold wire in *. lia. }
  eapply okp_bind; [apply okp_wal_reduce|]. intros cols1 [L1 F1]. cbv beta.
  specialize (F1 H0).
  eapply okp_bind; [apply okp_wal_rows|]. intros [row1 row2] [Lr1 Lr2]. cbv beta iota.
  cbn [fst snd] in Lr1, Lr2. rewrite firstn_length in Lr1, Lr2.
  eapply okp_weaken; [apply okp_ks_adder; unfold wire in *; lia | intros r' Hlen; rewrite En; exact Hlen | ].
  cbv beta. intros r' e _ Hval Hrows [d Hred] Hpp Zb Za.
  rewrite <- En in Hval.
  cbn [fst snd] in Hrows. specialize (Hrows (Forall_firstn_w _ _ _ F1)).
  rewrite repeat_length in Hpp. rewrite colsum_repeat_nil in Hpp.
  specialize (Hpp ltac:(unfold wire in *; lia)).
  change (2 ^ N.of_nat 0) with 1 in Hpp. rewrite N.add_0_l, N.mul_1_l in Hpp.
  rewrite Ea2, Eb2, !valN_firstn, Za, Zb in Hpp.
  rewrite Hval, Hrows.
  pose proof (colsum_app e (firstn n cols1) (skipn n cols1)) as HS.
  rewrite firstn_skipn, firstn_length in HS.
  replace (Nat.min n (length cols1)) with n in HS by lia.
  rewrite L0 in Hred.
  assert (HP2 : 2 ^ N.of_nat (2 * n) = 2 ^ N.of_nat n * 2 ^ N.of_nat n).
  { rewrite <- N.pow_add_r. f_equal. lia. }
  apply (wal_mod_arith _ (colsum e (skipn n cols1)) d); [apply pow2_pos|].
  rewrite <- Hpp, <- Hred, HS, HP2. reflexivity.
Qed.

Theorem okm_wallace_multiplier : forall t a b r, (1 <= length r)%nat ->
  okm t (wallace_multiplier a b r)
      (fun r' e => length r' = length r /\
                   valN e r' = (valN e a * valN e b) mod 2 ^ N.of_nat (length r)).
Proof. intros t a b r Hr. apply okm_of_okp, okp_wallace_multiplier, Hr. Qed.

Corollary okm_new_multiplier_gmw tbl thr x y z : (1 <= length z)%nat ->
  okm true (new_multiplier tbl thr x y z)
      (fun z' e => length z' = length z /\
                   valN e z' = (valN e x * valN e y) mod 2 ^ N.of_nat (length z)).
Proof.
  intros Hz. apply okm_dispatch, okm_wallace_multiplier, Hz.
Qed.

Definition wm_run (n l : nat) (a b : N) : N * N :=
  let x := map N.of_nat (seq 0 n) in
  let y := map N.of_nat (seq n n) in
  let z := map N.of_nat (seq (2 * n) l) in
  let '(z', s) := wallace_multiplier x y z (st0 (N.of_nat (2 * n + l)) true) in
  let e0 := fun w => if N.ltb w (N.of_nat n) then N.testbit a w
                     else N.testbit b (w - N.of_nat n) in
  let e := eval_rev (gates s) e0 in
  (valN e z', (a * b) mod 2 ^ N.of_nat l).

Definition wm_check (n l : nat) : bool :=
  forallb (fun a => forallb (fun b => let '(u, v) := wm_run n l (N.of_nat a) (N.of_nat b) in N.eqb u v)
                            (seq 0 (2 ^ n))) (seq 0 (2 ^ n)).

Lemma wm_check_ok n l :
  (1 <= l)%nat ->
  wfc_fast (N.of_nat (2 * n))
           (gates (snd (wallace_multiplier (map N.of_nat (seq 0 n)) (map N.of_nat (seq n n))
                                        (map N.of_nat (seq (2 * n) l)) (st0 (N.of_nat (2 * n + l)) true)))) = true ->
  wm_check n l = true.
Proof.
  intros Hl. apply (mul_check_ok true wallace_multiplier), okm_wallace_multiplier.
  rewrite map_length, seq_length. exact Hl.
Qed.

Example wm_check_1 : forallb (wm_check 1) [1; 2; 3]%nat = true.
Proof. checks_by wm_check_ok. Qed.
Example wm_check_2 : forallb (wm_check 2) [1; 2; 3; 4; 5]%nat = true.
Proof. checks_by wm_check_ok. Qed.
Example wm_check_3 : forallb (wm_check 3) [1; 2; 3; 4; 6; 7]%nat = true.
Proof. checks_by wm_check_ok. Qed.
