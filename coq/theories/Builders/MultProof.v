(* C07: NewArrayMultiplier computes (x * y) mod 2^(result width) for every
   operand width and every result width (wires beyond twice the operand width
   are zero wires). *)
From Coq Require Import NArith List Arith Lia.
From Mpc Require Import Base.ListFacts Builders.Emit Builders.EmitProof Builders.EvalFastProof Builders.Adder Builders.AdderProof Builders.Mult.
Import ListNotations.
Open Scope N_scope.

Lemma okp_am_ands t yj : forall xs,
  okp t (am_ands xs yj) (fun r => length r = length xs)
      (fun r e => valN e r = valN e xs * N.b2n (e yj)).
Proof.
  induction xs as [|xn xs IH]; cbn [am_ands].
  - apply okp_ret; auto.
  - eapply okp_bind; [apply okp_of_okm, okm_fresh|]. intros w _. cbv beta.
    eapply okp_bind; [apply okp_of_okm, okm_emit|]. intros [] _. cbv beta.
    eapply okp_bind; [apply IH|]. intros r Hr. cbv beta.
    apply okp_ret; [cbn; congruence|].
    intros e H1 H2 _. rewrite !valN_cons, H1, H2. cbn [gsem].
    destruct (e xn), (e yj); cbn [andb N.b2n]; lia.
Qed.

Lemma okp_am_row0 t y0 : forall xs,
  okp t (am_row0 xs y0) (fun r => length r = length xs)
      (fun r e => valN e r = valN e xs * N.b2n (e y0)).
Proof. exact (okp_am_ands t y0). Qed.

Lemma okp_am_sums t : forall ands sums c,
  (length sums <= length ands)%nat ->
  okp t (am_sums ands sums c) (fun p => length (fst p) = length ands)
      (fun p e => valN e (fst p) + 2 ^ N.of_nat (length ands) * N.b2n (e (snd p))
                  = valN e ands + valN e sums + N.b2n (e c)).
Proof.
  induction ands as [|a ands IH]; intros sums c Hl; cbn [am_sums].
  - destruct sums; [|cbn in Hl; lia]. apply okp_ret; auto.
    intros e. cbn [fst snd length]. rewrite !valN_nil. cbn. destruct (e c); reflexivity.
  - eapply okp_bind; [apply okp_of_okm, okm_fresh|]. intros cout _. cbv beta.
    eapply okp_bind; [apply okp_of_okm, okm_fresh|]. intros s _. cbv beta.
    destruct sums as [|si sums].
    + eapply okp_bind; [apply okp_of_okm, okm_half_adder_arith|]. intros [] _. cbv beta.
      eapply okp_bind; [apply (IH [] cout); cbn; lia|]. intros [ns c'] Hr. cbn [fst snd] in *.
      apply okp_ret; [cbn; congruence|].
      intros e H1 H2 _ _. cbn [fst snd length tl] in *.
      rewrite !valN_cons, pow2_S. rewrite !valN_nil in *. lia.
    + eapply okp_bind; [apply okp_of_okm, okm_full_adder_arith|]. intros [] _. cbv beta.
      eapply okp_bind; [apply (IH sums cout); cbn in *; lia|]. intros [ns c'] Hr. cbn [fst snd] in *.
      apply okp_ret; [cbn; congruence|].
      intros e H1 H2 _ _. cbn [fst snd length tl] in *.
      rewrite !valN_cons, pow2_S. lia.
Qed.

Lemma okp_am_layer t x yj zj sums :
  (1 <= length sums)%nat -> (length sums <= length x)%nat ->
  okp t (am_layer x yj zj sums) (fun r => length r = length x)
      (fun r e => N.b2n (e zj) + 2 * valN e r = valN e x * N.b2n (e yj) + valN e sums).
Proof.
  intros H1 H2. unfold am_layer.
  eapply okp_bind; [apply okp_am_ands|]. intros ands Ha. cbv beta.
  destruct ands as [|a0 ands]; [cbn in Ha; lia|].
  destruct sums as [|s0 sums]; [cbn in H1; lia|]. cbn [nth tl].
  eapply okp_bind; [apply okp_of_okm, okm_fresh|]. intros cout _. cbv beta.
  eapply okp_bind; [apply okp_of_okm, okm_half_adder_arith|]. intros [] _. cbv beta.
  eapply okp_bind; [apply (okp_am_sums t ands sums cout); cbn in *; lia|].
  intros [ns c] Hr. cbn [fst snd] in *.
  apply okp_ret; [rewrite app_length; cbn in *; lia|].
  intros e E1 E2 _ E3. rewrite valN_app, !valN_cons, valN_nil, Hr.
  rewrite <- E3. rewrite !valN_cons in *. lia.
Qed.

Lemma okp_am_layers t x : forall ys zs sums,
  (1 <= length sums)%nat -> (length sums <= length x)%nat -> (length ys <= length zs)%nat ->
  okp t (am_layers x ys zs sums) (fun r => (1 <= length r)%nat /\ (length r <= length x)%nat)
      (fun r e => valN e (firstn (length ys) zs) + 2 ^ N.of_nat (length ys) * valN e r
                  = valN e x * valN e ys + valN e sums).
Proof.
  induction ys as [|yj ys IH]; intros zs sums H1 H2 H3; cbn [am_layers].
  - apply okp_ret; [lia|]. intros e. cbn [length firstn]. rewrite !valN_nil. cbn [N.of_nat].
    rewrite N.pow_0_r. lia.
  - destruct zs as [|zj zs]; [cbn in H3; lia|]. cbn [nth tl].
    eapply okp_bind; [apply okp_am_layer; assumption|]. intros sums' Hs. cbv beta.
    eapply okp_weaken; [apply (IH zs sums'); cbn in *; lia| auto |].
    intros r e _ E1 E2. cbn [length firstn]. cbv beta in E1. rewrite !valN_cons, pow2_S. lia.
Qed.

Lemma am_b2n_and a b : N.b2n (a && b) = N.b2n a * N.b2n b.
Proof. destruct a, b; reflexivity. Qed.

Lemma am_final_adder t a sums c zi cout :
  okm t (match sums with
         | [] => half_adder a c zi (Some cout)
         | si :: _ => full_adder a si c zi (Some cout)
         end)
      (fun _ e => N.b2n (e zi) + 2 * N.b2n (e cout) + 2 * valN e (tl sums)
                  = N.b2n (e a) + valN e sums + N.b2n (e c)).
Proof.
  destruct sums as [|si sums].
  - eapply okm_weaken; [apply okm_half_adder_arith|]. cbn [tl]. intros _ e H. rewrite !valN_nil. lia.
  - eapply okm_weaken; [apply okm_full_adder_arith|]. cbn [tl]. intros _ e H. rewrite valN_cons. lia.
Qed.

Lemma am_tl_nil {A} (l : list A) : (length l <= 1)%nat -> tl l = [].
Proof. destruct l as [|a [|b l]]; cbn; auto; lia. Qed.

Lemma okm_am_final_rest t yj : forall xs sums zs c,
  xs <> [] -> (length sums <= length xs)%nat ->
  okm t (am_final false xs yj sums zs c)
      (fun _ e => valN e (firstn (length xs + 1) zs)
                  = (valN e xs * N.b2n (e yj) + valN e sums + N.b2n (e c))
                    mod 2 ^ N.of_nat (length (firstn (length xs + 1) zs))).
Proof.
  induction xs as [|xn xs IH]; intros sums zs c Hne Hs; [congruence|].
  cbn [am_final]. mstep okm_fresh. mstep okm_emit.
  destruct xs as [|x2 xs].
  - clear IH. pose proof (am_tl_nil sums Hs) as Ht.
    change (length [xn] + 1)%nat with 2%nat.
    destruct zs as [|zi [|zn zs]]; cbn [tl firstn].
    + mstep okm_fresh. apply okm_ret_bind.
      apply okm_ret. intros e _ _. cbn [length N.of_nat]. rewrite N.pow_0_r, N.mod_1_r. reflexivity.
    + mstep okm_fresh. mstep am_final_adder. apply okm_ret.
      intros e H1 _ H2 _. rewrite Ht in H1. cbn [gsem] in H2. rewrite H2, am_b2n_and in H1.
      cbn [length]. change (2 ^ N.of_nat 1) with 2. rewrite !valN_cons, !valN_nil in *. rewrite ?N.mul_0_r, ?N.add_0_r in *. rewrite <- H1.
      destruct (e zi), (e a1); reflexivity.
    + apply okm_ret_bind. mstep am_final_adder. apply okm_ret.
      intros e H1 H2 _. rewrite Ht in H1. cbn [gsem] in H2. rewrite H2, am_b2n_and in H1.
      cbn [length]. change (2 ^ N.of_nat 2) with 4. rewrite !valN_cons, !valN_nil in *. rewrite ?N.mul_0_r, ?N.add_0_r in *. rewrite <- H1.
      destruct (e zi), (e zn); reflexivity.
  - mstep okm_fresh.
    change (length (xn :: x2 :: xs) + 1)%nat with (S (length (x2 :: xs) + 1)).
    destruct zs as [|zi zs]; cbn [tl firstn].
    + apply okm_ret_bind. eapply okm_weaken; [apply (IH (tl sums) [] a1); [congruence | destruct sums; cbn in *; lia] |].
      intros u e _ _ _ _. cbn [length N.of_nat]. rewrite N.pow_0_r, N.mod_1_r. reflexivity.
    + mstep am_final_adder.
      eapply okm_weaken; [apply (IH (tl sums) zs a1); [congruence | destruct sums; cbn in *; lia] |].
      intros u e H1 H2 _ H3 _. cbv beta in H1. cbn [gsem] in H3. rewrite H3, am_b2n_and in H2.
      rewrite (valN_cons e zi), H1. cbn [length]. rewrite pow2_S.
      rewrite <- mod2p by (auto using b2n_le1, pow2_pos). f_equal.
      rewrite (valN_cons e xn). lia.
Qed.

Lemma okm_am_final_top t yj x0 x1 xs sums zs :
  (1 <= length sums)%nat -> (length sums <= length (x0 :: x1 :: xs))%nat ->
  (1 <= length zs)%nat ->
  okm t (am_final true (x0 :: x1 :: xs) yj sums zs 0)
      (fun _ e => valN e (firstn (length (x0 :: x1 :: xs) + 1) zs)
                  = (valN e (x0 :: x1 :: xs) * N.b2n (e yj) + valN e sums)
                    mod 2 ^ N.of_nat (length (firstn (length (x0 :: x1 :: xs) + 1) zs))).
Proof.
  intros Hs1 Hs2 Hz1.
  destruct zs as [|zi zs]; [cbn in Hz1; lia|]. destruct sums as [|s0 sums]; [cbn in Hs1; lia|].
  change (length (x0 :: x1 :: xs) + 1)%nat with (S (length (x1 :: xs) + 1)).
  cbn [am_final nth tl firstn]. mstep okm_fresh. mstep okm_emit. mstep okm_fresh. mstep okm_half_adder_arith.
  eapply okm_weaken; [apply (okm_am_final_rest t yj (x1 :: xs) sums zs a1); [congruence | cbn in *; lia] |].
  intros u e H1 H2 _ H3 _. cbv beta in H1. cbn [gsem] in H3. rewrite H3, am_b2n_and in H2.
  rewrite (valN_cons e zi), H1. cbn [length]. rewrite pow2_S.
  rewrite <- mod2p by (auto using b2n_le1, pow2_pos). f_equal.
  rewrite (valN_cons e x0), (valN_cons e s0). lia.
Qed.

Lemma am_mod_split p a v m : p < a -> 0 < m -> (p + a * v) mod (a * m) = p + a * (v mod m).
Proof.
  intros Hp Hm. symmetry. apply N.mod_unique with (q := v / m).
  - pose proof (N.mod_lt v m). nia.
  - pose proof (N.div_mod' v m). nia.
Qed.

Lemma mul_pow_lt a b m : a < 2 ^ N.of_nat m -> b < 2 ^ N.of_nat m -> a * b < 2 ^ N.of_nat (m + m).
Proof. intros Ha Hb. rewrite Nat2N.inj_add, N.pow_add_r. apply N.mul_lt_mono; assumption. Qed.

(* b = result bit 0, [low] = the j bits left by the intermediate layers, V = the sum
   of the final layer, of which m bits are kept, P = the product *)
Lemma am_core_arith b low j V m P k l :
  b <= 1 -> low < 2 ^ N.of_nat j -> P = b + 2 * low + 2 * 2 ^ N.of_nat j * V ->
  P < 2 ^ N.of_nat k -> (S (j + m) = Nat.min k l)%nat ->
  b + 2 * (low + 2 ^ N.of_nat j * (V mod 2 ^ N.of_nat m)) = P mod 2 ^ N.of_nat l.
Proof.
  intros Hb Hlow -> HP Hm.
  rewrite <- (mod_pow_min _ k l HP), <- Hm, pow2_S, Nat2N.inj_add, N.pow_add_r.
  replace (2 * (2 ^ N.of_nat j * 2 ^ N.of_nat m)) with (2 * 2 ^ N.of_nat j * 2 ^ N.of_nat m) by ring.
  rewrite am_mod_split; [ring | lia | apply pow2_pos].
Qed.

(* the part after ZeroPad and truncation of the operands to len(z) *)
Lemma okp_am_core t xt yt z :
  length yt = length xt -> (1 <= length xt)%nat -> (length xt <= length z)%nat ->
  okp t (if Nat.eqb (length xt) 1 then
           emit AND (nth 0 xt 0) (nth 0 yt 0) (nth 0 z 0);;
           zero_tail z 1
         else
           emit AND (nth 0 xt 0) (nth 0 yt 0) (nth 0 z 0);;
           sums <- am_row0 (tl xt) (nth 0 yt 0);;
           let j := (length yt - 1)%nat in
           sums <- am_layers xt (firstn (j - 1) (tl yt)) (tl z) sums;;
           am_final true xt (nth j yt 0) sums (skipn j z) 0;;
           zero_tail z (j + length xt + 1))
      (fun z' => length z' = length z)
      (fun z' e => valN e z' = (valN e xt * valN e yt) mod 2 ^ N.of_nat (length z)).
Proof.
  intros Hy Hx1 Hxz.
  destruct (Nat.eqb (length xt) 1) eqn:E1.
  - apply Nat.eqb_eq in E1.
    destruct xt as [|x0 [|x1 xr]]; try discriminate.
    destruct yt as [|y0 [|y1 yr]]; try discriminate.
    destruct z as [|z0 z]; [cbn in Hxz; lia|]. cbn [nth].
    ostep okm_emit. cbn [gsem].
    eapply okp_weaken; [apply okp_zero_tail_val | auto | ].
    cbv beta. intros z' e _ Hv H0.
    rewrite Hv. cbn [firstn]. rewrite !valN_cons, !valN_nil, H0.
    cbn [length]. rewrite pow2_S. pose proof (pow2_pos (length z)).
    rewrite N.mod_small; destruct (e x0), (e y0); cbn [andb N.b2n]; lia.
  - apply Nat.eqb_neq in E1.
    destruct xt as [|x0 [|x1 xr]]; [cbn in Hx1; lia | cbn in E1; lia |].
    destruct yt as [|y0 ytl]; [discriminate|].
    destruct z as [|z0 ztl]; [cbn in Hxz; lia|].
    cbn [nth tl]. cbv zeta.
    replace (length (y0 :: ytl) - 1)%nat with (S (length xr)). 2:{ cbn in *. lia. }
    replace (S (length xr) - 1)%nat with (length xr) by lia.
    replace (S (length xr) + length (x0 :: x1 :: xr) + 1)%nat
      with (S (length xr + (length (x0 :: x1 :: xr) + 1))) by (cbn [length]; lia).
    cbn [skipn nth].
    assert (Lytl : length ytl = S (length xr)) by (cbn in *; lia).
    assert (Lztl : (S (length xr) <= length ztl)%nat) by (cbn in *; lia).
    ostep okm_emit. cbn [gsem].
    eapply okp_bind; [apply okp_am_row0|]. intros s0 Ls0. cbv beta.
    eapply okp_bind; [apply okp_am_layers; [cbn in *; lia | cbn in *; lia | rewrite firstn_length; unfold wire in *; lia]|].
    intros a1 La1. cbv beta.
    eapply okp_bind; [apply okp_of_okm, okm_am_final_top; [unfold wire in *; lia | unfold wire in *; cbn in *; lia | rewrite skipn_length; unfold wire in *; lia]|].
    intros u _. cbv beta.
    eapply okp_weaken; [apply okp_zero_tail_val | auto | ].
    cbv beta. intros z' e _ Hv F Ls R0 Z0.
    rewrite Hv. cbn [firstn]. rewrite firstn_add.
    unfold wire in *. set (j := length xr) in *.
    rewrite firstn_length_le in Ls by lia.
    set (ZF := firstn (length (x0 :: x1 :: xr) + 1) (skipn j ztl)) in *.
    assert (Lm : length ZF = Nat.min (j + 3) (length ztl - j)).
    { unfold ZF. rewrite firstn_length, skipn_length. cbn [length]. fold j. lia. }
    rewrite valN_cons, valN_app, firstn_length_le, F, Z0 by lia.
    apply am_core_arith with (k := (S (S j) + S (S j))%nat).
    + apply b2n_le1.
    + apply valN_pow_le. rewrite firstn_length. lia.
    + rewrite (valN_cons e y0), (valN_split_last e j ytl Lytl), (valN_cons e x0) in *.
      rewrite am_b2n_and. unfold wire in *. lia.
    + apply mul_pow_lt; [apply (valN_lt e (x0 :: x1 :: xr)) | apply valN_pow_le; cbn [length]; unfold wire in *; lia].
    + cbn [length]. lia.
Qed.

Theorem okp_array_multiplier_gen t x y z :
  (1 <= Nat.max (length x) (length y))%nat -> (1 <= length z)%nat ->
  okp t (array_multiplier x y z)
      (fun z' => length z' = length z)
      (fun z' e => valN e z' = (valN e x * valN e y) mod 2 ^ N.of_nat (length z)).
Proof.
  intros Hn Hz1. unfold array_multiplier.
  eapply okp_bind; [apply okp_zero_pad_val|]. intros [x' y'] [Lx Ly]. cbn [fst snd] in *. cbv zeta.
  eapply okp_weaken.
  - apply (okp_am_core t (firstn (length z) x') (firstn (length z) y') z);
      rewrite !firstn_length; unfold wire in *; lia.
  - auto.
  - cbv beta. intros z' e _ Hv [Vx Vy].
    rewrite Hv, !valN_firstn, Vx, Vy.
    rewrite <- N.mul_mod by (apply N.pow_nonzero; discriminate). reflexivity.
Qed.

Theorem okm_array_multiplier_gen t x y z :
  (1 <= Nat.max (length x) (length y))%nat -> (1 <= length z)%nat ->
  okm t (array_multiplier x y z)
      (fun z' e => length z' = length z /\
                   valN e z' = (valN e x * valN e y) mod 2 ^ N.of_nat (length z)).
Proof. intros Hn Hz1. apply okm_of_okp, okp_array_multiplier_gen; assumption. Qed.

Theorem okm_array_multiplier t x y z :
  length x = length y -> (1 <= length x)%nat -> (1 <= length z)%nat ->
  okm t (array_multiplier x y z)
      (fun z' e => length z' = length z /\
                   valN e z' = (valN e x * valN e y) mod 2 ^ N.of_nat (length z)).
Proof.
  intros Hxy Hx Hz1. apply okm_array_multiplier_gen; rewrite <- ?Hxy, ?Nat.max_id; assumption.
Qed.

Corollary okm_array_multiplier_full t x y z :
  length x = length y -> (1 <= length x)%nat -> (2 * length x <= length z)%nat ->
  okm t (array_multiplier x y z)
      (fun z' e => length z' = length z /\ valN e z' = valN e x * valN e y).
Proof.
  intros Hxy Hx Hz. eapply okm_weaken; [apply okm_array_multiplier; try assumption; lia|].
  cbv beta. intros z' e [Hl Hv]. split; [exact Hl|]. rewrite Hv. apply N.mod_small.
  eapply N.lt_le_trans; [apply (mul_pow_lt _ _ (length x)); apply valN_pow_le; lia|].
  apply N.pow_le_mono_r; lia.
Qed.

Corollary okm_array_multiplier_1bit t x0 y0 z :
  (1 <= length z)%nat ->
  okm t (array_multiplier [x0] [y0] z)
      (fun z' e => length z' = length z /\ valN e z' = N.b2n (e x0 && e y0)).
Proof.
  intros H1. eapply okm_weaken; [apply (okm_array_multiplier t [x0] [y0] z); cbn; auto; lia|].
  cbv beta. intros z' e [Hl Hv]. split; [exact Hl|]. rewrite Hv, !valN_cons, !valN_nil.
  destruct z as [|z0 z]; [cbn in H1; lia|]. cbn [length]. rewrite pow2_S.
  pose proof (pow2_pos (length z)).
  rewrite N.mod_small; destruct (e x0), (e y0); cbn [andb N.b2n]; lia.
Qed.

Definition am_bits (k : nat) (v : N) : list bool :=
  map (fun i => N.testbit v (N.of_nat i)) (seq 0 k).

Definition am_run (n l : nat) (a b : N) : N * N :=
  let x := map N.of_nat (seq 0 n) in
  let y := map N.of_nat (seq n n) in
  let z := map N.of_nat (seq (2 * n) l) in
  let '(z', s) := array_multiplier x y z (st0 (N.of_nat (2 * n + l)) false) in
  let e0 := fun w => if N.ltb w (N.of_nat n) then N.testbit a w
                     else N.testbit b (w - N.of_nat n) in
  let e := eval_rev (gates s) e0 in
  (valN e z', (a * b) mod 2 ^ N.of_nat l).

Definition am_check (n l : nat) : bool :=
  forallb (fun a => forallb (fun b => let '(u, v) := am_run n l (N.of_nat a) (N.of_nat b) in N.eqb u v)
                            (seq 0 (2 ^ n))) (seq 0 (2 ^ n)).

Lemma am_check_ok n l :
  (1 <= n)%nat -> (1 <= l)%nat ->
  wfc_fast (N.of_nat (2 * n))
           (gates (snd (array_multiplier (map N.of_nat (seq 0 n)) (map N.of_nat (seq n n))
                                      (map N.of_nat (seq (2 * n) l)) (st0 (N.of_nat (2 * n + l)) false)))) = true ->
  am_check n l = true.
Proof.
  intros Hn Hl. apply (mul_check_ok false array_multiplier), okm_array_multiplier_gen;
    rewrite ?map_length, ?seq_length; lia.
Qed.

Example am_check_3 : forallb (am_check 3) [1; 2; 3; 4; 5; 6]%nat = true.
Proof. checks_by am_check_ok. Qed.
Example am_check_1 : forallb (am_check 1) [1; 2]%nat = true.
Proof. checks_by am_check_ok. Qed.
Example am_check_2 : forallb (am_check 2) [1; 2; 3; 4]%nat = true.
Proof. checks_by am_check_ok. Qed.
Example am_check_4 : forallb (am_check 4) [1; 3; 4; 5; 7; 8]%nat = true.
Proof. checks_by am_check_ok. Qed.
(* result wider than twice the operand width: the tail is zero wires *)
Example am_check_wide : (am_check 1 3 && am_check 1 5 && am_check 2 5 && am_check 2 7
                         && am_check 3 7 && am_check 3 9)%bool = true.
Proof. checks_by am_check_ok. Qed.
