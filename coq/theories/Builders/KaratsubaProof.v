(* C07: NewKaratsubaMultiplier (Yao target) computes
   (a * b) mod 2^(result width) for every operand width and every result width
   (no upper bound), when the recursion limit is at least 3. *)
From Coq Require Import NArith List Bool Arith Lia.
From Mpc Require Import Builders.Emit Builders.EmitProof Builders.EvalFastProof Builders.Adder Builders.AdderProof
  Builders.SubProof Builders.Mult Builders.MultProof Gen.Thresholds.
Import ListNotations.
Open Scope N_scope.

Lemma zero_tail_length z k s : length (fst (zero_tail z k s)) = length z.
Proof.
  unfold zero_tail. destruct (Nat.ltb_spec k (length z)) as [E|E]; [|reflexivity].
  unfold bind. destruct (zero_wire s) as [zw s1]. cbn [ret fst].
  rewrite app_length, firstn_length, repeat_length. lia.
Qed.

(* unlike AdderProof.okp_new_adder_yao, in every state, well-formed or not *)
Lemma lenp_new_adder_yao x y z :
  forall s, gmw s = false -> length (fst (new_adder x y z s)) = length z.
Proof.
  intros s G. unfold new_adder, ripple_adder, bind, target_gmw. rewrite G.
  destruct (zero_pad x y s) as [[x' y'] s1]. cbv zeta.
  match goal with |- context [let (_, _) := ?m s1 in _] => destruct (m s1) as [u s2] end.
  apply zero_tail_length.
Qed.

Lemma set_nth_length {A} (v : A) : forall l i, length (set_nth l i v) = length l.
Proof. induction l as [|a l IH]; intros [|i]; cbn; auto. Qed.

Lemma shl_len (z : wire) (w : list wire) size count :
  (count <= size)%nat ->
  length (firstn size (repeat z count ++ firstn (size - count) w ++
                       repeat z (size - count - length (firstn (size - count) w)))) = size.
Proof.
  intros Hc. rewrite firstn_length, !app_length, !repeat_length, !firstn_length. lia.
Qed.

Lemma shl_val e (z : wire) (w : list wire) size count :
  (count <= size)%nat ->
  ((0 < count)%nat \/ (count + length w < size)%nat -> e z = false) ->
  valN e (firstn size (repeat z count ++ firstn (size - count) w ++
                       repeat z (size - count - length (firstn (size - count) w))))
  = (valN e w * 2 ^ N.of_nat count) mod 2 ^ N.of_nat size.
Proof.
  intros Hc Hz.
  rewrite firstn_all2 by (rewrite !app_length, !repeat_length, !firstn_length; lia).
  rewrite !valN_app, !repeat_length.
  assert (A1 : valN e (repeat z count) = 0).
  { destruct count; [reflexivity|]. apply valN_repeat0, Hz. lia. }
  assert (A2 : valN e (repeat z (size - count - length (firstn (size - count) w))) = 0).
  { destruct (size - count - length (firstn (size - count) w))%nat eqn:EK; [reflexivity|].
    apply valN_repeat0, Hz. rewrite firstn_length in EK. lia. }
  rewrite A1, A2, valN_firstn.
  replace (2 ^ N.of_nat size) with (2 ^ N.of_nat count * 2 ^ N.of_nat (size - count))
    by (rewrite <- N.pow_add_r; f_equal; lia).
  rewrite (N.mul_comm (valN e w)), N.mul_mod_distr_l by (apply N.pow_nonzero; discriminate).
  lia.
Qed.

Theorem okp_shift_left t w size count :
  (count <= size)%nat ->
  okp t (shift_left w size count)
      (fun r => length r = size)
      (fun r e => valN e r = (valN e w * 2 ^ N.of_nat count) mod 2 ^ N.of_nat size).
Proof.
  intros Hc. unfold shift_left. cbv zeta.
  destruct (Nat.ltb 0 count || Nat.ltb (count + length w) size) eqn:E.
  - eapply okp_bind; [apply okp_of_okm, okm_zero | intros z _; cbv beta].
    apply okp_ret; [apply shl_len; exact Hc|].
    intros e Hz. apply shl_val; auto.
  - apply orb_false_iff in E. destruct E as [E1 E2].
    apply Nat.ltb_ge in E1, E2.
    apply okp_ret; [apply shl_len; exact Hc|].
    intros e. apply shl_val; [exact Hc|]. intros [H|H]; lia.
Qed.

Lemma eqm_add R a a' b b' : R <> 0 ->
  a mod R = a' mod R -> b mod R = b' mod R -> (a + b) mod R = (a' + b') mod R.
Proof. intros HR H1 H2. rewrite (N.add_mod a b), (N.add_mod a' b'), H1, H2 by exact HR. reflexivity. Qed.

Lemma eqm_mul R a a' b : R <> 0 ->
  a mod R = a' mod R -> (a * b) mod R = (a' * b) mod R.
Proof. intros HR H1. rewrite (N.mul_mod a b), (N.mul_mod a' b), H1 by exact HR. reflexivity. Qed.

Lemma mod_add_cancel R a b c : R <> 0 ->
  (a + c) mod R = (b + c) mod R -> a mod R = b mod R.
Proof.
  intros HR H.
  assert (K : forall u, (u + c + (R - c mod R)) mod R = u mod R).
  { intros u. pose proof (N.div_mod' c R) as D. pose proof (N.mod_lt c R HR) as L.
    replace (u + c + (R - c mod R)) with (u + (1 + c / R) * R) by lia.
    apply N.mod_add; exact HR. }
  rewrite <- (K a), <- (K b).
  rewrite <- (N.add_mod_idemp_l (a + c)), H, N.add_mod_idemp_l by exact HR. reflexivity.
Qed.

Lemma sub_spec_add R x y s : R <> 0 ->
  s = (x + R - y mod R) mod R -> (s + y) mod R = x mod R.
Proof.
  intros HR ->. rewrite N.add_mod_idemp_l by exact HR.
  pose proof (N.div_mod' y R) as D. pose proof (N.mod_lt y R HR) as L.
  replace (x + R - y mod R + y) with (x + (1 + y / R) * R) by lia.
  apply N.mod_add; exact HR.
Qed.

Lemma ks_algebra R T Al Ah Bl Bh z0 z1 z2 sub1 sub2 :
  R <> 0 ->
  z0 mod R = (Al * Bl) mod R ->
  z1 mod R = ((Al + Ah) * (Bl + Bh)) mod R ->
  z2 mod R = (Ah * Bh) mod R ->
  sub1 = (z1 + R - z2 mod R) mod R ->
  sub2 = (sub1 + R - z0 mod R) mod R ->
  (((z2 * (T * T)) mod R + (sub2 * T) mod R) mod R + z0) mod R
  = ((Al + T * Ah) * (Bl + T * Bh)) mod R.
Proof.
  intros HR H0 H1 H2 S1 S2.
  apply sub_spec_add in S1; [|exact HR]. apply sub_spec_add in S2; [|exact HR].
  set (X := Al * Bh + Ah * Bl).
  assert (HX : sub2 mod R = X mod R).
  { apply mod_add_cancel with (c := z0 + z2); [exact HR|].
    transitivity (z1 mod R).
    - replace (sub2 + (z0 + z2)) with ((sub2 + z0) + z2) by lia.
      rewrite <- N.add_mod_idemp_l, S2, N.add_mod_idemp_l by exact HR. exact S1.
    - rewrite H1. replace ((Al + Ah) * (Bl + Bh)) with (X + (Al * Bl + Ah * Bh)) by (unfold X; ring).
      apply eqm_add; [exact HR | reflexivity |]. apply eqm_add; auto. }
  rewrite <- (N.add_mod (z2 * (T * T)) (sub2 * T)) by exact HR.
  rewrite N.add_mod_idemp_l by exact HR.
  replace ((Al + T * Ah) * (Bl + T * Bh)) with (Ah * Bh * (T * T) + X * T + Al * Bl) by (unfold X; ring).
  apply eqm_add; [exact HR | | exact H0].
  apply eqm_add; [exact HR | |]; apply eqm_mul; assumption.
Qed.

Lemma ks_trunc P m lr :
  P < 2 ^ N.of_nat m ->
  (P mod 2 ^ N.of_nat (Nat.min m lr)) mod 2 ^ N.of_nat lr = P mod 2 ^ N.of_nat lr.
Proof.
  intros HP. rewrite (mod_pow_min P m lr HP). apply N.mod_mod, N.pow_nonzero. discriminate.
Qed.

Lemma ks_prod_lt a b m : a < 2 ^ N.of_nat m -> b < 2 ^ N.of_nat m -> a * b < 2 ^ N.of_nat (m * 2).
Proof. replace (m * 2)%nat with (m + m)%nat by lia. apply mul_pow_lt. Qed.

Lemma ks_sum_lt a b m : a < 2 ^ N.of_nat m -> b < 2 ^ N.of_nat m -> a + b < 2 ^ N.of_nat (m + 1).
Proof. intros Ha Hb. rewrite Nat.add_1_r, pow2_S. lia. Qed.

(* The operands are Al + 2^mid * Ah and
   Bl + 2^mid * Bh; every intermediate result is known only through the width it
   was truncated to, and the first subtraction is specified only when its result
   is at most one bit wider than its operands or there is no borrow. *)
Lemma ks_recombine lr mid h Al Ah Bl Bh aS bS z0 z1 z2 s1 s2 :
  let R := 2 ^ N.of_nat lr in
  (mid <= h)%nat ->
  Al < 2 ^ N.of_nat mid -> Bl < 2 ^ N.of_nat mid -> Ah < 2 ^ N.of_nat h -> Bh < 2 ^ N.of_nat h ->
  aS = (Al + Ah) mod 2 ^ N.of_nat (h + 1) ->
  bS = (Bl + Bh) mod 2 ^ N.of_nat (h + 1) ->
  z0 = (Al * Bl) mod 2 ^ N.of_nat (Nat.min (mid * 2) lr) ->
  z1 = (aS * bS) mod 2 ^ N.of_nat (Nat.min ((h + 1) * 2) lr) ->
  z2 = (Ah * Bh) mod 2 ^ N.of_nat (Nat.min (h * 2) lr) ->
  ((lr <= Nat.min ((h + 1) * 2) lr + 1)%nat \/ z2 <= z1 -> s1 = (z1 + R - z2 mod R) mod R) ->
  s2 = (s1 + R - z0 mod R) mod R ->
  (((z2 * 2 ^ N.of_nat (mid * 2)) mod R + (s2 * 2 ^ N.of_nat mid) mod R) mod R + z0) mod R
  = ((Al + 2 ^ N.of_nat mid * Ah) * (Bl + 2 ^ N.of_nat mid * Bh)) mod R.
Proof.
  intros R Hh HAl HBl HAh HBh EaS EbS E0 E1 E2 S1 S2.
  assert (HR : R <> 0) by (apply N.pow_nonzero; discriminate).
  assert (HAl' : Al < 2 ^ N.of_nat h) by (eapply N.lt_le_trans; [exact HAl | apply N.pow_le_mono_r; lia]).
  assert (HBl' : Bl < 2 ^ N.of_nat h) by (eapply N.lt_le_trans; [exact HBl | apply N.pow_le_mono_r; lia]).
  (* the operand sums are exact *)
  rewrite N.mod_small in EaS, EbS by (apply ks_sum_lt; assumption). subst aS bS.
  assert (HS : (Al + Ah) * (Bl + Bh) < 2 ^ N.of_nat ((h + 1) * 2))
    by (apply ks_prod_lt; apply ks_sum_lt; assumption).
  assert (M0 : z0 mod R = (Al * Bl) mod R) by (rewrite E0; apply ks_trunc, ks_prod_lt; assumption).
  assert (M1 : z1 mod R = ((Al + Ah) * (Bl + Bh)) mod R) by (rewrite E1; apply ks_trunc, HS).
  assert (M2 : z2 mod R = (Ah * Bh) mod R) by (rewrite E2; apply ks_trunc, ks_prod_lt; assumption).
  assert (C1 : s1 = (z1 + R - z2 mod R) mod R).
  { apply S1. destruct (le_lt_dec lr (Nat.min ((h + 1) * 2) lr + 1)) as [Hc|Hc]; [left; exact Hc | right].
    (* z1 and z2 are narrower than the result, hence exact, and z2 <= z1 *)
    rewrite E1, E2, !Nat.min_l by lia.
    rewrite !N.mod_small by (exact HS || (apply ks_prod_lt; assumption)).
    apply N.mul_le_mono; apply N.le_add_l. }
  replace (2 ^ N.of_nat (mid * 2)) with (2 ^ N.of_nat mid * 2 ^ N.of_nat mid)
    by (rewrite <- N.pow_add_r; f_equal; lia).
  apply ks_algebra with (z1 := z1) (sub1 := s1); assumption.
Qed.

Ltac slia := unfold wire in *; lia.

Theorem okp_karatsuba : forall fuel limit a b r,
  (3 <= limit)%nat ->
  (S (Nat.max (length a) (length b)) <= fuel)%nat ->
  (1 <= Nat.max (length a) (length b))%nat ->
  (1 <= length r)%nat ->
  okp false (karatsuba fuel limit a b r)
      (fun r' => length r' = length r)
      (fun r' e => valN e r' = (valN e a * valN e b) mod 2 ^ N.of_nat (length r)).
Proof.
  induction fuel as [|f IH]; intros limit a b r HL HF HM HR1; [lia|].
  cbn [karatsuba].
  eapply okp_bind; [apply okp_zero_pad_val|]. intros [a' b'] [La Lb]. cbn [fst snd] in *. cbv zeta.
  remember (firstn (length r) a') as a2 eqn:Ea2.
  remember (firstn (length r) b') as b2 eqn:Eb2.
  assert (La2 : length a2 = Nat.min (length r) (Nat.max (length a) (length b))).
  { subst a2. rewrite firstn_length. lia. }
  assert (Lb2 : length b2 = length a2).
  { subst b2. rewrite firstn_length. lia. }
  assert (Va2 : forall e, valN e a' = valN e a -> valN e a2 = valN e a mod 2 ^ N.of_nat (length r)).
  { intros e Z. rewrite Ea2, valN_firstn, Z. reflexivity. }
  assert (Vb2 : forall e, valN e b' = valN e b -> valN e b2 = valN e b mod 2 ^ N.of_nat (length r)).
  { intros e Z. rewrite Eb2, valN_firstn, Z. reflexivity. }
  assert (HRnz : 2 ^ N.of_nat (length r) <> 0) by (apply N.pow_nonzero; discriminate).
  clear Ea2 Eb2 La Lb.
  destruct (Nat.leb (length a2) limit) eqn:EL.
  - eapply okp_weaken; [apply okp_array_multiplier_gen; unfold wire in *; lia | auto | ].
    cbv beta. intros r' e _ Hv [Za Zb].
    rewrite Hv, (Va2 e Za), (Vb2 e Zb), <- N.mul_mod by exact HRnz. reflexivity.
  - apply Nat.leb_gt in EL.
    remember (length a2) as n eqn:En.
    assert (Hmid : (2 * (n / 2) <= n /\ n <= 2 * (n / 2) + 1)%nat).
    { pose proof (Nat.div_mod n 2). pose proof (Nat.mod_upper_bound n 2). lia. }
    remember (n / 2)%nat as mid eqn:Emid. clear Emid.
    remember (firstn mid a2) as aLow eqn:EaL. remember (skipn mid a2) as aHigh eqn:EaH.
    remember (firstn mid b2) as bLow eqn:EbL. remember (skipn mid b2) as bHigh eqn:EbH.
    assert (LaL : length aLow = mid) by (subst aLow; rewrite firstn_length; lia).
    assert (LbL : length bLow = mid) by (subst bLow; rewrite firstn_length; lia).
    assert (LaH : length aHigh = (n - mid)%nat) by (subst aHigh; rewrite skipn_length; lia).
    assert (LbH : length bHigh = (n - mid)%nat) by (subst bHigh; rewrite skipn_length; lia).
    assert (Sa2 : forall e, valN e a2 = valN e aLow + 2 ^ N.of_nat mid * valN e aHigh).
    { intros e. rewrite <- (firstn_skipn mid a2), valN_app, <- EaL, <- EaH, LaL. reflexivity. }
    assert (Sb2 : forall e, valN e b2 = valN e bLow + 2 ^ N.of_nat mid * valN e bHigh).
    { intros e. rewrite <- (firstn_skipn mid b2), valN_app, <- EbL, <- EbH, LbL. reflexivity. }
    clear EaL EaH EbL EbH.
    remember (n - mid)%nat as h eqn:Eh.
    assert (Hh : (n = mid + h)%nat /\ (mid <= h <= mid + 1)%nat) by lia.
    assert (Hmax : Nat.max mid h = h) by lia.
    assert (Hnr : (n <= length r)%nat) by lia.
    assert (Hnf : (n <= f)%nat) by lia.
    clear Eh Hmid La2 HF HM En Lb2.
    rewrite ?LaL, ?LbL, ?LaH, ?LbH. rewrite ?Nat.max_id, ?Hmax, ?Nat.max_id.
    (* z0 = aLow * bLow *)
    eapply okp_bind; [apply okp_fresh_n|]. intros z0w Lz0w. cbv beta.
    eapply okp_bind; [apply (IH limit aLow bLow z0w); slia|]. intros z0 Lz0. cbv beta.
    (* aSum, bSum *)
    eapply okp_bind; [apply okp_fresh_n|]. intros aSw LaSw. cbv beta.
    eapply okp_bind; [apply (okp_new_adder_yao aLow aHigh aSw); slia|]. intros aS LaS. cbv beta.
    eapply okp_bind; [apply okp_fresh_n|]. intros bSw LbSw. cbv beta.
    eapply okp_bind; [apply (okp_new_adder_yao bLow bHigh bSw); slia|]. intros bS LbS. cbv beta.
    (* z1 = aSum * bSum *)
    eapply okp_bind; [apply okp_fresh_n|]. intros z1w Lz1w. cbv beta.
    eapply okp_bind; [apply (IH limit aS bS z1w); slia|]. intros z1 Lz1. cbv beta.
    (* z2 = aHigh * bHigh *)
    eapply okp_bind; [apply okp_fresh_n|]. intros z2w Lz2w. cbv beta.
    eapply okp_bind; [apply (IH limit aHigh bHigh z2w); slia|]. intros z2 Lz2. cbv beta.
    clear IH.
    (* sub1 = z1 - z2, sub2 = sub1 - z0 *)
    eapply okp_bind; [apply okp_fresh_n|]. intros s1w Ls1w. cbv beta.
    eapply okp_bind; [apply (okp_new_subtractor_yao_any z1 z2 s1w); slia|]. intros s1 Ls1. cbv beta.
    eapply okp_bind; [apply okp_fresh_n|]. intros s2w Ls2w. cbv beta.
    eapply okp_bind; [apply (okp_new_subtractor_yao_any s1 z0 s2w); slia|]. intros s2 Ls2. cbv beta.
    (* shifts and final additions *)
    eapply okp_bind; [apply okp_shift_left; slia|]. intros sh1 Lsh1. cbv beta.
    eapply okp_bind; [apply okp_shift_left; slia|]. intros sh2 Lsh2. cbv beta.
    eapply okp_bind; [apply okp_fresh_n|]. intros a1w La1w. cbv beta.
    eapply okp_bind; [apply (okp_new_adder_yao sh1 sh2 a1w); slia|]. intros a1 La1. cbv beta.
    eapply okp_weaken; [apply (okp_new_adder_yao a1 z0 r); slia | auto | ].
    cbv beta. intros r' e _ Hfin Ha1 _ Hsh2 Hsh1 Hs2 _ Hs1 _ Hz2 _ Hz1 _ HbS _ HaS _ Hz0 _ [Za Zb].
    cbv beta in *.
    rewrite Hfin, Ha1, Hsh1, Hsh2, La1w.
    rewrite (N.mul_mod (valN e a) (valN e b)), <- (Va2 e Za), <- (Vb2 e Zb), Sa2, Sb2 by exact HRnz.
    apply (ks_recombine (length r) mid h _ _ _ _ (valN e aS) (valN e bS) _ (valN e z1) _ (valN e s1));
      try (apply valN_pow_le; slia).
    + slia.
    + rewrite <- LaSw. exact HaS.
    + rewrite <- LbSw. exact HbS.
    + rewrite <- Lz0w. exact Hz0.
    + rewrite <- Lz1w. exact Hz1.
    + rewrite <- Lz2w. exact Hz2.
    + rewrite <- Ls1w. intros [Hc|Hc]; apply Hs1; [left; clear - Hc Ls1w Lz1 Lz1w; slia | right; exact Hc].
    + rewrite <- Ls2w. apply Hs2. left. clear - Ls2w Ls1 Ls1w. slia.
Qed.

Theorem okm_karatsuba : forall fuel limit a b r,
  (3 <= limit)%nat ->
  (S (Nat.max (length a) (length b)) <= fuel)%nat ->
  (1 <= Nat.max (length a) (length b))%nat ->
  (1 <= length r)%nat ->
  okm false (karatsuba fuel limit a b r)
      (fun r' e => length r' = length r /\
                   valN e r' = (valN e a * valN e b) mod 2 ^ N.of_nat (length r)).
Proof. intros. apply okm_of_okp, okp_karatsuba; assumption. Qed.

Corollary okp_new_multiplier_yao tbl thr x y z :
  (forall k v, lookup_threshold tbl k = Some v -> (3 <= v)%nat) ->
  (1 <= Nat.max (length x) (length y))%nat ->
  (1 <= length z)%nat ->
  okp false (new_multiplier tbl thr x y z)
      (fun z' => length z' = length z)
      (fun z' e => valN e z' = (valN e x * valN e y) mod 2 ^ N.of_nat (length z)).
Proof.
  intros Htbl Hm Hz1. apply okp_dispatch.
  apply okp_karatsuba; try assumption; [|lia].
  destruct (Nat.ltb thr 8) eqn:E.
  - destruct (lookup_threshold tbl (length x)) as [v|] eqn:EL; [eapply Htbl; exact EL | lia].
  - apply Nat.ltb_ge in E. lia.
Qed.

Corollary okm_new_multiplier_yao tbl thr x y z :
  (forall k v, lookup_threshold tbl k = Some v -> (3 <= v)%nat) ->
  (1 <= Nat.max (length x) (length y))%nat ->
  (1 <= length z)%nat ->
  okm false (new_multiplier tbl thr x y z)
      (fun z' e => length z' = length z /\
                   valN e z' = (valN e x * valN e y) mod 2 ^ N.of_nat (length z)).
Proof. intros. apply okm_of_okp, okp_new_multiplier_yao; assumption. Qed.

Lemma lookup_threshold_ge tbl c :
  forallb (fun p => Nat.leb c (snd p)) tbl = true ->
  forall k v, lookup_threshold tbl k = Some v -> (c <= v)%nat.
Proof.
  intros H k v. unfold lookup_threshold.
  destruct (find (fun p => Nat.eqb (fst p) k) tbl) as [p|] eqn:E; [|discriminate].
  intros Hv. inversion Hv; subst v. apply find_some in E. destruct E as [Hin _].
  rewrite forallb_forall in H. apply Nat.leb_le. apply (H p Hin).
Qed.

(* the table generated from circ_multiplier_params.go: every entry is >= 3, as okp_karatsuba asks of the limit *)
Lemma thresholds_ge_3 :
  forall k v, lookup_threshold Mpc.Gen.Thresholds.multiplierArrayTresholds k = Some v -> (3 <= v)%nat.
Proof. apply lookup_threshold_ge. vm_compute. reflexivity. Qed.

Corollary okm_new_multiplier_yao_shipped thr x y z :
  (1 <= Nat.max (length x) (length y))%nat ->
  (1 <= length z)%nat ->
  okm false (new_multiplier Mpc.Gen.Thresholds.multiplierArrayTresholds thr x y z)
      (fun z' e => length z' = length z /\
                   valN e z' = (valN e x * valN e y) mod 2 ^ N.of_nat (length z)).
Proof. intros. apply okm_new_multiplier_yao; try assumption. apply thresholds_ge_3. Qed.

Definition ka_run (limit n l : nat) (a b : N) : N * N :=
  let x := map N.of_nat (seq 0 n) in
  let y := map N.of_nat (seq n n) in
  let z := map N.of_nat (seq (2 * n) l) in
  let '(z', s) := karatsuba (S n) limit x y z (st0 (N.of_nat (2 * n + l)) false) in
  let e0 := fun w => if N.ltb w (N.of_nat n) then N.testbit a w
                     else N.testbit b (w - N.of_nat n) in
  let e := eval_rev (gates s) e0 in
  (valN e z', (a * b) mod 2 ^ N.of_nat l).

Definition ka_check (limit n l : nat) : bool :=
  forallb (fun a => forallb (fun b => let '(u, v) := ka_run limit n l (N.of_nat a) (N.of_nat b) in N.eqb u v)
                            (seq 0 (2 ^ n))) (seq 0 (2 ^ n)).

Section KaRun.
Variables limit n l : nat.
Hypothesis (Hlim : (3 <= limit)%nat) (Hn : (1 <= n)%nat) (Hl : (1 <= l)%nat).
Hypothesis wfc :
  wfc_fast (N.of_nat (2 * n))
           (gates (snd (karatsuba (S n) limit (map N.of_nat (seq 0 n)) (map N.of_nat (seq n n))
                               (map N.of_nat (seq (2 * n) l)) (st0 (N.of_nat (2 * n + l)) false)))) = true.

Lemma ka_check_ok : ka_check limit n l = true.
Proof.
  apply (mul_check_ok false (karatsuba (S n) limit)); [|exact wfc].
  apply okm_karatsuba; rewrite ?map_length, ?seq_length; lia.
Qed.

Lemma ka_spots_ok ps :
  forallb (fun p => N.ltb (fst p) (2 ^ N.of_nat n) && N.ltb (snd p) (2 ^ N.of_nat n)) ps = true ->
  forallb (fun p => let '(u, v) := ka_run limit n l (fst p) (snd p) in N.eqb u v) ps = true.
Proof.
  apply (mul_spots_ok false (karatsuba (S n) limit)); [|exact wfc].
  apply okm_karatsuba; rewrite ?map_length, ?seq_length; lia.
Qed.
End KaRun.

Ltac ka_side := try lia; vm_compute; reflexivity.

Example ka_check_4 : forallb (ka_check 3 4) [1; 5; 8]%nat = true.
Proof. cbn [forallb]. rewrite !ka_check_ok by ka_side. reflexivity. Qed.
(* two levels of recursion; the first subtraction is wider than its operands + 1 *)
Example ka_spot_8 :
  forallb (fun p => let '(u, v) := ka_run 3 8 16 (fst p) (snd p) in N.eqb u v)
          [(255, 255); (170, 85); (129, 254); (0, 77); (200, 3)] = true.
Proof. apply ka_spots_ok; ka_side. Qed.
Example ka_spot_9 :
  forallb (fun p => let '(u, v) := ka_run 4 9 13 (fst p) (snd p) in N.eqb u v)
          [(511, 511); (341, 170); (257, 510)] = true.
Proof. apply ka_spots_ok; ka_side. Qed.

(* result wider than twice the operand width *)
Example ka_spot_wide :
  (forallb (fun p => let '(u, v) := ka_run 3 5 14 (fst p) (snd p) in N.eqb u v)
           [(31, 31); (21, 10); (17, 30); (0, 13); (25, 3); (31, 1); (16, 16)]
   && ka_check 3 4 11)%bool = true.
Proof. rewrite ka_spots_ok, ka_check_ok by ka_side. reflexivity. Qed.
