(* C07 for the comparators of Cmp.v (circ_comparators.go), both targets.
   The unsigned and the (in)equality comparators: operands of any widths, the wider
   one of at least one wire (the shorter one is zero padded).  The signed
   comparators int_gt/ge/lt/le: operands of one common width n >= 1, read as two's
   complement numbers; the note before [sval] says why.  Logical AND/OR: one-wire
   operands.  The bit tests: every index (a position beyond the operand reads 0). *)
From Coq Require Import NArith ZArith List Bool Lia.
From Mpc Require Import Base.ListFacts Builders.Emit Builders.EmitProof
     Builders.MuxProof Builders.Cmp.
Import ListNotations.
Open Scope N_scope.

(* LSB first: every position where the operands differ overrides the running
   result, so the most significant differing bit decides *)
Fixpoint cmpb (c : bool) (x y : list bool) : bool :=
  match x, y with
  | xi :: x', yi :: y' => cmpb (if eqb xi yi then c else xi) x' y'
  | _, _ => c
  end.

(* w1 = XNOR cin y_i; w2 = XOR cin x_i; w3 = AND w1 w2; cout = XOR cin w3 *)
Lemma cmp_bit c xi yi :
  xorb c (negb (xorb c yi) && xorb c xi) = if eqb xi yi then c else xi.
Proof. destruct c, xi, yi; reflexivity. Qed.

Lemma eqb_double (b b' : bool) (X Y : N) :
  (N.b2n b + 2 * X =? N.b2n b' + 2 * Y) = eqb b b' && (X =? Y).
Proof.
  destruct (N.eqb_spec X Y), (N.eqb_spec (N.b2n b + 2 * X) (N.b2n b' + 2 * Y)), b, b';
    cbn [N.b2n eqb andb negb] in *; try reflexivity; lia.
Qed.

Lemma ltb_double (b b' : bool) (X Y : N) :
  (N.b2n b' + 2 * Y <? N.b2n b + 2 * X) = if X =? Y then b && negb b' else Y <? X.
Proof.
  destruct (N.eqb_spec X Y), (N.ltb_spec Y X),
           (N.ltb_spec (N.b2n b' + 2 * Y) (N.b2n b + 2 * X)), b, b';
    cbn [N.b2n eqb andb negb] in *; try reflexivity; lia.
Qed.

Lemma cmpb_spec : forall x y c, length x = length y ->
  cmpb c x y = if to_N x =? to_N y then c else to_N y <? to_N x.
Proof.
  induction x as [|xi x IH]; intros [|yi y] c L; try discriminate.
  - reflexivity.
  - cbn [cmpb to_N]. rewrite IH, eqb_double, ltb_double by (cbn in L; lia).
    destruct (to_N x =? to_N y); destruct xi, yi; reflexivity.
Qed.

(* the three gates every position starts with; XORing their output w3 with cin
   (on whatever wire) gives the carry out *)
Lemma okm_cmp_cell t cin xi yi {A} (k : wire -> M A) (Q : A -> env -> Prop) :
  (forall w3, okm t (k w3)
     (fun a e => xorb (e cin) (e w3) = (if eqb (e xi) (e yi) then e cin else e xi) -> Q a e)) ->
  okm t (w1 <- fresh;; emit XNOR cin yi w1;; w2 <- fresh;; emit XOR cin xi w2;;
         w3 <- fresh;; emit AND w1 w2 w3;; k w3) Q.
Proof.
  intros Hk. mstepn okm_fresh w1. mstepn okm_emit u1. mstepn okm_fresh w2. mstepn okm_emit u2.
  mstepn okm_fresh w3. mstepn okm_emit u3.
  eapply okm_weaken; [apply (Hk w3)|].
  cbn. intros a e H H3 _ H2 _ H1 _. apply H. rewrite H3, H2, H1. apply cmp_bit.
Qed.

Lemma okm_cmp_loop_bits t : forall x y cin last, length x = length y ->
  okm t (cmp_loop cin x y last)
      (fun w e => e w = cmpb (e cin) (map e x) (map e y) /\
                  (forall r0, last = Some r0 -> x <> [] -> w = r0)).
Proof.
  induction x as [|xi x IH]; intros [|yi y] cin last L; try discriminate.
  - cbn. apply okm_ret. intros e. split; [reflexivity|]. intros r0 _ H. congruence.
  - cbn [cmp_loop]. apply okm_cmp_cell. intros w3.
    (* unless this is the last position and r0 is given, the carry goes out on a
       fresh wire and the chain continues *)
    assert (Next : x <> [] \/ last = None ->
              okm t (cout <- fresh;; emit XOR cin w3 cout;; cmp_loop cout x y last)
                  (fun w e => xorb (e cin) (e w3) = (if eqb (e xi) (e yi) then e cin else e xi) ->
                              e w = cmpb (e cin) (map e (xi :: x)) (map e (yi :: y)) /\
                              (forall r0, last = Some r0 -> xi :: x <> [] -> w = r0))).
    { intros Hx. mstepn okm_fresh cout. mstepn okm_emit u.
      eapply okm_weaken; [apply IH; cbn in L; lia|].
      cbn. intros w e [H Hr] H4 _ H3. split.
      - rewrite H, H4, H3. reflexivity.
      - intros r0 Hl _. apply Hr; [exact Hl|]. destruct Hx; congruence. }
    destruct x as [|xj x]; [destruct last as [r0|]|].
    + destruct y; try discriminate.
      mstepn okm_emit u. apply okm_ret. cbn. intros e H4 H3. split.
      * rewrite H4, H3. reflexivity.
      * congruence.
    + apply Next. right. reflexivity.
    + apply Next. left. discriminate.
Qed.

Theorem okm_cmp_loop t x y cin last : length x = length y ->
  okm t (cmp_loop cin x y last)
      (fun w e => e w = if valN e x =? valN e y then e cin else valN e y <? valN e x).
Proof.
  intros L. eapply okm_weaken; [apply (okm_cmp_loop_bits t x y cin last L)|].
  cbn. intros w e [H _]. rewrite H. unfold valN. apply cmpb_spec. rewrite !map_length. exact L.
Qed.

Lemma cmp_gt_form (a b : N) : (if a =? b then false else b <? a) = (b <? a).
Proof. destruct (N.eqb_spec a b), (N.ltb_spec b a); try reflexivity; lia. Qed.
Lemma cmp_ge_form (a b : N) : (if a =? b then true else b <? a) = (b <=? a).
Proof. destruct (N.eqb_spec a b), (N.ltb_spec b a), (N.leb_spec b a); try reflexivity; lia. Qed.

Theorem okm_uint_comparator t cin x y r0 :
  (1 <= Nat.max (length x) (length y))%nat ->
  okm t (uint_comparator cin x y [r0])
      (fun _ e => e r0 = if valN e x =? valN e y then e cin else valN e y <? valN e x).
Proof.
  intros L1. unfold uint_comparator.
  eapply okm_bind_p; [apply okp_zero_pad_val|]. intros [x' y'] [Lx Ly]. cbn [fst snd] in *.
  cbn [nth].
  mstepn (okm_cmp_loop_bits t x' y' cin (Some r0) ltac:(lia)) w.
  apply okm_ret. intros e [H Hr] [<- <-].
  rewrite <- (Hr r0 eq_refl) by (destruct x'; [cbn in Lx; lia | discriminate]).
  rewrite H. unfold valN. apply cmpb_spec. rewrite !map_length. lia.
Qed.

Theorem okm_uint_gt t x y r0 :
  (1 <= Nat.max (length x) (length y))%nat ->
  okm t (uint_gt x y [r0]) (fun _ e => e r0 = (valN e y <? valN e x)).
Proof.
  intros L. unfold uint_gt. mstepn okm_zero c.
  eapply okm_weaken; [apply (okm_uint_comparator t c x y r0 L)|].
  cbn. intros _ e H Hc. rewrite H, Hc. apply cmp_gt_form.
Qed.

Theorem okm_uint_ge t x y r0 :
  (1 <= Nat.max (length x) (length y))%nat ->
  okm t (uint_ge x y [r0]) (fun _ e => e r0 = (valN e y <=? valN e x)).
Proof.
  intros L. unfold uint_ge. mstepn okm_one c.
  eapply okm_weaken; [apply (okm_uint_comparator t c x y r0 L)|].
  cbn. intros _ e H Hc. rewrite H, Hc. apply cmp_ge_form.
Qed.

Theorem okm_uint_lt t x y r0 :
  (1 <= Nat.max (length x) (length y))%nat ->
  okm t (uint_lt x y [r0]) (fun _ e => e r0 = (valN e x <? valN e y)).
Proof.
  intros L. apply (okm_uint_gt t y x r0). lia.
Qed.

Theorem okm_uint_le t x y r0 :
  (1 <= Nat.max (length x) (length y))%nat ->
  okm t (uint_le x y [r0]) (fun _ e => e r0 = (valN e x <=? valN e y)).
Proof.
  intros L. apply (okm_uint_ge t y x r0). lia.
Qed.

Fixpoint eqbits (x y : list bool) : bool :=
  match x, y with
  | xi :: x', yi :: y' => eqb xi yi && eqbits x' y'
  | _, _ => true
  end.

Lemma eqbits_spec : forall x y, length x = length y -> eqbits x y = (to_N x =? to_N y).
Proof.
  induction x as [|xi x IH]; intros [|yi y] L; try discriminate.
  - reflexivity.
  - cbn [eqbits to_N]. rewrite IH, eqb_double by (cbn in L; lia). reflexivity.
Qed.

Lemma xnor_eqb a b : negb (xorb a b) = eqb a b.
Proof. destruct a, b; reflexivity. Qed.

Lemma okp_eq_flags t : forall x y, length x = length y ->
  okp t (eq_flags x y) (fun fs => length fs = length x)
      (fun fs e => forallb e fs = eqbits (map e x) (map e y)).
Proof.
  induction x as [|xi x IH]; intros [|yi y] L; try discriminate.
  - cbn. apply okp_ret; auto.
  - cbn [eq_flags].
    ostep okm_fresh. ostep okm_emit.
    eapply okp_bind; [apply IH; cbn in L; lia|]. intros fs Hl. cbv beta.
    apply okp_ret.
    + cbn. congruence.
    + cbn. intros e H H1 _. rewrite H, H1, xnor_eqb. reflexivity.
Qed.

Lemma okp_eq_pairs t : forall n flags, (length flags <= n)%nat ->
  okp t (eq_pairs flags)
      (fun fs => (2 * length fs = length flags \/ 2 * length fs = S (length flags))%nat)
      (fun fs e => forallb e fs = forallb e flags).
Proof.
  induction n as [|n IH]; intros flags L.
  - destruct flags; [|cbn in L; lia]. cbn. apply okp_ret; auto.
  - destruct flags as [|a [|b rest]].
    + cbn. apply okp_ret; auto.
    + cbn. apply okp_ret; auto.
    + cbn [eq_pairs].
      ostep okm_fresh. ostep okm_emit.
      eapply okp_bind; [apply (IH rest); cbn in L; lia|]. intros fs Hl. cbv beta.
      apply okp_ret.
      * cbv beta in Hl. cbn [length]. lia.
      * cbn. intros e H H1 _. rewrite H, H1. symmetry. apply andb_assoc.
Qed.

Lemma okp_eq_reduce t : forall fuel flags,
  (2 <= length flags)%nat -> (length flags <= fuel)%nat ->
  okp t (eq_reduce fuel flags) (fun fs => length fs = 2%nat)
      (fun fs e => forallb e fs = forallb e flags).
Proof.
  induction fuel as [|fuel IH]; intros flags L2 Lf; [lia|].
  cbn [eq_reduce]. destruct (Nat.ltb 2 (length flags)) eqn:E.
  - apply Nat.ltb_lt in E.
    eapply okp_bind; [apply (okp_eq_pairs t (length flags) flags); lia|]. intros fl Hl. cbv beta in *.
    eapply okp_weaken; [apply (IH fl); lia| auto |].
    cbn. intros fs e _ H H1. congruence.
  - apply Nat.ltb_ge in E. apply okp_ret; [lia | reflexivity].
Qed.

Theorem okm_eq_comparator t x y r0 :
  (1 <= Nat.max (length x) (length y))%nat ->
  okm t (eq_comparator x y [r0]) (fun _ e => e r0 = (valN e x =? valN e y)).
Proof.
  intros L1. unfold eq_comparator.
  eapply okm_bind_p; [apply okp_zero_pad_val|]. intros [x' y'] [Lx Ly]. cbn [fst snd] in *.
  cbn [nth]. destruct (Nat.eqb (length x') 1) eqn:E1.
  - apply Nat.eqb_eq in E1.
    destruct x' as [|x0 [|? ?]]; try discriminate.
    destruct y' as [|y0 [|? ?]]; try (cbn in *; lia).
    eapply okm_weaken; [apply okm_emit|].
    cbn. intros _ e H [<- <-]. rewrite H. destruct (e x0), (e y0); reflexivity.
  - apply Nat.eqb_neq in E1.
    eapply okm_bind_p; [apply (okp_eq_flags t x' y'); lia|]. intros fl Hfl. cbv beta in Hfl |- *.
    eapply okm_bind_p; [apply (okp_eq_reduce t (length fl) fl); lia|].
    intros fs Hfs. cbv beta in Hfs |- *.
    destruct fs as [|f0 [|f1 [|? ?]]]; try discriminate. cbn [nth].
    eapply okm_weaken; [apply okm_emit|].
    cbn. intros _ e H H2 H1 [<- <-]. rewrite H.
    rewrite andb_true_r in H2. rewrite H2, H1. unfold valN.
    apply eqbits_spec. rewrite !map_length. lia.
Qed.

Theorem okm_neq_comparator t x y r0 :
  (1 <= Nat.max (length x) (length y))%nat ->
  okm t (neq_comparator x y [r0]) (fun _ e => e r0 = negb (valN e x =? valN e y)).
Proof.
  intros L1. unfold neq_comparator. mstepn okm_fresh q.
  mstepn (okm_eq_comparator t x y q L1) u. cbn [nth].
  eapply okm_weaken; [apply okm_cc_inv|].
  cbn. intros _ e H H1 _. rewrite H, H1. reflexivity.
Qed.

Theorem okm_logical_and t x0 y0 r0 :
  okm t (logical_and [x0] [y0] [r0]) (fun _ e => e r0 = e x0 && e y0).
Proof. unfold logical_and. cbn [nth]. apply okm_emit. Qed.

Theorem okm_logical_or t x0 y0 r0 :
  okm t (logical_or [x0] [y0] [r0]) (fun _ e => e r0 = e x0 || e y0).
Proof. unfold logical_or. cbn [nth]. apply okm_cc_or. Qed.

Theorem okm_logical_and_N t x0 y0 r0 :
  okm t (logical_and [x0] [y0] [r0]) (fun _ e => valN e [r0] = N.land (valN e [x0]) (valN e [y0])).
Proof.
  eapply okm_weaken; [apply okm_logical_and|]. intros u e H. cbv beta in *.
  rewrite !valN_cons, !valN_nil, H. destruct (e x0), (e y0); reflexivity.
Qed.

Theorem okm_logical_or_N t x0 y0 r0 :
  okm t (logical_or [x0] [y0] [r0]) (fun _ e => valN e [r0] = N.lor (valN e [x0]) (valN e [y0])).
Proof.
  eapply okm_weaken; [apply okm_logical_or|]. intros u e H. cbv beta in *.
  rewrite !valN_cons, !valN_nil, H. destruct (e x0), (e y0); reflexivity.
Qed.

Lemma testbit_to_N : forall i bs, N.testbit (to_N bs) (N.of_nat i) = nth i bs false.
Proof.
  induction i as [|i IH]; intros [|b bs]; cbn [to_N nth].
  - reflexivity.
  - rewrite N.add_comm. apply N.testbit_0_r.
  - apply N.bits_0.
  - rewrite Nat2N.inj_succ, N.add_comm, N.testbit_succ_r. apply IH.
Qed.

Lemma testbit_valN_in e x i : (i < length x)%nat ->
  N.testbit (valN e x) (N.of_nat i) = e (nth i x 0).
Proof.
  intros L. unfold valN. rewrite testbit_to_N.
  rewrite (nth_indep _ false (e 0)) by (rewrite map_length; exact L). apply map_nth.
Qed.

Lemma testbit_valN_out e x i : (length x <= i)%nat ->
  N.testbit (valN e x) (N.of_nat i) = false.
Proof.
  intros L. unfold valN. rewrite testbit_to_N. apply nth_overflow. rewrite map_length. exact L.
Qed.

(* NewBitSetTest and NewBitClrTest differ in the constant wire [cw] (carrying b)
   that the selected bit is XORed with *)
Lemma okm_bit_test t (cw : M wire) (b : bool) x index r0 :
  okm t cw (fun w e => e w = b) ->
  okm t (if Nat.ltb index (length x)
         then w <- cw;; emit XOR (nth index x 0) w (nth 0 [r0] 0);; ret [r0]
         else w <- cw;; ret [w])
      (fun r' e => let xi := N.testbit (valN e x) (N.of_nat index) in
                   map e r' = [if b then negb xi else xi]).
Proof.
  intros Hc. destruct (Nat.ltb index (length x)) eqn:E.
  - apply Nat.ltb_lt in E. mstepn Hc w. cbn [nth]. mstepn okm_emit u.
    apply okm_ret. cbn. intros e H Hw.
    rewrite H, Hw, testbit_valN_in by exact E.
    destruct b; rewrite ?xorb_true_r, ?xorb_false_r; reflexivity.
  - apply Nat.ltb_ge in E. mstepn Hc w. apply okm_ret. cbn. intros e Hw.
    rewrite Hw, testbit_valN_out by exact E. destruct b; reflexivity.
Qed.

(* for index >= len(x) the builder returns the constant wire and leaves r0 undriven:
   the claim is about the returned list r' *)
Theorem okm_bit_set_test t x index r0 :
  okm t (bit_set_test x index [r0])
      (fun r' e => map e r' = [N.testbit (valN e x) (N.of_nat index)]).
Proof. exact (okm_bit_test t zero_wire false x index r0 (okm_zero t)). Qed.

Theorem okm_bit_clr_test t x index r0 :
  okm t (bit_clr_test x index [r0])
      (fun r' e => map e r' = [negb (N.testbit (valN e x) (N.of_nat index))]).
Proof. exact (okm_bit_test t one_wire true x index r0 (okm_one t)). Qed.

(* intComparator ZERO pads operands of unequal widths (it does not sign
   extend), and takes the sign bits at position len(y)-1 of the padded
   operands.  The two's complement theorems okm_int_gt/ge/lt/le are therefore
   stated for operands of EQUAL width n >= 1, which is how every in-repo caller
   invokes them. *)

Definition sval (n : nat) (v : N) : Z :=
  if v <? 2 ^ N.of_nat (n - 1) then Z.of_N v else (Z.of_N v - 2 ^ Z.of_nat n)%Z.

Lemma sign_split e x k : length x = S k ->
  exists lo, lo < 2 ^ N.of_nat k /\ valN e x = lo + 2 ^ N.of_nat k * N.b2n (e (nth k x 0)).
Proof.
  intros L. exists (valN e (firstn k x)).
  split; [apply valN_pow_le, firstn_le_length | apply valN_split_last, L].
Qed.

Lemma sval_split k lo (s : bool) : lo < 2 ^ N.of_nat k ->
  sval (S k) (lo + 2 ^ N.of_nat k * N.b2n s) = (Z.of_N lo - Z.of_N (2 ^ N.of_nat k * N.b2n s))%Z.
Proof.
  intros Hlo. unfold sval. replace (S k - 1)%nat with k by lia.
  assert (EP : (2 ^ Z.of_nat (S k) = 2 * Z.of_N (2 ^ N.of_nat k))%Z).
  { rewrite N2Z.inj_pow, nat_N_Z, Nat2Z.inj_succ, Z.pow_succ_r by lia. reflexivity. }
  rewrite EP. destruct s; cbn [N.b2n]; rewrite ?N.mul_1_r, ?N.mul_0_r, ?N.add_0_r.
  - destruct (N.ltb_spec (lo + 2 ^ N.of_nat k) (2 ^ N.of_nat k)); lia.
  - destruct (N.ltb_spec lo (2 ^ N.of_nat k)); lia.
Qed.

Lemma signed_cmp k xl yl (sx sy c : bool) :
  xl < 2 ^ N.of_nat k -> yl < 2 ^ N.of_nat k ->
  (if xorb sx sy then sy
   else if xl + 2 ^ N.of_nat k * N.b2n sx =? yl + 2 ^ N.of_nat k * N.b2n sy then c
        else yl + 2 ^ N.of_nat k * N.b2n sy <? xl + 2 ^ N.of_nat k * N.b2n sx) =
  (if (sval (S k) (xl + 2 ^ N.of_nat k * N.b2n sx) =? sval (S k) (yl + 2 ^ N.of_nat k * N.b2n sy))%Z
   then c
   else (sval (S k) (yl + 2 ^ N.of_nat k * N.b2n sy) <? sval (S k) (xl + 2 ^ N.of_nat k * N.b2n sx))%Z).
Proof.
  intros Hx Hy. rewrite !sval_split by assumption.
  generalize dependent (2 ^ N.of_nat k). intros P Hx Hy.
  (* equal signs: the low parts decide either way; different signs: the operand
     with the sign bit is the smaller one, whatever the low parts *)
  destruct (N.eqb_spec (xl + P * N.b2n sx) (yl + P * N.b2n sy)),
           (N.ltb_spec (yl + P * N.b2n sy) (xl + P * N.b2n sx)),
           (Z.eqb_spec (Z.of_N xl - Z.of_N (P * N.b2n sx)) (Z.of_N yl - Z.of_N (P * N.b2n sy))),
           (Z.ltb_spec (Z.of_N yl - Z.of_N (P * N.b2n sy)) (Z.of_N xl - Z.of_N (P * N.b2n sx))),
           sx, sy; cbn [xorb N.b2n] in *; try reflexivity; lia.
Qed.

(* unequal widths: the ZERO padded operands are read as two's complement numbers of
   the width k+1 of the wider one *)
Theorem okm_int_comparator t cin x y r0 k :
  Nat.max (length x) (length y) = S k ->
  okm t (int_comparator cin x y [r0])
      (fun _ e => e r0 = if (sval (S k) (valN e x) =? sval (S k) (valN e y))%Z then e cin
                         else (sval (S k) (valN e y) <? sval (S k) (valN e x))%Z).
Proof.
  intros Lxy. unfold int_comparator.
  eapply okm_bind_p; [apply okp_zero_pad_val|]. intros [x' y'] [Lx' Ly']. cbn [fst snd] in *.
  replace (length y' - 1)%nat with k by lia.
  mstepn (okm_cmp_loop t x' y' cin None ltac:(lia)) cout.
  mstepn okm_fresh cond. mstepn okm_emit u.
  eapply okm_weaken; [apply okm_new_mux_bits; reflexivity|].
  cbn. intros _ e H H2 _ H1 [<- <-].
  assert (H0 : e r0 = if e cond then e (nth k y' 0) else e cout)
    by (destruct (e cond); injection H; auto).
  rewrite H0, H2, H1. clear H H0 H1 H2.
  destruct (sign_split e x' k ltac:(lia)) as (xl & Hxl & ->).
  destruct (sign_split e y' k ltac:(lia)) as (yl & Hyl & ->).
  apply signed_cmp; assumption.
Qed.

Lemma cmpZ_gt_form (a b : Z) : (if (a =? b)%Z then false else (b <? a)%Z) = (b <? a)%Z.
Proof. destruct (Z.eqb_spec a b), (Z.ltb_spec b a); try reflexivity; lia. Qed.
Lemma cmpZ_ge_form (a b : Z) : (if (a =? b)%Z then true else (b <? a)%Z) = (b <=? a)%Z.
Proof. destruct (Z.eqb_spec a b), (Z.ltb_spec b a), (Z.leb_spec b a); try reflexivity; lia. Qed.

Theorem okm_int_gt t x y r0 n :
  (1 <= n)%nat -> length x = n -> length y = n ->
  okm t (int_gt x y [r0]) (fun _ e => e r0 = (sval n (valN e y) <? sval n (valN e x))%Z).
Proof.
  intros Ln Lx Ly. destruct n as [|k]; [lia|]. unfold int_gt. mstepn okm_zero c.
  eapply okm_weaken; [apply (okm_int_comparator t c x y r0 k); lia|].
  cbn. intros _ e H Hc. rewrite H, Hc. apply cmpZ_gt_form.
Qed.

Theorem okm_int_ge t x y r0 n :
  (1 <= n)%nat -> length x = n -> length y = n ->
  okm t (int_ge x y [r0]) (fun _ e => e r0 = (sval n (valN e y) <=? sval n (valN e x))%Z).
Proof.
  intros Ln Lx Ly. destruct n as [|k]; [lia|]. unfold int_ge. mstepn okm_one c.
  eapply okm_weaken; [apply (okm_int_comparator t c x y r0 k); lia|].
  cbn. intros _ e H Hc. rewrite H, Hc. apply cmpZ_ge_form.
Qed.

Theorem okm_int_lt t x y r0 n :
  (1 <= n)%nat -> length x = n -> length y = n ->
  okm t (int_lt x y [r0]) (fun _ e => e r0 = (sval n (valN e x) <? sval n (valN e y))%Z).
Proof.
  intros Ln Lx Ly. exact (okm_int_gt t y x r0 n Ln Ly Lx).
Qed.

Theorem okm_int_le t x y r0 n :
  (1 <= n)%nat -> length x = n -> length y = n ->
  okm t (int_le x y [r0]) (fun _ e => e r0 = (sval n (valN e x) <=? sval n (valN e y))%Z).
Proof.
  intros Ln Lx Ly. exact (okm_int_ge t y x r0 n Ln Ly Lx).
Qed.
