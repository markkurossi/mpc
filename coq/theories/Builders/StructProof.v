(* Structural well-formedness of emitted gate lists, for every width (the *_eval theorems of C07).

   [wfc_b ninp gs] (Emit.v): every gate's output wire is new — not an input wire,
   not read or written by any earlier gate (single assignment, no write after
   use).  [dbu ninp gs]: every gate input is an input wire or the output of an
   earlier gate (defined before use).  Under wfc_b, gate-by-gate evaluation is a
   consistent valuation (EmitProof.eval_rev_sat), so the semantic theorems
   ([okm]) apply to the evaluated circuit ([run_st0] below).

   State-level vocabulary (ninp = number of circuit input wires, numbered 0..ninp-1):
     defd s w : w is an input wire or the output of an emitted gate (may be read)
     pend s w : w is allocated (ninp <= w < next s) and occurs in no gate yet
                (may be used as a destination exactly once)
     wfst s   : the emitted list is wfc_b and dbu, mentions only allocated
                wires, and the lazily created constant wires are defined
     step s s' wr : s' comes after s: the allocator only grows, defined wires stay
                defined, and every pending wire NOT in [wr] is still pending
     oks m s Q : running m from s yields (a, s') with wfst s' and Q a s'
   A builder's structural lemma has the shape
     wfst s -> <operands defd in s> -> <destinations pend in s, distinct> ->
     oks (builder ...) s (fun a s' => step s s' <destinations> /\ <results defd in s'>).
   Wires allocated after s never count as written ([step_weaken_fresh]).
   [eval2] / [eval22] combine a structural lemma with a semantic one ([okm]) into
   the statement about the evaluated circuit in the harness wire layout. *)
From Coq Require Import NArith List Bool Arith Lia FinFun.
From Mpc Require Import Base.ListFacts Builders.Emit Builders.EmitProof.
Import ListNotations.
Open Scope N_scope.

Section ListAux.
Context {A : Type}.
Implicit Types (l : list A) (P : A -> Prop).

Lemma In_firstn k l a : In a (firstn k l) -> In a l.
Proof. intros H. rewrite <- (firstn_skipn k l). apply in_or_app. auto. Qed.

Lemma In_skipn k l a : In a (skipn k l) -> In a l.
Proof. intros H. rewrite <- (firstn_skipn k l). apply in_or_app. auto. Qed.

Lemma Forall_firstn P k l : Forall P l -> Forall P (firstn k l).
Proof. intros H. rewrite <- (firstn_skipn k l) in H. apply Forall_app in H. tauto. Qed.

Lemma Forall_skipn P k l : Forall P l -> Forall P (skipn k l).
Proof. intros H. rewrite <- (firstn_skipn k l) in H. apply Forall_app in H. tauto. Qed.

Lemma NoDup_firstn k l : NoDup l -> NoDup (firstn k l).
Proof. intros H. rewrite <- (firstn_skipn k l) in H. apply NoDup_app_iff in H. tauto. Qed.

Lemma NoDup_skipn k l : NoDup l -> NoDup (skipn k l).
Proof. intros H. rewrite <- (firstn_skipn k l) in H. apply NoDup_app_iff in H. tauto. Qed.

Lemma NoDup_firstn_skipn k l a : NoDup l -> In a (firstn k l) -> ~ In a (skipn k l).
Proof. intros H. rewrite <- (firstn_skipn k l) in H. apply NoDup_app_iff in H. apply H. Qed.

(* destinations (Q ++ Qi) ++ R of a loop whose current iteration writes Qi *)
Lemma dest_split P (Q Qi R : list A) :
  Forall P ((Q ++ Qi) ++ R) -> NoDup ((Q ++ Qi) ++ R) ->
  Forall P Q /\ Forall P Qi /\ Forall P R /\ NoDup R /\ NoDup (Q ++ R) /\
  (forall w, In w Qi -> ~ In w (Q ++ R)).
Proof.
  rewrite !Forall_app, !NoDup_app_iff. intros ((PQ & PQi) & PR) ((NQ & NQi & DjQ) & NR & DjR).
  repeat split; auto.
  - intros w H. apply DjR, in_or_app. auto.
  - intros w H H'. apply in_app_or in H'. destruct H' as [H'|H'].
    + exact (DjQ w H' H).
    + apply (DjR w); [apply in_or_app; auto|exact H'].
Qed.

Lemma incl_dest (Q Qi R : list A) : incl (Qi ++ Q ++ R) ((Q ++ Qi) ++ R).
Proof. intros w. rewrite !in_app_iff. tauto. Qed.

Lemma Forall_tl P l : Forall P l -> Forall P (tl l).
Proof. intros F. destruct l; [exact F|]. inversion F; auto. Qed.

Lemma length_tl l : length (tl l) = (length l - 1)%nat.
Proof. destruct l; cbn; lia. Qed.
End ListAux.

Section Struct.
Variable ninp : N.

Definition outs (gs : list gate) : list wire := map g_o gs.
Definition defd_in (gs : list gate) (w : wire) : Prop := w < ninp \/ In w (outs gs).
Fixpoint dbu (gs : list gate) : Prop :=
  match gs with
  | [] => True
  | g :: r => defd_in r (g_a g) /\ defd_in r (g_b g) /\ dbu r
  end.
Definition pend_g (n : N) (gs : list gate) (w : wire) : Prop :=
  ninp <= w /\ w < n /\ mentions w gs = false.
Definition wfg (n : N) (gs : list gate) : Prop :=
  wfc_b ninp gs = true /\ dbu gs /\ (forall w, mentions w gs = true -> w < n) /\
  0 < ninp /\ ninp <= n.

Lemma mentions_cons w g r :
  mentions w (g :: r) = (N.eqb w (g_a g) || N.eqb w (g_b g) || N.eqb w (g_o g) || mentions w r).
Proof. reflexivity. Qed.

Lemma outs_mentions gs w : In w (outs gs) -> mentions w gs = true.
Proof.
  induction gs as [|g r IH]; cbn; [intros []|]. intros [H|H].
  - subst. rewrite N.eqb_refl. rewrite !orb_true_r. reflexivity.
  - rewrite IH by auto. apply orb_true_r.
Qed.

Lemma defd_lt n gs w : wfg n gs -> defd_in gs w -> w < n.
Proof.
  intros (_ & _ & L & I1 & I2) [H|H]; [lia|]. apply L, outs_mentions, H.
Qed.

Lemma defd_pend_neq n gs a o : defd_in gs a -> pend_g n gs o -> a <> o.
Proof.
  intros [H|H] (P1 & P2 & P3) E; subst; [lia|].
  apply outs_mentions in H. congruence.
Qed.

Lemma defd_in_cons g gs w : defd_in gs w -> defd_in (g :: gs) w.
Proof. intros [H|H]; [left; auto|right; cbn; auto]. Qed.

Lemma defd_in_out g gs : defd_in (g :: gs) (g_o g).
Proof. right. cbn. auto. Qed.

Lemma wfg_emit n gs op a b o :
  wfg n gs -> defd_in gs a -> defd_in gs b -> pend_g n gs o ->
  wfg n (mkG op a b o :: gs).
Proof.
  intros W Da Db Po. pose proof (defd_pend_neq _ _ _ _ Da Po) as Na.
  pose proof (defd_pend_neq _ _ _ _ Db Po) as Nb.
  pose proof (defd_lt _ _ _ W Da) as La. pose proof (defd_lt _ _ _ W Db) as Lb.
  destruct W as (C & D & L & I1 & I2). destruct Po as (P1 & P2 & P3).
  split; [|split; [|split; [|split]]]; auto.
  - cbn. rewrite C, P3.
    replace (N.ltb o ninp) with false by (symmetry; apply N.ltb_ge; lia).
    replace (N.eqb o a) with false by (symmetry; apply N.eqb_neq; congruence).
    replace (N.eqb o b) with false by (symmetry; apply N.eqb_neq; congruence).
    reflexivity.
  - cbn. auto.
  - intros w. rewrite mentions_cons. cbn [g_a g_b g_o]. intros H.
    apply orb_true_iff in H. destruct H as [H|H]; [|auto].
    apply orb_true_iff in H. destruct H as [H|H].
    + apply orb_true_iff in H. destruct H as [H|H]; apply N.eqb_eq in H; subst; auto.
    + apply N.eqb_eq in H. subst. auto.
Qed.

Lemma pend_emit' n gs op a b o w :
  pend_g n gs w -> w <> o -> w <> a -> w <> b -> pend_g n (mkG op a b o :: gs) w.
Proof.
  intros (P1 & P2 & P3) No Na Nb. split; [|split]; auto.
  rewrite mentions_cons. cbn [g_a g_b g_o]. rewrite P3.
  replace (N.eqb w a) with false by (symmetry; apply N.eqb_neq; congruence).
  replace (N.eqb w b) with false by (symmetry; apply N.eqb_neq; congruence).
  replace (N.eqb w o) with false by (symmetry; apply N.eqb_neq; congruence).
  reflexivity.
Qed.

Lemma pend_emit n gs op a b o w :
  pend_g n gs w -> w <> o -> defd_in gs a -> defd_in gs b ->
  pend_g n (mkG op a b o :: gs) w.
Proof.
  intros P No Da Db. apply pend_emit'; auto; intros E; symmetry in E; revert E; eapply defd_pend_neq; eauto.
Qed.

Lemma wfg_next n n' gs : wfg n gs -> n <= n' -> wfg n' gs.
Proof.
  intros (C & D & L & I1 & I2) H. repeat split; auto; try lia.
  intros w M. specialize (L w M). lia.
Qed.

Lemma pend_g_next n n' gs w : pend_g n gs w -> n <= n' -> pend_g n' gs w.
Proof. intros (A & B & C) H. repeat split; auto. lia. Qed.

Lemma pend_g_fresh n gs k : wfg n gs -> n <= k -> forall n', k < n' -> pend_g n' gs k.
Proof.
  intros (_ & _ & L & I1 & I2) H n' H'. repeat split; try lia.
  destruct (mentions k gs) eqn:M; auto. specialize (L _ M). lia.
Qed.

Lemma in0_defd n gs : wfg n gs -> defd_in gs in0.
Proof. intros (_ & _ & _ & I & _). left. exact I. Qed.

Definition defd (s : st) (w : wire) : Prop := defd_in (gates s) w.
Definition pend (s : st) (w : wire) : Prop := pend_g (next s) (gates s) w.
Definition wfst (s : st) : Prop :=
  wfg (next s) (gates s) /\
  (forall w, zero s = Some w -> defd s w) /\
  (forall w, one s = Some w -> defd s w) /\
  (forall w, inv0 s = Some w -> defd s w).

Definition step (s s' : st) (wr : list wire) : Prop :=
  (gmw s' = gmw s /\ next s <= next s') /\
  (forall w, defd s w -> defd s' w) /\
  (forall w, pend s w -> ~ In w wr -> pend s' w).

Lemma step_refl s : step s s [].
Proof. split; [split; [reflexivity|lia]|]. split; auto. Qed.

Lemma step_trans s1 s2 s3 w1 w2 : step s1 s2 w1 -> step s2 s3 w2 -> step s1 s3 (w1 ++ w2).
Proof.
  intros ((G1 & A1) & B1 & C1) ((G2 & A2) & B2 & C2). split; [split; [congruence|lia]|]. split; [auto|].
  intros x P N. apply C2; [apply C1; auto|]; intro; apply N, in_or_app; auto.
Qed.

Lemma step_weaken s s' w1 w2 : step s s' w1 -> incl w1 w2 -> step s s' w2.
Proof. intros (A & B & C) I. split; [auto|]. split; [auto|]. intros x P N. apply C; auto. Qed.

Lemma step_nil_any s s' wr : step s s' [] -> step s s' wr.
Proof. intros H. eapply step_weaken; [exact H|apply incl_nil_l]. Qed.

Lemma step_trans_nil_l s1 s2 s3 w : step s1 s2 [] -> step s2 s3 w -> step s1 s3 w.
Proof. exact (step_trans s1 s2 s3 [] w). Qed.

Lemma step_trans_nil_r s1 s2 s3 w : step s1 s2 w -> step s2 s3 [] -> step s1 s3 w.
Proof. intros A B. eapply step_weaken; [exact (step_trans _ _ _ _ _ A B)|]. rewrite app_nil_r. apply incl_refl. Qed.

Lemma step_defd s s' wr w : step s s' wr -> defd s w -> defd s' w.
Proof. intros (_ & B & _). auto. Qed.
Lemma step_pend s s' wr w : step s s' wr -> pend s w -> ~ In w wr -> pend s' w.
Proof. intros (_ & _ & C). auto. Qed.
Lemma step_next s s' wr : step s s' wr -> next s <= next s'.
Proof. intros ((_ & A) & _). auto. Qed.
Lemma step_gmw s s' wr : step s s' wr -> gmw s' = gmw s.
Proof. intros ((A & _) & _). auto. Qed.

Lemma defd_next s w : wfst s -> defd s w -> w < next s.
Proof. intros (W & _) D. eapply defd_lt; eauto. Qed.
Lemma pend_next s w : pend s w -> w < next s.
Proof. intros (_ & H & _). auto. Qed.
Lemma defd_pend_ne s a o : defd s a -> pend s o -> a <> o.
Proof. intros D P. eapply defd_pend_neq; eauto. Qed.
Lemma pend_not_defd s w : pend s w -> ~ defd s w.
Proof. intros P D. eapply defd_pend_ne; eauto. Qed.
Lemma defd_input s w : w < ninp -> defd s w.
Proof. intros H. left. auto. Qed.
Lemma defd_in0 s : wfst s -> defd s in0.
Proof. intros ((_ & _ & _ & I & _) & _). left. exact I. Qed.

Lemma step_weaken_fresh s s' w1 w2 :
  step s s' w1 -> (forall w, In w w1 -> In w w2 \/ next s <= w) -> step s s' w2.
Proof.
  intros (A & B & C) I. split; [auto|]. split; [auto|]. intros x P N. apply C; auto.
  intros Hin. destruct (I _ Hin) as [H|H]; [auto|]. pose proof (pend_next _ _ P). lia.
Qed.

Lemma Forall_defd_step s s' wr l : step s s' wr -> Forall (defd s) l -> Forall (defd s') l.
Proof. intros S F. eapply Forall_impl; [|exact F]. intros w. apply (step_defd _ _ _ _ S). Qed.

Lemma FF_defd_step s s' wr ll :
  step s s' wr -> Forall (Forall (defd s)) ll -> Forall (Forall (defd s')) ll.
Proof. intros S F. eapply Forall_impl; [|exact F]. intros l. apply (Forall_defd_step s s' wr l S). Qed.

Lemma Forall_pend_step s s' wr l :
  step s s' wr -> Forall (pend s) l -> (forall w, In w l -> ~ In w wr) -> Forall (pend s') l.
Proof.
  intros S F H. apply Forall_forall. intros w Hin. rewrite Forall_forall in F.
  eapply step_pend; eauto.
Qed.

Lemma Forall_pend_step0 s s' l : step s s' [] -> Forall (pend s) l -> Forall (pend s') l.
Proof. intros S F. apply (Forall_pend_step s s' [] l S F). intros w _ []. Qed.

(* out of range, nth gives wire 0, an input wire *)
Lemma defd_nth s l k : wfst s -> Forall (defd s) l -> defd s (nth k l 0).
Proof.
  intros W F. destruct (nth_in_or_default k l 0) as [H|H].
  - rewrite Forall_forall in F. apply F, H.
  - rewrite H. apply defd_in0. exact W.
Qed.

Definition oks {A} (m : M A) (s : st) (Q : A -> st -> Prop) : Prop :=
  exists a s', m s = (a, s') /\ wfst s' /\ Q a s'.

Lemma oks_ret {A} (a : A) s (Q : A -> st -> Prop) : wfst s -> Q a s -> oks (ret a) s Q.
Proof. intros W H. exists a, s. auto. Qed.

(* a loop over several lists at the point where one of them has run out *)
Lemma loop_end_s s (z : list wire) n : wfst s -> n = 0%nat ->
  oks (ret tt) s (fun _ s' => step s s' z /\ Forall (defd s') (firstn n z)).
Proof. intros W ->. apply oks_ret; [exact W|]. split; [apply step_nil_any, step_refl|constructor]. Qed.

Lemma oks_bind {A B} (m : M A) (f : A -> M B) s (P : A -> st -> Prop) (Q : B -> st -> Prop) :
  oks m s P -> (forall a s1, wfst s1 -> P a s1 -> oks (f a) s1 Q) -> oks (bind m f) s Q.
Proof.
  intros (a & s1 & E1 & W1 & P1) H. destruct (H a s1 W1 P1) as (b & s2 & E2 & W2 & Q2).
  exists b, s2. unfold bind. rewrite E1, E2. auto.
Qed.

Lemma oks_ext {A} (m m' : M A) s (Q : A -> st -> Prop) : m s = m' s -> oks m' s Q -> oks m s Q.
Proof. intros H (a & s' & E & K). exists a, s'. rewrite H. auto. Qed.

Lemma oks_conseq {A} (m : M A) s (P Q : A -> st -> Prop) :
  oks m s P -> (forall a s', wfst s' -> P a s' -> Q a s') -> oks m s Q.
Proof. intros (a & s' & E & W & H) I. exists a, s'. auto. Qed.

Lemma oks_after_incl {A} (m : M A) s0 s w0 wr (R : A -> st -> Prop) :
  step s0 s w0 -> incl w0 wr -> oks m s (fun a s' => step s s' wr /\ R a s') ->
  oks m s (fun a s' => step s0 s' wr /\ R a s').
Proof.
  intros S0 I H. eapply oks_conseq; [exact H|]. cbv beta. intros a s' _ (S & HR).
  split; [|exact HR]. eapply step_weaken; [exact (step_trans _ _ _ _ _ S0 S)|].
  apply incl_app; [exact I|apply incl_refl].
Qed.

Lemma oks_after {A} (m : M A) s0 s wr (R : A -> st -> Prop) :
  step s0 s [] -> oks m s (fun a s' => step s s' wr /\ R a s') ->
  oks m s (fun a s' => step s0 s' wr /\ R a s').
Proof. intros S0. apply (oks_after_incl m s0 s [] wr R S0), incl_nil_l. Qed.

Lemma oks_step_incl {A} (m : M A) s w1 wr (R : A -> st -> Prop) :
  oks m s (fun a s' => step s s' w1 /\ R a s') -> incl w1 wr ->
  oks m s (fun a s' => step s s' wr /\ R a s').
Proof.
  intros H I. eapply oks_conseq; [exact H|]. cbv beta. intros a s' _ (S & HR).
  split; [exact (step_weaken _ _ _ _ S I)|exact HR].
Qed.

Lemma oks_then {A B} (m : M A) (f : A -> M B) s w1 wr (P : A -> st -> Prop) (R : B -> st -> Prop) :
  oks m s (fun a s1 => step s s1 w1 /\ P a s1) -> incl w1 wr ->
  (forall a s1, wfst s1 -> step s s1 w1 -> P a s1 ->
     oks (f a) s1 (fun b s' => step s1 s' wr /\ R b s')) ->
  oks (bind m f) s (fun b s' => step s s' wr /\ R b s').
Proof.
  intros Hm I Hf. eapply oks_bind; [exact Hm|]. cbv beta. intros a s1 W1 (S1 & HP).
  exact (oks_after_incl _ _ _ _ _ _ S1 I (Hf a s1 W1 S1 HP)).
Qed.

Lemma fresh_s s : wfst s ->
  oks fresh s (fun w s' => w = next s /\ pend s' w /\ step s s' [] /\ next s' = N.succ (next s)).
Proof.
  intros (W & Z & O & I). eexists _, _. split; [reflexivity|]. cbn.
  assert (W' : wfg (N.succ (next s)) (gates s)) by (eapply wfg_next; eauto; lia).
  split; [split; auto|]. split; [reflexivity|]. split; [|split; [|reflexivity]].
  - destruct W as (_ & _ & L & I1 & I2). unfold pend, pend_g. cbn. repeat split; try lia.
    destruct (mentions (next s) (gates s)) eqn:M; auto. specialize (L _ M). lia.
  - unfold step, defd, pend, pend_g. cbn. split; [split; [reflexivity|lia]|]. split; [auto|].
    intros w (H1 & H2 & H3) _. repeat split; auto; lia.
Qed.

(* a wire allocated now may be written by what follows without counting as written *)
Lemma oks_fresh {B} (K : wire -> M B) s wr (R : B -> st -> Prop) :
  wfst s ->
  (forall w s1, wfst s1 -> w = next s /\ pend s1 w /\ step s s1 [] /\ next s1 = N.succ (next s) ->
     oks (K w) s1 (fun b s' => step s1 s' (w :: wr) /\ R b s')) ->
  oks (w <- fresh;; K w) s (fun b s' => step s s' wr /\ R b s').
Proof.
  intros W HK. eapply oks_bind; [apply fresh_s, W|]. cbv beta. intros w s1 W1 H.
  eapply oks_conseq; [exact (HK w s1 W1 H)|]. cbv beta. intros b s' _ (S & HR).
  split; [|exact HR]. destruct H as (E & _ & S1 & _).
  eapply step_weaken_fresh; [exact (step_trans _ _ _ _ _ S1 S)|].
  intros x [<-|Hx]; [right; lia|left; exact Hx].
Qed.

Lemma emit_s s op a b o : wfst s -> defd s a -> defd s b -> pend s o ->
  oks (emit op a b o) s (fun _ s' => step s s' [o] /\ defd s' o /\ next s' = next s).
Proof.
  intros (W & Z & O & I) Da Db Po. eexists _, _. split; [reflexivity|]. cbn.
  split; [|split; [|split; [|reflexivity]]].
  - split; [apply wfg_emit; auto|]. unfold defd. cbn.
    split; [intros w Hw; apply defd_in_cons, Z, Hw | split; [intros w Hw; apply defd_in_cons, O, Hw | intros w Hw; apply defd_in_cons, I, Hw]].
  - unfold step, defd, pend. cbn. split; [split; [reflexivity|lia]|]. split.
    + intros w. apply defd_in_cons.
    + intros w P N. apply pend_emit; auto; try (intro; apply N; cbn; auto).
  - unfold defd. cbn. apply (defd_in_out (mkG op a b o)).
Qed.

Lemma inv0_s s : wfst s -> oks inv_i0_wire s (fun w s' => step s s' [] /\ defd s' w).
Proof.
  intros WS. pose proof WS as (W & Z & O & I). unfold inv_i0_wire, oks. cbv beta.
  destruct (inv0 s) as [i|] eqn:EI.
  - exists i, s. split; [reflexivity|]. split; [exact WS|]. split; [apply step_refl|]. apply I; auto.
  - unfold bind, fresh, set_inv0, emit, ret. cbn. eexists _, _. split; [reflexivity|].
    assert (W1 : wfg (N.succ (next s)) (gates s)) by (eapply wfg_next; eauto; lia).
    assert (P1 : pend_g (N.succ (next s)) (gates s) (next s)) by (apply (pend_g_fresh (next s) (gates s) (next s) W); lia).
    pose proof (in0_defd _ _ W1) as D0.
    assert (W2 : wfg (N.succ (next s)) (mkG INV in0 0 (next s) :: gates s)) by (apply wfg_emit; auto).
    split; [|split].
    + split; [exact W2|]. unfold defd. cbn.
      split; [intros w Hw; apply defd_in_cons, Z, Hw | split; [intros w Hw; apply defd_in_cons, O, Hw | ]].
      intros w Hw. inversion Hw; subst. apply (defd_in_out (mkG INV in0 0 (next s))).
    + unfold step, defd, pend. cbn. split; [split; [reflexivity|lia]|]. split; [intros w; apply defd_in_cons|].
      intros w P _. pose proof P as (Q1 & Q2 & Q3).
      apply pend_emit; auto; try lia; eapply pend_g_next; eauto; lia.
    + unfold defd. cbn. apply (defd_in_out (mkG INV in0 0 (next s))).
Qed.

(* the constant wires: op = AND gives ZeroWire, op = XOR gives OneWire *)
Lemma const_gates_ok s op :
  wfst s ->
  match inv0 s with
  | Some i =>
      let gs' := mkG op in0 i (next s) :: gates s in
      wfg (N.succ (next s)) gs' /\ defd_in gs' (next s) /\
      (forall w, defd_in (gates s) w -> defd_in gs' w) /\
      (forall w, pend_g (next s) (gates s) w -> pend_g (N.succ (next s)) gs' w)
  | None =>
      let gs' := mkG op in0 (N.succ (next s)) (next s) :: mkG INV in0 0 (N.succ (next s)) :: gates s in
      wfg (N.succ (N.succ (next s))) gs' /\ defd_in gs' (next s) /\ defd_in gs' (N.succ (next s)) /\
      (forall w, defd_in (gates s) w -> defd_in gs' w) /\
      (forall w, pend_g (next s) (gates s) w -> pend_g (N.succ (N.succ (next s))) gs' w)
  end.
Proof.
  intros (W & Z & O & I). destruct (inv0 s) as [i|] eqn:EI; cbv zeta.
  - assert (W1 : wfg (N.succ (next s)) (gates s)) by (eapply wfg_next; eauto; lia).
    assert (P1 : pend_g (N.succ (next s)) (gates s) (next s)) by (apply (pend_g_fresh (next s) (gates s) (next s) W); lia).
    pose proof (in0_defd _ _ W1) as D0. pose proof (I i eq_refl) as Di.
    split; [apply wfg_emit; auto|]. split; [apply (defd_in_out (mkG op in0 i (next s)))|].
    split; [intros w; apply defd_in_cons|].
    intros w P. pose proof P as (Q1 & Q2 & Q3).
    apply pend_emit; auto; try lia; eapply pend_g_next; eauto; lia.
  - set (n := next s). set (i := N.succ n).
    assert (W1 : wfg (N.succ i) (gates s)) by (eapply wfg_next; eauto; lia).
    assert (Pi : pend_g (N.succ i) (gates s) i) by (apply (pend_g_fresh (next s) (gates s) i W); lia).
    assert (Pn : pend_g (N.succ i) (gates s) n) by (apply (pend_g_fresh (next s) (gates s) n W); lia).
    pose proof (in0_defd _ _ W1) as D0.
    assert (W2 : wfg (N.succ i) (mkG INV in0 0 i :: gates s)) by (apply wfg_emit; auto).
    assert (Pn2 : pend_g (N.succ i) (mkG INV in0 0 i :: gates s) n) by (apply pend_emit; auto; lia).
    split; [apply wfg_emit; auto; [apply defd_in_cons; auto | apply (defd_in_out (mkG INV in0 0 i))]|].
    split; [apply (defd_in_out (mkG op in0 i n))|].
    split; [apply defd_in_cons, (defd_in_out (mkG INV in0 0 i))|].
    split; [intros w D; apply defd_in_cons, defd_in_cons, D|].
    intros w P. pose proof P as (Q1 & Q2 & Q3).
    assert (Hw0 : w <> 0) by (destruct W as (_ & _ & _ & I1 & _); lia).
    apply pend_emit'; try (unfold in0; subst n i; lia).
    apply pend_emit'; try (unfold in0; subst n i; lia).
    eapply pend_g_next; eauto. subst n i. lia.
Qed.

Lemma zero_s s : wfst s -> oks zero_wire s (fun w s' => step s s' [] /\ defd s' w).
Proof.
  intros WS. pose proof WS as (W & Z & O & I). unfold zero_wire, oks. cbv beta.
  destruct (zero s) as [z|] eqn:EZ.
  - exists z, s. split; [reflexivity|]. split; [exact WS|]. split; [apply step_refl|]. apply Z; auto.
  - pose proof (const_gates_ok s AND WS) as K.
    unfold inv_i0_wire, bind, fresh, set_zero, set_inv0, emit, ret; cbn.
    destruct (inv0 s) as [i|] eqn:EI; cbn; cbv zeta in K.
    + destruct K as (K1 & K2 & K3 & K4). eexists _, _. split; [reflexivity|].
      split; [|split].
      * split; [exact K1|]. unfold defd. cbn.
        split; [intros w Hw; inversion Hw; subst; exact K2|].
        split; [intros w Hw; apply K3, O, Hw | intros w Hw; apply K3, I; congruence].
      * unfold step, defd, pend. cbn. split; [split; [reflexivity|lia]|]. split; [exact K3|]. intros w P _. apply K4, P.
      * exact K2.
    + destruct K as (K1 & K2 & K2' & K3 & K4). eexists _, _. split; [reflexivity|].
      split; [|split].
      * split; [exact K1|]. unfold defd. cbn.
        split; [intros w Hw; inversion Hw; subst; exact K2|].
        split; [intros w Hw; apply K3, O, Hw | intros w Hw; inversion Hw; subst; exact K2'].
      * unfold step, defd, pend. cbn. split; [split; [reflexivity|lia]|]. split; [exact K3|]. intros w P _. apply K4, P.
      * exact K2.
Qed.

Lemma one_s s : wfst s -> oks one_wire s (fun w s' => step s s' [] /\ defd s' w).
Proof.
  intros WS. pose proof WS as (W & Z & O & I). unfold one_wire, oks. cbv beta.
  destruct (one s) as [z|] eqn:EZ.
  - exists z, s. split; [reflexivity|]. split; [exact WS|]. split; [apply step_refl|]. apply O; auto.
  - pose proof (const_gates_ok s XOR WS) as K.
    unfold inv_i0_wire, bind, fresh, set_one, set_inv0, emit, ret; cbn.
    destruct (inv0 s) as [i|] eqn:EI; cbn; cbv zeta in K.
    + destruct K as (K1 & K2 & K3 & K4). eexists _, _. split; [reflexivity|].
      split; [|split].
      * split; [exact K1|]. unfold defd. cbn.
        split; [intros w Hw; apply K3, Z, Hw|].
        split; [intros w Hw; inversion Hw; subst; exact K2 | intros w Hw; apply K3, I; congruence].
      * unfold step, defd, pend. cbn. split; [split; [reflexivity|lia]|]. split; [exact K3|]. intros w P _. apply K4, P.
      * exact K2.
    + destruct K as (K1 & K2 & K2' & K3 & K4). eexists _, _. split; [reflexivity|].
      split; [|split].
      * split; [exact K1|]. unfold defd. cbn.
        split; [intros w Hw; apply K3, Z, Hw|].
        split; [intros w Hw; inversion Hw; subst; exact K2 | intros w Hw; inversion Hw; subst; exact K2'].
      * unfold step, defd, pend. cbn. split; [split; [reflexivity|lia]|]. split; [exact K3|]. intros w P _. apply K4, P.
      * exact K2.
Qed.

Ltac sbind L := eapply oks_bind; [ eapply L; eauto | ].

Lemma xor_const_s (cw : M wire) s i o :
  (forall s, wfst s -> oks cw s (fun w s' => step s s' [] /\ defd s' w)) ->
  wfst s -> defd s i -> pend s o ->
  oks (w <- cw;; emit XOR i w o) s (fun _ s' => step s s' [o] /\ defd s' o).
Proof.
  intros Hc W Di Po. sbind Hc. intros w s1 W1 (S1 & D1). cbv beta.
  eapply oks_conseq; [apply emit_s; eauto using step_defd|].
  - eapply step_pend; eauto.
  - cbv beta. intros _ s2 W2 (S2 & D2 & _). split; [|exact D2].
    eapply step_trans_nil_l; eauto.
Qed.

Lemma cc_inv_s s i o : wfst s -> defd s i -> pend s o ->
  oks (cc_inv i o) s (fun _ s' => step s s' [o] /\ defd s' o).
Proof. apply xor_const_s, one_s. Qed.

Lemma cc_id_s s i o : wfst s -> defd s i -> pend s o ->
  oks (cc_id i o) s (fun _ s' => step s s' [o] /\ defd s' o).
Proof. apply xor_const_s, zero_s. Qed.

Lemma cc_or_s s a b o : wfst s -> defd s a -> defd s b -> pend s o ->
  oks (cc_or a b o) s (fun _ s' => step s s' [o] /\ defd s' o).
Proof.
  intros W Da Db Po. unfold cc_or.
  sbind fresh_s. intros x s1 W1 (Ex & Px & S1 & N1). cbv beta.
  assert (Nxo : x <> o) by (pose proof (pend_next _ _ Po); lia).
  sbind emit_s; eauto using step_defd. intros _ s2 W2 (S2 & Dx & N2). cbv beta.
  assert (Po2 : pend s2 o).
  { eapply step_pend; [exact S2| |cbn; intros [E|[]]; congruence].
    eapply step_pend; [exact S1|exact Po|intros []]. }
  sbind fresh_s. intros y s3 W3 (Ey & Py & S3 & N3). cbv beta.
  assert (Nyo : y <> o) by (pose proof (pend_next _ _ Po2); lia).
  assert (Po3 : pend s3 o) by (eapply step_pend; [exact S3|exact Po2|intros []]).
  sbind emit_s; eauto using step_defd. intros _ s4 W4 (S4 & Dy & N4). cbv beta.
  eapply oks_conseq; [apply emit_s; eauto using step_defd|].
  - eapply step_pend; [exact S4|exact Po3|cbn; intros [E|[]]; congruence].
  - cbv beta. intros _ s5 W5 (S5 & Do & _). split; auto.
    split; [|split].
    + pose proof (step_next _ _ _ S1). pose proof (step_next _ _ _ S2). pose proof (step_next _ _ _ S3).
      pose proof (step_next _ _ _ S4). pose proof (step_next _ _ _ S5).
      pose proof (step_gmw _ _ _ S1). pose proof (step_gmw _ _ _ S2). pose proof (step_gmw _ _ _ S3).
      pose proof (step_gmw _ _ _ S4). pose proof (step_gmw _ _ _ S5).
      split; [congruence|lia].
    + eauto 10 using step_defd.
    + intros w P N. assert (Nw : w <> o) by (intro; apply N; cbn; auto).
      pose proof (pend_next _ _ P) as Lw.
      eapply step_pend; [exact S5| |cbn; intros [E|[]]; congruence].
      eapply step_pend; [exact S4| |cbn; intros [E|[]]; lia].
      eapply step_pend; [exact S3| |intros []].
      eapply step_pend; [exact S2| |cbn; intros [E|[]]; lia].
      eapply step_pend; [exact S1|exact P|intros []].
Qed.

Lemma gate_s {B} op a b (K : wire -> M B) s (Q : B -> st -> Prop) :
  wfst s -> defd s a -> defd s b ->
  (forall w s', wfst s' -> step s s' [] -> defd s' w -> oks (K w) s' Q) ->
  oks (w <- fresh;; emit op a b w;; K w) s Q.
Proof.
  intros W Da Db HK. sbind fresh_s. intros w s1 W1 (E1 & P1 & S1 & N1). cbv beta.
  eapply oks_bind; [apply emit_s; eauto using step_defd|]. intros _ s2 W2 (S2 & D2 & _). cbv beta.
  apply HK; auto. eapply step_weaken_fresh; [exact (step_trans _ _ _ _ _ S1 S2)|].
  intros x [<-|[]]. right. lia.
Qed.

Lemma fresh_n_s n : forall s, wfst s ->
  oks (fresh_n n) s (fun ws s' => step s s' [] /\ NoDup ws /\ length ws = n /\
                                  forall w, In w ws -> pend s' w /\ next s <= w).
Proof.
  induction n; intros s W; cbn [fresh_n].
  - apply oks_ret; auto. split; [apply step_refl|]. split; [constructor|]. split; auto. intros w [].
  - sbind fresh_s. intros x s1 W1 (Ex & Px & S1 & N1). cbv beta.
    eapply oks_bind; [apply IHn; auto|]. intros ws s2 W2 (S2 & ND & Ln & Pw). cbv beta.
    apply oks_ret; auto. split; [|split; [|split]].
    + eapply step_trans_nil_l; eauto.
    + constructor; auto. intros Hin. destruct (Pw _ Hin) as (_ & H). lia.
    + cbn. congruence.
    + intros w [E|Hin].
      * subst w. split; [|lia]. eapply step_pend; eauto.
      * destruct (Pw _ Hin) as (P & H). split; auto. lia.
Qed.

Lemma pad_s s x n : wfst s -> Forall (defd s) x ->
  oks (pad x n) s (fun ws s' => step s s' [] /\ Forall (defd s') ws /\ length ws = Nat.max n (length x)).
Proof.
  intros W F. unfold pad. destruct (Nat.leb n (length x)) eqn:E.
  - apply Nat.leb_le in E. apply oks_ret; auto. split; [apply step_refl|]. split; auto. lia.
  - apply Nat.leb_gt in E. sbind zero_s. intros z s1 W1 (S1 & Dz). cbv beta.
    apply oks_ret; auto. split; auto. split.
    + apply Forall_app. split; [eapply Forall_defd_step; eauto|]. apply Forall_repeat; auto.
    + rewrite app_length, repeat_length. lia.
Qed.

Lemma zero_pad_s s x y : wfst s -> Forall (defd s) x -> Forall (defd s) y ->
  oks (zero_pad x y) s (fun p s' => step s s' [] /\ Forall (defd s') (fst p) /\ Forall (defd s') (snd p) /\
                                    length (fst p) = Nat.max (length x) (length y) /\
                                    length (snd p) = Nat.max (length x) (length y)).
Proof.
  intros W Fx Fy. unfold zero_pad. destruct (Nat.eqb (length x) (length y)) eqn:E.
  - apply Nat.eqb_eq in E. apply oks_ret; auto. cbn. split; [apply step_refl|]. repeat split; auto; lia.
  - sbind zero_s. intros z s1 W1 (S1 & Dz). cbv beta. apply oks_ret; auto. cbn.
    split; auto.
    split; [apply Forall_app; split; [eapply Forall_defd_step; eauto|apply Forall_repeat; auto]|].
    split; [apply Forall_app; split; [eapply Forall_defd_step; eauto|apply Forall_repeat; auto]|].
    rewrite !app_length, !repeat_length. lia.
Qed.

(* the replaced positions of z stay pending *)
Lemma zero_tail_s s z k : wfst s ->
  oks (zero_tail z k) s (fun z' s' => step s s' [] /\ length z' = length z /\
                                      firstn k z' = firstn k z /\
                                      Forall (defd s') (skipn k z')).
Proof.
  intros W. unfold zero_tail. destruct (Nat.ltb k (length z)) eqn:E.
  - apply Nat.ltb_lt in E. sbind zero_s. intros zw s1 W1 (S1 & Dz). cbv beta.
    apply oks_ret; auto. split; auto.
    assert (Lf : length (firstn k z) = k) by (rewrite firstn_length; lia).
    split; [rewrite app_length, repeat_length; lia|]. split.
    + rewrite firstn_app, Lf, Nat.sub_diag. cbn. rewrite app_nil_r.
      rewrite firstn_all2 by lia. reflexivity.
    + rewrite skipn_app, Lf, Nat.sub_diag. rewrite skipn_all2 by lia. cbn.
      apply Forall_repeat; auto.
  - apply Nat.ltb_ge in E. apply oks_ret; auto. split; [apply step_refl|].
    split; auto. split; auto. rewrite skipn_all2 by lia. constructor.
Qed.

Lemma zero_pad_firstn_s s x y k : wfst s -> Forall (defd s) x -> Forall (defd s) y ->
  oks (zero_pad x y) s
      (fun p s' => step s s' [] /\
         Forall (defd s') (firstn k (fst p)) /\ Forall (defd s') (firstn k (snd p)) /\
         length (firstn k (fst p)) = Nat.min k (Nat.max (length x) (length y)) /\
         length (firstn k (snd p)) = Nat.min k (Nat.max (length x) (length y))).
Proof.
  intros W Fx Fy. eapply oks_conseq; [apply zero_pad_s; auto|]. cbv beta.
  intros p s' _ (S & F1 & F2 & L1 & L2). rewrite !firstn_length, L1, L2.
  auto using Forall_firstn.
Qed.

Lemma zero_tail_after {X} (body : M X) z k s :
  oks body s (fun _ s' => step s s' (firstn k z) /\ Forall (defd s') (firstn k z)) ->
  oks (body;; zero_tail z k) s
      (fun z' s' => step s s' z /\ Forall (defd s') z' /\ length z' = length z).
Proof.
  intros H. eapply oks_bind; [exact H|]. cbv beta. intros _ s1 W1 (S1 & F1).
  eapply oks_conseq; [apply zero_tail_s; auto|].
  cbv beta. intros z' s2 W2 (S2 & Lz' & Ef & Fk). split; [|split; [|exact Lz']].
  - eapply step_weaken; [exact (step_trans_nil_r _ _ _ _ S1 S2)|]. intros w. apply In_firstn.
  - rewrite <- (firstn_skipn k z'). apply Forall_app. split; [|exact Fk].
    rewrite Ef. eapply Forall_defd_step; eauto.
Qed.

(* A fresh destination vector, filled by [Bd] and then consumed by [K]: seen from
   the starting state only fresh wires were written. *)
Lemma fresh_dest_s {X Y} k (Bd : list wire -> M X) (K : list wire -> X -> M Y) s
      (R : list wire -> X -> st -> Prop) (Q : Y -> st -> Prop) :
  wfst s ->
  (forall z s1, wfst s1 -> step s s1 [] -> Forall (pend s1) z -> NoDup z -> length z = k ->
     oks (Bd z) s1 (fun x s' => step s1 s' z /\ R z x s')) ->
  (forall z x s', wfst s' -> step s s' [] -> length z = k -> R z x s' -> oks (K z x) s' Q) ->
  oks (z <- fresh_n k;; x <- Bd z;; K z x) s Q.
Proof.
  intros W HB HK. sbind fresh_n_s. intros z s1 W1 (S1 & ND & Lk & Pw). cbv beta.
  eapply oks_bind; [apply HB; auto; apply Forall_forall; intros w Hin; apply Pw, Hin|].
  intros x s2 W2 (S2 & HR). cbv beta. apply HK; auto.
  eapply step_weaken_fresh; [exact (step_trans _ _ _ _ _ S1 S2)|].
  intros w Hin. right. apply Pw, Hin.
Qed.

Lemma fresh_wire_s {X Y} (Bd : wire -> M X) (K : wire -> X -> M Y) s
      (R : wire -> X -> st -> Prop) (Q : Y -> st -> Prop) :
  wfst s ->
  (forall w s1, wfst s1 -> step s s1 [] -> pend s1 w ->
     oks (Bd w) s1 (fun x s' => step s1 s' [w] /\ R w x s')) ->
  (forall w x s', wfst s' -> step s s' [] -> R w x s' -> oks (K w x) s' Q) ->
  oks (w <- fresh;; x <- Bd w;; K w x) s Q.
Proof.
  intros W HB HK. sbind fresh_s. intros w s1 W1 (E1 & P1 & S1 & N1). cbv beta.
  eapply oks_bind; [apply HB; auto|].
  intros x s2 W2 (S2 & HR). cbv beta. apply HK; auto.
  eapply step_weaken_fresh; [exact (step_trans _ _ _ _ _ S1 S2)|].
  intros v [<-|[]]. right. lia.
Qed.

Lemma oks_target {A} (m1 m2 : M A) s Q :
  (gmw s = true -> oks m1 s Q) -> (gmw s = false -> oks m2 s Q) ->
  oks (t <- target_gmw;; if t then m1 else m2) s Q.
Proof. unfold oks, bind, target_gmw. destruct (gmw s); auto. Qed.

Lemma wfst_st0 n t : 0 < ninp -> ninp <= n -> wfst (st0 n t).
Proof.
  intros H1 H2. split; [|cbn; repeat split; intros; discriminate].
  cbn. repeat split; auto. intros w M. discriminate.
Qed.

Lemma pend_st0 n t w : ninp <= w -> w < n -> pend (st0 n t) w.
Proof. intros. repeat split; auto. Qed.

End Struct.

Arguments oks {ninp A} m s Q.

Definition optl (c : option wire) : list wire := match c with Some w => [w] | None => [] end.

Ltac sbind L := eapply oks_bind; [ eapply L; eauto | ].
Ltac sincl := intros ?x ?Hx; cbn in Hx |- *; tauto.
(* prove [pend sK w] from [pend s0 w] by walking back along the step hypotheses; at each
   step w is not among the (explicitly listed) written wires by the disequalities and
   bounds in the context *)
Ltac sp :=
  match goal with
  | H : pend ?n ?s ?w |- pend ?n ?s ?w => exact H
  | S : step ?n ?s0 ?s ?wr |- pend ?n ?s ?w =>
      eapply (step_pend n s0 s wr w S);
      [sp | cbn; intuition (subst; try lia; try congruence; eauto)]
  end.
(* prove [defd sK w] / [Forall (defd sK) l] from the same fact at an earlier state,
   walking back along the step hypotheses that end in sK *)
Ltac sdb :=
  match goal with
  | H : defd _ ?s ?w |- defd _ ?s ?w => exact H
  | S : step _ ?s0 ?s _ |- defd _ ?s ?w => apply (step_defd _ _ _ _ _ S); sdb
  end.
Ltac sfd :=
  match goal with
  | H : Forall (defd _ ?s) ?l |- Forall (defd _ ?s) ?l => exact H
  | S : step _ ?s0 ?s _ |- Forall (defd _ ?s) ?l => apply (Forall_defd_step _ _ _ _ _ S); sfd
  end.
(* [step s0 sK []] from a chain of steps that wrote nothing *)
Ltac snil :=
  match goal with
  | |- step _ ?s ?s [] => apply step_refl
  | S : step _ ?s0 ?s [] |- step _ ?s1 ?s [] => apply (step_trans_nil_r _ s1 s0 s []); [snil | exact S]
  end.

(* C07_run_st0 *)
Theorem run_st0 {A} (ninp n : N) (t : bool) (m : M A) (P : A -> env -> Prop) (Q : A -> st -> Prop) :
  okm t m P -> @oks ninp A m (st0 n t) Q ->
  forall e0, exists a s', m (st0 n t) = (a, s') /\
    wfc_b ninp (gates s') = true /\ dbu ninp (gates s') /\ Q a s' /\
    P a (eval_rev (gates s') e0) /\
    (forall w, w < ninp -> eval_rev (gates s') e0 w = e0 w).
Proof.
  intros Hm (a & s' & E & W & HQ) e0.
  destruct (Hm (st0 n t) (wfs_st0 n t) eq_refl) as (a' & s'' & E' & _ & _ & HP).
  rewrite E in E'. inversion E'; subst a' s''.
  destruct W as ((C & D & _) & _).
  exists a, s'. repeat split; auto.
  - apply HP. eapply eval_rev_sat; eauto.
  - intros w Hw. eapply eval_rev_inputs; eauto.
Qed.

Definition wrange (from : N) (n : nat) : list wire := map (fun i => from + N.of_nat i) (seq 0 n).

Lemma wrange_length from n : length (wrange from n) = n.
Proof. unfold wrange. rewrite map_length, seq_length. reflexivity. Qed.

Lemma wrange_In from n w : In w (wrange from n) <-> from <= w /\ w < from + N.of_nat n.
Proof.
  unfold wrange. rewrite in_map_iff. split.
  - intros (i & E & Hi). apply in_seq in Hi. lia.
  - intros (H1 & H2). exists (N.to_nat (w - from)). split; [lia|]. apply in_seq. lia.
Qed.

Lemma wrange_NoDup from n : NoDup (wrange from n).
Proof.
  unfold wrange. apply Injective_map_NoDup; [|apply seq_NoDup].
  intros a b H. lia.
Qed.

Lemma valN_inputs (e e0 : env) ninp ws :
  (forall w, w < ninp -> e w = e0 w) -> (forall w, In w ws -> w < ninp) -> valN e ws = valN e0 ws.
Proof.
  intros H I. unfold valN. f_equal. apply map_ext_in. intros w Hin. apply H, I, Hin.
Qed.

Lemma Forall_defd_inputs ninp s ws : (forall w, In w ws -> w < ninp) -> Forall (defd ninp s) ws.
Proof. intros H. apply Forall_forall. intros w Hin. left. auto. Qed.

Lemma Forall_pend_st0 ninp n t ws :
  (forall w, In w ws -> ninp <= w /\ w < n) -> Forall (pend ninp (st0 n t)) ws.
Proof. intros H. apply Forall_forall. intros w Hin. destruct (H w Hin). apply pend_st0; auto. Qed.

(* The harness layout with two operand vectors x, y on the input wires and zw
   destination wires right after them: a semantic specification P in terms of the
   operand values and a structural lemma give the statement about the evaluated
   circuit, with the operand values read from the initial assignment. *)
Lemma eval2 {A} (tg : bool) (xw yw zw : nat) (B : list wire -> list wire -> list wire -> M A)
      (P : A -> env -> N -> N -> nat -> Prop) (Q : st -> A -> st -> Prop) (e0 : env) :
  let x := wrange 0 xw in
  let y := wrange (N.of_nat xw) yw in
  let ninp := N.of_nat xw + N.of_nat yw in
  let z := wrange ninp zw in
  0 < ninp ->
  okm tg (B x y z) (fun a e => P a e (valN e x) (valN e y) (length z)) ->
  (forall s, gmw s = tg -> wfst ninp s -> Forall (defd ninp s) x -> Forall (defd ninp s) y ->
     Forall (pend ninp s) z -> NoDup z -> @oks ninp A (B x y z) s (Q s)) ->
  exists a s', B x y z (st0 (ninp + N.of_nat zw) tg) = (a, s') /\
    wfc_b ninp (gates s') = true /\ dbu ninp (gates s') /\
    P a (eval_rev (gates s') e0) (valN e0 x) (valN e0 y) zw.
Proof.
  cbv zeta. set (x := wrange 0 xw). set (y := wrange (N.of_nat xw) yw).
  set (ninp := N.of_nat xw + N.of_nat yw). set (z := wrange ninp zw). intros Hn Sem Str.
  assert (Ix : forall w, In w x -> w < ninp) by (intros w H; apply wrange_In in H; lia).
  assert (Iy : forall w, In w y -> w < ninp) by (intros w H; apply wrange_In in H; lia).
  specialize (Str (st0 (ninp + N.of_nat zw) tg) eq_refl ltac:(apply wfst_st0; lia)
                  (Forall_defd_inputs _ _ _ Ix) (Forall_defd_inputs _ _ _ Iy)
                  ltac:(apply Forall_pend_st0; intros w H; apply wrange_In in H; lia)
                  (wrange_NoDup _ _)).
  destruct (run_st0 ninp _ tg _ _ _ Sem Str e0) as (a & s' & E & C & D & _ & HP & I).
  exists a, s'. split; [exact E|]. split; [exact C|]. split; [exact D|].
  rewrite (valN_inputs _ e0 ninp x I Ix), (valN_inputs _ e0 ninp y I Iy) in HP.
  unfold z in HP. rewrite wrange_length in HP. exact HP.
Qed.

(* The same with two destination vectors q, r (the dividers). *)
Lemma eval22 {A} (tg : bool) (aw bw qw rw : nat)
      (B : list wire -> list wire -> list wire -> list wire -> M A)
      (P : A -> env -> N -> N -> Prop) (Q : st -> A -> st -> Prop) (e0 : env) :
  let a := wrange 0 aw in
  let b := wrange (N.of_nat aw) bw in
  let ninp := N.of_nat aw + N.of_nat bw in
  let q := wrange ninp qw in
  let r := wrange (ninp + N.of_nat qw) rw in
  0 < ninp ->
  okm tg (B a b q r) (fun x e => P x e (valN e a) (valN e b)) ->
  (forall s, gmw s = tg -> wfst ninp s -> Forall (defd ninp s) a -> Forall (defd ninp s) b ->
     Forall (pend ninp s) (q ++ r) -> NoDup (q ++ r) -> @oks ninp A (B a b q r) s (Q s)) ->
  exists x s', B a b q r (st0 (ninp + N.of_nat qw + N.of_nat rw) tg) = (x, s') /\
    wfc_b ninp (gates s') = true /\ dbu ninp (gates s') /\
    P x (eval_rev (gates s') e0) (valN e0 a) (valN e0 b) /\
    (forall w, w < ninp -> eval_rev (gates s') e0 w = e0 w).
Proof.
  cbv zeta. set (a := wrange 0 aw). set (b := wrange (N.of_nat aw) bw).
  set (ninp := N.of_nat aw + N.of_nat bw).
  set (q := wrange ninp qw). set (r := wrange (ninp + N.of_nat qw) rw). intros Hn Sem Str.
  assert (Ia : forall w, In w a -> w < ninp) by (intros w H; apply wrange_In in H; lia).
  assert (Ib : forall w, In w b -> w < ninp) by (intros w H; apply wrange_In in H; lia).
  assert (Pqr : Forall (pend ninp (st0 (ninp + N.of_nat qw + N.of_nat rw) tg)) (q ++ r)).
  { apply Forall_pend_st0. intros w H. apply in_app_or in H.
    destruct H as [H|H]; apply wrange_In in H; lia. }
  assert (ND : NoDup (q ++ r)).
  { apply NoDup_app_iff. split; [apply wrange_NoDup|]. split; [apply wrange_NoDup|].
    intros w H1 H2. apply wrange_In in H1. apply wrange_In in H2. lia. }
  specialize (Str (st0 (ninp + N.of_nat qw + N.of_nat rw) tg) eq_refl ltac:(apply wfst_st0; lia)
                  (Forall_defd_inputs _ _ _ Ia) (Forall_defd_inputs _ _ _ Ib) Pqr ND).
  destruct (run_st0 ninp _ tg _ _ _ Sem Str e0) as (x & s' & E & C & D & _ & HP & I).
  exists x, s'. split; [exact E|]. split; [exact C|]. split; [exact D|]. split; [|exact I].
  rewrite (valN_inputs _ e0 ninp a I Ia), (valN_inputs _ e0 ninp b I Ib) in HP. exact HP.
Qed.
