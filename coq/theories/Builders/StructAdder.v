(* C07: structural lemmas (single assignment, defined before use) for
   NewHalfAdder, NewFullAdder and NewMUX, for every width, and the theorem about
   the EVALUATED MUX circuit. *)
From Coq Require Import NArith List Arith Lia.
From Mpc Require Import Builders.Emit Builders.StructProof
  Builders.Adder Builders.Mux Builders.MuxProof.
Import ListNotations.
Open Scope N_scope.

Section A.
Variable ninp : N.
Notation defd := (defd ninp). Notation pend := (pend ninp). Notation wfst := (wfst ninp).
Notation step := (step ninp). Notation oks := (@oks ninp _).

Lemma half_adder_s s a b so c :
  wfst s -> defd s a -> defd s b -> pend s so ->
  (forall cw, c = Some cw -> pend s cw /\ cw <> so) ->
  oks (half_adder a b so c) s
      (fun _ s' => step s s' (so :: optl c) /\ defd s' so /\ forall cw, c = Some cw -> defd s' cw).
Proof.
  intros W Da Db Ps Hc. unfold half_adder.
  sbind emit_s. intros _ s1 W1 (S1 & D1 & _). cbv beta.
  destruct c as [cw|].
  - destruct (Hc cw eq_refl) as (Pc & Nc).
    eapply oks_conseq; [apply emit_s; [auto|sdb|sdb|sp]|].
    cbv beta. intros _ s2 W2 (S2 & D2 & _). split; [|split; [sdb|]].
    + exact (step_trans _ _ _ _ _ _ S1 S2).
    + intros ? [= <-]. auto.
  - apply oks_ret; auto. split; [exact S1|]. split; auto. intros; discriminate.
Qed.

Lemma full_adder_s s a b cin so c :
  wfst s -> defd s a -> defd s b -> defd s cin -> pend s so ->
  (forall cw, c = Some cw -> pend s cw /\ cw <> so) ->
  oks (full_adder a b cin so c) s
      (fun _ s' => step s s' (so :: optl c) /\ defd s' so /\ forall cw, c = Some cw -> defd s' cw).
Proof.
  intros W Da Db Dc Ps Hc. unfold full_adder.
  pose proof (pend_next _ _ _ Ps) as Ls.
  apply oks_fresh; [exact W|]. intros w1 s1 W1 (E1 & P1 & S1 & N1).
  apply oks_fresh; [exact W1|]. intros w2 s2 W2 (E2 & P2 & S2 & N2).
  apply oks_fresh; [exact W2|]. intros w3 s3 W3 (E3 & P3 & S3 & N3).
  eapply oks_then; [apply emit_s; [auto|sdb|sdb|sp]|sincl|]. intros _ s4 W4 S4 (D4 & N4).
  eapply oks_then; [apply emit_s; [auto|sdb|sdb|sp]|sincl|]. intros _ s5 W5 S5 (D5 & N5).
  destruct c as [cw|].
  - destruct (Hc cw eq_refl) as (Pc & Nc). pose proof (pend_next _ _ _ Pc) as Lc.
    eapply oks_then; [apply emit_s; [auto|sdb|sdb|sp]|sincl|]. intros _ s6 W6 S6 (D6 & N6).
    eapply oks_then; [apply emit_s; [auto|sdb|sdb|sp]|sincl|]. intros _ s7 W7 S7 (D7 & N7).
    eapply oks_step_incl with (w1 := [cw]); [|sincl].
    eapply oks_conseq; [apply emit_s; [auto|sdb|sdb|sp]|].
    cbv beta. intros _ s8 W8 (S8 & D8 & N8). split; [exact S8|]. split; [sdb|].
    intros ? [= <-]. auto.
  - apply oks_ret; auto. split; [apply step_nil_any, step_refl|]. split; [sdb|intros; discriminate].
Qed.

Lemma mux_loop_s c : forall t f out s,
  wfst s -> defd s c -> Forall (defd s) t -> Forall (defd s) f ->
  Forall (pend s) out -> NoDup out ->
  oks (mux_loop c t f out) s
      (fun _ s' => step s s' out /\
                   Forall (defd s') (firstn (Nat.min (length t) (length f)) out)).
Proof.
  induction t as [|ti t IH]; intros f out s W Dc Ft Ff Po ND.
  - apply loop_end_s; [exact W|reflexivity].
  - destruct f as [|fi f]; [apply loop_end_s; [exact W|reflexivity]|].
    destruct out as [|oi out]; [cbn; apply oks_ret; auto; split; [apply step_refl|try rewrite firstn_nil; cbn; constructor]|].
    cbn [mux_loop]. inversion Ft; subst. inversion Ff; subst. inversion Po; subst. inversion ND; subst.
    pose proof (pend_next _ _ _ H5) as Lo.
    apply oks_fresh; [exact W|]. intros w1 s1 W1 (E1 & P1 & S1 & N1).
    apply oks_fresh; [exact W1|]. intros w2 s2 W2 (E2 & P2 & S2 & N2).
    eapply oks_then; [apply emit_s; [auto|sdb|sdb|sp]|sincl|]. intros _ s3 W3 S3 (D3 & N3).
    eapply oks_then; [apply emit_s; [auto|sdb|sdb|sp]|sincl|]. intros _ s4 W4 S4 (D4 & N4).
    eapply oks_then; [apply emit_s; [auto|sdb|sdb|sp]|sincl|]. intros _ s5 W5 S5 (D5 & N5).
    assert (Po5 : Forall (pend s5) out).
    { apply Forall_forall. intros w Hin. rewrite Forall_forall in H6. specialize (H6 _ Hin).
      pose proof (pend_next _ _ _ H6) as Lw. assert (w <> oi) by (intro; subst; auto). sp. }
    eapply oks_step_incl with (w1 := out); [|sincl].
    eapply oks_conseq; [apply IH; [auto|sdb|sfd|sfd|auto|auto]|].
    cbv beta. intros _ s6 W6 (S6 & F6). split; [exact S6|].
    cbn [length Nat.min firstn]. constructor; [sdb|exact F6].
Qed.

Lemma new_mux_s s c t f out :
  wfst s -> defd s c -> Forall (defd s) t -> Forall (defd s) f ->
  Forall (pend s) out -> NoDup out -> length out = Nat.max (length t) (length f) ->
  oks (new_mux [c] t f out) s (fun _ s' => step s s' out /\ Forall (defd s') out).
Proof.
  intros W Dc Ft Ff Po ND Lo. unfold new_mux.
  sbind zero_pad_s. intros [t' f'] s1 W1 (S1 & Ft' & Ff' & Lt & Lf). cbn [fst snd] in *. cbv beta.
  replace (Nat.eqb (length [c]) 1) with true by reflexivity.
  replace (Nat.eqb (length t') (length out)) with true by (symmetry; apply Nat.eqb_eq; lia).
  cbn [andb nth].
  assert (Po1 : Forall (pend s1) out).
  { apply Forall_forall. intros w Hin. rewrite Forall_forall in Po. specialize (Po _ Hin). sp. }
  eapply oks_conseq; [apply mux_loop_s; auto; sdb|].
  cbv beta. intros _ s2 W2 (S2 & F2). split.
  - eapply step_trans_nil_l; eauto.
  - rewrite firstn_all2 in F2 by lia. exact F2.
Qed.

End A.

Theorem new_mux_eval (tg : bool) (tw fw : nat) (e0 : env) :
  let c := 0 in
  let t := wrange 1 tw in
  let f := wrange (1 + N.of_nat tw) fw in
  let ninp := 1 + N.of_nat tw + N.of_nat fw in
  let ow := Nat.max tw fw in
  let out := wrange ninp ow in
  exists s', new_mux [c] t f out (st0 (ninp + N.of_nat ow) tg) = (tt, s') /\
    wfc_b ninp (gates s') = true /\ dbu ninp (gates s') /\
    valN (eval_rev (gates s') e0) out = if e0 c then valN e0 t else valN e0 f.
Proof.
  cbv zeta.
  set (t := wrange 1 tw). set (f := wrange (1 + N.of_nat tw) fw).
  set (ninp := 1 + N.of_nat tw + N.of_nat fw). set (ow := Nat.max tw fw).
  set (out := wrange ninp ow).
  assert (It : forall w, In w t -> w < ninp) by (intros w H; apply wrange_In in H; lia).
  assert (If : forall w, In w f -> w < ninp) by (intros w H; apply wrange_In in H; lia).
  assert (Lo : length out = Nat.max (length t) (length f))
    by (unfold out, t, f; rewrite !wrange_length; reflexivity).
  pose proof (okm_new_mux tg 0 t f out Lo) as Sem.
  assert (Str : @oks ninp unit (new_mux [0] t f out) (st0 (ninp + N.of_nat ow) tg)
                  (fun _ s' => step ninp (st0 (ninp + N.of_nat ow) tg) s' out /\ Forall (defd ninp s') out)).
  { apply new_mux_s; auto.
    - apply wfst_st0; lia.
    - left. lia.
    - apply Forall_defd_inputs; auto.
    - apply Forall_defd_inputs; auto.
    - apply Forall_pend_st0. intros w H. apply wrange_In in H. lia.
    - apply wrange_NoDup. }
  destruct (run_st0 ninp _ tg _ _ _ Sem Str e0) as ([] & s' & E & C & D & _ & P & I).
  exists s'. split; [exact E|]. split; [exact C|]. split; [exact D|].
  rewrite P, (I 0) by lia.
  rewrite (valN_inputs _ e0 ninp t I It), (valN_inputs _ e0 ninp f I If). reflexivity.
Qed.
