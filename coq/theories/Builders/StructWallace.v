(* C07: structural lemmas (single assignment, defined before use) for
   NewWallaceMultiplier (and the GMW-target NewMultiplier), for every width and
   target, and the theorem about the EVALUATED multiplier circuit.
   Invariant of the column helpers: every wire in every column is defined. *)
From Coq Require Import NArith List Lia.
From Mpc Require Import Builders.Emit Builders.StructProof Builders.Mult Builders.WallaceProof
  Builders.StructAdder Builders.StructKs.
Import ListNotations.
Open Scope N_scope.

Lemma add_col_length cols k w : length (add_col cols k w) = length cols.
Proof.
  revert k. induction cols as [|c r IH]; intros k; [reflexivity|].
  destruct k; cbn; [reflexivity|]. rewrite IH. reflexivity.
Qed.

Lemma add_col_Forall (P : wire -> Prop) cols k w :
  Forall (Forall P) cols -> P w -> Forall (Forall P) (add_col cols k w).
Proof.
  revert k. induction cols as [|c r IH]; intros k F Pw; [constructor|].
  inversion F; subst. destruct k; cbn.
  - constructor; auto. apply Forall_app. split; auto.
  - constructor; auto.
Qed.

Lemma FF_step ninp s s' wr cols :
  step ninp s s' wr -> Forall (Forall (defd ninp s)) cols -> Forall (Forall (defd ninp s')) cols.
Proof. apply FF_defd_step. Qed.

(* the column invariant at the end of a chain of step hypotheses *)
Ltac sFF :=
  match goal with
  | H : Forall (Forall (defd _ ?s)) ?l |- Forall (Forall (defd _ ?s)) ?l => exact H
  | S : step _ ?s0 ?s _ |- Forall (Forall (defd _ ?s)) ?l => apply (FF_defd_step _ _ _ _ _ S); sFF
  end.

Section W.
Variable ninp : N.
Notation defd := (defd ninp). Notation pend := (pend ninp). Notation wfst := (wfst ninp).
Notation step := (step ninp). Notation oks := (@oks ninp _).

Lemma wal_pp_row_s ai : forall bs k cols s, wfst s -> defd s ai -> Forall (defd s) bs ->
  Forall (Forall (defd s)) cols ->
  oks (wal_pp_row ai bs k cols) s
      (fun cols' s' => step s s' [] /\ Forall (Forall (defd s')) cols' /\ length cols' = length cols).
Proof.
  induction bs as [|bj bs IH]; intros k cols s W Da Fb Fc.
  - cbn. apply oks_ret; auto. split; [apply step_refl|]. auto.
  - cbn [wal_pp_row]. inversion Fb; subst.
    apply gate_s; auto. intros w s1 W1 S1 D1.
    apply (oks_after _ _ s s1 _ _ S1).
    eapply oks_conseq; [apply IH; [auto|sdb|sfd|]|].
    + apply add_col_Forall; [|exact D1]. sFF.
    + cbv beta. intros cols' s2 W2 (S2 & F2 & L2). rewrite add_col_length in L2. auto.
Qed.

Lemma wal_pp_s : forall a_ b i cols s, wfst s -> Forall (defd s) a_ -> Forall (defd s) b ->
  Forall (Forall (defd s)) cols ->
  oks (wal_pp a_ b i cols) s
      (fun cols' s' => step s s' [] /\ Forall (Forall (defd s')) cols' /\ length cols' = length cols).
Proof.
  induction a_ as [|ai a_ IH]; intros b i cols s W Fa Fb Fc.
  - cbn. apply oks_ret; auto. split; [apply step_refl|]. auto.
  - cbn [wal_pp]. inversion Fa; subst.
    eapply oks_bind; [apply wal_pp_row_s; auto|]. intros c1 s1 W1 (S1 & F1 & L1). cbv beta.
    eapply oks_conseq; [apply IH; [auto|sfd|sfd|auto]|].
    cbv beta. intros c2 s2 W2 (S2 & F2 & L2). split; [|split; [auto|congruence]].
    exact (step_trans_nil_l _ _ _ _ _ S1 S2).
Qed.

Lemma wal_col_s : forall fuel col s, wfst s -> Forall (defd s) col ->
  oks (wal_col fuel col) s
      (fun p s' => step s s' [] /\ Forall (defd s') (fst p) /\ Forall (defd s') (snd p)).
Proof.
  induction fuel as [|f IH]; intros col s W F.
  - cbn. apply oks_ret; auto. cbn. split; [apply step_refl|]. auto.
  - cbn [wal_col].
    destruct col as [|u [|v [|w rest]]].
    + apply oks_ret; auto. cbn. split; [apply step_refl|]. auto.
    + apply oks_ret; auto. cbn. split; [apply step_refl|]. auto.
    + inversion F as [|? ? Du F']; subst. inversion F' as [|? ? Dv _]; subst.
      apply oks_fresh; [exact W|]. intros so s1 W1 (E1 & P1 & S1 & N1).
      apply oks_fresh; [exact W1|]. intros c s2 W2 (E2 & P2 & S2 & N2).
      eapply oks_then; [apply half_adder_s; [auto|sdb|sdb|sp|]|sincl|].
      { intros cw [= <-]. split; [auto|]. unfold wire in *. lia. }
      intros u3 s3 W3 S3 (D3 & D3'). specialize (D3' _ eq_refl).
      apply oks_ret; auto. cbn [fst snd]. split; [apply step_nil_any, step_refl|].
      split; constructor; auto.
    + inversion F as [|? ? Du F']; subst. inversion F' as [|? ? Dv F'']; subst.
      inversion F'' as [|? ? Dw Fr]; subst.
      apply oks_fresh; [exact W|]. intros so s1 W1 (E1 & P1 & S1 & N1).
      apply oks_fresh; [exact W1|]. intros c s2 W2 (E2 & P2 & S2 & N2).
      eapply oks_then; [apply full_adder_s; [auto|sdb|sdb|sdb|sp|]|sincl|].
      { intros cw [= <-]. split; [auto|]. unfold wire in *. lia. }
      intros u3 s3 W3 S3 (D3 & D3'). specialize (D3' _ eq_refl).
      eapply oks_then; [apply IH; [auto|sfd]|sincl|].
      intros [ss cs] s4 W4 S4 (Fs & Fcs). cbn [fst snd] in *.
      apply oks_ret; auto. cbn [fst snd]. split; [apply step_nil_any, step_refl|].
      split; constructor; auto; sdb.
Qed.

Lemma wal_round_s : forall cols cin s, wfst s -> Forall (Forall (defd s)) cols -> Forall (defd s) cin ->
  oks (wal_round cols cin) s
      (fun cols' s' => step s s' [] /\ Forall (Forall (defd s')) cols' /\ length cols' = length cols).
Proof.
  induction cols as [|col rest IH]; intros cin s W Fc Fi.
  - cbn. apply oks_ret; auto. split; [apply step_refl|]. auto.
  - cbn [wal_round]. inversion Fc; subst.
    eapply oks_bind; [apply wal_col_s; auto|].
    intros [ss cs] s1 W1 (S1 & Fs & Fcs). cbn [fst snd] in *. cbv beta.
    eapply oks_bind; [apply IH; [auto|sFF|auto]|].
    intros rest' s2 W2 (S2 & Fr & Lr). cbv beta.
    apply oks_ret; auto. split; [|split; [|cbn; congruence]].
    + eapply step_weaken; [eapply step_trans; eauto|]. apply incl_refl.
    + constructor; [|auto]. apply Forall_app. split; sfd.
Qed.

Lemma wal_reduce_s : forall fuel cols s, wfst s -> Forall (Forall (defd s)) cols ->
  oks (wal_reduce fuel cols) s
      (fun cols' s' => step s s' [] /\ Forall (Forall (defd s')) cols' /\ length cols' = length cols).
Proof.
  induction fuel as [|f IH]; intros cols s W Fc.
  - cbn. apply oks_ret; auto. split; [apply step_refl|]. auto.
  - cbn [wal_reduce]. destruct (Nat.ltb 2 (max_height cols)).
    + eapply oks_bind; [apply wal_round_s; auto|]. intros c1 s1 W1 (S1 & F1 & L1). cbv beta.
      eapply oks_conseq; [apply IH; auto|].
      cbv beta. intros c2 s2 W2 (S2 & F2 & L2). split; [|split; [auto|congruence]].
      eapply step_weaken; [eapply step_trans; eauto|]. apply incl_refl.
    + apply oks_ret; auto. split; [apply step_refl|]. auto.
Qed.

Lemma wal_rows_s : forall cols s, wfst s -> Forall (Forall (defd s)) cols ->
  oks (wal_rows cols) s
      (fun p s' => step s s' [] /\ Forall (defd s') (fst p) /\ Forall (defd s') (snd p) /\
                   length (fst p) = length cols /\ length (snd p) = length cols).
Proof.
  induction cols as [|col rest IH]; intros s W Fc.
  - cbn. apply oks_ret; auto. cbn. split; [apply step_refl|]. auto.
  - cbn [wal_rows]. inversion Fc as [|? ? Fcol Frest]; subst.
    eapply (oks_bind _ _ _ _ (fun r1 s1 => step s s1 [] /\ defd s1 r1)).
    { destruct col as [|w ?]; [apply zero_s; auto|].
      apply oks_ret; auto. split; [apply step_refl|]. inversion Fcol; auto. }
    intros r1 s1 W1 (S1 & D1). cbv beta.
    eapply (oks_bind _ _ _ _ (fun r2 s2 => step s1 s2 [] /\ defd s2 r2)).
    { destruct col as [|w [|w' ?]]; try (apply zero_s; auto).
      apply oks_ret; auto. split; [apply step_refl|].
      inversion Fcol as [|? ? _ Fc']; subst. inversion Fc'; subst. sdb. }
    intros r2 s2 W2 (S2 & D2). cbv beta.
    eapply oks_bind; [apply IH; [auto|sFF]|].
    intros [a b] s3 W3 (S3 & Fa & Fb & La & Lb). cbn [fst snd] in *. cbv beta.
    apply oks_ret; auto. cbn [fst snd length].
    split; [|split; [constructor; [sdb|auto]|split; [constructor; [sdb|auto]|lia]]].
    exact (step_trans_nil_l _ _ _ _ _ S1 (step_trans_nil_l _ _ _ _ _ S2 S3)).
Qed.

Lemma FF_repeat_nil s k : Forall (Forall (defd s)) (repeat [] k).
Proof. apply Forall_forall. intros c H. apply repeat_spec in H. subst. constructor. Qed.

(* only r is written, by the final Kogge-Stone adder *)
Lemma wallace_multiplier_s s a b r :
  wfst s -> Forall (defd s) a -> Forall (defd s) b -> Forall (pend s) r -> NoDup r ->
  (1 <= length r)%nat ->
  oks (wallace_multiplier a b r) s
      (fun r' s' => step s s' r /\ Forall (defd s') r' /\ length r' = length r).
Proof.
  intros W Fa Fb Pr ND Hr. unfold wallace_multiplier. cbv zeta.
  sbind pad_s. intros a1 s1 W1 (S1 & Fa1 & La1). cbv beta.
  eapply oks_bind; [apply pad_s; [auto|sfd]|]. intros b1 s2 W2 (S2 & Fb1 & Lb1). cbv beta.
  eapply oks_bind; [apply wal_pp_s; [auto|apply Forall_firstn; sfd|apply Forall_firstn; sfd|apply FF_repeat_nil]|].
  intros c3 s3 W3 (S3 & F3 & L3). cbv beta.
  eapply oks_bind; [apply wal_reduce_s; auto|]. intros c4 s4 W4 (S4 & F4 & L4). cbv beta.
  eapply oks_bind; [apply wal_rows_s; [auto|apply Forall_firstn; exact F4]|].
  intros [row1 row2] s5 W5 (S5 & F51 & F52 & L51 & L52). cbn [fst snd] in *. cbv beta.
  rewrite repeat_length in L3.
  assert (Lr : length row1 = length r /\ length row2 = length r).
  { rewrite L51, L52, firstn_length. lia. }
  assert (Pr5 : Forall (pend s5) r).
  { do 5 (eapply Forall_pend_step0; [eassumption|]). exact Pr. }
  apply (oks_after _ _ s s5); [|apply ks_adder_s; auto; lia].
  exact (step_trans_nil_l _ _ _ _ _ S1 (step_trans_nil_l _ _ _ _ _ S2 (step_trans_nil_l _ _ _ _ _ S3
           (step_trans_nil_l _ _ _ _ _ S4 S5)))).
Qed.

Lemma new_multiplier_gmw_s tbl thr s x y z :
  gmw s = true ->
  wfst s -> Forall (defd s) x -> Forall (defd s) y -> Forall (pend s) z -> NoDup z ->
  (1 <= length z)%nat ->
  oks (new_multiplier tbl thr x y z) s
      (fun z' s' => step s s' z /\ Forall (defd s') z' /\ length z' = length z).
Proof.
  intros G W Fx Fy Pz ND Hz. apply oks_target; [intros _|congruence].
  apply wallace_multiplier_s; auto.
Qed.

End W.

Theorem wallace_multiplier_eval (tg : bool) (xw yw zw : nat) (e0 : env) :
  (1 <= zw)%nat -> (1 <= xw + yw)%nat ->
  let x := wrange 0 xw in
  let y := wrange (N.of_nat xw) yw in
  let ninp := N.of_nat xw + N.of_nat yw in
  let z := wrange ninp zw in
  exists z' s', wallace_multiplier x y z (st0 (ninp + N.of_nat zw) tg) = (z', s') /\
    wfc_b ninp (gates s') = true /\ dbu ninp (gates s') /\
    length z' = zw /\
    valN (eval_rev (gates s') e0) z' = (valN e0 x * valN e0 y) mod 2 ^ N.of_nat zw.
Proof.
  intros Hz Hm.
  eapply (eval2 tg xw yw zw wallace_multiplier
            (fun z' e a b n => length z' = n /\ valN e z' = (a * b) mod 2 ^ N.of_nat n)); [lia| |].
  - apply okm_wallace_multiplier; rewrite ?wrange_length; lia.
  - intros s G W Fx Fy Pz ND. apply wallace_multiplier_s; rewrite ?wrange_length; auto.
Qed.

Corollary new_multiplier_gmw_eval tbl thr (xw yw zw : nat) (e0 : env) :
  (1 <= zw)%nat -> (1 <= xw + yw)%nat ->
  let x := wrange 0 xw in
  let y := wrange (N.of_nat xw) yw in
  let ninp := N.of_nat xw + N.of_nat yw in
  let z := wrange ninp zw in
  exists z' s', new_multiplier tbl thr x y z (st0 (ninp + N.of_nat zw) true) = (z', s') /\
    wfc_b ninp (gates s') = true /\ dbu ninp (gates s') /\
    length z' = zw /\
    valN (eval_rev (gates s') e0) z' = (valN e0 x * valN e0 y) mod 2 ^ N.of_nat zw.
Proof. exact (wallace_multiplier_eval true xw yw zw e0). Qed.
