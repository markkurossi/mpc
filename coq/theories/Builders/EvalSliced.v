(* Bit-sliced gate-by-gate evaluation.  A wire carries an N whose
   bit k is the value of the wire under the k-th of [len] input assignments, so
   one pass over the gate list evaluates the circuit on all of them at once.
   Slice k of the result is Emit.eval_rev from the k-th assignment
   ([evalw_correct]).  The statement to use is [sliced_check] at the end: if the
   boolean [outs_agree (evalw gs ins envs len) valid f len outs] evaluates to
   true, then for every assignment k < len that [valid] selects, eval_rev reads
   f k (modulo 2^|outs|) on the wires [outs]. *)
From Coq Require Import NArith List Bool Arith FMapPositive Lia.
From Mpc Require Import Builders.Emit Builders.EvalFast Builders.EvalFastProof
  Builders.CmpProof.
Import ListNotations.
Open Scope N_scope.

Definition wmap := PositiveMap.t N.
Definition wget (m : wmap) (w : wire) : N :=
  match PositiveMap.find (wkey w) m with Some x => x | None => 0 end.
Definition slice (m : wmap) (k : N) : env := fun w => N.testbit (wget m w) k.

(* [mask] has a one in every slice; words never grow beyond it *)
Definition gsemw (mask : N) (op : gop) (a b : N) : N :=
  match op with
  | XOR => N.lxor a b
  | XNOR => N.lxor mask (N.lxor a b)
  | AND => N.land a b
  | OR => N.lor a b
  | INV => N.lxor mask a
  end.

Fixpoint evalw_rev (mask : N) (gs : list gate) (m0 : wmap) : wmap :=
  match gs with
  | [] => m0
  | g :: r =>
      let m := evalw_rev mask r m0 in
      PositiveMap.add (wkey (g_o g)) (gsemw mask (g_op g) (wget m (g_a g)) (wget m (g_b g))) m
  end.

Lemma gsemw_spec K op a b k : k < K ->
  N.testbit (gsemw (N.ones K) op a b) k = gsem op (N.testbit a k) (N.testbit b k).
Proof.
  intros L. destruct op; cbn [gsemw gsem];
    rewrite ?N.lxor_spec, ?N.land_spec, ?N.lor_spec, ?(N.ones_spec_low K k L), ?xorb_true_l;
    reflexivity.
Qed.

Lemma evalw_rev_slice K gs m0 k w : k < K ->
  slice (evalw_rev (N.ones K) gs m0) k w = eval_rev gs (slice m0 k) w.
Proof.
  intros L. revert w. induction gs as [|g r IH]; intros w; cbn [evalw_rev eval_rev]; [reflexivity|].
  unfold upd, gate_val, slice, wget at 1. destruct (N.eqb w (g_o g)) eqn:E.
  - apply N.eqb_eq in E. subst w. rewrite PositiveMap.gss, (gsemw_spec K _ _ _ k L).
    f_equal; apply IH.
  - apply N.eqb_neq in E. rewrite PositiveMap.gso; [apply IH|].
    intros H. apply wkey_inj in H. congruence.
Qed.

Lemma eval_rev_ext gs e e' : (forall w, e w = e' w) -> forall w, eval_rev gs e w = eval_rev gs e' w.
Proof.
  intros H. induction gs as [|g r IH]; intros w; cbn [eval_rev]; [apply H|].
  unfold upd, gate_val. rewrite !IH. reflexivity.
Qed.

Fixpoint nrange (len : nat) (k : N) : list N :=
  match len with O => [] | S l => k :: nrange l (N.succ k) end.
Definition word_of (f : N -> bool) (len : nat) : N := to_N (map f (nrange len 0)).

Lemma nrange_nth len : forall s i d, (i < len)%nat -> nth i (nrange len s) d = s + N.of_nat i.
Proof.
  induction len as [|l IH]; intros s [|i] d L; cbn [nrange nth]; try lia.
  rewrite IH by lia. lia.
Qed.

Lemma nrange_length len s : length (nrange len s) = len.
Proof. revert s. induction len as [|l IH]; intros s; cbn [nrange length]; [|rewrite IH]; reflexivity. Qed.

Lemma word_of_spec f len k : k < N.of_nat len -> N.testbit (word_of f len) k = f k.
Proof.
  intros L. unfold word_of. rewrite <- (N2Nat.id k) at 1. rewrite testbit_to_N.
  rewrite (nth_indep _ false (f 0)) by (rewrite map_length, nrange_length; lia).
  rewrite map_nth, nrange_nth by lia. f_equal. lia.
Qed.

Definition slice_inputs (ins : list wire) (envs : N -> env) (len : nat) : wmap :=
  fold_right (fun w m => PositiveMap.add (wkey w) (word_of (fun k => envs k w) len) m)
             (PositiveMap.empty N) ins.

Lemma slice_inputs_spec ins envs len k w : k < N.of_nat len ->
  slice (slice_inputs ins envs len) k w = if existsb (N.eqb w) ins then envs k w else false.
Proof.
  intros L. unfold slice, wget. induction ins as [|i r IH]; cbn [slice_inputs fold_right existsb].
  - rewrite PositiveMap.gempty. apply N.bits_0.
  - destruct (N.eqb w i) eqn:E; cbn [orb].
    + apply N.eqb_eq in E. subst i. rewrite PositiveMap.gss. apply (word_of_spec (fun k => envs k w)), L.
    + apply N.eqb_neq in E. rewrite PositiveMap.gso; [exact IH|].
      intros H. apply wkey_inj in H. congruence.
Qed.

Definition evalw (gs : list gate) (ins : list wire) (envs : N -> env) (len : nat) : wmap :=
  evalw_rev (N.ones (N.of_nat len)) gs (slice_inputs ins envs len).

Theorem evalw_correct gs ins envs len k : k < N.of_nat len ->
  (forall w, existsb (N.eqb w) ins = false -> envs k w = false) ->
  forall w, slice (evalw gs ins envs len) k w = eval_rev gs (envs k) w.
Proof.
  intros L Z w. unfold evalw. rewrite (evalw_rev_slice _ _ _ _ _ L). apply eval_rev_ext.
  intros x. rewrite (slice_inputs_spec _ _ _ _ _ L).
  destruct (existsb (N.eqb x) ins) eqn:E; [reflexivity|]. symmetry. apply Z, E.
Qed.

Definition outs_agree (m : wmap) (valid : N -> bool) (f : N -> N) (len : nat) (outs : list wire) : bool :=
  let v := word_of valid len in
  forallb (fun j => N.eqb (N.land (N.lxor (wget m (nth j outs 0))
                                          (word_of (fun k => N.testbit (f k) (N.of_nat j)) len)) v) 0)
          (seq 0 (length outs)).

Lemma outs_agree_spec m valid f len outs k :
  outs_agree m valid f len outs = true -> k < N.of_nat len -> valid k = true ->
  valN (slice m k) outs = f k mod 2 ^ N.of_nat (length outs).
Proof.
  intros A L V. unfold outs_agree in A. cbv zeta in A. rewrite forallb_forall in A.
  apply N.bits_inj. intros i. rewrite <- (N2Nat.id i).
  destruct (Nat.lt_ge_cases (N.to_nat i) (length outs)) as [Li|Li].
  - rewrite testbit_valN_in, N.mod_pow2_bits_low by lia.
    specialize (A (N.to_nat i) (proj2 (in_seq _ _ _) (conj (Nat.le_0_l _) Li))).
    apply N.eqb_eq in A. apply (f_equal (fun x => N.testbit x k)) in A.
    rewrite N.land_spec, N.lxor_spec, !word_of_spec, V, N.bits_0, andb_true_r in A by exact L.
    apply xorb_eq, A.
  - rewrite testbit_valN_out, N.mod_pow2_bits_high by lia. reflexivity.
Qed.

Theorem sliced_check gs ins envs len valid f outs k e0 :
  outs_agree (evalw gs ins envs len) valid f len outs = true ->
  k < N.of_nat len -> valid k = true ->
  (forall w, existsb (N.eqb w) ins = false -> envs k w = false) ->
  (forall w, e0 w = envs k w) ->
  valN (eval_rev gs e0) outs = f k mod 2 ^ N.of_nat (length outs).
Proof.
  intros A L V Z E. rewrite <- (outs_agree_spec _ _ _ _ _ _ A L V). unfold valN. f_equal.
  apply map_ext. intros w. rewrite (evalw_correct _ _ _ _ _ L Z). apply eval_rev_ext, E.
Qed.
