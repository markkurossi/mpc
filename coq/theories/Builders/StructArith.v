(* C07: structural lemmas (single assignment, defined before use) for
   the ripple-carry adder and the ripple-borrow subtractor and for NewAdder /
   NewSubtractor on either target, for every width, and the theorems about the
   EVALUATED ripple circuits. *)
From Coq Require Import NArith List Lia.
From Mpc Require Import Builders.Emit Builders.StructProof Builders.StructAdder
  Builders.StructKs Builders.Adder Builders.Sub Builders.AdderProof Builders.SubProof.
Import ListNotations.
Open Scope N_scope.

(* the destinations of the ripple loops: z[0..n-1] and, if it exists, z[n] *)
Lemma firstn_last_eq (z : list wire) : forall n,
  firstn n z ++ optl (if Nat.ltb n (length z) then Some (nth n z 0) else None) = firstn (n + 1) z.
Proof.
  induction z as [|a z IH]; intros n.
  - destruct n; reflexivity.
  - destruct n as [|n].
    + reflexivity.
    + cbn [firstn length nth Nat.add app].
      change (Nat.ltb (S n) (S (length z))) with (Nat.ltb n (length z)).
      rewrite IH. reflexivity.
Qed.

Section A.
Variable ninp : N.
Notation defd := (defd ninp). Notation pend := (pend ninp). Notation wfst := (wfst ninp).
Notation step := (step ninp). Notation oks := (@oks ninp _).

(* The carry / borrow chain of NewAdder and NewSubtractor: a loop that applies
   [cell] at every position, handing a fresh carry wire to the next one; [last]
   is the carry destination of the last position. *)
Definition chain_spec (loop : list wire -> list wire -> list wire -> wire -> option wire -> M unit) : Prop :=
  forall xs x ys zs cin last s,
  wfst s -> Forall (defd s) (x :: xs) -> Forall (defd s) ys -> defd s cin ->
  length ys = length (x :: xs) -> (length (x :: xs) <= length zs)%nat ->
  Forall (pend s) (firstn (length (x :: xs)) zs ++ optl last) ->
  NoDup (firstn (length (x :: xs)) zs ++ optl last) ->
  oks (loop (x :: xs) ys zs cin last) s
      (fun _ s' => step s s' (firstn (length (x :: xs)) zs ++ optl last) /\
                   Forall (defd s') (firstn (length (x :: xs)) zs ++ optl last)).

Section Chain.
Variable cell : wire -> wire -> wire -> wire -> option wire -> M unit.
Variable loop : list wire -> list wire -> list wire -> wire -> option wire -> M unit.
Hypothesis cell_s : forall s a b cin so c,
  wfst s -> defd s a -> defd s b -> defd s cin -> pend s so ->
  (forall cw, c = Some cw -> pend s cw /\ cw <> so) ->
  oks (cell a b cin so c) s
      (fun _ s' => step s s' (so :: optl c) /\ defd s' so /\ forall cw, c = Some cw -> defd s' cw).
Hypothesis loop_last : forall x y ys z zs cin last,
  loop [x] (y :: ys) (z :: zs) cin last = cell x y cin z last.
Hypothesis loop_cons : forall x x2 xs y ys z zs cin last,
  loop (x :: x2 :: xs) (y :: ys) (z :: zs) cin last =
  (cout <- fresh;; cell x y cin z (Some cout);; loop (x2 :: xs) ys zs cout last).

Lemma chain_loop_s : chain_spec loop.
Proof.
  unfold chain_spec. induction xs as [|x2 xs IH]; intros x ys zs cin last s W Fx Fy Dc Ly Lz Po ND;
    (destruct ys as [|y ys]; [discriminate|]); (destruct zs as [|z zs]; [cbn in Lz; lia|]);
    cbn [length firstn app] in Po, ND, Ly, Lz |- *;
    apply Forall_cons_iff in Fx as (Dx & Fx'); apply Forall_cons_iff in Fy as (Dy & Fy');
    apply Forall_cons_iff in Po as (Pz & PD); apply NoDup_cons_iff in ND as (NzD & NDD).
  - rewrite loop_last. eapply oks_conseq; [apply cell_s; auto|].
    + intros cw ->. apply Forall_cons_iff in PD as (Pc & _). split; [exact Pc|].
      intros ->. apply NzD. left. reflexivity.
    + cbv beta. intros _ s1 W1 (S1 & D1 & D2). split; auto. constructor; auto.
      destruct last as [cw|]; cbn; auto.
  - rewrite loop_cons.
    set (D := firstn (length (x2 :: xs)) zs ++ optl last) in *.
    pose proof (pend_next _ _ _ Pz) as Lo.
    apply oks_fresh; [exact W|]. intros cout s1 W1 (E1 & P1 & S1 & N1).
    eapply oks_then; [apply cell_s; [auto|sdb|sdb|sdb|sp|]|sincl|].
    { intros cw [= <-]. split; [auto|lia]. }
    intros _ s2 W2 S2 (D2 & D3). specialize (D3 _ eq_refl).
    assert (Po2 : Forall (pend s2) D).
    { apply Forall_forall. intros w Hin. rewrite Forall_forall in PD. specialize (PD _ Hin).
      pose proof (pend_next _ _ _ PD) as Lw. assert (w <> z) by (intro; subst; auto). sp. }
    eapply oks_step_incl with (w1 := D); [|sincl].
    eapply oks_conseq; [apply IH; auto; try (cbn in Ly, Lz |- *; lia); sfd|].
    cbv beta. intros _ s3 W3 (S3 & F3). split; [exact S3|]. constructor; [sdb|exact F3].
Qed.
End Chain.

Lemma adder_loop_s : chain_spec adder_loop.
Proof. apply (chain_loop_s full_adder adder_loop (full_adder_s ninp)); reflexivity. Qed.

Lemma ripple_core_s s x0 xs y0 ys z0 zs last :
  wfst s -> Forall (defd s) (x0 :: xs) -> Forall (defd s) (y0 :: ys) ->
  length ys = length xs -> (length xs <= length zs)%nat ->
  Forall (pend s) (firstn (S (length xs)) (z0 :: zs) ++ optl last) ->
  NoDup (firstn (S (length xs)) (z0 :: zs) ++ optl last) ->
  oks (match xs with
       | [] => half_adder x0 y0 z0 last
       | _ :: _ => bind fresh (fun cin => bind (half_adder x0 y0 z0 (Some cin))
                                            (fun _ => adder_loop xs ys zs cin last))
       end) s
      (fun _ s' => step s s' (firstn (S (length xs)) (z0 :: zs) ++ optl last) /\
                   Forall (defd s') (firstn (S (length xs)) (z0 :: zs) ++ optl last)).
Proof.
  intros W Fx Fy Ly Lz Po ND.
  cbn [firstn app] in Po, ND |- *.
  apply Forall_cons_iff in Fx as (Dx & Fx'). apply Forall_cons_iff in Fy as (Dy & Fy').
  apply Forall_cons_iff in Po as (Pz & PD). apply NoDup_cons_iff in ND as (NzD & NDD).
  pose proof (pend_next _ _ _ Pz) as Lo.
  destruct xs as [|x1 xs'].
  - cbn [length firstn app] in *.
    eapply oks_conseq; [apply half_adder_s; auto|].
    + intros cw ->. cbn in *. apply Forall_cons_iff in PD as (Pc & _). split; auto;
      try (intro; subst; apply NzD; auto).
    + cbv beta. intros _ s1 W1 (S1 & D1 & D2). split; auto. constructor; auto.
      destruct last as [cw|]; cbn; auto.
  - remember (x1 :: xs') as xs eqn:Exs.
    set (D := firstn (length xs) zs ++ optl last) in *.
    apply oks_fresh; [exact W|]. intros cin s1 W1 (E1 & P1 & S1 & N1).
    eapply oks_then; [apply half_adder_s; [auto|sdb|sdb|sp|]|sincl|].
    { intros cw [= <-]. split; [auto|lia]. }
    intros _ s2 W2 S2 (D2 & D3). specialize (D3 _ eq_refl).
    assert (Po2 : Forall (pend s2) D).
    { apply Forall_forall. intros w Hin. rewrite Forall_forall in PD. specialize (PD _ Hin).
      pose proof (pend_next _ _ _ PD) as Lw. assert (w <> z0) by (intro; subst; auto). sp. }
    subst xs.
    eapply oks_step_incl with (w1 := D); [|sincl].
    eapply oks_conseq; [apply adder_loop_s; auto; try (cbn in Ly, Lz |- *; lia); sfd|].
    cbv beta. intros _ s3 W3 (S3 & F3). split; [exact S3|]. constructor; [sdb|exact F3].
Qed.

Lemma ripple_adder_s s x y z :
  wfst s -> Forall (defd s) x -> Forall (defd s) y -> Forall (pend s) z -> NoDup z ->
  (1 <= length z)%nat -> (1 <= Nat.max (length x) (length y))%nat ->
  oks (ripple_adder x y z) s
      (fun z' s' => step s s' z /\ Forall (defd s') z' /\ length z' = length z).
Proof.
  intros W Fx Fy Pz ND Hz Hm. unfold ripple_adder.
  eapply oks_bind; [apply (zero_pad_firstn_s _ _ _ _ (length z)); auto|].
  intros [x' y'] s1 W1 (S1 & Fx2 & Fy2 & Lx2 & Ly2). cbn [fst snd] in *. cbv beta iota zeta.
  apply (oks_after _ _ s s1 _ _ S1).
  destruct (firstn (length z) x') as [|x0 xs]; [cbn in Lx2; lia|].
  destruct (firstn (length z) y') as [|y0 ys]; [cbn in Ly2; lia|].
  destruct z as [|z0 zs]; [cbn in Hz; lia|].
  apply zero_tail_after. rewrite <- firstn_last_eq. cbn [length] in Lx2, Ly2.
  apply (ripple_core_s s1 x0 xs y0 ys z0 zs); auto; try lia;
    change (S (length xs)) with (length (x0 :: xs)); rewrite firstn_last_eq.
  - apply Forall_firstn. eapply Forall_pend_step0; eauto.
  - apply NoDup_firstn; auto.
Qed.

Lemma new_adder_s s x y z :
  wfst s -> Forall (defd s) x -> Forall (defd s) y -> Forall (pend s) z -> NoDup z ->
  (1 <= length z)%nat -> (1 <= Nat.max (length x) (length y))%nat ->
  oks (new_adder x y z) s
      (fun z' s' => step s s' z /\ Forall (defd s') z' /\ length z' = length z).
Proof.
  intros W Fx Fy Pz ND Hz Hm.
  apply oks_target; intros _; [apply ks_adder_s|apply ripple_adder_s]; auto.
Qed.

Lemma full_subtractor_s s x y cin d c :
  wfst s -> defd s x -> defd s y -> defd s cin -> pend s d ->
  (forall cw, c = Some cw -> pend s cw /\ cw <> d) ->
  oks (full_subtractor x y cin d c) s
      (fun _ s' => step s s' (d :: optl c) /\ defd s' d /\ forall cw, c = Some cw -> defd s' cw).
Proof.
  intros W Dx Dy Dc Pd Hc. unfold full_subtractor.
  apply gate_s; auto. intros w1 s1 W1 S1 D1.
  apply (oks_after _ _ s s1 _ _ S1).
  assert (P1 : forall v, pend s v -> pend s1 v) by (intros v P; eapply step_pend; [exact S1|exact P|intros []]).
  eapply oks_bind; [apply emit_s; [auto|sdb|sdb|auto]|]. intros _ s2 W2 (S2 & D2 & N2). cbv beta.
  destruct c as [cw|].
  - destruct (Hc cw eq_refl) as (Pc & Nc).
    apply gate_s; [auto|sdb|sdb|]. intros w2 s3 W3 S3 D3.
    apply gate_s; [auto|sdb|sdb|]. intros w3 s4 W4 S4 D4.
    eapply oks_conseq; [apply emit_s; [auto|sdb|sdb|]|].
    + eapply step_pend; [exact (step_trans_nil_l _ _ _ _ _ S3 S4)| |intros []].
      eapply step_pend; [exact S2|auto|]. intros [E|[]]. congruence.
    + cbv beta. intros _ s5 W5 (S5 & D5 & _). split; [|split; [sdb|]].
      * exact (step_trans _ _ _ _ _ _ S2 (step_trans_nil_l _ _ _ _ _ S3 (step_trans_nil_l _ _ _ _ _ S4 S5))).
      * intros ? [= <-]. auto.
  - apply oks_ret; auto. split; [exact S2|]. split; [sdb|intros; discriminate].
Qed.

(* note the operand order: full_subtractor y x *)
Lemma sub_loop_s : chain_spec sub_loop.
Proof.
  apply (chain_loop_s (fun x y => full_subtractor y x) sub_loop); [|reflexivity..].
  intros s a b cin d c W Da Db. apply full_subtractor_s; auto.
Qed.

Lemma ripple_subtractor_s s x y z :
  wfst s -> Forall (defd s) x -> Forall (defd s) y -> Forall (pend s) z -> NoDup z ->
  (1 <= length z)%nat -> (1 <= Nat.max (length x) (length y))%nat ->
  oks (ripple_subtractor x y z) s
      (fun z' s' => step s s' z /\ Forall (defd s') z' /\ length z' = length z).
Proof.
  intros W Fx Fy Pz ND Hz Hm. unfold ripple_subtractor.
  eapply oks_bind; [apply (zero_pad_firstn_s _ _ _ _ (length z)); auto|].
  intros [x' y'] s1 W1 (S1 & Fx2 & Fy2 & Lx2 & Ly2). cbn [fst snd] in *. cbv beta iota zeta.
  sbind zero_s. intros cin s2 W2 (S2 & Dc). cbv beta.
  apply (oks_after _ _ s s2 _ _ (step_trans_nil_l _ _ _ _ _ S1 S2)).
  destruct (firstn (length z) x') as [|x0 xs]; [cbn in Lx2; lia|].
  apply zero_tail_after. rewrite <- firstn_last_eq.
  apply sub_loop_s; auto; try lia; try (eapply Forall_defd_step; eauto); rewrite firstn_last_eq.
  - apply Forall_firstn. eapply Forall_pend_step0; [exact S2|]. eapply Forall_pend_step0; eauto.
  - apply NoDup_firstn; auto.
Qed.

Lemma new_subtractor_s s x y z :
  wfst s -> Forall (defd s) x -> Forall (defd s) y -> Forall (pend s) z -> NoDup z ->
  (1 <= length z)%nat -> (1 <= Nat.max (length x) (length y))%nat ->
  oks (new_subtractor x y z) s
      (fun z' s' => step s s' z /\ Forall (defd s') z' /\ length z' = length z).
Proof.
  intros W Fx Fy Pz ND Hz Hm.
  apply oks_target; intros _; [apply ks_subtractor_s|apply ripple_subtractor_s]; auto.
Qed.

Lemma new_subtractor_yao_s s x y z :
  gmw s = false ->
  wfst s -> Forall (defd s) x -> Forall (defd s) y -> Forall (pend s) z -> NoDup z ->
  (1 <= length z)%nat -> (1 <= Nat.max (length x) (length y))%nat ->
  oks (new_subtractor x y z) s
      (fun z' s' => step s s' z /\ Forall (defd s') z' /\ length z' = length z).
Proof. intros _. apply new_subtractor_s. Qed.

End A.

Theorem ripple_adder_eval (tg : bool) (xw yw zw : nat) (e0 : env) :
  (1 <= Nat.max xw yw)%nat -> (1 <= zw)%nat ->
  let x := wrange 0 xw in
  let y := wrange (N.of_nat xw) yw in
  let ninp := N.of_nat xw + N.of_nat yw in
  let z := wrange ninp zw in
  exists z' s', ripple_adder x y z (st0 (ninp + N.of_nat zw) tg) = (z', s') /\
    wfc_b ninp (gates s') = true /\ dbu ninp (gates s') /\ length z' = zw /\
    valN (eval_rev (gates s') e0) z' = (valN e0 x + valN e0 y) mod 2 ^ N.of_nat zw.
Proof.
  intros Hm Hz.
  eapply (eval2 tg xw yw zw ripple_adder
            (fun z' e a b n => length z' = n /\ valN e z' = (a + b) mod 2 ^ N.of_nat n)); [lia| |].
  - apply okm_ripple_adder; rewrite ?wrange_length; lia.
  - intros s G W Fx Fy Pz ND. apply ripple_adder_s; rewrite ?wrange_length; auto; lia.
Qed.

Theorem new_adder_yao_eval (xw yw zw : nat) (e0 : env) :
  (1 <= Nat.max xw yw)%nat -> (1 <= zw)%nat ->
  let x := wrange 0 xw in
  let y := wrange (N.of_nat xw) yw in
  let ninp := N.of_nat xw + N.of_nat yw in
  let z := wrange ninp zw in
  exists z' s', new_adder x y z (st0 (ninp + N.of_nat zw) false) = (z', s') /\
    wfc_b ninp (gates s') = true /\ dbu ninp (gates s') /\ length z' = zw /\
    valN (eval_rev (gates s') e0) z' = (valN e0 x + valN e0 y) mod 2 ^ N.of_nat zw.
Proof.
  intros Hm Hz. exact (ripple_adder_eval false xw yw zw e0 Hm Hz).
Qed.

Theorem ripple_subtractor_eval (tg : bool) (xw yw zw : nat) (e0 : env) :
  (1 <= Nat.max xw yw)%nat -> (1 <= zw)%nat -> (zw <= Nat.max xw yw + 1)%nat ->
  let x := wrange 0 xw in
  let y := wrange (N.of_nat xw) yw in
  let ninp := N.of_nat xw + N.of_nat yw in
  let z := wrange ninp zw in
  exists z' s', ripple_subtractor x y z (st0 (ninp + N.of_nat zw) tg) = (z', s') /\
    wfc_b ninp (gates s') = true /\ dbu ninp (gates s') /\ length z' = zw /\
    valN (eval_rev (gates s') e0) z' =
      (valN e0 x + 2 ^ N.of_nat zw - valN e0 y mod 2 ^ N.of_nat zw) mod 2 ^ N.of_nat zw.
Proof.
  intros Hm Hz Hw.
  eapply (eval2 tg xw yw zw ripple_subtractor
            (fun z' e a b n => length z' = n /\
               valN e z' = (a + 2 ^ N.of_nat n - b mod 2 ^ N.of_nat n) mod 2 ^ N.of_nat n)); [lia| |].
  - apply okm_ripple_subtractor; rewrite ?wrange_length; lia.
  - intros s G W Fx Fy Pz ND. apply ripple_subtractor_s; rewrite ?wrange_length; auto; lia.
Qed.

Theorem new_subtractor_yao_eval (xw yw zw : nat) (e0 : env) :
  (1 <= Nat.max xw yw)%nat -> (1 <= zw)%nat -> (zw <= Nat.max xw yw + 1)%nat ->
  let x := wrange 0 xw in
  let y := wrange (N.of_nat xw) yw in
  let ninp := N.of_nat xw + N.of_nat yw in
  let z := wrange ninp zw in
  exists z' s', new_subtractor x y z (st0 (ninp + N.of_nat zw) false) = (z', s') /\
    wfc_b ninp (gates s') = true /\ dbu ninp (gates s') /\ length z' = zw /\
    valN (eval_rev (gates s') e0) z' =
      (valN e0 x + 2 ^ N.of_nat zw - valN e0 y mod 2 ^ N.of_nat zw) mod 2 ^ N.of_nat zw.
Proof.
  intros Hm Hz Hw. exact (ripple_subtractor_eval false xw yw zw e0 Hm Hz Hw).
Qed.
