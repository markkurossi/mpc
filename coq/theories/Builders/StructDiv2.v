(* C07: structural lemmas (single assignment, defined before use) for
   NewUDividerRestoring and NewUDividerArray, for every width and both targets,
   and the theorems about the EVALUATED divider circuits. *)
From Coq Require Import NArith List Bool Arith Lia.
From Mpc Require Import Base.ListFacts Builders.Emit Builders.StructProof Builders.StructAdder
  Builders.StructArith Builders.StructDiv Builders.Div2 Builders.DivProof Builders.Div2Proof.
Import ListNotations.
Open Scope N_scope.

Section R.
Variable ninp : N.
Notation defd := (defd ninp). Notation pend := (pend ninp). Notation wfst := (wfst ninp).
Notation step := (step ninp). Notation oks := (@oks ninp _).

(* destination of the new partial remainder: 2n wires, new ones except (last
   iteration) positions n .. n+k-1 which are the first k wires of rret *)
Lemma nr2_s s i rret n len1 :
  wfst s -> Forall (pend s) rret -> NoDup rret -> len1 = (2 * n)%nat ->
  let k := Nat.min (length rret) n in
  oks (if Nat.eqb i 0
       then bind (fresh_n n) (fun lo => bind (fresh_n (n - k)) (fun hi =>
              ret (lo ++ firstn k rret ++ hi)))
       else fresh_n len1) s
      (fun nr s' => step s s' [] /\ Forall (pend s') nr /\ NoDup nr /\ length nr = (2 * n)%nat /\
         (forall w, In w nr -> next s <= w \/ (i = 0%nat /\ In w (firstn k rret))) /\
         (i = 0%nat -> firstn k (skipn n nr) = firstn k rret)).
Proof.
  intros W Pr ND Hl k. destruct (Nat.eqb i 0) eqn:E.
  - apply Nat.eqb_eq in E.
    sbind fresh_n_s. intros lo s1 W1 (S1 & NDlo & Llo & Plo). cbv beta.
    sbind fresh_n_s. intros hi s2 W2 (S2 & NDhi & Lhi & Phi). cbv beta.
    apply oks_ret; auto.
    assert (Lk : length (firstn k rret) = k) by (rewrite firstn_length; unfold k; lia).
    pose proof (step_next _ _ _ _ S1) as N1.
    assert (Pk : forall w, In w (firstn k rret) -> pend s w).
    { intros w H. rewrite Forall_forall in Pr. apply Pr. eapply In_firstn; eauto. }
    split; [eapply step_weaken; [eapply step_trans; [exact S1|exact S2]|apply incl_refl]|].
    split; [|split; [|split; [|split]]].
    + apply Forall_app. split; [|apply Forall_app; split].
      * apply Forall_forall. intros w H. eapply step_pend; [exact S2|apply Plo; auto|auto].
      * apply Forall_forall. intros w H.
        eapply step_pend; [exact S2|eapply step_pend; [exact S1|apply Pk; auto|auto]|auto].
      * apply Forall_forall. intros w H. apply Phi; auto.
    + apply NoDup_app_iff. split; [exact NDlo|]. split.
      * apply NoDup_app_iff. split; [apply NoDup_firstn; exact ND|]. split; [exact NDhi|].
        intros w H1 H2. pose proof (pend_next _ _ _ (Pk _ H1)). destruct (Phi _ H2). lia.
      * intros w H1 H2. destruct (Plo _ H1) as (_ & B1). apply in_app_or in H2. destruct H2 as [H2|H2].
        -- pose proof (pend_next _ _ _ (Pk _ H2)). lia.
        -- destruct (Phi _ H2) as (Q2 & B2). destruct (Plo _ H1) as (Q1 & _).
           (* lo wires are below next s1, hi wires at or above it *)
           pose proof (pend_next _ _ _ Q1). lia.
    + rewrite !app_length, Llo, Lk, Lhi. unfold k. lia.
    + intros w H. apply in_app_or in H. destruct H as [H|H]; [left; apply Plo; auto|].
      apply in_app_or in H. destruct H as [H|H]; [right; auto|].
      left. destruct (Phi _ H). lia.
    + intros _. rewrite skipn_app, Llo, Nat.sub_diag, skipn_all2 by lia. cbn [skipn app].
      rewrite firstn_app, Lk, Nat.sub_diag, firstn_firstn, Nat.min_id. cbn [firstn].
      apply app_nil_r.
  - apply Nat.eqb_neq in E.
    eapply oks_conseq; [apply fresh_n_s; auto|]. cbv beta.
    intros nr s1 W1 (S1 & NDf & Lf & Pf). split; auto. split; [|split; [auto|split; [lia|split]]].
    + apply Forall_forall. intros w Hw. apply Pf; auto.
    + intros w Hw. left. apply Pf; auto.
    + intros; contradiction.
Qed.

Lemma udiv_restoring_loop_s : forall cnt n d q rret r s,
  wfst s -> Forall (defd s) d -> Forall (defd s) r ->
  (1 <= n)%nat -> length r = (2 * n)%nat -> length d = (2 * n)%nat ->
  Forall (pend s) (firstn cnt q ++ rret) -> NoDup (firstn cnt q ++ rret) ->
  oks (udiv_restoring_loop cnt n d q rret r) s
      (fun _ s' => step s s' (firstn cnt q ++ rret) /\
                   (cnt <> 0%nat -> Forall (defd s') (firstn cnt q) /\
                                    Forall (defd s') (firstn (Nat.min (length rret) n) rret))).
Proof.
  induction cnt as [|i IH]; intros n d q rret r s W Fd Fr Hn Lr Ld Po ND.
  - cbn. apply oks_ret; auto.
    split; [apply step_nil_any, step_refl|congruence].
  - cbn [udiv_restoring_loop].
    sbind zero_s. intros z0 sa Wa (Sa & Dz0). cbv beta zeta.
    remember (z0 :: removelast r) as r1 eqn:Er1.
    assert (Lr1 : length r1 = (2 * n)%nat) by (subst r1; cbn; rewrite removelast_len; lia).
    assert (Fr1 : Forall (defd sa) r1).
    { subst r1. constructor; [auto|]. apply removelast_Forall. eapply Forall_defd_step; eauto. }
    clear Er1.
    rewrite (firstn_S_split i q) in Po, ND |- *.
    set (Qi := firstn 1 (skipn i q)) in *. set (Q := firstn i q) in *.
    destruct (dest_split _ _ _ _ Po ND) as (PQ & PQi & Prr & NDrr & ND' & Dj).
    sbind fresh_n_s. intros diff0 s1 W1 (S1 & ND0 & L0 & P0). cbv beta.
    pose proof (step_trans _ _ _ _ _ _ Sa S1) as Sa1. cbn [app] in Sa1.
    eapply oks_bind; [apply new_subtractor_s; auto|].
    + eapply Forall_defd_step; [exact S1|exact Fr1].
    + eapply Forall_defd_step; [exact Sa1|exact Fd].
    + apply Forall_forall. intros w Hw. apply P0; auto.
    + lia.
    + lia.
    + intros diff s2 W2 (S2 & Fdf & Ldf). cbv beta.
      destruct (skipn_last1 diff) as (c & Ec & Ic); [lia|]. rewrite Ec.
      assert (Dc : defd s2 c) by (rewrite Forall_forall in Fdf; auto).
      assert (S02 : step s s2 []).
      { eapply step_weaken_fresh; [eapply step_trans; [exact Sa1|exact S2]|].
        cbn [app]. intros w Hw. right. destruct (P0 _ Hw) as (_ & B).
        pose proof (step_next _ _ _ _ Sa). lia. }
      eapply oks_bind; [apply (qbit_s ninp s2 c i q); auto|].
      { eapply Forall_pend_step; [exact S02|exact PQi|auto]. }
      intros _ s3 W3 (S3 & FQ). cbv beta. fold Qi in S3, FQ.
      pose proof (step_trans _ _ _ _ _ _ S02 S3) as S03. cbn [app] in S03.
      eapply oks_bind; [apply (nr2_s s3 i rret n (length r1)); auto|].
      { eapply Forall_pend_step; [exact S03|exact Prr|].
        intros w H H'. apply (Dj w H'). apply in_or_app; auto. }
      cbv zeta. set (k := Nat.min (length rret) n).
      intros nr s4 W4 (S4 & Pn & NDn & Ln & Hn4 & Hk). cbv beta.
      pose proof (step_trans _ _ _ _ _ _ S03 S4) as S04. rewrite app_nil_r in S04.
      eapply oks_bind; [apply new_mux_s; auto|].
      { eapply step_defd; [exact S4|]. eapply step_defd; [exact S3|exact Dc]. }
      { eapply Forall_defd_step; [exact S4|]. eapply Forall_defd_step; [exact S3|].
        eapply Forall_defd_step; [exact S2|]. eapply Forall_defd_step; [exact S1|exact Fr1]. }
      { apply Forall_firstn. eapply Forall_defd_step; [exact S4|].
        eapply Forall_defd_step; [exact S3|auto]. }
      { rewrite firstn_length. lia. }
      intros _ s5 W5 (S5 & Fn). cbv beta.
      pose proof (step_trans _ _ _ _ _ _ S04 S5) as S05.
      assert (FQ5 : Forall (defd s5) Qi).
      { eapply Forall_defd_step; [exact S5|]. eapply Forall_defd_step; [exact S4|auto]. }
      pose proof (step_next _ _ _ _ S03) as N03.
      destruct i as [|i'].
      * cbn [udiv_restoring_loop]. apply oks_ret; auto. split.
        -- eapply step_weaken_fresh; [exact S05|]. intros w Hw.
           apply in_app_or in Hw. destruct Hw as [Hw|Hw].
           ++ left. apply in_or_app. left. apply in_or_app. auto.
           ++ destruct (Hn4 _ Hw) as [H|(_ & H)]; [right; lia|].
              left. apply in_or_app. right. eapply In_firstn; eauto.
        -- intros _. split; [apply Forall_app; split; [unfold Q; constructor|exact FQ5]|].
           fold k. rewrite <- (Hk eq_refl). apply Forall_firstn, Forall_skipn. exact Fn.
      * assert (S05' : step s s5 Qi).
        { eapply step_weaken_fresh; [exact S05|]. intros w Hw.
          apply in_app_or in Hw. destruct Hw as [Hw|Hw]; [auto|].
          destruct (Hn4 _ Hw) as [H|(H & _)]; [right; lia|discriminate]. }
        eapply oks_conseq; [apply (IH n d q rret nr s5); auto|].
        -- eapply Forall_defd_step; [exact S05'|auto].
        -- eapply Forall_pend_step; [exact S05'|apply Forall_app; split; [exact PQ|exact Prr]|].
           intros w H H'. apply (Dj w H' H).
        -- cbv beta. intros _ s6 W6 (S6 & F6). fold Q in S6, F6.
           destruct F6 as (F6q & F6r); [discriminate|]. split.
           ++ eapply step_weaken; [eapply step_trans; [exact S05'|exact S6]|].
              apply incl_dest.
           ++ intros _. split; [|exact F6r].
              apply Forall_app. split; [exact F6q|]. eapply Forall_defd_step; [exact S6|exact FQ5].
Qed.

Lemma udivider_restoring_s s a b q rret :
  wfst s -> Forall (defd s) a -> Forall (defd s) b ->
  Forall (pend s) (q ++ rret) -> NoDup (q ++ rret) ->
  (1 <= Nat.max (length a) (length b))%nat ->
  oks (udivider_restoring a b q rret) s
      (fun _ s' => step s s' (q ++ rret) /\
                   Forall (defd s') (firstn (Nat.max (length a) (length b)) q) /\
                   Forall (defd s') (firstn (Nat.max (length a) (length b)) rret)).
Proof.
  intros W Fa Fb Po ND Hm. unfold udivider_restoring.
  sbind zero_pad_s. intros [a' b'] s1 W1 (S1 & Fa' & Fb' & La & Lb). cbn [fst snd] in *.
  cbv beta iota zeta.
  set (n := Nat.max (length a) (length b)) in *. rewrite La, Lb.
  replace (Nat.eqb n 0) with false by (symmetry; apply Nat.eqb_neq; lia).
  sbind zero_s. intros z s2 W2 (S2 & Dz). cbv beta.
  pose proof (step_trans _ _ _ _ _ _ S1 S2) as S02. cbn [app] in S02.
  apply Forall_app in Po as (Pq & Pr). apply NoDup_app_iff in ND as (NDq & NDr & Dj).
  eapply oks_conseq; [apply udiv_restoring_loop_s; auto|].
  - apply Forall_app. split; [apply Forall_repeat; exact Dz|eapply Forall_defd_step; [exact S2|exact Fb']].
  - apply Forall_app. split; [eapply Forall_defd_step; [exact S2|exact Fa']|apply Forall_repeat; exact Dz].
  - rewrite app_length, repeat_length. unfold wire in *. lia.
  - rewrite app_length, repeat_length. unfold wire in *. lia.
  - eapply Forall_pend_step; [exact S02| |auto].
    apply Forall_app. split; [apply Forall_firstn; auto|auto].
  - apply NoDup_app_iff. split; [apply NoDup_firstn; auto|]. split; [auto|].
    intros w Hw. apply Dj. eapply In_firstn; eauto.
  - cbv beta. intros _ s3 W3 (S3 & F3). split.
    + eapply step_weaken; [eapply step_trans; [exact S02|exact S3]|]. cbn [app].
      intros w Hw. apply in_app_or in Hw. apply in_or_app.
      destruct Hw as [Hw|Hw]; [left; eapply In_firstn; eauto|auto].
    + destruct F3 as (F3q & F3r); [lia|].
      split; [exact F3q|]. rewrite firstn_min_len in F3r. exact F3r.
Qed.

Lemma uda_binv_s : forall b s, wfst s -> Forall (defd s) b ->
  oks (uda_binv b) s (fun ws s' => step s s' [] /\ Forall (defd s') ws /\ length ws = length b).
Proof.
  induction b as [|bi b IH]; intros s W Fb; cbn [uda_binv].
  - apply oks_ret; auto. split; [apply step_refl|]. split; [constructor|reflexivity].
  - apply Forall_cons_iff in Fb as (Dbi & Fb).
    eapply fresh_wire_s with (R := fun w _ s' => defd s' w); [exact W| |].
    { intros w s1 W1 S1 P1. apply cc_inv_s; [exact W1|sdb|exact P1]. }
    intros w _ s2 W2 S2 D2. cbv beta in D2.
    eapply oks_bind; [apply (IH s2 W2); sfd|].
    intros ws s3 W3 (S3 & F3 & L3). cbv beta.
    apply oks_ret; auto. split; [exact (step_trans_nil_l _ _ _ _ _ S2 S3)|].
    split; [constructor; [sdb|exact F3]|]. cbn [length]. congruence.
Qed.

Lemma uda_adders_s : forall rin bw cin s,
  wfst s -> Forall (defd s) rin -> Forall (defd s) bw -> defd s cin -> length rin = length bw ->
  oks (uda_adders rin bw cin) s
      (fun p s' => step s s' [] /\ Forall (defd s') (fst p) /\ defd s' (snd p) /\
                   length (fst p) = length rin).
Proof.
  induction rin as [|ri rin IH]; intros bw cin s W Fr Fb Dc Hl.
  - destruct bw; [|discriminate]. cbn [uda_adders]. apply oks_ret; auto. cbn [fst snd].
    split; [apply step_refl|]. split; [constructor|]. split; auto.
  - destruct bw as [|b bw]; [discriminate|]. cbn [uda_adders].
    apply Forall_cons_iff in Fr as (Dri & Fr). apply Forall_cons_iff in Fb as (Db & Fb).
    apply oks_fresh; [exact W|]. intros co s1 W1 (E1 & P1 & S1 & N1).
    apply oks_fresh; [exact W1|]. intros ro s2 W2 (E2 & P2 & S2 & N2).
    eapply oks_then;
      [apply (full_adder_s ninp s2 ri b cin ro (Some co)); [exact W2|sdb|sdb|sdb|exact P2|]|sincl|].
    { intros cw [= <-]. split; [eapply step_pend; [exact S2|exact P1|intros []]|].
      unfold wire in *. lia. }
    intros _ s3 W3 S3 (D3 & Dco). specialize (Dco co eq_refl).
    eapply oks_then; [apply (IH bw co s3 W3); [sfd|sfd|exact Dco|cbn in Hl; lia]|sincl|].
    intros [ros c] s4 W4 S4 (F4 & D4 & L4). cbn [fst snd] in *.
    apply oks_ret; auto. cbn [fst snd]. split; [apply step_nil_any, step_refl|].
    split; [constructor; [sdb|exact F4]|]. split; [exact D4|]. cbn [length]. congruence.
Qed.

Lemma uda_mux_loop_s last c : forall k rout rin r s,
  wfst s -> defd s c -> Forall (defd s) rout -> Forall (defd s) rin ->
  (k <= length rout)%nat -> (k <= length rin)%nat ->
  (last = true -> Forall (pend s) (firstn k r) /\ NoDup (firstn k r)) ->
  oks (uda_mux_loop last c k rout rin r) s
      (fun res s' => step s s' (if last then firstn k r else []) /\ Forall (defd s') res /\
                     length res = k /\ (last = true -> Forall (defd s') (firstn k r))).
Proof.
  induction k as [|x IH]; intros rout rin r s W Dc Fo Fi Ho Hi Hl; cbn [uda_mux_loop].
  - apply oks_ret; auto. split; [|split; [constructor|split; [reflexivity|intros; constructor]]].
    apply step_nil_any, step_refl.
  - eapply oks_bind with (P := fun ro s1 => step s s1 [] /\ pend s1 ro /\
        ((last = true /\ (x < length r)%nat /\ ro = nth x r 0) \/
         ((last = false \/ (length r <= x)%nat) /\ next s <= ro))).
    { destruct (last && Nat.ltb x (length r)) eqn:E.
      - apply andb_true_iff in E as (E1 & E2). apply Nat.ltb_lt in E2.
        apply oks_ret; auto. split; [apply step_refl|]. split; [|left; auto].
        destruct (Hl E1) as (Pk & _). rewrite Forall_forall in Pk. apply Pk.
        rewrite (firstn_S_split x r), firstn1_skipn_nth by lia. apply in_or_app. right. cbn. auto.
      - eapply oks_conseq; [apply fresh_s; auto|]. cbv beta. intros ro s1 W1 (E1 & P1 & S1 & N1).
        split; [exact S1|]. split; [exact P1|]. right. split; [|unfold wire in *; lia].
        apply andb_false_iff in E. destruct E as [E|E]; [left; exact E|right; apply Nat.ltb_ge in E; exact E]. }
    intros ro s1 W1 (S1 & P1 & Hro). cbv beta.
    eapply oks_bind.
    { apply (new_mux_s ninp s1 c (firstn 1 (skipn x rout)) (firstn 1 (skipn x rin)) [ro]);
        [exact W1 | sdb
        | apply Forall_firstn, Forall_skipn; eapply Forall_defd_step; [exact S1|exact Fo]
        | apply Forall_firstn, Forall_skipn; eapply Forall_defd_step; [exact S1|exact Fi]
        | constructor; [exact P1|constructor]
        | constructor; [intros []|constructor]
        | cbn [length]; rewrite !firstn_length, !skipn_length; lia]. }
    intros _ s2 W2 (S2 & F2). cbv beta.
    apply Forall_cons_iff in F2 as (Dro & _).
    pose proof (step_trans _ _ _ _ _ _ S1 S2) as S02. cbn [app] in S02.
    eapply oks_bind.
    { apply (IH rout rin r s2 W2); [sdb | eapply Forall_defd_step; [exact S02|exact Fo]
        | eapply Forall_defd_step; [exact S02|exact Fi] | lia | lia |].
      intros El. destruct (Hl El) as (Pk & NDk). rewrite (firstn_S_split x r) in Pk, NDk.
      apply Forall_app in Pk as (Pk & _). apply NoDup_app_iff in NDk as (NDk & _ & Djk).
      split; [|exact NDk]. eapply Forall_pend_step; [exact S02|exact Pk|].
      intros w Hw [<-|[]].
      destruct Hro as [(_ & Hx & ->)|(_ & Hge)].
      - apply (Djk _ Hw). rewrite firstn1_skipn_nth by lia. cbn. auto.
      - rewrite Forall_forall in Pk. pose proof (pend_next _ _ _ (Pk _ Hw)). unfold wire in *. lia. }
    intros lo s3 W3 (S3 & F3 & L3 & R3). cbv beta.
    pose proof (step_trans _ _ _ _ _ _ S02 S3) as S03.
    apply oks_ret; auto. split; [|split; [|split]].
    + destruct last.
      * destruct Hro as [(_ & Hx & ->)|([Hf|Hge] & Hn)]; [ | discriminate | ].
        -- eapply step_weaken; [exact S03|]. rewrite (firstn_S_split x r), firstn1_skipn_nth by lia.
           intros w Hw. cbn [app In] in Hw. destruct Hw as [<-|Hw]; apply in_or_app; [right; cbn; auto|left; exact Hw].
        -- eapply step_weaken_fresh; [exact S03|]. intros w Hw. cbn [app In] in Hw.
           destruct Hw as [<-|Hw]; [right; exact Hn|left].
           rewrite (firstn_S_split x r). apply in_or_app. left. exact Hw.
      * destruct Hro as [(Hf & _)|(_ & Hn)]; [discriminate|].
        eapply step_weaken_fresh; [exact S03|]. cbn [app]. intros w [<-|[]]. right. exact Hn.
    + apply Forall_app. split; [exact F3|constructor; [eapply step_defd; [exact S3|exact Dro]|constructor]].
    + rewrite app_length. cbn [length]. lia.
    + intros El. rewrite (firstn_S_split x r). apply Forall_app. split; [apply R3; exact El|].
      destruct Hro as [(_ & Hx & ->)|([Hf|Hge] & Hn)]; [ | congruence | ].
      * rewrite firstn1_skipn_nth by lia. constructor; [eapply step_defd; [exact S3|exact Dro]|constructor].
      * rewrite skipn_all2 by lia. constructor.
Qed.

Lemma uda_rows_s : forall ra nb binv q r rout s,
  wfst s -> Forall (defd s) ra -> Forall (defd s) binv -> Forall (defd s) rout ->
  length binv = nb -> (nb <= length rout)%nat ->
  Forall (pend s) (firstn (length ra) q ++ firstn (S nb) r) ->
  NoDup (firstn (length ra) q ++ firstn (S nb) r) ->
  oks (uda_rows ra nb binv q r rout) s
      (fun res s' => step s s' (firstn (length ra) q ++ firstn (S nb) r) /\ Forall (defd s') res /\
         (ra <> [] -> Forall (defd s') (firstn (length ra) q) /\ Forall (defd s') (firstn (S nb) r))).
Proof.
  induction ra as [|ai ra IH]; intros nb binv q r rout s W Fa Fb Fo Lb Lo Po ND.
  - cbn [uda_rows]. apply oks_ret; auto. split; [|split; [exact Fo|congruence]].
    apply step_nil_any, step_refl.
  - cbn [uda_rows]. cbv zeta. cbn [length] in Po, ND |- *.
    set (i := length ra) in *.
    apply Forall_cons_iff in Fa as (Dai & Fa).
    rewrite (firstn_S_split i q) in Po, ND |- *.
    set (Qi := firstn 1 (skipn i q)) in *. set (Q := firstn i q) in *. set (R := firstn (S nb) r) in *.
    destruct (dest_split _ _ _ _ Po ND) as (PQ & PQi & Prr & NDrr & ND' & Dj).
    remember (ai :: firstn nb rout) as rin eqn:Erin.
    assert (Lrin : length rin = S nb) by (subst rin; cbn [length]; rewrite firstn_length; lia).
    assert (Frin : Forall (defd s) rin) by (subst rin; constructor; [exact Dai|apply Forall_firstn; exact Fo]).
    clear Erin.
    sbind one_s. intros cin s1 W1 (S1 & Dcin). cbv beta.
    sbind one_s. intros o s2 W2 (S2 & Do). cbv beta.
    pose proof (step_trans _ _ _ _ _ _ S1 S2) as S02. cbn [app] in S02.
    eapply oks_bind.
    { apply (uda_adders_s rin (binv ++ [o]) cin s2 W2);
        [eapply Forall_defd_step; [exact S02|exact Frin]
        |apply Forall_app; split; [eapply Forall_defd_step; [exact S02|exact Fb]|constructor; [exact Do|constructor]]
        |sdb
        |rewrite app_length; cbn [length]; lia]. }
    intros [rout1 c] s3 W3 (S3 & F3 & Dc & L3). cbn [fst snd] in *. cbv beta iota.
    pose proof (step_trans _ _ _ _ _ _ S02 S3) as S03. cbn [app] in S03.
    eapply oks_bind with (P := fun _ s4 => step s3 s4 Qi /\ Forall (defd s4) Qi).
    { destruct (Nat.ltb_spec i (length q)) as [C|C].
      - assert (EQi : Qi = [nth i q 0]) by (unfold Qi; apply firstn1_skipn_nth; exact C).
        assert (Pqi : pend s3 (nth i q 0)).
        { rewrite EQi in PQi. apply Forall_cons_iff in PQi as (Pq0 & _).
          eapply step_pend; [exact S03|exact Pq0|intros []]. }
        eapply fresh_wire_s with (R := fun w _ s' => defd s' w); [exact W3| |].
        { intros w s4 W4 S4 P4. apply cc_inv_s; [exact W4|sdb|exact P4]. }
        intros w _ s5 W5 S35 D5. cbv beta in D5.
        eapply oks_conseq; [apply cc_inv_s; [exact W5|exact D5|]|].
        + eapply step_pend; [exact S35|exact Pqi|intros []].
        + cbv beta. intros _ s6 W6 (S6 & D6). rewrite EQi.
          split; [exact (step_trans_nil_l _ _ _ _ _ S35 S6)|constructor; [exact D6|constructor]].
      - apply oks_ret; auto. unfold Qi. rewrite skipn_all2 by lia. cbn [firstn].
        split; [apply step_refl|constructor]. }
    intros _ s4 W4 (S4 & FQi). cbv beta.
    pose proof (step_trans _ _ _ _ _ _ S03 S4) as S04. cbn [app] in S04.
    replace (nb + 1)%nat with (S nb) by lia.
    assert (Prr4 : Forall (pend s4) R).
    { eapply Forall_pend_step; [exact S04|exact Prr|].
      intros w H H'. apply (Dj w H'). apply in_or_app; auto. }
    eapply oks_bind.
    { apply (uda_mux_loop_s (Nat.eqb i 0) c (S nb) rout1 rin r s4 W4);
        [sdb | eapply Forall_defd_step; [exact S4|exact F3]
        | eapply Forall_defd_step; [exact S04|exact Frin] | lia | lia |].
      intros _. split; [exact Prr4|exact NDrr]. }
    intros rout2 s5 W5 (S5 & F5 & L5 & R5). cbv beta.
    pose proof (step_trans _ _ _ _ _ _ S04 S5) as S05.
    assert (FQi5 : Forall (defd s5) Qi) by (eapply Forall_defd_step; [exact S5|exact FQi]).
    destruct ra as [|a2 ra'].
    + cbn [uda_rows]. apply oks_ret; [exact W5|].
      split; [exact S05|split; [exact F5|]].
      intros _. split; [exact FQi5|apply R5; reflexivity].
    + assert (Ei : Nat.eqb i 0 = false) by (unfold i; reflexivity).
      rewrite Ei in S05, R5. rewrite app_nil_r in S05.
      eapply oks_conseq.
      { apply (IH nb binv q r rout2 s5 W5);
          [eapply Forall_defd_step; [exact S05|exact Fa]
          |eapply Forall_defd_step; [exact S05|exact Fb]
          |exact F5 | exact Lb | lia | |exact ND'].
        eapply Forall_pend_step; [exact S05|apply Forall_app; split; [exact PQ|exact Prr]|].
        intros w H H'. apply (Dj w H' H). }
      cbv beta. fold i Q R. intros res s6 W6 (S6 & F6 & FR6).
      destruct FR6 as (F6q & F6r); [discriminate|]. split; [|split; [exact F6|]].
      * eapply step_weaken; [eapply step_trans; [exact S05|exact S6]|].
        apply incl_dest.
      * intros _. split; [|exact F6r].
        apply Forall_app. split; [exact F6q|]. eapply Forall_defd_step; [exact S6|exact FQi5].
Qed.

Lemma udivider_array_s s a b q r :
  wfst s -> Forall (defd s) a -> Forall (defd s) b ->
  Forall (pend s) (q ++ r) -> NoDup (q ++ r) ->
  (1 <= Nat.max (length a) (length b))%nat ->
  oks (udivider_array a b q r) s
      (fun p s' => step s s' (q ++ r) /\ Forall (defd s') (fst p) /\ Forall (defd s') (snd p)).
Proof.
  intros W Fa Fb Po ND Hm. unfold udivider_array.
  sbind zero_pad_s. intros [a' b'] s1 W1 (S1 & Fa' & Fb' & La & Lb). cbn [fst snd] in *.
  cbv beta iota.
  set (n := Nat.max (length a) (length b)) in *.
  sbind uda_binv_s. intros binv s2 W2 (S2 & Fbinv & Lbinv). cbv beta.
  pose proof (step_trans _ _ _ _ _ _ S1 S2) as S02. cbn [app] in S02.
  rewrite La, Lb.
  replace (Nat.eqb n 0) with false by (symmetry; apply Nat.eqb_neq; lia).
  eapply oks_bind with (P := fun r0 s3 => step s2 s3 [] /\ Forall (defd s3) r0 /\ length r0 = n).
  { sbind zero_s. intros z s3 W3 (S3 & Dz). cbv beta.
    apply oks_ret; [exact W3|]. split; [exact S3|]. split; [apply Forall_repeat; exact Dz|apply repeat_length]. }
  intros r0 s3 W3 (S3 & Fr0 & Lr0). cbv beta.
  pose proof (step_trans _ _ _ _ _ _ S02 S3) as S03. cbn [app] in S03.
  apply Forall_app in Po as (Pq & Pr). apply NoDup_app_iff in ND as (NDq & NDr & Dj).
  eapply oks_bind.
  { apply (uda_rows_s (rev a') n binv q r r0 s3 W3).
    - apply Forall_forall. intros w Hw. apply in_rev in Hw. rewrite Forall_forall in Fa'.
      eapply step_defd; [exact S3|]. eapply step_defd; [exact S2|]. auto.
    - eapply Forall_defd_step; [exact S3|exact Fbinv].
    - exact Fr0.
    - unfold wire in *. lia.
    - lia.
    - eapply Forall_pend_step; [exact S03| |auto].
      apply Forall_app. split; apply Forall_firstn; auto.
    - apply NoDup_app_iff. split; [apply NoDup_firstn; auto|]. split; [apply NoDup_firstn; auto|].
      intros w H1 H2. apply (Dj w); eapply In_firstn; eauto. }
  intros rfin s4 W4 (S4 & Ffin & FR). cbv beta.
  destruct FR as (FRq & FRr).
  { intros E. apply (f_equal (@length wire)) in E. rewrite rev_length in E. cbn in E. unfold wire in *. lia. }
  rewrite rev_length, La in S4, FRq.
  assert (S04 : step s s4 (q ++ r)).
  { eapply step_weaken; [eapply step_trans; [exact S03|exact S4]|]. cbn [app].
    intros w Hw. apply in_app_or in Hw. apply in_or_app.
    destruct Hw as [Hw|Hw]; [left|right]; eapply In_firstn; eauto. }
  sbind zero_tail_s. intros q' s5 W5 (S5 & Lq' & Eq' & Zq'). cbv beta.
  sbind zero_tail_s. intros r' s6 W6 (S6 & Lr' & Er' & Zr'). cbv beta.
  apply oks_ret; auto. cbn [fst snd]. split; [|split].
  - eapply step_weaken; [eapply step_trans; [exact S04|eapply step_trans; [exact S5|exact S6]]|].
    rewrite !app_nil_r. apply incl_refl.
  - rewrite <- (firstn_skipn n q'). apply Forall_app. split.
    + rewrite Eq'. eapply Forall_defd_step; [exact S6|]. eapply Forall_defd_step; [exact S5|exact FRq].
    + eapply Forall_defd_step; [exact S6|exact Zq'].
  - rewrite <- (firstn_skipn n r'). apply Forall_app. split.
    + rewrite Er'. eapply Forall_defd_step; [exact S6|]. eapply Forall_defd_step; [exact S5|].
      replace (firstn n r) with (firstn n (firstn (S n) r)) by (rewrite firstn_firstn; f_equal; lia).
      apply Forall_firstn. exact FRr.
    + exact Zr'.
Qed.

End R.

Theorem udivider_restoring_eval (tg : bool) (aw bw qw rw : nat) (e0 : env) :
  (1 <= Nat.max aw bw)%nat ->
  let n := Nat.max aw bw in
  let a := wrange 0 aw in
  let b := wrange (N.of_nat aw) bw in
  let ninp := N.of_nat aw + N.of_nat bw in
  let q := wrange ninp qw in
  let r := wrange (ninp + N.of_nat qw) rw in
  let A := valN e0 a in
  let B := valN e0 b in
  exists s', udivider_restoring a b q r (st0 (ninp + N.of_nat qw + N.of_nat rw) tg) = (tt, s') /\
    wfc_b ninp (gates s') = true /\ dbu ninp (gates s') /\
    valN (eval_rev (gates s') e0) (firstn n q)
      = (if B =? 0 then 2 ^ N.of_nat n - 1 else A / B) mod 2 ^ N.of_nat qw /\
    valN (eval_rev (gates s') e0) (firstn n r)
      = (if B =? 0 then A else A mod B) mod 2 ^ N.of_nat rw.
Proof.
  intros Hn. cbv zeta.
  set (n := Nat.max aw bw). set (ninp := N.of_nat aw + N.of_nat bw).
  edestruct (eval22 tg aw bw qw rw udivider_restoring
               (fun _ e A B =>
                  valN e (firstn n (wrange ninp qw))
                    = (if B =? 0 then 2 ^ N.of_nat n - 1 else A / B) mod 2 ^ N.of_nat qw /\
                  valN e (firstn n (wrange (ninp + N.of_nat qw) rw))
                    = (if B =? 0 then A else A mod B) mod 2 ^ N.of_nat rw)) with (e0 := e0)
    as ([] & s' & E & C & D & H & _);
    [| | |exists s'; split; [exact E|]; split; [exact C|]; split; [exact D|exact H]]; [unfold ninp; lia| |].
  - pose proof (okm_udivider_restoring tg (wrange 0 aw) (wrange (N.of_nat aw) bw)
                  (wrange (N.of_nat aw + N.of_nat bw) qw)
                  (wrange (N.of_nat aw + N.of_nat bw + N.of_nat qw) rw)) as Sem.
    cbv zeta in Sem. rewrite !wrange_length in Sem. exact (Sem Hn).
  - intros s G W Fa Fb Pqr ND. apply udivider_restoring_s; rewrite ?wrange_length; auto.
Qed.

Theorem udivider_array_eval (tg : bool) (aw bw qw rw : nat) (e0 : env) :
  (1 <= Nat.max aw bw)%nat ->
  let n := Nat.max aw bw in
  let a := wrange 0 aw in
  let b := wrange (N.of_nat aw) bw in
  let ninp := N.of_nat aw + N.of_nat bw in
  let q := wrange ninp qw in
  let r := wrange (ninp + N.of_nat qw) rw in
  let A := valN e0 a in
  let B := valN e0 b in
  exists q' r' s',
    udivider_array a b q r (st0 (ninp + N.of_nat qw + N.of_nat rw) tg) = ((q', r'), s') /\
    wfc_b ninp (gates s') = true /\ dbu ninp (gates s') /\
    length q' = qw /\ length r' = rw /\
    valN (eval_rev (gates s') e0) q'
      = (if B =? 0 then 2 ^ N.of_nat n - 1 else A / B) mod 2 ^ N.of_nat qw /\
    valN (eval_rev (gates s') e0) r'
      = (if B =? 0 then A else A mod B) mod 2 ^ N.of_nat rw.
Proof.
  intros Hn. cbv zeta.
  set (n := Nat.max aw bw).
  edestruct (eval22 tg aw bw qw rw udivider_array
               (fun p e A B =>
                  length (fst p) = qw /\ length (snd p) = rw /\
                  valN e (fst p) = (if B =? 0 then 2 ^ N.of_nat n - 1 else A / B) mod 2 ^ N.of_nat qw /\
                  valN e (snd p) = (if B =? 0 then A else A mod B) mod 2 ^ N.of_nat rw)) with (e0 := e0)
    as ([q' r'] & s' & E & C & D & H & _);
    [| | |exists q', r', s'; split; [exact E|]; split; [exact C|]; split; [exact D|exact H]]; [lia| |].
  - pose proof (okm_udivider_array tg (wrange 0 aw) (wrange (N.of_nat aw) bw)
                  (wrange (N.of_nat aw + N.of_nat bw) qw)
                  (wrange (N.of_nat aw + N.of_nat bw + N.of_nat qw) rw)) as Sem.
    cbv zeta in Sem. rewrite !wrange_length in Sem. exact (Sem Hn).
  - intros s G W Fa Fb Pqr ND. apply udivider_array_s; rewrite ?wrange_length; auto.
Qed.
