(* C07 for circ_adder.go, Yao target: NewHalfAdder, NewFullAdder and the ripple-carry NewAdder
   compute (x + y) mod 2^(result width) for every operand and result width. *)
From Coq Require Import NArith List Bool Arith Lia.
From Mpc Require Import Base.ListFacts Builders.Emit Builders.EmitProof Builders.Adder.
Import ListNotations.
Open Scope N_scope.

Definition maj (a b c : bool) : bool := (a && b) || (c && xorb a b).

Lemma ha_arith a b : N.b2n (xorb a b) + 2 * N.b2n (a && b) = N.b2n a + N.b2n b.
Proof. destruct a, b; reflexivity. Qed.
Lemma fa_arith a b c : N.b2n (xorb (xorb a b) c) + 2 * N.b2n (maj a b c) = N.b2n a + N.b2n b + N.b2n c.
Proof. destruct a, b, c; reflexivity. Qed.

Lemma okm_half_adder t a b s c :
  okm t (half_adder a b s c)
      (fun _ e => e s = xorb (e a) (e b) /\ forall cw, c = Some cw -> e cw = e a && e b).
Proof.
  unfold half_adder. destruct c as [cw|].
  - mstep okm_emit. eapply okm_weaken; [apply okm_emit|]. cbn.
    intros _ e H2 H1. split; auto. intros ? [= <-]. auto.
  - mstep okm_emit. apply okm_ret. cbn. intros e H. split; auto. intros; discriminate.
Qed.

Lemma okm_full_adder t a b cin s cout :
  okm t (full_adder a b cin s cout)
      (fun _ e => e s = xorb (xorb (e a) (e b)) (e cin) /\
                  forall cw, cout = Some cw -> e cw = maj (e a) (e b) (e cin)).
Proof.
  unfold full_adder. mstep okm_fresh. mstep okm_fresh. mstep okm_fresh.
  mstep okm_emit. mstep okm_emit.
  destruct cout as [cw|].
  - mstep okm_emit. mstep okm_emit. eapply okm_weaken; [apply okm_emit|]. cbn.
    intros _ e H5 H4 H3 H2 H1 _ _ _. split.
    + rewrite H2, H1. destruct (e a), (e b), (e cin); reflexivity.
    + intros ? [= <-]. rewrite H5, H4, H3, H1. unfold maj.
      destruct (e a), (e b), (e cin); reflexivity.
  - apply okm_ret. cbn. intros e H2 H1 _ _ _. split.
    + rewrite H2, H1. destruct (e a), (e b), (e cin); reflexivity.
    + intros; discriminate.
Qed.

Lemma okm_half_adder_carry t a b s c :
  okm t (half_adder a b s c)
      (fun _ e => exists k : bool, (forall cw, c = Some cw -> e cw = k) /\
                  N.b2n (e s) + 2 * N.b2n k = N.b2n (e a) + N.b2n (e b)).
Proof.
  eapply okm_weaken; [apply okm_half_adder|]. cbv beta. intros _ e [Hs Hc].
  exists (e a && e b). split; [exact Hc|]. rewrite Hs. apply ha_arith.
Qed.

Lemma okm_full_adder_carry t a b cin s cout :
  okm t (full_adder a b cin s cout)
      (fun _ e => exists k : bool, (forall cw, cout = Some cw -> e cw = k) /\
                  N.b2n (e s) + 2 * N.b2n k = N.b2n (e a) + N.b2n (e b) + N.b2n (e cin)).
Proof.
  eapply okm_weaken; [apply okm_full_adder|]. cbv beta. intros _ e [Hs Hc].
  exists (maj (e a) (e b) (e cin)). split; [exact Hc|]. rewrite Hs. apply fa_arith.
Qed.

Lemma okm_half_adder_arith t a b s c :
  okm t (half_adder a b s (Some c))
      (fun _ e => N.b2n (e s) + 2 * N.b2n (e c) = N.b2n (e a) + N.b2n (e b)).
Proof.
  eapply okm_weaken; [apply okm_half_adder_carry|]. cbv beta. intros _ e (k & Hc & H).
  rewrite (Hc c eq_refl). exact H.
Qed.

Lemma okm_full_adder_arith t a b cin s c :
  okm t (full_adder a b cin s (Some c))
      (fun _ e => N.b2n (e s) + 2 * N.b2n (e c) = N.b2n (e a) + N.b2n (e b) + N.b2n (e cin)).
Proof.
  eapply okm_weaken; [apply okm_full_adder_carry|]. cbv beta. intros _ e (k & Hc & H).
  rewrite (Hc c eq_refl). exact H.
Qed.

Lemma okm_adder_loop t : forall xs ys zs cin last,
  xs <> [] -> length ys = length xs -> (length xs <= length zs)%nat ->
  okm t (adder_loop xs ys zs cin last)
      (fun _ e =>
         let n := length xs in
         exists k : bool,
           (forall l, last = Some l -> e l = k) /\
           valN e (firstn n zs) + 2 ^ N.of_nat n * N.b2n k
           = valN e xs + valN e ys + N.b2n (e cin)).
Proof.
  induction xs as [|x xs IH]; intros ys zs cin last Hne Hy Hz; [congruence|].
  destruct ys as [|y ys]; [discriminate|]. destruct zs as [|z zs]; [cbn in Hz; lia|].
  cbn [adder_loop]. destruct xs as [|x2 xs'].
  - destruct ys; [|discriminate].
    eapply okm_weaken; [apply okm_full_adder_carry|]. cbn [length firstn].
    intros _ e (k & Hc & FA). exists k. split; [exact Hc|].
    rewrite !valN_cons, !valN_nil. change (2 ^ N.of_nat 1) with 2. lia.
  - mstepn okm_fresh cout. mstepn okm_full_adder_arith u.
    eapply okm_weaken; [apply IH; cbn in *; try lia; congruence|].
    cbv beta zeta. intros _ e (k & Hl & HI) FA _. exists k. split; [exact Hl|].
    remember (x2 :: xs') as xs eqn:Exs.
    cbn [length firstn]. rewrite !valN_cons, pow2_S. lia.
Qed.

Lemma okm_ripple_core t x0 xs y0 ys z0 zs last :
  length ys = length xs -> (length xs <= length zs)%nat ->
  okm t (match xs with
         | [] => half_adder x0 y0 z0 last
         | _ :: _ => bind fresh (fun cin => bind (half_adder x0 y0 z0 (Some cin))
                                               (fun _ => adder_loop xs ys zs cin last))
         end)
      (fun _ e =>
         let n := S (length xs) in
         exists k : bool,
           (forall l, last = Some l -> e l = k) /\
           valN e (firstn n (z0 :: zs)) + 2 ^ N.of_nat n * N.b2n k
           = valN e (x0 :: xs) + valN e (y0 :: ys)).
Proof.
  intros Hy Hz. destruct xs as [|x1 xs'].
  - destruct ys; [|discriminate].
    eapply okm_weaken; [apply okm_half_adder_carry|]. cbn [length firstn].
    intros _ e (k & Hc & HA). exists k. split; [exact Hc|].
    rewrite !valN_cons, !valN_nil. change (2 ^ N.of_nat 1) with 2. lia.
  - remember (x1 :: xs') as xs eqn:Exs.
    mstepn okm_fresh cin. mstepn okm_half_adder_arith u.
    eapply okm_weaken; [apply okm_adder_loop; try lia; subst; discriminate|].
    cbv beta zeta. intros _ e (k & Hl & HI) HA _. exists k. split; [exact Hl|].
    cbn [length firstn]. rewrite !valN_cons, pow2_S. lia.
Qed.

(* C07_adder_ripple: len(x) and len(y) may differ (zero_pad) and may exceed len(z) (firstn) *)
Theorem okp_ripple_adder t x y z :
  (1 <= length z)%nat -> (1 <= Nat.max (length x) (length y))%nat ->
  okp t (ripple_adder x y z)
      (fun z' => length z' = length z)
      (fun z' e => valN e z' = (valN e x + valN e y) mod 2 ^ N.of_nat (length z)).
Proof.
  intros Hz Hm. unfold ripple_adder.
  eapply okp_bind; [apply okp_zero_pad_val|]. intros [x' y'] [Lx Ly]. cbn [fst snd] in *. cbv zeta.
  remember (firstn (length z) x') as x2 eqn:Ex2.
  remember (firstn (length z) y') as y2 eqn:Ey2.
  assert (Lx2 : length x2 = Nat.min (length z) (Nat.max (length x) (length y))).
  { subst x2. rewrite firstn_length. lia. }
  assert (Ly2 : length y2 = length x2).
  { subst y2. rewrite firstn_length. lia. }
  destruct x2 as [|x0 xs]; [cbn [length] in Lx2; lia|].
  destruct y2 as [|y0 ys]; [discriminate|].
  destruct z as [|z0 zs]; [cbn [length] in Hz; lia|].
  cbv iota beta.
  set (n := length (x0 :: xs)) in *.
  set (last := if Nat.ltb n (length (z0 :: zs)) then Some (nth n (z0 :: zs) 0) else None).
  eapply okp_bind.
  { apply okp_of_okm, (okm_ripple_core t x0 xs y0 ys z0 zs last); cbn [length] in *; lia. }
  intros u _. cbv beta.
  eapply okp_weaken; [apply okp_zero_tail_val | auto | ].
  cbv beta zeta. intros z' e _ Hv (k & Hl & Hcore) [Vx' Vy'].
  change (S (length xs)) with n in Hcore.
  assert (Vx : valN e (x0 :: xs) = valN e x mod 2 ^ N.of_nat (length (z0 :: zs))).
  { rewrite Ex2, valN_firstn, Vx'. reflexivity. }
  assert (Vy : valN e (y0 :: ys) = valN e y mod 2 ^ N.of_nat (length (z0 :: zs))).
  { rewrite Ey2, valN_firstn, Vy'. reflexivity. }
  rewrite Hv. subst last. destruct (Nat.ltb n (length (z0 :: zs))) eqn:EL.
  - (* room for the carry: n = max(len x, len y) < len z, nothing is lost *)
    apply Nat.ltb_lt in EL.
    replace (n + 1)%nat with (S n) by lia.
    rewrite valN_firstn_S by exact EL.
    rewrite (Hl _ eq_refl).
    pose proof (valN_pow_le e x n ltac:(lia)) as Bx.
    pose proof (valN_pow_le e y n ltac:(lia)) as By.
    assert (Bz : 2 * 2 ^ N.of_nat n <= 2 ^ N.of_nat (length (z0 :: zs))).
    { rewrite <- pow2_S. apply N.pow_le_mono_r; lia. }
    rewrite N.mod_small in Vx by lia. rewrite N.mod_small in Vy by lia.
    rewrite N.mod_small by lia. lia.
  - (* result as wide as the (truncated) operands: the carry is dropped *)
    apply Nat.ltb_ge in EL.
    assert (Hn : n = length (z0 :: zs)) by lia.
    rewrite firstn_all2 by lia.
    rewrite Hn, firstn_all in Hcore.
    rewrite N.add_mod, <- Vx, <- Vy, <- Hcore, N.mul_comm, N.mod_add by (apply N.pow_nonzero; discriminate).
    symmetry. apply N.mod_small, valN_lt.
Qed.

Theorem okm_ripple_adder t x y z :
  (1 <= length z)%nat -> (1 <= Nat.max (length x) (length y))%nat ->
  okm t (ripple_adder x y z)
      (fun z' e => length z' = length z /\
                   valN e z' = (valN e x + valN e y) mod 2 ^ N.of_nat (length z)).
Proof. intros Hz Hm. apply okm_of_okp, okp_ripple_adder; assumption. Qed.

Corollary okp_new_adder_yao x y z :
  (1 <= length z)%nat -> (1 <= Nat.max (length x) (length y))%nat ->
  okp false (new_adder x y z)
      (fun z' => length z' = length z)
      (fun z' e => valN e z' = (valN e x + valN e y) mod 2 ^ N.of_nat (length z)).
Proof. intros Hz Hm. apply okp_dispatch, okp_ripple_adder; assumption. Qed.

Corollary okm_new_adder_yao x y z :
  (1 <= length z)%nat -> (1 <= Nat.max (length x) (length y))%nat ->
  okm false (new_adder x y z)
      (fun z' e => length z' = length z /\
                   valN e z' = (valN e x + valN e y) mod 2 ^ N.of_nat (length z)).
Proof. intros Hz Hm. apply okm_of_okp, okp_new_adder_yao; assumption. Qed.

(* Aliased operands: the builder theorems quantify over arbitrary lists of wire
   ids, so the same vector (or overlapping vectors) may be passed for x and y. *)
Corollary okm_new_adder_same_operand (x z : list wire) :
  (1 <= length z)%nat -> (1 <= length x)%nat ->
  okm false (new_adder x x z)
      (fun z' e => length z' = length z /\
                   valN e z' = (2 * valN e x) mod 2 ^ N.of_nat (length z)).
Proof.
  intros Hz Hx. eapply okm_weaken.
  - apply okm_new_adder_yao; [exact Hz|]. rewrite Nat.max_id. exact Hx.
  - cbv beta. intros z' e [H1 H2]. split; [exact H1|]. rewrite H2. f_equal. lia.
Qed.
