(* C07: structural lemmas (single assignment, defined before use) for the
   comparators of Cmp.v and the bitwise builders of Bitwise.v, for every width and
   both targets, and the resulting theorems about the EVALUATED circuits in the
   harness wire layout. *)
From Coq Require Import ZArith List Bool Lia.
From Mpc Require Import Base.ListFacts Builders.Emit Builders.EmitProof Builders.StructProof Builders.StructAdder
  Builders.Cmp Builders.CmpProof Builders.Bitwise Builders.BitwiseProof.
Import ListNotations.
Open Scope N_scope.

Section C.
Variable ninp : N.
Notation defd := (defd ninp). Notation pend := (pend ninp). Notation wfst := (wfst ninp).
Notation step := (step ninp). Notation oks := (@oks ninp _).

Lemma Forall_defd_repeat s z k : defd s z -> Forall (defd s) (repeat z k).
Proof. apply Forall_repeat. Qed.

Lemma cmp_loop_s last : forall x y cin s,
  wfst s -> defd s cin -> Forall (defd s) x -> Forall (defd s) y ->
  (forall r0, last = Some r0 -> pend s r0) ->
  oks (cmp_loop cin x y last) s
      (fun w s' => step s s' (optl last) /\ defd s' w /\
                   (length x = length y -> x <> [] -> forall r0, last = Some r0 -> w = r0)).
Proof.
  induction x as [|xi x IH]; intros y cin s W Dc Fx Fy HP.
  - cbn. apply oks_ret; auto. split; [apply step_nil_any, step_refl|]. split; [auto|]. intros _ H. congruence.
  - destruct y as [|yi y].
    { cbn. apply oks_ret; auto. split; [apply step_nil_any, step_refl|]. split; [auto|]. intros H. discriminate. }
    cbn [cmp_loop]. inversion Fx; subst. inversion Fy; subst.
    apply gate_s; auto. intros w1 s1 W1 S1 D1.
    apply gate_s; [auto|sdb|sdb|]. intros w2 s2 W2 S2 D2.
    apply gate_s; [auto|sdb|sdb|]. intros w3 s3 W3 S3 D3.
    pose proof (step_trans_nil_l _ _ _ _ _ S1 (step_trans_nil_l _ _ _ _ _ S2 S3)) as S03.
    apply (oks_after _ _ s s3 _ _ S03).
    assert (HP3 : forall r0, last = Some r0 -> pend s3 r0).
    { intros r0 E. eapply step_pend; [exact S03|exact (HP r0 E)|intros []]. }
    assert (B : oks (cout <- fresh;; emit XOR cin w3 cout;; cmp_loop cout x y last)%monad s3
                  (fun w s' => step s3 s' (optl last) /\ defd s' w /\
                     (length x = length y -> x <> [] -> forall r0, last = Some r0 -> w = r0))).
    { apply gate_s; [auto|sdb|sdb|]. intros co s4 W4 S4 D4.
      apply (oks_after _ _ s3 s4 _ _ S4).
      apply IH; auto; try (eapply Forall_impl; [|eassumption]; intros; sdb).
      intros r0 E. eapply step_pend; [exact S4|exact (HP3 r0 E)|intros []]. }
    destruct x as [|x1 x]; [destruct last as [r0|]|].
    + eapply oks_bind; [apply emit_s; [auto|sdb|sdb|exact (HP3 r0 eq_refl)]|].
      intros _ s4 W4 (S4 & D4 & N4). cbv beta.
      apply oks_ret; auto. split; [exact S4|]. split; [auto|].
      intros _ _ r1 [= <-]. reflexivity.
    + eapply oks_conseq; [exact B|]. cbv beta. intros w s' W' (A1 & A2 & A3). split; [auto|]. split; [auto|].
      intros _ _ r0 H. discriminate.
    + eapply oks_conseq; [exact B|]. cbv beta. intros w s' W' (A1 & A2 & A3). split; [auto|]. split; [auto|].
      intros L _ r0 E. apply A3; auto. discriminate.
Qed.

Lemma uint_comparator_s s cin x y r0 :
  wfst s -> defd s cin -> Forall (defd s) x -> Forall (defd s) y -> pend s r0 ->
  (1 <= Nat.max (length x) (length y))%nat ->
  oks (uint_comparator cin x y [r0]) s (fun _ s' => step s s' [r0] /\ defd s' r0).
Proof.
  intros W Dc Fx Fy P0 L1. unfold uint_comparator.
  sbind zero_pad_s. intros [x' y'] s1 W1 (S1 & Fx' & Fy' & Lx & Ly). cbn [fst snd] in *. cbv beta iota.
  cbn [nth].
  eapply oks_bind.
  { apply (cmp_loop_s (Some r0)); auto; [sdb|]. intros ? [= <-]. sp. }
  intros w s2 W2 (S2 & D2 & R2). cbv beta.
  apply oks_ret; auto. split.
  - eapply step_trans_nil_l; eauto.
  - rewrite <- (R2 ltac:(lia) ltac:(destruct x'; [cbn in Lx; lia|discriminate]) r0 eq_refl). exact D2.
Qed.

Lemma int_comparator_s s cin x y r0 :
  wfst s -> defd s cin -> Forall (defd s) x -> Forall (defd s) y -> pend s r0 ->
  oks (int_comparator cin x y [r0]) s (fun _ s' => step s s' [r0] /\ defd s' r0).
Proof.
  intros W Dc Fx Fy P0. unfold int_comparator.
  sbind zero_pad_s. intros [x' y'] s1 W1 (S1 & Fx' & Fy' & Lx & Ly). cbn [fst snd] in *. cbv beta iota.
  eapply oks_bind.
  { apply (cmp_loop_s None); auto; [sdb|]. intros ? [=]. }
  intros cout s2 W2 (S2 & D2 & _). cbv beta. cbn [optl] in S2.
  apply (oks_after _ _ s s2 _ _ (step_trans_nil_l _ _ _ _ _ S1 S2)).
  assert (Fx2 : Forall (defd s2) x') by sfd.
  assert (Fy2 : Forall (defd s2) y') by sfd.
  apply gate_s; [exact W2|apply defd_nth; auto..|]. intros cond s3 W3 S3 D3.
  apply (oks_after _ _ s2 s3 _ _ S3).
  eapply oks_conseq.
  - apply new_mux_s; [exact W3|exact D3| | | | |reflexivity].
    + constructor; [|constructor]. eapply step_defd; [exact S3|]. apply defd_nth; auto.
    + constructor; [|constructor]. sdb.
    + constructor; [|constructor]. sp.
    + constructor; [intros []|constructor].
  - cbv beta. intros _ s4 W4 (S4 & F4). split; [exact S4|inversion F4; auto].
Qed.

(* the eight ordered comparators: a constant carry-in (zero: strict, one:
   non-strict), then the comparator *)
Lemma const_cmp_s (cw : M wire) (cmp : wire -> list wire -> list wire -> list wire -> M unit) s x y r0 :
  (forall s, wfst s -> oks cw s (fun w s' => step s s' [] /\ defd s' w)) ->
  (forall s c, wfst s -> defd s c -> Forall (defd s) x -> Forall (defd s) y -> pend s r0 ->
     oks (cmp c x y [r0]) s (fun _ s' => step s s' [r0] /\ defd s' r0)) ->
  wfst s -> Forall (defd s) x -> Forall (defd s) y -> pend s r0 ->
  oks (c <- cw;; cmp c x y [r0]) s (fun _ s' => step s s' [r0] /\ defd s' r0).
Proof.
  intros Hc Hcmp W Fx Fy P0. sbind Hc. intros c s1 W1 (S1 & Dc). cbv beta.
  apply (oks_after _ _ s s1 _ _ S1), Hcmp; auto; try (eapply Forall_defd_step; eauto).
  eapply step_pend; [exact S1|exact P0|intros []].
Qed.

Lemma uint_gt_s s x y r0 :
  wfst s -> Forall (defd s) x -> Forall (defd s) y -> pend s r0 ->
  (1 <= Nat.max (length x) (length y))%nat ->
  oks (uint_gt x y [r0]) s (fun _ s' => step s s' [r0] /\ defd s' r0).
Proof.
  intros W Fx Fy P0 L. apply const_cmp_s; auto using zero_s.
  intros. apply uint_comparator_s; auto.
Qed.

Lemma uint_ge_s s x y r0 :
  wfst s -> Forall (defd s) x -> Forall (defd s) y -> pend s r0 ->
  (1 <= Nat.max (length x) (length y))%nat ->
  oks (uint_ge x y [r0]) s (fun _ s' => step s s' [r0] /\ defd s' r0).
Proof.
  intros W Fx Fy P0 L. apply const_cmp_s; auto using one_s.
  intros. apply uint_comparator_s; auto.
Qed.

Lemma uint_lt_s s x y r0 :
  wfst s -> Forall (defd s) x -> Forall (defd s) y -> pend s r0 ->
  (1 <= Nat.max (length x) (length y))%nat ->
  oks (uint_lt x y [r0]) s (fun _ s' => step s s' [r0] /\ defd s' r0).
Proof.
  intros W Fx Fy P0 L. apply (const_cmp_s zero_wire uint_comparator s y x); auto using zero_s.
  intros. apply uint_comparator_s; auto. lia.
Qed.

Lemma uint_le_s s x y r0 :
  wfst s -> Forall (defd s) x -> Forall (defd s) y -> pend s r0 ->
  (1 <= Nat.max (length x) (length y))%nat ->
  oks (uint_le x y [r0]) s (fun _ s' => step s s' [r0] /\ defd s' r0).
Proof.
  intros W Fx Fy P0 L. apply (const_cmp_s one_wire uint_comparator s y x); auto using one_s.
  intros. apply uint_comparator_s; auto. lia.
Qed.

Lemma int_gt_s s x y r0 :
  wfst s -> Forall (defd s) x -> Forall (defd s) y -> pend s r0 ->
  oks (int_gt x y [r0]) s (fun _ s' => step s s' [r0] /\ defd s' r0).
Proof.
  intros W Fx Fy P0. apply const_cmp_s; auto using zero_s. intros. apply int_comparator_s; auto.
Qed.

Lemma int_ge_s s x y r0 :
  wfst s -> Forall (defd s) x -> Forall (defd s) y -> pend s r0 ->
  oks (int_ge x y [r0]) s (fun _ s' => step s s' [r0] /\ defd s' r0).
Proof.
  intros W Fx Fy P0. apply const_cmp_s; auto using one_s. intros. apply int_comparator_s; auto.
Qed.

Lemma int_lt_s s x y r0 :
  wfst s -> Forall (defd s) x -> Forall (defd s) y -> pend s r0 ->
  oks (int_lt x y [r0]) s (fun _ s' => step s s' [r0] /\ defd s' r0).
Proof.
  intros W Fx Fy P0. apply (const_cmp_s zero_wire int_comparator s y x); auto using zero_s.
  intros. apply int_comparator_s; auto.
Qed.

Lemma int_le_s s x y r0 :
  wfst s -> Forall (defd s) x -> Forall (defd s) y -> pend s r0 ->
  oks (int_le x y [r0]) s (fun _ s' => step s s' [r0] /\ defd s' r0).
Proof.
  intros W Fx Fy P0. apply (const_cmp_s one_wire int_comparator s y x); auto using one_s.
  intros. apply int_comparator_s; auto.
Qed.

Lemma eq_flags_s : forall x y s,
  wfst s -> Forall (defd s) x -> Forall (defd s) y ->
  oks (eq_flags x y) s (fun fs s' => step s s' [] /\ Forall (defd s') fs /\
                                     length fs = Nat.min (length x) (length y)).
Proof.
  induction x as [|xi x IH]; intros y s W Fx Fy.
  - cbn. apply oks_ret; auto. split; [apply step_refl|]. split; [constructor|reflexivity].
  - destruct y as [|yi y].
    { cbn. apply oks_ret; auto. split; [apply step_refl|]. split; [constructor|reflexivity]. }
    cbn [eq_flags]. inversion Fx; subst. inversion Fy; subst.
    apply gate_s; auto. intros f s1 W1 S1 D1.
    eapply oks_bind; [apply IH; auto; eapply Forall_defd_step; eauto|].
    intros fs s2 W2 (S2 & F2 & L2). cbv beta.
    apply oks_ret; auto. split; [exact (step_trans_nil_l _ _ _ _ _ S1 S2)|]. split.
    + constructor; [sdb|exact F2].
    + cbn. rewrite L2. reflexivity.
Qed.

Lemma eq_pairs_s : forall n flags s, (length flags <= n)%nat ->
  wfst s -> Forall (defd s) flags ->
  oks (eq_pairs flags) s (fun fs s' => step s s' [] /\ Forall (defd s') fs).
Proof.
  induction n as [|n IH]; intros flags s Ln W F.
  - destruct flags; [|cbn in Ln; lia]. cbn. apply oks_ret; auto. split; [apply step_refl|constructor].
  - destruct flags as [|a [|b rest]].
    + cbn. apply oks_ret; auto. split; [apply step_refl|constructor].
    + cbn. apply oks_ret; auto. split; [apply step_refl|exact F].
    + cbn [eq_pairs]. inversion F as [|? ? Da F1]; subst. inversion F1 as [|? ? Db F2]; subst.
      apply gate_s; auto. intros f s1 W1 S1 D1.
      eapply oks_bind; [apply IH; [cbn in Ln; lia|auto|eapply Forall_defd_step; eauto]|].
      intros fs s2 W2 (S2 & Ffs). cbv beta.
      apply oks_ret; auto. split; [exact (step_trans_nil_l _ _ _ _ _ S1 S2)|].
      constructor; [sdb|exact Ffs].
Qed.

Lemma eq_reduce_s : forall fuel flags s,
  wfst s -> Forall (defd s) flags ->
  oks (eq_reduce fuel flags) s (fun fs s' => step s s' [] /\ Forall (defd s') fs).
Proof.
  induction fuel as [|fuel IH]; intros flags s W F.
  - cbn. apply oks_ret; auto. split; [apply step_refl|exact F].
  - cbn [eq_reduce]. destruct (Nat.ltb 2 (length flags)).
    + eapply oks_bind; [apply (eq_pairs_s (length flags)); auto|].
      intros fl s1 W1 (S1 & F1). cbv beta.
      eapply oks_conseq; [apply IH; auto|].
      cbv beta. intros fs s2 W2 (S2 & F2). split; [|exact F2].
      eapply step_trans_nil_l; eauto.
    + apply oks_ret; auto. split; [apply step_refl|exact F].
Qed.

(* also width 0, where the Go code reads flags[0], flags[1] of an empty slice and
   the model reads input wire 0 *)
Lemma eq_comparator_s s x y r0 :
  wfst s -> Forall (defd s) x -> Forall (defd s) y -> pend s r0 ->
  oks (eq_comparator x y [r0]) s (fun _ s' => step s s' [r0] /\ defd s' r0).
Proof.
  intros W Fx Fy P0. unfold eq_comparator.
  sbind zero_pad_s. intros [x' y'] s1 W1 (S1 & Fx' & Fy' & Lx & Ly). cbn [fst snd] in *. cbv beta iota zeta.
  cbn [nth].
  destruct (Nat.eqb (length x') 1).
  - eapply oks_conseq; [apply emit_s; [auto|apply defd_nth; auto|apply defd_nth; auto|sp]|].
    cbv beta. intros _ s2 W2 (S2 & D2 & _). split; auto.
    eapply step_trans_nil_l; eauto.
  - eapply oks_bind; [apply eq_flags_s; auto|]. intros fl s2 W2 (S2 & F2 & _). cbv beta.
    eapply oks_bind; [apply eq_reduce_s; auto|]. intros fl' s3 W3 (S3 & F3). cbv beta.
    eapply oks_conseq; [apply emit_s; [auto|apply defd_nth; auto|apply defd_nth; auto|sp]|].
    cbv beta. intros _ s4 W4 (S4 & D4 & _). split; [|exact D4].
    exact (step_trans_nil_l _ _ _ _ _ S1 (step_trans_nil_l _ _ _ _ _ S2 (step_trans_nil_l _ _ _ _ _ S3 S4))).
Qed.

Lemma neq_comparator_s s x y r0 :
  wfst s -> Forall (defd s) x -> Forall (defd s) y -> pend s r0 ->
  oks (neq_comparator x y [r0]) s (fun _ s' => step s s' [r0] /\ defd s' r0).
Proof.
  intros W Fx Fy P0. unfold neq_comparator.
  eapply fresh_wire_s with (R := fun q _ s' => defd s' q); [exact W| |].
  { intros q s1 W1 S1 P1. apply eq_comparator_s; auto; eapply Forall_defd_step; eauto. }
  intros q _ s2 W2 S2 D2. cbn [nth].
  apply (oks_after _ _ s s2 _ _ S2).
  apply cc_inv_s; auto. eapply step_pend; [exact S2|exact P0|intros []].
Qed.

Lemma logical_and_s s x y r0 :
  wfst s -> Forall (defd s) x -> Forall (defd s) y -> pend s r0 ->
  oks (logical_and x y [r0]) s (fun _ s' => step s s' [r0] /\ defd s' r0).
Proof.
  intros W Fx Fy P0. unfold logical_and. cbn [nth].
  eapply oks_conseq; [apply emit_s; [auto|apply defd_nth; auto|apply defd_nth; auto|auto]|].
  cbv beta. intros _ s1 W1 (S1 & D1 & _). auto.
Qed.

Lemma logical_or_s s x y r0 :
  wfst s -> Forall (defd s) x -> Forall (defd s) y -> pend s r0 ->
  oks (logical_or x y [r0]) s (fun _ s' => step s s' [r0] /\ defd s' r0).
Proof.
  intros W Fx Fy P0. unfold logical_or. cbn [nth].
  apply cc_or_s; auto; apply defd_nth; auto.
Qed.

Lemma bit_test_s (cw : M wire) s x index r0 :
  (forall s, wfst s -> oks cw s (fun w s' => step s s' [] /\ defd s' w)) ->
  wfst s -> Forall (defd s) x -> pend s r0 ->
  oks (if Nat.ltb index (length x)
       then w <- cw;; emit XOR (nth index x 0) w (nth 0 [r0] 0);; ret [r0]
       else w <- cw;; ret [w]) s
      (fun r' s' => step s s' [r0] /\ Forall (defd s') r' /\ length r' = 1%nat).
Proof.
  intros Hc W Fx P0. destruct (Nat.ltb index (length x)).
  - sbind Hc. intros z s1 W1 (S1 & Dz). cbv beta. cbn [nth].
    eapply oks_bind; [apply emit_s; [auto|apply defd_nth; auto; eapply Forall_defd_step; eauto|auto|sp]|].
    intros _ s2 W2 (S2 & D2 & _). cbv beta.
    apply oks_ret; auto. split; [|split; [constructor; auto|reflexivity]].
    eapply step_trans_nil_l; eauto.
  - sbind Hc. intros z s1 W1 (S1 & Dz). cbv beta.
    apply oks_ret; auto. split; [apply step_nil_any; auto|]. split; [constructor; auto|reflexivity].
Qed.

Lemma bit_set_test_s s x index r0 :
  wfst s -> Forall (defd s) x -> pend s r0 ->
  oks (bit_set_test x index [r0]) s
      (fun r' s' => step s s' [r0] /\ Forall (defd s') r' /\ length r' = 1%nat).
Proof. apply bit_test_s, zero_s. Qed.

Lemma bit_clr_test_s s x index r0 :
  wfst s -> Forall (defd s) x -> pend s r0 ->
  oks (bit_clr_test x index [r0]) s
      (fun r' s' => step s s' [r0] /\ Forall (defd s') r' /\ length r' = 1%nat).
Proof. apply bit_test_s, one_s. Qed.

Definition bit_builder_s (f : wire -> wire -> wire -> M unit) : Prop :=
  forall s a b o, wfst s -> defd s a -> defd s b -> pend s o ->
    oks (f a b o) s (fun _ s' => step s s' [o] /\ defd s' o).

Lemma bitwise_loop_s f : bit_builder_s f ->
  forall x y r s,
  wfst s -> Forall (defd s) x -> Forall (defd s) y -> Forall (pend s) r -> NoDup r ->
  oks (bitwise_loop f x y r) s
      (fun _ s' => step s s' r /\
                   Forall (defd s') (firstn (Nat.min (length x) (length y)) r)).
Proof.
  intros Hf. induction x as [|xi x IH]; intros y r s W Fx Fy Pr ND.
  - apply loop_end_s; [exact W|reflexivity].
  - destruct y as [|yi y]; [apply loop_end_s; [exact W|reflexivity]|].
    destruct r as [|ri r]; [cbn; apply oks_ret; auto; split; [apply step_refl|constructor]|].
    cbn [bitwise_loop]. inversion Fx; subst. inversion Fy; subst. inversion Pr; subst. inversion ND; subst.
    eapply oks_bind; [apply Hf; auto|]. intros _ s1 W1 (S1 & D1). cbv beta.
    assert (Pr1 : Forall (pend s1) r).
    { apply Forall_forall. intros w Hin. rewrite Forall_forall in H6. specialize (H6 _ Hin).
      assert (w <> ri) by (intro; subst; auto). sp. }
    eapply oks_conseq; [apply IH; auto; eapply Forall_defd_step; eauto|].
    cbv beta. intros _ s2 W2 (S2 & F2). split.
    + exact (step_trans _ _ _ _ _ _ S1 S2).
    + cbn [length Nat.min firstn]. constructor; [sdb|exact F2].
Qed.

Lemma bitwise_s f s x y r : bit_builder_s f ->
  wfst s -> Forall (defd s) x -> Forall (defd s) y -> Forall (pend s) r -> NoDup r ->
  (length r <= Nat.max (length x) (length y))%nat ->
  oks (bitwise f x y r) s (fun _ s' => step s s' r /\ Forall (defd s') r).
Proof.
  intros Hf W Fx Fy Pr ND Lr. unfold bitwise.
  sbind zero_pad_s. intros [x' y'] s1 W1 (S1 & Fx' & Fy' & Lx & Ly). cbn [fst snd] in *. cbv beta iota.
  assert (Pr1 : Forall (pend s1) r).
  { apply Forall_forall. intros w Hin. rewrite Forall_forall in Pr. specialize (Pr _ Hin). sp. }
  eapply oks_conseq.
  - apply (bitwise_loop_s f Hf); auto.
    + apply Forall_forall. intros w Hin. apply In_firstn in Hin. rewrite Forall_forall in Fx'. auto.
    + apply Forall_forall. intros w Hin. apply In_firstn in Hin. rewrite Forall_forall in Fy'. auto.
  - cbv beta. intros _ s2 W2 (S2 & F2). split.
    + eapply step_trans_nil_l; eauto.
    + rewrite !firstn_length, firstn_all2 in F2 by lia. exact F2.
Qed.

Lemma emit_gate_s op : bit_builder_s (emit op).
Proof.
  intros s a b o W Da Db Po. eapply oks_conseq; [apply emit_s; auto|].
  cbv beta. intros _ s1 W1 (S1 & D1 & _). auto.
Qed.

Lemma clear_gate_s : bit_builder_s (fun a b o => w <- fresh;; cc_inv b w;; emit AND a w o)%monad.
Proof.
  intros s a b o W Da Db Po.
  eapply fresh_wire_s with (R := fun w _ s' => defd s' w); [exact W| |].
  { intros w s1 W1 S1 P1. apply cc_inv_s; [auto|sdb|exact P1]. }
  intros w _ s2 W2 S2 D2. cbv beta in D2.
  apply (oks_after _ _ s s2 _ _ S2).
  eapply oks_conseq; [apply emit_s; [auto|sdb|sdb|eapply step_pend; [exact S2|exact Po|intros []]]|].
  cbv beta. intros _ s3 W3 (S3 & D3 & _). auto.
Qed.

Lemma binary_and_s s x y r :
  wfst s -> Forall (defd s) x -> Forall (defd s) y -> Forall (pend s) r -> NoDup r ->
  (length r <= Nat.max (length x) (length y))%nat ->
  oks (binary_and x y r) s (fun _ s' => step s s' r /\ Forall (defd s') r).
Proof. intros. unfold binary_and. apply bitwise_s; auto. apply emit_gate_s. Qed.

Lemma binary_or_s s x y r :
  wfst s -> Forall (defd s) x -> Forall (defd s) y -> Forall (pend s) r -> NoDup r ->
  (length r <= Nat.max (length x) (length y))%nat ->
  oks (binary_or x y r) s (fun _ s' => step s s' r /\ Forall (defd s') r).
Proof. intros. unfold binary_or. apply bitwise_s; auto. exact (cc_or_s ninp). Qed.

Lemma binary_xor_s s x y r :
  wfst s -> Forall (defd s) x -> Forall (defd s) y -> Forall (pend s) r -> NoDup r ->
  (length r <= Nat.max (length x) (length y))%nat ->
  oks (binary_xor x y r) s (fun _ s' => step s s' r /\ Forall (defd s') r).
Proof. intros. unfold binary_xor. apply bitwise_s; auto. apply emit_gate_s. Qed.

Lemma binary_clear_s s x y r :
  wfst s -> Forall (defd s) x -> Forall (defd s) y -> Forall (pend s) r -> NoDup r ->
  (length r <= Nat.max (length x) (length y))%nat ->
  oks (binary_clear x y r) s (fun _ s' => step s s' r /\ Forall (defd s') r).
Proof. intros. unfold binary_clear. apply bitwise_s; auto. apply clear_gate_s. Qed.

End C.

Lemma cmp_eval_gen (tg : bool) (B : list wire -> list wire -> list wire -> M unit)
      (F : N -> N -> bool) (xw yw : nat) (e0 : env) :
  let x := wrange 0 xw in
  let y := wrange (N.of_nat xw) yw in
  let ninp := N.of_nat xw + N.of_nat yw in
  0 < ninp ->
  okm tg (B x y [ninp]) (fun _ e => e ninp = F (valN e x) (valN e y)) ->
  (forall s, wfst ninp s -> Forall (defd ninp s) x -> Forall (defd ninp s) y -> pend ninp s ninp ->
     @oks ninp unit (B x y [ninp]) s (fun _ s' => step ninp s s' [ninp] /\ defd ninp s' ninp)) ->
  exists s', B x y [ninp] (st0 (ninp + 1) tg) = (tt, s') /\
    wfc_b ninp (gates s') = true /\ dbu ninp (gates s') /\
    eval_rev (gates s') e0 ninp = F (valN e0 x) (valN e0 y).
Proof.
  cbv zeta. set (x := wrange 0 xw). set (y := wrange (N.of_nat xw) yw).
  set (ninp := N.of_nat xw + N.of_nat yw). intros Hn Sem Str.
  assert (Ix : forall w, In w x -> w < ninp) by (intros w H; apply wrange_In in H; lia).
  assert (Iy : forall w, In w y -> w < ninp) by (intros w H; apply wrange_In in H; lia).
  specialize (Str (st0 (ninp + 1) tg) ltac:(apply wfst_st0; lia)
                  (Forall_defd_inputs _ _ _ Ix) (Forall_defd_inputs _ _ _ Iy)
                  ltac:(apply pend_st0; lia)).
  destruct (run_st0 ninp _ tg _ _ _ Sem Str e0) as ([] & s' & E & C & D & _ & P & I).
  exists s'. split; [exact E|]. split; [exact C|]. split; [exact D|].
  rewrite P, (valN_inputs _ e0 ninp x I Ix), (valN_inputs _ e0 ninp y I Iy). reflexivity.
Qed.

Theorem uint_gt_eval (tg : bool) (xw yw : nat) (e0 : env) :
  (1 <= Nat.max xw yw)%nat ->
  let x := wrange 0 xw in
  let y := wrange (N.of_nat xw) yw in
  let ninp := N.of_nat xw + N.of_nat yw in
  exists s', uint_gt x y [ninp] (st0 (ninp + 1) tg) = (tt, s') /\
    wfc_b ninp (gates s') = true /\ dbu ninp (gates s') /\
    eval_rev (gates s') e0 ninp = (valN e0 y <? valN e0 x).
Proof.
  intros L. apply (cmp_eval_gen tg uint_gt (fun a b => b <? a) xw yw e0); [lia| |].
  - apply okm_uint_gt. rewrite !wrange_length. exact L.
  - intros s W Fx Fy P. apply uint_gt_s; auto. rewrite !wrange_length. exact L.
Qed.

Theorem uint_ge_eval (tg : bool) (xw yw : nat) (e0 : env) :
  (1 <= Nat.max xw yw)%nat ->
  let x := wrange 0 xw in
  let y := wrange (N.of_nat xw) yw in
  let ninp := N.of_nat xw + N.of_nat yw in
  exists s', uint_ge x y [ninp] (st0 (ninp + 1) tg) = (tt, s') /\
    wfc_b ninp (gates s') = true /\ dbu ninp (gates s') /\
    eval_rev (gates s') e0 ninp = (valN e0 y <=? valN e0 x).
Proof.
  intros L. apply (cmp_eval_gen tg uint_ge (fun a b => b <=? a) xw yw e0); [lia| |].
  - apply okm_uint_ge. rewrite !wrange_length. exact L.
  - intros s W Fx Fy P. apply uint_ge_s; auto. rewrite !wrange_length. exact L.
Qed.

Theorem uint_lt_eval (tg : bool) (xw yw : nat) (e0 : env) :
  (1 <= Nat.max xw yw)%nat ->
  let x := wrange 0 xw in
  let y := wrange (N.of_nat xw) yw in
  let ninp := N.of_nat xw + N.of_nat yw in
  exists s', uint_lt x y [ninp] (st0 (ninp + 1) tg) = (tt, s') /\
    wfc_b ninp (gates s') = true /\ dbu ninp (gates s') /\
    eval_rev (gates s') e0 ninp = (valN e0 x <? valN e0 y).
Proof.
  intros L. apply (cmp_eval_gen tg uint_lt (fun a b => a <? b) xw yw e0); [lia| |].
  - apply okm_uint_lt. rewrite !wrange_length. exact L.
  - intros s W Fx Fy P. apply uint_lt_s; auto. rewrite !wrange_length. exact L.
Qed.

Theorem uint_le_eval (tg : bool) (xw yw : nat) (e0 : env) :
  (1 <= Nat.max xw yw)%nat ->
  let x := wrange 0 xw in
  let y := wrange (N.of_nat xw) yw in
  let ninp := N.of_nat xw + N.of_nat yw in
  exists s', uint_le x y [ninp] (st0 (ninp + 1) tg) = (tt, s') /\
    wfc_b ninp (gates s') = true /\ dbu ninp (gates s') /\
    eval_rev (gates s') e0 ninp = (valN e0 x <=? valN e0 y).
Proof.
  intros L. apply (cmp_eval_gen tg uint_le (fun a b => a <=? b) xw yw e0); [lia| |].
  - apply okm_uint_le. rewrite !wrange_length. exact L.
  - intros s W Fx Fy P. apply uint_le_s; auto. rewrite !wrange_length. exact L.
Qed.

Theorem eq_comparator_eval (tg : bool) (xw yw : nat) (e0 : env) :
  (1 <= Nat.max xw yw)%nat ->
  let x := wrange 0 xw in
  let y := wrange (N.of_nat xw) yw in
  let ninp := N.of_nat xw + N.of_nat yw in
  exists s', eq_comparator x y [ninp] (st0 (ninp + 1) tg) = (tt, s') /\
    wfc_b ninp (gates s') = true /\ dbu ninp (gates s') /\
    eval_rev (gates s') e0 ninp = (valN e0 x =? valN e0 y).
Proof.
  intros L. apply (cmp_eval_gen tg eq_comparator (fun a b => a =? b) xw yw e0); [lia| |].
  - apply okm_eq_comparator. rewrite !wrange_length. exact L.
  - intros s W Fx Fy P. apply eq_comparator_s; auto.
Qed.

Theorem neq_comparator_eval (tg : bool) (xw yw : nat) (e0 : env) :
  (1 <= Nat.max xw yw)%nat ->
  let x := wrange 0 xw in
  let y := wrange (N.of_nat xw) yw in
  let ninp := N.of_nat xw + N.of_nat yw in
  exists s', neq_comparator x y [ninp] (st0 (ninp + 1) tg) = (tt, s') /\
    wfc_b ninp (gates s') = true /\ dbu ninp (gates s') /\
    eval_rev (gates s') e0 ninp = negb (valN e0 x =? valN e0 y).
Proof.
  intros L. apply (cmp_eval_gen tg neq_comparator (fun a b => negb (a =? b)) xw yw e0); [lia| |].
  - apply okm_neq_comparator. rewrite !wrange_length. exact L.
  - intros s W Fx Fy P. apply neq_comparator_s; auto.
Qed.

Theorem int_gt_eval (tg : bool) (n : nat) (e0 : env) :
  (1 <= n)%nat ->
  let x := wrange 0 n in
  let y := wrange (N.of_nat n) n in
  let ninp := N.of_nat n + N.of_nat n in
  exists s', int_gt x y [ninp] (st0 (ninp + 1) tg) = (tt, s') /\
    wfc_b ninp (gates s') = true /\ dbu ninp (gates s') /\
    eval_rev (gates s') e0 ninp = (sval n (valN e0 y) <? sval n (valN e0 x))%Z.
Proof.
  intros L. apply (cmp_eval_gen tg int_gt (fun a b => (sval n b <? sval n a)%Z) n n e0); [lia| |].
  - apply okm_int_gt; auto; apply wrange_length.
  - intros s W Fx Fy P. apply int_gt_s; auto.
Qed.

Theorem int_ge_eval (tg : bool) (n : nat) (e0 : env) :
  (1 <= n)%nat ->
  let x := wrange 0 n in
  let y := wrange (N.of_nat n) n in
  let ninp := N.of_nat n + N.of_nat n in
  exists s', int_ge x y [ninp] (st0 (ninp + 1) tg) = (tt, s') /\
    wfc_b ninp (gates s') = true /\ dbu ninp (gates s') /\
    eval_rev (gates s') e0 ninp = (sval n (valN e0 y) <=? sval n (valN e0 x))%Z.
Proof.
  intros L. apply (cmp_eval_gen tg int_ge (fun a b => (sval n b <=? sval n a)%Z) n n e0); [lia| |].
  - apply okm_int_ge; auto; apply wrange_length.
  - intros s W Fx Fy P. apply int_ge_s; auto.
Qed.

Theorem int_lt_eval (tg : bool) (n : nat) (e0 : env) :
  (1 <= n)%nat ->
  let x := wrange 0 n in
  let y := wrange (N.of_nat n) n in
  let ninp := N.of_nat n + N.of_nat n in
  exists s', int_lt x y [ninp] (st0 (ninp + 1) tg) = (tt, s') /\
    wfc_b ninp (gates s') = true /\ dbu ninp (gates s') /\
    eval_rev (gates s') e0 ninp = (sval n (valN e0 x) <? sval n (valN e0 y))%Z.
Proof.
  intros L. apply (cmp_eval_gen tg int_lt (fun a b => (sval n a <? sval n b)%Z) n n e0); [lia| |].
  - apply okm_int_lt; auto; apply wrange_length.
  - intros s W Fx Fy P. apply int_lt_s; auto.
Qed.

Theorem int_le_eval (tg : bool) (n : nat) (e0 : env) :
  (1 <= n)%nat ->
  let x := wrange 0 n in
  let y := wrange (N.of_nat n) n in
  let ninp := N.of_nat n + N.of_nat n in
  exists s', int_le x y [ninp] (st0 (ninp + 1) tg) = (tt, s') /\
    wfc_b ninp (gates s') = true /\ dbu ninp (gates s') /\
    eval_rev (gates s') e0 ninp = (sval n (valN e0 x) <=? sval n (valN e0 y))%Z.
Proof.
  intros L. apply (cmp_eval_gen tg int_le (fun a b => (sval n a <=? sval n b)%Z) n n e0); [lia| |].
  - apply okm_int_le; auto; apply wrange_length.
  - intros s W Fx Fy P. apply int_le_s; auto.
Qed.

Lemma logical_eval_gen (tg : bool) (B : list wire -> list wire -> list wire -> M unit)
      (F : bool -> bool -> bool) (e0 : env) :
  okm tg (B [0] [1] [2]) (fun _ e => e 2 = F (e 0) (e 1)) ->
  (forall s, wfst 2 s -> Forall (defd 2 s) [0] -> Forall (defd 2 s) [1] -> pend 2 s 2 ->
     @oks 2 unit (B [0] [1] [2]) s (fun _ s' => step 2 s s' [2] /\ defd 2 s' 2)) ->
  exists s', B [0] [1] [2] (st0 3 tg) = (tt, s') /\
    wfc_b 2 (gates s') = true /\ dbu 2 (gates s') /\
    eval_rev (gates s') e0 2 = F (e0 0) (e0 1).
Proof.
  intros Sem Str.
  specialize (Str (st0 3 tg) ltac:(apply wfst_st0; lia)
                  ltac:(constructor; [left; lia|constructor]) ltac:(constructor; [left; lia|constructor])
                  ltac:(apply pend_st0; lia)).
  destruct (run_st0 2 _ tg _ _ _ Sem Str e0) as ([] & s' & E & C & D & _ & P & I).
  exists s'. split; [exact E|]. split; [exact C|]. split; [exact D|].
  rewrite P, (I 0), (I 1) by lia. reflexivity.
Qed.

Theorem logical_and_eval (tg : bool) (e0 : env) :
  exists s', logical_and [0] [1] [2] (st0 3 tg) = (tt, s') /\
    wfc_b 2 (gates s') = true /\ dbu 2 (gates s') /\
    eval_rev (gates s') e0 2 = e0 0 && e0 1.
Proof.
  apply (logical_eval_gen tg logical_and andb); [apply okm_logical_and|].
  intros. apply logical_and_s; auto.
Qed.

Theorem logical_or_eval (tg : bool) (e0 : env) :
  exists s', logical_or [0] [1] [2] (st0 3 tg) = (tt, s') /\
    wfc_b 2 (gates s') = true /\ dbu 2 (gates s') /\
    eval_rev (gates s') e0 2 = e0 0 || e0 1.
Proof.
  apply (logical_eval_gen tg logical_or orb); [apply okm_logical_or|].
  intros. apply logical_or_s; auto.
Qed.

(* an index beyond the operand tests a zero bit; the builder then returns a
   constant wire instead of the destination *)
Lemma bit_test_eval_gen (tg : bool) (B : list wire -> nat -> list wire -> M (list wire))
      (F : bool -> bool) (xw index : nat) (e0 : env) :
  let x := wrange 0 xw in
  let ninp := N.of_nat xw in
  (1 <= xw)%nat ->
  okm tg (B x index [ninp]) (fun r' e => map e r' = [F (N.testbit (valN e x) (N.of_nat index))]) ->
  (forall s, wfst ninp s -> Forall (defd ninp s) x -> pend ninp s ninp ->
     @oks ninp _ (B x index [ninp]) s
        (fun r' s' => step ninp s s' [ninp] /\ Forall (defd ninp s') r' /\ length r' = 1%nat)) ->
  exists r' s', B x index [ninp] (st0 (ninp + 1) tg) = (r', s') /\
    wfc_b ninp (gates s') = true /\ dbu ninp (gates s') /\
    Forall (defd ninp s') r' /\
    map (eval_rev (gates s') e0) r' = [F (N.testbit (valN e0 x) (N.of_nat index))].
Proof.
  cbv zeta. set (x := wrange 0 xw). set (ninp := N.of_nat xw). intros L Sem Str.
  assert (Ix : forall w, In w x -> w < ninp) by (intros w H; apply wrange_In in H; lia).
  specialize (Str (st0 (ninp + 1) tg) ltac:(apply wfst_st0; lia) (Forall_defd_inputs _ _ _ Ix)
                  ltac:(apply pend_st0; lia)).
  destruct (run_st0 ninp _ tg _ _ _ Sem Str e0) as (r' & s' & E & C & D & (_ & Fr & _) & P & I).
  exists r', s'. split; [exact E|]. split; [exact C|]. split; [exact D|]. split; [exact Fr|].
  rewrite P, (valN_inputs _ e0 ninp x I Ix). reflexivity.
Qed.

Theorem bit_set_test_eval (tg : bool) (xw index : nat) (e0 : env) :
  (1 <= xw)%nat ->
  let x := wrange 0 xw in
  let ninp := N.of_nat xw in
  exists r' s', bit_set_test x index [ninp] (st0 (ninp + 1) tg) = (r', s') /\
    wfc_b ninp (gates s') = true /\ dbu ninp (gates s') /\
    Forall (defd ninp s') r' /\
    map (eval_rev (gates s') e0) r' = [N.testbit (valN e0 x) (N.of_nat index)].
Proof.
  intros L. apply (bit_test_eval_gen tg bit_set_test (fun b => b) xw index e0 L).
  - apply okm_bit_set_test.
  - intros. apply bit_set_test_s; auto.
Qed.

Theorem bit_clr_test_eval (tg : bool) (xw index : nat) (e0 : env) :
  (1 <= xw)%nat ->
  let x := wrange 0 xw in
  let ninp := N.of_nat xw in
  exists r' s', bit_clr_test x index [ninp] (st0 (ninp + 1) tg) = (r', s') /\
    wfc_b ninp (gates s') = true /\ dbu ninp (gates s') /\
    Forall (defd ninp s') r' /\
    map (eval_rev (gates s') e0) r' = [negb (N.testbit (valN e0 x) (N.of_nat index))].
Proof.
  intros L. apply (bit_test_eval_gen tg bit_clr_test negb xw index e0 L).
  - apply okm_bit_clr_test.
  - intros. apply bit_clr_test_s; auto.
Qed.

Lemma bitwise_eval_gen (tg : bool) (B : list wire -> list wire -> list wire -> M unit)
      (F : N -> N -> N) (xw yw k : nat) (e0 : env) :
  let x := wrange 0 xw in
  let y := wrange (N.of_nat xw) yw in
  let ninp := N.of_nat xw + N.of_nat yw in
  let r := wrange ninp k in
  0 < ninp ->
  okm tg (B x y r) (fun _ e => valN e r = F (valN e x) (valN e y)) ->
  (forall s, wfst ninp s -> Forall (defd ninp s) x -> Forall (defd ninp s) y ->
     Forall (pend ninp s) r -> NoDup r ->
     @oks ninp unit (B x y r) s (fun _ s' => step ninp s s' r /\ Forall (defd ninp s') r)) ->
  exists s', B x y r (st0 (ninp + N.of_nat k) tg) = (tt, s') /\
    wfc_b ninp (gates s') = true /\ dbu ninp (gates s') /\
    valN (eval_rev (gates s') e0) r = F (valN e0 x) (valN e0 y).
Proof.
  cbv zeta. intros Hn Sem Str.
  edestruct (eval2 tg xw yw k B
               (fun _ e a b _ => valN e (wrange (N.of_nat xw + N.of_nat yw) k) = F a b))
    as ([] & s' & H); [exact Hn|exact Sem| |exists s'; exact H].
  intros s _. apply Str.
Qed.

Theorem binary_and_eval (tg : bool) (xw yw : nat) (e0 : env) :
  (1 <= Nat.max xw yw)%nat ->
  let x := wrange 0 xw in
  let y := wrange (N.of_nat xw) yw in
  let ninp := N.of_nat xw + N.of_nat yw in
  let r := wrange ninp (Nat.max xw yw) in
  exists s', binary_and x y r (st0 (ninp + N.of_nat (Nat.max xw yw)) tg) = (tt, s') /\
    wfc_b ninp (gates s') = true /\ dbu ninp (gates s') /\
    valN (eval_rev (gates s') e0) r = N.land (valN e0 x) (valN e0 y).
Proof.
  intros L. apply (bitwise_eval_gen tg binary_and N.land xw yw (Nat.max xw yw) e0); [lia| |].
  - apply okm_binary_and. rewrite !wrange_length. reflexivity.
  - intros s W Fx Fy P ND. apply binary_and_s; auto. rewrite !wrange_length. lia.
Qed.

Theorem binary_or_eval (tg : bool) (xw yw : nat) (e0 : env) :
  (1 <= Nat.max xw yw)%nat ->
  let x := wrange 0 xw in
  let y := wrange (N.of_nat xw) yw in
  let ninp := N.of_nat xw + N.of_nat yw in
  let r := wrange ninp (Nat.max xw yw) in
  exists s', binary_or x y r (st0 (ninp + N.of_nat (Nat.max xw yw)) tg) = (tt, s') /\
    wfc_b ninp (gates s') = true /\ dbu ninp (gates s') /\
    valN (eval_rev (gates s') e0) r = N.lor (valN e0 x) (valN e0 y).
Proof.
  intros L. apply (bitwise_eval_gen tg binary_or N.lor xw yw (Nat.max xw yw) e0); [lia| |].
  - apply okm_binary_or. rewrite !wrange_length. reflexivity.
  - intros s W Fx Fy P ND. apply binary_or_s; auto. rewrite !wrange_length. lia.
Qed.

Theorem binary_xor_eval (tg : bool) (xw yw : nat) (e0 : env) :
  (1 <= Nat.max xw yw)%nat ->
  let x := wrange 0 xw in
  let y := wrange (N.of_nat xw) yw in
  let ninp := N.of_nat xw + N.of_nat yw in
  let r := wrange ninp (Nat.max xw yw) in
  exists s', binary_xor x y r (st0 (ninp + N.of_nat (Nat.max xw yw)) tg) = (tt, s') /\
    wfc_b ninp (gates s') = true /\ dbu ninp (gates s') /\
    valN (eval_rev (gates s') e0) r = N.lxor (valN e0 x) (valN e0 y).
Proof.
  intros L. apply (bitwise_eval_gen tg binary_xor N.lxor xw yw (Nat.max xw yw) e0); [lia| |].
  - apply okm_binary_xor. rewrite !wrange_length. reflexivity.
  - intros s W Fx Fy P ND. apply binary_xor_s; auto. rewrite !wrange_length. lia.
Qed.

Theorem binary_clear_eval (tg : bool) (xw yw : nat) (e0 : env) :
  (1 <= Nat.max xw yw)%nat ->
  let x := wrange 0 xw in
  let y := wrange (N.of_nat xw) yw in
  let ninp := N.of_nat xw + N.of_nat yw in
  let r := wrange ninp (Nat.max xw yw) in
  exists s', binary_clear x y r (st0 (ninp + N.of_nat (Nat.max xw yw)) tg) = (tt, s') /\
    wfc_b ninp (gates s') = true /\ dbu ninp (gates s') /\
    valN (eval_rev (gates s') e0) r = N.ldiff (valN e0 x) (valN e0 y).
Proof.
  intros L. apply (bitwise_eval_gen tg binary_clear N.ldiff xw yw (Nat.max xw yw) e0); [lia| |].
  - apply okm_binary_clear. rewrite !wrange_length. reflexivity.
  - intros s W Fx Fy P ND. apply binary_clear_s; auto. rewrite !wrange_length. lia.
Qed.

Theorem binary_and_trunc_eval (tg : bool) (xw yw k : nat) (e0 : env) :
  (1 <= Nat.max xw yw)%nat -> (k <= Nat.max xw yw)%nat ->
  let x := wrange 0 xw in
  let y := wrange (N.of_nat xw) yw in
  let ninp := N.of_nat xw + N.of_nat yw in
  let r := wrange ninp k in
  exists s', binary_and x y r (st0 (ninp + N.of_nat k) tg) = (tt, s') /\
    wfc_b ninp (gates s') = true /\ dbu ninp (gates s') /\
    valN (eval_rev (gates s') e0) r = N.land (valN e0 x) (valN e0 y) mod 2 ^ N.of_nat k.
Proof.
  intros L Lk.
  apply (bitwise_eval_gen tg binary_and (fun a b => N.land a b mod 2 ^ N.of_nat k) xw yw k e0); [lia| |].
  - pose proof (okm_binary_and_trunc tg (wrange 0 xw) (wrange (N.of_nat xw) yw)
                  (wrange (N.of_nat xw + N.of_nat yw) k)) as H.
    rewrite !wrange_length in H. apply H. exact Lk.
  - intros s W Fx Fy P ND. apply binary_and_s; auto. rewrite !wrange_length. lia.
Qed.

Theorem binary_or_trunc_eval (tg : bool) (xw yw k : nat) (e0 : env) :
  (1 <= Nat.max xw yw)%nat -> (k <= Nat.max xw yw)%nat ->
  let x := wrange 0 xw in
  let y := wrange (N.of_nat xw) yw in
  let ninp := N.of_nat xw + N.of_nat yw in
  let r := wrange ninp k in
  exists s', binary_or x y r (st0 (ninp + N.of_nat k) tg) = (tt, s') /\
    wfc_b ninp (gates s') = true /\ dbu ninp (gates s') /\
    valN (eval_rev (gates s') e0) r = N.lor (valN e0 x) (valN e0 y) mod 2 ^ N.of_nat k.
Proof.
  intros L Lk.
  apply (bitwise_eval_gen tg binary_or (fun a b => N.lor a b mod 2 ^ N.of_nat k) xw yw k e0); [lia| |].
  - pose proof (okm_binary_or_trunc tg (wrange 0 xw) (wrange (N.of_nat xw) yw)
                  (wrange (N.of_nat xw + N.of_nat yw) k)) as H.
    rewrite !wrange_length in H. apply H. exact Lk.
  - intros s W Fx Fy P ND. apply binary_or_s; auto. rewrite !wrange_length. lia.
Qed.

Theorem binary_xor_trunc_eval (tg : bool) (xw yw k : nat) (e0 : env) :
  (1 <= Nat.max xw yw)%nat -> (k <= Nat.max xw yw)%nat ->
  let x := wrange 0 xw in
  let y := wrange (N.of_nat xw) yw in
  let ninp := N.of_nat xw + N.of_nat yw in
  let r := wrange ninp k in
  exists s', binary_xor x y r (st0 (ninp + N.of_nat k) tg) = (tt, s') /\
    wfc_b ninp (gates s') = true /\ dbu ninp (gates s') /\
    valN (eval_rev (gates s') e0) r = N.lxor (valN e0 x) (valN e0 y) mod 2 ^ N.of_nat k.
Proof.
  intros L Lk.
  apply (bitwise_eval_gen tg binary_xor (fun a b => N.lxor a b mod 2 ^ N.of_nat k) xw yw k e0); [lia| |].
  - pose proof (okm_binary_xor_trunc tg (wrange 0 xw) (wrange (N.of_nat xw) yw)
                  (wrange (N.of_nat xw + N.of_nat yw) k)) as H.
    rewrite !wrange_length in H. apply H. exact Lk.
  - intros s W Fx Fy P ND. apply binary_xor_s; auto. rewrite !wrange_length. lia.
Qed.

Theorem binary_clear_trunc_eval (tg : bool) (xw yw k : nat) (e0 : env) :
  (1 <= Nat.max xw yw)%nat -> (k <= Nat.max xw yw)%nat ->
  let x := wrange 0 xw in
  let y := wrange (N.of_nat xw) yw in
  let ninp := N.of_nat xw + N.of_nat yw in
  let r := wrange ninp k in
  exists s', binary_clear x y r (st0 (ninp + N.of_nat k) tg) = (tt, s') /\
    wfc_b ninp (gates s') = true /\ dbu ninp (gates s') /\
    valN (eval_rev (gates s') e0) r = N.ldiff (valN e0 x) (valN e0 y) mod 2 ^ N.of_nat k.
Proof.
  intros L Lk.
  apply (bitwise_eval_gen tg binary_clear (fun a b => N.ldiff a b mod 2 ^ N.of_nat k) xw yw k e0); [lia| |].
  - pose proof (okm_binary_clear_trunc tg (wrange 0 xw) (wrange (N.of_nat xw) yw)
                  (wrange (N.of_nat xw + N.of_nat yw) k)) as H.
    rewrite !wrange_length in H. apply H. exact Lk.
  - intros s W Fx Fy P ND. apply binary_clear_s; auto. rewrite !wrange_length. lia.
Qed.
