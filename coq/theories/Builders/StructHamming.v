(* C07: structural lemmas (single assignment, defined before use) for
   circuits.Hamming (ham_xor, ham_pairs, ham_reduce, hamming), for every width and
   both targets, and the theorems about the EVALUATED NewAdder, NewSubtractor and
   Hamming circuits in the harness wire layout. *)
From Coq Require Import NArith List Lia.
From Mpc Require Import Builders.Emit Builders.StructProof Builders.StructArith Builders.StructKs
  Builders.Adder Builders.Sub Builders.Hamming Builders.HammingProof.
Import ListNotations.
Open Scope N_scope.

Section H.
Variable ninp : N.
Notation defd := (defd ninp). Notation pend := (pend ninp). Notation wfst := (wfst ninp).
Notation step := (step ninp). Notation oks := (@oks ninp _).

Lemma ham_xor_s : forall a b s, wfst s -> Forall (defd s) a -> Forall (defd s) b ->
  oks (ham_xor a b) s
      (fun arr s' => step s s' [] /\ Forall (Forall (defd s')) arr /\ Forall posw arr /\
                     length arr = Nat.min (length a) (length b)).
Proof.
  induction a as [|ai a IH]; intros b s W Fa Fb.
  - cbn. apply oks_ret; auto. split; [apply step_refl|]. split; [constructor|]. split; [constructor|reflexivity].
  - destruct b as [|bi b].
    + cbn. apply oks_ret; auto. split; [apply step_refl|]. split; [constructor|]. split; [constructor|reflexivity].
    + cbn [ham_xor]. inversion Fa as [|? ? Dai Fa']; subst. inversion Fb as [|? ? Dbi Fb']; subst.
      apply gate_s; auto. intros w s1 W1 S1 Dw.
      eapply oks_bind; [apply IH; [auto| |]; eapply Forall_defd_step; eauto|].
      intros r s2 W2 (S2 & F2 & P2 & L2). cbv beta. apply oks_ret; auto.
      split; [exact (step_trans_nil_l _ _ _ _ _ S1 S2)|]. split; [|split].
      * constructor; [constructor; [sdb|constructor]|exact F2].
      * constructor; [unfold posw; cbn; lia|exact P2].
      * cbn [length Nat.min]. rewrite L2. reflexivity.
Qed.

Lemma ham_pairs_s : forall n arr s, (length arr <= n)%nat ->
  wfst s -> Forall (Forall (defd s)) arr -> Forall posw arr ->
  oks (ham_pairs arr) s
      (fun arr' s' => step s s' [] /\ Forall (Forall (defd s')) arr' /\ Forall posw arr' /\
                      ((1 <= length arr)%nat -> (1 <= length arr')%nat)).
Proof.
  induction n as [|n IH]; intros arr s Hn W F P.
  - destruct arr; [|cbn in Hn; lia]. cbn. apply oks_ret; auto. split; [apply step_refl|auto].
  - destruct arr as [|u [|v rest]].
    + cbn. apply oks_ret; auto. split; [apply step_refl|auto].
    + cbn [ham_pairs]. apply oks_ret; auto. split; [apply step_refl|auto].
    + cbn [ham_pairs].
      inversion F as [|? ? Du F1]; subst. inversion F1 as [|? ? Dv F2]; subst.
      inversion P as [|? ? Pu P1]; subst. inversion P1 as [|? ? Pv P2]; subst.
      unfold posw in Pu, Pv.
      eapply fresh_dest_s with (R := fun z x s' => Forall (defd s') x /\ length x = length z); [exact W| |].
      { intros z s1 W1 S1 Pz NDz Lz.
        apply new_adder_s; auto; [sfd|sfd|unfold wire in *; lia|unfold wire in *; lia]. }
      intros z res s2 W2 S2 Lz (D2 & L2). cbv beta. rewrite Lz in L2.
      eapply oks_bind; [apply (IH rest); [cbn in Hn; lia|auto|eapply FF_defd_step; [exact S2|exact F2]|exact P2]|].
      intros r s3 W3 (S3 & F3 & P3 & _). cbv beta. apply oks_ret; auto.
      split; [exact (step_trans_nil_l _ _ _ _ _ S2 S3)|].
      split; [constructor; [sfd|exact F3]|].
      split; [constructor; [unfold posw; unfold wire in *; lia|exact P3]|]. cbn. lia.
Qed.

Lemma ham_reduce_s : forall fuel arr s,
  wfst s -> Forall (Forall (defd s)) arr -> Forall posw arr ->
  oks (ham_reduce fuel arr) s
      (fun arr' s' => step s s' [] /\ Forall (Forall (defd s')) arr' /\ Forall posw arr' /\
                      ((1 <= length arr)%nat -> (1 <= length arr')%nat)).
Proof.
  induction fuel as [|f IH]; intros arr s W F P.
  - cbn. apply oks_ret; auto. split; [apply step_refl|auto].
  - cbn [ham_reduce]. destruct (Nat.ltb 2 (length arr)).
    + eapply oks_bind; [apply (ham_pairs_s (length arr)); auto|].
      intros a s1 W1 (S1 & F1 & P1 & L1). cbv beta.
      eapply oks_conseq; [apply IH; auto|]. cbv beta. intros a' s2 W2 (S2 & F2 & P2 & L2).
      split; [|split; [auto|split; [auto|lia]]].
      eapply step_trans_nil_l; eauto.
    + apply oks_ret; auto. split; [apply step_refl|auto].
Qed.

Lemma hamming_s s a b r :
  wfst s -> Forall (defd s) a -> Forall (defd s) b -> Forall (pend s) r -> NoDup r ->
  (2 <= Nat.max (length a) (length b))%nat -> (1 <= length r)%nat ->
  oks (hamming a b r) s
      (fun r' s' => step s s' r /\ Forall (defd s') r' /\ length r' = length r).
Proof.
  intros W Fa Fb Pr ND Hm Hr. unfold hamming.
  sbind zero_pad_s. intros [a' b'] s1 W1 (S1 & Fa' & Fb' & La & Lb). cbn [fst snd] in *. cbv beta iota.
  eapply oks_bind; [apply ham_xor_s; auto|]. intros arr s2 W2 (S2 & F2 & P2 & L2). cbv beta.
  eapply oks_bind; [apply ham_reduce_s; auto|]. intros arr' s3 W3 (S3 & F3 & P3 & L3). cbv beta.
  assert (L3' : (1 <= length arr')%nat) by (apply L3; unfold wire in *; lia).
  destruct arr' as [|u rest]; [cbn in L3'; lia|].
  inversion F3 as [|? ? Du F3']; subst. inversion P3 as [|? ? Pu P3']; subst. unfold posw in Pu.
  cbn [nth].
  eapply oks_conseq; [apply new_adder_s; auto|].
  - destruct rest as [|v rest']; cbn [nth]; [constructor|]. inversion F3'; auto.
  - eapply Forall_pend_step0; [exact S3|]. eapply Forall_pend_step0; [exact S2|]. eapply Forall_pend_step0; [exact S1|exact Pr].
  - unfold wire in *. lia.
  - cbv beta. intros r' s4 W4 (S4 & D4 & L4). split; [|auto].
    exact (step_trans_nil_l _ _ _ _ _ S1 (step_trans_nil_l _ _ _ _ _ S2 (step_trans_nil_l _ _ _ _ _ S3 S4))).
Qed.

End H.

Theorem new_adder_eval (tg : bool) (xw yw zw : nat) (e0 : env) :
  (1 <= Nat.max xw yw)%nat -> (1 <= zw)%nat ->
  let x := wrange 0 xw in
  let y := wrange (N.of_nat xw) yw in
  let ninp := N.of_nat xw + N.of_nat yw in
  let z := wrange ninp zw in
  exists z' s', new_adder x y z (st0 (ninp + N.of_nat zw) tg) = (z', s') /\
    wfc_b ninp (gates s') = true /\ dbu ninp (gates s') /\ length z' = zw /\
    valN (eval_rev (gates s') e0) z' = (valN e0 x + valN e0 y) mod 2 ^ N.of_nat zw.
Proof.
  intros Hm Hz.
  eapply (eval2 tg xw yw zw new_adder
            (fun z' e a b n => length z' = n /\ valN e z' = (a + b) mod 2 ^ N.of_nat n)); [lia| |].
  - apply okm_new_adder; rewrite ?wrange_length; lia.
  - intros s G W Fx Fy Pz ND. apply new_adder_s; rewrite ?wrange_length; auto; lia.
Qed.

Theorem hamming_eval (tg : bool) (aw bw rw : nat) (e0 : env) :
  (2 <= Nat.max aw bw)%nat -> (1 <= rw)%nat ->
  let a := wrange 0 aw in
  let b := wrange (N.of_nat aw) bw in
  let ninp := N.of_nat aw + N.of_nat bw in
  let r := wrange ninp rw in
  exists r' s', hamming a b r (st0 (ninp + N.of_nat rw) tg) = (r', s') /\
    wfc_b ninp (gates s') = true /\ dbu ninp (gates s') /\ length r' = rw /\
    valN (eval_rev (gates s') e0) r' =
      popcountN (N.lxor (valN e0 a) (valN e0 b)) mod 2 ^ N.of_nat rw.
Proof.
  intros Hm Hr.
  eapply (eval2 tg aw bw rw hamming
            (fun r' e a b n => length r' = n /\
               valN e r' = popcountN (N.lxor a b) mod 2 ^ N.of_nat n)); [lia| |].
  - apply okm_hamming; rewrite ?wrange_length; lia.
  - intros s G W Fa Fb Pr ND. apply hamming_s; rewrite ?wrange_length; auto; lia.
Qed.

Lemma sub_forms (x y M : N) : M <> 0 ->
  (x mod M + (M - 1 - y mod M) + 1) mod M = (x + M - y mod M) mod M.
Proof.
  intros NZ. pose proof (N.mod_lt y M NZ) as By.
  replace (x mod M + (M - 1 - y mod M) + 1) with (x mod M + (M - y mod M)) by lia.
  rewrite N.add_mod_idemp_l by exact NZ. f_equal. lia.
Qed.

(* zw <= max(xw,yw)+1: the range in which the ripple-borrow specification holds
   (SubProof.ripple_subtractor_wide_false) *)
Theorem new_subtractor_eval (tg : bool) (xw yw zw : nat) (e0 : env) :
  (1 <= Nat.max xw yw)%nat -> (1 <= zw)%nat -> (zw <= Nat.max xw yw + 1)%nat ->
  let x := wrange 0 xw in
  let y := wrange (N.of_nat xw) yw in
  let ninp := N.of_nat xw + N.of_nat yw in
  let z := wrange ninp zw in
  exists z' s', new_subtractor x y z (st0 (ninp + N.of_nat zw) tg) = (z', s') /\
    wfc_b ninp (gates s') = true /\ dbu ninp (gates s') /\ length z' = zw /\
    valN (eval_rev (gates s') e0) z' =
      (valN e0 x + 2 ^ N.of_nat zw - valN e0 y mod 2 ^ N.of_nat zw) mod 2 ^ N.of_nat zw.
Proof.
  intros Hm Hz Hw. destruct tg.
  - pose proof (new_subtractor_gmw_eval xw yw zw e0 Hz Hm) as H. cbv zeta in *.
    replace (Nat.min (S (Nat.max xw yw)) zw) with zw in H by lia.
    destruct H as (z' & s' & E & C & D & L & V). exists z', s'.
    split; [exact E|]. split; [exact C|]. split; [exact D|]. split; [exact L|].
    rewrite V. apply sub_forms. apply N.pow_nonzero. discriminate.
  - exact (new_subtractor_yao_eval xw yw zw e0 Hm Hz Hw).
Qed.
