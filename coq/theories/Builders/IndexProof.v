(* C07: circuits.NewIndex selects element (index mod 2^bits) of an array of
   n elements of [size] wires, or the all-zero default when that position is >= n
   (bits = 1 for n <= 2, else ceil(log2 n)); for every element size >= 1, every
   n >= 1, every index operand of at least one wire (wires it lacks below [bits]
   count as zero) and both targets.  For n = 0 the result is all zero. *)
From Coq Require Import NArith List Arith Lia.
From Mpc Require Import Base.ListFacts Builders.Emit Builders.EmitProof Builders.Mux
     Builders.MuxProof Builders.Index.
Import ListNotations.
Open Scope N_scope.

Definition elem (size : nat) (array : list wire) (i : nat) : list wire :=
  firstn size (skipn (i * size) array).

Lemma elem_firstn size array L i :
  (i < L)%nat -> elem size (firstn (L * size) array) i = elem size array i.
Proof.
  intros H. unfold elem. rewrite skipn_firstn_comm, firstn_firstn. f_equal. nia.
Qed.

Lemma elem_skipn size array L i :
  elem size (skipn (L * size) array) i = elem size array (L + i).
Proof.
  unfold elem. rewrite skipn_skipn. do 2 f_equal. lia.
Qed.

Lemma elems_div size (array : list wire) n :
  (1 <= size)%nat -> length array = (n * size)%nat -> (length array / size)%nat = n.
Proof. intros Hs Ha. rewrite Ha. apply Nat.div_mul. lia. Qed.

Lemma lower_half size (array : list wire) n L :
  length array = (n * size)%nat ->
  let fArray := if (L <? n)%nat then firstn (L * size) array else array in
  length fArray = (Nat.min L n * size)%nat /\
  forall i, (i < Nat.min L n)%nat -> elem size fArray i = elem size array i.
Proof.
  intros Ha. cbv zeta. destruct (Nat.ltb_spec L n) as [Hlt|Hge].
  - rewrite Nat.min_l by lia. split.
    + rewrite firstn_length. nia.
    + intros i Hi. apply elem_firstn. exact Hi.
  - rewrite Nat.min_r by lia. split; [exact Ha | reflexivity].
Qed.

Lemma pow2_half k : (2 ^ S k / 2 = 2 ^ k)%nat.
Proof. rewrite Nat.pow_succ_r', Nat.mul_comm. apply Nat.div_mul. lia. Qed.

Lemma firstn1_skipn (k : nat) (l : list wire) :
  (k < length l)%nat -> firstn 1 (skipn k l) = [nth k l 0].
Proof.
  intros H. rewrite <- (Nat.add_0_r k) at 2. rewrite <- nth_skipn.
  destruct (skipn k l) as [|w r] eqn:E; [|reflexivity].
  apply (f_equal (@length wire)) in E. rewrite skipn_length in E. cbn in E. lia.
Qed.

Lemma new_index_rec_S bit' length_ size array index def out :
  new_index_rec (S bit') length_ size array index def out =
  let n := (length array / size)%nat in
  let length_ := (length_ / 2)%nat in
  let fArray := if Nat.ltb length_ n then firstn (length_ * size) array else array in
  if Nat.leb (length index) (S bit') then
    new_index_rec bit' length_ size fArray index def out
  else
    bind (fresh_n size) (fun fVal =>
    bind (new_index_rec bit' length_ size fArray index def fVal) (fun _ =>
    bind (if Nat.ltb length_ n then
            bind (fresh_n size) (fun tVal =>
            bind (new_index_rec bit' length_ size (skipn (length_ * size) array) index def tVal)
                 (fun _ => ret tVal))
          else ret def) (fun tVal =>
    new_mux (firstn 1 (skipn (S bit') index)) tVal fVal out))).
Proof. reflexivity. Qed.

Definition idx (e : env) (index : list wire) (k : nat) : nat :=
  N.to_nat (valN e (firstn k index)).

Lemma idx_lt e index k : (idx e index k < 2 ^ k)%nat.
Proof.
  unfold idx. pose proof (valN_pow_le e (firstn k index) k (firstn_le_length k index)) as B.
  pose proof (Nat2N.inj_pow 2 k) as P. change (N.of_nat 2) with 2 in P. lia.
Qed.

Lemma idx_short e index k : (length index <= k)%nat -> idx e index (S k) = idx e index k.
Proof. intros H. unfold idx. rewrite !firstn_all2 by lia. reflexivity. Qed.

Lemma idx_S e index k :
  (k < length index)%nat ->
  idx e index (S k) = if e (nth k index 0%N) then (2 ^ k + idx e index k)%nat else idx e index k.
Proof.
  intros H. unfold idx. rewrite (firstn_S_nth (0 : wire) k index H), valN_app, valN_cons, valN_nil.
  rewrite firstn_length_le by lia.
  pose proof (Nat2N.inj_pow 2 k) as P. change (N.of_nat 2) with 2 in P.
  destruct (e (nth k index 0%N)); cbn [N.b2n]; lia.
Qed.

(* The index operand may be shorter than bit+1 wires: the missing wires count as
   zero (Go then descends into the lower half only). *)
Lemma okm_new_index_rec t size index def :
  (1 <= size)%nat -> length def = size -> (1 <= length index)%nat ->
  forall bit array out n,
    length array = (n * size)%nat ->
    (1 <= n)%nat -> (n <= 2 ^ S bit)%nat -> length out = size ->
    okm t (new_index_rec bit (2 ^ S bit) size array index def out)
        (fun _ e => let i := idx e index (S bit) in
                    valN e out = if (i <? n)%nat then valN e (elem size array i)
                                 else valN e def).
Proof.
  intros Hs Hdef Hix. induction bit as [|bit' IH]; intros array out n Ha Hn1 Hn2 Ho.
  - (* one or two elements: element 0 is fVal, element 1 (or def) is tVal *)
    cbn [new_index_rec]. rewrite (elems_div size array n Hs Ha).
    rewrite <- (skipn_O index) at 1. rewrite firstn1_skipn by lia.
    eapply okm_weaken.
    + apply okm_new_mux. rewrite firstn_length.
      destruct (Nat.ltb_spec 1 n); rewrite ?firstn_length, ?skipn_length; nia.
    + cbv beta zeta. intros _ e H. rewrite H, idx_S by lia.
      change (idx e index 0) with 0%nat.
      destruct (e (nth 0 index 0%N)); cbn [Nat.pow Nat.add].
      * destruct (1 <? n)%nat; [|reflexivity].
        unfold elem. rewrite Nat.mul_1_l. reflexivity.
      * rewrite (proj2 (Nat.ltb_lt 0 n)) by lia. reflexivity.
  - rewrite new_index_rec_S. cbv zeta.
    rewrite (elems_div size array n Hs Ha), pow2_half.
    set (L := (2 ^ S bit')%nat) in *.
    assert (HL : (1 <= L)%nat) by (unfold L; pose proof (Nat.pow_nonzero 2 (S bit')); lia).
    assert (HL2 : (2 ^ S (S bit') = 2 * L)%nat) by (unfold L; apply Nat.pow_succ_r').
    (* the call on the lower half looks up position i = index bits 0..bit' (< L)
       in the whole array *)
    assert (Low : forall o, length o = size ->
              okm t (new_index_rec bit' L size
                       (if (L <? n)%nat then firstn (L * size) array else array) index def o)
                  (fun _ e => let i := idx e index (S bit') in
                              valN e o = if (i <? n)%nat then valN e (elem size array i)
                                         else valN e def)).
    { intros o Hlo. destruct (lower_half size array n L Ha) as [Hfl Hfe].
      eapply okm_weaken; [apply (IH _ o (Nat.min L n) Hfl); lia|].
      cbv beta zeta. intros _ e H. rewrite H.
      pose proof (idx_lt e index (S bit')) as Bi. fold L in Bi.
      destruct (Nat.ltb_spec (idx e index (S bit')) (Nat.min L n)) as [Hi|Hi],
               (Nat.ltb_spec (idx e index (S bit')) n); try reflexivity; try lia.
      rewrite Hfe by exact Hi. reflexivity. }
    destruct (Nat.leb_spec (length index) (S bit')) as [Hsh|Hb].
    { (* the index operand has no wire for this bit: lower half only *)
      eapply okm_weaken; [apply (Low out Ho)|].
      cbv beta zeta. intros _ e H. rewrite idx_short by exact Hsh. exact H. }
    rewrite firstn1_skipn by exact Hb.
    eapply okm_bind_p; [apply okp_fresh_n|]. intros fVal HfV. cbv beta in HfV |- *.
    mstepn (Low fVal HfV) u.
    (* the upper half looks up position L + i, which is the default when the
       upper half is empty *)
    eapply okm_bind_p with
      (R := fun tVal : list wire => length tVal = size)
      (P := fun (tVal : list wire) e =>
              let i := idx e index (S bit') in
              valN e tVal = if (L + i <? n)%nat then valN e (elem size array (L + i))
                            else valN e def).
    { destruct (Nat.ltb_spec L n) as [Hlt|Hge].
      - assert (Hup : length (skipn (L * size) array) = ((n - L) * size)%nat)
          by (rewrite skipn_length; nia).
        eapply okp_bind; [apply okp_fresh_n|]. intros tv Htv. cbv beta in Htv |- *.
        ostep (IH _ tv (n - L)%nat Hup ltac:(lia) ltac:(lia) Htv).
        apply okp_ret; [exact Htv|].
        cbv beta zeta. intros e H _. rewrite H, elem_skipn.
        destruct (Nat.ltb_spec (idx e index (S bit')) (n - L)),
                 (Nat.ltb_spec (L + idx e index (S bit')) n); try lia; reflexivity.
      - apply okp_ret; [exact Hdef|].
        cbv beta zeta. intros e.
        replace (L + idx e index (S bit') <? n)%nat with false
          by (symmetry; apply Nat.ltb_ge; lia).
        reflexivity. }
    intros tVal HtV. cbv beta in HtV.
    eapply okm_weaken; [apply okm_new_mux; lia|].
    cbv beta zeta. intros _ e HM HT HF _.
    rewrite HM, idx_S by exact Hb. fold L.
    destruct (e (nth (S bit') index 0%N)); [exact HT | exact HF].
Qed.

Lemma okp_zeros t k :
  okp t (z <- zero_wire;; ret (repeat z k)) (fun d => length d = k)
      (fun d e => forall w, In w d -> e w = false).
Proof.
  eapply okp_bind; [apply okp_of_okm, okm_zero|]. intros z _. cbv beta.
  apply okp_ret; [apply repeat_length|].
  intros e Hz w Hin. apply repeat_spec in Hin. subst w. exact Hz.
Qed.

Lemma index_bits_inv : forall fuel bits len n,
  len = (2 ^ bits)%nat -> (1 <= bits)%nat -> (n <= len + fuel)%nat ->
  (bits = 1%nat \/ len < 2 * n)%nat ->
  let r := index_bits fuel bits len n in
  snd r = (2 ^ fst r)%nat /\ (1 <= fst r)%nat /\ (n <= snd r)%nat /\
  (fst r = 1%nat \/ snd r < 2 * n)%nat.
Proof.
  induction fuel as [|f IH]; intros bits len n Hl Hb Hn Hm.
  - cbn. repeat split; auto. lia.
  - cbn [index_bits]. destruct (Nat.ltb_spec len n) as [E|E].
    + apply IH.
      * rewrite Nat.pow_succ_r'. lia.
      * lia.
      * assert (1 <= len)%nat by (subst len; pose proof (Nat.pow_nonzero 2 bits); lia). lia.
      * right. lia.
    + cbn. repeat split; auto.
Qed.

Lemma index_bits_spec n :
  let r := index_bits n 1 2 n in
  snd r = (2 ^ fst r)%nat /\ (1 <= fst r)%nat /\ (n <= 2 ^ fst r)%nat /\
  (fst r = 1%nat \/ 2 ^ (fst r - 1) < n)%nat.
Proof.
  pose proof (index_bits_inv n 1 2 n eq_refl ltac:(lia) ltac:(lia) ltac:(auto)) as H.
  cbv zeta in *. destruct H as (H1 & H2 & H3 & H4). rewrite H1 in H3, H4.
  repeat split; auto. destruct H4 as [H4|H4]; [auto|right].
  destruct (fst (index_bits n 1 2 n)) as [|k]; [lia|].
  rewrite Nat.pow_succ_r' in H4. replace (S k - 1)%nat with k by lia. lia.
Qed.

Definition index_nbits (n : nat) : nat := fst (index_bits n 1 2 n).

(* when the index operand has fewer than [bits] wires, valN e index < 2^bits and the
   mod is the identity *)
Theorem okm_new_index t size array index out n :
  (1 <= size)%nat -> length array = (n * size)%nat -> (1 <= n)%nat -> length out = size ->
  (1 <= length index)%nat ->
  okm t (new_index size array index out)
      (fun out' e =>
         out' = out /\
         let i := valN e index mod 2 ^ N.of_nat (index_nbits n) in
         valN e out' = if i <? N.of_nat n then valN e (elem size array (N.to_nat i)) else 0).
Proof.
  intros Hs Ha Hn Ho Hi. unfold new_index.
  rewrite (elems_div size array n Hs Ha).
  rewrite (proj2 (Nat.eqb_neq n 0)) by lia.
  pose proof (index_bits_spec n) as HB. cbv zeta in HB. unfold index_nbits in *.
  destruct (index_bits n 1 2 n) as [bits len]. cbn [fst snd] in *.
  destruct HB as (Hlen & Hb1 & Hcap & _).
  rewrite (proj2 (Nat.eqb_neq size 0)) by lia.
  eapply okm_bind_p; [apply okp_zeros|]. intros def Hdef. cbv beta in Hdef |- *.
  destruct bits as [|bit]; [lia|]. replace (S bit - 1)%nat with bit by lia. subst len.
  eapply okm_bind.
  { apply (okm_new_index_rec t size index def Hs Hdef Hi bit array out n); auto; lia. }
  intros u. cbv beta. apply okm_ret.
  cbv zeta. intros e HR HD. split; [reflexivity|].
  rewrite HR, (valN_all_zero e def HD). unfold idx. rewrite valN_firstn.
  set (i := valN e index mod 2 ^ N.of_nat (S bit)).
  destruct (Nat.ltb_spec (N.to_nat i) n), (N.ltb_spec i (N.of_nat n)); try lia; reflexivity.
Qed.

Theorem okm_new_index_empty t size array index out :
  (length array / size)%nat = 0%nat ->
  okm t (new_index size array index out)
      (fun out' e => length out' = length out /\ (forall w, In w out' -> e w = false) /\
                     valN e out' = 0).
Proof.
  intros En. unfold new_index. rewrite En. cbn [Nat.eqb].
  destruct (Nat.eqb (length out) 0) eqn:E.
  - apply Nat.eqb_eq in E. destruct out; [|discriminate]. apply okm_ret.
    intros e. repeat split; auto. intros w [].
  - eapply okm_of_okp_weaken; [apply okp_zeros|]. cbv beta. intros d e Hl Hz.
    split; [exact Hl | split; [exact Hz | apply valN_all_zero, Hz]].
Qed.
