(* C07: circuits.Hamming computes the Hamming distance of its operands
   (number of bit positions in which the zero-padded operands differ = population
   count of the xor of their values) modulo 2^(result width), for every operand
   width >= 2, every result width >= 1 and both targets.  The sums are formed by
   NewAdder, whose specification for either target (Kogge-Stone adder of KsProof.v,
   ripple adder of AdderProof.v) comes first. *)
From Coq Require Import NArith List Arith Lia.
From Mpc Require Import Builders.Emit Builders.EmitProof Builders.Adder Builders.AdderProof
     Builders.KsProof Builders.BitwiseProof Builders.Hamming.
Import ListNotations.
Open Scope N_scope.

Lemma okp_new_adder t x y z :
  (1 <= length z)%nat -> (1 <= Nat.max (length x) (length y))%nat ->
  okp t (new_adder x y z) (fun z' => length z' = length z)
      (fun z' e => valN e z' = (valN e x + valN e y) mod 2 ^ N.of_nat (length z)).
Proof.
  intros Hz Hm. apply okp_dispatch.
  destruct t; [apply okp_ks_adder | apply okp_ripple_adder]; assumption.
Qed.

Theorem okm_new_adder : forall t x y z,
  (1 <= length z)%nat -> (1 <= Nat.max (length x) (length y))%nat ->
  okm t (new_adder x y z)
      (fun z' e => length z' = length z /\
                   valN e z' = (valN e x + valN e y) mod 2 ^ N.of_nat (length z)).
Proof. intros t x y z Hz Hm. apply okm_of_okp, okp_new_adder; assumption. Qed.

Fixpoint pop_pos (p : positive) : N :=
  match p with
  | xH => 1
  | xO q => pop_pos q
  | xI q => 1 + pop_pos q
  end.
Definition popcountN (n : N) : N := match n with N0 => 0 | Npos p => pop_pos p end.

Fixpoint hamdist (x y : list bool) : N :=
  match x, y with
  | a :: x', b :: y' => N.b2n (xorb a b) + hamdist x' y'
  | _, _ => 0
  end.

Lemma popcountN_cons b n : popcountN (N.b2n b + 2 * n) = N.b2n b + popcountN n.
Proof. destruct b, n; reflexivity. Qed.

Lemma hamdist_popcount : forall x y, length x = length y ->
  hamdist x y = popcountN (N.lxor (to_N x) (to_N y)).
Proof.
  induction x as [|a x IH]; intros [|b y] H; try discriminate; [reflexivity|].
  cbn [hamdist to_N]. rewrite lxor_double, popcountN_cons, IH by (cbn in H; lia). reflexivity.
Qed.

Definition sumv (e : env) (arr : list (list wire)) : N :=
  fold_right (fun w acc => valN e w + acc) 0 arr.

Fixpoint desc (b : nat) (arr : list (list wire)) : Prop :=
  match arr with
  | [] => True
  | u :: r => (length u <= b)%nat /\ desc (length u) r
  end.
Definition posw (w : list wire) : Prop := (1 <= length w)%nat.

Lemma desc_mono b b' arr : desc b arr -> (b <= b')%nat -> desc b' arr.
Proof. destruct arr; cbn; [auto|]. intros [H1 H2] H. split; [lia|auto]. Qed.

Lemma okp_ham_xor t : forall a b,
  okp t (ham_xor a b)
      (fun arr => length arr = Nat.min (length a) (length b) /\
                  Forall (fun w => length w = 1%nat) arr)
      (fun arr e => sumv e arr = hamdist (map e a) (map e b)).
Proof.
  induction a as [|ai a IH]; intros b.
  - cbn. apply okp_ret; auto.
  - destruct b as [|bi b]; [cbn; apply okp_ret; auto|]. cbn [ham_xor].
    ostep okm_fresh. ostep okm_emit.
    eapply okp_bind; [apply IH|]. intros arr [HL HF]. cbv beta. apply okp_ret.
    + split; [cbn; lia|]. constructor; auto.
    + cbn. intros e HS HX _. rewrite HX. unfold sumv in HS. rewrite HS.
      destruct (xorb (e ai) (e bi)); cbn; lia.
Qed.

(* no addition overflows, because the second operand of a pair is never wider than
   the first ([desc]) and the result is one bit wider than the first *)
Lemma okp_ham_pairs t : forall n arr b,
  (length arr <= n)%nat -> desc b arr -> Forall posw arr ->
  okp t (ham_pairs arr)
      (fun arr' => length arr' = ((length arr + 1) / 2)%nat /\ desc (S b) arr' /\ Forall posw arr')
      (fun arr' e => sumv e arr' = sumv e arr).
Proof.
  induction n as [|n IH]; intros arr b Hn Hd Hp.
  - destruct arr; [|cbn in Hn; lia]. cbn. apply okp_ret; auto.
  - destruct arr as [|u [|v rest]].
    + cbn. apply okp_ret; auto.
    + cbn [ham_pairs]. apply okp_ret; auto. cbn in *. repeat split; auto. lia.
    + cbn [ham_pairs]. cbn [desc] in Hd. destruct Hd as (Hu & Hv & Hr).
      inversion Hp as [|? ? Pu Hp1]; subst. inversion Hp1 as [|? ? Pv Hp2]; subst.
      unfold posw in Pu, Pv.
      eapply okp_bind; [apply okp_fresh_n|]. intros z Lz. cbv beta in Lz |- *.
      eapply okp_bind; [apply (okp_new_adder t u v z); unfold wire in *; lia|].
      intros z' Lz'. cbv beta in Lz' |- *.
      eapply okp_bind; [apply (IH rest (length v)); [cbn in Hn; lia | exact Hr | exact Hp2]|].
      intros arr' (L1 & D1 & P1). cbv beta. apply okp_ret.
      * split; [|split].
        -- cbn [length]. rewrite L1.
           replace (S (S (length rest)) + 1)%nat with (length rest + 1 + 1 * 2)%nat by lia.
           rewrite Nat.div_add by lia. symmetry. apply Nat.add_1_r.
        -- cbn [desc]. split; [lia|]. eapply desc_mono; [exact D1|lia].
        -- constructor; [unfold posw; lia|exact P1].
      * cbn. intros e HS HA _. unfold sumv in HS. rewrite HS, HA, Lz.
        replace (length u + 1)%nat with (S (length u)) by lia. rewrite pow2_S.
        pose proof (valN_lt e u) as Bu. pose proof (valN_lt e v) as Bv.
        assert (2 ^ N.of_nat (length v) <= 2 ^ N.of_nat (length u))
          by (apply N.pow_le_mono_r; lia).
        rewrite N.mod_small by lia. lia.
Qed.

Lemma okp_ham_reduce t : forall fuel arr b,
  (2 <= length arr)%nat -> (length arr <= fuel + 2)%nat -> desc b arr -> Forall posw arr ->
  okp t (ham_reduce fuel arr)
      (fun arr' => length arr' = 2%nat /\ Forall posw arr')
      (fun arr' e => sumv e arr' = sumv e arr).
Proof.
  induction fuel as [|f IH]; intros arr b H2 Hf Hd Hp.
  - cbn. apply okp_ret; auto. split; [lia|auto].
  - cbn [ham_reduce]. destruct (Nat.ltb 2 (length arr)) eqn:E.
    + apply Nat.ltb_lt in E.
      eapply okp_bind; [apply (okp_ham_pairs t (length arr) arr b); [lia | exact Hd | exact Hp]|].
      intros arr' (L1 & D1 & P1). cbv beta.
      assert (2 <= (length arr + 1) / 2 <= f + 2)%nat.
      { pose proof (Nat.div_mod (length arr + 1) 2 ltac:(lia)).
        pose proof (Nat.mod_upper_bound (length arr + 1) 2 ltac:(lia)). lia. }
      eapply okp_weaken; [apply (IH arr' (S b)); auto; lia | auto |].
      cbv beta. intros arr2 e _ HS HS1. congruence.
    + apply Nat.ltb_ge in E. apply okp_ret; auto. split; [lia|auto].
Qed.

Theorem okp_hamming t a b r :
  (2 <= Nat.max (length a) (length b))%nat -> (1 <= length r)%nat ->
  okp t (hamming a b r)
      (fun r' => length r' = length r)
      (fun r' e => valN e r' = popcountN (N.lxor (valN e a) (valN e b)) mod 2 ^ N.of_nat (length r)).
Proof.
  intros Hm Hr. unfold hamming.
  eapply okp_bind; [apply okp_zero_pad_val|]. intros [a' b'] [La Lb]. cbn [fst snd] in *.
  eapply okp_bind; [apply okp_ham_xor|]. intros arr [Larr Farr]. cbv beta.
  assert (Hp : Forall posw arr).
  { eapply Forall_impl; [|exact Farr]. unfold posw. intros w Hw. lia. }
  assert (Hd : desc 1 arr).
  { clear - Farr. induction Farr as [|w l Hw Hl IHl]; cbn; [auto|]. split; [lia|].
    rewrite Hw. exact IHl. }
  eapply okp_bind; [apply (okp_ham_reduce t (length arr) arr 1%nat); [lia | lia | exact Hd | exact Hp]|].
  intros arr2 [L2 P2]. cbv beta.
  destruct arr2 as [|u [|v [|? ?]]]; try discriminate. cbn [nth].
  inversion P2 as [|? ? Pu P2']; subst. unfold posw in Pu.
  eapply okp_weaken; [apply okp_new_adder; lia | auto | ].
  cbv beta. intros r' e _ HV HS HX [Va Vb].
  rewrite HV, <- Va, <- Vb. f_equal.
  transitivity (sumv e arr); [cbn in HS; lia|].
  rewrite HX. apply hamdist_popcount. rewrite !map_length. lia.
Qed.

Theorem okm_hamming t a b r :
  (2 <= Nat.max (length a) (length b))%nat -> (1 <= length r)%nat ->
  okm t (hamming a b r)
      (fun r' e => length r' = length r /\
                   valN e r' = popcountN (N.lxor (valN e a) (valN e b)) mod 2 ^ N.of_nat (length r)).
Proof. intros Hm Hr. apply okm_of_okp, okp_hamming; assumption. Qed.

Definition padb (l : list bool) (n : nat) : list bool := l ++ repeat false (n - length l).

Lemma to_N_padb l n : to_N (padb l n) = to_N l.
Proof.
  unfold padb. generalize (n - length l)%nat as k. intros k.
  induction l as [|b l IH]; cbn [app to_N].
  - induction k; cbn [repeat to_N]; [reflexivity|]. rewrite IHk. reflexivity.
  - rewrite IH. reflexivity.
Qed.

Lemma padb_length l n : length (padb l n) = Nat.max n (length l).
Proof. unfold padb. rewrite app_length, repeat_length. lia. Qed.

Corollary okm_hamming_hamdist t a b r :
  (2 <= Nat.max (length a) (length b))%nat -> (1 <= length r)%nat ->
  okm t (hamming a b r)
      (fun r' e => length r' = length r /\
                   let mx := Nat.max (length a) (length b) in
                   valN e r' = hamdist (padb (map e a) mx) (padb (map e b) mx)
                               mod 2 ^ N.of_nat (length r)).
Proof.
  intros Hm Hr. eapply okm_weaken; [apply okm_hamming; assumption|].
  cbv beta zeta. intros r' e [HL HV]. split; [exact HL|].
  rewrite hamdist_popcount by (rewrite !padb_length, !map_length; lia).
  rewrite !to_N_padb. exact HV.
Qed.

Example popcount_ex : popcountN 13 = 3. Proof. reflexivity. Qed.
Example hamdist_ex : hamdist [true; false; true] [false; false; false] = 2. Proof. reflexivity. Qed.
