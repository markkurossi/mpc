(* C07: structural lemmas (single assignment, defined before use) for
   circuits.NewIndex / newIndex (Index.v), for every element size >= 1, every
   number of elements n >= 1, every index width >= 1 and both targets, and the
   resulting theorem about the EVALUATED circuit in the harness wire layout. *)
From Coq Require Import NArith List Arith Lia.
From Mpc Require Import Base.ListFacts Builders.Emit Builders.StructProof Builders.StructAdder Builders.Index Builders.IndexProof.
Import ListNotations.
Open Scope N_scope.

Lemma Forall_skipn_ix {A} (P : A -> Prop) k l : Forall P l -> Forall P (skipn k l).
Proof. apply Forall_skipn. Qed.

Section I.
Variable ninp : N.
Notation defd := (defd ninp). Notation pend := (pend ninp). Notation wfst := (wfst ninp).
Notation step := (step ninp). Notation oks := (@oks ninp _).

Lemma new_index_rec_s size index def :
  (1 <= size)%nat -> length def = size -> (1 <= length index)%nat ->
  forall bit array out n s,
    wfst s -> Forall (defd s) array -> Forall (defd s) index -> Forall (defd s) def ->
    Forall (pend s) out -> NoDup out ->
    length array = (n * size)%nat -> (1 <= n)%nat -> length out = size ->
    oks (new_index_rec bit (2 ^ S bit) size array index def out) s
        (fun _ s' => step s s' out /\ Forall (defd s') out).
Proof.
  intros Hs Hdef Hix. induction bit as [|bit' IH]; intros array out n s W Fa Fi Fd Po ND Ha Hn Ho.
  - assert (Hb : (0 < length index)%nat) by lia.
    cbn [new_index_rec].
    assert (En : (length array / size)%nat = n) by (rewrite Ha; apply Nat.div_mul; lia).
    rewrite En. rewrite <- (skipn_O index) at 1. rewrite firstn1_skipn by exact Hb.
    apply new_mux_s; auto.
    + apply defd_nth; auto.
    + destruct (Nat.ltb 1 n); [apply Forall_firstn, Forall_skipn|]; auto.
    + apply Forall_firstn; auto.
    + rewrite firstn_length. destruct (Nat.ltb_spec 1 n); [rewrite firstn_length, skipn_length|]; nia.
  - rewrite new_index_rec_S. cbv zeta.
    assert (En : (length array / size)%nat = n) by (rewrite Ha; apply Nat.div_mul; lia).
    rewrite En, pow2_half.
    set (L := (2 ^ S bit')%nat) in *.
    assert (HL : (1 <= L)%nat) by (unfold L; pose proof (Nat.pow_nonzero 2 (S bit')); lia).
    set (fArray := if Nat.ltb L n then firstn (L * size) array else array).
    assert (HF : exists nf, length fArray = (nf * size)%nat /\ (1 <= nf)%nat /\ Forall (defd s) fArray).
    { unfold fArray. destruct (Nat.ltb_spec L n).
      - exists L. split; [rewrite firstn_length; nia|]. split; [lia|]. apply Forall_firstn; auto.
      - exists n. auto. }
    destruct HF as (nf & HF1 & HF2 & HF3).
    destruct (Nat.leb_spec (length index) (S bit')) as [Hsh|Hb].
    { apply (IH fArray out nf); auto. }
    rewrite firstn1_skipn by exact Hb.
    eapply fresh_dest_s with (R := fun v _ s' => Forall (defd s') v); [exact W| |].
    { intros v s1 W1 S1 Pv NDv Lv.
      apply (IH fArray v nf); auto; eapply Forall_defd_step; eauto. }
    intros fVal _ s2 W2 S2 LfV F2. cbv beta.
    eapply oks_bind with (P := fun tVal s' => step s2 s' [] /\ Forall (defd s') tVal /\ length tVal = size).
    { destruct (Nat.ltb_spec L n) as [EL|EL].
      - eapply fresh_dest_s with (R := fun v _ s' => Forall (defd s') v); [exact W2| |].
        + intros v s3 W3 S3 Pv NDv Lv.
          apply (IH (skipn (L * size) array) v (n - L)%nat); auto.
          * apply Forall_skipn. eapply Forall_defd_step; [exact S3|]. eapply Forall_defd_step; eauto.
          * eapply Forall_defd_step; [exact S3|]. eapply Forall_defd_step; eauto.
          * eapply Forall_defd_step; [exact S3|]. eapply Forall_defd_step; eauto.
          * rewrite skipn_length. nia.
          * lia.
        + intros v _ s4 W4 S4 Lv F4. apply oks_ret; auto.
      - apply oks_ret; auto. split; [apply step_refl|]. split; [eapply Forall_defd_step; eauto|auto]. }
    intros tVal s3 W3 (S3 & F3 & LtV). cbv beta.
    eapply oks_conseq.
    + apply new_mux_s; auto.
      * apply defd_nth; auto. eapply Forall_defd_step; [exact S3|]. eapply Forall_defd_step; eauto.
      * eapply Forall_defd_step; eauto.
      * eapply Forall_pend_step0; [exact S3|]. eapply Forall_pend_step0; eauto.
      * unfold wire in *. lia.
    + cbv beta. intros _ s4 W4 (S4 & F4). split; [|exact F4].
      exact (step_trans_nil_l _ _ _ _ _ S2 (step_trans_nil_l _ _ _ _ _ S3 S4)).
Qed.

Lemma new_index_s s size array index out n :
  wfst s -> Forall (defd s) array -> Forall (defd s) index ->
  Forall (pend s) out -> NoDup out ->
  (1 <= size)%nat -> length array = (n * size)%nat -> (1 <= n)%nat -> length out = size ->
  (1 <= length index)%nat ->
  oks (new_index size array index out) s
      (fun out' s' => out' = out /\ step s s' out /\ Forall (defd s') out').
Proof.
  intros W Fa Fi Po ND Hs Ha Hn Ho Hi. unfold new_index.
  assert (En : (length array / size)%nat = n) by (rewrite Ha; apply Nat.div_mul; lia).
  rewrite En. replace (Nat.eqb n 0) with false by (symmetry; apply Nat.eqb_neq; lia).
  pose proof (index_bits_spec n) as HB. cbv zeta in HB.
  destruct (index_bits n 1 2 n) as [bits len]. cbn [fst snd] in *.
  destruct HB as (Hlen & Hb1 & Hcap & _).
  replace (Nat.eqb size 0) with false by (symmetry; apply Nat.eqb_neq; lia).
  eapply oks_bind with (P := fun d s' => step s s' [] /\ Forall (defd s') d /\ length d = size).
  { sbind zero_s. intros z s1 W1 (S1 & Dz). cbv beta. apply oks_ret; auto.
    split; [exact S1|]. split; [|apply repeat_length].
    apply Forall_repeat. exact Dz. }
  intros def s1 W1 (S1 & Fd & Ld). cbv beta.
  destruct bits as [|bit]; [lia|]. replace (S bit - 1)%nat with bit by lia. subst len.
  eapply oks_bind.
  { apply (new_index_rec_s size index def Hs Ld Hi bit array out n); auto.
    - eapply Forall_defd_step; eauto.
    - eapply Forall_defd_step; eauto.
    - eapply Forall_pend_step0; eauto. }
  intros _ s2 W2 (S2 & F2). cbv beta.
  apply oks_ret; auto. split; [reflexivity|]. split; [|exact F2].
  eapply step_trans_nil_l; eauto.
Qed.

End I.

Lemma In_elem size array i w : In w (elem size array i) -> In w array.
Proof.
  unfold elem. intros H.
  assert (H1 : In w (skipn (i * size) array)).
  { rewrite <- (firstn_skipn size (skipn (i * size) array)). apply in_or_app. auto. }
  rewrite <- (firstn_skipn (i * size) array). apply in_or_app. auto.
Qed.

Theorem new_index_eval (tg : bool) (size n iw : nat) (e0 : env) :
  (1 <= size)%nat -> (1 <= n)%nat -> (1 <= iw)%nat ->
  let array := wrange 0 (n * size) in
  let index := wrange (N.of_nat (n * size)) iw in
  let ninp := N.of_nat (n * size) + N.of_nat iw in
  let out := wrange ninp size in
  exists s', new_index size array index out (st0 (ninp + N.of_nat size) tg) = (out, s') /\
    wfc_b ninp (gates s') = true /\ dbu ninp (gates s') /\
    let i := valN e0 index mod 2 ^ N.of_nat (index_nbits n) in
    valN (eval_rev (gates s') e0) out =
      if i <? N.of_nat n then valN e0 (elem size array (N.to_nat i)) else 0.
Proof.
  intros Hs Hn Hi. cbv zeta.
  set (array := wrange 0 (n * size)). set (index := wrange (N.of_nat (n * size)) iw).
  set (ninp := N.of_nat (n * size) + N.of_nat iw). set (out := wrange ninp size).
  assert (Ia : forall w, In w array -> w < ninp) by (intros w H; apply wrange_In in H; lia).
  assert (Ii : forall w, In w index -> w < ninp) by (intros w H; apply wrange_In in H; lia).
  assert (La : length array = (n * size)%nat) by apply wrange_length.
  assert (Li : (1 <= length index)%nat) by (unfold index; rewrite wrange_length; exact Hi).
  assert (Lo : length out = size) by apply wrange_length.
  pose proof (okm_new_index tg size array index out n Hs La Hn Lo Li) as Sem.
  assert (Str : @oks ninp _ (new_index size array index out) (st0 (ninp + N.of_nat size) tg)
                  (fun out' s' => out' = out /\ step ninp (st0 (ninp + N.of_nat size) tg) s' out /\
                                  Forall (defd ninp s') out')).
  { apply (new_index_s ninp _ size array index out n); auto.
    - apply wfst_st0; lia.
    - apply Forall_defd_inputs; auto.
    - apply Forall_defd_inputs; auto.
    - apply Forall_pend_st0. intros w H. apply wrange_In in H. lia.
    - apply wrange_NoDup. }
  destruct (run_st0 ninp _ tg _ _ _ Sem Str e0) as (out' & s' & E & C & D & (Eo & _) & (_ & P) & I).
  subst out'. exists s'. split; [exact E|]. split; [exact C|]. split; [exact D|].
  cbv zeta in P. rewrite P. rewrite (valN_inputs _ e0 ninp index I Ii).
  set (i := valN e0 index mod 2 ^ N.of_nat (index_nbits n)).
  destruct (i <? N.of_nat n); [|reflexivity].
  apply (valN_inputs _ e0 ninp _ I). intros w H. apply Ia. eapply In_elem; eauto.
Qed.
