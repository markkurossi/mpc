(* C07: NewUDividerLong (restoring long division, what NewUDivider runs
   under the Yao target) computes the low bits of a / b and a mod b for every
   operand and destination width and every divisor; NewIDivider (Yao) divides
   the magnitudes and restores the sign of the quotient.  The arithmetic of one
   division step (div2_step) is shared with the two dividers of Div2Proof.v. *)
From Coq Require Import ZArith Znumtheory NArith List Lia.
From Mpc Require Import Base.ListFacts Builders.Emit Builders.EmitProof Builders.Sub Builders.Mux Builders.Div
     Builders.SubProof Builders.MuxProof.
Import ListNotations.
Open Scope N_scope.

Lemma removelast_len {A} (l : list A) : length (removelast l) = (length l - 1)%nat.
Proof.
  rewrite removelast_firstn_len, firstn_length. lia.
Qed.

Lemma valN_removelast e r : valN e (removelast r) = valN e r mod 2 ^ N.of_nat (length r - 1).
Proof.
  rewrite removelast_firstn_len, valN_firstn.
  replace (Nat.pred (length r)) with (length r - 1)%nat by lia. reflexivity.
Qed.

Lemma firstn_S_split {A} : forall m (l : list A),
  firstn (S m) l = firstn m l ++ firstn 1 (skipn m l).
Proof.
  induction m; intros [|a l]; try reflexivity.
  change (firstn (S (S m)) (a :: l)) with (a :: firstn (S m) l).
  rewrite IHm. reflexivity.
Qed.

Lemma firstn_min_len {A} (l : list A) n : firstn (Nat.min (length l) n) l = firstn n l.
Proof.
  destruct (Nat.le_gt_cases (length l) n) as [C|C].
  - rewrite Nat.min_l by exact C. rewrite !firstn_all2 by lia. reflexivity.
  - rewrite Nat.min_r by lia. reflexivity.
Qed.

(* the dividend bits not yet consumed are kept most significant first *)
Lemma valN_rev_lt e (ra : list wire) : valN e (rev ra) < 2 ^ N.of_nat (length ra).
Proof. rewrite <- (rev_length ra). apply valN_lt. Qed.

Lemma valN_rev_cons e ai (ra : list wire) :
  valN e (rev (ai :: ra)) = N.b2n (e ai) * 2 ^ N.of_nat (length ra) + valN e (rev ra).
Proof. cbn [rev]. rewrite valN_app, valN_cons, valN_nil, rev_length. ring. Qed.

Lemma top_split {A} (l : list A) n : length l = (n + 1)%nat ->
  exists dl tw, l = dl ++ [tw] /\ length dl = n /\
                skipn (length l - 1) l = [tw] /\ firstn (length l - 1) l = dl.
Proof.
  intros L. assert (Hne : l <> []) by (intros ->; cbn in L; lia).
  destruct (exists_last Hne) as (dl & tw & ->). rewrite app_length in L |- *. cbn [length] in L |- *.
  exists dl, tw. replace (length dl + 1 - 1)%nat with (length dl) by lia.
  split; [reflexivity|]. split; [lia|]. split; [apply skipn_app_exact|apply firstn_app_exact]; reflexivity.
Qed.

Lemma div_borrow_arith R1 B Dn (t : bool) P :
  R1 < P -> B < P -> Dn < P ->
  Dn + P * N.b2n t = (R1 + 2 * P - B mod (2 * P)) mod (2 * P) ->
  (t = true /\ R1 < B) \/ (t = false /\ R1 = B + Dn).
Proof.
  intros HR HB HD E. rewrite (N.mod_small B) in E by lia.
  destruct (N.lt_ge_cases R1 B) as [L|L].
  - rewrite N.mod_small in E by lia. destruct t; cbn [N.b2n] in E; [left; split; auto | lia].
  - assert (M : (R1 + 2 * P - B) mod (2 * P) = R1 - B).
    { symmetry. apply N.mod_unique with (q := 1); lia. }
    rewrite M in E. destruct t; cbn [N.b2n] in E; [lia | right; split; auto; lia].
Qed.

Lemma sub_borrow e (r1 d dl : list wire) tw n :
  length r1 = n -> length d = n -> length dl = n ->
  valN e (dl ++ [tw]) = (valN e r1 + 2 ^ N.of_nat (n + 1) - valN e d mod 2 ^ N.of_nat (n + 1))
                        mod 2 ^ N.of_nat (n + 1) ->
  (e tw = true /\ valN e r1 < valN e d) \/ (e tw = false /\ valN e r1 = valN e d + valN e dl).
Proof.
  intros L1 Ld Ldl H. rewrite valN_app, valN_cons, valN_nil, N.mul_0_r, N.add_0_r, Ldl in H.
  replace (n + 1)%nat with (S n) in H by lia. rewrite pow2_S in H.
  apply div_borrow_arith in H; [exact H | rewrite <- L1 | rewrite <- Ld | rewrite <- Ldl]; apply valN_lt.
Qed.

Lemma div_step_final R1 B NR qb L M :
  B <> 0 -> R1 = qb * B + NR ->
  (NR * M + L) / B + M * qb = (R1 * M + L) / B /\
  (NR * M + L) mod B = (R1 * M + L) mod B.
Proof.
  intros HB E.
  pose proof (N.div_mod' (NR * M + L) B) as DM.
  pose proof (N.mod_lt (NR * M + L) B HB) as LT.
  set (x := (NR * M + L) / B) in *. set (y := (NR * M + L) mod B) in *.
  assert (EQ : R1 * M + L = B * (x + M * qb) + y).
  { subst R1. replace ((qb * B + NR) * M + L) with (qb * B * M + (NR * M + L)) by ring.
    rewrite DM. ring. }
  split.
  - apply N.div_unique with (r := y); auto.
  - apply N.mod_unique with (q := x + M * qb); auto.
Qed.

(* what the division circuits compute: for B = 0 every trial subtraction
   succeeds (quotient bits all 1) and nothing is ever subtracted *)
Definition dq (m : nat) (A B : N) : N := if B =? 0 then 2 ^ N.of_nat m - 1 else A / B.
Definition dr (A B : N) : N := if B =? 0 then A else A mod B.

(* R = partial remainder, bit = the next dividend bit, L = the m dividend bits below it,
   c = the trial subtraction succeeded *)
Lemma div2_step R B bit L m (c : bool) R' :
  bit <= 1 -> L < 2 ^ N.of_nat m -> (B <> 0 -> R < B) ->
  (c = true <-> B <= 2 * R + bit) ->
  R' = (if c then 2 * R + bit - B else 2 * R + bit) ->
  dq (S m) (R * 2 ^ N.of_nat (S m) + (bit * 2 ^ N.of_nat m + L)) B
    = dq m (R' * 2 ^ N.of_nat m + L) B + 2 ^ N.of_nat m * N.b2n c /\
  dr (R * 2 ^ N.of_nat (S m) + (bit * 2 ^ N.of_nat m + L)) B = dr (R' * 2 ^ N.of_nat m + L) B /\
  (B <> 0 -> R' < B).
Proof.
  intros Hbit HL HRB Hc HR'. unfold dq, dr. rewrite !pow2_S. pose proof (pow2_pos m) as HP.
  set (P := 2 ^ N.of_nat m) in *.
  replace (R * (2 * P) + (bit * P + L)) with ((2 * R + bit) * P + L) by ring. destruct (N.eqb_spec B 0) as [E|E].
  - assert (c = true) by (apply Hc; lia). subst c B. rewrite N.sub_0_r in HR'. subst R'.
    cbn [N.b2n]. split; [lia|]. split; [reflexivity|]. intros H; congruence.
  - specialize (HRB E).
    assert (HR'B : R' < B).
    { destruct c.
      - assert (B <= 2 * R + bit) by (apply Hc; reflexivity). lia.
      - assert (~ B <= 2 * R + bit) by (intros H; apply Hc in H; discriminate). lia. }
    assert (Hsplit : 2 * R + bit = N.b2n c * B + R').
    { destruct c; cbn [N.b2n].
      - assert (B <= 2 * R + bit) by (apply Hc; reflexivity). lia.
      - lia. }
    destruct (div_step_final (2 * R + bit) B R' (N.b2n c) L P E Hsplit) as [HQ HM].
    split; [symmetry; exact HQ|]. split; [symmetry; exact HM|]. intros _. exact HR'B.
Qed.

Lemma dq_lt m R L B :
  L < 2 ^ N.of_nat m -> (B <> 0 -> R < B) -> dq m (R * 2 ^ N.of_nat m + L) B < 2 ^ N.of_nat m.
Proof.
  intros HL HRB. unfold dq. pose proof (pow2_pos m) as HP. set (P := 2 ^ N.of_nat m) in *.
  destruct (N.eqb_spec B 0) as [E|E]; [lia|].
  specialize (HRB E). apply N.div_lt_upper_bound; [exact E|].
  assert ((R + 1) * P <= B * P) by (apply N.mul_le_mono_r; lia). lia.
Qed.

Lemma dq_0 R B : (B <> 0 -> R < B) -> dq 0 R B = 0.
Proof.
  intros H. unfold dq. destruct (N.eqb_spec B 0) as [E|E]; [reflexivity|].
  apply N.div_small. auto.
Qed.

Lemma dr_small R B : (B <> 0 -> R < B) -> dr R B = R.
Proof.
  intros H. unfold dr. destruct (N.eqb_spec B 0) as [E|E]; [reflexivity|].
  apply N.mod_small. auto.
Qed.

Lemma dq_bound n A B : A < 2 ^ N.of_nat n -> dq n A B < 2 ^ N.of_nat n.
Proof.
  intros H. unfold dq. destruct (N.eqb_spec B 0) as [E|E].
  - pose proof (pow2_pos n). lia.
  - eapply N.le_lt_trans; [|exact H]. apply N.div_le_upper_bound; [exact E|].
    rewrite <- (N.mul_1_l A) at 1. apply N.mul_le_mono_r. lia.
Qed.

Lemma dr_bound n A B : A < 2 ^ N.of_nat n -> dr A B < 2 ^ N.of_nat n.
Proof.
  intros H. unfold dr. destruct (N.eqb_spec B 0) as [E|E]; [exact H|].
  eapply N.le_lt_trans; [apply N.mod_le; exact E|exact H].
Qed.

Lemma valN_firstn_S_q e (q : list wire) m Qr (c : bool) :
  valN e (firstn m q) = Qr mod 2 ^ N.of_nat (length q) -> Qr < 2 ^ N.of_nat m ->
  ((m < length q)%nat -> valN e (firstn 1 (skipn m q)) = N.b2n c) ->
  valN e (firstn (S m) q) = (Qr + 2 ^ N.of_nat m * N.b2n c) mod 2 ^ N.of_nat (length q).
Proof.
  intros H Hlt Hc. rewrite (firstn_S_split m q), valN_app, firstn_length, H.
  destruct (Nat.lt_ge_cases m (length q)) as [C|C].
  - rewrite Nat.min_l by lia. rewrite (Hc C).
    assert (HP : 2 ^ N.of_nat (S m) <= 2 ^ N.of_nat (length q)) by (apply N.pow_le_mono_r; lia).
    rewrite pow2_S in HP. pose proof (b2n_le1 c).
    rewrite !N.mod_small; [reflexivity | nia | lia].
  - rewrite Nat.min_r by lia. rewrite skipn_all2 by lia. cbn [firstn].
    rewrite valN_nil, N.mul_0_r, N.add_0_r.
    replace (N.of_nat m) with (N.of_nat (m - length q) + N.of_nat (length q)) by lia.
    rewrite N.pow_add_r.
    replace (Qr + 2 ^ N.of_nat (m - length q) * 2 ^ N.of_nat (length q) * N.b2n c)
      with (Qr + (2 ^ N.of_nat (m - length q) * N.b2n c) * 2 ^ N.of_nat (length q)) by ring.
    rewrite N.mod_add by (apply N.pow_nonzero; discriminate). reflexivity.
Qed.

(* quotient bit: q[i] = MUX(borrow, 0, 1), when q has a position i *)
Lemma okm_qbit t tw i q :
  okm t (if Nat.ltb i (length q)
         then bind zero_wire (fun z => bind one_wire (fun o =>
                new_mux [tw] [z] [o] (firstn 1 (skipn i q))))
         else ret tt)
      (fun _ e => (i < length q)%nat ->
                  valN e (firstn 1 (skipn i q)) = N.b2n (negb (e tw))).
Proof.
  destruct (Nat.ltb_spec i (length q)) as [C|C].
  - mstep okm_zero. mstep okm_one.
    eapply okm_weaken.
    { apply okm_new_mux. rewrite firstn_length, skipn_length. cbn [length]. lia. }
    cbn beta. intros _ e H H1 H0 _. rewrite H, !valN_cons, valN_nil, H1, H0.
    destruct (e tw); reflexivity.
  - apply okm_ret. intros e Hc. lia.
Qed.

(* destination of the new remainder: new wires; in the last iteration (i = 0)
   it starts with the wires of rret, as many as fit *)
Lemma okp_next_r t i (rret r1 : list wire) :
  okp t (if Nat.eqb i 0
         then let k := Nat.min (length rret) (length r1) in
              bind (fresh_n (length r1 - k)) (fun fr => ret (firstn k rret ++ fr))
         else fresh_n (length r1))
      (fun nr => length nr = length r1 /\
                 (i = 0%nat -> firstn (Nat.min (length rret) (length r1)) nr
                               = firstn (Nat.min (length rret) (length r1)) rret))
      (fun _ _ => True).
Proof.
  destruct (Nat.eqb i 0) eqn:E.
  - cbv zeta. set (k := Nat.min (length rret) (length r1)).
    assert (Lk : length (firstn k rret) = k) by (rewrite firstn_length; unfold k; lia).
    eapply okp_bind; [apply okp_fresh_n|]. intros fr Lf. cbv beta in Lf |- *.
    apply okp_ret; [|auto]. split.
    + rewrite app_length, Lk, Lf. unfold k. lia.
    + intros _. apply firstn_app_exact, Lk.
  - apply Nat.eqb_neq in E.
    eapply okp_weaken; [apply okp_fresh_n | |]; cbv beta; auto.
    intros a H. split; [exact H|]. intros; lia.
Qed.

(* [ra] = the bits of a not yet
   consumed (most significant first), [r] = the current partial remainder, an
   n-bit vector whose value is below b (when b <> 0) and below 2^k where k bits
   have been consumed (so "r << 1" — dropping r's top wire — loses nothing
   while bits remain).  The loop finishes the division of  r * 2^|ra| + ra  by
   b into destinations of any width: the low wires of q and rret receive the
   low bits of the quotient and the remainder. *)
Lemma okm_udiv_long_loop t n : forall ra k i b q rret r,
  (k + length ra = n)%nat -> i = (length ra - 1)%nat -> length b = n -> length r = n ->
  okm t (udiv_long_loop ra i b q rret r)
      (fun _ e =>
         (valN e b <> 0 -> valN e r < valN e b) -> valN e r < 2 ^ N.of_nat k ->
         let A := valN e r * 2 ^ N.of_nat (length ra) + valN e (rev ra) in
         valN e (firstn (length ra) q)
           = dq (length ra) A (valN e b) mod 2 ^ N.of_nat (length q) /\
         (ra <> [] ->
          valN e (firstn n rret) = dr A (valN e b) mod 2 ^ N.of_nat (length rret))).
Proof.
  induction ra as [|ai ra IH]; intros k i b q rret r Hk Hi Lb Lr.
  - cbn [udiv_long_loop]. apply okm_ret. intros e Hb _. cbn [length rev firstn].
    rewrite valN_nil. change (2 ^ N.of_nat 0) with 1. rewrite N.mul_1_r, N.add_0_r, dq_0 by exact Hb.
    split; [|congruence]. symmetry. apply N.mod_0_l, N.pow_nonzero. discriminate.
  - cbn [udiv_long_loop]. cbv zeta.
    remember (ai :: removelast r) as r1 eqn:Er1. cbn [length] in Hk, Hi.
    set (m := length ra) in *.
    assert (Lr1 : length r1 = n).
    { subst r1. cbn [length]. rewrite removelast_len. lia. }
    eapply okm_bind_p; [apply okp_fresh_n | intros d0 Ld0; cbv beta in Ld0 |- *].
    eapply okm_bind_p; [apply okp_new_subtractor; lia | intros diff Ld; cbv beta in Ld |- *].
    rewrite Ld0, Lr1 in Ld. destruct (top_split diff n Ld) as (dl & tw & -> & Ldl & -> & ->).
    eapply okm_bind; [apply okm_qbit | intros u1; cbv beta].
    eapply okm_bind_p; [apply okp_next_r | intros nr [Lnr Hnr]; cbv beta].
    eapply okm_bind; [apply okm_new_mux; lia | intros u2; cbv beta].
    eapply okm_weaken.
    { apply (IH (S k) (i - 1)%nat b q rret nr); lia. }
    cbv beta. intros _ e HI Hmux _ Hq Hsub _ Hb Hkk. cbv zeta. fold m in HI.
    set (B := valN e b) in *. set (R := valN e r) in *.
    set (bit := N.b2n (e ai)). pose proof (b2n_le1 (e ai)) as Hbit. fold bit in Hbit.
    pose proof (valN_rev_lt e ra) as HL. fold m in HL. set (L := valN e (rev ra)) in *.
    assert (Hpk : 2 * 2 ^ N.of_nat k <= 2 ^ N.of_nat n).
    { rewrite <- pow2_S. apply N.pow_le_mono_r; lia. }
    (* r << 1, r[0] = a[i] *)
    assert (HR1 : valN e r1 = 2 * R + bit).
    { subst r1. rewrite valN_cons, valN_removelast, Lr, N.mod_small; [apply N.add_comm|].
      eapply N.lt_le_trans; [exact Hkk|]. apply N.pow_le_mono_r; lia. }
    (* the subtraction, its borrow, and the MUX *)
    rewrite Ld0, Lr1 in Hsub. apply (sub_borrow e r1 b dl tw n Lr1 Lb Ldl) in Hsub.
    fold B in Hsub. rewrite HR1 in Hsub.
    set (c := negb (e tw)).
    assert (Hc : c = true <-> B <= 2 * R + bit).
    { unfold c. destruct Hsub as [[-> Hlt] | [-> Heq]]; cbn [negb]; split; try discriminate; try reflexivity; lia. }
    assert (HNR : valN e nr = if c then 2 * R + bit - B else 2 * R + bit).
    { rewrite Hmux, HR1. unfold c. destruct Hsub as [[-> Hlt] | [-> Heq]]; cbn [negb]; lia. }
    destruct (div2_step R B bit L m c (valN e nr) Hbit HL Hb Hc HNR) as (SQ & SR & SB).
    rewrite valN_rev_cons. cbn [length]. fold m L bit.
    assert (HNRlt : valN e nr < 2 ^ N.of_nat (S k)).
    { rewrite pow2_S, HNR. clear - Hkk Hbit. destruct c; lia. }
    destruct (HI SB HNRlt) as [IQ IRm].
    split.
    + rewrite SQ. apply valN_firstn_S_q; [exact IQ | apply dq_lt; assumption |].
      replace i with m in Hq by lia. exact Hq.
    + intros _. rewrite SR. destruct ra as [|aj ra']; [|apply IRm; discriminate].
      (* last iteration: nr starts with the wires of rret *)
      subst m L. cbn [length rev] in *. rewrite valN_nil. change (2 ^ N.of_nat 0) with 1.
      rewrite N.mul_1_r, N.add_0_r, dr_small by exact SB.
      specialize (Hnr Hi). rewrite Lr1 in Hnr.
      rewrite <- (firstn_min_len rret n), <- Hnr, valN_firstn, Nat.min_comm. apply mod_pow_min.
      eapply N.lt_le_trans; [exact HNRlt|]. rewrite pow2_S. exact Hpk.
Qed.

(* q and rret may have any width (nil included); their wires at positions >= n
   are not driven, hence the firstn. *)
Theorem okm_udivider_long_any t a b q rret :
  (1 <= Nat.max (length a) (length b))%nat ->
  okm t (udivider_long a b q rret)
      (fun _ e =>
         let n := Nat.max (length a) (length b) in
         valN e (firstn n q) = dq n (valN e a) (valN e b) mod 2 ^ N.of_nat (length q) /\
         valN e (firstn n rret) = dr (valN e a) (valN e b) mod 2 ^ N.of_nat (length rret)).
Proof.
  intros Hn. unfold udivider_long.
  eapply okm_bind_p; [apply okp_zero_pad_val|]. intros [a' b'] [La' Lb']. cbn [fst snd] in *. cbv beta iota.
  set (n := Nat.max (length a) (length b)) in *.
  eapply okm_bind_p with (R := fun r : list wire => length r = n) (P := fun r e => valN e r = 0).
  { replace (Nat.eqb (length a') 0) with false by (symmetry; apply Nat.eqb_neq; lia).
    eapply okp_bind; [apply okp_of_okm, okm_zero|]. intros z _. cbv beta.
    apply okp_ret; [rewrite repeat_length; exact La'|]. intros e Hz. apply valN_repeat0. exact Hz. }
  intros r0 Lr0. cbv beta.
  eapply okm_weaken.
  { apply (okm_udiv_long_loop t n (rev a') 0%nat (length a' - 1)%nat b' q rret r0);
      rewrite ?rev_length; lia. }
  cbv beta. intros _ e HI Hr0 [Va Vb]. cbn [fst snd] in *. cbv zeta in HI |- *.
  rewrite rev_length, rev_involutive, Hr0, N.mul_0_l, N.add_0_l, Va, Vb, La' in HI.
  destruct HI as [HQ HR]; [intros H; lia | cbn; lia |].
  split; [exact HQ|]. apply HR. intros E. apply (f_equal (@length wire)) in E.
  rewrite rev_length in E. cbn in E. lia.
Qed.

Lemma okm_new_udivider_long a b q rret P :
  okm false (udivider_long a b q rret) P -> okm false (new_udivider a b q rret) P.
Proof. exact (okm_dispatch false _ _ P). Qed.

Theorem okm_udivider_long a b q rret :
  (1 <= length a)%nat -> length b = length a -> length q = length a -> length rret = length a ->
  okm false (udivider_long a b q rret)
      (fun _ e => valN e b <> 0 ->
                  valN e q = valN e a / valN e b /\
                  valN e rret = valN e a mod valN e b).
Proof.
  intros Ha Lb Lq Lrr.
  eapply okm_weaken; [apply okm_udivider_long_any; lia|].
  cbv beta zeta. rewrite Lb, Nat.max_id. intros _ e [HQ HR] Hb.
  rewrite firstn_all2 in HQ, HR by lia. rewrite HQ, HR, Lq, Lrr.
  pose proof (valN_lt e a) as HA.
  rewrite !N.mod_small by (apply dq_bound || apply dr_bound; exact HA). unfold dq, dr.
  replace (valN e b =? 0) with false by (symmetry; apply N.eqb_neq; exact Hb). auto.
Qed.

Corollary okm_new_udivider_yao a b q rret :
  (1 <= length a)%nat -> length b = length a -> length q = length a -> length rret = length a ->
  okm false (new_udivider a b q rret)
      (fun _ e => valN e b <> 0 ->
                  valN e q = valN e a / valN e b /\
                  valN e rret = valN e a mod valN e b).
Proof. intros Ha Lb Lq Lrr. apply okm_new_udivider_long, okm_udivider_long; assumption. Qed.

(* 7 / 5 (a divisor with its top bit set) and 6 / 3 on three-wire operands *)
Example udiv_long_run :
  let '(_, s') := udivider_long [0; 1; 2] [3; 4; 5] [6; 7; 8] [9; 10; 11] (st0 12 false) in
  let e1 := eval_rev (gates s') (fun w => match w with 0 | 1 | 2 | 3 | 5 => true | _ => false end) in
  let e2 := eval_rev (gates s') (fun w => match w with 1 | 2 | 3 | 4 => true | _ => false end) in
  wfc_b 6 (gates s') = true /\
  (valN e1 [0; 1; 2], valN e1 [3; 4; 5], valN e1 [6; 7; 8], valN e1 [9; 10; 11]) = (7, 5, 1, 2) /\
  (valN e2 [0; 1; 2], valN e2 [3; 4; 5], valN e2 [6; 7; 8], valN e2 [9; 10; 11]) = (6, 3, 2, 0).
Proof. vm_compute. repeat split. Qed.

Definition negN (n : nat) (v : N) : N := (2 ^ N.of_nat n - v) mod 2 ^ N.of_nat n.

Lemma negN_nonzero n v : v <> 0 -> v < 2 ^ N.of_nat n -> negN n v <> 0.
Proof. intros H0 H1. unfold negN. rewrite N.mod_small by lia. lia. Qed.

Lemma negN_lt n v : negN n v < 2 ^ N.of_nat n.
Proof. apply N.mod_lt, N.pow_nonzero. discriminate. Qed.

Lemma skipn_last {A} (d : A) (l : list A) :
  (1 <= length l)%nat -> skipn (length l - 1) l = [last l d].
Proof.
  intros H. assert (Hne : l <> []) by (intros ->; cbn in H; lia).
  destruct (exists_last Hne) as (l' & x & ->).
  rewrite last_last, app_length. cbn [length].
  replace (length l' + 1 - 1)%nat with (length l') by lia.
  rewrite skipn_app, skipn_all, Nat.sub_diag. reflexivity.
Qed.

Lemma zero_sub_val e z0 (x d : list wire) (v : N) :
  e z0 = false -> length d = length x ->
  v = (valN e [z0] + 2 ^ N.of_nat (length d) - valN e x mod 2 ^ N.of_nat (length d))
      mod 2 ^ N.of_nat (length d) ->
  v = negN (length x) (valN e x).
Proof.
  intros Hz Ld ->. rewrite Ld, valN_cons, valN_nil, Hz. cbn [N.b2n].
  rewrite (N.mod_small (valN e x)) by apply valN_lt. unfold negN. f_equal.
Qed.

Lemma negN_mod n k x : (k <= n)%nat -> x <= 2 ^ N.of_nat n ->
  negN k (x mod 2 ^ N.of_nat k) = negN n x mod 2 ^ N.of_nat k.
Proof.
  intros Hk Hx. unfold negN.
  assert (Pk : 2 ^ N.of_nat k <> 0) by (apply N.pow_nonzero; discriminate).
  assert (Pn : 2 ^ N.of_nat n <> 0) by (apply N.pow_nonzero; discriminate).
  pose proof (N.mod_lt x _ Pk) as Hy.
  assert (En : 2 ^ N.of_nat n = 2 ^ N.of_nat (n - k) * 2 ^ N.of_nat k).
  { rewrite <- N.pow_add_r. f_equal. lia. }
  apply N2Z.inj.
  rewrite !N2Z.inj_mod, !N2Z.inj_sub by lia. rewrite N2Z.inj_mod.
  set (K := Z.of_N (2 ^ N.of_nat k)). set (M := Z.of_N (2 ^ N.of_nat n)). set (X := Z.of_N x).
  assert (EM : M = (Z.of_N (2 ^ N.of_nat (n - k)) * K)%Z) by (unfold M, K; rewrite En, N2Z.inj_mul; reflexivity).
  assert (K0 : (0 < K)%Z) by (unfold K; lia).
  assert (M0 : (0 < M)%Z) by (unfold M; lia).
  rewrite <- (Zmod_div_mod K M) by (auto; exists (Z.of_N (2 ^ N.of_nat (n - k))); exact EM).
  replace (K - X mod K)%Z with (0 - X mod K + 1 * K)%Z by lia.
  rewrite Z_mod_plus_full, Zminus_mod_idemp_r.
  rewrite EM. replace (Z.of_N (2 ^ N.of_nat (n - k)) * K - X)%Z with (0 - X + Z.of_N (2 ^ N.of_nat (n - k)) * K)%Z by lia.
  rewrite Z_mod_plus_full. reflexivity.
Qed.

Lemma valN_last_testbit (e : env) : forall x : list wire, x <> [] ->
  N.testbit (valN e x) (N.of_nat (length x - 1)) = e (last x 0).
Proof.
  induction x as [|w x IH]; intros H; [congruence|].
  destruct x as [|w' x'].
  - cbn [length last]. rewrite valN_cons, valN_nil. cbn [Nat.sub N.of_nat].
    rewrite N.mul_0_r, N.add_0_r. apply N.b2n_bit0.
  - change (last (w :: w' :: x') 0) with (last (w' :: x') 0). rewrite <- IH by discriminate.
    rewrite valN_cons, N.add_comm. cbn [length].
    replace (S (S (length x')) - 1)%nat with (S (S (length x') - 1)) by lia.
    rewrite Nat2N.inj_succ, N.testbit_succ_r. reflexivity.
Qed.

(* NewIDivider = sign handling (prefix) followed by the unsigned division of
   the magnitudes and the conditional negation of the quotient (suffix) *)
Definition idiv_prefix (a b : list wire) : M (list wire * list wire * wire * wire) :=
  '(a, b) <- zero_pad a b;;
  z0 <- zero_wire;;
  let zero_ := [z0] in
  let neg0 := z0 in
  let alast := skipn (length a - 1) a in
  let blast := skipn (length b - 1) b in
  neg1 <- fresh;;
  cc_inv neg0 neg1;;
  a1 <- fresh_n (length a);;
  a1 <- new_subtractor zero_ a a1;;
  neg2 <- fresh;;
  new_mux alast [neg1] [neg0] [neg2];;
  a2 <- fresh_n (length a);;
  new_mux alast a1 a a2;;
  neg3 <- fresh;;
  cc_inv neg2 neg3;;
  b1 <- fresh_n (length b);;
  b1 <- new_subtractor zero_ b b1;;
  neg4 <- fresh;;
  new_mux blast [neg3] [neg2] [neg4];;
  b2 <- fresh_n (length b);;
  new_mux blast b1 b b2;;
  ret (a2, b2, neg4, z0).

Definition idiv_suffix (p : list wire * list wire * wire * wire) (q r : list wire) : M unit :=
  let '(a2, b2, neg4, z0) := p in
  if Nat.eqb (length q) 0 then new_udivider a2 b2 q r
  else
    q0 <- fresh_n (length q);;
    new_udivider a2 b2 q0 r;;
    q1 <- fresh_n (length q);;
    q1 <- new_subtractor [z0] q0 q1;;
    new_mux [neg4] q1 q0 q.

Lemma idiv_split a b q r s :
  new_idivider a b q r s = bind (idiv_prefix a b) (fun p => idiv_suffix p q r) s.
Proof.
  unfold new_idivider, idiv_prefix, idiv_suffix, bind, ret.
  destruct (zero_pad a b s) as [[a' b'] s0].
  repeat match goal with
         | |- context [let (_, _) := ?m ?s in _] =>
             lazymatch m with
             | context [let (_, _) := _ in _] => fail
             | _ => destruct (m s) as [? ?]
             end
         end; try reflexivity.
Qed.

Local Ltac ost L x h :=
  eapply okp_bind; [apply L; try (cbn [length]; lia) | intros x h; cbv beta in h |- *].
Local Ltac osm L x :=
  eapply okp_bind; [apply okp_of_okm, L; try (cbn [length]; lia) | intros x _; cbv beta].

(* sign handling: a2 = |a|, b2 = |b| as n-bit patterns (n = the wider operand; the
   narrower one is ZERO padded, so its sign bit reads 0), neg4 = sign(a) xor sign(b) *)
Lemma okp_idiv_prefix a b n :
  n = Nat.max (length a) (length b) -> (1 <= n)%nat ->
  okp false (idiv_prefix a b)
      (fun p => let '(a2, b2, neg4, z0) := p in length a2 = n /\ length b2 = n)
      (fun p e => let '(a2, b2, neg4, z0) := p in
         let sa := N.testbit (valN e a) (N.of_nat (n - 1)) in
         let sb := N.testbit (valN e b) (N.of_nat (n - 1)) in
         e z0 = false /\
         valN e a2 = (if sa then negN n (valN e a) else valN e a) /\
         valN e b2 = (if sb then negN n (valN e b) else valN e b) /\
         e neg4 = xorb sa sb).
Proof.
  intros En Hn. unfold idiv_prefix.
  eapply okp_bind; [apply okp_zero_pad_val|]. intros [a' b'] [La' Lb']. cbn [fst snd] in *. cbv beta iota.
  rewrite <- En in La', Lb'.
  osm okm_zero z0. cbv zeta.
  rewrite (skipn_last (0 : wire) a'), (skipn_last (0 : wire) b') by lia.
  set (aw := last a' (0 : wire)). set (bw := last b' (0 : wire)).
  osm okm_fresh neg1. osm okm_cc_inv u1.
  ost okp_fresh_n a10 La10. ost okp_new_subtractor a1 La1.
  osm okm_fresh neg2. osm okm_new_mux_bits u2.
  ost okp_fresh_n a2 La2. osm okm_new_mux u3.
  osm okm_fresh neg3. osm okm_cc_inv u4.
  ost okp_fresh_n b10 Lb10. ost okp_new_subtractor b1 Lb1.
  osm okm_fresh neg4. osm okm_new_mux_bits u5.
  ost okp_fresh_n b2 Lb2. osm okm_new_mux u6.
  apply okp_ret; [split; lia|].
  intros e Hb2 _ Hneg4 _ Hb1 _ Hneg3 _ Ha2 _ Hneg2 _ Ha1 _ Hneg1 _ Hz0 [Va Vb].
  cbn [fst snd] in *. cbv zeta.
  apply (zero_sub_val e z0 a' a10) in Ha1; auto.
  apply (zero_sub_val e z0 b' b10) in Hb1; auto; try lia.
  cbn [map] in Hneg2, Hneg4. rewrite Hz0 in Hneg1. cbn in Hneg1.
  assert (E2 : e neg2 = e aw).
  { destruct (e aw); inversion Hneg2; congruence. }
  assert (E4 : e neg4 = xorb (e aw) (e bw)).
  { rewrite Hneg3, E2 in Hneg4. destruct (e bw); inversion Hneg4 as [HH]; rewrite HH;
      destruct (e aw); reflexivity. }
  rewrite Ha1 in Ha2. rewrite Hb1 in Hb2.
  assert (Na : a' <> []) by (intros ->; cbn in La'; lia).
  assert (Nb : b' <> []) by (intros ->; cbn in Lb'; lia).
  pose proof (valN_last_testbit e a' Na) as Ta. pose proof (valN_last_testbit e b' Nb) as Tb.
  fold aw in Ta. fold bw in Tb.
  rewrite Va, Vb, La', Lb' in *. rewrite Ta, Tb. auto.
Qed.

(* The narrower operand is ZERO padded.  The builder divides the magnitudes A = |a|, B = |b|
   (n-bit two's complement negation of negative operands), negates the quotient
   iff the signs differ, and returns the remainder WITHOUT a sign. *)
Theorem okm_new_idivider_any a b q r :
  (1 <= Nat.max (length a) (length b))%nat -> (length q <= Nat.max (length a) (length b))%nat ->
  okm false (new_idivider a b q r)
      (fun _ e =>
         let n := Nat.max (length a) (length b) in
         let sa := N.testbit (valN e a) (N.of_nat (n - 1)) in
         let sb := N.testbit (valN e b) (N.of_nat (n - 1)) in
         let A := if sa then negN n (valN e a) else valN e a in
         let B := if sb then negN n (valN e b) else valN e b in
         valN e (firstn n r) = dr A B mod 2 ^ N.of_nat (length r) /\
         valN e q = (if xorb sa sb then negN n (dq n A B) else dq n A B) mod 2 ^ N.of_nat (length q)).
Proof.
  intros Hn Lq. eapply okm_ext; [intros s; apply idiv_split|].
  eapply okm_bind_p; [apply (okp_idiv_prefix a b _ eq_refl Hn)|].
  intros [[[a2 b2] neg4] z0] [La2 Lb2]. cbv beta. unfold idiv_suffix.
  set (n := Nat.max (length a) (length b)) in *.
  assert (Hm : Nat.max (length a2) (length b2) = n) by lia.
  destruct (Nat.eqb_spec (length q) 0) as [Q0|Q0].
  - eapply okm_weaken; [apply okm_new_udivider_long, okm_udivider_long_any; lia|]. cbv beta zeta.
    rewrite Hm. intros _ e [_ HR] (Hz & HA & HB & HN). rewrite HR, HA, HB.
    split; [reflexivity|]. destruct q; [|discriminate]. rewrite valN_nil. symmetry. apply N.mod_1_r.
  - eapply okm_bind_p; [apply okp_fresh_n|]. intros q0 Lq0. cbv beta in Lq0 |- *.
    eapply okm_bind; [apply okm_new_udivider_long, okm_udivider_long_any; lia|]. intros u7. cbv beta zeta.
    eapply okm_bind_p; [apply okp_fresh_n|]. intros q10 Lq10. cbv beta in Lq10 |- *.
    eapply okm_bind_p; [apply okp_new_subtractor; cbn [length]; lia|]. intros q1 Lq1. cbv beta in Lq1 |- *.
    eapply okm_weaken; [apply okm_new_mux; lia|]. cbv beta.
    rewrite Hm. intros _ e Hq Hq1 _ [HQ HR] _ (Hz & HA & HB & HN).
    rewrite firstn_all2 in HQ by lia.
    apply (zero_sub_val e z0 q0 q10) in Hq1; auto; try lia.
    assert (Bd : valN e a2 < 2 ^ N.of_nat n) by (rewrite <- La2; apply valN_lt).
    rewrite HR, Hq, HN, Hq1, HQ, HA, HB, Lq0. rewrite HA in Bd.
    split; [reflexivity|]. destruct (xorb _ _); [|reflexivity].
    apply negN_mod; [lia|]. apply N.lt_le_incl, dq_bound. exact Bd.
Qed.

Theorem okm_new_idivider a b q r :
  (1 <= length a)%nat -> length b = length a -> length q = length a -> length r = length a ->
  okm false (new_idivider a b q r)
      (fun _ e =>
         valN e b <> 0 ->
         let n := length a in
         let sa := e (last a 0) in
         let sb := e (last b 0) in
         let A := if sa then negN n (valN e a) else valN e a in
         let B := if sb then negN n (valN e b) else valN e b in
         valN e r = A mod B /\
         valN e q = if xorb sa sb then negN n (A / B) else A / B).
Proof.
  intros Ha Lb Lq Lr.
  eapply okm_weaken; [apply okm_new_idivider_any; lia|].
  cbv beta zeta. rewrite Lb, Nat.max_id. intros _ e [HR HQ] Hb.
  assert (Na : a <> []) by (intros ->; cbn in Ha; lia).
  assert (Nb : b <> []) by (intros ->; cbn in Lb, Ha; lia).
  assert (Tb : N.testbit (valN e b) (N.of_nat (length a - 1)) = e (last b 0))
    by (rewrite <- Lb; apply valN_last_testbit; exact Nb).
  rewrite (valN_last_testbit e a Na), Tb in HR, HQ.
  rewrite firstn_all2 in HR by lia. rewrite HR, HQ, Lq, Lr.
  pose proof (valN_lt e a) as BA. pose proof (valN_lt e b) as BB. rewrite Lb in BB.
  set (n := length a) in *.
  set (A := if e (last a 0) then negN n (valN e a) else valN e a).
  set (B := if e (last b 0) then negN n (valN e b) else valN e b).
  assert (HA : A < 2 ^ N.of_nat n) by (unfold A; destruct (e (last a 0)); [apply negN_lt|exact BA]).
  assert (HB0 : B <> 0) by (unfold B; destruct (e (last b 0)); [apply negN_nonzero; assumption|exact Hb]).
  apply N.eqb_neq in HB0. split.
  - rewrite N.mod_small by (apply dr_bound; exact HA). unfold dr. rewrite HB0. reflexivity.
  - rewrite N.mod_small by (destruct (xorb _ _); [apply negN_lt|apply dq_bound; exact HA]).
    unfold dq. rewrite HB0. reflexivity.
Qed.
