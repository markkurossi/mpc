(* SessionOT.v — the session theorem for ANY oblivious transfer that delivers
   exactly the chosen label, and its instantiation with the COT-over-IKNP model
   of C06 (ot/cot.go, ot/iknp.go) and with the Chou-Orlandi model (ot/co.go):
   the hypothesis "ideal OT" of C02 is discharged, inside Coq, by the C06
   theorems. *)
From Coq Require Import NArith List Lia.
From Mpc Require Import Base.ListFacts Base.Label Circuit.Circuit Circuit.Garble
     Proto.Session Proto.SessionProof OT.Iknp OT.Cot OT.CotProof.
Import ListNotations.
Open Scope N_scope.

Definition ot_correct (ot : list wire -> list bool -> option (list N)) : Prop :=
  forall ws ys, length ws = length ys -> ot ws ys = ideal_ot ws ys.

Theorem session_correct_any_ot (pi_of_key : list N -> N -> N)
        (ot : list wire -> list bool -> option (list N))
        (rnd : nat -> N) (key : list N) (scratch : list wire) (c : circ2) (x y : list bool) :
  ot_correct ot ->
  wf2 c = true -> length x = n0 c -> length y = n1 c ->
  let r := Codec.split_bits (outs c) (Codec.bits_to_N (eval_plain (cc c) (x ++ y))) in
  exists g2e e2g, run_session pi_of_key ot rnd key scratch c x y = Ok r r g2e e2g.
Proof.
  intros Hot Hwf Hx Hy r. subst r.
  pose proof (session_correct pi_of_key rnd key scratch c x y Hwf Hx Hy) as SC. cbv zeta in SC.
  destruct SC as (g2e & e2g & HR & _).
  exists g2e, e2g. rewrite <- HR. unfold run_session.
  rewrite (Hot (ot_wires c (garble (pi_of_key key) rnd scratch (cc c))) (firstn (n1 c) y)).
  - reflexivity.
  - rewrite ot_wires_length by exact Hwf. rewrite firstn_length. lia.
Qed.

Section CotOT.
  Variables (g0 g1 : nat -> nat -> N) (Delta : N) (E : N -> N -> N) (p : nat) (mal : option (N * N)).

  Definition cot_ot (ws : list wire) (ys : list bool) : option (list N) :=
    match run_op g0 g1 Delta true true (p, p) (OpLabels ys mal) with
    | Some (ResLabels _ data rcvd _ _, _) =>
        match cot_send E Delta data ws with
        | Some msgs => cot_receive E rcvd ys msgs
        | None => None
        end
    | _ => None
    end.

  Theorem cot_ot_correct : Delta < 2 ^ 128 -> ot_correct cot_ot.
  Proof.
    intros HD ws ys HL. unfold cot_ot, ideal_ot.
    destruct (cot_over_iknp g0 g1 Delta E true true p ys mal ws HD HL)
      as (us & data & rcvd & cvs & cvr & p' & msgs & result & Hrun & Hs & Hr & Hlen & Hnth).
    rewrite Hrun, Hs, Hr. f_equal. rewrite map_pick_combine by exact HL.
    apply nth_ext with (d := 0) (d' := 0).
    - rewrite map_length, seq_length. exact Hlen.
    - intros q Hq. rewrite Hlen in Hq. rewrite nth_map_seq by exact Hq. apply Hnth. exact Hq.
  Qed.
End CotOT.

(* C02 with the library's correlated OT in either adversary mode *)
Corollary session_correct_cot (pi_of_key : list N -> N -> N) g0 g1 Delta E p mal
          (rnd : nat -> N) (key : list N) (scratch : list wire) (c : circ2) (x y : list bool) :
  Delta < 2 ^ 128 ->
  wf2 c = true -> length x = n0 c -> length y = n1 c ->
  let r := Codec.split_bits (outs c) (Codec.bits_to_N (eval_plain (cc c) (x ++ y))) in
  exists g2e e2g,
    run_session pi_of_key (cot_ot g0 g1 Delta E p mal) rnd key scratch c x y = Ok r r g2e e2g.
Proof.
  intros HD. apply session_correct_any_ot. apply cot_ot_correct. exact HD.
Qed.

(* the curve and deriveMask of ot/co.go stay abstract: any abelian group with
   scalar multiplication, any mask derivation *)
From Mpc Require Import OT.Co OT.CoProof.

Section CoOT.
  Variables (G : Type) (gadd : G -> G -> G) (gneg : G -> G) (gzero : G) (smul : N -> G -> G) (Gen : G).
  Variable kdf : G -> N -> N.
  Hypothesis gadd_assoc : forall P Q R, gadd (gadd P Q) R = gadd P (gadd Q R).
  Hypothesis gadd_zero : forall P, gadd P gzero = P.
  Hypothesis gadd_neg : forall P, gadd P (gneg P) = gzero.
  Hypothesis smul_add : forall a P Q, smul a (gadd P Q) = gadd (smul a P) (smul a Q).
  Hypothesis smul_comm : forall a b P, smul a (smul b P) = smul b (smul a P).
  Variables (a : N) (sc : nat -> N).

  Definition co_ot (ws : list wire) (ys : list bool) : option (list N) :=
    co_transfer G gadd gneg smul Gen kdf a (map sc (seq 0 (length ys))) ys ws.

  Theorem co_ot_correct : ot_correct co_ot.
  Proof.
    intros ws ys HL. unfold co_ot, ideal_ot.
    apply (co_correct G gadd gneg gzero smul Gen kdf gadd_assoc gadd_zero gadd_neg smul_add smul_comm).
    - rewrite map_length, seq_length. reflexivity.
    - exact HL.
  Qed.
End CoOT.

Corollary session_correct_co (pi_of_key : list N -> N -> N)
          (G : Type) (gadd : G -> G -> G) (gneg : G -> G) (gzero : G) (smul : N -> G -> G) (Gen : G)
          (kdf : G -> N -> N) (a : N) (sc : nat -> N)
          (rnd : nat -> N) (key : list N) (scratch : list wire) (c : circ2) (x y : list bool) :
  (forall P Q R, gadd (gadd P Q) R = gadd P (gadd Q R)) ->
  (forall P, gadd P gzero = P) ->
  (forall P, gadd P (gneg P) = gzero) ->
  (forall a P Q, smul a (gadd P Q) = gadd (smul a P) (smul a Q)) ->
  (forall a b P, smul a (smul b P) = smul b (smul a P)) ->
  wf2 c = true -> length x = n0 c -> length y = n1 c ->
  let r := Codec.split_bits (outs c) (Codec.bits_to_N (eval_plain (cc c) (x ++ y))) in
  exists g2e e2g,
    run_session pi_of_key (co_ot G gadd gneg smul Gen kdf a sc) rnd key scratch c x y = Ok r r g2e e2g.
Proof.
  intros H1 H2 H3 H4 H5. apply session_correct_any_ot.
  apply (co_ot_correct G gadd gneg gzero smul Gen kdf H1 H2 H3 H4 H5).
Qed.
