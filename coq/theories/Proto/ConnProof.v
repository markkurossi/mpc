(* ConnProof.v — theorems about the model of p2p.Conn (Proto/Conn.v): what the
   sender has produced is the concatenation of the encodings of the sent values,
   however it is chunked; under the window invariant the typed receives compute
   the abstract parser on (window ++ rest of the stream) for every segmentation,
   and can only fail with EOF; the round trip; the invariant of the small-step
   main/writer ring system and its agreement with the functional sender. *)
From Coq Require Import ZArith NArith List Bool Arith Lia.
From Mpc Require Import Base.ListFacts Base.Codec Base.CodecProof Proto.Conn.
Import ListNotations.
Open Scope N_scope.

Lemma nlen_app {A} (a b : list A) : nlen (a ++ b) = nlen a + nlen b.
Proof. unfold nlen. rewrite app_length. lia. Qed.

Lemma nlen_nil {A} : nlen (@nil A) = 0.
Proof. reflexivity. Qed.

Lemma nlen_0 {A} (l : list A) : nlen l = 0 -> l = [].
Proof. unfold nlen. destruct l; cbn; [reflexivity|lia]. Qed.

Lemma nlen_map {A B} (f : A -> B) l : nlen (map f l) = nlen l.
Proof. unfold nlen. rewrite map_length. reflexivity. Qed.

Lemma ntake_ndrop {A} n (l : list A) : ntake n l ++ ndrop n l = l.
Proof. apply firstn_skipn. Qed.

Lemma nlen_ntake {A} n (l : list A) : nlen (ntake n l) = N.min n (nlen l).
Proof. unfold nlen, ntake. rewrite firstn_length. lia. Qed.

Lemma nlen_ndrop {A} n (l : list A) : nlen (ndrop n l) = nlen l - n.
Proof. unfold nlen, ndrop. rewrite skipn_length. lia. Qed.

Lemma ntake_app_le {A} n (a b : list A) : n <= nlen a -> ntake n (a ++ b) = ntake n a.
Proof.
  unfold nlen, ntake. intros H. rewrite firstn_app.
  replace (N.to_nat n - length a)%nat with 0%nat by lia. cbn. apply app_nil_r.
Qed.

Lemma ndrop_app_le {A} n (a b : list A) : n <= nlen a -> ndrop n (a ++ b) = ndrop n a ++ b.
Proof.
  unfold nlen, ndrop. intros H. rewrite skipn_app.
  replace (N.to_nat n - length a)%nat with 0%nat by lia. reflexivity.
Qed.

Lemma ntake_all {A} n (l : list A) : nlen l <= n -> ntake n l = l.
Proof. unfold nlen, ntake. intros H. apply firstn_all2. lia. Qed.

Lemma ndrop_all {A} n (l : list A) : nlen l <= n -> ndrop n l = [].
Proof. unfold nlen, ndrop. intros H. apply skipn_all2. lia. Qed.

Lemma ntake_0 {A} (l : list A) : ntake 0 l = [].
Proof. reflexivity. Qed.

Lemma ndrop_0 {A} (l : list A) : ndrop 0 l = l.
Proof. reflexivity. Qed.

Lemma ntake_add {A} a b (l : list A) : ntake (a + b) l = ntake a l ++ ntake b (ndrop a l).
Proof. unfold ntake, ndrop. rewrite N2Nat.inj_add. apply firstn_add. Qed.

Lemma ndrop_add {A} a b (l : list A) : ndrop (a + b) l = ndrop b (ndrop a l).
Proof. unfold ndrop. rewrite N2Nat.inj_add. apply skipn_add. Qed.

Lemma nlen_rev {A} (l : list A) : nlen (rev l) = nlen l.
Proof. unfold nlen. now rewrite rev_length. Qed.

Lemma nlen_be k x : nlen (be k x) = N.of_nat k.
Proof. unfold nlen. now rewrite be_length. Qed.

Lemma be_mod k : forall x, be k (x mod 256 ^ N.of_nat k) = be k x.
Proof.
  induction k as [|k IH]; intros x; [reflexivity|].
  cbn [be]. rewrite Nat2N.inj_succ, N.pow_succ_r'.
  assert (H256 : 256 ^ N.of_nat k <> 0) by (apply N.pow_nonzero; lia).
  rewrite N.mod_mul_r by lia.
  set (Y := (x / 256) mod 256 ^ N.of_nat k).
  assert (Hx : x mod 256 < 256) by (apply N.mod_lt; lia).
  assert (H1 : (x mod 256 + 256 * Y) / 256 = Y).
  { rewrite (N.mul_comm 256 Y), N.div_add by lia. rewrite (N.div_small (x mod 256) 256 Hx). reflexivity. }
  assert (H2 : (x mod 256 + 256 * Y) mod 256 = x mod 256).
  { rewrite (N.mul_comm 256 Y), N.mod_add by lia. apply N.mod_small, Hx. }
  rewrite H1, H2. unfold Y. now rewrite IH.
Qed.

Lemma u32_of_Z_lt v : u32_of_Z v < 4294967296.
Proof. unfold u32_of_Z. pose proof (Z.mod_pos_bound v 4294967296 ltac:(lia)). lia. Qed.

Lemma fold_left_inv {A B} (P : A -> Prop) (f : A -> B -> A) :
  (forall a b, P a -> P (f a b)) -> forall l a, P a -> P (fold_left f l a).
Proof. intros H. induction l as [|b l IH]; intros a Ha; cbn; auto. Qed.

Lemma wire_bytes_snoc s c b :
  concat (map snd (s_chunks s ++ [(c, b)])) = wire_bytes s ++ b.
Proof. unfold wire_bytes, wire_chunks. rewrite map_app, concat_app. cbn. now rewrite app_nil_r. Qed.

(* the counters need no size hypothesis: after ANY op sequence (in-place
   writes included) Sent = bytes handed to the writer, Flushed = number of
   chunks, no chunk is empty *)
Section Counters.
Variables (nbuf wcap : N).

Lemma flush_buf_idle s : wpos s = 0 -> flush_buf nbuf s = s.
Proof. intros H. unfold flush_buf. now rewrite H. Qed.

Lemma flush_buf_pos s : 0 < wpos s ->
  flush_buf nbuf s = mkS ((s_cur s + 1) mod nbuf) [] (s_chunks s ++ [(s_cur s, s_buf s)])
                         (s_sent s + wpos s) (s_flushed s + 1) (s_closed s) (s_err s).
Proof. intros H. unfold flush_buf. apply N.ltb_lt in H. now rewrite H. Qed.

Lemma flush_buf_case (P : sender -> Prop) s :
  (wpos s = 0 -> P s) ->
  (0 < wpos s -> P (mkS ((s_cur s + 1) mod nbuf) [] (s_chunks s ++ [(s_cur s, s_buf s)])
                        (s_sent s + wpos s) (s_flushed s + 1) (s_closed s) (s_err s))) ->
  P (flush_buf nbuf s).
Proof.
  intros H0 H1. destruct (N.eq_0_gt_0_cases (wpos s)) as [E|E].
  - rewrite flush_buf_idle by exact E. auto.
  - rewrite flush_buf_pos by exact E. auto.
Qed.

Lemma step_preserves (P : sender -> Prop) :
  (forall s, P s -> P (flush_buf nbuf s)) ->
  (forall bs s, P s -> P (append_buf bs s)) ->
  (forall s c e, P s -> P (mkS (s_cur s) (s_buf s) (s_chunks s) (s_sent s) (s_flushed s) c e)) ->
  forall s o, P s -> P (step nbuf wcap s o).
Proof.
  intros Hf Ha Hflag.
  assert (Hput : forall k bs s, P s -> P (put nbuf wcap k bs s)).
  { intros k bs s Hs. unfold put. apply Ha. destruct (wcap <? wpos s + k); auto. }
  assert (Hdl : forall fuel d s, P s -> P (data_loop nbuf wcap fuel d s)).
  { induction fuel as [|fuel IH]; intros d s Hs; destruct d as [|x d']; cbn [data_loop]; auto.
    - unfold set_err. now apply Hflag.
    - apply IH, Ha. destruct (wcap <=? wpos s); auto. }
  intros s o Hs. unfold step. destruct (s_closed s || s_err s); [unfold set_err; now apply Hflag|].
  destruct o; try (now apply Hput); try (apply Hdl; now apply Hput); auto.
  - unfold send_sizes. apply (fold_left_inv P); [intros; now apply Hput|now apply Hput].
  - unfold close_conn. apply Hflag. auto.
Qed.

Lemma run_preserves (P : sender -> Prop) :
  (forall s, P s -> P (flush_buf nbuf s)) ->
  (forall bs s, P s -> P (append_buf bs s)) ->
  (forall s c e, P s -> P (mkS (s_cur s) (s_buf s) (s_chunks s) (s_sent s) (s_flushed s) c e)) ->
  P s_init -> forall ops, P (run_sender nbuf wcap ops).
Proof. intros Hf Ha Hflag H0 ops. apply (fold_left_inv P); [now apply step_preserves|exact H0]. Qed.

Record KInv (s : sender) : Prop := {
  ki_sent : s_sent s = nlen (wire_bytes s);
  ki_flushed : s_flushed s = nlen (s_chunks s);
  ki_chunks : Forall (fun c => 0 < nlen (snd c)) (s_chunks s)
}.

Lemma KInv_flush s : KInv s -> KInv (flush_buf nbuf s).
Proof.
  intros [H1 H2 H3]. apply flush_buf_case; intros E; [split; assumption|].
  split; cbn [s_sent s_flushed s_chunks].
  - unfold wire_bytes, wire_chunks. cbn [s_chunks]. rewrite wire_bytes_snoc, nlen_app, H1. reflexivity.
  - rewrite nlen_app, H2. reflexivity.
  - apply Forall_app. split; [assumption|]. constructor; [|constructor]. exact E.
Qed.

Lemma KInv_run ops : KInv (run_sender nbuf wcap ops).
Proof.
  apply run_preserves.
  - apply KInv_flush.
  - intros bs s [H1 H2 H3]. split; assumption.
  - intros s c e [H1 H2 H3]. split; assumption.
  - split; cbn; try reflexivity. constructor.
Qed.

End Counters.

Section SenderProofs.
Variables (nbuf wcap : N).
Hypothesis wcap_pos : 0 < wcap.

Notation sender_flush := (flush_buf nbuf).
Notation sstep := (step nbuf wcap).
Notation srun := (run_sender nbuf wcap).

Definition produced (s : sender) : list N := wire_bytes s ++ s_buf s.

Definition enc_op (o : op) : list N :=
  match value_of o with Some v => encode v | None => [] end.

Definition appends (X : list N) (f : sender -> sender) : Prop :=
  forall s, produced (f s) = produced s ++ X /\ s_err (f s) = s_err s /\ s_closed (f s) = s_closed s.

Lemma appends_comp X Y f g : appends X f -> appends Y g -> appends (X ++ Y) (fun s => g (f s)).
Proof.
  intros Hf Hg s. destruct (Hf s) as (Fp & Fe & Fc). destruct (Hg (f s)) as (-> & -> & ->).
  rewrite Fp, app_assoc. tauto.
Qed.

Lemma appends_nil : appends [] (fun s => s).
Proof. intros s. rewrite app_nil_r. tauto. Qed.

Lemma appends_flush : appends [] sender_flush.
Proof.
  intros s. apply flush_buf_case; intros E; [apply appends_nil|].
  unfold produced, wire_bytes, wire_chunks. cbn [s_chunks s_buf s_err s_closed].
  now rewrite wire_bytes_snoc, !app_nil_r.
Qed.

Lemma appends_append bs : appends bs (append_buf bs).
Proof. intros s. unfold produced, append_buf, wire_bytes, wire_chunks. cbn. now rewrite app_assoc. Qed.

Lemma flush_wpos s : wpos (sender_flush s) = 0.
Proof. apply flush_buf_case; intros E; [exact E|reflexivity]. Qed.

Lemma flush_err s : s_err (sender_flush s) = s_err s.
Proof. apply appends_flush. Qed.

Lemma flush_closed s : s_closed (sender_flush s) = s_closed s.
Proof. apply appends_flush. Qed.

Lemma appends_put k bs : appends bs (put nbuf wcap k bs).
Proof.
  intros s. unfold put. destruct (wcap <? wpos s + k).
  - apply (appends_comp [] bs _ _ appends_flush (appends_append bs)).
  - apply appends_append.
Qed.

Lemma appends_data_loop : forall fuel d, (length d <= fuel)%nat -> appends d (data_loop nbuf wcap fuel d).
Proof.
  induction fuel as [|fuel IH]; intros d Hf s.
  - destruct d; [apply appends_nil|cbn in Hf; lia].
  - destruct d as [|x d']; [apply appends_nil|].
    cbn [data_loop].
    set (s1 := if wcap <=? wpos s then sender_flush s else s).
    assert (Hs1 : (produced s1 = produced s ++ [] /\ s_err s1 = s_err s /\ s_closed s1 = s_closed s) /\ wpos s1 < wcap).
    { unfold s1. destruct (wcap <=? wpos s) eqn:E.
      - split; [apply appends_flush|rewrite flush_wpos; exact wcap_pos].
      - apply N.leb_gt in E. split; [apply appends_nil|exact E]. }
    destruct Hs1 as ((Hp & He & Hc) & Hw). rewrite app_nil_r in Hp.
    set (n := wcap - wpos s1).
    assert (Hlen : (length (ndrop n (x :: d')) <= fuel)%nat).
    { pose proof (nlen_ndrop n (x :: d')) as H. unfold nlen in H. cbn [length] in *. lia. }
    destruct (appends_comp _ _ _ _ (appends_append (ntake n (x :: d'))) (IH _ Hlen) s1) as (-> & -> & ->).
    now rewrite ntake_ndrop, Hp.
Qed.

Lemma appends_send_data d : appends (be 4 (nlen d) ++ d) (send_data nbuf wcap d).
Proof. exact (appends_comp _ _ _ _ (appends_put 4 (be 4 (nlen d))) (appends_data_loop _ d (le_n _))). Qed.

Lemma appends_send_sizes l :
  appends (be 4 (nlen l) ++ concat (map (be 4) (map u32_of_Z l))) (send_sizes nbuf wcap l).
Proof.
  refine (appends_comp _ _ _ (fold_left (fun s v => send_u32 nbuf wcap v s) l) (appends_put 4 (be 4 (nlen l))) _).
  induction l as [|v l IH]; [apply appends_nil|].
  exact (appends_comp _ _ _ _ (appends_put 4 (be 4 (u32_of_Z v))) IH).
Qed.

Lemma step_open s o : s_closed s = false -> s_err s = false ->
  sstep s o = match o with
              | OByte b => send_byte nbuf wcap b s
              | OU16 v => send_u16 nbuf wcap v s
              | OU32 v => send_u32 nbuf wcap v s
              | OData d | OString d => send_data nbuf wcap d s
              | OLabel l => send_label nbuf wcap l s
              | OSizes l => send_sizes nbuf wcap l s
              | OFlush => sender_flush s
              | OClose => close_conn nbuf s
              | ORaw n bs => put nbuf wcap n bs s
              end.
Proof. intros Hc He. unfold step. rewrite Hc, He. destruct o; reflexivity. Qed.

Lemma step_appends s o : o <> OClose -> s_closed s = false -> s_err s = false ->
  produced (sstep s o) = produced s ++ enc_op o /\ s_err (sstep s o) = s_err s /\ s_closed (sstep s o) = s_closed s.
Proof.
  intros Ho Hc He. rewrite step_open by assumption. destruct o; unfold enc_op; cbn [value_of encode].
  - change 256 with (256 ^ N.of_nat 1). rewrite be_mod. apply appends_put.
  - change 65536 with (256 ^ N.of_nat 2). rewrite be_mod. apply appends_put.
  - apply appends_put.
  - apply appends_send_data.
  - apply appends_send_data.
  - change (2 ^ 128) with (256 ^ N.of_nat 16). rewrite be_mod. apply appends_put.
  - rewrite nlen_map. apply appends_send_sizes.
  - apply appends_flush.
  - contradiction.
  - apply appends_put.
Qed.

Lemma op_eq_close (o : op) : o = OClose \/ o <> OClose.
Proof. destruct o; (now left) || (right; discriminate). Qed.

Lemma step_produced s o :
  s_closed s = false -> s_err s = false ->
  produced (sstep s o) = produced s ++ enc_op o /\ s_err (sstep s o) = false.
Proof.
  intros Hc He. destruct (op_eq_close o) as [->|Ho].
  - rewrite step_open by assumption. destruct (appends_flush s) as (Hp & He' & _).
    split; [exact Hp|rewrite <- He; exact He'].
  - destruct (step_appends s o Ho Hc He) as (Hp & He' & _). split; [exact Hp|congruence].
Qed.

Lemma step_err_sticky s o : s_err s = true -> s_err (sstep s o) = true.
Proof. intros H. unfold step. rewrite H, orb_true_r. reflexivity. Qed.

Lemma fold_err_sticky ops s : s_err s = true -> s_err (fold_left sstep ops s) = true.
Proof. apply (fold_left_inv (fun s => s_err s = true)). intros; now apply step_err_sticky. Qed.

Lemma step_closed_err s o : s_closed s = true -> s_err (sstep s o) = true.
Proof. intros H. unfold step. rewrite H. reflexivity. Qed.

Lemma fold_produced : forall ops s, s_err s = false -> s_err (fold_left sstep ops s) = false ->
  produced (fold_left sstep ops s) = produced s ++ concat (map encode (values_of ops)).
Proof.
  induction ops as [|o ops IH]; intros s He Hend; cbn [fold_left values_of map concat]; [now rewrite app_nil_r|].
  cbn [fold_left] in Hend.
  destruct (s_closed s) eqn:Hc.
  { pose proof (fold_err_sticky ops _ (step_closed_err s o Hc)). congruence. }
  destruct (step_produced s o Hc He) as (Hp & He').
  rewrite (IH _ He' Hend), Hp. unfold enc_op.
  destruct (value_of o); cbn [map concat]; now rewrite <- app_assoc.
Qed.

Theorem produced_is_concat ops :
  s_err (srun ops) = false ->
  wire_bytes (srun ops) ++ s_buf (srun ops) = concat (map encode (values_of ops)).
Proof. intros H. unfold run_sender in *. apply (fold_produced ops (s_init) eq_refl H). Qed.

(* scripts inside the domain: Close, if present, is the last op *)
Fixpoint close_only_last (ops : list op) : Prop :=
  match ops with
  | [] => True
  | OClose :: rest => rest = []
  | _ :: rest => close_only_last rest
  end.

Lemma fold_no_err : forall ops s, s_closed s = false -> s_err s = false -> close_only_last ops ->
  s_err (fold_left sstep ops s) = false.
Proof.
  induction ops as [|o ops IH]; intros s Hc He Hw; cbn [fold_left]; [assumption|].
  destruct (op_eq_close o) as [->|Ho].
  - cbn in Hw. subst ops. apply (step_produced s OClose Hc He).
  - destruct (step_appends s o Ho Hc He) as (_ & He' & Hc').
    apply IH; [congruence|congruence|]. destruct o; try exact Hw. contradiction.
Qed.

Lemma run_no_err ops : close_only_last ops -> s_err (srun ops) = false.
Proof. intros H. apply fold_no_err; [reflexivity|reflexivity|exact H]. Qed.

Theorem stream_is_concat ops : close_only_last ops ->
  wire_bytes (srun ops) ++ s_buf (srun ops) = concat (map encode (values_of ops)).
Proof. intros H. apply produced_is_concat, run_no_err, H. Qed.

Definition ends_flushed (ops : list op) : Prop :=
  exists ops', ops = ops' ++ [OFlush] \/ ops = ops' ++ [OClose].

Lemma step_flushes s o : o = OFlush \/ o = OClose -> s_err (sstep s o) = false -> s_buf (sstep s o) = [].
Proof.
  intros Ho He. unfold step in *. destruct (s_closed s || s_err s); [discriminate He|].
  apply nlen_0. destruct Ho; subst o; apply flush_wpos.
Qed.

Lemma run_ends_flushed ops : ends_flushed ops -> s_err (srun ops) = false -> s_buf (srun ops) = [].
Proof.
  unfold run_sender. intros (ops' & [-> | ->]); rewrite fold_left_app; apply step_flushes; auto.
Qed.

(* C11: flush placement changes the chunking only *)
Theorem wire_is_concat ops :
  close_only_last ops -> ends_flushed ops ->
  wire_bytes (srun ops) = concat (map encode (values_of ops)).
Proof.
  intros Hw Hf. pose proof (run_no_err ops Hw) as He.
  rewrite <- (produced_is_concat ops He), (run_ends_flushed ops Hf He). now rewrite app_nil_r.
Qed.

Record SInv (s : sender) : Prop := {
  si_chunks : Forall (fun c => nlen (snd c) <= wcap) (s_chunks s);
  si_pos : wpos s <= wcap
}.

Lemma SInv_flush s : SInv s -> SInv (sender_flush s).
Proof.
  intros [H1 H2]. apply flush_buf_case; intros E; [split; assumption|].
  split; [|unfold wpos; cbn; lia]. cbn [s_chunks].
  apply Forall_app. split; [assumption|]. constructor; [exact H2|constructor].
Qed.

Lemma SInv_append bs s : SInv s -> wpos s + nlen bs <= wcap -> SInv (append_buf bs s).
Proof.
  intros [H1 H2] Hb. split; [exact H1|].
  unfold wpos in *. cbn [append_buf s_buf]. rewrite nlen_app. lia.
Qed.

Lemma SInv_put k bs s : SInv s -> nlen bs <= k -> k <= wcap -> SInv (put nbuf wcap k bs s).
Proof.
  intros Hs Hk Hle. unfold put. destruct (wcap <? wpos s + k) eqn:E.
  - apply SInv_append; [now apply SInv_flush|]. rewrite flush_wpos. lia.
  - apply N.ltb_ge in E. apply SInv_append; [assumption|lia].
Qed.

(* domain of the in-place write op: the caller stores at most the n bytes it asked
   NeedSpace for, and n fits a buffer (otherwise the Go code indexes past the buffer) *)
Definition raw_fits (o : op) : Prop :=
  match o with ORaw n bs => nlen bs <= n /\ n <= wcap | _ => True end.

Lemma SInv_data_loop : forall fuel d s, SInv s -> SInv (data_loop nbuf wcap fuel d s).
Proof.
  induction fuel as [|fuel IH]; intros d s Hs; destruct d as [|x d']; cbn [data_loop]; try assumption.
  - destruct Hs. split; assumption.
  - apply IH. set (s1 := if wcap <=? wpos s then sender_flush s else s).
    assert (Hs1 : SInv s1) by (unfold s1; destruct (wcap <=? wpos s); [now apply SInv_flush|assumption]).
    apply SInv_append; [assumption|]. rewrite nlen_ntake. pose proof (si_pos _ Hs1). lia.
Qed.

Section WithMin.
Hypothesis wcap_min : 16 <= wcap.   (* the largest fixed-size value (a label) fits in a buffer *)

Lemma SInv_step s o : raw_fits o -> SInv s -> SInv (sstep s o).
Proof.
  intros Hfit Hs. unfold step. destruct (s_closed s || s_err s).
  { destruct Hs. split; assumption. }
  assert (Hbe : forall k x s, N.of_nat k <= wcap -> SInv s -> SInv (put nbuf wcap (N.of_nat k) (be k x) s)).
  { intros k x s0 Hk Hs0. apply SInv_put; [assumption|rewrite nlen_be; lia|assumption]. }
  destruct o.
  - apply (Hbe 1%nat); [lia|assumption].
  - apply (Hbe 2%nat); [lia|assumption].
  - apply (Hbe 4%nat); [lia|assumption].
  - apply SInv_data_loop, (Hbe 4%nat); [lia|assumption].
  - apply SInv_data_loop, (Hbe 4%nat); [lia|assumption].
  - apply (Hbe 16%nat); [lia|assumption].
  - unfold send_sizes. apply (fold_left_inv SInv); intros; apply (Hbe 4%nat); solve [lia|assumption].
  - now apply SInv_flush.
  - pose proof (SInv_flush s Hs) as [H1 H2]. unfold close_conn. split; assumption.
  - cbn in Hfit. apply SInv_put; [assumption|apply Hfit|apply Hfit].
Qed.

(* after any op sequence: Stats.Sent = number of bytes handed to the writer,
   Stats.Flushed = number of chunks, every chunk is non-empty and at most one
   buffer long *)
Theorem sender_counters ops : Forall raw_fits ops ->
  let s := srun ops in
  s_sent s = nlen (wire_bytes s) /\ s_flushed s = nlen (s_chunks s) /\
  Forall (fun c => 0 < nlen (snd c) <= wcap) (s_chunks s).
Proof.
  intros Hfit. cbn. destruct (KInv_run nbuf wcap ops) as [K1 K2 K3].
  assert (H : forall ops s, Forall raw_fits ops -> SInv s -> SInv (fold_left sstep ops s)).
  { induction ops0 as [|o ops0 IH]; intros s Hf Hs; cbn; [assumption|].
    inversion Hf; subst. apply IH; [assumption|]. apply SInv_step; assumption. }
  assert (H0 : SInv s_init) by (split; cbn; [constructor|lia]).
  destruct (H ops s_init Hfit H0) as [S1 _]. split; [exact K1|]. split; [exact K2|].
  rewrite Forall_forall in *. intros c Hc. split; [apply K3, Hc|apply S1, Hc].
Qed.

End WithMin.
End SenderProofs.

Lemma firstn_skipn_len {A} n (l : list A) : firstn n l ++ skipn (length (firstn n l)) l = l.
Proof.
  rewrite firstn_length. destruct (le_lt_dec n (length l)) as [H|H].
  - rewrite Nat.min_l by assumption. apply firstn_skipn.
  - rewrite Nat.min_r by lia. rewrite skipn_all, firstn_all2 by lia. apply app_nil_r.
Qed.

Lemma tread_spec t cap : 0 < cap ->
  forall got eof t', tread t cap = (got, eof, t') ->
  got ++ t_stream t' = t_stream t /\ nlen got <= cap /\
  (eof = false -> 1 <= nlen got) /\ (eof = true -> t_stream t' = []).
Proof.
  intros Hc got eof t'. unfold tread. destruct (t_stream t) as [|x l] eqn:E.
  - intros H. injection H as <- <- <-. rewrite E. cbn. repeat split; try lia; try congruence.
  - intros H. injection H as Hg He Ht. subst t'. cbn [t_stream].
    set (seg := match t_frags t with [] => cap | f :: _ => N.max 1 f end) in *.
    assert (Hseg : 1 <= seg) by (unfold seg; destruct (t_frags t); lia).
    subst got. split; [|split; [|split]].
    + unfold ndrop, ntake, nlen. rewrite Nat2N.id. apply firstn_skipn_len.
    + rewrite nlen_ntake. lia.
    + intros _. rewrite nlen_ntake. unfold nlen. cbn [length]. lia.
    + intros ->. apply andb_true_iff in He. destruct He as (_ & He).
      destruct (ndrop _ _); [reflexivity|discriminate].
Qed.

Section ReceiverProofs.
Variable rcap : N.

Definition all (r : receiver) : list N := r_win r ++ t_stream (r_t r).

Record RInv (r : receiver) : Prop := {
  ri_end : r_end r = r_start r + nlen (r_win r);
  ri_cap : r_end r <= rcap
}.

(* Recvd grows by exactly the bytes pulled from the transport *)
Definition pulled (r r' : receiver) : Prop :=
  r_recvd r' + nlen (t_stream (r_t r')) = r_recvd r + nlen (t_stream (r_t r)).

Lemma pulled_refl r : pulled r r. Proof. reflexivity. Qed.
Lemma pulled_trans a b c : pulled a b -> pulled b c -> pulled a c.
Proof. unfold pulled. lia. Qed.

Lemma RInv_init t : RInv (r_init t).
Proof. split; cbn; lia. Qed.

Lemma all_init t : all (r_init t) = t_stream t.
Proof. reflexivity. Qed.

Lemma all_nil_stream r : all r = [] -> t_stream (r_t r) = [].
Proof. intros H. apply app_eq_nil in H. apply H. Qed.

Lemma rev_append_nil {A} (l : list A) : rev_append l [] = rev l.
Proof. rewrite rev_append_rev. apply app_nil_r. Qed.

(* the invariant of Fill's loop: ReadEnd counts the window and the bytes [acc] read in this call *)
Definition filling (r : receiver) (acc : list N) : Prop :=
  r_end r = r_start r + nlen (r_win r) + nlen acc /\ r_end r <= rcap.

(* the loop, entered at [r] with [acc], has come out at [r'] *)
Definition filled (r : receiver) (acc : list N) (r' : receiver) : Prop :=
  RInv r' /\ r_start r' = r_start r /\ all r' = r_win r ++ rev acc ++ t_stream (r_t r) /\ pulled r r'.

Lemma commit_filled r acc : filling r acc -> filled r acc (commit r acc).
Proof.
  intros (H1 & H2). unfold filled, all, pulled. cbn [commit r_start r_win r_t r_recvd]. rewrite rev_append_nil.
  split; [|now rewrite <- app_assoc]. split; cbn [commit r_start r_end r_win]; [|exact H2].
  rewrite rev_append_nil, nlen_app, nlen_rev. lia.
Qed.

Lemma read_filled r acc got eof t' : filling r acc -> r_end r < rcap ->
  tread (r_t r) (rcap - r_end r) = (got, eof, t') ->
  let r2 := mkR (r_start r) (r_end r + nlen got) (r_win r) (r_recvd r + nlen got) t' in
  filling r2 (rev_append got acc) /\
  (forall r', filled r2 (rev_append got acc) r' -> filled r acc r') /\
  (eof = false -> 1 <= nlen got) /\ (eof = true -> t_stream t' = []).
Proof.
  intros (H1 & H2) Hc Et. assert (Hcap : 0 < rcap - r_end r) by lia.
  destruct (tread_spec _ _ Hcap _ _ _ Et) as (Hs & Hg & Hne & Heof).
  cbn zeta. split; [|split; [|split; assumption]].
  - unfold filling. cbn [r_start r_end r_win]. rewrite rev_append_rev, nlen_app, nlen_rev. lia.
  - unfold filled, pulled. cbn [r_start r_win r_t r_recvd]. intros r' (Hi & Hst & Hall & Hp).
    split; [exact Hi|]. split; [exact Hst|]. split.
    + rewrite Hall, rev_append_rev, rev_app_distr, rev_involutive, <- Hs. now rewrite <- !app_assoc.
    + rewrite Hp, <- Hs, nlen_app. lia.
Qed.

Lemma fill_loop_spec : forall fuel n r acc, filling r acc ->
  forall r' e, fill_loop rcap fuel n r acc = (r', e) ->
    filled r acc r' /\
    match e with
    | None => r_start r + n <= r_end r'
    | Some ESpin => rcap < r_start r + n
    | Some EFuel => N.of_nat fuel + r_end r < r_start r + n
    | Some EEOF => r_end r' < r_start r + n /\ t_stream (r_t r') = []
    end.
Proof.
  induction fuel as [|fuel IH]; intros n r acc J r' e; cbn [fill_loop];
    destruct (N.leb_spec (r_start r + n) (r_end r)) as [E|E].
  - intros H; injection H as <- <-. split; [apply commit_filled, J|exact E].
  - intros H; injection H as <- <-. split; [apply commit_filled, J|cbn; lia].
  - intros H; injection H as <- <-. split; [apply commit_filled, J|exact E].
  - destruct (N.leb_spec rcap (r_end r)) as [Ec|Ec].
    { intros H; injection H as <- <-. split; [apply commit_filled, J|lia]. }
    destruct (tread (r_t r) (rcap - r_end r)) as [[got eof] t'] eqn:Et.
    destruct (read_filled r acc got eof t' J Ec Et) as (J2 & Hback & Hne & Heof). cbn zeta in *.
    destruct eof.
    + (* the Read reported EOF, possibly together with its last bytes *)
      cbn [r_start r_end].
      destruct (N.leb_spec (r_start r + n) (r_end r + nlen got)) as [E2|E2]; intros H; injection H as <- <-;
        (split; [apply Hback, commit_filled, J2|]).
      * exact E2.
      * split; [exact E2|apply Heof; reflexivity].
    + intros H. destruct (IH _ _ _ J2 _ _ H) as (F & He). split; [apply Hback, F|].
      cbn [r_start r_end] in He. specialize (Hne eq_refl). destruct e as [[| |]|]; try exact He. lia.
Qed.

Lemma fill_spec n r : RInv r -> n <= rcap ->
  forall r' e, fill rcap n r = (r', e) ->
    RInv r' /\ r_start r' = 0 /\ all r' = all r /\ pulled r r' /\
    match e with None => n <= nlen (r_win r') | Some e => e = EEOF /\ nlen (all r) < n end.
Proof.
  intros [Hend Hcap] Hn r' e. unfold fill.
  set (r1 := if r_start r <? r_end r then mkR 0 (r_end r - r_start r) (r_win r) (r_recvd r) (r_t r)
             else mkR 0 0 [] (r_recvd r) (r_t r)).
  assert (H1 : filling r1 [] /\ r_start r1 = 0 /\ r_win r1 ++ rev [] ++ t_stream (r_t r1) = all r /\ pulled r r1).
  { unfold r1, filling, all, pulled. destruct (r_start r <? r_end r) eqn:E; cbn.
    - apply N.ltb_lt in E. repeat split; lia.
    - apply N.ltb_ge in E. assert (r_win r = []) by (apply nlen_0; lia).
      rewrite H. repeat split; lia. }
  destruct H1 as (J & Hs & Ha & Hp).
  intros H. destruct (fill_loop_spec _ _ _ _ J _ _ H) as ((Hi & Hst & Hall & Hp') & He).
  rewrite Hs in *. rewrite Ha in Hall.
  split; [exact Hi|]. split; [exact Hst|]. split; [exact Hall|]. split; [eapply pulled_trans; eassumption|].
  destruct Hi as [Hi1 _]. destruct e as [[| |]|]; try lia.
  destruct He as (He1 & He2). split; [reflexivity|]. rewrite <- Hall. unfold all. rewrite He2, app_nil_r. lia.
Qed.

(* `if the window holds fewer than m bytes { Fill(n) }` with m <= n, as ReceiveData (m = 1)
   and the fixed-size receives (m = n) call it; [c] is the test *)
Lemma fill_unless_spec (c : bool) m n r : RInv r -> m <= n <= rcap -> (c = false -> m <= nlen (r_win r)) ->
  forall r' e, (if c then fill rcap n r else (r, None)) = (r', e) ->
    RInv r' /\ all r' = all r /\ pulled r r' /\
    match e with None => m <= nlen (r_win r') | Some e => e = EEOF /\ nlen (all r) < n end.
Proof.
  intros Hr Hmn Hc r' e. destruct c; intros H.
  - destruct (fill_spec n r Hr (proj2 Hmn) r' e H) as (Hi & _ & Ha & Hp & He).
    split; [exact Hi|]. split; [exact Ha|]. split; [exact Hp|]. destruct e; [exact He|lia].
  - injection H as <- <-. split; [exact Hr|]. split; [reflexivity|]. split; [reflexivity|auto].
Qed.

(* outcome of a receive against the abstract parser's verdict on (window ++ rest) *)
Definition refines {A} (r : receiver) (out : receiver * (A + rerr)) (p : option (A * list N)) : Prop :=
  RInv (fst out) /\ pulled r (fst out) /\
  match p with
  | Some (v, rest) => snd out = inl v /\ all (fst out) = rest
  | None => snd out = inr EEOF
  end.

Lemma refines_inv {A} r (out : receiver * (A + rerr)) p : refines r out p ->
  RInv (fst out) /\ pulled r (fst out) /\
  ((exists v, snd out = inl v /\ p = Some (v, all (fst out))) \/ (snd out = inr EEOF /\ p = None)).
Proof.
  intros (Hi & Hp & H). split; [exact Hi|]. split; [exact Hp|]. destruct p as [[v rest]|].
  - left. exists v. destruct H as (-> & ->). split; reflexivity.
  - right. split; [exact H|reflexivity].
Qed.

Lemma consume_spec k r : RInv r -> k <= nlen (r_win r) ->
  RInv (consume k r) /\ all (consume k r) = ndrop k (all r) /\ pulled r (consume k r) /\
  ntake k (r_win r) = ntake k (all r).
Proof.
  intros [H1 H2] Hk. unfold all, pulled, consume. cbn. repeat split; cbn.
  - rewrite nlen_ndrop. lia.
  - assumption.
  - now rewrite ndrop_app_le.
  - now rewrite ntake_app_le.
Qed.

Lemma recv_fixed_refines k r : RInv r -> k <= rcap ->
  refines r (recv_fixed rcap k r) (parse_fixed k (all r)).
Proof.
  intros Hr Hk. unfold recv_fixed, parse_fixed, refines.
  destruct (if r_end r <? r_start r + k then fill rcap k r else (r, None)) as [r1 e] eqn:F.
  apply (fill_unless_spec _ k k) in F; [|exact Hr|lia|].
  2:{ intros E. apply N.ltb_ge in E. destruct Hr. lia. }
  destruct F as (Hi & Hall & Hp & He). destruct e as [e|]; cbn [fst snd].
  - destruct He as (-> & He). apply N.leb_gt in He. rewrite He. tauto.
  - destruct (consume_spec k r1 Hi He) as (Hi' & Ha' & Hp' & Ht).
    replace (k <=? nlen (all r)) with true
      by (symmetry; apply N.leb_le; rewrite <- Hall; unfold all; rewrite nlen_app; lia).
    rewrite Ht, Ha', Hall. split; [exact Hi'|]. split; [eapply pulled_trans; eassumption|]. split; reflexivity.
Qed.

Lemma refines_ret {A} r (a : A) : RInv r -> refines r (r, inl a) (Some (a, all r)).
Proof. intros Hr. repeat split; apply Hr. Qed.

Lemma refines_bind {A B} r (m : receiver * (A + rerr)) p (k : A -> receiver -> receiver * (B + rerr)) q :
  refines r m p ->
  (forall a r1, RInv r1 -> refines r1 (k a r1) (q a (all r1))) ->
  refines r (match m with (r1, inl a) => k a r1 | (r1, inr e) => (r1, inr e) end)
            (match p with Some (a, rest) => q a rest | None => None end).
Proof.
  intros H Hk. destruct (refines_inv _ _ _ H) as (Hi & Hp & [(a & E & ->)|(E & ->)]);
    destruct m as [r1 res]; cbn [fst snd] in *; subst res.
  - destruct (Hk a r1 Hi) as (Hi2 & Hp2 & H2).
    split; [exact Hi2|]. split; [eapply pulled_trans; eassumption|exact H2].
  - split; [exact Hi|split; [exact Hp|reflexivity]].
Qed.

Lemma recv_num_refines k r : RInv r -> k <= rcap ->
  refines r (recv_num rcap k r) (parse_num k (all r)).
Proof.
  intros Hr Hk. apply (refines_bind r _ _ _ (fun bs rest => Some (of_be bs, rest)) (recv_fixed_refines k r Hr Hk)).
  intros bs r1. apply refines_ret.
Qed.

(* ReceiveData's loop from [r] with [need] bytes to go and [acc] collected has ended in [r'] with [res] *)
Definition rdata_post (need : N) (acc : list N) (r r' : receiver) (res : list N + rerr) : Prop :=
  RInv r' /\ pulled r r' /\
  match res with
  | inl d => need <= nlen (all r) /\ d = acc ++ ntake need (all r) /\ all r' = ndrop need (all r)
  | inr e => e = EEOF /\ nlen (all r) < need
  end.

Lemma rdata_post_done acc r : RInv r -> rdata_post 0 acc r r (inl acc).
Proof.
  intros Hr. split; [exact Hr|]. split; [reflexivity|]. split; [lia|]. split; [now rewrite app_nil_r|reflexivity].
Qed.

Lemma rdata_loop_spec : forall fuel need acc r, RInv r -> 1 <= rcap -> need <= N.of_nat fuel ->
  forall r' res, rdata_loop rcap fuel need acc r = (r', res) -> rdata_post need acc r r' res.
Proof.
  induction fuel as [|fuel IH]; intros need acc r Hr Hc Hf r' res; cbn [rdata_loop];
    destruct (N.eqb_spec need 0) as [->|E0]; try lia.
  - intros H; injection H as <- <-. apply rdata_post_done, Hr.
  - intros H; injection H as <- <-. apply rdata_post_done, Hr.
  - unfold rdata_post in *.
    destruct (if r_end r <=? r_start r then fill rcap (N.min need rcap) r else (r, None)) as [r1 e] eqn:F.
    apply (fill_unless_spec _ 1) in F; [|exact Hr|lia|].
    2:{ intros E. apply N.leb_gt in E. destruct Hr. lia. }
    destruct F as (Hi & Hall & Hp & He). destruct e as [e|].
    { intros H; injection H as <- <-. destruct He as (-> & He). split; [exact Hi|]. split; [exact Hp|]. split; [reflexivity|lia]. }
    (* the window is not empty: take what is there, at most [need] *)
    pose proof Hi as [Hi1 Hi2]. set (avail := N.min (r_end r1 - r_start r1) need).
    assert (Hav : 1 <= avail /\ avail <= nlen (r_win r1) /\ avail <= need) by (unfold avail; lia).
    destruct (consume_spec avail r1 Hi ltac:(lia)) as (Hi' & Ha' & Hp' & Ht).
    intros H. apply IH in H; [|assumption|assumption|lia].
    destruct H as (Hi'' & Hp'' & H).
    assert (Hla : avail <= nlen (all r)) by (rewrite <- Hall; unfold all; rewrite nlen_app; lia).
    split; [assumption|]. split; [eapply pulled_trans; [|eassumption]; eapply pulled_trans; eassumption|].
    rewrite Ha', Hall, nlen_ndrop in H. destruct res as [d|e].
    + destruct H as (H1 & H2 & H3). split; [lia|]. split.
      * assert (Hn : ntake need (all r) = ntake avail (all r) ++ ntake (need - avail) (ndrop avail (all r))).
        { rewrite <- ntake_add. f_equal. lia. }
        rewrite H2, Ht, Hall, Hn, <- app_assoc. reflexivity.
      * rewrite H3, <- ndrop_add. f_equal. lia.
    + destruct H as (H1 & H2). split; [assumption|lia].
Qed.

Lemma rdata_loop_refines len r : RInv r -> 1 <= rcap ->
  refines r (rdata_loop rcap (N.to_nat len) len [] r) (parse_fixed len (all r)).
Proof.
  intros Hr Hk. destruct (rdata_loop rcap (N.to_nat len) len [] r) as [r2 res] eqn:L.
  apply rdata_loop_spec in L; [|assumption|lia|lia]. destruct L as (Hi2 & Hp2 & L).
  split; [exact Hi2|]. split; [exact Hp2|]. unfold parse_fixed. cbn [fst snd]. destruct res as [d|e].
  - destruct L as (L1 & -> & L3). apply N.leb_le in L1. rewrite L1. tauto.
  - destruct L as (-> & L2). apply N.leb_gt in L2. now rewrite L2.
Qed.

Lemma recv_data_refines r : RInv r -> 4 <= rcap ->
  refines r (recv_data rcap r) (parse_data (all r)).
Proof.
  intros Hr Hk. apply (refines_bind r _ _ _ parse_fixed (recv_num_refines 4 r Hr Hk)).
  intros len r1 Hi. apply rdata_loop_refines; [exact Hi|lia].
Qed.

Lemma rsizes_loop_spec : forall count acc r, RInv r -> 4 <= rcap ->
  refines r (rsizes_loop rcap count acc r)
    (match parse_nums count (all r) with Some (vs, rest) => Some (acc ++ vs, rest) | None => None end).
Proof.
  induction count as [|count IH]; intros acc r Hr Hk.
  - cbn. rewrite app_nil_r. now apply refines_ret.
  - cbn [rsizes_loop parse_nums].
    pose proof (refines_bind r _ _ (fun v r1 => rsizes_loop rcap count (acc ++ [v]) r1)
                  (fun v rest => match parse_nums count rest with
                                 | Some (vs, rest') => Some (acc ++ v :: vs, rest') | None => None end)
                  (recv_num_refines 4 r Hr Hk)) as H.
    destruct (parse_num 4 (all r)) as [[v rest]|]; [destruct (parse_nums count rest) as [[vs rest']|]|]; apply H;
      intros v' r1 Hi; specialize (IH (acc ++ [v']) r1 Hi Hk);
      destruct (parse_nums count (all r1)) as [[vs' rest'']|]; try exact IH; now rewrite <- app_assoc in IH.
Qed.

Lemma recv_sizes_refines r : RInv r -> 4 <= rcap ->
  refines r (recv_sizes rcap r) (parse_sizes (all r)).
Proof.
  intros Hr Hk. apply (refines_bind r _ _ _ (fun count => parse_nums (N.to_nat count)) (recv_num_refines 4 r Hr Hk)).
  intros count r1 Hi. pose proof (rsizes_loop_spec (N.to_nat count) [] r1 Hi Hk) as L.
  now destruct (parse_nums (N.to_nat count) (all r1)) as [[vs rest]|].
Qed.

Lemma wrap_refines {A} (f : A -> val) r out p :
  refines r out p -> refines r (wrap f out) (omap f p).
Proof.
  intros H. apply (refines_bind r out p _ (fun a rest => Some (f a, rest)) H).
  intros a r1. apply refines_ret.
Qed.

Hypothesis rcap_min : 16 <= rcap.   (* the largest fixed-size value (a label) fits in the read buffer *)

(* domain of the in-place read: Fill(k) can only succeed for k <= readBufSize *)
Definition ty_fits (t : ty) : Prop := match t with TRaw k => k <= rcap | _ => True end.

(* every typed receive computes the abstract parser on window ++ rest, for
   every segmentation of the transport; when the parser fails (not enough
   bytes before the end of the stream) the receive reports EOF; no other
   error is possible: Fill is never asked for more than the buffer holds. *)
Theorem recv_ty_refines t r : ty_fits t -> RInv r -> refines r (recv_ty rcap t r) (parse_ty t (all r)).
Proof.
  intros Hfit Hr. destruct t; cbn [recv_ty parse_ty]; apply wrap_refines.
  - apply recv_num_refines; [assumption|lia].
  - apply recv_num_refines; [assumption|lia].
  - apply recv_num_refines; [assumption|lia].
  - apply recv_data_refines; [assumption|lia].
  - apply recv_data_refines; [assumption|lia].
  - apply recv_num_refines; [assumption|lia].
  - apply recv_sizes_refines; [assumption|lia].
  - apply recv_fixed_refines; [assumption|exact Hfit].
Qed.

Theorem recv_all_refines : forall tys r, Forall ty_fits tys -> RInv r ->
  let out := recv_all rcap tys r in
  RInv (fst out) /\ pulled r (fst out) /\
  match parse_all tys (all r) with
  | Some (vs, rest) => snd out = Some vs /\ all (fst out) = rest
  | None => snd out = None
  end.
Proof.
  induction tys as [|t tys IH]; intros r Hfit Hr; cbn [recv_all parse_all].
  - cbn. repeat split; try apply Hr.
  - inversion Hfit as [|? ? Hft Hfts]; subst.
    destruct (refines_inv _ _ _ (recv_ty_refines t r Hft Hr)) as (Hi & Hp & [(v & E & ->)|(E & ->)]);
      destruct (recv_ty rcap t r) as [r1 res]; cbn [fst snd] in *; subst res.
    + specialize (IH r1 Hfts Hi). cbn zeta in IH. destruct IH as (Hi2 & Hp2 & IH).
      destruct (recv_all rcap tys r1) as [r2 ovs]; cbn [fst snd] in *.
      assert (Hp' : pulled r r2) by (eapply pulled_trans; eassumption).
      destruct (parse_all tys (all r1)) as [[vs rest]|]; [destruct IH as (-> & IH)|rewrite IH]; cbn [fst snd]; auto.
    + cbn [fst snd]. auto.
Qed.

(* the only error a typed receive can report on this transport is EOF *)
Corollary recv_ty_only_eof t r r' e : ty_fits t -> RInv r -> recv_ty rcap t r = (r', inr e) -> e = EEOF.
Proof.
  intros Hfit Hr H. destruct (refines_inv _ _ _ (recv_ty_refines t r Hfit Hr)) as (_ & _ & [(v & E & _)|(E & _)]);
    rewrite H in E; cbn [snd] in E; congruence.
Qed.

Lemma recv_all_init tys t : Forall ty_fits tys ->
  let out := recv_all rcap tys (r_init t) in
  r_recvd (fst out) + nlen (t_stream (r_t (fst out))) = nlen (t_stream t) /\
  match parse_all tys (t_stream t) with
  | Some (vs, rest) => snd out = Some vs /\ all (fst out) = rest
  | None => snd out = None
  end.
Proof.
  intros Hfit. destruct (recv_all_refines tys _ Hfit (RInv_init t)) as (_ & Hp & H). rewrite all_init in H.
  split; [exact Hp|exact H].
Qed.

Lemma recv_all_init_values tys t : Forall ty_fits tys ->
  snd (recv_all rcap tys (r_init t)) = option_map fst (parse_all tys (t_stream t)).
Proof.
  intros Hfit. destruct (recv_all_init tys t Hfit) as (_ & H).
  destruct (parse_all tys (t_stream t)) as [[vs rest]|]; [apply H|exact H].
Qed.

End ReceiverProofs.

Definition wf_val (v : val) : Prop :=
  match v with
  | VByte b => b < 256
  | VU16 v => v < 65536
  | VU32 v => v < 4294967296
  | VData d | VString d => nlen d < 4294967296
  | VLabel l => l < 2 ^ 128
  | VSizes l => nlen l < 4294967296 /\ Forall (fun x => x < 4294967296) l
  | VRaw _ => True
  end.

Lemma parse_fixed_app k bs rest : nlen bs = k -> parse_fixed k (bs ++ rest) = Some (bs, rest).
Proof.
  intros H. unfold parse_fixed. rewrite nlen_app.
  replace (k <=? nlen bs + nlen rest) with true by (symmetry; apply N.leb_le; lia).
  rewrite ntake_app_le, ndrop_app_le by lia. rewrite ntake_all, ndrop_all by lia. reflexivity.
Qed.

Lemma parse_num_be k x rest : x < 256 ^ N.of_nat k ->
  parse_num (N.of_nat k) (be k x ++ rest) = Some (x, rest).
Proof.
  intros Hx. unfold parse_num. rewrite parse_fixed_app by apply nlen_be.
  rewrite of_be_be, N.mod_small by assumption. reflexivity.
Qed.

Lemma parse_nums_encode : forall l rest, Forall (fun x => x < 4294967296) l ->
  parse_nums (length l) (concat (map (be 4) l) ++ rest) = Some (l, rest).
Proof.
  induction l as [|x l IH]; intros rest Hl; [reflexivity|].
  inversion Hl as [|? ? Hx Hl']; subst. cbn [length parse_nums map concat]. rewrite <- app_assoc.
  rewrite (parse_num_be 4 x) by exact Hx. now rewrite IH.
Qed.

Lemma parse_ty_encode v rest : wf_val v -> parse_ty (type_of_val v) (encode v ++ rest) = Some (v, rest).
Proof.
  destruct v; cbn [wf_val type_of_val encode parse_ty]; intros Hw.
  - now rewrite (parse_num_be 1 b) by exact Hw.
  - now rewrite (parse_num_be 2 v) by exact Hw.
  - now rewrite (parse_num_be 4 v) by exact Hw.
  - unfold parse_data. rewrite <- app_assoc. rewrite (parse_num_be 4 (nlen d)) by exact Hw.
    now rewrite parse_fixed_app.
  - unfold parse_data. rewrite <- app_assoc. rewrite (parse_num_be 4 (nlen d)) by exact Hw.
    now rewrite parse_fixed_app.
  - now rewrite (parse_num_be 16 l) by exact Hw.
  - destruct Hw as (Hn & Hl). unfold parse_sizes. rewrite <- app_assoc.
    rewrite (parse_num_be 4 (nlen l)) by exact Hn.
    unfold nlen. rewrite Nat2N.id. now rewrite parse_nums_encode.
  - now rewrite parse_fixed_app.
Qed.

Lemma parse_all_encode : forall vs rest, Forall wf_val vs ->
  parse_all (map type_of_val vs) (concat (map encode vs) ++ rest) = Some (vs, rest).
Proof.
  induction vs as [|v vs IH]; intros rest Hw; [reflexivity|].
  inversion Hw as [|? ? Hv Hvs]; subst. cbn [map concat parse_all]. rewrite <- app_assoc.
  now rewrite parse_ty_encode, IH.
Qed.

(* the domain of the property: lengths that fit the uint32 length prefix *)
Definition op_in_domain (o : op) : Prop :=
  match o with
  | OData d | OString d => nlen d < 4294967296
  | OSizes l => nlen l < 4294967296
  | _ => True
  end.

Lemma values_wf : forall ops, Forall op_in_domain ops -> Forall wf_val (values_of ops).
Proof.
  induction ops as [|o ops IH]; intros H; [constructor|].
  inversion H as [|? ? Ho Hops]; subst. specialize (IH Hops).
  destruct o; cbn [values_of value_of]; try assumption; constructor; try assumption; cbn [wf_val op_in_domain] in *.
  - apply N.mod_lt. lia.
  - apply N.mod_lt. lia.
  - apply u32_of_Z_lt.
  - apply N.mod_lt. discriminate.
  - rewrite nlen_map. split; [assumption|]. apply Forall_forall. intros x Hx. apply in_map_iff in Hx.
    destruct Hx as (z & <- & _). apply u32_of_Z_lt.
Qed.

Lemma parse_all_values ops : Forall op_in_domain ops ->
  parse_all (types_of ops) (concat (map encode (values_of ops))) = Some (values_of ops, []).
Proof.
  intros Hd. rewrite <- (app_nil_r (concat _)). apply parse_all_encode, values_wf, Hd.
Qed.

(* integers inside their width are sent unchanged: the truncations of
   SendUint16/SendUint32/SendInputSizes are the identity on the domain *)
Lemma value_of_in_range :
  (forall b, b < 256 -> value_of (OByte b) = Some (VByte b)) /\
  (forall v, (0 <= v < 65536)%Z -> value_of (OU16 v) = Some (VU16 (Z.to_N v))) /\
  (forall v, (0 <= v < 4294967296)%Z -> value_of (OU32 v) = Some (VU32 (Z.to_N v))) /\
  (forall l, l < 2 ^ 128 -> value_of (OLabel l) = Some (VLabel l)) /\
  (forall l, Forall (fun v => 0 <= v < 4294967296)%Z l -> value_of (OSizes l) = Some (VSizes (map Z.to_N l))).
Proof.
  repeat split; intros; cbn [value_of]; f_equal; f_equal.
  - now apply N.mod_small.
  - unfold u32_of_Z. rewrite Z.mod_small by lia. apply N.mod_small. lia.
  - unfold u32_of_Z. now rewrite Z.mod_small by lia.
  - now apply N.mod_small.
  - apply map_ext_in. intros z Hz. rewrite Forall_forall in H. specialize (H z Hz).
    unfold u32_of_Z. now rewrite Z.mod_small by lia.
Qed.

(* C11: every op sequence that ends with Flush or Close, with Flushes
   placed anywhere, received over a transport that cuts the byte stream into
   arbitrary segments, by the matching sequence of typed receives: exactly
   the sent values in order; nothing is left over; Recvd = Sent = number of
   bytes on the wire. *)
Theorem roundtrip nbuf wcap rcap ops frags eofdata :
  16 <= wcap -> 16 <= rcap ->
  close_only_last ops -> ends_flushed ops -> Forall op_in_domain ops ->
  Forall (ty_fits rcap) (types_of ops) ->
  let s := run_sender nbuf wcap ops in
  let out := recv_all rcap (types_of ops) (r_init (mkT (wire_bytes s) frags eofdata 0)) in
  snd out = Some (values_of ops) /\
  all (fst out) = [] /\
  r_recvd (fst out) = s_sent s /\ s_sent s = nlen (wire_bytes s).
Proof.
  intros Hw Hr Hc Hf Hd Hfit s out.
  pose proof (wire_is_concat nbuf wcap ltac:(lia) ops Hc Hf) as Hwire. fold s in Hwire.
  pose proof (ki_sent _ (KInv_run nbuf wcap ops)) as Hs. fold s in Hs.
  destruct (recv_all_init rcap Hr (types_of ops) (mkT (wire_bytes s) frags eofdata 0) Hfit) as (Hp & H).
  fold out in Hp, H. cbn [t_stream] in Hp, H.
  rewrite Hwire, (parse_all_values ops Hd) in H. destruct H as (H1 & H2).
  split; [exact H1|]. split; [exact H2|]. split; [|exact Hs].
  rewrite (all_nil_stream _ H2) in Hp. cbn in Hp. lia.
Qed.

(* C11, Stats.Sent and Stats.Recvd against the bytes actually moved, for ANY
   receive sequence (matching the sender or not, complete or not, failing or
   not), any segmentation, EOF with or after the final bytes.
   ReceiveData of a payload larger than the read buffer is included: its loop
   asks Fill for min(need, readBufSize) again and again and every byte passes
   through Fill's accounting. *)
Theorem stats_agree nbuf wcap rcap ops frags eofdata tys :
  16 <= wcap -> 16 <= rcap -> Forall (ty_fits rcap) tys ->
  let s := run_sender nbuf wcap ops in
  let out := recv_all rcap tys (r_init (mkT (wire_bytes s) frags eofdata 0)) in
  s_sent s = nlen (wire_bytes s) /\
  r_recvd (fst out) + nlen (t_stream (r_t (fst out))) = nlen (wire_bytes s) /\
  (all (fst out) = [] -> r_recvd (fst out) = s_sent s) /\
  (close_only_last ops -> ends_flushed ops -> Forall op_in_domain ops -> tys = types_of ops ->
   snd out = Some (values_of ops) /\ r_recvd (fst out) = s_sent s).
Proof.
  intros Hw Hr Hfit s out.
  pose proof (ki_sent _ (KInv_run nbuf wcap ops)) as Hs. fold s in Hs.
  destruct (recv_all_init rcap Hr tys (mkT (wire_bytes s) frags eofdata 0) Hfit) as (Hp & _).
  fold out in Hp. cbn [t_stream] in Hp.
  split; [exact Hs|]. split; [exact Hp|]. split.
  - intros Ha. rewrite (all_nil_stream _ Ha) in Hp. cbn in Hp. lia.
  - intros Hc Hf Hd ->. destruct (roundtrip nbuf wcap rcap ops frags eofdata Hw Hr Hc Hf Hd Hfit) as (H1 & _ & H3 & _).
    split; assumption.
Qed.

(* the hypotheses of the round-trip theorem are met by a script that crosses
   buffer boundaries of a 16-byte ring (every op kind, a payload larger than
   the write and the read buffer), and its conclusion computes *)
Example roundtrip_nonvacuous :
  let ops := [OByte 7; OU16 513; OFlush; OU32 4294967295; OData (repeat 9 40); OString [1; 2; 3];
              OLabel (2 ^ 127 + 5); OFlush; OFlush; OSizes [1; 65536; 0]%Z; OData []; OClose] in
  close_only_last ops /\ ends_flushed ops /\ Forall op_in_domain ops /\
  snd (recv_all 16 (types_of ops) (r_init (mkT (wire_bytes (run_sender 3 16 ops)) [1; 2; 30; 1; 7] false 0)))
    = Some (values_of ops) /\
  snd (recv_all 16 (types_of ops) (r_init (mkT (wire_bytes (run_sender 3 16 ops)) [3; 50] true 0)))
    = Some (values_of ops) /\
  length (s_chunks (run_sender 3 16 ops)) = 8%nat.
Proof.
  cbn zeta. split; [cbn; reflexivity|]. split; [match goal with |- ends_flushed ?l => exists (removelast l); right; reflexivity end|].
  split; [repeat constructor; cbn; lia|]. vm_compute. repeat split; reflexivity.
Qed.

(* a payload (40 bytes) larger than write and read buffer (16): counters and window positions *)
Example big_payload_counters :
  let s := run_sender 3 16 [OData (repeat 9 40); OClose] in
  let out := recv_all 16 [TData] (r_init (mkT (wire_bytes s) [5; 100] false 0)) in
  snd out = Some [VData (repeat 9 40)] /\ s_sent s = 44 /\ r_recvd (fst out) = 44 /\
  t_nreads (r_t (fst out)) = 4 /\ r_start (fst out) = 7 /\ r_end (fst out) = 7.
Proof. vm_compute. repeat split; reflexivity. Qed.

(* the in-place write API rolling over 16-byte buffers inside NeedSpace, read back in place *)
Example inplace_rollover :
  let ops := [ORaw 8 [1; 2; 3; 4; 5]; ORaw 8 [6; 7; 8; 9; 10; 11; 12; 13]; OU16 258; ORaw 16 (repeat 7 16); ORaw 3 []; OFlush] in
  let s := run_sender 3 16 ops in
  let out := recv_all 16 (types_of ops) (r_init (mkT (wire_bytes s) [3] true 0)) in
  Forall (raw_fits 16) ops /\ Forall (ty_fits 16) (types_of ops) /\
  snd out = Some (values_of ops) /\ map (fun c => nlen (snd c)) (s_chunks s) = [15; 16] /\
  s_sent s = 31 /\ r_recvd (fst out) = 31.
Proof. cbn zeta. split; [repeat constructor; cbn; lia|]. split; [repeat constructor; cbn; lia|]. vm_compute. repeat split; reflexivity. Qed.

(* a receive past the end of a closed stream reports EOF *)
Example overread_is_eof :
  snd (recv_ty 16 TU32 (r_init (mkT [1; 2; 3] [] false 0))) = inr EEOF /\
  snd (recv_ty 16 TU32 (r_init (mkT [1; 2; 3] [] true 0))) = inr EEOF /\
  snd (recv_ty 16 TU32 (r_init (mkT [0; 0; 0; 7] [] true 0))) = inl (VU32 7).
Proof. vm_compute. repeat split; reflexivity. Qed.

Close Scope N_scope.
Open Scope nat_scope.

Definition rot (n a : nat) : list nat := map (fun i => (a + i) mod n) (seq 0 n).

Lemma rot_length n a : length (rot n a) = n.
Proof. unfold rot. now rewrite map_length, seq_length. Qed.

Lemma mod_add_inj n a i j : i < n -> j < n -> (a + i) mod n = (a + j) mod n -> i = j.
Proof.
  intros Hi Hj H.
  pose proof (Nat.div_mod (a + i) n ltac:(lia)) as H1.
  pose proof (Nat.div_mod (a + j) n ltac:(lia)) as H2.
  rewrite H in H1. set (q1 := (a + i) / n) in *. set (q2 := (a + j) / n) in *.
  set (r := (a + j) mod n) in *.
  destruct (Nat.eq_dec q1 q2) as [E|E]; [rewrite E in H1; lia|]. nia.
Qed.

Lemma rot_nth n a i d : i < n -> nth i (rot n a) d = (a + i) mod n.
Proof. apply (nth_map_seq (fun i => (a + i) mod n)). Qed.

Lemma rot_NoDup n a : NoDup (rot n a).
Proof.
  apply (NoDup_nth (rot n a) 0). rewrite rot_length. intros i j Hi Hj H.
  rewrite !rot_nth in H by assumption. eapply mod_add_inj; eassumption.
Qed.

Lemma rot_0 n : rot n 0 = seq 0 n.
Proof.
  unfold rot. rewrite <- (map_id (seq 0 n)) at 2. apply map_ext_in. intros i Hi.
  apply in_seq in Hi. cbn. apply Nat.mod_small. lia.
Qed.

Lemma rot_shift n a b t : rot n a = b :: t -> rot n (S a) = t ++ [b].
Proof.
  destruct n as [|m]; [discriminate|]. unfold rot. intros H.
  rewrite seq_S, map_app. change (seq 0 (S m)) with (0 :: seq 1 m) in H. rewrite map_cons in H.
  assert (Hb : (a + 0) mod S m = b) by congruence.
  assert (Ht : map (fun i => (a + i) mod S m) (seq 1 m) = t) by congruence. clear H.
  cbn [map]. f_equal.
  - rewrite <- Ht, <- seq_shift, map_map. apply map_ext. intros i. f_equal. lia.
  - f_equal. rewrite <- Hb. replace (S a + (0 + m)) with (a + 0 + 1 * S m) by lia.
    apply Nat.mod_add. lia.
Qed.

Lemma rot_cons nb a : 0 < nb -> rot nb a = (a mod nb) :: tl (rot nb a).
Proof. destruct nb as [|m]; [lia|]. intros _. unfold rot. cbn [seq map tl]. f_equal. f_equal. lia. Qed.

Ltac simp_g := cbn [g_main g_cur g_acq g_toW g_toW_closed g_fromW g_fromW_closed g_w g_mem g_dropped g_flushed g_written] in *.

Section RingProofs.
Variable nb : nat.

Definition unalloc (w : wpc) : list nat := match w with WAlloc k => seq k (nb - k) | _ => [] end.
Definition hand (w : wpc) : list nat := match w with WHave b _ => [b] | WWrote b => [b] | _ => [] end.
Definition cur_l (g : ring) : list nat := match g_cur g with Some b => [b] | None => [] end.

(* where every buffer is, in the order in which main will get them back *)
Definition order (g : ring) : list nat :=
  g_fromW g ++ unalloc (g_w g) ++ hand (g_w g) ++ map fst (g_toW g) ++ cur_l g ++ g_dropped g.

(* the bytes a queued slice denotes right now *)
Definition content (mem : nat -> list N) (e : nat * nat) : list N := firstn (snd e) (mem (fst e)).
Definition in_hand (g : ring) : list (list N) :=
  match g_w g with WHave b l => [firstn l (g_mem g b)] | _ => [] end.

(* what main's program counter fixes: whether it holds a buffer, that nothing
   is dropped and toWriter is open before Close, and the number of receives it
   has done against the number of its Flushes *)
Definition main_inv (g : ring) : Prop :=
  match g_main g with
  | MInit => g_cur g = None /\ g_dropped g = [] /\ g_toW_closed g = false /\ g_acq g = 0 /\ g_flushed g = []
  | MFill => g_cur g <> None /\ g_dropped g = [] /\ g_toW_closed g = false /\ g_acq g = S (length (g_flushed g))
  | MWait => g_cur g = None /\ g_dropped g = [] /\ g_toW_closed g = false /\ g_acq g = length (g_flushed g)
  | MDrain => True
  | MClosed => g_fromW_closed g = true
  end.

(* fromWriter is closed exactly by the writer's last step, taken when toWriter is closed and empty *)
Definition writer_inv (g : ring) : Prop :=
  match g_w g with
  | WDone => g_toW g = [] /\ g_toW_closed g = true
  | _ => g_fromW_closed g = false
  end.

Record GInv (g : ring) : Prop := {
  gi_order : order g = rot nb (g_acq g);
  gi_log : g_written g ++ in_hand g ++ map (content (g_mem g)) (g_toW g) = g_flushed g;
  gi_main : main_inv g;
  gi_writer : writer_inv g
}.

Lemma GInv_init mem : GInv (g_init mem).
Proof.
  split; cbn; try tauto.
  rewrite Nat.sub_0_r, ?app_nil_r. symmetry. apply rot_0.
Qed.

Lemma content_upd mem b c e : fst e <> b -> content (upd mem b c) e = content mem e.
Proof. intros H. unfold content, upd. destruct (Nat.eqb_spec (fst e) b); [contradiction|reflexivity]. Qed.

(* the thirteen rules of [rstep], premises named: Hm/Hw the program counter of
   main/the writer, Hcur main's buffer, Hf/Ht the head of fromWriter/toWriter *)
Ltac rstep_cases Hs :=
  destruct Hs as [g k Hw Hk Hlen | g Hw | g b rest Hm Hf | g b c Hm Hcur | g b l Hm Hcur Hl0 Hlen
                 | g b rest Hm Hf | g b l rest Hw Ht | g b l Hw | g b Hw Hlen | g Hm
                 | g Hw Ht Htcl | g b rest Hm Hf | g Hm Hf Hfcl]; simp_g.

Lemma order_step g g' : GInv g -> rstep nb g g' -> order g' = rot nb (g_acq g').
Proof.
  intros Hi Hs. pose proof (gi_order g Hi) as Ho. pose proof (gi_main g Hi) as M.
  unfold order, cur_l, main_inv in *. rstep_cases Hs; try rewrite Hm in M; try rewrite Hw in Ho.
  - cbn [unalloc hand] in *. rewrite <- Ho.
    replace (nb - k) with (S (nb - S k)) by lia. cbn [seq]. now rewrite <- ?app_assoc.
  - cbn [unalloc hand] in *. rewrite Nat.sub_diag in Ho. exact Ho.
  - destruct M as (Hnc & Hnd & _). rewrite Hf, Hnc, Hnd in Ho. rewrite Hnd. cbn [app] in Ho.
    symmetry in Ho. apply rot_shift in Ho. rewrite Ho. rewrite ?app_nil_r, <- ?app_assoc. reflexivity.
  - rewrite Hcur in Ho. exact Ho.
  - destruct M as (_ & Hnd & _). rewrite Hcur, Hnd in Ho. rewrite Hnd, <- Ho, map_app. cbn.
    rewrite ?app_nil_r, <- ?app_assoc. reflexivity.
  - destruct M as (Hnc & Hnd & _). rewrite Hf, Hnc, Hnd in Ho. rewrite Hnd. cbn [app] in Ho.
    symmetry in Ho. apply rot_shift in Ho. rewrite Ho. rewrite ?app_nil_r, <- ?app_assoc. reflexivity.
  - rewrite Ht in Ho. cbn [unalloc hand map fst app] in *. exact Ho.
  - cbn [unalloc hand] in *. exact Ho.
  - cbn [unalloc hand app] in *. rewrite <- Ho, <- ?app_assoc. reflexivity.
  - exact Ho.
  - cbn [unalloc hand] in *. exact Ho.
  - rewrite Hf in Ho. cbn [app] in Ho. symmetry in Ho. apply rot_shift in Ho. rewrite Ho, <- ?app_assoc. reflexivity.
  - rewrite Hf in Ho. exact Ho.
Qed.

Lemma cur_exclusive g b : GInv g -> g_cur g = Some b ->
  ~ In b (g_fromW g) /\ ~ In b (hand (g_w g)) /\ ~ In b (map fst (g_toW g)) /\ ~ In b (g_dropped g).
Proof.
  intros Hi Hcur. pose proof (rot_NoDup nb (g_acq g)) as Hn. rewrite <- (gi_order g Hi) in Hn.
  unfold order, cur_l in Hn. rewrite Hcur in Hn.
  rewrite !app_assoc in Hn. rewrite <- (app_assoc _ [b]) in Hn. apply NoDup_remove_2 in Hn.
  rewrite !in_app_iff in Hn. tauto.
Qed.

Lemma log_step g g' : GInv g -> rstep nb g g' ->
  g_written g' ++ in_hand g' ++ map (content (g_mem g')) (g_toW g') = g_flushed g'.
Proof.
  intros Hi Hs. pose proof (gi_log g Hi) as Hl. unfold in_hand in *.
  rstep_cases Hs; try rewrite Hw in Hl; try exact Hl.
  - (* main stores into its buffer: no queued slice aliases it *)
    destruct (cur_exclusive g b Hi Hcur) as (_ & Hh & Ht & _).
    rewrite <- Hl. f_equal. f_equal.
    + destruct (g_w g) as [| |b' l'| |]; try reflexivity. cbn [hand] in Hh.
      unfold upd. destruct (Nat.eqb_spec b' b) as [E|E]; [exfalso; apply Hh; left; exact E|reflexivity].
    + apply map_ext_in. intros e He. apply content_upd. intros E. apply Ht. apply in_map_iff. exists e. tauto.
  - rewrite <- Hl, map_app. cbn [map]. unfold content at 2. cbn [fst snd]. now rewrite !app_assoc.
  - rewrite Ht in Hl. cbn [map] in Hl. exact Hl.
  - rewrite <- Hl, <- ?app_assoc. reflexivity.
Qed.

Lemma GInv_step g g' : GInv g -> rstep nb g g' -> GInv g'.
Proof.
  intros Hi Hs. pose proof (order_step g g' Hi Hs) as Ho'. pose proof (log_step g g' Hi Hs) as Hl'.
  destruct Hi as [_ _ M W]. unfold main_inv, writer_inv in *.
  rstep_cases Hs; (split; [exact Ho'|exact Hl'|..]); unfold main_inv, writer_inv; simp_g;
    try rewrite Hm in M; try rewrite Hw in W; try exact M; try exact W.
  - destruct M as (_ & Hd & Hc & -> & ->). repeat split; [discriminate|assumption..].
  - destruct M as (_ & M). split; [discriminate|exact M].
  - destruct M as (_ & Hd & Hc & ->). rewrite app_length, Nat.add_1_r. tauto.
  - (* the writer has not finished: toWriter is still open *)
    destruct M as (_ & _ & Hc & _). destruct (g_w g); try exact W. destruct W; congruence.
  - destruct M as (_ & Hd & Hc & ->). repeat split; [discriminate|assumption..].
  - exact I.
  - destruct M as (_ & _ & Hc & _). destruct (g_w g); try exact W. destruct W; congruence.
  - (* toWriter is closed: main is in Close *)
    destruct (g_main g); try (destruct M as (_ & _ & Hc & _); congruence); reflexivity.
  - tauto.
  - reflexivity.
  - (* fromWriter is closed: the writer is done *)
    destruct (g_w g); congruence || exact W.
Qed.

Lemma reachable_GInv mem0 g : reachable nb mem0 g -> GInv g.
Proof. induction 1 as [|g g' _ IH Hs]; [apply GInv_init|eapply GInv_step; eassumption]. Qed.

Lemma reachable_fill mem0 g : reachable nb mem0 g -> g_main g = MFill ->
  g_cur g <> None /\ g_dropped g = [] /\ g_toW_closed g = false /\ g_acq g = S (length (g_flushed g)).
Proof.
  intros Hr Hm. pose proof (gi_main g (reachable_GInv _ _ Hr)) as M. unfold main_inv in M. now rewrite Hm in M.
Qed.

(* ownership: the buffer main may store into is not queued for the
   writer, not being written, not waiting in fromWriter; and the buffers in
   the system are pairwise distinct (each is in exactly one place). *)
Theorem ring_ownership mem0 g b : reachable nb mem0 g -> g_cur g = Some b ->
  ~ In b (map fst (g_toW g)) /\ ~ In b (hand (g_w g)) /\ ~ In b (g_fromW g) /\ NoDup (order g).
Proof.
  intros Hr Hc. pose proof (reachable_GInv _ _ Hr) as Hi.
  destruct (cur_exclusive g b Hi Hc) as (H1 & H2 & H3 & _).
  repeat split; try assumption. rewrite (gi_order g Hi). apply rot_NoDup.
Qed.

(* main only ever stores into a buffer while it is in state MFill and that
   buffer is [g_cur]: before NewConn's receive and during MWait (inside Flush) it designates none *)
Theorem ring_no_buffer_while_waiting mem0 g : reachable nb mem0 g ->
  g_main g = MInit \/ g_main g = MWait -> g_cur g = None.
Proof.
  intros Hr Hm. pose proof (gi_main g (reachable_GInv _ _ Hr)) as M. unfold main_inv in M.
  destruct Hm as [Hm|Hm]; rewrite Hm in M; apply M.
Qed.

(* order: the conn.Write calls made so far, then the slice the writer
   holds, then the queued slices — read from the buffers as they are now —
   are exactly the contents Flush handed over, in Flush order. *)
Theorem ring_write_order mem0 g : reachable nb mem0 g ->
  g_written g ++ in_hand g ++ map (content (g_mem g)) (g_toW g) = g_flushed g.
Proof. intros Hr. apply (gi_log g (reachable_GInv _ _ Hr)). Qed.

Corollary ring_written_prefix mem0 g : reachable nb mem0 g ->
  exists rest, g_flushed g = g_written g ++ rest.
Proof. intros Hr. eexists. symmetry. apply (ring_write_order _ _ Hr). Qed.

(* when Close has returned, everything flushed has been written, in order *)
Theorem ring_close_delivers_all mem0 g : reachable nb mem0 g -> g_main g = MClosed ->
  g_written g = g_flushed g.
Proof.
  intros Hr Hm. destruct (reachable_GInv _ _ Hr) as [_ Hl M W]. unfold main_inv, writer_inv, in_hand in *.
  rewrite Hm in M. destruct (g_w g); try congruence. destruct W as (Ht & _).
  rewrite Ht in Hl. cbn in Hl. now rewrite app_nil_r in Hl.
Qed.

(* the channel sends never block: whenever main is about to send on
   toWriter, or the writer on fromWriter, the channel (capacity nb) has room *)
Theorem ring_sends_never_block mem0 g : reachable nb mem0 g ->
  (forall b, g_main g = MFill -> g_cur g = Some b -> length (g_toW g) < nb) /\
  (forall b, g_w g = WWrote b -> length (g_fromW g) < nb) /\
  (forall k, g_w g = WAlloc k -> k < nb -> length (g_fromW g) < nb).
Proof.
  intros Hr. pose proof (reachable_GInv _ _ Hr) as Hi.
  pose proof (f_equal (@length nat) (gi_order g Hi)) as Hlen. rewrite rot_length in Hlen.
  unfold order, cur_l in Hlen. rewrite !app_length, map_length in Hlen.
  repeat split.
  - intros b _ Hc. rewrite Hc in Hlen. cbn in Hlen. lia.
  - intros b Hw. rewrite Hw in Hlen. cbn in Hlen. lia.
  - intros k Hw Hk. rewrite Hw in Hlen. cbn [unalloc hand] in Hlen. rewrite seq_length in Hlen. cbn in Hlen. lia.
Qed.

(* the ring rotates: the k-th buffer main obtains from fromWriter is
   buffer (k-1) mod nb — the identity the sender model uses in [flush_buf] *)
Theorem ring_rotation mem0 g b : reachable nb mem0 g -> g_main g = MFill -> g_cur g = Some b ->
  0 < g_acq g /\ b = (g_acq g - 1) mod nb.
Proof.
  intros Hr Hm Hc. destruct (reachable_fill _ _ Hr Hm) as (_ & Hd & _ & Hacq).
  pose proof (gi_order g (reachable_GInv _ _ Hr)) as Ho. unfold order, cur_l in Ho.
  rewrite Hc, Hd, app_nil_r, !app_assoc in Ho.
  assert (Hnb : 0 < nb).
  { pose proof (f_equal (@length nat) Ho) as Hl. rewrite rot_length, app_length in Hl. cbn in Hl. lia. }
  assert (Hlast : last (rot nb (g_acq g)) 0 = b) by (rewrite <- Ho; apply last_last).
  split; [lia|].
  rewrite <- Hlast. unfold rot. destruct nb as [|m]; [lia|].
  rewrite seq_S, map_app. cbn [map]. rewrite last_last.
  replace (g_acq g + (0 + m)) with (g_acq g - 1 + 1 * S m) by lia. apply Nat.mod_add. lia.
Qed.

Theorem ring_main_has_buffer mem0 g : reachable nb mem0 g -> g_main g = MFill ->
  exists b, g_cur g = Some b.
Proof.
  intros Hr Hm. destruct (reachable_fill _ _ Hr Hm) as (H & _).
  destruct (g_cur g) as [b|]; [now exists b|congruence].
Qed.

(* in every reachable state, between two Flushes, main's write buffer is buffer
   (number of Flushes done so far) mod nb *)
Theorem ring_flush_buffer mem0 g b : reachable nb mem0 g -> g_main g = MFill -> g_cur g = Some b ->
  b = length (g_flushed g) mod nb.
Proof.
  intros Hr Hm Hc. destruct (ring_rotation mem0 g b Hr Hm Hc) as (_ & ->).
  destruct (reachable_fill _ _ Hr Hm) as (_ & _ & _ & ->). f_equal. lia.
Qed.

End RingProofs.

Section SenderRing.
Variables (nbuf wcap : N).
Hypothesis nbuf_pos : (0 < nbuf)%N.

Definition ids (k : nat) : list N := map (fun i => (N.of_nat i mod nbuf)%N) (seq 0 k).

Record CInv (s : sender) : Prop := {
  ci_cur : s_cur s = (nlen (s_chunks s) mod nbuf)%N;
  ci_ids : map fst (s_chunks s) = ids (length (s_chunks s))
}.

Lemma CInv_run ops : CInv (run_sender nbuf wcap ops).
Proof.
  apply run_preserves.
  - intros s [H1 H2]. apply flush_buf_case; intros E; [split; assumption|].
    split; cbn [s_cur s_chunks].
    + rewrite H1, nlen_app. change (nlen [(s_cur s, s_buf s)]) with 1%N.
      apply N.add_mod_idemp_l. lia.
    + rewrite map_app, app_length, H2. cbn [map fst length]. rewrite Nat.add_1_r.
      unfold ids. rewrite seq_S, map_app. cbn [map]. f_equal. f_equal. rewrite H1. reflexivity.
  - intros bs s [H1 H2]. split; assumption.
  - intros s c e [H1 H2]. split; assumption.
  - split; [|reflexivity]. change (0 = 0 mod nbuf)%N. symmetry. apply N.mod_0_l. lia.
Qed.

(* the two models agree.  Take ANY reachable state of the ring system (any
   interleaving of main and writer) in which main is between two Flushes and
   has flushed the chunks the functional sender computes for [ops].  Then the
   buffer main holds is the one the functional model names ([s_cur], i.e. its
   '(cur+1) mod numBuffers' is what the channels deliver), the i-th chunk of
   the functional model lives in buffer i mod numBuffers — the buffer the ring
   system's main held at its i-th Flush (ring_flush_buffer) —, and the
   conn.Write calls so far are a prefix of the functional model's chunks. *)
Theorem sender_ring_agree ops mem0 g :
  let s := run_sender nbuf wcap ops in
  reachable (N.to_nat nbuf) mem0 g -> g_main g = MFill ->
  g_flushed g = wire_chunks s ->
  g_cur g = Some (N.to_nat (s_cur s)) /\
  map fst (s_chunks s) = ids (length (s_chunks s)) /\
  (exists rest, wire_chunks s = g_written g ++ rest).
Proof.
  intros s Hr Hm Hfl. destruct (CInv_run ops) as [H1 H2]. fold s in H1, H2.
  split; [|split; [exact H2|]].
  - destruct (ring_main_has_buffer _ _ _ Hr Hm) as (b & Hb). rewrite Hb. f_equal.
    rewrite (ring_flush_buffer _ _ _ _ Hr Hm Hb), Hfl, H1.
    unfold wire_chunks. rewrite map_length. unfold nlen.
    rewrite N2Nat.inj_mod, Nat2N.id. reflexivity.
  - rewrite <- Hfl. apply (ring_written_prefix _ _ _ Hr).
Qed.

End SenderRing.

Lemma upd_same mem b c : upd mem b c b = c.
Proof. unfold upd. now rewrite Nat.eqb_refl. Qed.

(* the state in which main has flushed [cs], on the schedule in which the
   writer handles each chunk at once *)
Definition canon (nb : nat) (mem : nat -> list N) (cs : list (list N)) : ring :=
  mkG MFill (Some (length cs mod nb)) (S (length cs)) [] false (tl (rot nb (length cs))) false
      WIdle mem [] cs cs.

Lemma ring_alloc_reach nb mem0 : forall k, k <= nb ->
  reachable nb mem0 (mkG MInit None 0 [] false (seq 0 k) false (WAlloc k) mem0 [] [] []).
Proof.
  induction k as [|k IH]; intros Hk; [apply reach_init|].
  specialize (IH ltac:(lia)). eapply reach_step in IH; [|eapply R_alloc with (k := k); cbn; try reflexivity; try lia].
  2:{ rewrite seq_length. lia. }
  simp_g. rewrite seq_S. exact IH.
Qed.

Lemma canon_start nb mem0 : 0 < nb -> reachable nb mem0 (canon nb mem0 []).
Proof.
  intros Hnb. pose proof (ring_alloc_reach nb mem0 nb (le_n _)) as R.
  eapply reach_step in R; [|eapply R_alloc_done; reflexivity]. simp_g.
  rewrite <- (rot_0 nb), (rot_cons nb 0 Hnb) in R.
  eapply reach_step in R; [|eapply R_init; reflexivity]. simp_g. exact R.
Qed.

Lemma canon_step nb mem0 mem cs c : 0 < nb -> c <> [] ->
  reachable nb mem0 (canon nb mem cs) ->
  reachable nb mem0 (canon nb (upd mem (length cs mod nb) c) (cs ++ [c])).
Proof.
  intros Hnb Hc R. unfold canon in R. set (b := length cs mod nb) in *.
  eapply reach_step in R; [|eapply R_fill with (c := c); reflexivity]. simp_g.
  eapply reach_step in R; [|eapply R_flush_send with (l := length c); cbn; try reflexivity; try lia].
  2:{ destruct c; [congruence|cbn; lia]. }
  simp_g. rewrite upd_same, firstn_all in R. cbn [app] in R.
  eapply reach_step in R; [|eapply R_w_take; reflexivity]. simp_g.
  eapply reach_step in R; [|eapply R_w_write; reflexivity]. simp_g. rewrite upd_same, firstn_all in R.
  eapply reach_step in R; [|eapply R_w_return; cbn; try reflexivity].
  2:{ pose proof (f_equal (@length nat) (rot_cons nb (length cs) Hnb)) as Hl. rewrite rot_length in Hl.
      cbn [length] in Hl. lia. }
  simp_g.
  assert (Hrot : tl (rot nb (length cs)) ++ [b] = rot nb (S (length cs))).
  { symmetry. apply rot_shift. apply rot_cons, Hnb. }
  rewrite Hrot, (rot_cons nb (S (length cs)) Hnb) in R.
  eapply reach_step in R; [|eapply R_flush_recv; reflexivity]. simp_g.
  unfold canon. rewrite app_length. cbn [length]. rewrite Nat.add_1_r. exact R.
Qed.

(* a complete run of the ring system with one buffer: NewConn, a store, a
   Flush, the writer's Write, Close; Close returns and the chunk is written *)
Example ring_nonvacuous :
  exists g, reachable 1 (fun _ => []) g /\ g_main g = MClosed /\ g_written g = [[7%N]].
Proof.
  pose proof (canon_step 1 (fun _ => []) _ [] [7%N] ltac:(lia) ltac:(discriminate) (canon_start 1 _ ltac:(lia))) as R.
  unfold canon in R. cbn in R.
  eapply reach_step in R; [|eapply R_close; reflexivity]. simp_g.
  eapply reach_step in R; [|eapply R_w_done; reflexivity]. simp_g.
  eapply reach_step in R; [|eapply R_drain_done; reflexivity]. simp_g.
  eexists. split; [exact R|]. split; reflexivity.
Qed.

Theorem ring_can_flush nb mem0 cs : 0 < nb -> Forall (fun c => c <> []) cs ->
  exists g, reachable nb mem0 g /\ g_main g = MFill /\ g_flushed g = cs /\ g_written g = cs.
Proof.
  intros Hnb Hcs.
  assert (H : exists mem, reachable nb mem0 (canon nb mem cs)).
  { induction cs as [|c cs IH] using rev_ind; [exists mem0; now apply canon_start|].
    apply Forall_app in Hcs. destruct Hcs as (Hcs & Hc). inversion Hc as [|? ? Hc' _]; subst.
    destruct (IH Hcs) as (mem & R). eexists. apply canon_step; eassumption. }
  destruct H as (mem & R). eexists. split; [exact R|]. cbn. auto.
Qed.

(* for every op sequence there is an execution of the ring system whose main
   thread flushes exactly the chunks of the functional sender model (and in
   which the writer has already written them) *)
Theorem sender_ring_exists nbuf wcap ops mem0 : (0 < nbuf)%N ->
  exists g, reachable (N.to_nat nbuf) mem0 g /\ g_main g = MFill /\
            g_flushed g = wire_chunks (run_sender nbuf wcap ops) /\
            g_written g = wire_chunks (run_sender nbuf wcap ops).
Proof.
  intros Hn. apply ring_can_flush; [lia|].
  pose proof (ki_chunks _ (KInv_run nbuf wcap ops)) as H.
  unfold wire_chunks. apply Forall_forall. intros c Hc. apply in_map_iff in Hc.
  destruct Hc as ((b & c') & <- & Hin). rewrite Forall_forall in H. specialize (H _ Hin). cbn in *.
  intros ->. cbn in H. lia.
Qed.
