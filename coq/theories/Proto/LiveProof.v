(* LiveProof.v — the termination half of C02, proved for the model Live.v:
   if the checker accepts two skeletons then, for EVERY environment (loop
   counts, branch outcomes), EVERY choice of automatic flushes and EVERY fair
   schedule, the two parties finish, every receive got a message of the kind
   it expected, and all buffers and channels are empty.

   The checker is sound, under every environment, for a lockstep relation
   [Sync] on flat action lists whose abstract state is "this party's write
   buffer may be dirty" (induction over the fuel, and over the iteration count
   for loops).  [Sync] gives the buffered concurrent system an invariant ("one
   party leads, the other still has to receive exactly what is pending"), from
   which deadlock freedom and a measure that every effective step decreases
   follow; a fair schedule then runs the measure down to zero.  Conversely,
   for the important failure: a deleted Flush leaves both parties blocked
   forever on a fair schedule. *)
From Coq Require Import List Bool Arith NArith Lia.
From Mpc Require Import Proto.Live.
Import ListNotations.

Lemma lN_eqb_eq a : forall b, lN_eqb a b = true <-> a = b.
Proof.
  induction a as [|x a IH]; intros [|y b]; simpl; split; intros H; try discriminate; auto.
  - apply andb_prop in H. destruct H as [H1 H2]. apply N.eqb_eq in H1. apply IH in H2. now subst.
  - injection H as -> ->. rewrite N.eqb_refl. simpl. now apply IH.
Qed.
Lemma name_eqb_eq a b : name_eqb a b = true <-> a = b.
Proof.
  destruct a as [x], b as [y]. simpl. rewrite lN_eqb_eq. split; intros H; [now subst|now injection H].
Qed.
Lemma name_eqb_refl a : name_eqb a a = true.
Proof. now apply name_eqb_eq. Qed.

(* Sync dg de tg te dg' de': the action lists can be executed in lockstep
   (every send meets the matching receive, flushes are local) from the state
   "garbler buffer dirty = dg, evaluator buffer dirty = de" to (dg', de'), and
   whoever receives has a clean buffer at that moment. *)
Inductive Sync : bool -> bool -> list act -> list act -> bool -> bool -> Prop :=
| Sy_nil dg de : Sync dg de [] [] dg de
| Sy_fg dg de tg te dg' de' :
    Sync false de tg te dg' de' -> Sync dg de (AFlush :: tg) te dg' de'
| Sy_fe dg de tg te dg' de' :
    Sync dg false tg te dg' de' -> Sync dg de tg (AFlush :: te) dg' de'
| Sy_ge k dg tg te dg' de' :
    Sync true false tg te dg' de' -> Sync dg false (ASend k :: tg) (ARecv k :: te) dg' de'
| Sy_eg k de tg te dg' de' :
    Sync false true tg te dg' de' -> Sync false de (ARecv k :: tg) (ASend k :: te) dg' de'.

Lemma sync_sym a b x y a' b' : Sync a b x y a' b' -> Sync b a y x b' a'.
Proof. induction 1; constructor; auto. Qed.

Lemma implb_false_r d : implb d false = true -> d = false.
Proof. destruct d; simpl; congruence. Qed.

(* a cleaner start does no harm; stated for runs that end clean, the only ones
   it is used for *)
Lemma sync_mono_ff dg de tg te dg' de' :
  Sync dg de tg te dg' de' -> dg' = false -> de' = false ->
  forall d1 d2, implb d1 dg = true -> implb d2 de = true -> Sync d1 d2 tg te false false.
Proof.
  induction 1 as [dg de|dg de tg te dg' de' _ IH|dg de tg te dg' de' _ IH
                 |k dg tg te dg' de' _ IH|k de tg te dg' de' _ IH]; intros Eg Ee d1 d2 H1 H2.
  - subst. apply implb_false_r in H1, H2. subst. constructor.
  - constructor. now apply IH.
  - constructor. now apply IH.
  - apply implb_false_r in H2. subst d2. constructor. now apply IH.
  - apply implb_false_r in H1. subst d1. constructor. now apply IH.
Qed.

Lemma sync_app a b x y a1 b1 x' y' a2 b2 :
  Sync a b x y a1 b1 -> Sync a1 b1 x' y' a2 b2 -> Sync a b (x ++ x') (y ++ y') a2 b2.
Proof. induction 1; simpl; intros; try constructor; auto. Qed.

Definition nosend (a : act) : Prop := match a with ASend _ => False | _ => True end.

Fixpoint recvs (fl : list act) : list kind :=
  match fl with
  | [] => []
  | ARecv k :: r => k :: recvs r
  | _ :: r => recvs r
  end.

Lemma recvs_app a b : recvs (a ++ b) = recvs a ++ recvs b.
Proof. induction a as [|[k|k|] a IH]; simpl; auto. now rewrite IH. Qed.

Lemma sync_inv_send k dg de tg te dg' de' :
  Sync dg de (ASend k :: tg) te dg' de' ->
  exists fl te', te = fl ++ ARecv k :: te' /\ Forall nosend fl /\ recvs fl = [] /\ Sync true false tg te' dg' de'.
Proof.
  intros H. remember (ASend k :: tg) as x eqn:Ex. revert Ex.
  induction H as [| | dg de tg0 te dg' de' H IH | k0 dg tg0 te dg' de' H IH |]; intros Ex; try discriminate.
  - destruct (IH Ex) as (fl & te' & E1 & N & R & S). exists (AFlush :: fl), te'. subst. repeat split; auto.
    constructor; [exact I|exact N].
  - injection Ex as -> ->. exists [], te. repeat split; auto.
Qed.

Lemma sync_inv_flush dg de tg te dg' de' :
  Sync dg de (AFlush :: tg) te dg' de' -> Sync false de tg te dg' de'.
Proof.
  intros H. remember (AFlush :: tg) as x eqn:Ex. revert Ex.
  induction H as [| dg de tg0 te dg' de' H IH | dg de tg0 te dg' de' H IH | |]; intros Ex; try discriminate.
  - injection Ex as ->. exact H.
  - constructor. auto.
Qed.

Lemma sync_dirty de tg te dg' de' :
  Sync true de tg te dg' de' -> match tg with [] => dg' = true | ARecv _ :: _ => False | _ => True end.
Proof.
  intros H. remember true as d eqn:Ed.
  induction H as [| |? ? ? ? ? ? _ IH| |]; subst; simpl; auto; try discriminate. now apply IH.
Qed.

Definition blocked_hd (t : list act) : Prop :=
  match t with [] => True | ARecv _ :: _ => True | _ => False end.

Lemma sync_stuck dg de tg te dg' de' :
  Sync dg de tg te dg' de' -> blocked_hd tg -> blocked_hd te -> tg = [] /\ te = [].
Proof. intros H; inversion H; subst; simpl; tauto. Qed.

Definition dirty (b : list kind) : bool := match b with [] => false | _ => true end.

(* [Lead L F]: party L leads.  Nothing is in flight towards L, F's buffer is
   empty, F's program starts with receives (and no-op flushes) of exactly what
   L has flushed or buffered, and after that the two programs are in lockstep
   from the state in which L is dirty iff its buffer is non-empty. *)
Definition Lead (L F : half) : Prop :=
  hc F = [] /\ hb F = [] /\
  exists fl tF, hp F = fl ++ tF /\ Forall nosend fl /\ recvs fl = hc L ++ hb L /\
                Sync (dirty (hb L)) false (hp L) tF false false.

Lemma sync_prepend_flushes fl d d' e x y :
  Forall nosend fl -> recvs fl = [] -> Sync false e x y d d' -> Sync false e (fl ++ x) y d d'.
Proof.
  induction 1 as [|a fl Ha _ IH]; simpl; intros R S; [exact S|].
  destruct a as [k|k|]; [elim Ha|discriminate R|]. constructor. auto.
Qed.

Lemma lead_swap L F : Lead L F -> hc L = [] -> hb L = [] -> Lead F L.
Proof.
  intros (HcF & HbF & fl & tF & Ep & Ns & Rv & S) HcL HbL.
  rewrite HcL, HbL in Rv. rewrite HbL in S. simpl in *.
  split; [auto|split; [auto|]]. exists [], (hp L). repeat split; auto.
  - now rewrite HcF, HbF.
  - rewrite HbF, Ep. simpl. apply sync_prepend_flushes; [exact Ns|exact Rv|now apply sync_sym].
Qed.

Lemma lead_step_L L F auto :
  Lead L F ->
  match step_half auto L F with (L', F', b) => b = false /\ Lead L' F' end.
Proof.
  intros (HcF & HbF & fl & tF & Ep & Ns & Rv & S). unfold step_half.
  destruct (hp L) as [|[k|k|] r] eqn:EL.
  - repeat split; auto. exists fl, tF. rewrite EL. auto.
  - apply sync_inv_send in S. destruct S as (fl1 & tF' & -> & N1 & R1 & S).
    assert (Ns' : Forall nosend (fl ++ fl1 ++ [ARecv k])).
    { apply Forall_app. split; auto. apply Forall_app. split; [exact N1|]. repeat constructor. }
    assert (Rv' : recvs (fl ++ fl1 ++ [ARecv k]) = (hc L ++ hb L) ++ [k]).
    { rewrite !recvs_app, Rv, R1. reflexivity. }
    assert (Ep' : hp F = (fl ++ fl1 ++ [ARecv k]) ++ tF').
    { rewrite Ep, <- !app_assoc. reflexivity. }
    (* with an automatic flush the message goes to the channel and L is clean;
       without, it stays in L's buffer and L is dirty *)
    destruct auto; (repeat split; auto; exists (fl ++ fl1 ++ [ARecv k]), tF'; simpl; repeat split; auto).
    + rewrite Rv', app_nil_r, <- app_assoc. reflexivity.
    + apply (sync_mono_ff _ _ _ _ _ _ S); reflexivity.
    + rewrite Rv', <- app_assoc. reflexivity.
    + destruct (hb L); simpl; exact S.
  - rewrite HcF. repeat split; auto. exists fl, tF. rewrite EL. auto.
  - apply sync_inv_flush in S.
    repeat split; auto. exists fl, tF. simpl. repeat split; auto. now rewrite app_nil_r.
Qed.

(* The follower receives one of the pending messages, or nothing is pending
   and it takes the lead. *)
Lemma lead_step_F L F auto :
  Lead L F ->
  match step_half auto F L with (F', L', b) => b = false /\ (Lead L' F' \/ Lead F' L') end.
Proof.
  intros HL. pose proof HL as (HcF & HbF & fl & tF & Ep & Ns & Rv & S).
  destruct fl as [|a fl].
  - simpl in Rv. symmetry in Rv. apply app_eq_nil in Rv. destruct Rv as [HcL HbL].
    pose proof (lead_step_L F L auto (lead_swap L F HL HcL HbL)) as H.
    destruct (step_half auto F L) as [[F' L'] b]. destruct H. auto.
  - unfold step_half. rewrite Ep. simpl. inversion Ns as [|? ? Na Ns']; subst.
    destruct a as [k|k|]; simpl in Na; try contradiction.
    + simpl in Rv. destruct (hc L) as [|k' c] eqn:EcL.
      * split; [reflexivity|]. left. exact HL.
      * simpl in Rv. injection Rv as <- Rv. rewrite name_eqb_refl.
        split; [reflexivity|]. left. repeat split; auto. exists fl, tF. simpl. repeat split; auto.
    + simpl in Rv. split; [reflexivity|]. left. rewrite HcF, HbF. repeat split; auto. exists fl, tF. simpl. repeat split; auto.
Qed.

Lemma lead_step auto x y :
  Lead x y \/ Lead y x ->
  match step_half auto x y with (x', y', b) => b = false /\ (Lead x' y' \/ Lead y' x') end.
Proof.
  intros [H|H]; [pose proof (lead_step_L x y auto H) as K|pose proof (lead_step_F y x auto H) as K];
    destruct (step_half auto x y) as [[x' y'] b]; tauto.
Qed.

Definition enabled (x y : half) : bool :=
  match hp x with
  | [] => false
  | ARecv _ :: _ => match hc y with [] => false | _ => true end
  | _ => true
  end.

Lemma not_enabled_stutter auto x y : enabled x y = false -> step_half auto x y = (x, y, false).
Proof.
  unfold enabled, step_half. destruct (hp x) as [|[k|k|] r]; try discriminate; auto.
  destruct (hc y); [auto|discriminate].
Qed.

Lemma enabled_decr auto x y x' y' :
  enabled x y = true -> step_half auto x y = (x', y', false) -> List.length (hp x') < List.length (hp x).
Proof.
  unfold enabled, step_half. destruct (hp x) as [|[k|k|] r]; try discriminate.
  - intros _. destruct auto; intros [= <- <-]; simpl; auto.
  - destruct (hc y) as [|k' c]; [discriminate|]. intros _.
    destruct (name_eqb k k'); [|discriminate]. intros [= <- <-]. simpl; auto.
  - intros _ [= <- <-]. simpl; auto.
Qed.

Lemma step_half_peer auto x y : match step_half auto x y with (_, y', _) => hp y' = hp y end.
Proof.
  unfold step_half. destruct (hp x) as [|[k|k|] r]; [reflexivity|destruct auto; reflexivity| |reflexivity].
  destruct (hc y) as [|k' c]; [reflexivity|]. destruct (name_eqb k k'); reflexivity.
Qed.

Lemma lead_progress L F :
  Lead L F -> half_done L && half_done F = false -> enabled L F = true \/ enabled F L = true.
Proof.
  intros (HcF & HbF & fl & tF & Ep & Ns & Rv & S) ND.
  destruct fl as [|a fl].
  - simpl in Rv. symmetry in Rv. apply app_eq_nil in Rv. destruct Rv as [HcL HbL].
    simpl in Ep. rewrite HbL in S. simpl in S. rewrite <- Ep in S.
    unfold enabled. rewrite HcL, HcF.
    destruct (hp L) as [|[k|k|] r] eqn:EL; auto; destruct (hp F) as [|[k2|k2|] r2] eqn:EF; auto;
      try (destruct (sync_stuck _ _ _ _ _ _ S I I); discriminate).
    exfalso. unfold half_done in ND. rewrite EL, EF, HcL, HbL, HcF, HbF in ND. discriminate.
  - inversion Ns as [|? ? Na Ns']; subst. unfold enabled at 2. rewrite Ep. simpl.
    destruct a as [k|k|]; simpl in Na; try contradiction; auto.
    simpl in Rv. destruct (hc L) as [|k' c]; auto.
    simpl in Rv. destruct (hb L) as [|k' b]; [discriminate|]. simpl in S.
    left. unfold enabled. destruct (hp L) as [|[k1|k1|] r]; auto.
    + apply sync_dirty in S. discriminate.
    + destruct (sync_dirty _ _ _ _ _ S).
Qed.

(* a round already begun is worth at most one round, and more so the more of
   it has been seen; by cases on the flags and on who moves next *)
Lemma count_rounds_facts r :
  (forall sg se, count_rounds sg se r <= S (count_rounds false false r)) /\
  (forall sg se sg2 se2, implb sg2 sg = true -> implb se2 se = true ->
                         count_rounds sg2 se2 r <= count_rounds sg se r).
Proof.
  induction r as [|c r [IA IM]]; [split; intros; simpl; lia|].
  pose proof (IM (is_g c) (negb (is_g c)) false false eq_refl eq_refl) as M0.
  split.
  - intros sg se. simpl. pose proof (IA (sg || is_g c) (se || negb (is_g c))).
    destruct sg, se, (is_g c); simpl in *; lia.
  - intros sg se sg2 se2 H1 H2.
    destruct sg, se, sg2, se2; try discriminate; simpl; destruct (is_g c); simpl; auto;
      try apply IA; apply IM; reflexivity.
Qed.

(* One fairness induction for the plain system and for the one with error
   exits (LiveAbortProof.v): states [St], schedule entries [A] of which [who]
   says which party moves, enabledness of either party, a termination
   predicate [fin], a measure [mu] that bounds the number of effective steps,
   an invariant [I].  A schedule with [mu s] complete rounds terminates: a
   round in which nobody was enabled contradicts [progress], and every other
   round decreases [mu]. *)
Section Fairness.
  Variables (St A : Type) (who : A -> choice) (stp : A -> St -> St).
  Variables (enG enE fin : St -> bool) (mu : St -> nat) (I : St -> Prop).
  Hypothesis I_stp : forall c s, I s -> I (stp c s).
  Hypothesis stutter : forall c s, I s -> (if is_g (who c) then enG s else enE s) = false -> stp c s = s.
  Hypothesis effective : forall c s, I s -> (if is_g (who c) then enG s else enE s) = true -> mu (stp c s) < mu s.
  Hypothesis progress : forall s, I s -> fin s = false -> enG s = true \/ enE s = true.
  Hypothesis mu_pos : forall s, I s -> fin s = false -> 0 < mu s.
  Hypothesis fin_stp : forall c s, I s -> fin s = true -> fin (stp c s) = true.

  Lemma fin_run sched : forall s, I s -> fin s = true -> fin (fold_left (fun s c => stp c s) sched s) = true.
  Proof. induction sched as [|c r IH]; simpl; intros s Is D; auto. Qed.

  (* sg, se: the party has been scheduled in the current, incomplete round
     (and was not enabled then, the state being unchanged since) *)
  Lemma fair_run sched :
    forall s sg se, I s ->
      (sg = true -> enG s = false) -> (se = true -> enE s = false) ->
      mu s <= count_rounds sg se (map who sched) ->
      fin (fold_left (fun s c => stp c s) sched s) = true.
  Proof.
    induction sched as [|c r IH]; intros s sg se Is Hg He M; destruct (fin s) eqn:D.
    - exact D.
    - pose proof (mu_pos s Is D). simpl in M. lia.
    - now apply fin_run.
    - simpl. simpl in M. destruct (if is_g (who c) then enG s else enE s) eqn:E.
      + pose proof (effective c s Is E) as Lt.
        apply (IH (stp c s) false false (I_stp c s Is)); try discriminate.
        pose proof (proj1 (count_rounds_facts (map who r)) (sg || is_g (who c)) (se || negb (is_g (who c)))).
        destruct ((sg || is_g (who c)) && (se || negb (is_g (who c)))); lia.
      + rewrite (stutter c s Is E).
        assert (Hg' : sg || is_g (who c) = true -> enG s = false).
        { intros H. apply orb_prop in H. destruct H as [H|H]; auto. now rewrite H in E. }
        assert (He' : se || negb (is_g (who c)) = true -> enE s = false).
        { intros H. apply orb_prop in H. destruct H as [H|H]; auto.
          apply negb_true_iff in H. now rewrite H in E. }
        destruct ((sg || is_g (who c)) && (se || negb (is_g (who c)))) eqn:C.
        * exfalso. apply andb_prop in C. destruct C as [C1 C2].
          destruct (progress s Is D) as [X|X]; [rewrite (Hg' C1) in X|rewrite (He' C2) in X]; discriminate.
        * apply (IH s _ _ Is Hg' He' M).
  Qed.
End Fairness.

Definition Inv (s : cfg) : Prop := bad s = false /\ (Lead (cG s) (cE s) \/ Lead (cE s) (cG s)).
Definition mu (s : cfg) : nat := List.length (hp (cG s)) + List.length (hp (cE s)).
Definition en (c : choice) (s : cfg) : bool :=
  if is_g c then enabled (cG s) (cE s) else enabled (cE s) (cG s).

Lemma inv_step c s : Inv s -> Inv (step c s).
Proof.
  intros [B H]. unfold step. rewrite B. destruct c as [a|a].
  - pose proof (lead_step a _ _ H) as K. destruct (step_half a (cG s) (cE s)) as [[g e] b].
    destruct K as [-> K]. split; [reflexivity|exact K].
  - apply or_comm in H. pose proof (lead_step a _ _ H) as K. destruct (step_half a (cE s) (cG s)) as [[e g] b].
    destruct K as [-> K]. split; [reflexivity|apply or_comm; exact K].
Qed.

Lemma step_stutter c s : bad s = false -> en c s = false -> step c s = s.
Proof.
  intros B E. unfold step. rewrite B. destruct s as [g e b]. simpl in *. subst b.
  destruct c as [a|a]; unfold en in E; simpl in E; rewrite (not_enabled_stutter a _ _ E); reflexivity.
Qed.

Lemma step_effective c s : Inv s -> en c s = true -> mu (step c s) < mu s.
Proof.
  intros I E. pose proof (inv_step c s I) as [B' _]. destruct I as [B _].
  unfold step in *. rewrite B in *. unfold mu. destruct c as [a|a]; unfold en in E; simpl in E.
  - pose proof (step_half_peer a (cG s) (cE s)) as P.
    destruct (step_half a (cG s) (cE s)) as [[g e] b] eqn:Es. simpl in *. subst b.
    pose proof (enabled_decr _ _ _ _ _ E Es). rewrite P. lia.
  - pose proof (step_half_peer a (cE s) (cG s)) as P.
    destruct (step_half a (cE s) (cG s)) as [[e g] b] eqn:Es. simpl in *. subst b.
    pose proof (enabled_decr _ _ _ _ _ E Es). rewrite P. lia.
Qed.

Lemma inv_progress s :
  Inv s -> cfg_done s = false -> enabled (cG s) (cE s) = true \/ enabled (cE s) (cG s) = true.
Proof.
  intros [B H] D. unfold cfg_done in D. rewrite B in D. simpl in D.
  destruct H as [H|H].
  - apply lead_progress; auto.
  - rewrite andb_comm in D. destruct (lead_progress _ _ H D); auto.
Qed.

Lemma done_step c s : cfg_done s = true -> step c s = s.
Proof.
  unfold cfg_done. intros D. apply andb_prop in D. destruct D as [D De]. apply andb_prop in D. destruct D as [B Dg].
  apply negb_true_iff in B. apply step_stutter; auto.
  unfold en, enabled, half_done in *.
  destruct (hp (cG s)); [|discriminate]. destruct (hp (cE s)); [|discriminate]. destruct (is_g c); reflexivity.
Qed.

Lemma live_fair sched s :
  Inv s -> mu s <= count_rounds false false sched -> cfg_done (run_cfg sched s) = true.
Proof.
  intros Is M. rewrite <- (map_id sched) in M.
  apply (fair_run cfg choice (fun c => c) step (fun s => enabled (cG s) (cE s)) (fun s => enabled (cE s) (cG s))
                  cfg_done mu Inv) with (sg := false) (se := false); try discriminate; auto.
  - apply inv_step.
  - intros c s0 [B _]. now apply step_stutter.
  - apply step_effective.
  - apply inv_progress.
  - intros s0 I0 D. unfold mu.
    destruct (inv_progress s0 I0 D) as [E|E]; unfold enabled in E;
      [destruct (hp (cG s0))|destruct (hp (cE s0))]; try discriminate; simpl; lia.
  - intros c s0 _ D. now rewrite done_step.
Qed.

Theorem live_flat tg te :
  Sync false false tg te false false ->
  forall sched, List.length tg + List.length te <= count_rounds false false sched ->
    cfg_done (run_cfg sched (init_cfg tg te)) = true.
Proof.
  intros S sched F. apply live_fair; [|exact F].
  split; [reflexivity|]. left. simpl. repeat split; auto. exists [], te. repeat split; auto.
Qed.

Lemma flat_pseq e st p q : flat e st (pseq p q) = flat e st p ++ flat e st q.
Proof.
  induction p; simpl; auto; try (now rewrite IHp); try (now rewrite IHp2, app_assoc).
  now rewrite IHp3, app_assoc.
Qed.

(* what a result [r] of the checker claims: from every state at most as dirty
   as (dg, de) the two programs run in lockstep, under every environment, to a
   state at most as dirty as [r] *)
Definition Sound (dg de : bool) (pg pe : prog) (r : bool * bool) : Prop :=
  forall e st d1 d2, implb d1 dg = true -> implb d2 de = true ->
  exists d1' d2', implb d1' (fst r) = true /\ implb d2' (snd r) = true /\
                  Sync d1 d2 (flat e st pg) (flat e st pe) d1' d2'.

Lemma Sound_sym dg de pg pe a b : Sound dg de pg pe (a, b) -> Sound de dg pe pg (b, a).
Proof.
  intros H e st d1 d2 H1 H2. destruct (H e st d2 d1 H2 H1) as (a' & b' & Ha & Hb & S).
  exists b', a'. repeat split; auto. now apply sync_sym.
Qed.

Lemma Sound_end dg de : Sound dg de PEnd PEnd (dg, de).
Proof. intros e st d1 d2 H1 H2. exists d1, d2. simpl. repeat split; auto. constructor. Qed.

Lemma Sound_fg dg de rg pe r : Sound false de rg pe r -> Sound dg de (PFlush rg) pe r.
Proof.
  intros H e st d1 d2 H1 H2. destruct (H e st false d2 eq_refl H2) as (a & b & Ha & Hb & S).
  exists a, b. repeat split; auto. simpl. now constructor.
Qed.

Lemma Sound_fe dg de pg re r : Sound dg false pg re r -> Sound dg de pg (PFlush re) r.
Proof. destruct r as [a b]. intros H. now apply Sound_sym, Sound_fg, Sound_sym. Qed.

Lemma Sound_ge k dg rg re r : Sound true false rg re r -> Sound dg false (PSend k rg) (PRecv k re) r.
Proof.
  intros H e st d1 d2 H1 H2. apply implb_false_r in H2. subst d2.
  destruct (H e st true false eq_refl eq_refl) as (a & b & Ha & Hb & S).
  exists a, b. repeat split; auto. simpl. now constructor.
Qed.

Lemma Sound_eg k de rg re r : Sound false true rg re r -> Sound false de (PRecv k rg) (PSend k re) r.
Proof. destruct r as [a b]. intros H. now apply Sound_sym, Sound_ge, Sound_sym. Qed.

Lemma implb_trans a b c : implb a b = true -> implb b c = true -> implb a c = true.
Proof. destruct a, b, c; simpl; congruence. Qed.

Lemma Sound_loop l dg de bg be rg re jg je r2 r :
  implb dg jg = true -> implb de je = true ->
  Sound jg je bg be r2 -> implb (fst r2) jg = true -> implb (snd r2) je = true ->
  Sound jg je rg re r ->
  Sound dg de (PLoop l bg rg) (PLoop l be re) r.
Proof.
  intros Jg Je Hb I1 I2 Hr e st d1 d2 H1 H2. simpl.
  assert (K : forall (is : list nat) a b, implb a jg = true -> implb b je = true ->
            exists a' b', implb a' jg = true /\ implb b' je = true /\
              Sync a b (flat_map (fun i => flat e (i :: st) bg) is)
                       (flat_map (fun i => flat e (i :: st) be) is) a' b').
  { induction is as [|i is IH]; intros a b Ha Hb'.
    - exists a, b. repeat split; auto. constructor.
    - destruct (Hb e (i :: st) a b Ha Hb') as (a1 & b1 & Ha1 & Hb1 & S1).
      destruct (IH a1 b1 (implb_trans _ _ _ Ha1 I1) (implb_trans _ _ _ Hb1 I2)) as (a2 & b2 & Ha2 & Hb2 & S2).
      exists a2, b2. repeat split; auto. simpl. eapply sync_app; eauto. }
  destruct (K (seq 0 (cnt e l st)) d1 d2 (implb_trans _ _ _ H1 Jg) (implb_trans _ _ _ H2 Je))
    as (a & b & Ha & Hb' & S1).
  destruct (Hr e st a b Ha Hb') as (a2 & b2 & Ha2 & Hb2 & S2).
  exists a2, b2. repeat split; auto. eapply sync_app; eauto.
Qed.

Lemma implb_orb_l a b c : implb a b = true -> implb a (b || c) = true.
Proof. destruct a, b, c; simpl; congruence. Qed.
Lemma implb_orb_r a b c : implb a c = true -> implb a (b || c) = true.
Proof. destruct a, b, c; simpl; congruence. Qed.

Lemma implb_orb_self a b : implb a (a || b) = true.
Proof. destruct a, b; reflexivity. Qed.

(* [H : (the tests of a clause of check) = Some r]: by cases on every test, down to
   the branch that returns a result *)
Ltac brk H :=
  repeat match type of H with
         | (if ?c then _ else _) = Some _ => let E := fresh "E" in destruct c eqn:E
         | match ?x with _ => _ end = Some _ => let E := fresh "E" in destruct x eqn:E
         | None = Some _ => discriminate H
         end.

Definition join (x y : option (bool * bool)) : option (bool * bool) :=
  match x, y with
  | Some (a1, a2), Some (b1, b2) => Some (a1 || b1, a2 || b2)
  | _, _ => None
  end.

(* The clauses of [check (S f)] that do more than call [check f], as rules:
   [chk] stands for [check f], the premise is what the clause computes. *)
Section Clauses.
  Variable chk : bool -> bool -> prog -> prog -> option (bool * bool).
  Hypothesis chk_sound : forall dg de pg pe r, chk dg de pg pe = Some r -> Sound dg de pg pe r.

  Lemma cl_ge k k' dg de rg re r :
    (if name_eqb k k' && negb de then chk true false rg re else None) = Some r ->
    Sound dg de (PSend k rg) (PRecv k' re) r.
  Proof.
    intros H. brk H. apply andb_prop in E. destruct E as [E1 E2].
    apply name_eqb_eq in E1. apply negb_true_iff in E2. subst k' de. now apply Sound_ge, chk_sound.
  Qed.

  Lemma cl_eg k k' dg de rg re r :
    (if name_eqb k k' && negb dg then chk false true rg re else None) = Some r ->
    Sound dg de (PRecv k rg) (PSend k' re) r.
  Proof.
    intros H. brk H. apply andb_prop in E. destruct E as [E1 E2].
    apply name_eqb_eq in E1. apply negb_true_iff in E2. subst k' dg. now apply Sound_eg, chk_sound.
  Qed.

  Lemma cl_loop l l' dg de bg be rg re r :
    (if name_eqb l l' then
       match chk dg de bg be with
       | Some (dg1, de1) =>
           match chk (dg || dg1) (de || de1) bg be with
           | Some (dg2, de2) =>
               if implb dg2 (dg || dg1) && implb de2 (de || de1) then chk (dg || dg1) (de || de1) rg re else None
           | None => None
           end
       | None => None
       end
     else None) = Some r ->
    Sound dg de (PLoop l bg rg) (PLoop l' be re) r.
  Proof.
    intros H. brk H. apply name_eqb_eq in E. subst l'. apply andb_prop in E4. destruct E4 as [I1 I2].
    eapply (Sound_loop l dg de bg be rg re _ _ (_, _)); [apply implb_orb_self|apply implb_orb_self|
      apply chk_sound; eassumption|exact I1|exact I2|apply chk_sound; exact H].
  Qed.

  (* [Sound] sees the programs only through [flat]: a pair that every
     environment flattens like one of two accepted pairs is sound for the join *)
  Lemma cl_join dg de pg pe pg1 pe1 pg2 pe2 r :
    (forall e st, (flat e st pg = flat e st pg1 /\ flat e st pe = flat e st pe1) \/
                  (flat e st pg = flat e st pg2 /\ flat e st pe = flat e st pe2)) ->
    join (chk dg de pg1 pe1) (chk dg de pg2 pe2) = Some r -> Sound dg de pg pe r.
  Proof.
    intros F. destruct (chk dg de pg1 pe1) as [[a1 a2]|] eqn:C1; [|discriminate].
    destruct (chk dg de pg2 pe2) as [[b1 b2]|] eqn:C2; [|discriminate].
    intros [= <-] e st d1 d2 H1 H2. destruct (F e st) as [[-> ->]|[-> ->]].
    - destruct (chk_sound _ _ _ _ _ C1 e st d1 d2 H1 H2) as (a & b & A & B & S).
      exists a, b. simpl. repeat split; auto using implb_orb_l.
    - destruct (chk_sound _ _ _ _ _ C2 e st d1 d2 H1 H2) as (a & b & A & B & S).
      exists a, b. simpl. repeat split; auto using implb_orb_r.
  Qed.

  Lemma cl_bg l dg de ag bg rg pe r :
    join (chk dg de (pseq ag rg) pe) (chk dg de (pseq bg rg) pe) = Some r -> Sound dg de (PBranch l ag bg rg) pe r.
  Proof. apply cl_join. intros e st. simpl. rewrite !flat_pseq. destruct (brv e l st); auto. Qed.

  Lemma cl_be l dg de pg ae be re r :
    join (chk dg de pg (pseq ae re)) (chk dg de pg (pseq be re)) = Some r -> Sound dg de pg (PBranch l ae be re) r.
  Proof. apply cl_join. intros e st. simpl. rewrite !flat_pseq. destruct (brv e l st); auto. Qed.

  Lemma cl_bb l l' dg de ag bg rg ae be re r :
    (if name_eqb l l' then join (chk dg de (pseq ag rg) (pseq ae re)) (chk dg de (pseq bg rg) (pseq be re)) else None)
    = Some r ->
    Sound dg de (PBranch l ag bg rg) (PBranch l' ae be re) r.
  Proof.
    destruct (name_eqb l l') eqn:E; [|discriminate]. apply name_eqb_eq in E. subst l'.
    apply cl_join. intros e st. simpl. rewrite !flat_pseq. destruct (brv e l st); auto.
  Qed.
End Clauses.

(* [H : check (S f) .. = Some r] is the premise of the goal up to computation.
   The reduct of [check (S f)] calls the fixpoint itself where the premise has
   the constant [check]; ordinary conversion compares the two by going through
   the body of [check] (several thousand branches once its nested matches are
   compiled) at every call, the virtual machine sees the same closure. *)
Ltac exact_vm H := match goal with |- ?T => exact (H <: T) end.

Lemma check_sound f :
  forall dg de pg pe r, check f dg de pg pe = Some r -> Sound dg de pg pe r.
Proof.
  induction f as [|f IH]; intros dg de pg pe r H; [change (None = Some r) in H; discriminate H|].
  destruct pg;
    try (apply Sound_fg, IH; exact_vm H);
    destruct pe;
    try (apply Sound_fe, IH; exact_vm H);
    try (change (None = Some r) in H; discriminate H);
    try (apply (cl_bb (check f) IH); exact_vm H);
    try (apply (cl_bg (check f) IH); exact_vm H);
    try (apply (cl_be (check f) IH); exact_vm H).
  - change (Some (dg, de) = Some r) in H. injection H as <-. apply Sound_end.
  - apply (cl_ge (check f) IH). exact_vm H.
  - apply (cl_eg (check f) IH). exact_vm H.
  - apply (cl_loop (check f) IH). exact_vm H.
Qed.

Lemma well_flushed_sync g e :
  well_flushed g e = true -> forall en, Sync false false (flat en [] g) (flat en [] e) false false.
Proof.
  unfold well_flushed. intros W en.
  destruct (check _ false false g e) as [[[|] [|]]|] eqn:C; try discriminate.
  destruct (check_sound _ _ _ _ _ _ C en [] false false eq_refl eq_refl) as (a & b & Ha & Hb & S).
  simpl in Ha, Hb. apply implb_false_r in Ha. apply implb_false_r in Hb. now subst a b.
Qed.

Theorem well_flushed_live :
  forall g e, well_flushed g e = true ->
  forall (en : env) (sched : list choice), fair g e en sched -> run_live g e en sched = Done.
Proof.
  intros g e W en sched F. unfold run_live.
  now rewrite (live_flat _ _ (well_flushed_sync g e W en) sched F).
Qed.

Lemma done_spec g e en sched :
  run_live g e en sched = Done ->
  let s := run_cfg sched (init_cfg (flat en [] g) (flat en [] e)) in
  bad s = false /\ hp (cG s) = [] /\ hb (cG s) = [] /\ hc (cG s) = [] /\
  hp (cE s) = [] /\ hb (cE s) = [] /\ hc (cE s) = [].
Proof.
  unfold run_live. destruct (cfg_done _) eqn:D; [|discriminate]. intros _. simpl.
  unfold cfg_done, half_done in D.
  destruct (bad _); [discriminate|].
  destruct (hp (cG _)); [|discriminate]. destruct (hb (cG _)); [|discriminate]. destruct (hc (cG _)); [|discriminate].
  destruct (hp (cE _)); [|discriminate]. destruct (hb (cE _)); [|discriminate]. destruct (hc (cE _)); [|discriminate].
  repeat split; reflexivity.
Qed.

Open Scope nm_scope.

(* the session in miniature: first flight (flushed by InitSender), the
   evaluator's two SendUint32 + Flush, the reply *)
Definition mini_garbler : prog :=
  mk [PSend "Data"; PLoop "n0" (mk [PSend "Label"]); PSend "Data"; PFlush;
      PRecv "Uint32"; PRecv "Uint32"; PSend "Label"; PFlush].
Definition mini_evaluator (with_flush : bool) : prog :=
  mk ([PRecv "Data"; PLoop "n0" (mk [PRecv "Label"]); PRecv "Data";
       PSend "Uint32"; PSend "Uint32"] ++ (if with_flush then [PFlush] else []) ++ [PRecv "Label"]).

Definition mini_env : env := mkEnv (fun _ _ => 2) (fun _ _ => false).

(* the alternating schedule: garbler, evaluator, garbler, ... with no automatic flush *)
Fixpoint alt (n : nat) : list choice :=
  match n with O => [] | S n' => CG false :: CE false :: alt n' end.

Lemma alt_rounds n : count_rounds false false (alt n) = n.
Proof. induction n; simpl; auto. Qed.

Lemma alt_app a b : alt (a + b) = alt a ++ alt b.
Proof. induction a; simpl; auto. now rewrite IHa. Qed.

Definition mini_stuck : cfg :=
  mkCfg (mkHalf [ARecv "Uint32"; ARecv "Uint32"; ASend "Label"; AFlush] [] [])
        (mkHalf [ARecv "Label"] ["Uint32"; "Uint32"] []) false.

Lemma run_cfg_app a b s : run_cfg (a ++ b) s = run_cfg b (run_cfg a s).
Proof. apply fold_left_app. Qed.

Lemma mini_stuck_forever n :
  run_cfg (alt (12 + n)) (init_cfg (flat mini_env [] mini_garbler) (flat mini_env [] (mini_evaluator false)))
  = mini_stuck.
Proof.
  rewrite alt_app, run_cfg_app.
  replace (run_cfg (alt 12) _) with mini_stuck by (vm_compute; reflexivity).
  induction n as [|n IH]; simpl; auto.
Qed.

Theorem missing_flush_refuted :
  exists (g : prog) (e_ok e_bad : prog) (en : env),
    (* the code as it is: accepted, hence live *)
    well_flushed g e_ok = true /\
    (* one Flush deleted (the evaluator's, after its two SendUint32): rejected ... *)
    well_flushed g e_bad = false /\
    (* ... and rightly so: on the alternating schedule, fair for every bound
       (n complete rounds, for every n), with no automatic flush, the run is
       stuck for ever — the garbler waits for the two integers that sit in the
       evaluator's write buffer, the evaluator waits for the garbler's reply *)
    forall n, count_rounds false false (alt n) = n /\
              (12 <= n -> run_live g e_bad en (alt n) = Unfinished mini_stuck) /\
              exists s, run_live g e_bad en (alt n) = Unfinished s.
Proof.
  exists mini_garbler, (mini_evaluator true), (mini_evaluator false), mini_env.
  split; [vm_compute; reflexivity|]. split; [vm_compute; reflexivity|].
  intros n. split; [apply alt_rounds|].
  assert (K : 12 <= n -> run_live mini_garbler (mini_evaluator false) mini_env (alt n) = Unfinished mini_stuck).
  { intros H. replace n with (12 + (n - 12)) by lia. unfold run_live. rewrite mini_stuck_forever. reflexivity. }
  split; [exact K|].
  destruct (le_lt_dec 12 n) as [H|H]; [eexists; apply K; exact H|].
  do 12 (destruct n as [|n]; [vm_compute; eexists; reflexivity|]). lia.
Qed.
