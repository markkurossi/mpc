(* ConnErrProof.v — proofs about Proto/ConnErr.v (p2p.Conn under transport faults): main thread
   and writer goroutine with failing Writes over all interleavings; the functional sender with
   write faults; the receiver over a failing transport. *)
From Coq Require Import ZArith NArith List Bool Arith Lia.
From Mpc Require Import Base.Codec Proto.Conn Proto.ConnProof Proto.ConnErr.
Import ListNotations.

Lemma anyb_app a b : anyb (a ++ b) = anyb a || anyb b.
Proof. unfold anyb. apply existsb_app. Qed.

Lemma anyb_firstn_le : forall n m (l : list bool), n <= m -> anyb (firstn m l) = false -> anyb (firstn n l) = false.
Proof.
  induction n as [|n IH]; intros m l Hle H; [reflexivity|].
  destruct m as [|m]; [lia|]. destruct l as [|x l]; [reflexivity|].
  cbn in *. apply orb_false_iff in H. destruct H as (-> & H). cbn. apply (IH m); [lia|exact H].
Qed.

Lemma firstn_app_le {A} n (l m : list A) : n <= length l -> firstn n (l ++ m) = firstn n l.
Proof. intros H. rewrite firstn_app. replace (n - length l) with 0 by lia. cbn. apply app_nil_r. Qed.

Lemma anyb_firstn_app_mono n (l m : list bool) : anyb (firstn n l) = true -> anyb (firstn n (l ++ m)) = true.
Proof. intros H. rewrite firstn_app, anyb_app, H. reflexivity. Qed.

Lemma nth_error_anyb : forall (l : list bool) j, nth_error l j = Some true -> anyb l = true.
Proof.
  unfold anyb. induction l as [|x l IH]; intros [|j] H; cbn in *; try discriminate.
  - injection H as ->. reflexivity.
  - rewrite (IH j H). apply orb_true_r.
Qed.

Lemma anyb_false_nth : forall (l : list bool) j b, anyb l = false -> nth_error l j = Some b -> b = false.
Proof. intros l j [|] Ha Hn; [|reflexivity]. rewrite (nth_error_anyb l j Hn) in Ha. discriminate. Qed.

Lemma nth_error_snoc_inv {A} (l : list A) x j y :
  nth_error (l ++ [x]) j = Some y -> nth_error l j = Some y \/ (j = length l /\ x = y).
Proof.
  intros H. destruct (Nat.lt_ge_cases j (length l)) as [E|E].
  - left. now rewrite nth_error_app1 in H.
  - rewrite nth_error_app2 in H by exact E. right.
    destruct (j - length l) as [|[|k]] eqn:E3; cbn in H; try discriminate. split; [lia|congruence].
Qed.

Lemma nth_error_firstn_lt {A} : forall n (l : list A) i, i < n -> nth_error (firstn n l) i = nth_error l i.
Proof.
  induction n as [|n IH]; intros l i H; [lia|].
  destruct l as [|x l]; [destruct i; reflexivity|]. destruct i as [|i]; cbn; [reflexivity|apply IH; lia].
Qed.

Section ERingProofs.
Variable nb : nat.

Definition xalloc (w : ewpc) : nat := match w with XAlloc k => k | _ => nb end.
Definition xdone1 (w : ewpc) : nat := match w with XWrote _ | XRet => 1 | _ => 0 end.
Definition xhave (w : ewpc) : nat := match w with XHave => 1 | _ => 0 end.
Definition xsettled (w : ewpc) : nat := match w with XRet => 1 | _ => 0 end.
Definition inflush (m : empc) : nat := match m with EWait _ | ERead _ => 1 | _ => 0 end.

Definition main_rel (m : empc) (att acq : nat) : Prop :=
  match m with
  | EInit => att = 0 /\ acq = 0
  | EIdle => acq = S att
  | EWait _ => acq = att /\ 0 < att
  | ERead _ => acq = S att /\ 0 < att
  | EDrain | EClosed => S att <= acq
  end.

(* a flush attempt that returned nil: the Writes it is ordered after did not fail *)
Definition res_ok (res out : list bool) : Prop :=
  forall j, nth_error res j = Some false ->
    j + 2 - nb <= length out /\ anyb (firstn (j + 2 - nb) out) = false.
(* a flush attempt that returned the error: one of the Writes of the chunks sent so far failed *)
Definition res_sound (res out : list bool) : Prop :=
  forall j, nth_error res j = Some true -> anyb (firstn (S j) out) = true.
Definition res_mono (res : list bool) : Prop :=
  forall j k b, j <= k -> nth_error res j = Some true -> nth_error res k = Some b -> b = true.

(* the counters: tokens (buffers) are conserved, every slice sent is queued, held or written,
   every flush attempt has returned or is in progress *)
Record ECount (e : ering) : Prop := {
  ei_main : main_rel (e_main e) (e_att e) (e_acq e);
  ei_tok : e_acq e + e_fromW e = xalloc (e_w e) + e_ret e;
  ei_alloc : xalloc (e_w e) <= nb;
  ei_out : length (e_out e) = e_ret e + xdone1 (e_w e);
  ei_att : e_att e = e_toW e + xhave (e_w e) + length (e_out e);
  ei_nres : length (e_res e) + inflush (e_main e) = e_att e
}.

Definition emain_inv (e : ering) : Prop :=
  match e_main e with
  | EDrain => e_toWc e = true /\ e_close e = None
  | EClosed => e_toWc e = true /\ e_close e = Some (e_werr e) /\ e_fromWc e = true
  | _ => e_toWc e = false /\ e_close e = None
  end.
Definition ewriter_inv (e : ering) : Prop :=
  match e_w e with
  | XDone => e_fromWc e = true /\ e_toWc e = true /\ e_toW e = 0
  | _ => e_fromWc e = false
  end.

(* c.writerErr and the results of the flush attempts against the outcomes of the Writes;
   these speak of the writer's program counter, c.writerErr and the three ghost lists only *)
Record hist (w : ewpc) (we : bool) (out res : list bool) (ret : nat) : Prop := {
  ei_last : match w with XWrote b => exists o, out = o ++ [b] | _ => True end;
  ei_set : anyb (firstn (ret + xsettled w) out) = true -> we = true;
  ei_sound : we = true -> anyb out = true;
  ei_res : res_ok res out;
  ei_rsound : res_sound res out;
  ei_mono : res_mono res;
  ei_sticky : anyb res = true -> we = true
}.
Definition EHist (e : ering) : Prop := hist (e_w e) (e_werr e) (e_out e) (e_res e) (e_ret e).

Record EInv (e : ering) : Prop := {
  ei_count : ECount e;
  ei_hist : EHist e;
  ei_emain : emain_inv e;
  ei_ewriter : ewriter_inv e
}.

Lemma EInv_init : EInv e_init.
Proof.
  split; [split; cbn; lia|split; cbn; auto; try discriminate|cbn; tauto|reflexivity].
  - intros [|j] H; discriminate.
  - intros [|j] H; discriminate.
  - intros [|j] k b _ H; discriminate.
Qed.

Lemma res_ok_app_out res out m : res_ok res out -> res_ok res (out ++ m).
Proof.
  intros H j Hj. destruct (H j Hj) as (H1 & H2). rewrite app_length. split; [lia|].
  now rewrite firstn_app_le.
Qed.

Lemma res_sound_app_out res out m : res_sound res out -> res_sound res (out ++ m).
Proof. intros H j Hj. apply anyb_firstn_app_mono, H, Hj. Qed.

Lemma res_ok_snoc_true res out : res_ok res out -> res_ok (res ++ [true]) out.
Proof. intros H j Hj. destruct (nth_error_snoc_inv _ _ _ _ Hj) as [Hj'|(_ & E)]; [apply H, Hj'|discriminate]. Qed.

Lemma res_ok_snoc_false res out :
  res_ok res out -> length res + 2 - nb <= length out -> anyb (firstn (length res + 2 - nb) out) = false ->
  res_ok (res ++ [false]) out.
Proof.
  intros H H1 H2 j Hj. destruct (nth_error_snoc_inv _ _ _ _ Hj) as [Hj'|(-> & _)]; [apply H, Hj'|]. split; assumption.
Qed.

Lemma res_sound_snoc_false res out : res_sound res out -> res_sound (res ++ [false]) out.
Proof. intros H j Hj. destruct (nth_error_snoc_inv _ _ _ _ Hj) as [Hj'|(_ & E)]; [apply H, Hj'|discriminate]. Qed.

Lemma res_sound_snoc_true res out :
  res_sound res out -> length out <= S (length res) -> anyb out = true -> res_sound (res ++ [true]) out.
Proof.
  intros H H1 H2 j Hj. destruct (nth_error_snoc_inv _ _ _ _ Hj) as [Hj'|(-> & _)]; [apply H, Hj'|].
  rewrite firstn_all2 by lia. exact H2.
Qed.

Lemma res_mono_snoc res b : res_mono res -> (b = false -> anyb res = false) -> res_mono (res ++ [b]).
Proof.
  intros H Hb j k c Hjk Hj Hk.
  destruct (nth_error_snoc_inv _ _ _ _ Hk) as [Hk'|(-> & <-)].
  - destruct (nth_error_snoc_inv _ _ _ _ Hj) as [Hj'|(-> & _)]; [exact (H j k c Hjk Hj' Hk')|].
    assert (k < length res) by (apply nth_error_Some; congruence). lia.
  - destruct (nth_error_snoc_inv _ _ _ _ Hj) as [Hj'|(_ & E)]; [|exact E].
    destruct b; [reflexivity|]. rewrite (nth_error_anyb _ _ Hj') in Hb. now specialize (Hb eq_refl).
Qed.

Ltac simp_e := cbn [e_main e_att e_res e_acq e_toW e_toWc e_fromW e_fromWc e_w e_werr e_out e_ret e_close
                    xalloc xdone1 xhave xsettled inflush main_rel] in *.

Lemma ECount_step e e' : ECount e -> estep nb e e' -> ECount e'.
Proof.
  intros [Imain Itok Ialloc Iout Iatt Inres] st.
  destruct st; simp_e; split; simp_e; try assumption; rewrite ?app_length; cbn [length]; lia.
Qed.

Lemma ECtl_step e e' : emain_inv e -> ewriter_inv e -> estep nb e e' -> emain_inv e' /\ ewriter_inv e'.
Proof.
  unfold emain_inv, ewriter_inv. intros M W st. destruct st; simp_e; split; try assumption.
  - (* Flush sends: toWriter is open, so the writer has not finished *)
    destruct w; try assumption. intuition congruence.
  - intuition congruence.
  - destruct w; try assumption. intuition congruence.
  - intuition congruence.
  - destruct w; try assumption. intuition congruence.
  - intuition congruence.
  - (* the writer is still running: Close has not returned *)
    destruct m; try assumption. intuition congruence.
  - (* toWriter is closed: main is in Close *)
    destruct m; intuition congruence.
  - auto.
Qed.

Lemma hist_res_true w out res ret : hist w true out res ret -> length out <= S (length res) ->
  hist w true out (res ++ [true]) ret.
Proof.
  intros [Ilast Iset Isound Ires Irsound Imono Isticky] Hlen. split; auto.
  - apply res_ok_snoc_true, Ires.
  - apply res_sound_snoc_true; auto.
  - apply res_mono_snoc; [assumption|discriminate].
Qed.

(* a flush attempt returns nil: c.writerErr is unset after a receive that is ordered after the
   return of buffer length res + 2 - nb *)
Lemma hist_res_false w out res ret : hist w false out res ret ->
  length res + 2 - nb <= ret + xsettled w <= length out ->
  hist w false out (res ++ [false]) ret.
Proof.
  intros [Ilast Iset Isound Ires Irsound Imono Isticky] Hlen.
  assert (Hres : anyb res = false) by (destruct (anyb res); [symmetry; auto|reflexivity]).
  split; auto.
  - apply res_ok_snoc_false; [assumption|lia|]. apply (anyb_firstn_le _ (ret + xsettled w)); [lia|].
    destruct (anyb (firstn _ out)); [symmetry; auto|reflexivity].
  - apply res_sound_snoc_false, Irsound.
  - apply res_mono_snoc; auto.
  - rewrite anyb_app, Hres. discriminate.
Qed.

Lemma hist_write b we out res ret : hist XHave we out res ret -> length out = ret ->
  hist (XWrote b) we (out ++ [b]) res ret.
Proof.
  intros [Ilast Iset Isound Ires Irsound Imono Isticky] Hlen. split; auto; cbn [xsettled] in *.
  - now exists out.
  - rewrite firstn_app_le by lia. exact Iset.
  - intros Hx. rewrite anyb_app, (Isound Hx). reflexivity.
  - apply res_ok_app_out, Ires.
  - apply res_sound_app_out, Irsound.
Qed.

Lemma hist_wrote b we out res ret : hist (XWrote b) we out res ret -> length out = ret + 1 ->
  hist XRet (b || we) out res ret.
Proof.
  intros [(o & ->) Iset Isound Ires Irsound Imono Isticky] Hlen. rewrite app_length in Hlen.
  cbn [xsettled length] in *. split; auto; cbn [xsettled].
  - destruct b; [reflexivity|]. rewrite firstn_all2 by (rewrite app_length; cbn [length]; lia).
    rewrite firstn_app_le, firstn_all2 in Iset by lia. rewrite anyb_app. cbn. now rewrite orb_false_r.
  - destruct b; [intros _; rewrite anyb_app; cbn; apply orb_true_r|exact Isound].
  - destruct b; [reflexivity|exact Isticky].
Qed.

Lemma hist_return we out res ret : hist XRet we out res ret -> hist XIdle we out res (S ret).
Proof.
  intros [Ilast Iset Isound Ires Irsound Imono Isticky]. split; auto; cbn [xsettled] in *.
  now replace (S ret + 0) with (ret + 1) by lia.
Qed.

Lemma EHist_step e e' : ECount e -> EHist e -> estep nb e e' -> EHist e'.
Proof.
  unfold EHist. intros [Imain Itok Ialloc Iout Iatt Inres] H st. destruct st; simp_e; try assumption.
  (* the steps of the writer that neither make nor settle a Write *)
  all: try solve [destruct H; split; assumption].
  - apply hist_res_true; [assumption|lia].
  - apply hist_res_false; [assumption|destruct w; cbn [xsettled xalloc xdone1] in *; lia].
  - apply hist_res_false; [assumption|destruct w; cbn [xsettled xalloc xdone1] in *; lia].
  - apply hist_write; [assumption|lia].
  - apply (hist_wrote true we); [assumption|lia].
  - apply (hist_wrote false we); [assumption|lia].
  - apply hist_return, H.
Qed.

Lemma EInv_step e e' : EInv e -> estep nb e e' -> EInv e'.
Proof.
  intros [C H M W] st. destruct (ECtl_step e e' M W st). split; eauto using ECount_step, EHist_step.
Qed.

Lemma ereach_EInv e : ereach nb e -> EInv e.
Proof. induction 1 as [|e e' _ IH st]; [apply EInv_init|exact (EInv_step e e' IH st)]. Qed.

Lemma ereach_hist e : ereach nb e -> hist (e_w e) (e_werr e) (e_out e) (e_res e) (e_ret e).
Proof. intros R. apply (ei_hist e (ereach_EInv e R)). Qed.

(* LATEST DETECTION: a flush attempt j that returned nil is ordered after the Writes
   0 .. j+1-nb, all of which were made and succeeded. *)
Theorem ering_flush_nil_means e j i : ereach nb e ->
  nth_error (e_res e) j = Some false -> i + nb <= j + 1 -> nth_error (e_out e) i = Some false.
Proof.
  intros R Hj Hi. destruct (ei_res _ _ _ _ _ (ereach_hist e R) j Hj) as (H1 & H2).
  destruct (nth_error (e_out e) i) as [b|] eqn:E.
  - destruct b; [|reflexivity].
    assert (Hf : nth_error (firstn (j + 2 - nb) (e_out e)) i = Some true).
    { rewrite nth_error_firstn_lt by lia. exact E. }
    rewrite (nth_error_anyb _ _ Hf) in H2. discriminate.
  - apply nth_error_None in E. lia.
Qed.

(* ... read the other way: once Write i has failed, flush attempt i+nb-1 and every
   later one return the error *)
Corollary ering_failed_write_reported e i j b : ereach nb e ->
  nth_error (e_out e) i = Some true -> i + nb <= j + 1 -> nth_error (e_res e) j = Some b -> b = true.
Proof.
  intros R Hi Hij Hj. destruct b; [reflexivity|].
  rewrite (ering_flush_nil_means e j i R Hj Hij) in Hi. discriminate.
Qed.

(* NO SPURIOUS ERROR: a flush attempt j returns the error only if one of the Writes of
   the chunks 0..j has failed *)
Theorem ering_error_means_failed_write e j : ereach nb e ->
  nth_error (e_res e) j = Some true -> exists i, i <= j /\ nth_error (e_out e) i = Some true.
Proof.
  intros R Hj. pose proof (ei_rsound _ _ _ _ _ (ereach_hist e R) j Hj) as H.
  unfold anyb in H. apply existsb_exists in H. destruct H as (x & Hin & ->).
  apply In_nth_error in Hin. destruct Hin as (i & Hi). exists i.
  assert (i < S j).
  { assert (Hl : i < length (firstn (S j) (e_out e))) by (apply nth_error_Some; congruence).
    rewrite firstn_length in Hl. lia. }
  split; [lia|]. rewrite nth_error_firstn_lt in Hi by lia. exact Hi.
Qed.

(* STICKY: after a flush attempt returned the error every later one does *)
Theorem ering_error_sticky e j k b : ereach nb e -> j <= k ->
  nth_error (e_res e) j = Some true -> nth_error (e_res e) k = Some b -> b = true.
Proof. intros R. apply (ei_mono _ _ _ _ _ (ereach_hist e R)). Qed.

(* CLOSE: when Close has come back from its second phase every slice handed to the
   writer has been offered to the transport, and Close returned the error exactly when one
   of these Writes failed (together with STICKY and the first phase: Close returns nil only
   if no Write of the whole connection failed) *)
Theorem ering_close_reports e r : ereach nb e -> e_close e = Some r ->
  length (e_out e) = e_att e /\ r = anyb (e_out e).
Proof.
  intros R Hc. destruct (ereach_EInv e R) as [[_ _ _ Ho Ha _] [_ Hs Hd _ _ _ _] M W].
  unfold emain_inv, ewriter_inv in *.
  (* Close has returned: fromWriter is closed, so the writer is done and toWriter empty *)
  destruct (e_main e); try (destruct M as (_ & M); congruence). destruct M as (_ & M & Hf).
  destruct (e_w e); try congruence. destruct W as (_ & _ & Htw).
  assert (r = e_werr e) as -> by congruence.
  cbn [xhave xdone1 xsettled] in *. split; [lia|].
  rewrite firstn_all2 in Hs by lia.
  destruct (e_werr e); destruct (anyb (e_out e)); try reflexivity; [specialize (Hd eq_refl)|specialize (Hs eq_refl)]; discriminate.
Qed.

(* the channel operations of main's Flush and of the writer never block on a full channel,
   also after Flushes that returned the error (where c.WriteBuf aliases a buffer of the writer
   and the buffer taken from fromWriter is dropped) *)
Theorem ering_sends_never_block e : ereach nb e ->
  (e_main e = EIdle -> e_toW e < nb) /\
  (e_w e = XRet -> e_fromW e < nb) /\
  (forall k, e_w e = XAlloc k -> k < nb -> e_fromW e < nb).
Proof.
  intros R. destruct (ei_count e (ereach_EInv e R)) as [Imain Itok Ialloc Iout Iatt _].
  repeat split.
  - intros Hm. rewrite Hm in Imain. cbn in Imain.
    destruct (e_w e); cbn [xalloc xdone1 xhave] in *; lia.
  - intros Hw. rewrite Hw in *. cbn [xalloc xdone1 xhave] in *.
    destruct (e_main e); cbn [main_rel] in Imain; lia.
  - intros k Hw Hk. rewrite Hw in *. cbn [xalloc xdone1 xhave] in *.
    destruct (e_main e); cbn [main_rel] in Imain; lia.
Qed.

(* when the writer goroutine can move (conn.Write itself is assumed to return) *)
Lemma writer_step m att res acq tw twc fw fwc w we out ret cl :
  match w with
  | XAlloc k => k = nb \/ (k < nb /\ fw < nb)
  | XIdle => 0 < tw \/ twc = true
  | XHave | XWrote _ => True
  | XRet => fw < nb
  | XDone => False
  end -> exists e', estep nb (mkE m att res acq tw twc fw fwc w we out ret cl) e'.
Proof.
  destruct w as [k| | |b| |]; intros H.
  - destruct H as [->|(Hk & Hf)]; eexists; [apply X_alloc_done|apply X_alloc; assumption].
  - destruct tw as [|tw]; [|eexists; apply X_take]. destruct H as [H| ->]; [lia|eexists; apply X_done].
  - eexists; apply (X_write nb false).
  - destruct b; eexists; [apply X_seterr|apply X_noerr].
  - eexists; apply X_return, H.
  - contradiction.
Qed.

(* NO DEADLOCK: in every reachable state in which main is inside NewConn, Flush or Close
   (not between two calls, not finished) some step is enabled — main's own receive, or a
   step of the writer goroutine *)
Theorem ering_no_deadlock e : 0 < nb -> ereach nb e ->
  e_main e <> EIdle -> e_main e <> EClosed -> exists e', estep nb e e'.
Proof.
  intros Hnb R Hn1 Hn2. destruct (ereach_EInv e R) as [[Imain Itok Ialloc Iout Iatt Inres] _ M W].
  unfold emain_inv, ewriter_inv in *.
  destruct e as [m att res acq tw twc fw fwc w we out ret cl];
    cbn [e_main e_att e_res e_acq e_toW e_toWc e_fromW e_fromWc e_w e_werr e_out e_ret e_close] in *.
  destruct m as [| |clf|clf| |]; try congruence.
  (* main waits on fromWriter: if it is empty the buffers are with the writer, which can move *)
  - destruct fw as [|fw]; [|eexists; apply E_init].
    apply writer_step. destruct w; cbn [xalloc xdone1 xhave main_rel] in *; try lia; intuition congruence.
  - destruct fw as [|fw]; [|eexists; apply E_flush_recv].
    apply writer_step. destruct w; cbn [xalloc xdone1 xhave main_rel] in *; try lia; intuition congruence.
  - (* ERead: the decision is always enabled *)
    destruct we; [eexists; apply E_flush_err|]. destruct clf; eexists; [apply E_close_after_flush|apply E_flush_ok].
  - destruct fw as [|fw]; [|eexists; apply E_drain].
    destruct w; try (apply writer_step; cbn [xalloc] in *; try lia; tauto).
    (* the writer is done: fromWriter is closed and the drain ends *)
    destruct W as (-> & _). eexists; apply E_drain_done.
Qed.

(* how many chunks can follow a failed one: as long as no flush attempt has returned the error,
   at most nb-1 slices have been handed to the writer after the chunk whose Write failed *)
Theorem ering_chunks_after_failure_bounded e i : 0 < nb -> ereach nb e ->
  nth_error (e_out e) i = Some true -> anyb (e_res e) = false -> e_att e <= i + nb.
Proof.
  intros Hnb R Hi Hres. pose proof (ei_nres e (ei_count e (ereach_EInv e R))) as Hn.
  assert (inflush (e_main e) <= 1) by (destruct (e_main e); cbn; lia).
  destruct (length (e_res e)) as [|n] eqn:El; [lia|].
  destruct (nth_error (e_res e) n) as [b|] eqn:En; [|apply nth_error_None in En; lia].
  pose proof (anyb_false_nth _ _ _ Hres En) as ->.
  destruct (Nat.le_gt_cases (i + nb) (n + 1)) as [Hle|Hgt]; [|lia].
  rewrite (ering_flush_nil_means e n i R En Hle) in Hi. discriminate.
Qed.

End ERingProofs.

(* non-vacuity of the hypotheses of the theorems above: an execution in which a Write fails,
   the two following Flushes still return nil, the third returns the error, and Close (its
   Flush) returns it again *)
Example ering_nonvacuous :
  exists e, ereach 3 e /\ e_out e = [true; false] /\ e_res e = [false; false; true; true] /\ e_main e = EIdle.
Proof.
  eexists. split.
  - pose proof (ereach_init 3) as H. unfold e_init in H.
    eapply ereach_step in H; [|apply X_alloc; lia].
    eapply ereach_step in H; [|apply X_alloc; lia].
    eapply ereach_step in H; [|apply X_alloc; lia].
    eapply ereach_step in H; [|apply X_alloc_done].
    eapply ereach_step in H; [|apply E_init].
    eapply ereach_step in H; [|apply (E_flush_send 3 false); lia].
    eapply ereach_step in H; [|apply E_flush_recv].
    eapply ereach_step in H; [|apply E_flush_ok].
    eapply ereach_step in H; [|apply (E_flush_send 3 false); lia].
    eapply ereach_step in H; [|apply E_flush_recv].
    eapply ereach_step in H; [|apply E_flush_ok].
    eapply ereach_step in H; [|apply X_take].
    eapply ereach_step in H; [|apply (X_write 3 true)].
    eapply ereach_step in H; [|apply X_seterr].
    eapply ereach_step in H; [|apply X_return; lia].
    eapply ereach_step in H; [|apply (E_flush_send 3 false); lia].
    eapply ereach_step in H; [|apply E_flush_recv].
    eapply ereach_step in H; [|apply E_flush_err].
    eapply ereach_step in H; [|apply X_take].
    eapply ereach_step in H; [|apply (X_write 3 false)].
    eapply ereach_step in H; [|apply X_noerr].
    eapply ereach_step in H; [|apply X_return; lia].
    eapply ereach_step in H; [|apply (E_flush_send 3 true); lia].
    eapply ereach_step in H; [|apply E_flush_recv].
    eapply ereach_step in H; [|apply E_flush_err].
    exact H.
  - repeat split.
Qed.

(* the claim "no chunk is offered to the transport after a failed Write" is FALSE of the
   code (the writer goroutine only records the error and goes on): an execution with three
   buffers in which Write 0 fails and Write 1 is made and succeeds *)
Theorem ering_write_after_failed_write :
  exists e, ereach 3 e /\ e_out e = [true; false].
Proof. destruct ering_nonvacuous as (e & R & O & _). now exists e. Qed.

Open Scope N_scope.

Section FaultSenderProofs.
Variables (nbuf wcap : N).
Variable fl : nat -> option N.
Variable lag : nat.

Notation fflush' := (fflush nbuf fl lag).
Notation fput' := (fput nbuf wcap fl lag).
Notation fstep' := (fstep nbuf wcap fl lag).
Notation frun' := (frun nbuf wcap fl lag).
Notation seen := (err_seen fl lag).

Lemma any_fail_mono : forall n m, (n <= m)%nat -> any_fail fl n = true -> any_fail fl m = true.
Proof.
  intros n m H. induction H as [|m H IH]; [tauto|]. intros Hn. cbn. rewrite (IH Hn). reflexivity.
Qed.

Lemma seen_mono j k : (j <= k)%nat -> seen j = true -> seen k = true.
Proof. unfold err_seen. intros H. apply any_fail_mono. lia. Qed.

(* the state after a Flush has returned the error: bytes pending for ever, error visible *)
Definition Failed (s : sender) : Prop :=
  0 < wpos s /\ seen (attempts s) = true /\ s_closed s = false.

Lemma fflush_cases s :
  (fflush' s = (flush_buf nbuf s, false) /\ (wpos s = 0 \/ seen (attempts s) = false)) \/
  (exists s1, fflush' s = (s1, true) /\ 0 < wpos s /\ seen (attempts s) = true /\
     s_buf s1 = s_buf s /\ s_cur s1 = s_cur s /\ s_closed s1 = s_closed s /\ s_err s1 = s_err s /\
     s_flushed s1 = s_flushed s /\ attempts s1 = S (attempts s)).
Proof.
  unfold fflush, flush_buf. destruct (0 <? wpos s) eqn:E.
  - apply N.ltb_lt in E. destruct (seen (attempts s)) eqn:Es.
    + right. eexists. split; [reflexivity|]. cbn. unfold attempts. cbn. rewrite app_length. cbn.
      repeat split; try assumption; lia.
    + left. split; [reflexivity|right; reflexivity].
  - apply N.ltb_ge in E. left. split; [reflexivity|left; lia].
Qed.

Lemma fflush_err_Failed s s1 : s_closed s = false -> fflush' s = (s1, true) -> Failed s1 /\ s_err s1 = s_err s.
Proof.
  intros Hc H. destruct (fflush_cases s) as [(H1 & _)|(s1' & H1 & Hw & Hs & Hb & _ & Hcl & He & _ & Ha)]; [congruence|].
  rewrite H in H1. injection H1 as <-. split; [|exact He]. unfold Failed, wpos. rewrite Hb, Hcl, Ha.
  repeat split; try assumption. apply (seen_mono (attempts s)); [lia|exact Hs].
Qed.

Lemma Failed_fflush s : Failed s -> exists s1, fflush' s = (s1, true) /\ Failed s1 /\ s_err s1 = s_err s.
Proof.
  intros (Hw & Hs & Hc). destruct (fflush_cases s) as [(_ & [H|H])|(s1 & H1 & _)]; [lia|congruence|].
  exists s1. split; [exact H1|]. exact (fflush_err_Failed s s1 Hc H1).
Qed.

Lemma fflush_ok s s1 : fflush' s = (s1, false) -> s1 = flush_buf nbuf s.
Proof. intros H. destruct (fflush_cases s) as [(H1 & _)|(s2 & H1 & _)]; congruence. Qed.

Lemma Failed_append bs s : Failed s -> Failed (append_buf bs s).
Proof.
  intros (Hw & Hs & Hc). unfold Failed, wpos, attempts in *. cbn. rewrite nlen_app. repeat split; try assumption. lia.
Qed.

Lemma Failed_set_err s : Failed s -> Failed (set_err s).
Proof. intros H. exact H. Qed.

(* The outcome [fs] of a procedure of the fault sender, started in [s], against the state [gs]
   its fault-free counterpart comes to: when it returns nil it has come to [gs]; it returns the
   error only out of a Flush that began with the flags of [s]; it keeps the failed state. *)
Record fproc (s gs : sender) (fs : sender * bool) : Prop := {
  fp_ok : forall s1, fs = (s1, false) -> s1 = gs;
  fp_err : forall s1, fs = (s1, true) ->
    exists s0, s_err s0 = s_err s /\ s_closed s0 = s_closed s /\ fflush' s0 = (s1, true);
  fp_failed : Failed s -> Failed (fst fs)
}.

Lemma fproc_ret s s' : (Failed s -> Failed s') -> fproc s s' (s', false).
Proof. intros H. split; [congruence|discriminate|exact H]. Qed.

(* `if err != nil { return err }` between two procedures, as ConnErr.v writes it out *)
Lemma fproc_bind s gs fs (g2 : sender -> sender) (f2 : sender -> sender * bool) :
  fproc s gs fs -> s_err gs = s_err s -> s_closed gs = s_closed s -> (forall s1, fproc s1 (g2 s1) (f2 s1)) ->
  fproc s (g2 gs) (match fs with (s1, true) => (s1, true) | (s1, false) => f2 s1 end).
Proof.
  intros [A1 A2 A3] Ke Kc B. destruct fs as [s1 [|]]; cbn [fst] in A3.
  - split; [discriminate|exact A2|exact A3].
  - rewrite <- (A1 s1 eq_refl) in *. destruct (B s1) as [B1 B2 B3]. split; [exact B1| |auto].
    intros s2 H. destruct (B2 s2 H) as (s0 & He & Hc & H0). exists s0. split; [congruence|]. split; [congruence|exact H0].
Qed.

Lemma fproc_fflush s : fproc s (flush_buf nbuf s) (fflush' s).
Proof.
  split.
  - apply fflush_ok.
  - intros s1 H. now exists s.
  - intros F. destruct (Failed_fflush s F) as (s1 & -> & F1 & _). exact F1.
Qed.

(* `if c { Flush }`, the opening of NeedSpace and of SendData's loop body *)
Lemma fproc_when_fflush (c : bool) s :
  fproc s (if c then flush_buf nbuf s else s) (if c then fflush' s else (s, false)) /\
  s_err (if c then flush_buf nbuf s else s) = s_err s /\ s_closed (if c then flush_buf nbuf s else s) = s_closed s.
Proof.
  destruct c; [|split; [apply fproc_ret; auto|split; reflexivity]].
  split; [apply fproc_fflush|]. split; [apply flush_err|apply flush_closed].
Qed.

Lemma put_flags k bs s : s_err (put nbuf wcap k bs s) = s_err s /\ s_closed (put nbuf wcap k bs s) = s_closed s.
Proof. apply (appends_put nbuf wcap k bs s). Qed.

Lemma fproc_fput k bs s : fproc s (put nbuf wcap k bs s) (fput' k bs s).
Proof.
  destruct (fproc_when_fflush (wcap <? wpos s + k) s) as (P & Ke & Kc).
  pose proof (fproc_bind s _ _ (append_buf bs) (fun s1 => (append_buf bs s1, false)) P Ke Kc
                (fun s1 => fproc_ret s1 _ (Failed_append bs s1))) as H.
  unfold put, fput. destruct (wcap <? wpos s + k); exact H.
Qed.

Lemma fproc_append bs s gs fs : fproc (append_buf bs s) gs fs -> fproc s gs fs.
Proof. intros [H1 H2 H3]. split; [exact H1|exact H2|]. intros F. apply H3, Failed_append, F. Qed.

Lemma fproc_fdata_loop : forall fuel d s, fproc s (data_loop nbuf wcap fuel d s) (fdata_loop nbuf wcap fl lag fuel d s).
Proof.
  induction fuel as [|fuel IH]; intros [|x d'] s; cbn [data_loop fdata_loop]; try (apply fproc_ret; auto).
  set (d := x :: d'). destruct (fproc_when_fflush (wcap <=? wpos s) s) as (P & Ke & Kc).
  (* the rest of the loop, entered with a chunk of the payload appended *)
  apply (fproc_bind s _ _
           (fun s1 => data_loop nbuf wcap fuel (ndrop (wcap - wpos s1) d) (append_buf (ntake (wcap - wpos s1) d) s1))
           (fun s1 => fdata_loop nbuf wcap fl lag fuel (ndrop (wcap - wpos s1) d) (append_buf (ntake (wcap - wpos s1) d) s1))
           P Ke Kc).
  intros s1. apply (fproc_append (ntake (wcap - wpos s1) d)), IH.
Qed.

Lemma fproc_fsend_data d s : fproc s (send_data nbuf wcap d s) (fsend_data nbuf wcap fl lag d s).
Proof.
  destruct (put_flags 4 (be 4 (nlen d)) s) as (Ke & Kc).
  exact (fproc_bind s _ _ _ _ (fproc_fput 4 _ s) Ke Kc (fproc_fdata_loop (length d) d)).
Qed.

Lemma fproc_fsizes_loop : forall l s,
  fproc s (fold_left (fun s v => send_u32 nbuf wcap v s) l s) (fsizes_loop nbuf wcap fl lag l s).
Proof.
  induction l as [|v l IH]; intros s; [apply fproc_ret; auto|].
  destruct (put_flags 4 (be 4 (u32_of_Z v)) s) as (Ke & Kc).
  exact (fproc_bind s _ _ _ _ (fproc_fput 4 _ s) Ke Kc IH).
Qed.

Lemma fproc_fsend_sizes l s : fproc s (send_sizes nbuf wcap l s) (fsend_sizes nbuf wcap fl lag l s).
Proof.
  destruct (put_flags 4 (be 4 (nlen l)) s) as (Ke & Kc).
  exact (fproc_bind s _ _ _ _ (fproc_fput 4 _ s) Ke Kc (fproc_fsizes_loop l)).
Qed.

Lemma fstep_open s o : s_closed s = false -> s_err s = false ->
  fstep' s o = match o with
               | OByte b => fput' 1 (be 1 b) s
               | OU16 v => fput' 2 (be 2 (u32_of_Z v)) s
               | OU32 v => fput' 4 (be 4 (u32_of_Z v)) s
               | OData d | OString d => fsend_data nbuf wcap fl lag d s
               | OLabel l => fput' 16 (be 16 l) s
               | OSizes l => fsend_sizes nbuf wcap fl lag l s
               | OFlush => fflush' s
               | OClose => fclose nbuf fl lag s
               | ORaw n bs => fput' n bs s
               end.
Proof. intros Hc He. unfold fstep. rewrite Hc, He. destruct o; reflexivity. Qed.

Lemma fstep_shut s o : s_closed s || s_err s = true -> fstep' s o = (set_err s, false).
Proof. intros H. unfold fstep. now rewrite H. Qed.

Lemma fproc_op s o : o <> OClose -> s_closed s = false -> s_err s = false ->
  fproc s (step nbuf wcap s o) (fstep' s o).
Proof.
  intros Ho Hc He. rewrite step_open, fstep_open by assumption. destruct o.
  - apply fproc_fput.
  - apply fproc_fput.
  - apply fproc_fput.
  - apply fproc_fsend_data.
  - apply fproc_fsend_data.
  - apply fproc_fput.
  - apply fproc_fsend_sizes.
  - apply fproc_fflush.
  - contradiction.
  - apply fproc_fput.
Qed.

Lemma Failed_fstep s o : Failed s -> Failed (fst (fstep' s o)).
Proof.
  intros F. destruct (s_err s) eqn:He; [rewrite fstep_shut by (rewrite He; apply orb_true_r); exact F|].
  pose proof (proj2 (proj2 F)) as Hc.
  destruct (op_eq_close o) as [->|Ho].
  - rewrite fstep_open by assumption. unfold fclose. destruct (Failed_fflush s F) as (s1 & -> & F1 & _). exact F1.
  - apply (fp_failed _ _ _ (fproc_op s o Ho Hc He) F).
Qed.

Lemma Failed_flush_close s o : Failed s -> s_err s = false -> o = OFlush \/ o = OClose -> snd (fstep' s o) = true.
Proof.
  intros F He Ho. rewrite fstep_open by (apply F || exact He).
  destruct (Failed_fflush s F) as (s1 & H1 & _).
  destruct Ho as [->| ->]; [|unfold fclose]; rewrite H1; reflexivity.
Qed.

Lemma fstep_ok s o s1 : fstep' s o = (s1, false) -> s1 = step nbuf wcap s o.
Proof.
  destruct (s_closed s || s_err s) eqn:Hce.
  { unfold step. rewrite fstep_shut, Hce by exact Hce. congruence. }
  apply orb_false_iff in Hce. destruct Hce as (Hc & He).
  destruct (op_eq_close o) as [->|Ho].
  - rewrite fstep_open, step_open by assumption. unfold fclose, close_conn.
    destruct (fflush' s) as [s2 [|]] eqn:E; [congruence|]. rewrite (fflush_ok s s2 E). congruence.
  - apply (fp_ok _ _ _ (fproc_op s o Ho Hc He)).
Qed.

(* as long as no call returns the error the sender is the fault-free sender of Conn.v *)
Theorem werr_until_reported : forall ops s, anyb (snd (frun' s ops)) = false ->
  fst (frun' s ops) = fold_left (step nbuf wcap) ops s.
Proof.
  induction ops as [|o ops IH]; intros s H; cbn [frun fold_left] in *; [reflexivity|].
  destruct (fstep' s o) as [s1 e] eqn:Es. specialize (IH s1).
  destruct (frun' s1 ops) as [s2 es]. cbn [fst snd] in *. unfold anyb in *. cbn in H.
  apply orb_false_iff in H. destruct H as (-> & H). rewrite <- (fstep_ok s o s1 Es). apply IH, H.
Qed.

(* where an error comes from: out of a Flush, or from Close's look at c.writerErr after the
   writer has finished *)
Lemma fstep_error s o s1 : fstep' s o = (s1, true) ->
  s_err s = false /\
  ((exists s0, s_err s0 = false /\ fflush' s0 = (s1, true)) \/
   (s1 = close_conn nbuf s /\ any_fail fl (attempts s1) = true)).
Proof.
  destruct (s_closed s || s_err s) eqn:Hce; [rewrite fstep_shut by exact Hce; discriminate|].
  apply orb_false_iff in Hce. destruct Hce as (Hc & He). intros H. split; [exact He|].
  destruct (op_eq_close o) as [->|Ho].
  - rewrite fstep_open in H by assumption. unfold fclose in H. destruct (fflush' s) as [s2 [|]] eqn:Ef.
    + injection H as <-. left. now exists s.
    + injection H as <- Ha. rewrite (fflush_ok s s2 Ef) in *. right. split; [reflexivity|exact Ha].
  - destruct (fp_err _ _ _ (fproc_op s o Ho Hc He) s1 H) as (s0 & He0 & _ & H0).
    left. exists s0. split; [congruence|exact H0].
Qed.

Lemma accepted_all : forall cs i, (forall j, (j < i + length cs)%nat -> failing fl j = false) ->
  accepted_from fl i cs = cs.
Proof.
  induction cs as [|c cs IH]; intros i H; cbn [accepted_from]; [reflexivity|].
  rewrite IH by (intros j Hj; apply H; cbn [length]; lia).
  unfold accepted. specialize (H i ltac:(cbn [length]; lia)). unfold failing in H. destruct (fl i); [discriminate|reflexivity].
Qed.

Lemma any_fail_false n : any_fail fl n = false -> forall j, (j < n)%nat -> failing fl j = false.
Proof.
  induction n as [|n IH]; intros H j Hj; [lia|]. cbn in H. apply orb_false_iff in H. destruct H as (H1 & H2).
  destruct (Nat.eq_dec j n) as [->|]; [exact H2|apply IH; [exact H1|lia]].
Qed.

(* Close returned nil: none of the Writes failed, and the transport accepted every chunk whole *)
Lemma fclose_nil s s1 : fclose nbuf fl lag s = (s1, false) ->
  s1 = close_conn nbuf s /\ any_fail fl (attempts s1) = false /\ wire_accepted fl s1 = wire_bytes s1.
Proof.
  unfold fclose, close_conn. destruct (fflush' s) as [s2 [|]] eqn:E; [congruence|].
  intros H. injection H as <- Ha. rewrite (fflush_ok s s2 E) in *. split; [reflexivity|]. split; [exact Ha|].
  unfold wire_accepted, wire_bytes. f_equal. apply accepted_all. intros j Hj. apply (any_fail_false _ Ha).
  unfold attempts, wire_chunks in *. rewrite map_length in Hj. cbn [s_chunks] in *. lia.
Qed.

(* a Close that returned nil, inside the modelled domain *)
Lemma fstep_close_nil s s1 : fstep' s OClose = (s1, false) -> s_err s1 = false ->
  any_fail fl (attempts s1) = false /\ wire_accepted fl s1 = wire_bytes s1.
Proof.
  intros H He1. destruct (s_closed s || s_err s) eqn:Hce.
  - rewrite fstep_shut in H by exact Hce. injection H as <-. discriminate He1.
  - apply orb_false_iff in Hce. rewrite fstep_open in H by apply Hce. apply (fclose_nil s s1 H).
Qed.

Lemma frun_app : forall a b s,
  frun' s (a ++ b) = let '(s1, e1) := frun' s a in let '(s2, e2) := frun' s1 b in (s2, e1 ++ e2).
Proof.
  induction a as [|o a IH]; intros b s; cbn [app frun].
  - destruct (frun' s b); reflexivity.
  - destruct (fstep' s o) as [s1 e]. rewrite IH. destruct (frun' s1 a) as [s2 es]. destruct (frun' s2 b). reflexivity.
Qed.

(* an op that returns the error leaves the failed state, unless it is a Close that got past its Flush *)
Lemma fstep_error_Failed s o s1 : fstep' s o = (s1, true) -> s_closed s1 = false -> Failed s1 /\ s_err s1 = false.
Proof.
  intros H Hc1. destruct (fstep_error s o s1 H) as (_ & [(s0 & He0 & H0)|(-> & _)]); [|discriminate Hc1].
  destruct (fflush_cases s0) as [(H1 & _)|(s2 & H1 & _ & _ & _ & _ & Hcl & _)]; [congruence|].
  assert (s2 = s1) as -> by congruence.
  destruct (fflush_err_Failed s0 s1) as (F & He1); [congruence|exact H0|]. split; congruence.
Qed.

(* then SendData's loop does not run out of fuel, the only way s_err gets set on an open Conn *)
Hypothesis wcap_pos : 0 < wcap.

Lemma fstep_err s o : s_closed s = false -> s_err s = false -> s_err (fst (fstep' s o)) = false.
Proof.
  intros Hc He. destruct (fstep' s o) as [s1 [|]] eqn:Es; cbn [fst].
  - destruct (fstep_error s o s1 Es) as (_ & [(s0 & He0 & H0)|(-> & _)]).
    + destruct (fflush_cases s0) as [(H1 & _)|(s2 & H1 & _ & _ & _ & _ & _ & He2 & _)]; congruence.
    + cbn. now rewrite flush_err.
  - rewrite (fstep_ok s o s1 Es). apply (step_produced nbuf wcap wcap_pos s o Hc He).
Qed.

(* STICKY, functional model: once a call has returned the error (and the Conn is still
   open), every later Flush and every later Close returns it, whatever is called in between *)
Theorem werr_sticky : forall ops s o s1, fstep' s o = (s1, true) -> s_closed s1 = false ->
  Forall2 (fun o st => o = OFlush \/ o = OClose -> st = true) ops (snd (frun' s1 ops)).
Proof.
  intros ops s o s1 H Hc. destruct (fstep_error_Failed s o s1 H Hc) as (F & He). clear H s o.
  revert s1 Hc F He. induction ops as [|o ops IH]; intros s Hc F He; cbn [frun]; [constructor|].
  pose proof (Failed_fstep s o F) as F1. pose proof (Failed_flush_close s o F He) as Hst.
  pose proof (fstep_err s o Hc He) as He1.
  destruct (fstep' s o) as [s1 e] eqn:Es. cbn [fst snd] in *.
  specialize (IH s1 (proj2 (proj2 F1)) F1 He1).
  destruct (frun' s1 ops) as [s2 es]. cbn [snd] in *. constructor; [exact Hst|exact IH].
Qed.

End FaultSenderProofs.

(* no fault: the fault model IS the sender of Conn.v, every call returns nil *)
Theorem werr_conservative nbuf wcap lag ops :
  frun nbuf wcap (fun _ => None) lag s_init ops = (run_sender nbuf wcap ops, map (fun _ => false) ops).
Proof.
  assert (Ha : forall n, any_fail (fun _ => None) n = false) by (induction n as [|n IH]; cbn; [reflexivity|now rewrite IH]).
  assert (Hf : forall s, fflush nbuf (fun _ => None) lag s = (flush_buf nbuf s, false)).
  { intros s. unfold fflush, flush_buf, err_seen. rewrite Ha. destruct (0 <? wpos s); reflexivity. }
  assert (Hst : forall s o, fstep nbuf wcap (fun _ => None) lag s o = (step nbuf wcap s o, false)).
  { intros s o. destruct (fstep nbuf wcap (fun _ => None) lag s o) as [s1 [|]] eqn:Es.
    - destruct (fstep_error _ _ _ _ s o s1 Es) as (_ & [(s0 & _ & H0)|(_ & H0)]); congruence.
    - now rewrite (fstep_ok _ _ _ _ s o s1 Es). }
  unfold run_sender. generalize s_init. induction ops as [|o ops IH]; intros s; cbn [frun fold_left map]; [reflexivity|].
  rewrite Hst, IH. reflexivity.
Qed.

(* a script all of whose calls returned nil and whose last call is Close: the transport
   accepted exactly the concatenation of the encodings of the values (Close returning nil
   means everything was delivered) *)
Theorem werr_close_nil_delivers nbuf wcap fl lag ops : 0 < wcap -> close_only_last (ops ++ [OClose]) ->
  anyb (snd (frun nbuf wcap fl lag s_init (ops ++ [OClose]))) = false ->
  let s := fst (frun nbuf wcap fl lag s_init (ops ++ [OClose])) in
  s = run_sender nbuf wcap (ops ++ [OClose]) /\
  wire_accepted fl s = concat (map encode (values_of (ops ++ [OClose]))) /\
  any_fail fl (attempts s) = false.
Proof.
  intros Hw Hcl Hst. cbn zeta.
  pose proof (werr_until_reported nbuf wcap fl lag (ops ++ [OClose]) s_init Hst) as Heq.
  fold (run_sender nbuf wcap (ops ++ [OClose])) in Heq. split; [exact Heq|].
  pose proof (run_no_err nbuf wcap Hw _ Hcl) as Hne. rewrite <- Heq in Hne.
  rewrite frun_app in *. destruct (frun nbuf wcap fl lag s_init ops) as [s1 e1]. cbn [frun] in *.
  destruct (fstep nbuf wcap fl lag s1 OClose) as [s2 e2] eqn:E2. cbn [fst snd] in *.
  rewrite anyb_app in Hst. apply orb_false_iff in Hst. destruct Hst as (_ & H2). cbn in H2. rewrite orb_false_r in H2. subst e2.
  destruct (fstep_close_nil nbuf wcap fl lag s1 s2 E2 Hne) as (Ha & Hacc).
  split; [|exact Ha]. rewrite Hacc, Heq.
  apply (wire_is_concat nbuf wcap Hw _ Hcl). exists ops. right. reflexivity.
Qed.

(* "no byte reaches the transport after a failed Write" is FALSE of the code: with a Write
   that fails once the transport receives the later chunks — a stream with a hole *)
Theorem werr_bytes_after_failed_write :
  exists (fl : nat -> option N) (ops : list op),
    let '(s, st) := frun 3 16 fl 2 s_init ops in
    failing fl 0 = true /\ st = [false; false; false; false] /\
    wire_accepted fl s = [0; 0; 0; 2] /\ concat (map encode (values_of ops)) = [0; 0; 0; 1; 0; 0; 0; 2].
Proof.
  exists (fun i => match i with O => Some 0 | _ => None end), [OU32 1; OFlush; OU32 2; OFlush].
  vm_compute. repeat split.
Qed.

(* non-vacuity: a script whose Write 0 fails; Flush 0 and 1 return nil, Flush 2, the SendData
   that needs room, Flush and Close return the error; a script without faults closes with nil *)
Example werr_nonvacuous :
  snd (frun 3 16 (fun i => match i with O => Some 1 | _ => None end) 2 s_init
         [OU32 1; OFlush; OU32 2; OFlush; OU32 3; OFlush; OByte 9; OData [1;2;3;4;5;6;7;8;9;10;11;12]; OFlush; OClose])
  = [false; false; false; false; false; true; false; true; true; true] /\
  snd (frun 3 16 (fun _ => None) 2 s_init [OU32 1; OFlush; OClose]) = [false; false; false].
Proof. vm_compute. split; reflexivity. Qed.

Definition mono {A} (p : list N -> option (A * list N)) : Prop :=
  forall s x v rest, p s = Some (v, rest) -> p (s ++ x) = Some (v, rest ++ x).

Lemma mono_ret {A} (a : A) : mono (fun s => Some (a, s)).
Proof. intros s x v rest H. injection H as <- <-. reflexivity. Qed.

Lemma mono_bind {A B} (p : list N -> option (A * list N)) (q : A -> list N -> option (B * list N)) :
  mono p -> (forall a, mono (q a)) ->
  mono (fun s => match p s with Some (a, rest) => q a rest | None => None end).
Proof.
  intros Hp Hq s x v rest. destruct (p s) as [[a r]|] eqn:E; [|discriminate].
  rewrite (Hp _ x _ _ E). apply Hq.
Qed.

Lemma parse_fixed_mono k : mono (parse_fixed k).
Proof.
  intros s x v rest. unfold parse_fixed. destruct (k <=? nlen s) eqn:E; [|discriminate]. apply N.leb_le in E.
  intros H. injection H as <- <-. rewrite nlen_app.
  replace (k <=? nlen s + nlen x) with true by (symmetry; apply N.leb_le; lia).
  rewrite ntake_app_le, ndrop_app_le by lia. reflexivity.
Qed.

Lemma mono_omap {A B} (f : A -> B) p : mono p -> mono (fun s => omap f (p s)).
Proof. intros Hp. apply (mono_bind p (fun a rest => Some (f a, rest)) Hp). intros a. apply mono_ret. Qed.

Lemma parse_num_mono k : mono (parse_num k).
Proof. apply (mono_omap of_be), parse_fixed_mono. Qed.

Lemma parse_data_mono : mono parse_data.
Proof. apply (mono_bind (parse_num 4) parse_fixed); [apply parse_num_mono|apply parse_fixed_mono]. Qed.

Lemma parse_nums_mono : forall count, mono (parse_nums count).
Proof.
  induction count as [|c IH]; [exact (mono_ret [])|].
  apply (mono_bind (parse_num 4) (fun v rest => omap (cons v) (parse_nums c rest))); [apply parse_num_mono|].
  intros v. apply mono_omap, IH.
Qed.

Lemma parse_sizes_mono : mono parse_sizes.
Proof.
  apply (mono_bind (parse_num 4) (fun n => parse_nums (N.to_nat n))); [apply parse_num_mono|].
  intros n. apply parse_nums_mono.
Qed.

Lemma parse_ty_mono t : mono (parse_ty t).
Proof.
  destruct t; apply mono_omap;
    first [apply parse_num_mono | apply parse_data_mono | apply parse_sizes_mono | apply parse_fixed_mono].
Qed.

Lemma parse_all_prefix : forall tys n s vs rest ws rest',
  parse_all (firstn n tys) s = Some (vs, rest) -> parse_all tys s = Some (ws, rest') -> vs = firstn n ws.
Proof.
  induction tys as [|t tys IH]; intros n s vs rest ws rest' H1 H2.
  - rewrite firstn_nil in H1. cbn in *. injection H1 as <- _. injection H2 as <- _. now rewrite firstn_nil.
  - destruct n as [|n]; [cbn in H1; injection H1 as <- _; reflexivity|].
    cbn [firstn parse_all] in *. destruct (parse_ty t s) as [[v s1]|]; [|discriminate].
    destruct (parse_all (firstn n tys) s1) as [[vs1 r1]|] eqn:E1; [|discriminate].
    destruct (parse_all tys s1) as [[ws1 r2]|] eqn:E2; [|discriminate].
    injection H1 as <- _. injection H2 as <- _. cbn [firstn]. f_equal. exact (IH n s1 vs1 r1 ws1 r2 E1 E2).
Qed.

Section ReadFault.
Variable rcap : N.
Hypothesis rcap_min : 16 <= rcap.

(* the typed receives over a transport that stops (with whatever error) where [x] would
   follow: every value returned as a success is the value of the whole stream at that place;
   the failing receive is the first whose value is not complete before the stop, it returns
   the transport's error and nothing else *)
Lemma recv_upto_spec : forall tys r x r' vs e, Forall (ty_fits rcap) tys -> RInv rcap r ->
  recv_upto rcap tys r = (r', vs, e) ->
  RInv rcap r' /\
  exists rest, parse_all (firstn (length vs) tys) (all r) = Some (vs, rest) /\
               parse_all (firstn (length vs) tys) (all r ++ x) = Some (vs, rest ++ x) /\
  (e = None -> length vs = length tys /\ all r' = rest) /\
  (forall e', e = Some e' -> e' = EEOF /\ (length vs < length tys)%nat /\
                             parse_ty (nth (length vs) tys TByte) rest = None).
Proof.
  induction tys as [|t tys IH]; intros r x r' vs e Hfit Hr H; cbn [recv_upto] in H.
  - injection H as <- <- <-. split; [exact Hr|]. exists (all r). cbn. repeat split; try reflexivity; intros; discriminate.
  - inversion Hfit as [|? ? Hft Hfts]; subst.
    destruct (refines_inv _ _ _ _ (recv_ty_refines rcap rcap_min t r Hft Hr)) as (Hi & _ & [(v & E & Ep)|(E & Ep)]);
      destruct (recv_ty rcap t r) as [r1 res]; cbn [fst snd] in *; subst res.
    + destruct (recv_upto rcap tys r1) as [[r2 vs2] e2] eqn:E2. injection H as <- <- <-.
      destruct (IH r1 x r2 vs2 e2 Hfts Hi E2) as (Hi2 & rest & P1 & P2 & Hn & He).
      split; [exact Hi2|]. exists rest. cbn [length firstn parse_all nth].
      rewrite Ep, P1, (parse_ty_mono _ _ x _ _ Ep), P2. split; [reflexivity|]. split; [reflexivity|]. split.
      * intros H. destruct (Hn H) as (Hl & Ha). split; [lia|exact Ha].
      * intros e' H. destruct (He e' H) as (A & B & C). split; [exact A|]. split; [lia|exact C].
    + injection H as <- <- <-. split; [exact Hi|]. exists (all r). cbn [length firstn parse_all nth].
      split; [reflexivity|]. split; [reflexivity|]. split; [discriminate|].
      intros e' H. injection H as <-. split; [reflexivity|]. split; [lia|exact Ep].
Qed.

Theorem rfault_no_partial_value : forall tys stream frags eofdata p r' vs e, Forall (ty_fits rcap) tys ->
  recv_upto rcap tys (r_init (cut_transport p stream frags eofdata)) = (r', vs, e) ->
  (exists rest, parse_all (firstn (length vs) tys) stream = Some (vs, rest)) /\
  (e = None -> length vs = length tys) /\
  (forall e', e = Some e' -> e' = EEOF /\ (length vs < length tys)%nat /\
     exists rest', parse_all (firstn (length vs) tys) (t_stream (cut_transport p stream frags eofdata)) = Some (vs, rest') /\
                   parse_ty (nth (length vs) tys TByte) rest' = None).
Proof.
  intros tys stream frags eofdata p r' vs e Hfit H.
  set (t := cut_transport p stream frags eofdata) in *.
  set (x := match p with Some n => ndrop n stream | None => [] end).
  assert (Hx : all (r_init t) ++ x = stream).
  { unfold all, t, cut_transport, x. cbn. destruct p; [apply ntake_ndrop|apply app_nil_r]. }
  destruct (recv_upto_spec tys (r_init t) x r' vs e Hfit (RInv_init rcap t) H) as (_ & rest & P1 & P2 & Hn & He).
  rewrite Hx in P2. split; [eexists; exact P2|]. split; [intros E; destruct (Hn E); assumption|].
  intros e' E. destruct (He e' E) as (A & B & C). repeat split; try assumption.
  exists rest. split; [|exact C]. unfold all in P1. cbn in P1. exact P1.
Qed.

End ReadFault.

(* with the sender: the stream of any script in the domain, cut ANYWHERE by a failing
   transport and received by the matching typed receives: what is received is a prefix of
   the values sent; the receive that fails returns the transport's error *)
Theorem rfault_roundtrip_prefix nbuf wcap rcap ops frags eofdata p r' vs e :
  16 <= wcap -> 16 <= rcap ->
  close_only_last ops -> ends_flushed ops -> Forall op_in_domain ops ->
  Forall (ty_fits rcap) (types_of ops) ->
  recv_upto rcap (types_of ops)
    (r_init (cut_transport p (wire_bytes (run_sender nbuf wcap ops)) frags eofdata)) = (r', vs, e) ->
  vs = firstn (length vs) (values_of ops) /\
  (e = None -> vs = values_of ops) /\
  (forall e', e = Some e' -> e' = EEOF /\ (length vs < length (values_of ops))%nat).
Proof.
  intros Hw Hr Hc Hf Hd Hfit H.
  assert (Hw0 : 0 < wcap) by lia.
  pose proof (wire_is_concat nbuf wcap Hw0 ops Hc Hf) as Hwire.
  destruct (rfault_no_partial_value rcap Hr _ _ _ _ _ _ _ _ Hfit H) as ((rest & P) & Hn & He).
  assert (Hall : parse_all (types_of ops) (wire_bytes (run_sender nbuf wcap ops)) = Some (values_of ops, []))
    by (rewrite Hwire; apply parse_all_values, Hd).
  pose proof (parse_all_prefix _ _ _ _ _ _ _ P Hall) as Hpre.
  assert (Hlen : length (types_of ops) = length (values_of ops)) by (unfold types_of; apply map_length).
  split; [exact Hpre|]. split.
  - intros E. specialize (Hn E). rewrite Hpre, Hn, Hlen. apply firstn_all.
  - intros e' E. destruct (He e' E) as (A & B & _). split; [exact A|lia].
Qed.

Example rfault_nonvacuous :
  recv_upto 16 [TU32; TData; TByte]
    (r_init (cut_transport (Some 9) (be 4 7 ++ (be 4 3 ++ [1; 2; 3]) ++ [5]) [2; 3] true)) =
  (mkR 0 0 [] 9 (mkT [] [] true 3), [VU32 7], Some EEOF).
Proof. vm_compute. reflexivity. Qed.
