(* StreamProof.v — C05, the parts below the whole-run simulation
   (StreamGcProof.v): the gate and argument wire formats round-trip; one
   circuit streamed on the persistent store computes eval_plain and changes no
   other wire; one streamed gate at the label level; and two unsound variants
   of Program.GC refuted by executable witnesses (finding F3, the shared
   visited set). *)
From Coq Require Import NArith ZArith List Bool Lia FMapPositive.
From Mpc Require Circuit.GarbleProof.
From Mpc Require Import Circuit.ComputeIOProof.
From Mpc Require Import Base.ListFacts Base.Label Base.Codec Base.CodecProof Circuit.Circuit Circuit.Garble
     Lang.Gc Proto.Stream.
Import ListNotations.
Local Open Scope nat_scope.

Lemma take_app k (a b : list N) : length a = k -> take k (a ++ b) = Some (a, b).
Proof.
  intros H. unfold take. rewrite app_length.
  destruct (length a + length b <? k) eqn:E.
  - apply Nat.ltb_lt in E. lia.
  - rewrite firstn_app_exact, skipn_app_exact by exact H. reflexivity.
Qed.

Lemma recv_int_be k x rest : (x < 256 ^ N.of_nat k)%N -> recv_int k (be k x ++ rest) = Some (x, rest).
Proof.
  intros H. unfold recv_int. rewrite take_app by apply be_length.
  rewrite of_be_be, N.mod_small by exact H. reflexivity.
Qed.

Lemma recv_labels_be rows rest :
  Forall (fun r => (r < 2 ^ 128)%N) rows ->
  recv_labels (length rows) (concat (map (be 16) rows) ++ rest) = Some (rows, rest).
Proof.
  induction 1 as [|r rows Hr _ IH]; [reflexivity|].
  cbn [length map concat recv_labels].
  rewrite <- app_assoc, recv_int_be by (exact Hr). rewrite IH. reflexivity.
Qed.

Lemma flags_roundtrip o aT bT cT w :
  let b := (op_code o + b2n aT 128 + b2n bT 64 + b2n cT 32 + b2n w 16)%N in
  N.testbit b 7 = aT /\ N.testbit b 6 = bT /\ N.testbit b 5 = cT /\ N.testbit b 4 = w /\
  op_of_code (N.land b 15) = Some o.
Proof. destruct o, aT, bT, cT, w; vm_compute; repeat split. Qed.

Lemma lt_2_32_256 x : (x < 2 ^ 32)%N -> (x < 256 ^ N.of_nat 4)%N.
Proof. intros H. exact H. Qed.

(* the second wire index is sent unless the gate is INV; the receiver then takes 0 *)
Lemma recv_second o w b (tl : list N) : (b < 256 ^ N.of_nat w)%N -> (o = INV -> b = 0%N) ->
  match o with
  | INV => Some (0%N, tl)
  | _ => recv_int w (be w b ++ tl)
  end = Some (b, tl).
Proof.
  intros Hb Hi. destruct o; rewrite ?recv_int_be by exact Hb; try reflexivity. rewrite (Hi eq_refl). reflexivity.
Qed.

Theorem gate_codec g rest :
  sgate_ok g -> decode_gate (encode_gate g ++ rest) = Some (g, rest).
Proof.
  intros (Ha & Hb & Hc & Hlen & Hrows & Hinv).
  destruct g as [o aT bT cT a b c rows]. cbn [sa sb sc sop srows] in *.
  set (sh := short_ids (mkSgate o aT bT cT a b c rows)).
  destruct (flags_roundtrip o aT bT cT sh) as (F7 & F6 & F5 & F4 & Fo).
  assert (Hw : forall x, (x < 2 ^ 32)%N -> (sh = true -> (x <=? 65535)%N = true) ->
            (x < 256 ^ N.of_nat (if sh then 2 else 4))%N).
  { intros x Hx Hs. destruct sh; [|exact Hx].
    specialize (Hs eq_refl). apply N.leb_le in Hs. change (256 ^ N.of_nat 2)%N with 65536%N. lia. }
  assert (Hs : sh = true -> ((a <=? 65535) = true /\ (b <=? 65535) = true /\ (c <=? 65535) = true)%N).
  { unfold sh, short_ids. cbn [sa sb sc]. rewrite !andb_true_iff. tauto. }
  pose proof (Hw a Ha (fun H => proj1 (Hs H))) as Wa.
  pose proof (Hw b Hb (fun H => proj1 (proj2 (Hs H)))) as Wb.
  pose proof (Hw c Hc (fun H => proj2 (proj2 (Hs H)))) as Wc.
  unfold encode_gate, decode_gate, op_byte. cbn [sa sb sc sop srows saT sbT scT app]. fold sh.
  rewrite F7, F6, F5, F4, Fo, <- Hlen.
  clear Hw Hs Ha Hb Hc F7 F6 F5 F4 Fo.
  set (w := if sh then 2 else 4) in *. clearbody w.
  (* the first index is received before the operator matters *)
  replace ((match o with INV => be w a ++ be w c | _ => be w a ++ be w b ++ be w c end
            ++ concat (map (be 16) rows)) ++ rest)
    with (be w a ++ match o with INV => be w c ++ concat (map (be 16) rows) ++ rest
                              | _ => be w b ++ be w c ++ concat (map (be 16) rows) ++ rest end)
    by (destruct o; rewrite <- !app_assoc; reflexivity).
  rewrite recv_int_be by exact Wa.
  replace (match o with INV => Some (0%N, _) | _ => recv_int w _ end)
    with (Some (b, be w c ++ concat (map (be 16) rows) ++ rest)).
  2:{ symmetry. destruct o; try exact (recv_second _ w b _ Wb Hinv). }
  rewrite recv_int_be by exact Wc. rewrite recv_labels_be by exact Hrows. reflexivity.
Qed.

Lemma gates_codec gs rest :
  Forall sgate_ok gs ->
  decode_gates (length gs) (concat (map encode_gate gs) ++ rest) = Some (gs, rest).
Proof.
  induction 1 as [|g gs Hg _ IH]; [reflexivity|].
  cbn [length map concat decode_gates].
  rewrite <- app_assoc, gate_codec by exact Hg. rewrite IH. reflexivity.
Qed.

(* non-vacuity: both id widths, with and without a second wire index *)
Example gate_codec_ex16 :
  decode_gate (encode_gate (mkSgate AND true false true 7 65535 9 [1; 2]%N)) =
  Some (mkSgate AND true false true 7 65535 9 [1; 2]%N, []).
Proof. vm_compute. reflexivity. Qed.
Example gate_codec_ex32 :
  decode_gate (encode_gate (mkSgate INV false false false 65536 0 4294967295 [5]%N)) =
  Some (mkSgate INV false false false 65536 0 4294967295 [5]%N, []).
Proof. vm_compute. reflexivity. Qed.

(** * Program.GC before d266b2f/f274b03 ([gc_old]) does not guarantee no_premature_reuse

   Witness (the shape of finding F3 with 1-bit values):
     b := mov a ; c := mov b ; t := a xor x ; u := t xnor x ; r := c xor u ; ret r
   Program.GC frees a after its last direct use (t := a xor x): the only
   recorded alias of a is b, which is dead; c — an alias of the alias b — is
   still going to be read.  u then receives a's recycled wire id, and
   c's id list still points at it. *)
Definition wv (id : N) : val := mkVal id false 1 false 0.
Definition xor_c : ccirc := mkCcirc (mkCircuit 3 2 1 [mkGate 0 1 2 XOR]) [] [].
Definition xnor_c : ccirc := mkCcirc (mkCircuit 3 2 1 [mkGate 0 1 2 XNOR]) [] [].
(* values: a=0 x=1 b=2 c=3 t=4 u=5 r=6 ; {zero}=100 {one}=101 *)
Definition wit_prog : sprog := mkSprog [(0%N, 1); (1%N, 1)] 100 101 [] [xor_c; xnor_c] [1].
Definition wit_steps : list instr :=
  [ mkInstr OMov [wv 0] (Some (wv 2)) [] None 0;
    mkInstr OMov [wv 2] (Some (wv 3)) [] None 0;
    mkInstr OGen [wv 0; wv 1] (Some (wv 4)) [] None 0;
    mkInstr OGen [wv 4; wv 1] (Some (wv 5)) [] None 1;
    mkInstr OGen [wv 3; wv 5] (Some (wv 6)) [] None 0;
    mkInstr ORet [wv 6] None [] None 0 ].

(* a chain of direct aliases only: c := mov a instead of mov b *)
Definition wit_steps_1level : list instr :=
  [ mkInstr OMov [wv 0] (Some (wv 2)) [] None 0;
    mkInstr OMov [wv 0] (Some (wv 3)) [] None 0;
    mkInstr OGen [wv 0; wv 1] (Some (wv 4)) [] None 0;
    mkInstr OGen [wv 4; wv 1] (Some (wv 5)) [] None 1;
    mkInstr OGen [wv 3; wv 5] (Some (wv 6)) [] None 0;
    mkInstr ORet [wv 6] None [] None 0 ].

Definition gc_sound_statement (gcf : list instr -> option (list instr)) : Prop :=
  forall (p : sprog) (steps g : list instr),
    wf_ssa (map fst (sp_args p)) steps = true -> gcf steps = Some g ->
    no_premature_reuse p g = true.

Lemma gc_sound_refuted_witness :
  wf_ssa (map fst (sp_args wit_prog)) wit_steps = true /\
  exists g, gc_old wit_steps = Some g /\
    no_premature_reuse wit_prog g = false /\
    (* and the values differ: inputs a = 0, x = 0 give 1 on fresh wires, 0 streamed *)
    ssa_eval wit_prog wit_steps [false; false] = Some [true] /\
    stream_eval wit_prog g [false; false] = Some [false].
Proof.
  split; [vm_compute; reflexivity|].
  eexists. split; [vm_compute; reflexivity|].
  split; [vm_compute; reflexivity|].
  split; vm_compute; reflexivity.
Qed.

Theorem gc_sound_refuted : ~ gc_sound_statement gc_old.
Proof.
  intros H. destruct gc_sound_refuted_witness as (Hwf & g & Hg & Hn & _).
  specialize (H wit_prog wit_steps g Hwf Hg). rewrite Hn in H. discriminate.
Qed.

(* the same program is fine with [gc_fixed], and the one-level variant is fine
   with [gc_old]: the refutation is about alias chains, not about the witness
   being ill-formed *)
Example gc_fixed_on_witness :
  exists g, gc_fixed wit_steps = Some g /\ no_premature_reuse wit_prog g = true /\
    stream_eval wit_prog g [false; false] = ssa_eval wit_prog wit_steps [false; false].
Proof. eexists. split; [vm_compute; reflexivity|]. split; vm_compute; reflexivity. Qed.

Example gc_old_on_1level :
  exists g, gc_old wit_steps_1level = Some g /\ no_premature_reuse wit_prog g = true /\
    stream_eval wit_prog g [false; false] = ssa_eval wit_prog wit_steps_1level [false; false].
Proof. eexists. split; [vm_compute; reflexivity|]. split; vm_compute; reflexivity. Qed.

(** * One streamed circuit at the value level = plain evaluation

   The circuit is walked gate by gate on the persistent store through the
   in/out indirection (Streaming.Get/Set) and the tmp array.  If the ids the
   circuit writes (outs) are pairwise distinct and none of them is among the
   ids it reads (ins) — which is what no_premature_reuse provides — the
   values left on outs are eval_plain of the values found on ins, and no
   other global wire changes.  Stale content of tmp and of the outs wires
   (recycled ids) is irrelevant: a well-formed circuit assigns before it
   reads. *)

Lemma key_of_inj a b : key_of a = key_of b -> a = b.
Proof.
  unfold key_of. intros H. rewrite <- (N.pos_pred_succ a), <- (N.pos_pred_succ b), H. reflexivity.
Qed.

Lemma sfind_sadd_eq {T} (d : T) m id x : sfind d (sadd m id x) id = x.
Proof. unfold sfind, sadd. rewrite PositiveMap.gss. reflexivity. Qed.

Lemma sfind_sadd_neq {T} (d : T) m id id' x : id <> id' -> sfind d (sadd m id x) id' = sfind d m id'.
Proof.
  intros H. unfold sfind, sadd. rewrite PositiveMap.gso; [reflexivity|].
  intros E. apply H. symmetry. apply key_of_inj. exact E.
Qed.

Section CircSim.
  Variable c : circuit.
  Variables ins outs : list N.
  Hypothesis Hni : length ins = ninputs c.
  Hypothesis Hno : length outs = noutputs c.
  Hypothesis Hnd : NoDup outs.
  Hypothesis Hdisj : forall o, In o outs -> ~ In o ins.
  Hypothesis Hwfc : wf c = true.
  Hypothesis Hsep : ninputs c + noutputs c <= nwires c.

  Let n := nwires c.
  Let ft := length ins.
  Let fo := nwires c - length outs.

  Definition rd (cs : cstate bool) (w : nat) : bool :=
    fst (fst (sget bool false ins outs ft fo cs w)).

  Definition agree (asg ws : list bool) (cs : cstate bool) : Prop :=
    forall w, w < n -> nth w asg false = true -> rd cs w = nth w ws false.

  Definition frame (cs cs' : cstate bool) : Prop :=
    forall id, ~ In id outs -> sfind false (cs_wires cs') id = sfind false (cs_wires cs) id.

  (* Where wire w of the circuit lives during the walk: under a global id
     (inl: input and output wires) or in the tmp array (inr).  Streaming.Get
     and Set read and write that place. *)
  Definition loc (w : nat) : N + N :=
    if w <? ft then inl (nth w ins 0%N)
    else if fo <=? w then inl (nth (w - fo) outs 0%N) else inr (N.of_nat w).

  Definition rdl (cs : cstate bool) (l : N + N) : bool :=
    match l with inl i => sfind false (cs_wires cs) i | inr t => sfind false (cs_tmp cs) t end.

  Definition wrl (cs : cstate bool) (l : N + N) (v : bool) : cstate bool :=
    match l with
    | inl i => mkCstate (sadd (cs_wires cs) i v) (cs_tmp cs) (cs_tmplen cs)
    | inr t => mkCstate (cs_wires cs) (sadd (cs_tmp cs) t v) (cs_tmplen cs)
    end.

  Lemma rd_loc cs w : rd cs w = rdl cs (loc w).
  Proof. unfold rd, sget, loc. destruct (w <? ft); [|destruct (fo <=? w)]; reflexivity. Qed.

  Lemma sset_loc cs w v : fst (fst (sset bool ins outs ft fo cs w v)) = wrl cs (loc w) v.
  Proof. unfold sset, loc. destruct (w <? ft); [|destruct (fo <=? w)]; reflexivity. Qed.

  Lemma rdl_wrl_eq cs l v : rdl (wrl cs l v) l = v.
  Proof. destruct l; apply sfind_sadd_eq. Qed.

  Lemma rdl_wrl_neq cs l v l' : l <> l' -> rdl (wrl cs l v) l' = rdl cs l'.
  Proof. intros H. destruct l, l'; cbn; try reflexivity; apply sfind_sadd_neq; congruence. Qed.

  (* a wire that is not an input wire shares its place with no other wire:
     the output ids are pairwise distinct and none of them is an input id *)
  Lemma loc_inj w w' : ft <= w -> w < n -> w' < n -> loc w = loc w' -> w = w'.
  Proof.
    intros Hw Hwn Hw'n. unfold loc.
    destruct (w <? ft) eqn:E1; [apply Nat.ltb_lt in E1; lia|].
    destruct (fo <=? w) eqn:E2; (destruct (w' <? ft) eqn:F1; [|destruct (fo <=? w') eqn:F2]);
      intros E; try discriminate E; injection E as E;
      rewrite ?Nat.leb_le, ?Nat.leb_gt, ?Nat.ltb_lt, ?Nat.ltb_ge in *; unfold fo, n in *.
    - exfalso. apply (Hdisj (nth (w - (nwires c - length outs)) outs 0%N)); [apply nth_In; lia|].
      rewrite E. apply nth_In. exact F1.
    - apply (proj1 (NoDup_nth outs 0%N) Hnd) in E; lia.
    - lia.
  Qed.

  Lemma rd_sset cs w v w' :
    ft <= w -> w < n -> w' < n ->
    let cs' := fst (fst (sset bool ins outs ft fo cs w v)) in
    rd cs' w' = if Nat.eqb w w' then v else rd cs w'.
  Proof.
    intros Hw Hwn Hw'n. cbv zeta. rewrite sset_loc, !rd_loc.
    destruct (Nat.eqb_spec w w') as [<-|Hne]; [apply rdl_wrl_eq | apply rdl_wrl_neq].
    intros E. apply Hne, loc_inj; assumption.
  Qed.

  Lemma frame_sset cs w v : ft <= w -> w < n -> frame cs (fst (fst (sset bool ins outs ft fo cs w v))).
  Proof.
    intros Hw Hwn id Hid. rewrite sset_loc. unfold loc.
    destruct (w <? ft) eqn:E1; [apply Nat.ltb_lt in E1; lia|].
    destruct (fo <=? w) eqn:E2; cbn [wrl cs_wires]; [|reflexivity].
    apply Nat.leb_le in E2. apply sfind_sadd_neq. intros E. apply Hid. rewrite <- E.
    apply nth_In. unfold fo, n in *. lia.
  Qed.

  Lemma sgate_step_cs cs g :
    fst (fst (sgate_step bool false unit bit_gatef ins outs ft fo cs tt g)) =
    fst (fst (sset bool ins outs ft fo cs (gout g)
                (gate_fn (gop g) (rd cs (gin0 g)) (match gop g with INV => false | _ => rd cs (gin1 g) end)))).
  Proof.
    unfold sgate_step, rd, bit_gatef.
    destruct (gop g); destruct (sget bool false ins outs ft fo cs (gin0 g)) as [[a aI] aT];
      try destruct (sget bool false ins outs ft fo cs (gin1 g)) as [[b bI] bT]; cbn [fst];
      destruct (sset bool ins outs ft fo cs (gout g) _) as [[cs1 cI] cT]; reflexivity.
  Qed.

  Lemma gate_step_sim asg ws cs g :
    gate_ok n (ninputs c) asg g = true -> length ws = n -> agree asg ws cs ->
    let cs' := fst (fst (sgate_step bool false unit bit_gatef ins outs ft fo cs tt g)) in
    agree (upd asg (gout g) true) (eval_gate ws g) cs' /\ frame cs cs'.
  Proof.
    intros Hok Hlw Hag. apply GarbleProof.gate_ok_spec in Hok as ((H0 & H2 & H1) & A0 & A1).
    cbv zeta. rewrite sgate_step_cs. rewrite <- Hni in H1. fold ft in H1.
    split; [|apply frame_sset; assumption].
    intros w Hw Hasg. rewrite rd_sset by assumption. unfold eval_gate.
    destruct (Nat.eqb_spec (gout g) w) as [<-|EQ].
    - rewrite nth_upd_eq by (rewrite Hlw; exact H2). rewrite (Hag _ H0 A0).
      destruct A1 as [->|[Hb1 Hb2]]; [reflexivity|]. rewrite (Hag _ Hb1 Hb2). destruct (gop g); reflexivity.
    - rewrite nth_upd_neq in Hasg |- * by exact EQ. apply Hag; assumption.
  Qed.

  Lemma gates_sim : forall gs asg ws cs (st : unit),
    wf_gates n (ninputs c) asg gs = true -> length ws = n -> agree asg ws cs ->
    let cs' := fst (fst (sgates bool false unit bit_gatef ins outs ft fo cs st gs)) in
    agree (final_asg asg gs) (fold_left eval_gate gs ws) cs' /\ frame cs cs'.
  Proof.
    induction gs as [|g gs IH]; intros asg ws cs st Hwf Hlw Hag.
    - simpl. split; [exact Hag | intros id _; reflexivity].
    - cbn [wf_gates] in Hwf. apply andb_prop in Hwf as [Hg Hrest].
      destruct st.
      pose proof (gate_step_sim asg ws cs g Hg Hlw Hag) as [Hag1 Hfr1].
      cbn [sgates final_asg fold_left].
      destruct (sgate_step bool false unit bit_gatef ins outs ft fo cs tt g) as [[cs1 st1] sg] eqn:E1.
      cbn [fst] in Hag1, Hfr1.
      specialize (IH (upd asg (gout g) true) (eval_gate ws g) cs1 st1 Hrest).
      rewrite eval_gate_length in IH. specialize (IH Hlw Hag1).
      destruct (sgates bool false unit bit_gatef ins outs ft fo cs1 st1 gs) as [[cs2 st2] sgs] eqn:E2.
      cbn [fst] in IH |- *. destruct IH as [IHa IHf].
      split; [exact IHa|]. intros id Hid. rewrite (IHf id Hid). exact (Hfr1 id Hid).
  Qed.

  Theorem stream_sim_circuit (cs : cstate bool) :
    let x := map (sfind false (cs_wires cs)) ins in
    let cs' := fst (fst (garble_circ bool false unit bit_gatef cs tt c ins outs)) in
    map (sfind false (cs_wires cs')) outs = eval_plain c x /\
    (forall id, ~ In id outs -> sfind false (cs_wires cs') id = sfind false (cs_wires cs) id).
  Proof.
    intros x cs'. destruct (proj1 (GarbleProof.wf_spec c) Hwfc) as (Hw1 & _ & Hgs & Hfin).
    set (cs0 := init_circuit bool cs (nwires c)).
    assert (Hw0 : cs_wires cs0 = cs_wires cs) by (unfold cs0, init_circuit; destruct (_ <? _); reflexivity).
    assert (Hinit : agree (init_asg c) (init_wires c x) cs0).
    { intros w Hw' Hasg. unfold init_asg in Hasg.
      assert (Hwi : w < ninputs c) by exact (GarbleProof.nth_init_asg_true _ _ _ Hasg).
      unfold rd, sget. fold ft. rewrite <- Hni in Hwi. fold ft in Hwi.
      apply Nat.ltb_lt in Hwi. rewrite Hwi. cbn [fst]. apply Nat.ltb_lt in Hwi.
      unfold init_wires. rewrite app_nth1.
      2:{ rewrite firstn_length. unfold x. rewrite map_length. unfold ft in Hwi. lia. }
      rewrite nth_firstn_lt by (unfold ft in Hwi; lia).
      unfold x. rewrite Hw0.
      rewrite (nth_indep _ false (sfind false (cs_wires cs) 0%N)) by (rewrite map_length; exact Hwi).
      rewrite map_nth. reflexivity. }
    assert (Hlw : length (init_wires c x) = n).
    { unfold init_wires. rewrite app_length, firstn_length, repeat_length. unfold x. rewrite map_length.
      unfold n. lia. }
    pose proof (gates_sim (gates c) (init_asg c) (init_wires c x) cs0 tt Hgs Hlw Hinit) as [Hag Hfr].
    unfold garble_circ in cs'. fold ft fo cs0 in cs'.
    fold cs' in Hag, Hfr.
    split.
    - unfold eval_plain, output_wires, eval_plain_wires.
      rewrite (map_nth_seq _ 0%N outs), Hno.
      rewrite (map_seq_shift (fun w => nth w (fold_left eval_gate (gates c) (init_wires c x)) false)).
      apply map_ext_in. intros k Hk. apply in_seq in Hk.
      assert (Hwk : nwires c - noutputs c + k < n) by (unfold n; lia).
      assert (Hasg : nth (nwires c - noutputs c + k) (final_asg (init_asg c) (gates c)) false = true).
      { apply Hfin. unfold output_wires. apply in_seq. lia. }
      specialize (Hag _ Hwk Hasg). rewrite <- Hag. unfold rd, sget.
      replace (nwires c - noutputs c + k <? ft) with false
        by (symmetry; apply Nat.ltb_ge; unfold ft; lia).
      replace (fo <=? nwires c - noutputs c + k) with true
        by (symmetry; apply Nat.leb_le; unfold fo; lia).
      cbn [fst]. f_equal. f_equal. unfold fo. lia.
    - intros id Hid. rewrite (Hfr id Hid), Hw0. reflexivity.
  Qed.
End CircSim.

Fixpoint arg_depth (a : ioarg) : nat :=
  match a with
  | IOA _ _ _ comp => S ((fix mx (l : list ioarg) : nat :=
                            match l with [] => 0 | x :: t => Nat.max (arg_depth x) (mx t) end) comp)
  end.

Fixpoint arg_ok (a : ioarg) : Prop :=
  match a with
  | IOA name t bits comp =>
      (N.of_nat (length name) < 2 ^ 32)%N /\ (N.of_nat (length t) < 2 ^ 32)%N /\ (bits < 2 ^ 32)%N /\
      (N.of_nat (length comp) < 2 ^ 32)%N /\
      (fix all (l : list ioarg) : Prop := match l with [] => True | x :: t => arg_ok x /\ all t end) comp
  end.

Lemma recv_u32 x rest : (x < 2 ^ 32)%N -> recv_int 4 (u32 x ++ rest) = Some (x, rest).
Proof. intros H. unfold u32. apply recv_int_be. exact H. Qed.

Lemma recv_send_data bs rest :
  (N.of_nat (length bs) < 2 ^ 32)%N -> recv_data (send_data bs ++ rest) = Some (bs, rest).
Proof.
  intros H. unfold recv_data, send_data. rewrite <- app_assoc, recv_u32 by exact H.
  rewrite Nat2N.id. apply take_app. reflexivity.
Qed.

Theorem io_args_roundtrip : forall fuel a rest,
  arg_depth a <= fuel -> arg_ok a ->
  receive_argument fuel (send_argument a ++ rest) = Some (a, rest).
Proof.
  induction fuel as [|f IH]; intros a rest Hd Hok.
  - destruct a; simpl in Hd; lia.
  - destruct a as [name t bits comp]. cbn [arg_depth] in Hd. cbn [arg_ok] in Hok.
    destruct Hok as (Hn & Ht & Hb & Hc & Hall).
    cbn [receive_argument send_argument].
    repeat rewrite <- app_assoc.
    rewrite recv_send_data by exact Hn. rewrite recv_send_data by exact Ht.
    rewrite recv_u32 by exact Hb. rewrite recv_u32 by exact Hc. rewrite Nat2N.id.
    assert (Hm : forall l r,
              (fix mx (l : list ioarg) : nat :=
                 match l with [] => 0 | x :: t => Nat.max (arg_depth x) (mx t) end) l <= f ->
              (fix all (l : list ioarg) : Prop := match l with [] => True | x :: t => arg_ok x /\ all t end) l ->
              (fix members (k : nat) (bs : list N) {struct k} : option (list ioarg * list N) :=
                 match k with
                 | 0 => Some ([], bs)
                 | S k' =>
                     match receive_argument f bs with
                     | Some (a, bs') =>
                         match members k' bs' with
                         | Some (l, r) => Some (a :: l, r)
                         | None => None
                         end
                     | None => None
                     end
                 end) (length l) (concat (map send_argument l) ++ r) = Some (l, r)).
    { induction l as [|x l IHl]; intros r Hmx Hal; [reflexivity|].
      cbn [length map concat]. rewrite <- app_assoc.
      destruct Hal as [Hx Hl].
      rewrite (IH x _ (Nat.le_trans _ _ _ (Nat.le_max_l _ _) Hmx) Hx).
      rewrite (IHl r (Nat.le_trans _ _ _ (Nat.le_max_r _ _) Hmx) Hl). reflexivity. }
    rewrite (Hm comp rest) by (lia || exact Hall). reflexivity.
Qed.

(** * One streamed gate at the label level: what the evaluator computes from
      the transmitted rows is the label that encodes the plain gate value, and
      both sides advance the (session-wide) tweak counter alike.  The crypto is
      the C01 model's (ggate_concrete + GarbleProof.gate_sim); any block
      function, any tweak. *)
From Mpc Require Import Circuit.GarbleProof Circuit.GGarbleProof.

Theorem stream_gate_labels (pi : N -> N) (r : N) (a b : wire) (va vb : bool) (id : N) (o : op) (x : N) :
  sbit r = true -> wire_ok r a -> (o = INV \/ wire_ok r b) ->
  let '(c, id', rows) := label_gatef pi r a b o id in
  geval_gate pi [pick a va; match o with INV => x | _ => pick b vb end] id (mkGate 0 1 0 o) rows
  = Some (pick c (gate_fn o va vb), id') /\ wire_ok r c.
Proof.
  intros Hr Wa Wb. unfold label_gatef.
  pose proof (ggate_concrete pi r [a; b] id (mkGate 0 1 0 o)) as Hc. cbn [gin0 gin1 gop nth] in Hc.
  rewrite Hc.
  pose proof (gate_sim pi r a b va vb id o 0 1 0 [a; b]
                [pick a va; match o with INV => x | _ => pick b vb end]
                Hr eq_refl eq_refl Wa Wb eq_refl) as G.
  cbv zeta in G.
  destruct (garble_gate pi r [a; b] id (mkGate 0 1 0 o)) as [[c id'] rows].
  apply G. destruct o; (right; reflexivity) || (left; reflexivity).
Qed.

From Mpc Require Import Lang.GcProof.
Lemma ssa_steps_filter circs : forall l st,
  ssa_steps circs l st = ssa_steps circs (filter not_gc l) st.
Proof.
  induction l as [|s l IH]; intros st; [reflexivity|]. cbn [filter].
  destruct (not_gc s) eqn:E.
  - cbn [ssa_steps]. destruct (ssa_step circs s st); [apply IH | reflexivity].
  - cbn [ssa_steps]. unfold not_gc in E. destruct st as [e ret]. unfold ssa_step.
    destruct (iop s); try discriminate. apply IH.
Qed.

Theorem ssa_ignores_gc p concat deep steps g xy :
  forallb not_gc steps = true -> gc_gen concat deep steps = Some g ->
  ssa_eval p g xy = ssa_eval p steps xy.
Proof.
  intros Hn Hg. unfold ssa_eval. rewrite ssa_steps_filter.
  rewrite (gc_only_inserts concat deep steps g Hn Hg). reflexivity.
Qed.

(** * ONE visited set per step in aliasLive ([gc_shared_seen]) is unsound

   Witness (1-bit values): n := concat a b ; l := slice n [0:2] ; q := a xor b ;
   s := q xnor q ; ret l s.  At q := a xor b both a and b are at their last use.
   The query for a succeeds (a -> n -> l, l is live) and leaves a and n marked;
   with a visited set shared by the step's queries the query for b stops at the
   marked n and answers "no live alias": gc b, although l still reads b's wire.
   s then receives b's recycled id. *)
Definition cv (id : N) (c : Z) : val := mkVal id true 32%nat true c.
(* values: a=0 b=1 n=2 l=3 q=4 s=5 ; constants $0=50 $2=51 ; {zero}=100 {one}=101 *)
Definition wit2_prog : sprog := mkSprog [(0%N, 1%nat); (1%N, 1%nat)] 100%N 101%N [] [xor_c; xnor_c] [2%nat; 1%nat].
Definition wit2_steps : list instr :=
  [ mkInstr OConcat [wv 0; wv 1] (Some (mkVal 2%N false 2%nat false 0%Z)) [] None 0%nat;
    mkInstr OSlice [mkVal 2%N false 2%nat false 0%Z; cv 50 0; cv 51 2] (Some (mkVal 3%N false 2%nat false 0%Z)) [] None 0%nat;
    mkInstr OGen [wv 0; wv 1] (Some (wv 4)) [] None 0%nat;
    mkInstr OGen [wv 4; wv 4] (Some (wv 5)) [] None 1%nat;
    mkInstr ORet [mkVal 3%N false 2%nat false 0%Z; wv 5] None [] None 0%nat ].

Lemma gc_shared_seen_refuted_witness :
  wf_prog wit2_prog wit2_steps = true /\
  (exists g, gc_shared_seen wit2_steps = Some g /\
     no_premature_reuse wit2_prog g = false /\
     ssa_eval wit2_prog wit2_steps [false; false] = Some [false; false; true] /\
     stream_eval wit2_prog g [false; false] = Some [false; true; true]) /\
  (* the code as it is (fresh visited set per query) and the model of the theorems agree and are fine *)
  gc_visited wit2_steps = gc_fixed wit2_steps /\
  (exists g, gc_fixed wit2_steps = Some g /\ no_premature_reuse wit2_prog g = true /\
     stream_eval wit2_prog g [false; false] = ssa_eval wit2_prog wit2_steps [false; false]).
Proof.
  split; [vm_compute; reflexivity|]. split.
  - eexists. split; [vm_compute; reflexivity|]. split; [vm_compute; reflexivity|].
    split; vm_compute; reflexivity.
  - split; [vm_compute; reflexivity|]. eexists. split; [vm_compute; reflexivity|]. split; vm_compute; reflexivity.
Qed.

Theorem gc_shared_seen_refuted : ~ (forall p steps g, wf_prog p steps = true -> gc_shared_seen steps = Some g ->
                                      no_premature_reuse p g = true).
Proof.
  intros H. destruct gc_shared_seen_refuted_witness as (Hwf & (g & Hg & Hn & _) & _).
  specialize (H _ _ _ Hwf Hg). rewrite Hn in H. discriminate.
Qed.
