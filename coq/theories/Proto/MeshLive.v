(* MeshLive.v — on the invariant of MeshFixedProof.v: what a disabled thread
   looks like, a measure on states, and the effective steps of a schedule;
   then, for 2 <= n and 1 <= k <= 256: deadlock freedom (a reachable state in
   which no thread is enabled is the complete mesh), every step decreases the
   measure, and termination under every fair schedule. *)
From Coq Require Import List Bool PeanoNat Lia.
From Mpc Require Import Proto.Mesh Proto.MeshProof Proto.MeshFixedProof.
Import ListNotations.

Section Live.
Variables n k : nat.

Notation P st i := (g_party st i).
Notation L st l := (g_link st l).
Notation Reach := (Reach n k).

Lemma main_disabled i st : main_step n k i st = None ->
  match p_main (P st i) with
  | MRecvInfo => exists l, p_conns (P st i) 0 0 = Some l /\ l_info (L st l) = None
  | MWait c => p_need (P st i) c <> 0
  | MDone | MErr _ => True
  | _ => False
  end.
Proof.
  unfold main_step. destruct (p_main (P st i)) eqn:Hm; auto.
  - destruct (i =? 0); [discriminate|]. unfold new_link. cbv beta iota zeta. discriminate.
  - destruct (p_conns (P st i) 0 0); discriminate.
  - destruct (p_conns (P st i) 0 0) as [l|]; [|discriminate].
    destruct (l_info (L st l)) eqn:Hi0; [|intros _; eauto].
    destruct (add_ids _ _ _); discriminate.
  - destruct targets as [|t ts]; [discriminate|].
    destruct (255 <? c); [discriminate|]. destruct (n <=? t); [discriminate|].
    unfold new_link. cbv beta iota zeta. psimpl.
    match goal with |- context [match ?x with Some _ => _ | None => _ end] => destruct x end; discriminate.
  - destruct (p_need (P st i) c =? 0) eqn:Hz.
    + simpl. destruct (negb (p_ldone (P st i))); [destruct ((i =? 0) && (c =? 0))|]; discriminate.
    + intros _. now apply Nat.eqb_neq.
  - destruct (send_infos _ _ _ _); discriminate.
Qed.

Lemma acc_disabled i st : acc_step true k i st = None ->
  match p_acc (P st i) with
  | AOff | ADead _ => True
  | AIdle => p_queue (P st i) = [] \/ exists l q, p_queue (P st i) = l :: q /\ l_hello (L st l) = None
  | _ => False
  end.
Proof.
  unfold acc_step. destruct (p_acc (P st i)) eqn:Ha; auto.
  - destruct (p_queue (P st i)) as [|l q]; [now left|].
    destruct (l_hello (L st l)) as [[c id]|] eqn:Hh; [|intros _; right; eauto].
    destruct (k <=? c); discriminate.
  - destruct (p_need (P st i) c =? 0); [discriminate|]. destruct (add_peer _ _ _ _); discriminate.
  - destruct (add_peer _ _ _ _); discriminate.
Qed.

Lemma quiescent_threads st i : quiescent true n k st = true -> i < n ->
  main_step n k i st = None /\ acc_step true k i st = None.
Proof.
  intros Q Hi. split.
  - rewrite <- (step_main true n k i st Hi). now apply quiescent_step.
  - rewrite <- (step_acc true n k i st Hi). now apply quiescent_step.
Qed.

Lemma filter_all {A} (f : A -> bool) l : (forall x, In x l -> f x = true) -> filter f l = l.
Proof.
  induction l as [|a r IH]; simpl; intros H; [reflexivity|].
  rewrite (H a (or_introl eq_refl)). f_equal. apply IH. intros x Hx. apply H. now right.
Qed.

Lemma full_cnt t i c : full n t i c -> cnt n t i c = E n i.
Proof. intros F. unfold cnt. rewrite <- (aside_len n i). f_equal. now apply filter_all. Qed.

Lemma stored_some t c j : stored t c j = true <-> exists l, t j c = Some l.
Proof. unfold stored. destruct (t j c); split; eauto; try discriminate. intros (l & H). discriminate. Qed.

Definition sumw (f : nat -> nat) : nat := list_sum (map f (seq 0 n)).

Lemma sum_split m : forall f i, i < m ->
  list_sum (map f (seq 0 m)) = f i + list_sum (map (fun x => if x =? i then 0 else f x) (seq 0 m)).
Proof.
  induction m as [|m IH]; intros f i Hi; [lia|].
  rewrite seq_S, !map_app, !list_sum_app. simpl. destruct (Nat.eq_dec i m) as [->|Hne].
  - rewrite Nat.eqb_refl. rewrite (map_ext_in (fun x => if x =? m then 0 else f x) f); [lia|].
    intros x Hx. apply in_seq in Hx. destruct (x =? m) eqn:E; [apply Nat.eqb_eq in E; lia|reflexivity].
  - rewrite (IH f i) by lia. apply Nat.eqb_neq in Hne. rewrite Nat.eqb_sym in Hne. rewrite Hne. lia.
Qed.

Lemma sum_ext m f g : (forall x, x < m -> f x = g x) -> list_sum (map f (seq 0 m)) = list_sum (map g (seq 0 m)).
Proof. intros H. f_equal. apply map_ext_in. intros x Hx. apply in_seq in Hx. apply H. lia. Qed.

Lemma sum_one f g i : i < n -> (forall x, x <> i -> g x = f x) -> g i < f i -> sumw g < sumw f.
Proof.
  intros Hi He Hlt. unfold sumw. rewrite (sum_split n f i Hi), (sum_split n g i Hi).
  rewrite (sum_ext n (fun x => if x =? i then 0 else g x) (fun x => if x =? i then 0 else f x)); [lia|].
  intros x _. destruct (x =? i) eqn:E; [reflexivity|]. apply Nat.eqb_neq in E. now apply He.
Qed.

Lemma sum_two f g i t : i < n -> t < n -> t <> i -> (forall x, x <> i -> x <> t -> g x = f x) ->
  g i + g t < f i + f t -> sumw g < sumw f.
Proof.
  intros Hi Ht Hne He Hlt. unfold sumw. rewrite (sum_split n f i Hi), (sum_split n g i Hi).
  rewrite (sum_split n (fun x => if x =? i then 0 else f x) t Ht), (sum_split n (fun x => if x =? i then 0 else g x) t Ht).
  apply Nat.eqb_neq in Hne. rewrite Hne.
  rewrite (sum_ext n (fun x => if x =? t then 0 else if x =? i then 0 else g x)
                     (fun x => if x =? t then 0 else if x =? i then 0 else f x)); [lia|].
  intros x _. destruct (x =? t) eqn:E1; [reflexivity|]. destruct (x =? i) eqn:E2; [reflexivity|].
  apply Nat.eqb_neq in E1, E2. now apply He.
Qed.

Definition rank (pc : mpc) : nat :=
  match pc with
  | MErr _ => 0
  | MDone => 1
  | MWait c => (k - c) * (n + 3) + 2
  | MInfo => k * (n + 3) + 1
  | MDial c ts => (k - c) * (n + 3) + 3 + length ts
  | MRecvInfo => (k + 1) * (n + 3) + 4
  | MHello => (k + 1) * (n + 3) + 5
  | MStart => (k + 1) * (n + 3) + 6
  end.
Definition abit (a : apc) : nat := match a with ASet _ _ _ | AAdd _ _ _ => 1 | _ => 0 end.
(* a backlog entry weighs 2, the two steps it costs the accept thread (AIdle
   takes it, ASet stores it); a program counter weighs 3, so that a dial, one
   rank down, pays for the entry it puts into the listener's backlog *)
Definition w (p : party) : nat := 3 * rank (p_main p) + 2 * length (p_queue p) + abit (p_acc p).
Definition mu (st : state) : nat := sumw (fun i => w (P st i)).

Lemma mu_set_party st st1 i p' : i < n -> g_party st1 = g_party st ->
  w p' < w (P st i) -> mu (set_party st1 i p') < mu st.
Proof.
  intros Hi Hp Hlt. apply (sum_one _ _ i Hi); psimpl; rewrite Hp; [intros x Hx; now rewrite upd_other | now rewrite upd_same].
Qed.

Lemma add_peer_same p id c l p1 : add_peer p id c l = Some p1 ->
  p_main p1 = p_main p /\ p_queue p1 = p_queue p /\ p_acc p1 = p_acc p.
Proof.
  unfold add_peer. destruct (p_np p <=? id); [discriminate|]. destruct (memb id (p_peers p)).
  - destruct (p_conns p id c); [discriminate|]. intros [= <-]. auto.
  - intros [= <-]. auto.
Qed.

Lemma acc_step_dec i st st' : i < n -> acc_step true k i st = Some st' -> mu st' < mu st.
Proof.
  intros Hi H. unfold acc_step in H. destruct (p_acc (P st i)) eqn:Ha; try discriminate.
  - destruct (p_queue (P st i)) as [|l q] eqn:Hq; [discriminate|].
    destruct (l_hello (L st l)) as [[c id]|]; [|discriminate].
    destruct (k <=? c); injection H as <-; apply (mu_set_party st st i _ Hi eq_refl);
      unfold w; psimpl; rewrite Ha, Hq; simpl; lia.
  - destruct (p_need (P st i) c =? 0).
    { injection H as <-. apply (mu_set_party st st i _ Hi eq_refl). unfold w. psimpl. rewrite Ha. simpl. lia. }
    destruct (add_peer (P st i) id c l) as [p1|] eqn:Hap; injection H as <-;
      apply (mu_set_party st st i _ Hi eq_refl); unfold w; psimpl.
    + destruct (add_peer_same _ _ _ _ _ Hap) as (-> & -> & _). rewrite Ha. simpl. lia.
    + rewrite Ha. simpl. lia.
  - destruct (add_peer (P st i) id c l) as [p1|] eqn:Hap; injection H as <-;
      apply (mu_set_party st st i _ Hi eq_refl); unfold w; psimpl.
    + destruct (add_peer_same _ _ _ _ _ Hap) as (-> & -> & _). rewrite Ha. simpl. lia.
    + rewrite Ha. simpl. lia.
Qed.

Lemma w_enqueue p l : w (set_queue p (p_queue p ++ [l])) = w p + 2.
Proof. unfold w. psimpl. rewrite app_length. simpl. lia. Qed.

(* party i dials t: one more entry in t's backlog, paid for by i *)
Lemma mu_dial st i t h p' : i < n -> t < n -> t <> i ->
  w p' + 2 < w (P st i) -> mu (set_party (fst (new_link st i t h)) i p') < mu st.
Proof.
  intros Hi Ht Hne Hlt. apply (sum_two _ _ i t Hi Ht Hne); unfold new_link; cbn [fst]; psimpl.
  - intros x H1 H2. now rewrite !upd_other.
  - rewrite upd_same, (upd_other _ i t), upd_same, w_enqueue by assumption. lia.
Qed.

Fixpoint eff (st : state) (sched : list nat) : nat :=
  match sched with
  | [] => 0
  | t :: r => match step true n k t st with Some st' => S (eff st' r) | None => eff st r end
  end.

Lemma all_disabled_quiescent st : (forall t, t < 2 * n -> step true n k t st = None) -> quiescent true n k st = true.
Proof.
  intros H. unfold quiescent. apply forallb_forall. intros t Ht. unfold tids in Ht. apply in_seq in Ht.
  unfold enabled. rewrite H by lia. reflexivity.
Qed.

(* every completed round of a fair schedule contains an effective step, as
   long as the run has not come to rest *)
Lemma rounds_le_eff sched : forall st miss (b : bool),
  (b = false -> forall t, t < 2 * n -> ~ In t miss -> step true n k t st = None) ->
  quiescent true n k (run_from true n k st sched) = false ->
  count_rounds_aux (seq 0 (2 * n)) miss sched <= eff st sched + (if b then 1 else 0).
Proof.
  induction sched as [|t r IH]; intros st miss b J Q; simpl; [lia|].
  change (n + (n + 0)) with (2 * n) in *.
  assert (Jall : forall st0, false = false -> forall t0, t0 < 2 * n -> ~ In t0 (seq 0 (2 * n)) -> step true n k t0 st0 = None).
  { intros st0 _ t0 Ht0 Hn0. exfalso. apply Hn0. apply in_seq. lia. }
  unfold run_from in Q. simpl in Q. unfold exec in Q at 2.
  destruct (step true n k t st) as [st'|] eqn:Hs.
  - destruct (filter (fun x => negb (x =? t)) miss) as [|m0 mr] eqn:Hf.
    + pose proof (IH st' (seq 0 (2 * n)) false (Jall st') Q) as HH. cbv iota in HH. destruct b; lia.
    + pose proof (IH st' (m0 :: mr) true ltac:(discriminate) Q) as HH. cbv iota in HH. destruct b; lia.
  - destruct (filter (fun x => negb (x =? t)) miss) as [|m0 mr] eqn:Hf.
    + destruct b.
      * pose proof (IH st (seq 0 (2 * n)) false (Jall st) Q) as HH. cbv iota in HH. lia.
      * exfalso. assert (Qs : quiescent true n k st = true).
        { apply all_disabled_quiescent. intros t0 Ht0. destruct (in_dec Nat.eq_dec t0 miss) as [Hin|Hnin]; [|now apply J].
          destruct (Nat.eq_dec t0 t) as [->|Hne]; [exact Hs|]. exfalso.
          assert (Hin' : In t0 (filter (fun x => negb (x =? t)) miss)).
          { apply filter_In. split; [assumption|]. apply negb_true_iff. now apply Nat.eqb_neq. }
          rewrite Hf in Hin'. destruct Hin'. }
        fold (run_from true n k st r) in Q. rewrite (quiescent_run true n k st r Qs) in Q. congruence.
    + apply (IH st (m0 :: mr) b); [|exact Q]. intros Hb t0 Ht0 Hnin. rewrite <- Hf in Hnin.
      destruct (Nat.eq_dec t0 t) as [->|Hne]; [exact Hs|]. apply (J Hb t0 Ht0). intros Hin. apply Hnin.
      apply filter_In. split; [assumption|]. apply negb_true_iff. now apply Nat.eqb_neq.
Qed.

Lemma sum_bound c : forall m s f, (forall x, f x <= c) -> list_sum (map f (seq s m)) <= m * c.
Proof. induction m as [|m IH]; intros s f H; simpl; [lia|]. pose proof (H s). pose proof (IH (S s) f H). lia. Qed.

Lemma mu_init : mu (init n) < round_bound n k.
Proof.
  unfold mu, sumw, round_bound. apply Nat.lt_succ_r. apply sum_bound.
  intros x. unfold init. psimpl. unfold init_party. destruct (x =? 0); unfold w; psimpl; unfold rank, abit; cbn [length]; lia.
Qed.

Hypothesis Hn : 2 <= n.
Hypothesis Hk : 1 <= k.
Hypothesis Hk256 : k <= 256.

(* When no thread is enabled, the mesh is complete: every Connect has
   returned, every table is complete, and the two ends of every pair agree. *)
Lemma quiescent_complete st : Reach st -> quiescent true n k st = true -> complete n k st = true.
Proof.
  intros R Q. pose proof R as (HI & G). pose proof HI as (HL & HP).
  assert (Mn : forall i, i < n -> main_step n k i st = None) by (intros i Hi; apply (quiescent_threads st i Q Hi)).
  assert (An : forall i, i < n -> acc_step true k i st = None) by (intros i Hi; apply (quiescent_threads st i Q Hi)).
  assert (PM : forall i, i < n -> main_ok n k i (P st i)) by (intros i Hi; apply (pi_main (HP i Hi))).
  unfold main_ok in PM.
  (* every hello has been sent *)
  assert (HelloAll : forall l, l < g_nlinks st -> l_hello (L st l) <> None).
  { intros l Hl Hn0. destruct (g_hello G Hl Hn0) as (_ & B). pose proof (HL l Hl) as (_ & L2 & _).
    pose proof (main_disabled _ _ (Mn _ L2)) as D. rewrite B in D. exact D. }
  (* a started accept thread is idle with an empty backlog *)
  assert (AccIdle : forall i, i < n -> p_acc (P st i) <> AOff -> p_acc (P st i) = AIdle /\ p_queue (P st i) = []).
  { intros i Hi Hoff. pose proof (acc_disabled _ _ (An i Hi)) as D. destruct (g_noerr G Hi) as (_ & ND & _).
    destruct (p_acc (P st i)) eqn:Ha; try contradiction; try (exfalso; now apply (ND code)).
    split; [reflexivity|]. destruct D as [D|(l & q & D1 & D2)]; [assumption|]. exfalso.
    assert (Hin : In l (p_queue (P st i))) by (rewrite D1; now left).
    destruct (pi_queue (HP i Hi) l Hin) as (Hl & _). now apply (HelloAll l Hl). }
  (* every link whose listener has started is registered there *)
  assert (Registered : forall l, l < g_nlinks st -> p_acc (P st (l_to (L st l))) <> AOff ->
            p_conns (P st (l_to (L st l))) (l_from (L st l)) (cid (L st l)) = Some l).
  { intros l Hl Hoff. pose proof (HL l Hl) as (_ & _ & L3 & _). destruct (AccIdle _ L3 Hoff) as (A1 & A2).
    destruct (g_place G Hl) as [A|[(c & id & A)|A]]; [rewrite A2 in A; destruct A|congruence|exact A]. }
  (* hence a connection stored by its dialler j' is stored by its acceptor j *)
  assert (Accepted : forall j' j c, j' < n -> j' <> 0 -> dside j' j -> p_acc (P st j) <> AOff ->
            stored (p_conns (P st j')) c j = true -> stored (p_conns (P st j)) c j' = true).
  { intros j' j c K2 K0 Hd Hoff S. apply stored_some in S. destruct S as (l & Sl).
    destruct (g_dslot G c K2 K0 Hd Sl) as (F1 & F2 & F3). destruct (pi_conn (HP j' K2) j c Sl) as (Hl & _).
    pose proof (Registered l Hl) as Rg. rewrite F1, F2, F3 in Rg. apply stored_some. exists l. now apply Rg. }
  (* mains are blocked or done *)
  assert (MainShape : forall i, i < n -> match p_main (P st i) with
            | MRecvInfo => exists l, p_conns (P st i) 0 0 = Some l /\ l_info (L st l) = None
            | MWait c => p_need (P st i) c <> 0 | MDone => True | _ => False end).
  { intros i Hi. pose proof (main_disabled _ _ (Mn i Hi)) as D. destruct (g_noerr G Hi) as (NE & _).
    destruct (p_main (P st i)); auto. exfalso. now apply (NE code). }
  (* the leader's accept thread runs *)
  assert (A0 : p_acc (P st 0) <> AOff).
  { pose proof (MainShape 0 ltac:(lia)) as D. specialize (PM 0 ltac:(lia)).
    destruct (p_main (P st 0)) eqn:Hm; try contradiction.
    - destruct PM as (PM & _). contradiction.
    - now destruct PM.
    - now apply (g_done G (i := 0)); [lia|]. }
  (* every peer has joined and its first connection is registered at the leader *)
  assert (Full00 : full n (p_conns (P st 0)) 0 0).
  { intros j Hj. destruct (aside_lt n 0 j ltac:(lia) Hj) as (J1 & J2 & _).
    apply Accepted; [assumption|lia|now left|exact A0|].
    pose proof (MainShape j J2) as D. specialize (PM j J2).
    destruct (p_main (P st j)) eqn:Hm; try contradiction.
    - now destruct PM as (_ & _ & _ & S & _).
    - destruct PM as (_ & _ & _ & PD). destruct (PD ltac:(lia)) as (_ & S & _). exact S.
    - destruct PM as (_ & PD). destruct (PD ltac:(lia)) as (_ & S & _). exact S. }
  (* a waiting party with need[c] <> 0 misses a connection *)
  assert (NotBlocked : forall i c, i < n -> c < k -> p_acc (P st i) <> AOff -> p_need (P st i) c <> 0 ->
            ~ full n (p_conns (P st i)) i c).
  { intros i c Hi Hc Hoff Hnz F. destruct (AccIdle i Hi Hoff) as (AI & _).
    assert (Hrun : running (p_acc (P st i))) by (rewrite AI; exact I).
    pose proof (pi_need (HP i Hi) Hrun Hc) as Hneed. rewrite (full_cnt _ _ _ F) in Hneed. lia. }
  (* so the leader is past the info loop *)
  assert (Past : past (p_main (P st 0))).
  { pose proof (MainShape 0 ltac:(lia)) as D. specialize (PM 0 ltac:(lia)). unfold past.
    destruct (p_main (P st 0)) eqn:Hm; try contradiction; auto.
    - destruct PM as (PM & _). contradiction.
    - destruct (Nat.eq_dec c 0) as [->|]; [|lia]. exfalso. now apply (NotBlocked 0 0 ltac:(lia) ltac:(lia) A0 D). }
  (* hence no peer waits for the info *)
  assert (PeerShape : forall j, 1 <= j -> j < n -> match p_main (P st j) with MWait c => p_need (P st j) c <> 0 | MDone => True | _ => False end).
  { intros j J1 J2. pose proof (MainShape j J2) as D. destruct (p_main (P st j)) eqn:Hm; auto.
    destruct D as (l & Sl & Il). destruct (g_dslot G 0 J2 ltac:(lia) (or_introl eq_refl) Sl) as (F1 & F2 & F3).
    destruct (pi_conn (HP j J2) 0 0 Sl) as (Hl & _). now apply (g_info G Past Hl F2 F3). }
  assert (AccOn : forall i, i < n -> p_acc (P st i) <> AOff).
  { intros i Hi. destruct (Nat.eq_dec i 0) as [->|Hi0]; [exact A0|].
    pose proof (PeerShape i ltac:(lia) Hi) as D. specialize (PM i Hi).
    destruct (p_main (P st i)) eqn:Hm; try contradiction.
    - now destruct PM.
    - now apply (g_done G Hi). }
  (* a party all of whose diallers are done is not blocked: their connections
     c are dialled, hence registered with it *)
  assert (Unblocked : forall j, j < n -> (forall j', In j' (aside n j) -> p_main (P st j') = MDone) ->
            p_main (P st j) = MDone).
  { intros j J2 Hdone. pose proof (MainShape j J2) as D. pose proof (PM j J2) as PMj.
    assert (Dj : match p_main (P st j) with MWait c => p_need (P st j) c <> 0 | MDone => True | _ => False end).
    { destruct (Nat.eq_dec j 0) as [->|]; [|apply PeerShape; lia].
      unfold past in Past. destruct (p_main (P st 0)); try contradiction; auto. }
    destruct (p_main (P st j)) eqn:Hm; try contradiction; [|reflexivity]. exfalso.
    destruct PMj as (_ & PC & _). apply (NotBlocked j c J2 PC (AccOn j J2) Dj).
    intros j' Hj'. destruct (aside_lt n j j' J2 Hj') as (K1 & K2 & K3).
    assert (Hd : dside j' j) by (destruct (Nat.eq_dec j 0) as [->|J0]; [now left|right; auto]).
    apply Accepted; [assumption|lia|exact Hd|now apply AccOn|].
    specialize (PM j' K2). rewrite (Hdone j' Hj') in PM. destruct PM as (_ & PD'). destruct (PD' ltac:(lia)) as (_ & _ & Dl).
    apply (Dl c PC). apply in_targets. split; [apply in_seq; lia|].
    destruct (Nat.eqb_spec j 0) as [->|]; [|destruct Hd; lia].
    unfold past in Past. rewrite Hm in Past. lia. }
  (* every peer is done, by strong induction on its id; then the leader *)
  assert (PeerDone : forall m j, j < m -> 1 <= j -> j < n -> p_main (P st j) = MDone).
  { induction m as [|m IH]; intros j Hjm J1 J2; [lia|]. apply Unblocked; [assumption|].
    intros j' Hj'. destruct (aside_lt n j j' J2 Hj') as (K1 & K2 & K3). apply IH; lia. }
  assert (AllDone : forall i, i < n -> p_main (P st i) = MDone).
  { intros i Hi. destruct (Nat.eq_dec i 0) as [->|]; [|apply (PeerDone (S i)); lia].
    apply Unblocked; [assumption|]. intros j' Hj'. destruct (aside_lt n 0 j' Hi Hj') as (K1 & K2 & _).
    apply (PeerDone (S j')); lia. }
  assert (TabC : forall i, i < n -> tab_complete n k i (p_peers (P st i)) (p_conns (P st i)) = true).
  { intros i Hi. specialize (PM i Hi). rewrite (AllDone i Hi) in PM.
    destruct PM as (F & D). eapply (done_complete n k Hn Hk); eauto. }
  unfold complete. repeat (apply andb_true_iff; split).
  - unfold all_done. apply forallb_forall. intros i Hi. apply in_seq in Hi. unfold party_done.
    rewrite (AllDone i ltac:(lia)). destruct (AccIdle i ltac:(lia) (AccOn i ltac:(lia))) as (-> & ->). reflexivity.
  - unfold ret_complete. apply forallb_forall. intros i Hi. apply in_seq in Hi.
    destruct (p_ret (P st i)) as [[ps t]|] eqn:Hr.
    + now apply (pi_ret (HP i ltac:(lia))).
    + exfalso. pose proof (pi_done (HP i ltac:(lia))) as D. rewrite (AllDone i ltac:(lia)) in D. now apply D.
  - apply forallb_forall. intros i Hi. apply in_seq in Hi. apply TabC. lia.
  - unfold tabs_consistent. apply forallb_forall. intros i Hi. apply in_seq in Hi.
    apply forallb_forall. intros j Hj. apply in_seq in Hj.
    destruct (i =? j) eqn:Eij; [reflexivity|]. apply Nat.eqb_neq in Eij. simpl.
    apply forallb_forall. intros c Hc. apply in_seq in Hc.
    assert (Sij : forall i j, i < n -> j < n -> i <> j -> exists l, p_conns (P st i) j c = Some l).
    { intros i' j' Hi' Hj' Hne. apply stored_some. apply (proj1 (tab_complete_spec n k _ _ _) (TabC i' Hi')); auto. lia. }
    destruct (Sij i j) as (l & Sl); [lia|lia|assumption|]. destruct (Sij j i) as (l' & Sl'); [lia|lia|auto|].
    rewrite Sl, Sl'.
    destruct (same_link n k st i j c c l l' R ltac:(lia) ltac:(lia) Eij Sl Sl') as (E & _). rewrite (E eq_refl).
    apply Nat.eqb_refl.
Qed.

Lemma dial_len st i c ts : Reach st -> i < n -> p_main (P st i) = MDial c ts -> length ts <= n.
Proof.
  intros (HI & G) Hi Hm. destruct HI as (_ & HP). pose proof (pi_main (HP i Hi)) as PM.
  unfold main_ok in PM. rewrite Hm in PM. destruct PM as (P0 & _ & _ & _ & _ & _ & _ & PT).
  pose proof (g_none G Hi P0) as GN. unfold undialed in GN. rewrite Hm in GN. destruct GN as (ND & _).
  rewrite <- (seq_length n 0). apply NoDup_incl_length; [exact ND|].
  intros j Hj. apply PT in Hj. apply in_targets in Hj. tauto.
Qed.

Lemma main_step_dec i st st' :
  i < n -> Reach st -> Reach st' -> main_step n k i st = Some st' -> mu st' < mu st.
Proof.
  intros Hi R R' H. pose proof R as (HI & G). pose proof HI as (HL & HP).
  pose proof (pi_main (HP i Hi)) as PM. unfold main_ok in PM.
  unfold main_step in H. destruct (p_main (P st i)) eqn:Hm.
  - (* MStart *)
    destruct (i =? 0) eqn:E0.
    + injection H as <-. apply (mu_set_party st st i _ Hi eq_refl). unfold w. psimpl. rewrite Hm. unfold rank. rewrite Nat.sub_0_r. simpl abit.
        destruct PM as (-> & _). simpl. nia.
    + apply Nat.eqb_neq in E0. unfold new_link in H. cbv beta iota zeta in H. psimpl in H.
      rewrite (upd_other _ 0 i) in H by assumption. injection H as <-.
      apply (mu_dial st i 0 None); auto; [lia|]. unfold w. psimpl. rewrite Hm. unfold rank. nia.
  - (* MHello *)
    destruct (p_conns (P st i) 0 0); injection H as <-; apply (mu_set_party st st i _ Hi eq_refl); unfold w; psimpl; rewrite Hm; unfold rank; nia.
  - (* MRecvInfo *)
    destruct (p_conns (P st i) 0 0) as [l|].
    2:{ injection H as <-. apply (mu_set_party st st i _ Hi eq_refl). unfold w. psimpl. rewrite Hm. unfold rank. nia. }
    destruct (l_info (L st l)) as [ids|]; [|discriminate].
    destruct (add_ids _ _ _) as [ps|].
    2:{ injection H as <-. apply (mu_set_party st st i _ Hi eq_refl). unfold w. psimpl. rewrite Hm. unfold rank. nia. }
    injection H as <-.
    assert (Hlen : length (targets i 0 ps) <= n).
    { apply (dial_len _ i 0 _ R' Hi). psimpl. now rewrite upd_same. }
    apply (mu_set_party st st i _ Hi eq_refl). unfold w. psimpl. rewrite Hm. unfold rank. rewrite Nat.sub_0_r.
    destruct PM as (_ & -> & _). simpl abit. nia.
  - (* MDial *)
    destruct PM as (P0 & _ & _ & _ & _ & _ & _ & PT).
    destruct targets as [|t ts].
    + injection H as <-. apply (mu_set_party st st i _ Hi eq_refl). unfold w. psimpl. rewrite Hm. unfold rank. simpl. nia.
    + destruct (255 <? c).
      { injection H as <-. apply (mu_set_party st st i _ Hi eq_refl). unfold w. psimpl. rewrite Hm. unfold rank. simpl. nia. }
      destruct (n <=? t) eqn:Hnt.
      { injection H as <-. apply (mu_set_party st st i _ Hi eq_refl). unfold w. psimpl. rewrite Hm. unfold rank. simpl. nia. }
      apply Nat.leb_gt in Hnt.
      assert (Ht : In t (targets i c (seq 0 n))) by (apply PT; now left).
      apply in_targets in Ht. destruct Ht as (_ & Ht).
      assert (Hti : t <> i) by (destruct (t =? 0) eqn:E0; [apply Nat.eqb_eq in E0; lia|lia]).
      unfold new_link in H. cbv beta iota zeta in H. psimpl in H. rewrite (upd_other _ t i) in H by auto.
      destruct (p_conns (P st i) t c); injection H as <-; apply (mu_dial st i t (Some (c, i))); auto;
        unfold w; psimpl; rewrite Hm; unfold rank; simpl; nia.
  - (* MWait *)
    destruct ((p_need (P st i) c =? 0) || p_ldone (P st i)); [|discriminate].
    destruct ((p_need (P st i) c =? 0) && negb (p_ldone (P st i))).
    2:{ injection H as <-. apply (mu_set_party st st i _ Hi eq_refl). unfold w. psimpl. rewrite Hm. unfold rank. nia. }
    destruct ((i =? 0) && (c =? 0)) eqn:Hic.
    + apply andb_true_iff in Hic. destruct Hic as (_ & Hc0). apply Nat.eqb_eq in Hc0. subst c.
      injection H as <-. apply (mu_set_party st st i _ Hi eq_refl). unfold w. psimpl. rewrite Hm. unfold rank. rewrite Nat.sub_0_r. nia.
    + injection H as <-. apply (mu_set_party st st i _ Hi eq_refl).
      destruct (next_conn_cases k i c (P st i)) as [(Ek & E0 & E)|[(Ek & E0 & E)|(Ek & E)]].
      * rewrite E. unfold w. psimpl. rewrite Hm. unfold rank. replace (k - c) with (S (k - S c)) by lia. nia.
      * assert (Hlen : length (targets i (S c) (p_peers (P st i))) <= n).
        { apply (dial_len (set_party st i (next_conn k i c (P st i))) i (S c) _ R' Hi). psimpl. rewrite upd_same.
          now rewrite E. }
        rewrite E. unfold w. psimpl. rewrite Hm. unfold rank. replace (k - c) with (S (k - S c)) by lia. nia.
      * rewrite E. unfold w. psimpl. rewrite Hm. unfold rank. nia.
  - (* MInfo *)
    destruct PM as (Pi0 & _). subst i.
    destruct (send_infos _ _ _ _) as [st1|] eqn:Hsend.
    2:{ injection H as <-. apply (mu_set_party st st 0 _ Hi eq_refl). unfold w. psimpl. rewrite Hm. unfold rank. nia. }
    destruct (send_infos_info _ _ _ _ _ Hsend) as (S1 & _).
    injection H as <-. apply (mu_set_party st st1 0 _ Hi S1). rewrite S1.
    destruct (next_conn_cases k 0 0 (P st 0)) as [(Ek & _ & ->)|[(_ & E0 & _)|(Ek & ->)]]; [|contradiction|].
    + unfold w. psimpl. rewrite Hm. unfold rank. replace k with (S (k - 1)) at 2 by lia. nia.
    + unfold w. psimpl. rewrite Hm. unfold rank. nia.
  - discriminate.
  - discriminate.
Qed.

Lemma step_dec t st st' : Reach st -> step true n k t st = Some st' -> mu st' < mu st.
Proof.
  intros R H. pose proof (step_reach n k Hn Hk Hk256 _ _ _ R H) as R'.
  destruct (step_cases _ _ _ _ _ _ H) as (i & Hi & [Hs|Hs]); [eapply main_step_dec|eapply acc_step_dec]; eauto.
Qed.

Lemma eff_le_mu sched : forall st, Reach st -> eff st sched <= mu st.
Proof.
  induction sched as [|t r IH]; intros st R; simpl; [lia|].
  destruct (step true n k t st) as [st'|] eqn:Hs; [|now apply IH].
  pose proof (step_dec _ _ _ R Hs). pose proof (IH st' (step_reach n k Hn Hk Hk256 _ _ _ R Hs)). lia.
Qed.

(* C19_complete: every fair schedule forms the complete, consistent mesh *)
Lemma complete_fair sched : fair n k sched -> complete n k (run_from true n k (init n) sched) = true.
Proof.
  intros F. pose proof (run_reach n k Hn Hk Hk256 sched _ (init_reach n k Hn Hk Hk256)) as R.
  destruct (quiescent true n k (run_from true n k (init n) sched)) eqn:Q; [now apply quiescent_complete|].
  exfalso. unfold fair, count_rounds in F.
  pose proof (rounds_le_eff sched (init n) (seq 0 (2 * n)) false) as H.
  assert (J : false = false -> forall t, t < 2 * n -> ~ In t (seq 0 (2 * n)) -> step true n k t (init n) = None).
  { intros _ t Ht Hn0. exfalso. apply Hn0. apply in_seq. lia. }
  specialize (H J Q). cbv iota in H. pose proof (eff_le_mu sched _ (init_reach n k Hn Hk Hk256)). pose proof mu_init. lia.
Qed.

End Live.

Theorem mesh_complete n k : 2 <= n -> 1 <= k -> k <= 256 ->
  forall sched, fair n k sched ->
    run_mesh true n k sched = Final (run_from true n k (init n) sched).
Proof.
  intros Hn Hk Hk256 sched F. unfold run_mesh. now rewrite (complete_fair n k Hn Hk Hk256 sched F).
Qed.

Theorem mesh_no_dup_cross n k : 2 <= n -> 1 <= k -> k <= 256 ->
  forall sched, let st := run_from true n k (init n) sched in
    (forall i, i < n ->
       (forall code, p_main (g_party st i) <> MErr code) /\
       (forall code, p_acc (g_party st i) <> ADead code) /\ p_ldone (g_party st i) = false) /\
    (forall i j c c' l l', i < n -> j < n -> i <> j ->
       p_conns (g_party st i) j c = Some l -> p_conns (g_party st j) i c' = Some l' ->
       (c = c' -> l = l') /\ (l = l' -> c = c')).
Proof.
  intros Hn Hk Hk256 sched st.
  assert (R : Reach n k st) by (apply run_reach; auto; apply init_reach; auto).
  split.
  - intros i Hi. now apply (no_error n k st i R Hi).
  - intros i j c c' l l' Hi Hj Hne. now apply (same_link n k st i j c c' l l' R Hi Hj Hne).
Qed.
