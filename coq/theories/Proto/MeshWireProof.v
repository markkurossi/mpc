(* MeshWireProof.v — C19 at the byte level (Proto/MeshWire.v): the hello dial
   writes is what acceptConn parses, and whatever bytes arrive an accepted hello
   carries the magic and a connection id below numConns; of every pair exactly
   one party dials; need[c] starts at the number of inbound diallers, the [E]
   of the invariant of MeshFixedProof.v. *)
From Coq Require Import NArith Arith List Lia.
From Mpc Require Import Base.ListFacts Base.Codec Base.CodecProof Proto.MeshWire Proto.MeshFixedProof.
Import ListNotations.
Open Scope nat_scope.

Lemma be32_be v : be32 v = be 4 (v mod 4294967296).
Proof. unfold be32. cbn [be app]. rewrite !N.div_div by discriminate. reflexivity. Qed.

Lemma rd32_be32 : forall v rest, rd32 (be32 v ++ rest) = Some ((v mod 4294967296)%N, rest).
Proof.
  intros v rest. rewrite be32_be.
  change (rd32 (be 4 (v mod 4294967296) ++ rest)) with (Some (of_be (be 4 (v mod 4294967296)), rest)).
  rewrite of_be_be. change (256 ^ N.of_nat 4)%N with 4294967296%N. now rewrite N.mod_mod.
Qed.

Lemma rd_str_enc : forall s rest, (N.of_nat (length s) < 4294967296)%N ->
  rd_str (enc_str s ++ rest) = Some (s, rest).
Proof.
  intros s rest Hl. unfold rd_str, enc_str. rewrite <- app_assoc, rd32_be32.
  rewrite N.mod_small by exact Hl. rewrite Nat2N.id.
  assert (Hlt : (length (s ++ rest) <? length s) = false)
    by (apply Nat.ltb_ge; rewrite app_length; lia).
  rewrite Hlt, firstn_app_exact, skipn_app_exact by reflexivity. reflexivity.
Qed.

Lemma mod32_land : forall h, (h mod 4294967296)%N = N.land h (N.ones 32).
Proof. intros h. rewrite N.land_ones. reflexivity. Qed.

Lemma magic_mask : forall c,
  N.land (hello_magic c mod 4294967296)%N connMagicMask = connMagic.
Proof.
  intros c. rewrite mod32_land, <- N.land_assoc.
  change (N.land (N.ones 32) connMagicMask) with connMagicMask.
  unfold hello_magic. rewrite N.land_lor_distr_l.
  change (N.land connMagic connMagicMask) with connMagic.
  rewrite <- N.land_assoc. change (N.land 255 connMagicMask) with 0%N.
  rewrite N.land_0_r, N.lor_0_r. reflexivity.
Qed.

Lemma magic_low : forall c, c < 256 ->
  N.to_nat ((hello_magic c mod 4294967296) mod 256)%N = c.
Proof.
  intros c Hc. rewrite mod32_land.
  change 256%N with (2 ^ 8)%N. rewrite <- N.land_ones, <- N.land_assoc.
  change (N.land (N.ones 32) (N.ones 8)) with (N.ones 8).
  unfold hello_magic. rewrite N.land_lor_distr_l.
  change (N.land connMagic (N.ones 8)) with 0%N. rewrite N.lor_0_l.
  change 255%N with (N.ones 8). rewrite <- N.land_assoc, N.land_diag, N.land_ones.
  rewrite N.mod_small by (change (2 ^ 8)%N with 256%N; lia).
  apply Nat2N.id.
Qed.

(* acceptConn's parse of the bytes dial writes for connection id c *)
Lemma dec_hello_enc k c id addr rest :
  c < 256 -> (N.of_nat id < 4294967296)%N -> (N.of_nat (length addr) < 4294967296)%N ->
  dec_hello k (enc_hello c id addr ++ rest) = if k <=? c then HBadConnID c id else HOk c id addr rest.
Proof.
  intros Hc Hid Hl. unfold dec_hello, enc_hello.
  rewrite <- !app_assoc, rd32_be32, rd32_be32, rd_str_enc by exact Hl.
  rewrite magic_mask, N.eqb_refl. cbn [negb].
  rewrite magic_low by exact Hc. rewrite N.mod_small by exact Hid. rewrite Nat2N.id. reflexivity.
Qed.

Lemma hello_roundtrip : forall k c id addr rest,
  c < k -> k <= 256 -> (N.of_nat id < 4294967296)%N -> (N.of_nat (length addr) < 4294967296)%N ->
  dec_hello k (enc_hello c id addr ++ rest) = HOk c id addr rest.
Proof.
  intros k c id addr rest Hc Hk Hid Hl. rewrite dec_hello_enc by (assumption || lia).
  apply Nat.leb_gt in Hc. now rewrite Hc.
Qed.

Lemma hello_bad_connid : forall k c id addr rest,
  k <= c -> c < 256 -> (N.of_nat id < 4294967296)%N -> (N.of_nat (length addr) < 4294967296)%N ->
  dec_hello k (enc_hello c id addr ++ rest) = HBadConnID c id.
Proof.
  intros k c id addr rest Hc Hk Hid Hl. rewrite dec_hello_enc by assumption.
  apply Nat.leb_le in Hc. now rewrite Hc.
Qed.

(* whatever bytes arrive: an accepted hello has the magic in its upper 24 bits
   and a connection id below numConns, which is the low byte of the first word *)
Lemma hello_accept_sound : forall k bs c id addr rest,
  dec_hello k bs = HOk c id addr rest ->
  c < k /\ exists magic r1, rd32 bs = Some (magic, r1) /\
                            N.land magic connMagicMask = connMagic /\
                            c = N.to_nat (magic mod 256)%N.
Proof.
  intros k bs c id addr rest H. unfold dec_hello in H.
  destruct (rd32 bs) as [[magic r1]|] eqn:E1; [|discriminate].
  destruct (rd32 r1) as [[i r2]|]; [|discriminate].
  destruct (rd_str r2) as [[a r3]|]; [|discriminate].
  destruct (N.eqb_spec (N.land magic connMagicMask) connMagic) as [Hm|Hm]; cbn [negb] in H; [|discriminate].
  destruct (Nat.leb_spec k (N.to_nat (magic mod 256)%N)) as [Hk|Hk]; [discriminate|].
  inversion H; subst. split; [exact Hk|]. exists magic, r1. auto.
Qed.

Lemma hello_wrong_magic_rejected : forall k m id addr rest c i a r,
  N.land (m mod 4294967296)%N connMagicMask <> connMagic ->
  dec_hello k (be32 m ++ be32 id ++ enc_str addr ++ rest) <> HOk c i a r.
Proof.
  intros k m id addr rest c i a r Hm H.
  apply hello_accept_sound in H. destruct H as [_ [magic [r1 [H1 [H2 _]]]]].
  rewrite rd32_be32 in H1. inversion H1; subst. contradiction.
Qed.

Example hello_wrong_magic_nonvacuous :
  N.land (1196250624 mod 4294967296)%N connMagicMask <> connMagic.   (* 0x474d5600 *)
Proof. discriminate. Qed.

Example hello_roundtrip_nonvacuous :
  dec_hello 4 (enc_hello 3 5 [49%N; 50%N] ++ [7%N]) = HOk 3 5 [49%N; 50%N] [7%N].
Proof. apply hello_roundtrip; cbn; lia. Qed.

Lemma in_all_dials : forall n i j c, i < n ->
  (In j (all_dials n i c) <-> j < n /\ i <> 0 /\ (j = 0 \/ i < j)).
Proof.
  intros n i j c Hi. unfold all_dials, join_dials, connect_dials. rewrite in_app_iff.
  destruct (Nat.eqb_spec i 0) as [Ei|Ei]; destruct (Nat.eqb_spec c 0) as [Ec|Ec]; cbn [negb andb];
    rewrite ?filter_In, ?in_seq; unfold dial_test;
    destruct (Nat.eqb_spec j 0) as [Ej|Ej];
    try (destruct (Nat.eqb_spec c 0) as [Ec'|Ec']; try contradiction);
    try (destruct (Nat.ltb_spec i j) as [Hl|Hl]); cbn [negb In];
    intuition (try lia; try congruence).
Qed.

Lemma dial_exactly_one : forall n i j c, i < n -> j < n -> i <> j ->
  (In j (all_dials n i c) <-> ~ In i (all_dials n j c)).
Proof.
  intros n i j c Hi Hj Hij. rewrite (in_all_dials n i j c Hi), (in_all_dials n j i c Hj). lia.
Qed.

Lemma all_dials_nodup : forall n i c, NoDup (all_dials n i c).
Proof.
  intros n i c. unfold all_dials, join_dials, connect_dials.
  destruct (Nat.eqb_spec i 0) as [Ei|Ei]; cbn [negb andb app]; [constructor|].
  assert (Hf : NoDup (filter (dial_test i c) (seq 0 n))) by (apply NoDup_filter, seq_NoDup).
  destruct (Nat.eqb_spec c 0) as [Ec|Ec]; cbn [app]; [|exact Hf].
  constructor; [|exact Hf]. rewrite filter_In. unfold dial_test. subst c. cbn. intros [_ H]. discriminate.
Qed.

(* the wire side's inbound diallers and initial need[c] are the [aside] and
   [E] of the invariant of MeshFixedProof.v *)
Lemma in_dialers_aside n j : in_dialers n j = aside n j.
Proof. unfold in_dialers, aside, E. now destruct (j =? 0). Qed.

Lemma need_init_E n j : j < n -> need_init n j = E n j.
Proof.
  intros Hj. unfold need_init. destruct (Nat.eqb_spec j 0) as [->|Ej]; [reflexivity|].
  exact (num_accept n j Hj Ej).
Qed.

Lemma in_dialers_spec : forall n j i c, j < n ->
  (In i (in_dialers n j) <-> i < n /\ In j (all_dials n i c)).
Proof.
  intros n j i c Hj. rewrite in_dialers_aside. split.
  - intros H. destruct (aside_lt n j i Hj H) as (H1 & H2 & H3). split; [exact H2|].
    apply (in_all_dials n i j c H2). lia.
  - intros [Hi H]. apply (in_all_dials n i j c Hi) in H. apply aside_in; lia.
Qed.

Lemma need_counts_inbound : forall n j, j < n ->
  need_init n j = length (in_dialers n j) /\ NoDup (in_dialers n j).
Proof.
  intros n j Hj. rewrite in_dialers_aside, aside_len. split; [now apply need_init_E|apply seq_NoDup].
Qed.

Example dial_nonvacuous : In 3 (all_dials 5 2 1) /\ ~ In 2 (all_dials 5 3 1) /\ In 0 (all_dials 5 2 1).
Proof. cbn. intuition (try lia; try congruence). Qed.
