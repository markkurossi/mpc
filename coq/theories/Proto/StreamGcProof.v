(* StreamGcProof.v — C05_gc_sound: the step list Program.GC (gc_fixed) returns
   never lets a circuit step write a wire id that a value still to be read
   mentions.  Static part: Lang/GcProof.v (gc_fixed_form).  Here: the wire
   allocator's ownership invariant [ginv], kept by the four updates of the
   allocator (ginv_frame), along the execution; then the value relation between
   the streamed store and the reference environment along the same run. *)
From Coq Require Import NArith ZArith List Bool Lia Permutation.
From Coq Require Import FMapPositive.
From Mpc Require Import Base.ListFacts Circuit.Circuit Lang.Gc Lang.GcProof Proto.Stream Proto.StreamProof Proto.StreamSimProof Proto.StreamCircProof.
Import ListNotations.
Local Open Scope nat_scope.

Lemma nth_map_error {A B} (h : A -> B) l j x d : nth_error l j = Some x -> nth j (map h l) d = h x.
Proof. intros H. apply (map_nth_error h) in H. apply nth_error_nth. exact H. Qed.

Lemma block_length b n : length (block b n) = n.
Proof. unfold block. rewrite map_length, seq_length. reflexivity. Qed.

Lemma in_block b n id : In id (block b n) <-> (b <= id /\ id < b + N.of_nat n)%N.
Proof.
  unfold block. rewrite in_map_iff. split.
  - intros (i & <- & Hi). apply in_seq in Hi. lia.
  - intros [H1 H2]. exists (N.to_nat (id - b)). split; [lia|]. apply in_seq. lia.
Qed.

Lemma NoDup_block b n : NoDup (block b n).
Proof.
  unfold block. apply FinFun.Injective_map_NoDup; [|apply seq_NoDup].
  intros x y H. lia.
Qed.

Lemma hd_block b n : n <> 0 -> hd 0%N (block b n) = b.
Proof. destruct n; [congruence|]. intros _. unfold block. simpl. lia. Qed.

Definition oblock (e : entry) : list N :=
  match ewires e with
  | Some ws => ws
  | None => match ebase e, eids e with Some b, Some ids => block b (length ids) | _, _ => [] end
  end.

Definition entry_wf (e : entry) : Prop :=
  match ewires e with
  | Some ws => ws = block (hd 0%N ws) (length ws) /\
               (ebase e = None \/ ebase e = Some (hd 0%N ws)) /\
               match eids e with Some ids => length ids = length ws | None => True end
  | None => exists b ids, ebase e = Some b /\ eids e = Some ids
  end.

Definition free_l (fl : list (nat * list N)) : list N :=
  flat_map (fun p => flat_map (fun b => block b (fst p)) (snd p)) fl.
Definition free_ids (w : walloc) : list N := free_l (wfree w).

Lemma free_pop bits b rest : forall fl,
  lookup_nat bits fl = Some (b :: rest) ->
  Permutation (free_l fl) (block b bits ++ free_l (set_nat bits rest fl)).
Proof.
  unfold free_l. induction fl as [|[k l] t IH]; cbn [lookup_nat set_nat]; [discriminate|].
  destruct (Nat.eqb bits k) eqn:E; cbn [flat_map fst snd].
  - apply Nat.eqb_eq in E. subst k. intros H. injection H as ->. cbn [flat_map]. rewrite <- app_assoc. reflexivity.
  - intros H. rewrite (IH H). apply Permutation_app_swap_app.
Qed.

Lemma free_push bits b fl : Permutation (free_l (push_free bits b fl)) (block b bits ++ free_l fl).
Proof.
  unfold push_free, free_l. induction fl as [|[k l] t IH]; cbn [lookup_nat set_nat].
  - cbn [flat_map fst snd]. rewrite !app_nil_r. reflexivity.
  - destruct (Nat.eqb bits k) eqn:E; cbn [flat_map fst snd].
    + apply Nat.eqb_eq in E. subst k. rewrite <- app_assoc. reflexivity.
    + rewrite IH. apply Permutation_app_swap_app.
Qed.

Lemma new_ids_spec w bits nb w1 : new_ids w bits = (nb, w1) ->
  whash w1 = whash w /\ wnext w1 = wnext w /\
  match nb with
  | Some b => Permutation (free_ids w) (block b bits ++ free_ids w1)
  | None => free_ids w1 = free_ids w
  end.
Proof.
  unfold new_ids. destruct (lookup_nat bits (wfree w)) as [[|b rest]|] eqn:Ef; intros H; injection H as <- <-; auto.
  repeat split. apply free_pop, Ef.
Qed.

Definition geo (l : list N) (next : N) : Prop := NoDup l /\ forall id, In id l -> (id < next)%N.

Lemma geo_sub l l' B next : geo l next -> Permutation l (B ++ l') -> geo l' next.
Proof.
  intros [Hn Hlt] P. split.
  - apply (Permutation_NoDup P), NoDup_app_iff in Hn. apply Hn.
  - intros id Hid. apply Hlt, (Permutation_in _ (Permutation_sym P)), in_or_app. auto.
Qed.

Lemma geo_bump l n next : geo l next -> geo (block next n ++ l) (next + N.of_nat n).
Proof.
  intros [Hn Hlt]. split.
  - apply NoDup_app_iff. repeat split; [apply NoDup_block | exact Hn|].
    intros id Hb Hl. apply in_block in Hb. apply Hlt in Hl. lia.
  - intros id Hid. apply in_app_or in Hid as [H|H]; [apply in_block in H | apply Hlt in H]; lia.
Qed.

Lemma nodup_mid_insert {A} (X B Y : list A) :
  NoDup (X ++ Y) -> NoDup B -> (forall x, In x B -> ~ In x (X ++ Y)) -> NoDup (X ++ B ++ Y).
Proof.
  intros H1 H2 H3. apply (Permutation_NoDup (Permutation_app_swap_app B X Y)), NoDup_app_iff. auto.
Qed.

Lemma allocated_lookup w k : allocated w k = true <-> exists e, lookup k (whash w) = Some e.
Proof. unfold allocated. destruct (lookup k (whash w)); split; intros H; eauto; try discriminate. destruct H; discriminate. Qed.

Lemma allocated_some w k e : lookup k (whash w) = Some e -> allocated w k = true.
Proof. unfold allocated. intros ->. reflexivity. Qed.

Lemma allocated_none w k : lookup k (whash w) = None -> allocated w k = false.
Proof. unfold allocated. intros ->. reflexivity. Qed.

Lemma allocated_ext w w' k : lookup k (whash w') = lookup k (whash w) -> allocated w' k = allocated w k.
Proof. unfold allocated. intros ->. reflexivity. Qed.

Lemma ids_of_eids w v e ids : lookup v (whash w) = Some e -> eids e = Some ids -> ids_of w v = ids.
Proof. unfold ids_of. intros -> ->. reflexivity. Qed.

Lemma ids_of_none w v : lookup v (whash w) = None -> ids_of w v = [].
Proof. unfold ids_of. intros ->. reflexivity. Qed.

Lemma ids_of_ext w w' v : lookup v (whash w') = lookup v (whash w) -> ids_of w' v = ids_of w v.
Proof. unfold ids_of. intros ->. reflexivity. Qed.

(* what wf_prog checks of a native circuit step, a slice and a circuit step *)
Definition circ_step_ok (circs : list ccirc) (s : instr) : Prop :=
  iop s = OCirc ->
  let cc := nth (icirc s) circs cc0 in
  wf (cc_c cc) = true /\ length (cc_ins cc) = length (iin s) /\ ninputs (cc_c cc) = sum_nat (cc_ins cc) /\
  cc_outs cc = map vbits (iret s) /\ noutputs (cc_c cc) = sum_nat (cc_outs cc) /\
  ninputs (cc_c cc) + noutputs (cc_c cc) <= nwires (cc_c cc).

Definition slice_step_ok (s : instr) : Prop :=
  iop s = OSlice -> forall o, iout s = Some o ->
  (0 <= nth 1 (map vcint (iin s)) 0)%Z /\ (nth 1 (map vcint (iin s)) 0 < nth 2 (map vcint (iin s)) 0)%Z /\
  Z.to_nat (nth 2 (map vcint (iin s)) 0%Z) - Z.to_nat (nth 1 (map vcint (iin s)) 0%Z) = vbits o.

Definition gen_step_ok (circs : list ccirc) (s : instr) : Prop :=
  iop s = OGen -> forall o, iout s = Some o ->
  let c := cc_c (nth (icirc s) circs cc0) in
  wf c = true /\ ninputs c = sum_bits (iin s) /\ noutputs c = vbits o /\ ninputs c + noutputs c <= nwires c.

Definition step_kind (s : instr) : Prop :=
  (iop s = ORet /\ iout s = None /\ iret s = []) \/
  (exists o, iout s = Some o /\ iret s = [] /\ (iop s = OGen \/ is_alias_op (iop s) = true)) \/
  (iop s = OCirc /\ iout s = None /\ NoDup (map vid (iret s))).

Section Dyn.
  Variable Kt : list N.        (* keys of the constants of prog.Constants *)
  Variables zk ok : N.         (* keys of {zero}, {one} *)
  Variables zero one : N.      (* their wire ids *)
  Variable NC : list N.        (* keys of the non-constant values: arguments and all results *)
  Variable steps0 : list instr.
  Variable args : list (N * nat).

  Hypothesis zk_owned : ~ In zk Kt.
  Hypothesis ok_owned : ~ In ok Kt.
  Hypothesis zk_nc : ~ In zk NC.
  Hypothesis ok_nc : ~ In ok NC.
  Hypothesis kt_nc : forall k, In k Kt -> ~ In k NC.

  Definition owned_ids (l : list (N * entry)) : list N :=
    flat_map (fun p => if mem (fst p) Kt then [] else oblock (snd p)) l.

  Lemma owned_in l k e id :
    lookup k l = Some e -> ~ In k Kt -> In id (oblock e) -> In id (owned_ids l).
  Proof.
    intros L Hk Hid. apply lookup_in in L. unfold owned_ids. apply in_flat_map.
    exists (k, e). split; [exact L|]. simpl. apply mem_false in Hk. rewrite Hk. exact Hid.
  Qed.

  Lemma owned_inv l id : In id (owned_ids l) -> NoDup (map fst l) ->
    exists k e, lookup k l = Some e /\ ~ In k Kt /\ In id (oblock e).
  Proof.
    intros H Hnd. unfold owned_ids in H. apply in_flat_map in H as ([k e] & Hin & Hid). cbn [fst snd] in Hid.
    destruct (mem k Kt) eqn:M; [destruct Hid|]. exists k, e.
    split; [apply in_lookup; auto|]. split; [apply mem_false, M | exact Hid].
  Qed.

  Lemma owned_set_key l k e e' :
    lookup k l = Some e -> oblock e' = oblock e -> owned_ids (set_key k e' l) = owned_ids l.
  Proof.
    induction l as [|[k2 e2] t IH]; simpl; [discriminate|].
    destruct (N.eqb k k2) eqn:E.
    - apply N.eqb_eq in E. subst k2. intros H Ho. inversion H; subst. unfold owned_ids. simpl. rewrite Ho. reflexivity.
    - intros H Ho. unfold owned_ids in *. simpl. rewrite IH by assumption. reflexivity.
  Qed.

  Lemma owned_remove_key l k e :
    lookup k l = Some e ->
    Permutation (owned_ids l) ((if mem k Kt then [] else oblock e) ++ owned_ids (remove_key k l)).
  Proof.
    induction l as [|[k2 e2] t IH]; simpl; [discriminate|].
    destruct (N.eqb k k2) eqn:E.
    - apply N.eqb_eq in E. subst k2. intros H. inversion H; subst. unfold owned_ids. simpl. apply Permutation_refl.
    - intros H. unfold owned_ids in *. simpl. specialize (IH H).
      rewrite (Permutation_app_head _ IH), !app_assoc. apply Permutation_app_tail, Permutation_app_comm.
  Qed.

  (* owner k may back ids of v: k is not in NC (zero, one, a constant), or v is
     an alias descendant of k *)
  Definition related (k v : N) : Prop := ~ In k NC \/ In v (fdesc steps0 k).

  Record ginv (w : walloc) (defd gcd : list N) : Prop := {
    g_keys : NoDup (map fst (whash w));
    g_geo : NoDup (owned_ids (whash w) ++ free_ids w);
    g_lt : forall id, In id (owned_ids (whash w) ++ free_ids w) -> (id < wnext w)%N;
    g_ewf : forall k e, lookup k (whash w) = Some e -> ~ In k Kt -> entry_wf e;
    g_args : forall k e, lookup k (whash w) = Some e -> eids e = None ->
             exists ws, ewires e = Some ws /\ lookup k args = Some (length ws);
    g_kt : forall k, In k Kt -> exists e ids, lookup k (whash w) = Some e /\ eids e = Some ids /\
                                  forall id, In id ids -> id = zero \/ id = one;
    g_z : exists ez eo, lookup zk (whash w) = Some ez /\ oblock ez = [zero] /\
                        lookup ok (whash w) = Some eo /\ oblock eo = [one];
    g_prov : forall v e, lookup v (whash w) = Some e ->
             (exists u, In u gcd /\ In v (fdesc steps0 u)) \/
             (forall id, In id (ids_of w v) ->
                exists k e', lookup k (whash w) = Some e' /\ ~ In k Kt /\ In id (oblock e') /\ related k v);
    g_alloc : forall k, In k NC -> (allocated w k = true <-> In k defd /\ ~ In k gcd)
  }.

  Lemma self_desc k : In k (fdesc steps0 k).
  Proof. unfold fdesc. apply fold_fstep_mono. left. reflexivity. Qed.

  Lemma ginv_geo w defd gcd : ginv w defd gcd -> geo (owned_ids (whash w) ++ free_ids w) (wnext w).
  Proof. intros G. split; [apply (g_geo _ _ _ G) | apply (g_lt _ _ _ G)]. Qed.

  (* the two alternatives of g_prov: the value is an alias descendant of a freed
     value, or the id lies in the block of an owner related to the value *)
  Definition doomed (gcd : list N) (v : N) : Prop := exists u, In u gcd /\ In v (fdesc steps0 u).
  Definition backed (w : walloc) (v id : N) : Prop :=
    exists k e', lookup k (whash w) = Some e' /\ ~ In k Kt /\ In id (oblock e') /\ related k v.

  Definition kept (w w' : walloc) : Prop :=
    forall k e, lookup k (whash w) = Some e -> exists e', lookup k (whash w') = Some e' /\ oblock e' = oblock e.

  Lemma backed_kept w w' v id : kept w w' -> backed w v id -> backed w' v id.
  Proof.
    intros H (k & e & L & Hk & Hid & Hr). destruct (H k e L) as (e' & L' & Ho).
    exists k, e'. rewrite Ho. auto.
  Qed.

  Lemma kept_allocated w w' k : kept w w' -> allocated w k = true -> allocated w' k = true.
  Proof.
    intros H Ha. apply allocated_lookup in Ha as (e & L). destruct (H k e L) as (e' & L' & _).
    exact (allocated_some _ _ _ L').
  Qed.

  (* ginv reads defd only at the keys in NC *)
  Lemma ginv_defd w defd defd' gcd :
    ginv w defd gcd -> (forall k, In k NC -> (In k defd' <-> In k defd)) -> ginv w defd' gcd.
  Proof. intros G H. destruct G. constructor; auto. intros k Hk. rewrite (H k Hk). auto. Qed.

  Lemma live_ids_owned w defd gcd v id :
    ginv w defd gcd -> ~ doomed gcd v -> In id (ids_of w v) -> In id (owned_ids (whash w)).
  Proof.
    intros G Hd Hid. destruct (lookup v (whash w)) as [e|] eqn:L.
    - destruct (g_prov _ _ _ G v e L) as [H|Hp]; [contradiction|].
      destruct (Hp id Hid) as (k & e' & P1 & P2 & P3 & _). eapply owned_in; eauto.
    - rewrite (ids_of_none _ _ L) in Hid. destruct Hid.
  Qed.

  Lemma zero_one_owned w defd gcd : ginv w defd gcd -> forall id, In id [zero; one] -> In id (owned_ids (whash w)).
  Proof.
    intros G id Hid. destruct (g_z _ _ _ G) as (ez & eo & Z1 & Z2 & Z3 & Z4).
    destruct Hid as [<-|[<-|[]]]; [apply (owned_in _ zk ez) | apply (owned_in _ ok eo)]; auto;
      [rewrite Z2 | rewrite Z4]; left; reflexivity.
  Qed.

  (* An update that touches only the entry of v, where v is not a key of the
     constant table.  What ginv says about single entries carries over to the
     other entries, and g_prov to the other values as far as their owners
     remain.  Left to show: the keys and the ids of the new state, the new
     entry of v, and g_alloc. *)
  Lemma ginv_frame w w' defd defd' gcd gcd' v :
    ginv w defd gcd ->
    (forall k, k <> v -> lookup k (whash w') = lookup k (whash w)) ->
    ~ In v Kt ->
    (forall e, lookup v (whash w) = Some e -> v = zk \/ v = ok ->
       exists e', lookup v (whash w') = Some e' /\ oblock e' = oblock e) ->
    NoDup (map fst (whash w')) ->
    geo (owned_ids (whash w') ++ free_ids w') (wnext w') ->
    (forall e', lookup v (whash w') = Some e' ->
       entry_wf e' /\ eids e' <> None /\ (doomed gcd' v \/ forall id, In id (ids_of w' v) -> backed w' v id)) ->
    incl gcd gcd' ->
    (forall k, k <> v -> doomed gcd' k \/ forall id, backed w k id -> backed w' k id) ->
    (forall k, In k NC -> (allocated w' k = true <-> In k defd' /\ ~ In k gcd')) ->
    ginv w' defd' gcd'.
  Proof.
    intros G Hlk HvK Hzo Hkeys Hgeo Hv Hinc Hback Hal.
    assert (Hold : forall k e, lookup k (whash w') = Some e -> k <> v -> lookup k (whash w) = Some e).
    { intros k e H Hk. rewrite <- Hlk; assumption. }
    constructor; [exact Hkeys | apply Hgeo | apply Hgeo | | | | | | exact Hal].
    - intros k e H Hk. destruct (N.eq_dec k v) as [->|Hkv]; [apply (Hv e H) | eapply (g_ewf _ _ _ G); eauto].
    - intros k e H He. destruct (N.eq_dec k v) as [->|Hkv]; [|eapply (g_args _ _ _ G); eauto].
      destruct (Hv e H) as (_ & Hn & _). contradiction.
    - intros k Hk. destruct (g_kt _ _ _ G k Hk) as (e & ids & H1 & H2). exists e, ids.
      rewrite Hlk; [auto|]. intros ->. contradiction.
    - destruct (g_z _ _ _ G) as (ez & eo & Z1 & Z2 & Z3 & Z4).
      assert (Hk : forall k e, k = zk \/ k = ok -> lookup k (whash w) = Some e ->
                     exists e', lookup k (whash w') = Some e' /\ oblock e' = oblock e).
      { intros k e Hk L. destruct (N.eq_dec k v) as [->|Hkv]; [auto | rewrite Hlk by exact Hkv; eauto]. }
      destruct (Hk zk ez (or_introl eq_refl) Z1) as (ez' & Z1' & Z2').
      destruct (Hk ok eo (or_intror eq_refl) Z3) as (eo' & Z3' & Z4').
      exists ez', eo'. rewrite Z2', Z4'. auto.
    - intros k e H. destruct (N.eq_dec k v) as [->|Hkv]; [apply (Hv e H)|].
      destruct (g_prov _ _ _ G k e (Hold k e H Hkv)) as [(u & Hu & Hd)|Hp]; [left; exists u; auto|].
      destruct (Hback k Hkv) as [Hd|Hb]; [left; exact Hd | right].
      intros id Hid. rewrite (ids_of_ext w w' k (Hlk k Hkv)) in Hid. apply Hb, Hp, Hid.
  Qed.

  (* the entry of v is replaced by one with the same block and with ids that
     are backed; the free lists may lose a block *)
  Lemma set_entry_inv w w' defd gcd v e e' ids' B :
    ginv w defd gcd -> lookup v (whash w) = Some e -> ~ In v Kt ->
    whash w' = set_key v e' (whash w) -> wnext w' = wnext w -> Permutation (free_ids w) (B ++ free_ids w') ->
    oblock e' = oblock e -> entry_wf e' -> eids e' = Some ids' ->
    (doomed gcd v \/ forall id, In id ids' -> backed w v id) ->
    ginv w' defd gcd /\ kept w w' /\ (forall k, k <> v -> lookup k (whash w') = lookup k (whash w)) /\
    lookup v (whash w') = Some e' /\ (forall k, allocated w' k = allocated w k).
  Proof.
    intros G L HvK Hh Hn Hfree Hob Hwf Hi Hp.
    assert (Hlk : forall k, k <> v -> lookup k (whash w') = lookup k (whash w)).
    { intros k Hk. rewrite Hh. apply lookup_set_key_neq. congruence. }
    assert (Hlv : lookup v (whash w') = Some e') by (rewrite Hh; apply lookup_set_key_eq).
    assert (Hkept : kept w w').
    { intros k e1 H. destruct (N.eq_dec k v) as [->|Hk]; [|rewrite <- Hlk in H by exact Hk; eauto].
      rewrite L in H. injection H as <-. eauto. }
    assert (Hal : forall k, allocated w' k = allocated w k).
    { intros k. destruct (N.eq_dec k v) as [->|Hk]; [|apply allocated_ext, Hlk, Hk].
      rewrite (allocated_some _ _ _ Hlv), (allocated_some _ _ _ L). reflexivity. }
    split; [|auto].
    apply (ginv_frame w w' defd defd gcd gcd v G Hlk HvK).
    - intros e0 H _. rewrite L in H. injection H as <-. eauto.
    - rewrite Hh, keys_set_key by (rewrite L; discriminate). apply (g_keys _ _ _ G).
    - rewrite Hh, (owned_set_key _ _ e e' L Hob), Hn. apply (geo_sub _ _ B _ (ginv_geo _ _ _ G)).
      rewrite Hfree. apply Permutation_app_swap_app.
    - intros e1 H. rewrite Hlv in H. injection H as <-. split; [exact Hwf|]. split; [congruence|].
      destruct Hp as [Hd|Hp]; [left; exact Hd | right]. intros id Hid.
      rewrite (ids_of_eids _ _ _ _ Hlv Hi) in Hid. apply (backed_kept w w' v id Hkept), Hp, Hid.
    - apply incl_refl.
    - intros k _. right. intros id. apply backed_kept, Hkept.
    - intros k Hk. rewrite Hal. apply (g_alloc _ _ _ G k Hk).
  Qed.

  Lemma assigned_ids_existing w defd gcd v bits e ids w' :
    ginv w defd gcd -> lookup v (whash w) = Some e ->
    (forall b, lookup v args = Some b -> bits = b) ->
    assigned_ids w v bits = (ids, w') ->
    ginv w' defd gcd /\ ids = ids_of w v /\ (forall k, ids_of w' k = ids_of w k) /\
    (forall k, allocated w' k = allocated w k) /\ kept w w'.
  Proof.
    intros G L Hb HA. unfold assigned_ids in HA. rewrite L in HA.
    destruct (eids e) as [ids0|] eqn:Ei.
    - injection HA as <- <-. split; [exact G|]. split; [symmetry; eapply ids_of_eids; eauto|].
      repeat split; auto. intros k e1 H. eauto.
    - (* an argument read for the first time: its wires become its ids *)
      destruct (g_args _ _ _ G v e L Ei) as (ws & Ew & La).
      specialize (Hb _ La). subst bits.
      rewrite Ew, firstn_all, Nat.sub_diag in HA. cbn [repeat] in HA. rewrite app_nil_r in HA.
      destruct (new_ids w (length ws)) as [nb w1] eqn:En. injection HA as <- <-.
      destruct (new_ids_spec _ _ _ _ En) as (Hh & Hn & Hf).
      assert (HvK : ~ In v Kt).
      { intros Hk. destruct (g_kt _ _ _ G v Hk) as (e1 & i1 & H1 & H2 & _). congruence. }
      assert (Hidv : ids_of w v = ws) by (unfold ids_of; rewrite L, Ei, Ew; reflexivity).
      set (e' := mkEntry (ebase e) (Some ws) (Some ws)).
      set (w' := mkWalloc (set_key v e' (whash w1)) (wfree w1) (wnext w1)).
      destruct (set_entry_inv w w' defd gcd v e e' ws (match nb with Some b => block b (length ws) | None => [] end) G L HvK)
        as (G' & Hk & Hlk & Hlv & Hal).
      + cbn. rewrite Hh. reflexivity.
      + exact Hn.
      + destruct nb; [exact Hf | rewrite <- Hf; reflexivity].
      + unfold oblock. cbn. rewrite Ew. reflexivity.
      + pose proof (g_ewf _ _ _ G v e L HvK) as Hw. unfold entry_wf in *. cbn. rewrite Ew in Hw.
        destruct Hw as (H1 & H2 & _). auto.
      + reflexivity.
      + rewrite <- Hidv. apply (g_prov _ _ _ G v e L).
      + split; [exact G'|]. split; [symmetry; exact Hidv|]. split; [|auto].
        intros k. destruct (N.eq_dec k v) as [->|Hkv]; [|apply ids_of_ext, Hlk, Hkv].
        rewrite Hidv. eapply ids_of_eids; eauto.
  Qed.

  Lemma assigned_ids_new_shape w v bits ids w' :
    lookup v (whash w) = None -> assigned_ids w v bits = (ids, w') ->
    exists b, ids = block b bits /\
      whash w' = (v, mkEntry (Some b) None (Some ids)) :: whash w /\
      ((wnext w' = wnext w /\ Permutation (free_ids w) (ids ++ free_ids w')) \/
       (b = wnext w /\ wnext w' = (wnext w + N.of_nat bits)%N /\ free_ids w' = free_ids w)).
  Proof.
    intros L H. unfold assigned_ids in H. rewrite L in H.
    destruct (Nat.eqb bits 0) eqn:E0.
    - apply Nat.eqb_eq in E0. subst bits. injection H as <- <-. exists (wnext w). cbn [whash wnext block seq map].
      split; [reflexivity|]. split; [reflexivity|]. right. repeat split; auto. symmetry. apply N.add_0_r.
    - destruct (new_ids w bits) as [[b|] w1] eqn:En; destruct (new_ids_spec _ _ _ _ En) as (Hh & Hn & Hf);
        injection H as <- <-; cbn [whash wnext]; rewrite Hh, Hn.
      + exists b. repeat split. left. split; [reflexivity | exact Hf].
      + exists (wnext w). repeat split. right. repeat split. exact Hf.
  Qed.

  (* AssignedIDs of a value that is not allocated: a block nobody owns *)
  Lemma assigned_ids_new w defd gcd v bits ids w' :
    ginv w defd gcd -> lookup v (whash w) = None -> (In v NC -> ~ In v gcd) ->
    assigned_ids w v bits = (ids, w') ->
    ginv w' (v :: defd) gcd /\ ids_of w' v = ids /\ NoDup ids /\
    (forall k, k <> v -> ids_of w' k = ids_of w k) /\
    (forall k, k <> v -> allocated w' k = allocated w k) /\ allocated w' v = true /\
    (forall k e1, lookup k (whash w) = Some e1 -> lookup k (whash w') = Some e1) /\
    (forall id, In id ids -> ~ In id (owned_ids (whash w))) /\
    (exists ev, lookup v (whash w') = Some ev /\ ewires ev = None /\ eids ev = Some ids /\ oblock ev = ids).
  Proof.
    intros G L Hg H.
    assert (HvK : ~ In v Kt).
    { intros Hk. destruct (g_kt _ _ _ G v Hk) as (e & ? & Le & _). congruence. }
    destruct (assigned_ids_new_shape _ _ _ _ _ L H) as (b & Hids & Hh & Hcase).
    set (ev := mkEntry (Some b) None (Some ids)) in *.
    assert (Hob : oblock ev = ids).
    { unfold oblock, ev. cbn. rewrite Hids, block_length. reflexivity. }
    assert (Hlk : forall k, k <> v -> lookup k (whash w') = lookup k (whash w)).
    { intros k Hk. rewrite Hh. cbn. apply N.eqb_neq in Hk. rewrite Hk. reflexivity. }
    assert (Hlv : lookup v (whash w') = Some ev) by (rewrite Hh; cbn; rewrite N.eqb_refl; reflexivity).
    assert (Hlk' : forall k e1, lookup k (whash w) = Some e1 -> lookup k (whash w') = Some e1).
    { intros k e1 H1. rewrite Hlk; [exact H1|]. intros ->. congruence. }
    assert (Hown : owned_ids (whash w') = ids ++ owned_ids (whash w)).
    { rewrite Hh. unfold owned_ids. cbn [flat_map fst snd]. apply mem_false in HvK. rewrite HvK, Hob. reflexivity. }
    assert (Hgeo : geo (ids ++ owned_ids (whash w) ++ free_ids w') (wnext w')).
    { pose proof (ginv_geo _ _ _ G) as Hg0. destruct Hcase as [(Hn & Hf)|(Hb & Hn & Hf)].
      - rewrite Hn. apply (geo_sub _ _ [] _ Hg0). cbn [app]. rewrite Hf. apply Permutation_app_swap_app.
      - rewrite Hn, Hf, Hids, Hb. apply geo_bump, Hg0. }
    assert (Hnew : forall id, In id ids -> ~ In id (owned_ids (whash w))).
    { destruct Hgeo as [Hnd _]. apply NoDup_app_iff in Hnd as (_ & _ & Hd).
      intros id Hid Ho. apply (Hd id Hid), in_or_app. auto. }
    assert (GI : ginv w' (v :: defd) gcd).
    { apply (ginv_frame w w' defd (v :: defd) gcd gcd v G Hlk HvK).
      - intros e H0. congruence.
      - rewrite Hh. cbn. constructor; [apply lookup_none_notin, L | apply (g_keys _ _ _ G)].
      - rewrite Hown, <- app_assoc. exact Hgeo.
      - intros e1 H1. rewrite Hlv in H1. injection H1 as <-.
        split; [unfold entry_wf, ev; cbn; eauto|]. split; [discriminate|].
        right. intros id Hid. rewrite (ids_of_eids _ _ _ _ Hlv eq_refl) in Hid.
        exists v, ev. rewrite Hob. repeat split; auto. right. apply self_desc.
      - apply incl_refl.
      - intros k _. right. intros id. apply backed_kept. intros k1 e1 H1. eauto.
      - intros k Hk. destruct (N.eq_dec k v) as [->|Hkv].
        + rewrite (allocated_some _ _ _ Hlv). split; [intros _; split; [left; reflexivity | auto] | reflexivity].
        + rewrite (allocated_ext w w' k (Hlk k Hkv)), (g_alloc _ _ _ G k Hk). cbn [In]. intuition congruence. }
    split; [exact GI|]. split; [exact (ids_of_eids _ _ _ _ Hlv eq_refl)|].
    split; [rewrite Hids; apply NoDup_block|].
    split; [intros k Hk; apply ids_of_ext, Hlk, Hk|].
    split; [intros k Hk; apply allocated_ext, Hlk, Hk|].
    split; [exact (allocated_some _ _ _ Hlv)|].
    split; [exact Hlk'|]. split; [exact Hnew|].
    exists ev. repeat split; auto.
  Qed.

  Lemma gc_wires_shape w u e :
    lookup u (whash w) = Some e -> entry_wf e ->
    exists w', gc_wires w u = Some w' /\ whash w' = remove_key u (whash w) /\ wnext w' = wnext w /\
      exists B, Permutation (B ++ free_ids w') (oblock e ++ free_ids w).
  Proof.
    intros L Hw. unfold gc_wires. rewrite L. eexists. split; [reflexivity|]. cbn [whash wnext].
    repeat split; auto. unfold free_ids. cbn [wfree]. unfold entry_wf, oblock in *.
    assert (Hsame : forall l, exists B, Permutation (B ++ free_l (wfree w)) (l ++ free_l (wfree w)))
      by (intros l; exists l; reflexivity).
    destruct (ewires e) as [ws|] eqn:Ew.
    - destruct Hw as (Hb & Hbase & Hlen).
      destruct (eids e) as [[|i0 rest]|] eqn:Ei; [apply Hsame| |apply Hsame].
      destruct ws as [|w0 ws']; [simpl in Hlen; discriminate|].
      exists []. simpl in Hlen. cbn [hd] in *.
      assert (Eb : match match ebase e with None => Some w0 | Some b => Some b end with None => i0 | Some b => b end = w0).
      { destruct Hbase as [->| ->]; reflexivity. }
      rewrite Eb, Hb. cbn [length app]. rewrite <- Hlen. apply free_push.
    - destruct Hw as (b & ids & Hb & Hi). rewrite Hb, Hi.
      destruct ids as [|i0 rest]; [apply Hsame|]. exists []. apply free_push.
  Qed.

  Lemma gc_wires_inv w defd gcd u e :
    ginv w defd gcd -> lookup u (whash w) = Some e -> In u NC ->
    exists w', gc_wires w u = Some w' /\ ginv w' defd (u :: gcd) /\
               (forall k, k <> u -> lookup k (whash w') = lookup k (whash w)) /\
               allocated w' u = false.
  Proof.
    intros G L Hnc.
    assert (HuK : ~ In u Kt) by (intros Hk; exact (kt_nc u Hk Hnc)).
    destruct (gc_wires_shape w u e L (g_ewf _ _ _ G u e L HuK)) as (w' & Hg & Hh & Hn & B & Hfree).
    exists w'. split; [exact Hg|].
    assert (Hlk : forall k, k <> u -> lookup k (whash w') = lookup k (whash w)).
    { intros k Hk. rewrite Hh. apply lookup_remove_key_neq. congruence. }
    assert (Hlu : lookup u (whash w') = None) by (rewrite Hh; apply lookup_remove_key_eq, (g_keys _ _ _ G)).
    split; [|split; [exact Hlk | apply allocated_none, Hlu]].
    apply (ginv_frame w w' defd defd gcd (u :: gcd) u G Hlk HuK).
    - intros e0 _ [->| ->]; contradiction.
    - rewrite Hh. apply NoDup_remove_key, (g_keys _ _ _ G).
    - (* the block of u leaves the owned ids and goes to the free lists or is lost *)
      rewrite Hn. apply (geo_sub _ _ B _ (ginv_geo _ _ _ G)).
      pose proof (owned_remove_key _ _ _ L) as P. apply mem_false in HuK. rewrite HuK in P.
      rewrite Hh, P, <- app_assoc, (Permutation_app_swap_app (oblock e)), <- Hfree. apply Permutation_app_swap_app.
    - intros e' H. congruence.
    - apply incl_tl, incl_refl.
    - intros k Hku.
      destruct (in_dec N.eq_dec k (fdesc steps0 u)) as [Hd|Hd]; [left; exists u; split; [left; reflexivity | exact Hd] | right].
      intros id (k2 & e2 & P1 & P2 & P3 & P4). exists k2, e2. rewrite Hlk; [auto|].
      intros ->. destruct P4 as [P4|P4]; contradiction.
    - intros k Hk. destruct (N.eq_dec k u) as [->|Hku].
      + rewrite (allocated_none _ _ Hlu). split; [discriminate|]. intros [_ H]. exfalso. apply H. left. reflexivity.
      + rewrite (allocated_ext w w' k (Hlk k Hku)), (g_alloc _ _ _ G k Hk). cbn [In]. intuition congruence.
  Qed.

  (* the alias rewiring: out[bit] = id *)
  Lemma set_ids_inv w defd gcd v ev ids' :
    ginv w defd gcd -> lookup v (whash w) = Some ev -> ewires ev = None -> In v NC ->
    (forall old, eids ev = Some old -> length ids' = length old) ->
    (doomed gcd v \/ forall id, In id ids' -> backed w v id) ->
    ginv (set_ids w v ids') defd gcd /\
    (forall k, k <> v -> lookup k (whash (set_ids w v ids')) = lookup k (whash w)) /\
    (forall k, allocated (set_ids w v ids') k = allocated w k).
  Proof.
    intros G L Ew Hnc Hlen Hprov.
    assert (HvK : ~ In v Kt) by (intros Hk; exact (kt_nc v Hk Hnc)).
    pose proof (g_ewf _ _ _ G v ev L HvK) as Hwf. unfold entry_wf in Hwf. rewrite Ew in Hwf.
    destruct Hwf as (b & old & Hb & Ho). specialize (Hlen old Ho).
    unfold set_ids. rewrite L.
    set (e' := mkEntry (ebase ev) (ewires ev) (Some ids')).
    destruct (set_entry_inv w (mkWalloc (set_key v e' (whash w)) (wfree w) (wnext w)) defd gcd v ev e' ids' [] G L HvK
                eq_refl eq_refl (Permutation_refl _)) as (G' & _ & Hlk & _ & Hal); auto.
    - unfold oblock. cbn. rewrite Ew, Hb, Ho, Hlen. reflexivity.
    - unfold entry_wf. cbn. rewrite Ew. eauto.
  Qed.

  Definition ext (w w1 : walloc) : Prop :=
    kept w w1 /\ (forall k, allocated w k = true -> ids_of w1 k = ids_of w k) /\
    (forall k, In k NC -> allocated w1 k = allocated w k).

  Lemma ext_refl w : ext w w.
  Proof. split; [intros k e H; eauto | auto]. Qed.

  Lemma ext_trans a b c : ext a b -> ext b c -> ext a c.
  Proof.
    intros (A1 & A2 & A3) (B1 & B2 & B3). repeat split.
    - intros k e1 H. destruct (A1 _ _ H) as (e2 & H2 & O2). destruct (B1 _ _ H2) as (e3 & H3 & O3).
      exists e3. split; [exact H3 | congruence].
    - intros k H. rewrite B2, A2; auto. eapply kept_allocated; eauto.
    - intros k H. rewrite B3, A3; auto.
  Qed.

  Definition opnd_ok (w : walloc) (i : val) : Prop :=
    (vconst i = false -> allocated w (vid i) = true) /\ (vconst i = true -> ~ In (vid i) NC) /\
    (forall b, lookup (vid i) args = Some b -> vbits i = b).

  (* the wire ids the step loop collects for operand i: its ids, padded with
     the zero wire or truncated to the operand's width *)
  Definition opnd_ids (w : walloc) (i : val) : list N :=
    pad_operand N zero (vsigned i) (vbits i) (ids_of w (vid i)).

  Lemma operand_ids_inv : forall ins w defd gcd wires w1,
    ginv w defd gcd -> (forall i, In i ins -> opnd_ok w i) ->
    operand_ids w zero ins = (wires, w1) ->
    ginv w1 defd gcd /\ ext w w1 /\ (forall i, In i ins -> allocated w1 (vid i) = true) /\
    wires = map (opnd_ids w1) ins.
  Proof.
    induction ins as [|i rest IH]; intros w defd gcd wires w1 G Hok H.
    - simpl in H. injection H as <- <-. split; [exact G|]. split; [apply ext_refl|]. split; [intros i []|reflexivity].
    - cbn [operand_ids] in H.
      destruct (assigned_ids w (vid i) (vbits i)) as [ids wa] eqn:Ea.
      destruct (operand_ids wa zero rest) as [r w2] eqn:Er. injection H as <- <-.
      destruct (Hok i (or_introl eq_refl)) as (O1 & O2 & O3).
      assert (Hstep : ginv wa defd gcd /\ ext w wa /\ allocated wa (vid i) = true /\ ids = ids_of wa (vid i)).
      { destruct (lookup (vid i) (whash w)) as [e|] eqn:L.
        - destruct (assigned_ids_existing _ _ _ _ _ _ _ _ G L (fun b Hb => O3 b Hb) Ea) as (G' & I1 & I2 & I3 & I4).
          split; [exact G'|].
          split; [split; [exact I4|split; [intros k _; apply I2|intros k _; apply I3]]|].
          split; [rewrite I3; exact (allocated_some _ _ _ L) | rewrite I2; exact I1].
        - (* a constant outside the table, allocated at its first use *)
          assert (Hc : vconst i = true).
          { destruct (vconst i) eqn:C; [reflexivity|]. specialize (O1 eq_refl). rewrite (allocated_none _ _ L) in O1. discriminate. }
          specialize (O2 Hc).
          destruct (assigned_ids_new _ _ _ _ _ _ _ G L (fun Hn => match O2 Hn with end) Ea) as (G' & I1 & _ & I2 & I3 & I4 & I5 & _ & _).
          split; [apply (ginv_defd _ _ _ _ G'); intros k Hk; split; [right; assumption | intros [<-|H]; [contradiction | exact H]]|].
          split; [split; [|split]|auto].
          + intros k e1 Hl. exists e1. split; [apply I5, Hl | reflexivity].
          + intros k Hk. apply I2. intros ->. rewrite (allocated_none _ _ L) in Hk. discriminate.
          + intros k Hk. apply I3. intros ->. contradiction. }
      destruct Hstep as (Ga & Xa & Ala & Eids).
      assert (Hok' : forall j, In j rest -> opnd_ok wa j).
      { intros j Hj. destruct (Hok j (or_intror Hj)) as (P1 & P2 & P3). repeat split; auto.
        intros Hc. apply (kept_allocated w wa _ (proj1 Xa)), P1, Hc. }
      destruct (IH wa defd gcd r w2 Ga Hok' Er) as (G1 & X1 & Al1 & Ew).
      split; [exact G1|]. split; [eapply ext_trans; eauto|]. split.
      + intros j [<-|Hj]; [|auto]. apply (kept_allocated wa w2 _ (proj1 X1)), Ala.
      + cbn [map]. rewrite <- Ew. f_equal. unfold opnd_ids. rewrite (proj1 (proj2 X1) _ Ala), <- Eids. reflexivity.
  Qed.

  (* the return values of a native circuit step (case Circ): every one
     gets a fresh block, all different, none of them an id anybody owns *)
  Lemma circ_out_ids_inv : forall rets sizes w defd gcd oIDs w3,
    ginv w defd gcd -> length sizes = length rets -> NoDup (map vid rets) ->
    (forall r, In r rets -> In (vid r) NC /\ lookup (vid r) (whash w) = None /\ ~ In (vid r) gcd) ->
    circ_out_ids w zero sizes rets = (oIDs, w3) ->
    exists defd3, ginv w3 defd3 gcd /\
      (forall k, In k defd3 <-> In k (map vid rets) \/ In k defd) /\
      (forall k, ~ In k (map vid rets) -> ids_of w3 k = ids_of w k /\ allocated w3 k = allocated w k) /\
      (forall k e1, lookup k (whash w) = Some e1 -> lookup k (whash w3) = Some e1) /\
      (forall r, In r rets -> allocated w3 (vid r) = true /\ length (ids_of w3 (vid r)) = vbits r) /\
      NoDup (flat_map (fun r => ids_of w3 (vid r)) rets) /\
      (forall id, In id (flat_map (fun r => ids_of w3 (vid r)) rets) -> ~ In id (owned_ids (whash w))) /\
      (sizes = map vbits rets -> oIDs = flat_map (fun r => ids_of w3 (vid r)) rets).
  Proof.
    induction rets as [|r rs IH]; intros sizes w defd gcd oIDs w3 G Hl Hnd Hr H.
    - destruct sizes; [|discriminate]. cbn in H. injection H as <- <-. exists defd. split; [exact G|].
      split; [intros k; cbn; tauto|]. split; [auto|]. split; [auto|]. split; [intros r []|].
      split; [constructor|]. split; [intros id []|]. reflexivity.
    - destruct sizes as [|n t]; [discriminate|]. cbn [circ_out_ids] in H.
      destruct (assigned_ids w (vid r) (vbits r)) as [ids w1] eqn:Ea.
      destruct (circ_out_ids w1 zero t rs) as [o w2] eqn:Er. injection H as <- <-.
      cbn [map] in Hnd. inversion Hnd as [|? ? Hn Hnd']; subst.
      destruct (Hr r (or_introl eq_refl)) as (R1 & R2 & R3).
      destruct (assigned_ids_new _ _ _ _ _ _ _ G R2 (fun _ => R3) Ea) as (G1 & I1 & Ind & I2 & I3 & I4 & I5 & I6 & (ev & Lev & Ewv & Eiv & Hobv)).
      assert (HrK : ~ In (vid r) Kt) by (intros Hk; exact (kt_nc _ Hk R1)).
      assert (Hlen_ids : length ids = vbits r).
      { destruct (assigned_ids_new_shape _ _ _ _ _ R2 Ea) as (b0 & -> & _). apply block_length. }
      assert (Hr1 : forall r0, In r0 rs -> In (vid r0) NC /\ lookup (vid r0) (whash w1) = None /\ ~ In (vid r0) gcd).
      { intros r0 H0. destruct (Hr r0 (or_intror H0)) as (A & B & C). split; [exact A|]. split; [|exact C].
        assert (Hne : vid r0 <> vid r) by (intros E; apply Hn; rewrite <- E; apply in_map, H0).
        pose proof (I3 _ Hne) as Hal. unfold allocated in Hal. rewrite B in Hal.
        destruct (lookup (vid r0) (whash w1)); [discriminate | reflexivity]. }
      assert (Hl' : length t = length rs) by (simpl in Hl; lia).
      destruct (IH t w1 (vid r :: defd) gcd o w2 G1 Hl' Hnd' Hr1 Er) as (defd3 & G3 & D3 & K3 & L3 & A3 & N3 & F3 & O3).
      assert (Hidr : ids_of w2 (vid r) = ids) by (rewrite (proj1 (K3 _ Hn)); exact I1).
      assert (Hown1 : forall id, In id ids -> In id (owned_ids (whash w1))).
      { intros id Hid. apply (owned_in _ (vid r) ev); auto. rewrite Hobv. exact Hid. }
      assert (Hsub : forall id, In id (owned_ids (whash w)) -> In id (owned_ids (whash w1))).
      { intros id Hid. destruct (owned_inv _ _ Hid (g_keys _ _ _ G)) as (k & e & Lk & Hk & Hb).
        apply (owned_in _ k e); auto. }
      exists defd3. split; [exact G3|].
      split; [intros k; rewrite D3; cbn; clear; tauto|].
      split.
      { intros k Hk. assert (Hk1 : k <> vid r) by (intros ->; apply Hk; left; reflexivity).
        assert (Hk2 : ~ In k (map vid rs)) by (intros Hi; apply Hk; right; exact Hi).
        destruct (K3 k Hk2) as [K31 K32]. split; [rewrite K31; apply I2, Hk1 | rewrite K32; apply I3, Hk1]. }
      split; [intros k e1 Lk; apply L3, I5, Lk|].
      split.
      { intros r0 [<-|H0]; [|apply A3, H0]. split; [rewrite (proj2 (K3 _ Hn)); exact I4 | rewrite Hidr; exact Hlen_ids]. }
      split.
      { cbn [flat_map]. rewrite Hidr. apply NoDup_app_iff. split; [exact Ind|]. split; [exact N3|].
        intros id Hid Hf. exact (F3 id Hf (Hown1 id Hid)). }
      split.
      { cbn [flat_map]. rewrite Hidr. intros id Hid. apply in_app_or in Hid as [Hid|Hid]; [apply I6, Hid|].
        intros Ho. exact (F3 id Hid (Hsub id Ho)). }
      intros Es. cbn [map] in Es. injection Es as -> ->. cbn [flat_map]. rewrite Hidr, (O3 eq_refl).
      f_equal. rewrite <- Hlen_ids. apply fill_self.
  Qed.

  Variable circs : list ccirc.
  Hypothesis Hwfl : wfl (map fst args) steps0.
  Hypothesis HNC : forall k, In k NC <-> In k (outs_l steps0 ++ map fst args).

  Definition sok (s : instr) : Prop :=
    step_kind s /\
    (iop s = OCirc -> length (cc_outs (nth (icirc s) circs cc0)) = length (iret s)) /\
    forall i, In i (iin s) -> (vconst i = true -> ~ In (vid i) NC) /\
                              (forall b, lookup (vid i) args = Some b -> vbits i = b).
  Hypothesis Hsok : Forall sok steps0.

  Definition live (gcd : list N) (E later : list instr) : Prop :=
    forall u, In u gcd -> In u NC /\ In u (outs_l E ++ map fst args) /\
                          forall x, In x (fdesc steps0 u) -> ~ In x (ncops_l later).

  (* the allocator between the executed steps E and the steps [later] *)
  Definition AInv (w : walloc) (E later : list instr) (gcd : list N) : Prop :=
    ginv w (outs_l E ++ map fst args) gcd /\ live gcd E later.

  Lemma outs_l_app a b : outs_l (a ++ b) = outs_l a ++ outs_l b.
  Proof. unfold outs_l. apply flat_map_app. Qed.

  Lemma in_defd_snoc E s k :
    In k (outs_l (E ++ [s]) ++ map fst args) <-> In k (outs_of s) \/ In k (outs_l E ++ map fst args).
  Proof. rewrite outs_l_app. change (outs_l [s]) with (outs_of s ++ []). rewrite app_nil_r, !in_app_iff. tauto. Qed.

  Lemma live_snoc gcd E s later : live gcd E (s :: later) -> live gcd (E ++ [s]) later.
  Proof.
    intros Hl u Hu. destruct (Hl u Hu) as (L1 & L2 & L3). split; [exact L1|]. split.
    - apply in_defd_snoc. auto.
    - intros x Hx Hi. apply (L3 x Hx). unfold ncops_l. cbn [flat_map]. apply in_or_app. auto.
  Qed.

  Lemma AInv_snoc w w' E s later defd' gcd :
    AInv w E (s :: later) gcd -> ginv w' defd' gcd ->
    (forall k, In k defd' <-> In k (outs_of s) \/ In k (outs_l E ++ map fst args)) -> AInv w' (E ++ [s]) later gcd.
  Proof.
    intros (_ & Hl) G' Hd. split; [|apply live_snoc, Hl].
    apply (ginv_defd _ _ _ _ G'). intros k _. rewrite in_defd_snoc, Hd. reflexivity.
  Qed.

  Lemma outs_of_out s o : iout s = Some o -> iret s = [] -> outs_of s = [vid o].
  Proof. unfold outs_of. intros -> ->. reflexivity. Qed.

  Lemma outs_of_none s : iout s = None -> outs_of s = map vid (iret s).
  Proof. unfold outs_of. intros ->. reflexivity. Qed.

  Lemma fdesc_nc u x : In u NC -> In x (fdesc steps0 u) -> In x NC.
  Proof.
    intros Hu Hx. unfold fdesc in Hx. apply fold_fstep_in in Hx as [[<-|[]]|Hx]; [exact Hu|].
    apply HNC. apply in_or_app. auto.
  Qed.

  Lemma live_not_doomed gcd E later v :
    live gcd E later -> In v (ncops_l later) \/ ~ In v NC -> ~ doomed gcd v.
  Proof.
    intros Hl Hv (u & Hu & Hd). destruct (Hl u Hu) as (Hun & _ & Hno). destruct Hv as [Hv|Hv].
    - exact (Hno v Hd Hv).
    - apply Hv. eapply fdesc_nc; eauto.
  Qed.

  Lemma step_in E s later : steps0 = E ++ s :: later -> In s steps0.
  Proof. intros H. rewrite H. apply in_elt. Qed.

  Lemma nc_ins_defd E s later a : steps0 = E ++ s :: later -> In a (nc_ins s) ->
    In a NC /\ In a (outs_l E ++ map fst args).
  Proof.
    intros E0 Ha. apply (proj1 (Hwfl E s later E0)) in Ha. split; [|exact Ha].
    apply HNC. rewrite E0, outs_l_app, !in_app_iff. rewrite in_app_iff in Ha. tauto.
  Qed.

  Lemma out_new E s later o : steps0 = E ++ s :: later -> In o (outs_of s) ->
    In o NC /\ ~ In o (outs_l E ++ map fst args).
  Proof.
    intros E0 Ho. split; [|exact (proj2 (Hwfl E s later E0) o Ho)].
    apply HNC, in_or_app. left. apply in_flat_map. exists s. split; [eapply step_in; eauto | exact Ho].
  Qed.

  Lemma opnd_class t i : In t steps0 -> In i (iin t) -> In (vid i) (nc_ins t) \/ ~ In (vid i) NC.
  Proof.
    intros Ht Hi. destruct (proj1 (Forall_forall _ _) Hsok t Ht) as (_ & _ & Hops).
    destruct (vconst i) eqn:C; [right; apply (Hops i Hi), C | left; apply in_nc_ins; eauto].
  Qed.

  Lemma used_class l v : (forall t, In t l -> In t steps0) -> In v (used_from l) ->
    In v (ncops_l l) \/ ~ In v NC.
  Proof.
    intros Hl Hv. apply in_flat_map in Hv as (t & Ht & Hv). apply in_map_iff in Hv as (i & <- & Hi).
    destruct (opnd_class t i (Hl t Ht) Hi) as [H|H]; [left; apply in_flat_map; eauto | auto].
  Qed.

  Lemma later_in E l t : steps0 = E ++ l -> In t l -> In t steps0.
  Proof. intros H Ht. rewrite H. apply in_or_app. auto. Qed.

  Lemma used_not_doomed gcd E l v :
    steps0 = E ++ l -> live gcd E l -> In v (used_from l) -> ~ doomed gcd v.
  Proof.
    intros E0 Hl Hv. apply (live_not_doomed _ _ _ _ Hl), used_class; [|exact Hv].
    intros t. apply (later_in E l t E0).
  Qed.

  Lemma used_operand s l i : In i (iin s) -> In (vid i) (used_from (s :: l)).
  Proof. intros Hi. apply in_or_app. left. apply in_map, Hi. Qed.

  Lemma out_fresh s E later w gcd o :
    steps0 = E ++ s :: later -> AInv w E (s :: later) gcd -> In o (outs_of s) ->
    In o NC /\ lookup o (whash w) = None /\ ~ In o gcd.
  Proof.
    intros E0 (G & Hl) Ho. destruct (out_new _ _ _ _ E0 Ho) as [HoNC HoNew].
    split; [exact HoNC|]. split.
    - destruct (lookup o (whash w)) eqn:L; [|reflexivity]. exfalso. apply HoNew.
      apply (g_alloc _ _ _ G _ HoNC), (allocated_some _ _ _ L).
    - intros Hg. destruct (Hl _ Hg) as (_ & Hd & _). exact (HoNew Hd).
  Qed.

  Lemma step_operands s E later w gcd wires w1 :
    steps0 = E ++ s :: later -> AInv w E (s :: later) gcd ->
    operand_ids w zero (iin s) = (wires, w1) ->
    forallb (fun i => vconst i || allocated w (vid i)) (iin s) = true /\
    AInv w1 E (s :: later) gcd /\ ext w w1 /\
    (forall i, In i (iin s) -> allocated w1 (vid i) = true) /\
    wires = map (opnd_ids w1) (iin s).
  Proof.
    intros E0 (Gi & Hl) Eo.
    assert (Hopnd : forall i, In i (iin s) -> opnd_ok w i).
    { intros i Hi. destruct (proj1 (Forall_forall _ _) Hsok s (step_in _ _ _ E0)) as (_ & _ & Hops).
      destruct (Hops i Hi) as [H1 H2]. split; [|split; [exact H1 | exact H2]].
      intros Hc. assert (Ha : In (vid i) (nc_ins s)) by (apply in_nc_ins; eauto).
      destruct (nc_ins_defd _ _ _ _ E0 Ha) as [Hn Hd]. apply (g_alloc _ _ _ Gi _ Hn). split; [exact Hd|].
      intros Hg. destruct (Hl _ Hg) as (_ & _ & Hno). apply (Hno (vid i)); [apply self_desc|].
      unfold ncops_l. cbn [flat_map]. apply in_or_app. auto. }
    split.
    - apply forallb_forall. intros i Hi. destruct (vconst i) eqn:C; [reflexivity | apply (Hopnd i Hi), C].
    - destruct (operand_ids_inv _ _ _ _ _ _ Gi Hopnd Eo) as (G1 & X1 & Al1 & Ew). split; [split|]; auto.
  Qed.

  Lemma nc_ins_alloc s w : (forall i, In i (iin s) -> allocated w (vid i) = true) ->
    forall a, In a (nc_ins s) -> allocated w a = true.
  Proof. intros H a Ha. apply in_nc_ins in Ha as (i & Hi & _ & <-). apply H, Hi. Qed.

  (* the rewiring of an alias result keeps the invariant: the new ids come from
     the zero wire, the old ids of the result, or the ids of operands, which are
     backed by owners related to the result *)
  Lemma alias_inv s o E later w2 defd2 gcd wires out ids' ev :
    steps0 = E ++ s :: later -> is_alias_op (iop s) = true -> iout s = Some o ->
    ginv w2 defd2 gcd -> live gcd E (s :: later) ->
    lookup (vid o) (whash w2) = Some ev -> ewires ev = None -> eids ev = Some out -> oblock ev = out ->
    wires = map (opnd_ids w2) (iin s) ->
    (forall i, In i (iin s) -> allocated w2 (vid i) = true) ->
    alias_ids N zero (iop s) wires (map vcint (iin s)) out (vbits o) = Some ids' ->
    ginv (set_ids w2 (vid o) ids') defd2 gcd /\
    (forall k, k <> vid o -> lookup k (whash (set_ids w2 (vid o) ids')) = lookup k (whash w2)) /\
    (forall k, allocated (set_ids w2 (vid o) ids') k = allocated w2 k).
  Proof.
    intros E0 Hop Eout G2 Hl Lo Ewv Eiv Hob Hw Hal Eal.
    pose proof (step_in _ _ _ E0) as Hin.
    assert (Hov : In (vid o) (outs_of s)) by (unfold outs_of; rewrite Eout; left; reflexivity).
    destruct (out_new _ _ _ _ E0 Hov) as [HoNC _].
    apply (set_ids_inv w2 _ gcd (vid o) ev ids' G2 Lo Ewv HoNC).
    { intros old Ho. rewrite Eiv in Ho. injection Ho as <-. eapply alias_ids_length; eauto. }
    right. intros id Hid.
    assert (Hz : backed w2 (vid o) zero).
    { destruct (g_z _ _ _ G2) as (ez & eo & Z1 & Z2 & _). exists zk, ez. rewrite Z2.
      repeat split; auto; [left; reflexivity | left; exact zk_nc]. }
    destruct (alias_ids_incl N zero _ _ _ _ _ _ Eal id Hid) as [->|[Ho|(wj & Hwj & Hidw)]]; [exact Hz| |].
    - exists (vid o), ev. rewrite Hob. repeat split; auto; [intros Hk; exact (kt_nc _ Hk HoNC) | right; apply self_desc].
    - rewrite Hw in Hwj. apply in_map_iff in Hwj as (i & <- & Hi).
      apply pad_operand_incl in Hidw as [->|Hidw]; [exact Hz|].
      pose proof (Hal i Hi) as Ha. apply allocated_lookup in Ha as (ei & Li).
      assert (Hci : In (vid i) (nc_ins s) \/ ~ In (vid i) NC) by (apply opnd_class; auto).
      destruct (g_prov _ _ _ G2 _ _ Li) as [Hd|Hp].
      { exfalso. exact (used_not_doomed _ _ _ _ E0 Hl (used_operand s later i Hi) Hd). }
      destruct (Hp id Hidw) as (k & e' & P1 & P2 & P3 & P4). exists k, e'. repeat split; auto.
      destruct P4 as [P4|P4]; [left; exact P4|].
      destruct Hci as [Hc|Hc].
      + right. eapply fdesc_closed; [exact Hwfl | exact P4|]. exists s, o. repeat split; auto.
      + left. unfold fdesc in P4. apply fold_fstep_in in P4 as [[E1|[]]|P4]; [rewrite E1; exact Hc|].
        exfalso. apply Hc. apply HNC, in_or_app. auto.
  Qed.

  (* ids nobody owns may be written: they are neither the zero/one wire nor
     ids of a value that is still read *)
  Lemma write_ok_fresh w1 defd gcd w' written outs used :
    ginv w1 defd gcd ->
    (forall id, In id written -> ~ In id (owned_ids (whash w1))) ->
    (forall v, In v used -> ~ In v outs -> ~ doomed gcd v /\ ids_of w' v = ids_of w1 v) ->
    write_ok w' written outs used [zero; one] = true.
  Proof.
    intros G Hf Hu. unfold write_ok, disjoint_ids. apply andb_true_intro. split.
    - apply forallb_forall. intros id Hid. apply negb_true_iff, mem_false. intros Hz.
      exact (Hf id Hid (zero_one_owned _ _ _ G id Hz)).
    - apply forallb_forall. intros v Hv.
      destruct (in_dec N.eq_dec v outs) as [Ho|Ho]; [rewrite (proj2 (mem_In _ _) Ho); reflexivity|].
      apply orb_true_iff. right. destruct (Hu v Hv Ho) as [Hd Hi]. rewrite Hi.
      apply forallb_forall. intros id Hid. apply negb_true_iff, mem_false. intros Hiv.
      exact (Hf id Hid (live_ids_owned _ _ _ _ _ G Hd Hiv)).
  Qed.

  Lemma wstep_alias s w : is_alias_op (iop s) = true ->
    wstep circs zero s w =
    (let '(wires, w1) := operand_ids w zero (iin s) in
     let '(out, w2) := match iout s with Some o => assigned_ids w1 (vid o) (vbits o) | None => ([], w1) end in
     match iout s with
     | None => None
     | Some o => match alias_ids N zero (iop s) wires (map vcint (iin s)) out (vbits o) with
                 | Some ids => Some (set_ids w2 (vid o) ids)
                 | None => None
                 end
     end).
  Proof.
    intros H. unfold wstep. destruct (operand_ids w zero (iin s)) as [wires w1].
    destruct (match iout s with Some o => assigned_ids w1 (vid o) (vbits o) | None => ([], w1) end) as [out w2].
    destruct (iop s); try discriminate; reflexivity.
  Qed.

  Lemma step_out s o E later w1 gcd out w2 :
    steps0 = E ++ s :: later -> iout s = Some o -> iret s = [] ->
    AInv w1 E (s :: later) gcd -> assigned_ids w1 (vid o) (vbits o) = (out, w2) ->
    AInv w2 (E ++ [s]) later gcd /\
    ids_of w2 (vid o) = out /\ NoDup out /\ length out = vbits o /\
    (forall k, k <> vid o -> ids_of w2 k = ids_of w1 k /\ allocated w2 k = allocated w1 k) /\
    (forall k, allocated w1 k = true -> ids_of w2 k = ids_of w1 k /\ allocated w2 k = true) /\
    allocated w2 (vid o) = true /\
    (forall id, In id out -> ~ In id (owned_ids (whash w1))) /\
    (exists ev, lookup (vid o) (whash w2) = Some ev /\ ewires ev = None /\ eids ev = Some out /\ oblock ev = out).
  Proof.
    intros E0 Eout Eret HA1 Ea. pose proof (outs_of_out s o Eout Eret) as Houts.
    assert (Hov : In (vid o) (outs_of s)) by (rewrite Houts; left; reflexivity).
    destruct (out_fresh _ _ _ _ _ _ E0 HA1 Hov) as (HoNC & Lo & Hog).
    destruct (assigned_ids_new _ _ _ _ _ _ _ (proj1 HA1) Lo (fun _ => Hog) Ea) as (G2 & I1 & Ind & I2 & I3 & I4 & _ & I6 & Hev).
    split; [apply (AInv_snoc w1 w2 E s later _ gcd HA1 G2); intros k; rewrite Houts; cbn; tauto|].
    split; [exact I1|]. split; [exact Ind|].
    split; [destruct (assigned_ids_new_shape _ _ _ _ _ Lo Ea) as (b0 & -> & _); apply block_length|].
    split; [intros k Hk; split; [apply I2 | apply I3]; exact Hk|].
    split; [|auto]. intros k Hk.
    assert (Hne : k <> vid o) by (intros ->; rewrite (allocated_none _ _ Lo) in Hk; discriminate).
    rewrite I2, I3 by exact Hne. auto.
  Qed.

  Lemma operands_keep s w1 w2 wires :
    wires = map (opnd_ids w1) (iin s) ->
    (forall i, In i (iin s) -> allocated w1 (vid i) = true) ->
    (forall k, allocated w1 k = true -> ids_of w2 k = ids_of w1 k /\ allocated w2 k = true) ->
    wires = map (opnd_ids w2) (iin s) /\
    forall i, In i (iin s) -> allocated w2 (vid i) = true.
  Proof.
    intros -> Al1 Hk. split; [|intros i Hi; apply Hk, Al1, Hi].
    apply map_ext_in. intros i Hi. unfold opnd_ids. rewrite (proj1 (Hk _ (Al1 i Hi))). reflexivity.
  Qed.

  Lemma step_circ s E later w1 gcd oIDs w3 :
    steps0 = E ++ s :: later -> iop s = OCirc -> iout s = None -> NoDup (map vid (iret s)) ->
    AInv w1 E (s :: later) gcd -> (forall i, In i (iin s) -> allocated w1 (vid i) = true) ->
    circ_out_ids w1 zero (cc_outs (nth (icirc s) circs cc0)) (iret s) = (oIDs, w3) ->
    let idsf := fun r => ids_of w3 (vid r) in
    AInv w3 (E ++ [s]) later gcd /\
    (forall k, ~ In k (map vid (iret s)) -> ids_of w3 k = ids_of w1 k /\ allocated w3 k = allocated w1 k) /\
    (forall r, In r (iret s) -> allocated w3 (vid r) = true /\ length (idsf r) = vbits r) /\
    NoDup (flat_map idsf (iret s)) /\
    (forall id, In id (flat_map idsf (iret s)) -> ~ In id (owned_ids (whash w1))) /\
    (cc_outs (nth (icirc s) circs cc0) = map vbits (iret s) -> oIDs = flat_map idsf (iret s)) /\
    (forall i, In i (iin s) -> allocated w3 (vid i) = true).
  Proof.
    intros E0 Eop Eout Hndr HA1 Al1 Ec idsf. pose proof (outs_of_none s Eout) as Houts.
    destruct (proj1 (Forall_forall _ _) Hsok s (step_in _ _ _ E0)) as (_ & Hclen & _).
    assert (Hrets : forall r, In r (iret s) -> In (vid r) NC /\ lookup (vid r) (whash w1) = None /\ ~ In (vid r) gcd).
    { intros r Hr0. apply (out_fresh _ _ _ _ _ _ E0 HA1). rewrite Houts. apply in_map, Hr0. }
    destruct (circ_out_ids_inv _ _ _ _ _ _ _ (proj1 HA1) (Hclen Eop) Hndr Hrets Ec) as (defd3 & G3 & D3 & K3 & _ & A3 & N3 & F3 & O3).
    split; [apply (AInv_snoc w1 w3 E s later defd3 gcd HA1 G3); intros k; rewrite D3, Houts; reflexivity|].
    split; [exact K3|]. split; [exact A3|]. split; [exact N3|]. split; [exact F3|]. split; [exact O3|].
    intros i Hi. apply Al1 in Hi. rewrite <- Hi. apply K3. intros Hir. apply in_map_iff in Hir as (r & Er & Hr0). destruct (Hrets r Hr0) as (_ & Lr & _).
    rewrite <- Er, (allocated_none _ _ Lr) in Hi. discriminate.
  Qed.

  Lemma step_run s rest E later w gcd :
    steps0 = E ++ s :: later -> AInv w E (s :: later) gcd ->
    (forall v, In v (used_from rest) -> In v (ncops_l later) \/ ~ In v NC) ->
    forallb (fun i => vconst i || allocated w (vid i)) (iin s) = true /\
    match wstep circs zero s w with
    | None => iop s <> OGC
    | Some w' =>
        match iop s with
        | OGen | OCirc => write_ok w' (flat_map (ids_of w') (outs_of s)) (outs_of s) (used_from (s :: rest)) [zero; one]
        | _ => true
        end = true /\
        AInv w' (E ++ [s]) later gcd /\ forall a, In a (nc_ins s) -> allocated w' a = true
    end.
  Proof.
    intros E0 HA Hrest.
    pose proof (step_in _ _ _ E0) as Hin.
    destruct (proj1 (Forall_forall _ _) Hsok s Hin) as (Hshape & Hclen & _).
    assert (Hused : forall v, In v (used_from (s :: rest)) -> ~ doomed gcd v).
    { intros v Hv. apply (live_not_doomed _ E (s :: later)); [apply HA|].
      unfold used_from in Hv. cbn [flat_map] in Hv. unfold ncops_l. cbn [flat_map]. rewrite in_app_iff in *.
      destruct Hv as [Hv|Hv].
      - apply in_map_iff in Hv as (i & <- & Hi). destruct (opnd_class s i Hin Hi); auto.
      - destruct (Hrest v Hv); auto. }
    destruct (operand_ids w zero (iin s)) as [wires w1] eqn:Eo.
    destruct (step_operands _ _ _ _ _ _ _ E0 HA Eo) as (C1 & HA1 & X1 & Al1 & Ew).
    split; [exact C1|]. pose proof (proj1 HA1) as G1.
    destruct Hshape as [(Eop & Eout & Eret)|[(o & Eout & Eret & Ecl)|(Eop & Eout & Hndr)]].
    - (* ret *)
      unfold wstep. rewrite Eo, Eout, Eop. split; [reflexivity|]. split; [|apply nc_ins_alloc, Al1].
      apply (AInv_snoc w1 w1 E s later _ gcd HA1 G1). intros k. rewrite (outs_of_none s Eout), Eret. cbn. tauto.
    - (* a step with one new result value *)
      destruct (assigned_ids w1 (vid o) (vbits o)) as [out w2] eqn:Ea.
      destruct (step_out _ _ _ _ _ _ _ _ E0 Eout Eret HA1 Ea) as (HA2 & I1 & _ & _ & I2 & Hkeep & _ & I6 & (ev & Lev & Ewv & Eiv & Hobv)).
      destruct (operands_keep s w1 w2 wires Ew Al1 Hkeep) as [Hwires Hal2].
      destruct Ecl as [Eg|Eal].
      + unfold wstep. rewrite Eo, Eout, Ea, Eg. split; [|split; [exact HA2 | apply nc_ins_alloc, Hal2]].
        rewrite (outs_of_out s o Eout Eret). cbn [flat_map]. rewrite I1, app_nil_r.
        apply (write_ok_fresh _ _ _ _ _ _ _ G1); [exact I6|].
        intros v Hv Hvo. split; [apply Hused, Hv | apply I2]. intros ->. apply Hvo. left. reflexivity.
      + rewrite (wstep_alias s w Eal), Eo, Eout, Ea.
        destruct (alias_ids N zero (iop s) wires (map vcint (iin s)) out (vbits o)) as [ids'|] eqn:Eai.
        2:{ intros Eg. rewrite Eg in Eal. discriminate. }
        destruct (alias_inv s o E later w2 _ gcd wires out ids' ev E0 Eal Eout (proj1 HA2) (proj2 HA1) Lev Ewv Eiv Hobv Hwires Hal2 Eai) as (G3 & _ & A3).
        split; [destruct (iop s); try discriminate; reflexivity|].
        split; [split; [exact G3 | apply HA2]|].
        intros a Ha. rewrite A3. revert a Ha. apply nc_ins_alloc, Hal2.
    - (* a native circuit step *)
      unfold wstep. rewrite Eo, Eout, Eop.
      destruct (circ_out_ids w1 zero (cc_outs (nth (icirc s) circs cc0)) (iret s)) as [oIDs w3] eqn:Ec.
      destruct (step_circ _ _ _ _ _ _ _ E0 Eop Eout Hndr HA1 Al1 Ec) as (HA3 & K3 & _ & _ & F3 & _ & Al3).
      split; [|split; [exact HA3 | apply nc_ins_alloc, Al3]].
      rewrite (outs_of_none s Eout), flat_map_map. apply (write_ok_fresh _ _ _ _ _ _ _ G1); [exact F3|].
      intros v Hv Hvo. split; [apply Hused, Hv | apply K3, Hvo].
  Qed.

  Lemma gc_step w E later gcd u :
    AInv w E later gcd -> allocated w u = true -> In u NC -> In u (outs_l E ++ map fst args) ->
    (forall x, In x (fdesc steps0 u) -> ~ In x (ncops_l later)) ->
    exists w', gc_wires w u = Some w' /\ AInv w' E later (u :: gcd) /\
               forall k, k <> u -> lookup k (whash w') = lookup k (whash w).
  Proof.
    intros (G & Hl) Ha Hnc Hd Hno. apply allocated_lookup in Ha as (e & Le).
    destruct (gc_wires_inv w _ gcd u e G Le Hnc) as (w' & Hg & G' & Hlk & _).
    exists w'. split; [exact Hg|]. split; [|exact Hlk]. split; [exact G'|].
    intros u' [<-|Hu]; [auto | apply Hl, Hu].
  Qed.

  Lemma wstep_gc w i : wstep circs zero (gc_instr i) w = gc_wires w (vid i).
  Proof. reflexivity. Qed.

  Lemma gcs_no_operands s later G : good_gcs steps0 s later G -> used_from G = [].
  Proof. intros [H _]. induction H as [|x G (i & -> & _) _ IH]; [reflexivity | exact IH]. Qed.

  Lemma gcs_allocated s later G w : good_gcs steps0 s later G ->
    (forall a, In a (nc_ins s) -> allocated w a = true) -> forall g, In g G -> allocated w (gcid g) = true.
  Proof.
    intros [HGF _] Hal g Hg. rewrite Forall_forall in HGF. destruct (HGF g Hg) as (i & -> & _ & Hi & _). apply Hal, Hi.
  Qed.

  Lemma nc_ins_defd_snoc E s later a : steps0 = E ++ s :: later -> In a (nc_ins s) ->
    In a NC /\ In a (outs_l (E ++ [s]) ++ map fst args).
  Proof. intros E0 Ha. destruct (nc_ins_defd _ _ _ _ E0 Ha). split; [assumption|]. apply in_defd_snoc. auto. Qed.

  Lemma gcs_run s E later : forall G rest w gcd,
    good_gcs steps0 s later G -> (forall g, In g G -> allocated w (gcid g) = true) ->
    (forall a, In a (nc_ins s) -> In a NC /\ In a (outs_l E ++ map fst args)) ->
    AInv w E later gcd ->
    (forall w' gcd', AInv w' E later gcd' -> npr_steps circs zero one rest w' = true) ->
    npr_steps circs zero one (G ++ rest) w = true.
  Proof.
    induction G as [|g G IH]; intros rest w gcd [HF Hnd] Hal Hs HA K.
    - apply (K w gcd HA).
    - inversion HF as [|? ? (i & -> & Hc & Hi & Hno) HF']; subst.
      cbn [map] in Hnd. inversion Hnd as [|? ? Hn Hnd']; subst.
      destruct (Hs _ Hi) as [Hinc Hidef].
      destruct (gc_step w E later gcd (vid i) HA (Hal _ (or_introl eq_refl)) Hinc Hidef Hno) as (w' & Hg & HA' & Hlk).
      cbn [app npr_steps]. cbn [gc_instr iin forallb andb iop]. rewrite wstep_gc, Hg. cbn [andb].
      apply (IH rest w' (vid i :: gcd)); auto; [split; assumption|].
      intros g Hg0. rewrite (allocated_ext w w'); [apply (Hal g); right; exact Hg0 | apply Hlk].
      intros E0. apply Hn. cbn [gcid gc_instr igc]. rewrite <- E0. apply in_map. exact Hg0.
  Qed.

  Lemma used_from_gcform later g : gcform steps0 later g ->
    forall v, In v (used_from g) -> In v (used_from later).
  Proof.
    induction 1 as [|s later G g Hf IH HG]; intros v Hv; [exact Hv|].
    unfold used_from in *. cbn [flat_map] in *. rewrite flat_map_app in Hv. fold (used_from G) in Hv.
    rewrite (gcs_no_operands _ _ _ HG) in Hv. apply in_app_or in Hv as [Hv|Hv]; apply in_or_app; auto.
  Qed.

  Lemma run_npr : forall later g, gcform steps0 later g ->
    forall E w gcd, steps0 = E ++ later -> AInv w E later gcd ->
    npr_steps circs zero one g w = true.
  Proof.
    induction 1 as [|s later G g' Hf IH HG]; intros E w gcd E0 HA; [reflexivity|].
    destruct (step_run s (G ++ g') E later w gcd E0 HA) as [C1 HS].
    { intros v Hv. unfold used_from in Hv. rewrite flat_map_app in Hv. fold (used_from G) (used_from g') in Hv.
      rewrite (gcs_no_operands _ _ _ HG) in Hv. apply (used_from_gcform _ _ Hf), used_class in Hv; [exact Hv|].
      intros t Ht. apply (later_in E (s :: later)); [exact E0 | right; exact Ht]. }
    cbn [npr_steps]. rewrite C1. cbn [andb].
    destruct (wstep circs zero s w) as [w'|]; [|destruct (iop s); congruence].
    destruct HS as (Hw & HA' & Hal'). apply andb_true_intro. split; [exact Hw|].
    assert (E1 : steps0 = (E ++ [s]) ++ later) by (rewrite <- app_assoc; exact E0).
    apply (gcs_run s (E ++ [s]) later G g' w' gcd HG); auto.
    - apply (gcs_allocated _ _ _ _ HG Hal').
    - intros a. apply (nc_ins_defd_snoc E s later a E0).
    - intros w'' gcd' HA''. apply (IH (E ++ [s]) w'' gcd' E1 HA'').
  Qed.

  Definition vpos_ops (s : instr) : list val :=
    flat_map (fun j => match nth_error (iin s) j with Some i => [i] | None => [] end)
             (value_positions (iop s) (length (iin s))).
  Definition vused (l : list instr) : list N := flat_map (fun s => map vid (vpos_ops s)) l.

  Definition rd (st : sstate) (id : N) : bool := sfind false (cs_wires (ss_cs st)) id.

  Definition Rel (st : sstate) (e : env) (rest : list instr) : Prop :=
    forall v b, lookup v e = Some b -> In v (vused rest) ->
      allocated (ss_w st) v = true /\ map (rd st) (ids_of (ss_w st) v) = b.

  Definition Bd (e : env) (E : list instr) : Prop :=
    forall k, In k (outs_l E ++ map fst args) \/ In k Kt -> exists b, lookup k e = Some b.

  Definition simres (a : option sstate) (b : option (env * list bool)) : Prop :=
    match a, b with
    | Some stf, Some (_, retf) => map (rd stf) (ss_ret stf) = retf
    | None, None => True
    | _, _ => False
    end.

  Definition sok2 (s : instr) : Prop :=
    (forall j i, In j (value_positions (iop s) (length (iin s))) -> nth_error (iin s) j = Some i -> vconst i = true ->
       In (vid i) Kt \/
       (iop s = OGen /\ range_unread (cc_c (nth (icirc s) circs cc0)) (opnd_off (iin s) j) (vbits i) = true)) /\
    circ_step_ok circs s /\ slice_step_ok s /\ gen_step_ok circs s.
  Hypothesis Hsok2 : Forall sok2 steps0.
  Hypothesis Hretlast : forall E s later, steps0 = E ++ s :: later -> iop s = ORet -> later = [].

  Lemma vpos_in s i : In i (vpos_ops s) ->
    exists j, In j (value_positions (iop s) (length (iin s))) /\ nth_error (iin s) j = Some i.
  Proof.
    unfold vpos_ops. intros H. apply in_flat_map in H as (j & Hj & H).
    destruct (nth_error (iin s) j) eqn:E; [|destruct H]. destruct H as [<-|[]]. eauto.
  Qed.

  Lemma vpos_at s j i : In j (value_positions (iop s) (length (iin s))) -> nth_error (iin s) j = Some i -> In i (vpos_ops s).
  Proof. intros Hj E. unfold vpos_ops. apply in_flat_map. exists j. split; [exact Hj|]. rewrite E. left. reflexivity. Qed.

  Lemma vpos_all s i : value_positions (iop s) (length (iin s)) = seq 0 (length (iin s)) -> In i (iin s) -> In i (vpos_ops s).
  Proof.
    intros Hv Hi. apply In_nth_error in Hi as (j & Hj). apply (vpos_at s j i); [|exact Hj].
    rewrite Hv. apply in_seq. split; [apply Nat.le_0_l|]. apply nth_error_Some. rewrite Hj. discriminate.
  Qed.

  Lemma vused_used l v : In v (vused l) -> In v (used_from l).
  Proof.
    intros Hv. apply in_flat_map in Hv as (t & Ht & Hv). apply in_map_iff in Hv as (i & <- & Hi).
    apply in_flat_map. exists t. split; [exact Ht|]. apply in_map. destruct (vpos_in _ _ Hi) as (j & _ & Ej).
    eapply nth_error_In; eauto.
  Qed.

  Lemma vused_cons s l v : In v (vused l) -> In v (vused (s :: l)).
  Proof. intros H. unfold vused. cbn [flat_map]. apply in_or_app. auto. Qed.

  (* the rewiring depends on the old content of the result only through its
     length when the result is filled completely *)
  Definition SInv (st : sstate) (e : env) (E later : list instr) (gcd : list N) : Prop :=
    ss_zero st = zero /\ AInv (ss_w st) E later gcd /\ Rel st e later /\ Bd e E /\ rd st zero = false.

  Lemma stream_step_gc idx i st :
    stream_step circs idx (gc_instr i) st =
    match gc_wires (ss_w st) (vid i) with Some w3 => Some (with_w st w3) | None => None end.
  Proof. reflexivity. Qed.

  Lemma gcs_sim s E later : forall G rest st e ret idx gcd,
    good_gcs steps0 s later G -> (forall g, In g G -> allocated (ss_w st) (gcid g) = true) ->
    (forall a, In a (nc_ins s) -> In a NC /\ In a (outs_l E ++ map fst args)) ->
    (forall t, In t later -> In t steps0) ->
    SInv st e E later gcd ->
    (forall st' gcd' idx', SInv st' e E later gcd' -> ss_cs st' = ss_cs st -> ss_ret st' = ss_ret st ->
        simres (stream_steps circs idx' rest st') (ssa_steps circs rest (e, ret))) ->
    simres (stream_steps circs idx (G ++ rest) st) (ssa_steps circs (G ++ rest) (e, ret)).
  Proof.
    induction G as [|g G IH]; intros rest st e ret idx gcd [HF Hnd] Hal Hs Hlat HI K.
    - simpl. apply (K st gcd idx); auto.
    - inversion HF as [|? ? (i & -> & Hc & Hi & Hno) HF']; subst.
      cbn [map] in Hnd. inversion Hnd as [|? ? Hn Hnd']; subst.
      cbn [app stream_steps ssa_steps]. rewrite stream_step_gc.
      change (ssa_step circs (gc_instr i) (e, ret)) with (Some (e, ret)).
      destruct HI as (Hz & HA & HR & HB & Hrz). destruct (Hs _ Hi) as [Hinc Hidef].
      destruct (gc_step _ E later gcd (vid i) HA (Hal _ (or_introl eq_refl)) Hinc Hidef Hno) as (w' & Hg & HA' & Hlk).
      rewrite Hg.
      apply (IH rest (with_w st w') e ret (S idx) (vid i :: gcd) (conj HF' Hnd')); [| exact Hs | exact Hlat | |].
      + intros g Hg0. cbn [with_w ss_w]. rewrite (allocated_ext (ss_w st) w'); [apply (Hal g); right; exact Hg0 | apply Hlk].
        intros E0. apply Hn. cbn [gcid gc_instr igc]. rewrite <- E0. apply in_map. exact Hg0.
      + split; [exact Hz|]. split; [exact HA'|]. split; [|split; [exact HB | exact Hrz]].
        intros v b Lb Hv. destruct (HR v b Lb Hv) as [A1 A2].
        assert (Hvu : v <> vid i).
        { intros ->. destruct (used_class later (vid i) Hlat (vused_used _ _ Hv)) as [H|H]; [|exact (H Hinc)].
          apply (Hno (vid i)); [apply self_desc | exact H]. }
        cbn [with_w ss_w]. rewrite (allocated_ext _ _ _ (Hlk v Hvu)), (ids_of_ext _ _ _ (Hlk v Hvu)). auto.
      + intros st' gcd' idx' HI' Hcs Hret. apply (K st' gcd' idx' HI'); [rewrite Hcs | rewrite Hret]; reflexivity.
  Qed.

  Lemma stream_step_alias idx s st : is_alias_op (iop s) = true ->
    stream_step circs idx s st =
    (let '(wires, w1) := operand_ids (ss_w st) (ss_zero st) (iin s) in
     let '(out, w2) := match iout s with Some o => assigned_ids w1 (vid o) (vbits o) | None => ([], w1) end in
     match iout s with
     | None => None
     | Some o => match alias_ids N (ss_zero st) (iop s) wires (map vcint (iin s)) out (vbits o) with
                 | Some ids => Some (with_w (with_w st w2) (set_ids w2 (vid o) ids))
                 | None => None
                 end
     end).
  Proof.
    intros H. unfold stream_step. destruct (operand_ids (ss_w st) (ss_zero st) (iin s)) as [wires w1].
    destruct (match iout s with Some o => assigned_ids w1 (vid o) (vbits o) | None => ([], w1) end) as [out w2].
    destruct (iop s); try discriminate; reflexivity.
  Qed.

  Lemma ssa_step_alias s e ret : is_alias_op (iop s) = true ->
    ssa_step circs s (e, ret) =
    match iout s with
    | None => None
    | Some o => match alias_ids bool false (iop s) (map (operand_bits e) (iin s)) (map vcint (iin s))
                        (repeat false (vbits o)) (vbits o) with
                | Some b => Some ((vid o, b) :: e, ret)
                | None => None
                end
    end.
  Proof. intros H. unfold ssa_step. destruct (iop s); try discriminate; reflexivity. Qed.

  (* Program.garble on the persistent store: the allocator is not touched and
     the output ids carry the circuit's value of what the input ids carry *)
  Lemma vgarble_sim st idx c ins outs :
    length ins = ninputs c -> length outs = noutputs c -> NoDup outs -> (forall o, In o outs -> ~ In o ins) ->
    wf c = true -> ninputs c + noutputs c <= nwires c ->
    let st' := vgarble st idx c ins outs in
    ss_w st' = ss_w st /\ ss_zero st' = ss_zero st /\ ss_ret st' = ss_ret st /\
    map (rd st') outs = eval_plain c (map (rd st) ins) /\ (forall id, ~ In id outs -> rd st' id = rd st id).
  Proof.
    intros Hni Hno Hnd Hdisj Hwf Hsep st'.
    destruct (stream_sim_circuit c ins outs Hni Hno Hnd Hdisj Hwf Hsep (ss_cs st)) as [S1 S2]. cbv zeta in S1, S2.
    unfold rd, st', vgarble, garble_circ_bits.
    destruct (garble_circ bool false unit bit_gatef (ss_cs st) tt c ins outs) as [[cs' u] sgs]. cbn. auto.
  Qed.

  Lemma ids_of_set_ids w v ev ids' : lookup v (whash w) = Some ev -> ids_of (set_ids w v ids') v = ids'.
  Proof. intros L. unfold set_ids, ids_of. rewrite L. cbn [whash]. rewrite lookup_set_key_eq. reflexivity. Qed.

  (* a value that is still read keeps its bits when ids nobody owns are written *)
  Lemma rel_keep st st' e s later w1 defd1 gcd written :
    Rel st e (s :: later) -> ext (ss_w st) w1 -> ginv w1 defd1 gcd ->
    (forall v, In v (vused later) -> ~ doomed gcd v) ->
    (forall id, ~ In id written -> rd st' id = rd st id) ->
    (forall id, In id written -> ~ In id (owned_ids (whash w1))) ->
    forall v b, lookup v e = Some b -> In v (vused later) ->
      (allocated w1 v = true -> ids_of (ss_w st') v = ids_of w1 v /\ allocated (ss_w st') v = true) ->
      allocated (ss_w st') v = true /\ map (rd st') (ids_of (ss_w st') v) = b.
  Proof.
    intros HR (X11 & X12 & _) G1 Hlive Hframe Hfresh v b Lb Hv Hk.
    destruct (HR v b Lb (vused_cons s later v Hv)) as [A1 A2].
    assert (Ha1 : allocated w1 v = true).
    { apply allocated_lookup in A1 as (e0 & He0). destruct (X11 _ _ He0) as (e1 & He1 & _). apply allocated_lookup. eauto. }
    destruct (Hk Ha1) as [K1 K2]. split; [exact K2|]. rewrite K1, <- A2, <- (X12 _ A1).
    apply map_ext_in. intros id Hid. apply Hframe. intros Hw.
    exact (Hfresh id Hw (live_ids_owned _ _ _ _ _ G1 (Hlive v Hv) Hid)).
  Qed.

  Lemma step_sim s E later st e idx gcd :
    steps0 = E ++ s :: later -> SInv st e E (s :: later) gcd -> ss_ret st = [] ->
    match stream_step circs idx s st, ssa_step circs s (e, []) with
    | Some st', Some (e', ret') =>
        SInv st' e' (E ++ [s]) later gcd /\
        (forall a, In a (nc_ins s) -> allocated (ss_w st') a = true) /\
        map (rd st') (ss_ret st') = ret' /\ (iop s <> ORet -> ss_ret st' = [] /\ ret' = [])
    | None, None => True
    | _, _ => False
    end.
  Proof.
    intros E0 (Hz & HA & HR & HB & Hrz) Hret0.
    pose proof (step_in _ _ _ E0) as Hin.
    destruct (proj1 (Forall_forall _ _) Hsok s Hin) as (Hshape & Hclen & _).
    destruct (proj1 (Forall_forall _ _) Hsok2 s Hin) as (Htab0 & Hcirc & Hslice & Hgen).
    destruct (operand_ids (ss_w st) zero (iin s)) as [wires w1] eqn:Eo.
    destruct (step_operands _ _ _ _ _ _ _ E0 HA Eo) as (_ & HA1 & X1 & Al1 & Ew).
    pose proof HA1 as (G1 & Hl).
    assert (Hlive : forall v, In v (vused later) -> ~ doomed gcd v).
    { intros v Hv. apply (used_not_doomed _ _ _ _ E0 Hl), in_or_app. right. apply vused_used, Hv. }
    (* the ids of an operand in a value position carry, in the store, the bits the
       reference environment gives the operand; a constant operand must be tabled *)
    assert (Hwb0 : forall i, In i (vpos_ops s) -> (vconst i = true -> In (vid i) Kt) ->
              map (rd st) (opnd_ids w1 i) = operand_bits e i).
    { intros i Hi Ht. destruct (vpos_in _ _ Hi) as (j & _ & Ej). apply nth_error_In in Ej.
      assert (exists b, lookup (vid i) e = Some b) as (b & Lb).
      { apply HB. destruct (vconst i) eqn:C; [right; apply Ht; reflexivity|].
        left. apply (nc_ins_defd _ _ _ _ E0). apply in_nc_ins. eauto. }
      assert (Hu : In (vid i) (vused (s :: later))).
      { unfold vused. cbn [flat_map]. apply in_or_app. left. apply in_map, Hi. }
      destruct (HR _ _ Lb Hu) as [Ha Hm]. destruct X1 as (_ & X2 & _).
      unfold opnd_ids. rewrite (pad_operand_map N bool (rd st) zero), Hrz, (X2 _ Ha), Hm.
      unfold operand_bits. rewrite Lb. reflexivity. }
    assert (Hwb : iop s <> OGen -> forall i, In i (vpos_ops s) ->
              map (rd st) (opnd_ids w1 i) = operand_bits e i).
    { intros Hng i Hi. apply Hwb0; [exact Hi|]. intros Hc. destruct (vpos_in _ _ Hi) as (j & Hj & Ej).
      destruct (Htab0 j i Hj Ej Hc) as [H|[H _]]; [exact H | contradiction]. }
    (* what a step reads is the zero wire or ids of its operands: owned *)
    assert (Hown : forall wj id, In wj wires -> In id wj -> In id (owned_ids (whash w1))).
    { intros wj id Hwj Hid. rewrite Ew in Hwj. apply in_map_iff in Hwj as (i & <- & Hi).
      apply pad_operand_incl in Hid as [->|Hid]; [apply (zero_one_owned _ _ _ G1); left; reflexivity|].
      apply (live_ids_owned _ _ _ (vid i) _ G1); [|exact Hid].
      exact (used_not_doomed _ _ _ _ E0 Hl (used_operand s later i Hi)). }
    destruct Hshape as [(Eop & Eout & Eret)|[(o & Eout & Eret & Ecl)|(Eop & Eout & Hndr)]].
    - (* ret *)
      unfold stream_step, ssa_step. rewrite Hz, Eo, Eout, Eop.
      assert (Hlat : later = []) by (eapply Hretlast; eauto). subst later.
      pose proof (outs_of_none s Eout) as Houts. rewrite Eret in Houts.
      split; [|split; [|split]].
      + split; [reflexivity|]. split; [|split; [intros v b _ []|split; [|exact Hrz]]].
        * apply (AInv_snoc w1 w1 E s [] _ gcd HA1 G1). intros k. rewrite Houts. cbn. tauto.
        * intros k Hk. apply HB. rewrite in_defd_snoc, Houts in Hk. cbn in Hk. tauto.
      + apply nc_ins_alloc, Al1.
      + cbn [ss_ret]. rewrite Hret0. cbn [app]. rewrite concat_map, Ew, map_map. f_equal. apply map_ext_in.
        intros i Hi. apply Hwb; [rewrite Eop; discriminate|]. apply vpos_all; [rewrite Eop; reflexivity | exact Hi].
      + intros Hne. congruence.
    - (* a step with one new result value *)
      destruct (assigned_ids w1 (vid o) (vbits o)) as [out w2] eqn:Ea.
      destruct (step_out _ _ _ _ _ _ _ _ E0 Eout Eret HA1 Ea)
        as (HA2 & I1 & Ind & Hlen_out & I2 & Hkeep & I4 & I6 & (ev & Lev & Ewv & Eiv & Hobv)).
      destruct (operands_keep s w1 w2 wires Ew Al1 Hkeep) as [Hwires Hal2].
      assert (HBd2 : forall b', Bd ((vid o, b') :: e) (E ++ [s])).
      { intros b' k Hk. cbn [lookup]. destruct (N.eqb k (vid o)) eqn:Ek; [eauto|]. apply N.eqb_neq in Ek. apply HB.
        rewrite in_defd_snoc, (outs_of_out s o Eout Eret) in Hk. cbn in Hk.
        destruct Hk as [[[Hk|[]]|Hk]|Hk]; [congruence | auto | auto]. }
      destruct Ecl as [Eg|Eal].
      + (* a circuit step *)
        unfold stream_step, ssa_step. rewrite Hz, Eo, Eout, Ea, Eg.
        destruct (Hgen Eg o Eout) as (Hcwf & Hcni & Hcno & Hcsep).
        set (c := cc_c (nth (icirc s) circs cc0)) in *.
        destruct (vgarble_sim (with_w st w2) idx c (concat wires) out) as (V1 & V2 & V3 & S1 & Hframe).
        { rewrite Ew. rewrite (concat_len (opnd_ids w1)).
          - symmetry. exact Hcni.
          - intros i. apply pad_operand_length. }
        { rewrite Hlen_out. symmetry. exact Hcno. }
        { exact Ind. }
        { intros id Ho Hi. apply in_concat in Hi as (wj & Hwj & Hi). exact (I6 _ Ho (Hown wj id Hwj Hi)). }
        { exact Hcwf. }
        { exact Hcsep. }
        set (st' := vgarble (with_w st w2) idx c (concat wires) out) in *.
        cbn [with_w ss_w ss_zero ss_ret] in V1, V2, V3. change (rd (with_w st w2)) with (rd st) in S1, Hframe.
        (* the two input vectors differ at most in constant operands that are not
           tabled, and those no gate of c reads *)
        assert (Hins : eval_plain c (map (rd st) (concat wires)) = eval_plain c (concat (map (operand_bits e) (iin s)))).
        { rewrite concat_map, Ew, map_map.
          assert (Hlf : forall i, length (map (rd st) (opnd_ids w1 i)) = vbits i)
            by (intros i; rewrite map_length; apply pad_operand_length).
          assert (Hlg : forall i, length (operand_bits e i) = vbits i) by (intros i; unfold operand_bits; apply pad_operand_length).
          apply eval_plain_unread.
          - rewrite (concat_len _ (iin s) Hlf), (concat_len _ (iin s) Hlg). reflexivity.
          - exact Hcsep.
          - intros k Hk Hr. apply (blocks_agree c _ _ (iin s) 0 Hlf Hlg); [|exact Hr].
            intros j i Ej.
            assert (Hj : In j (value_positions (iop s) (length (iin s)))).
            { rewrite Eg. cbn [value_positions]. apply in_seq. split; [clear; lia|]. cbn [Nat.add]. apply nth_error_Some. rewrite Ej. discriminate. }
            destruct (vconst i) eqn:C.
            + destruct (Htab0 j i Hj Ej C) as [H|[_ H]]; [left; apply Hwb0; [eapply vpos_at; eauto | intros _; exact H] | right; exact H].
            + left. apply Hwb0; [eapply vpos_at; eauto | congruence]. }
        split; [|split; [|split]].
        * split; [rewrite V2; exact Hz|]. split; [rewrite V1; exact HA2|].
          split; [|split; [apply HBd2|]].
          -- intros v b Lb Hv. cbn [lookup] in Lb. destruct (N.eqb v (vid o)) eqn:Ev.
             ++ apply N.eqb_eq in Ev. subst v. injection Lb as <-. rewrite V1. split; [exact I4|].
                rewrite I1, <- Hins. exact S1.
             ++ apply (rel_keep st st' e s later w1 _ gcd out HR X1 G1 Hlive Hframe I6 v b Lb Hv). rewrite V1. apply Hkeep.
          -- rewrite Hframe; [exact Hrz|]. intros Ho. exact (I6 _ Ho (zero_one_owned _ _ _ G1 zero (or_introl eq_refl))).
        * rewrite V1. apply nc_ins_alloc, Hal2.
        * rewrite V3, Hret0. reflexivity.
        * intros _. rewrite V3, Hret0. auto.
      + (* alias *)
        rewrite (stream_step_alias idx s st Eal), (ssa_step_alias s e [] Eal), Hz, Eo, Eout, Ea.
        (* reading the store commutes with the rewiring *)
        assert (Hchain : option_map (map (rd st)) (alias_ids N zero (iop s) wires (map vcint (iin s)) out (vbits o))
                         = alias_ids bool false (iop s) (map (operand_bits e) (iin s)) (map vcint (iin s))
                             (repeat false (vbits o)) (vbits o)).
        { rewrite (alias_ids_map N bool (rd st) zero), Hrz.
          rewrite (alias_ids_old false (iop s) _ _ (map (rd st) out) (repeat false (vbits o)) (vbits o)).
          - apply alias_ids_positions. rewrite map_length, Ew, map_length. intros j Hj.
            destruct (nth_error (iin s) j) as [i|] eqn:Ej.
            + rewrite map_map. rewrite (nth_map_error _ _ j i [] Ej), (nth_map_error _ _ j i [] Ej).
              apply Hwb; [intros Eg; rewrite Eg in Eal; discriminate|]. eapply vpos_at; eauto.
            + apply nth_error_None in Ej. rewrite !nth_overflow by (rewrite ?map_length; exact Ej). reflexivity.
          - rewrite map_length, repeat_length. exact Hlen_out.
          - rewrite map_length. exact Hlen_out.
          - intros Hs. destruct (Hslice Hs o Eout) as (_ & _ & H3). exact H3. }
        destruct (alias_ids N zero (iop s) wires (map vcint (iin s)) out (vbits o)) as [ids'|] eqn:Eai;
          cbn [option_map] in Hchain; rewrite <- Hchain; [|exact I].
        destruct (alias_inv s o E later w2 _ gcd wires out ids' ev E0 Eal Eout (proj1 HA2) Hl Lev Ewv Eiv Hobv Hwires Hal2 Eai) as (G3 & L3 & A3).
        set (st' := with_w (with_w st w2) (set_ids w2 (vid o) ids')).
        split; [|split; [|split]].
        * split; [exact Hz|]. split; [split; [exact G3 | apply HA2]|].
          split; [|split; [apply HBd2 | exact Hrz]].
          intros v b Lb Hv. cbn [lookup] in Lb. destruct (N.eqb v (vid o)) eqn:Ev.
          -- apply N.eqb_eq in Ev. subst v. injection Lb as <-. cbn [st' with_w ss_w]. split; [rewrite A3; exact I4|].
             rewrite (ids_of_set_ids w2 (vid o) ev ids' Lev). reflexivity.
          -- apply N.eqb_neq in Ev.
             apply (rel_keep st st' e s later w1 _ gcd [] HR X1 G1 Hlive (fun _ _ => eq_refl) (fun _ H => match H with end) v b Lb Hv).
             intros Ha. cbn [st' with_w ss_w]. rewrite A3, (ids_of_ext w2 _ v (L3 v Ev)). apply Hkeep, Ha.
        * cbn [st' with_w ss_w]. intros a Ha. rewrite A3. revert a Ha. apply nc_ins_alloc, Hal2.
        * cbn [st' with_w ss_ret]. rewrite Hret0. reflexivity.
        * intros _. cbn [st' with_w ss_ret]. auto.
    - (* a native circuit step *)
      destruct (Hcirc Eop) as (Hcwf & Hcli & Hcni & Hcouts & Hcno & Hcsep). cbv zeta in Hcwf, Hcli, Hcni, Hcouts, Hcno, Hcsep.
      set (cc := nth (icirc s) circs cc0) in *. set (c := cc_c cc) in *.
      unfold stream_step, ssa_step. rewrite Hz, Eo, Eout, Eop. fold cc c.
      set (inb := concat (map (fun p : nat * list bool => let '(bits, w) := p in
                                 map (fun j => if j <? length w then nth j w false else false) (seq 0 bits))
                              (combine (cc_ins cc) (map (operand_bits e) (iin s))))).
      pose proof (outs_of_none s Eout) as Houts.
      destruct (circ_out_ids w1 zero (cc_outs cc) (iret s)) as [oIDs w3] eqn:Ec.
      destruct (step_circ _ _ _ _ _ _ _ E0 Eop Eout Hndr HA1 Al1 Ec) as (HA3 & K3 & A3 & N3 & F3 & O3 & Al3).
      fold cc in O3. specialize (O3 Hcouts). rewrite <- O3 in N3, F3.
      set (idsf := fun r : val => ids_of w3 (vid r)) in *.
      set (iIDs := circ_in_ids zero (cc_ins cc) wires).
      assert (Hzown : In zero (owned_ids (whash w1))) by (apply (zero_one_owned _ _ _ G1); left; reflexivity).
      assert (Hlenf : forall r, In r (iret s) -> length (idsf r) = vbits r) by (intros r Hr0; apply A3, Hr0).
      destruct (vgarble_sim (with_w st w3) idx c iIDs oIDs) as (V1 & V2 & V3 & S1 & Hframe).
      { unfold iIDs. rewrite circ_in_length by (rewrite Ew, map_length; exact Hcli). symmetry. exact Hcni. }
      { rewrite O3, (flat_map_len idsf (iret s) Hlenf), Hcno, Hcouts. symmetry. apply sum_nat_vbits. }
      { exact N3. }
      { intros id Ho Hi. apply (F3 _ Ho).
        apply circ_in_incl in Hi as [->|(wj & Hwj & Hi)]; [exact Hzown | exact (Hown wj id Hwj Hi)]. }
      { exact Hcwf. }
      { exact Hcsep. }
      set (st' := vgarble (with_w st w3) idx c iIDs oIDs) in *.
      cbn [with_w ss_w ss_zero ss_ret] in V1, V2, V3. change (rd (with_w st w3)) with (rd st) in S1, Hframe.
      assert (Hins : map (rd st) iIDs = inb).
      { unfold iIDs, inb. rewrite (circ_in_read (rd st) zero Hrz). do 3 f_equal.
        rewrite Ew, map_map. apply map_ext_in. intros i Hi.
        apply Hwb; [rewrite Eop; discriminate|]. apply vpos_all; [rewrite Eop; reflexivity | exact Hi]. }
      assert (Hbits : map (rd st') (flat_map idsf (iret s)) = eval_plain c inb) by (rewrite <- O3, S1, Hins; reflexivity).
      split; [|split; [|split]].
      + split; [rewrite V2; exact Hz|]. rewrite V1. split; [exact HA3|]. split; [|split].
        * intros v b Lb Hv. rewrite Hcouts in Lb.
          destruct (bind_rets_rel idsf (rd st') e (iret s) _ Hlenf Hbits v b Lb) as [(r & Hr0 & <- & Hm)|[Hnv Le]].
          -- rewrite V1. split; [apply A3, Hr0 | exact Hm].
          -- apply (rel_keep st st' e s later w1 _ gcd oIDs HR X1 G1 Hlive Hframe F3 v b Le Hv).
             rewrite V1. intros Ha. destruct (K3 v Hnv) as [K31 K32]. rewrite K31, K32. auto.
        * intros k Hk. apply bind_rets_bound; [exact (Hclen Eop)|].
          rewrite in_defd_snoc, Houts in Hk. destruct Hk as [[Hk|Hk]|Hk]; [auto | left; apply HB; auto | left; apply HB; auto].
        * rewrite Hframe; [exact Hrz|]. intros Ho. exact (F3 _ Ho Hzown).
      + rewrite V1. apply nc_ins_alloc, Al3.
      + rewrite V3, Hret0. reflexivity.
      + intros _. rewrite V3, Hret0. auto.
  Qed.

  Lemma run_sim : forall later g, gcform steps0 later g ->
    forall E st e idx gcd, steps0 = E ++ later -> SInv st e E later gcd -> ss_ret st = [] ->
    simres (stream_steps circs idx g st) (ssa_steps circs g (e, [])).
  Proof.
    induction 1 as [|s later G g' Hf IH HG]; intros E st e idx gcd E0 HI Hret0.
    - cbn. rewrite Hret0. reflexivity.
    - cbn [stream_steps ssa_steps].
      pose proof (step_sim s E later st e idx gcd E0 HI Hret0) as HS.
      destruct (stream_step circs idx s st) as [st'|]; destruct (ssa_step circs s (e, [])) as [[e' ret']|];
        try contradiction; [|exact I].
      destruct HS as (HI' & Hal' & Hretrel & Hnr).
      assert (E1 : steps0 = (E ++ [s]) ++ later) by (rewrite <- app_assoc; exact E0).
      pose proof (fun a => nc_ins_defd_snoc E s later a E0) as Hs'.
      assert (Hlat : forall t, In t later -> In t steps0).
      { intros t Ht. apply (later_in E (s :: later)); [exact E0 | right; exact Ht]. }
      pose proof (gcs_allocated _ _ _ _ HG Hal') as Halg.
      assert (Hcase : iop s = ORet \/ iop s <> ORet) by (destruct (iop s); auto; right; discriminate).
      destruct Hcase as [Hr|Hr].
      + assert (later = []) by (eapply Hretlast; eauto). subst later.
        assert (Hg' : g' = []) by (inversion Hf; reflexivity). rewrite Hg'.
        apply (gcs_sim s (E ++ [s]) [] G [] st' e' ret' (S idx) gcd HG Halg Hs' Hlat HI').
        intros st'' gcd' idx' _ Hcs Hrt. cbn [stream_steps ssa_steps simres].
        rewrite Hrt, <- Hretrel. apply map_ext. intros id. unfold rd. rewrite Hcs. reflexivity.
      + destruct (Hnr Hr) as [Hr1 Hr2]. rewrite Hr2.
        apply (gcs_sim s (E ++ [s]) later G g' st' e' [] (S idx) gcd HG Halg Hs' Hlat HI').
        intros st'' gcd' idx' HI'' _ Hrt. apply (IH (E ++ [s]) st'' e' idx' gcd' E1 HI'').
        rewrite Hrt. exact Hr1.
  Qed.
End Dyn.

Fixpoint argents (al : list (N * nat)) (off : N) : list (N * entry) :=
  match al with
  | [] => []
  | (k, n) :: t => (k, mkEntry None (Some (block off n)) None) :: argents t (off + N.of_nat n)
  end.

Definition total (al : list (N * nat)) : N := fold_right (fun a acc => (N.of_nat (snd a) + acc)%N) 0%N al.

Lemma input_fold : forall al w,
  NoDup (map fst al) -> (forall k, In k (map fst al) -> lookup k (whash w) = None) ->
  fold_left (fun w a => input_wires w (fst a) (snd a)) al w
  = mkWalloc (rev (argents al (wnext w)) ++ whash w) (wfree w) (wnext w + total al).
Proof.
  induction al as [|[k n] t IH]; intros w Hnd Hnew.
  - simpl. rewrite N.add_0_r. destruct w; reflexivity.
  - cbn [fold_left fst snd]. inversion Hnd as [|? ? Hk Hnd']; subst.
    unfold input_wires at 2. rewrite (Hnew k (or_introl eq_refl)).
    rewrite IH; [|exact Hnd'|].
    + cbn [whash wfree wnext argents total fold_right snd rev]. rewrite <- app_assoc. cbn [app].
      fold (total t). f_equal; try reflexivity; lia.
    + intros k' Hk'. cbn [whash lookup]. destruct (N.eqb k' k) eqn:E.
      * apply N.eqb_eq in E. subst. contradiction.
      * apply Hnew. right. exact Hk'.
Qed.

Lemma argents_keys al : forall off, map fst (argents al off) = map fst al.
Proof. induction al as [|[k n] t IH]; intros off; simpl; [reflexivity | rewrite IH; reflexivity]. Qed.

Lemma argents_in al : forall off k e, In (k, e) (argents al off) ->
  exists b n, e = mkEntry None (Some (block b n)) None /\ In (k, n) al.
Proof.
  induction al as [|[k0 n0] t IH]; intros off k e H; [destruct H|].
  cbn [argents] in H. destruct H as [H|H].
  - injection H as <- <-. exists off, n0. split; [reflexivity | left; reflexivity].
  - destruct (IH _ _ _ H) as (b & n & E & I). exists b, n. split; [exact E | right; exact I].
Qed.

Definition constents (zero one : N) (cs : list (N * list bool)) : list (N * entry) :=
  map (fun c => let ids := map (fun b : bool => if b then one else zero) (snd c) in
                (fst c, mkEntry (match ids with [] => None | b :: _ => Some b end) (Some ids) (Some ids))) cs.

Lemma consts_fold zero one : forall cs w,
  NoDup (map fst cs) -> (forall k, In k (map fst cs) -> lookup k (whash w) = None) ->
  define_constants w zero one cs
  = mkWalloc (rev (constents zero one cs) ++ whash w) (wfree w) (wnext w).
Proof.
  unfold define_constants. induction cs as [|[k bits] t IH]; intros w Hnd Hnew.
  - simpl. destruct w; reflexivity.
  - cbn [fold_left]. inversion Hnd as [|? ? Hk Hnd']; subst.
    unfold allocated at 2. rewrite (Hnew k (or_introl eq_refl)).
    rewrite IH; [|exact Hnd'|].
    + unfold set_wires. cbn [whash wfree wnext constents map rev fst snd]. rewrite <- app_assoc. reflexivity.
    + intros k' Hk'. unfold set_wires. cbn [whash lookup]. destruct (N.eqb k' k) eqn:E.
      * apply N.eqb_eq in E. subst. contradiction.
      * apply Hnew. right. exact Hk'.
Qed.

Lemma nodupb_NoDup l : nodupb l = true -> NoDup l.
Proof.
  induction l as [|x t IH]; intros H; [constructor|]. simpl in H. apply andb_prop in H as [H1 H2].
  constructor; [|apply IH, H2]. apply mem_false. destruct (mem x t); [discriminate | reflexivity].
Qed.

Definition init_w (p : sprog) : walloc :=
  let n := total (sp_args p) in
  mkWalloc (rev (constents n (n + 1) (sp_consts p))
            ++ (sp_one_key p, mkEntry (Some (n + 1)%N) (Some [(n + 1)%N]) (Some [(n + 1)%N]))
            :: (sp_zero_key p, mkEntry (Some n) (Some [n]) (Some [n]))
            :: rev (argents (sp_args p) 0))
           [] (n + 2).

Definition init_alloc (p : sprog) : walloc * N * N :=
  let w1 := fold_left (fun w a => input_wires w (fst a) (snd a)) (sp_args p) walloc0 in
  let '(zw, w2) := assigned_wires w1 (sp_zero_key p) 1 in
  let zero := nth 0 zw 0%N in
  let '(ow, w3) := assigned_wires w2 (sp_one_key p) 1 in
  let one := nth 0 ow 0%N in
  (define_constants w3 zero one (sp_consts p), zero, one).

Lemma gate_zero_one (cs : cstate bool) (z : N) (neg : bool) :
  cs_wires (fst (garble_circ_bits cs (mkCircuit 2 1 1 [mkGate 0 0 1 (if neg then XNOR else XOR)]) [0%N] [z]))
  = sadd (cs_wires cs) z neg.
Proof.
  unfold garble_circ_bits, garble_circ, init_circuit. cbn [nwires gates length].
  destruct (cs_tmplen cs <? 2); destruct neg; cbn; destruct (sfind false (cs_wires cs) 0); reflexivity.
Qed.

Lemma vgarble_const st step (z : N) (neg : bool) :
  let st' := vgarble st step (mkCircuit 2 1 1 [mkGate 0 0 1 (if neg then XNOR else XOR)]) [0%N] [z] in
  cs_wires (ss_cs st') = sadd (cs_wires (ss_cs st)) z neg /\
  ss_ret st' = ss_ret st /\ ss_w st' = ss_w st /\ ss_zero st' = ss_zero st.
Proof.
  intros st'. pose proof (gate_zero_one (ss_cs st) z neg) as H.
  unfold st', vgarble. destruct (garble_circ_bits (ss_cs st) _ [0%N] [z]) as [cs' sgs]. cbn [fst] in H.
  split; [exact H | auto].
Qed.

Definition wires0 (xy : list bool) (nin : nat) : PositiveMap.t bool :=
  fold_left (fun (m : PositiveMap.t bool) (i : nat) => sadd m (N.of_nat i) (nth i xy false)) (seq 0 nin) (PositiveMap.empty bool).

Lemma wires0_find xy nin j : j < nin -> sfind false (wires0 xy nin) (N.of_nat j) = nth j xy false.
Proof.
  unfold wires0. induction nin as [|k IH]; intros Hj; [lia|].
  rewrite seq_S, fold_left_app. cbn [fold_left Nat.add].
  destruct (Nat.eq_dec j k) as [->|Hne]; [apply sfind_sadd_eq|].
  rewrite sfind_sadd_neq by lia. apply IH. lia.
Qed.

(* Program.Stream up to the step loop: the allocator and the zero/one ids are
   those of init_alloc; the store holds the inputs, false on zero, true on one *)
Lemma stream_init_parts p xy :
  let w1 := fold_left (fun w a => input_wires w (fst a) (snd a)) (sp_args p) walloc0 in
  (ss_w (stream_init p xy), ss_zero (stream_init p xy)) = fst (init_alloc p) /\
  ss_ret (stream_init p xy) = [] /\
  cs_wires (ss_cs (stream_init p xy))
  = sadd (sadd (wires0 xy (N.to_nat (wnext w1))) (snd (fst (init_alloc p))) false) (snd (init_alloc p)) true.
Proof.
  intros w1. unfold stream_init, init_alloc. fold w1.
  destruct (assigned_wires w1 (sp_zero_key p) 1) as [zw w2].
  change zero_circ with (mkCircuit 2 1 1 [mkGate 0 0 1 (if false then XNOR else XOR)]).
  change one_circ with (mkCircuit 2 1 1 [mkGate 0 0 1 (if true then XNOR else XOR)]).
  match goal with |- context [vgarble ?st 0 ?c [0%N] [nth 0 zw 0%N]] =>
    destruct (vgarble_const st 0 (nth 0 zw 0%N) false) as (V1 & V2 & V3 & V4);
    set (st1 := vgarble st 0 c [0%N] [nth 0 zw 0%N]) in * end.
  cbn [ss_w ss_zero ss_ret ss_cs cs_wires] in V1, V2, V3, V4. rewrite V3.
  destruct (assigned_wires w2 (sp_one_key p) 1) as [ow w3].
  match goal with |- context [vgarble ?st 0 ?c [0%N] [nth 0 ow 0%N]] =>
    destruct (vgarble_const st 0 (nth 0 ow 0%N) true) as (V5 & V6 & V7 & V8);
    set (st2 := vgarble st 0 c [0%N] [nth 0 ow 0%N]) in * end.
  unfold with_w in *. cbn [ss_w ss_zero ss_ret ss_cs cs_wires fst snd] in *.
  rewrite V8, V4, V6, V2, V5, V1. repeat split.
Qed.

Lemma init_alloc_eq p :
  NoDup (map fst (sp_args p) ++ const_keys p) ->
  init_alloc p = (init_w p, total (sp_args p), (total (sp_args p) + 1)%N).
Proof.
  intros Hnd. unfold const_keys in Hnd.
  apply NoDup_app_iff in Hnd as (Ha & Hc & Hac).
  inversion Hc as [|? ? Hz Hc1]; subst. inversion Hc1 as [|? ? Ho Hc2]; subst.
  unfold init_alloc.
  rewrite (input_fold (sp_args p) walloc0 Ha) by (intros k _; reflexivity).
  cbn [walloc0 whash wfree wnext]. rewrite app_nil_r, N.add_0_l.
  set (n := total (sp_args p)).
  set (H1 := rev (argents (sp_args p) 0)).
  assert (Hk1 : forall k e, In k (sp_zero_key p :: sp_one_key p :: map fst (sp_consts p)) -> lookup k H1 = Some e -> False).
  { intros k e Hk L. apply lookup_in in L. apply (Hac k); [|exact Hk].
    rewrite <- (argents_keys (sp_args p) 0). apply in_map_iff. exists (k, e). split; [reflexivity|].
    apply in_rev. exact L. }
  assert (Lz : lookup (sp_zero_key p) H1 = None).
  { destruct (lookup (sp_zero_key p) H1) eqn:L; [|reflexivity]. exfalso. eapply Hk1; eauto. left. reflexivity. }
  unfold assigned_wires at 1. cbn [whash]. rewrite Lz. cbn [block seq map nth wnext whash wfree].
  rewrite N.add_0_r.
  assert (Lo : lookup (sp_one_key p) ((sp_zero_key p, mkEntry (Some n) (Some [n]) (Some [n])) :: H1) = None).
  { cbn [lookup]. destruct (N.eqb (sp_one_key p) (sp_zero_key p)) eqn:E.
    - apply N.eqb_eq in E. exfalso. apply Hz. left. exact E.
    - destruct (lookup (sp_one_key p) H1) eqn:L; [|reflexivity]. exfalso. eapply Hk1; eauto. right. left. reflexivity. }
  unfold assigned_wires. cbn [whash]. rewrite Lo. cbn [block seq map nth wnext whash wfree].
  rewrite N.add_0_r.
  rewrite consts_fold; [|exact Hc2|].
  - unfold init_w. fold n. cbn [whash wfree wnext].
    replace (n + N.of_nat 1)%N with (n + 1)%N by lia.
    replace (n + 1 + N.of_nat 1)%N with (n + 2)%N by lia. reflexivity.
  - intros k Hk. cbn [whash lookup].
    destruct (N.eqb k (sp_one_key p)) eqn:E1; [apply N.eqb_eq in E1; subst; contradiction|].
    destruct (N.eqb k (sp_zero_key p)) eqn:E2; [apply N.eqb_eq in E2; subst; exfalso; apply Hz; right; exact Hk|].
    destruct (lookup k H1) eqn:L; [|reflexivity]. exfalso. eapply Hk1; eauto. right. right. exact Hk.
Qed.

Lemma owned_consts Kt l : (forall q, In q l -> In (fst q) Kt) -> owned_ids Kt l = [].
Proof.
  induction l as [|q t IH]; intros H; [reflexivity|]. unfold owned_ids in *. simpl.
  rewrite (proj2 (mem_In _ _) (H q (or_introl eq_refl))). simpl. apply IH. intros q' Hq. apply H. right. exact Hq.
Qed.

Lemma owned_app Kt a b : owned_ids Kt (a ++ b) = owned_ids Kt a ++ owned_ids Kt b.
Proof. unfold owned_ids. apply flat_map_app. Qed.

Lemma owned_cons Kt k e l : ~ In k Kt -> owned_ids Kt ((k, e) :: l) = oblock e ++ owned_ids Kt l.
Proof. intros H. unfold owned_ids. cbn [flat_map fst snd]. rewrite (proj2 (mem_false _ _) H). reflexivity. Qed.

Lemma geo_bump1 l next : geo l next -> geo ([next] ++ l) (next + 1).
Proof. intros H. apply (geo_bump l 1) in H. unfold block in H. cbn [seq map N.of_nat] in H. rewrite N.add_0_r in H. exact H. Qed.

(* the argument entries, put in front of the table one after the other, take
   the next ids *)
Lemma geo_args Kt : forall al H next,
  (forall k, In k (map fst al) -> ~ In k Kt) -> geo (owned_ids Kt H) next ->
  geo (owned_ids Kt (rev (argents al next) ++ H)) (next + total al).
Proof.
  induction al as [|[k n] t IH]; intros H next Hk Hg.
  - cbn. rewrite N.add_0_r. exact Hg.
  - cbn [argents rev total fold_right snd]. fold (total t). rewrite <- app_assoc, N.add_assoc. cbn [app].
    apply IH; [intros k' H'; apply Hk; right; exact H'|].
    rewrite owned_cons by (apply Hk; left; reflexivity). apply geo_bump, Hg.
Qed.

Lemma init_ginv p steps0 :
  let Kt := map fst (sp_consts p) in
  let NC := outs_l steps0 ++ map fst (sp_args p) in
  let n := total (sp_args p) in
  NoDup (map fst (sp_args p) ++ const_keys p) ->
  (forall k, In k (const_keys p) -> ~ In k NC) ->
  ginv Kt (sp_zero_key p) (sp_one_key p) n (n + 1) NC steps0 (sp_args p) (init_w p) (map fst (sp_args p)) [].
Proof.
  intros Kt NC n Hnd Hck. unfold const_keys in *.
  pose proof Hnd as Hnd0.
  apply NoDup_app_iff in Hnd as (Ha & Hc & Hac).
  inversion Hc as [|? ? Hz Hc1]; subst. inversion Hc1 as [|? ? Ho Hc2]; subst.
  set (zk := sp_zero_key p) in *. set (ok := sp_one_key p) in *.
  set (C := constents n (n + 1) (sp_consts p)).
  set (A := argents (sp_args p) 0).
  set (eo := mkEntry (Some (n + 1)%N) (Some [(n + 1)%N]) (Some [(n + 1)%N])).
  set (ez := mkEntry (Some n) (Some [n]) (Some [n])).
  assert (HW : whash (init_w p) = rev C ++ (ok, eo) :: (zk, ez) :: rev A) by reflexivity.
  assert (HkC : map fst C = Kt) by (unfold C, constents; rewrite map_map; reflexivity).
  assert (HkA : map fst A = map fst (sp_args p)) by apply argents_keys.
  assert (HzKt : ~ In zk Kt) by (intros H; apply Hz; right; exact H).
  assert (HaK : forall k, In k (map fst (sp_args p)) -> ~ In k Kt /\ k <> zk /\ k <> ok).
  { intros k Hk. specialize (Hac k Hk). repeat split.
    - intros H. apply Hac. right. right. exact H.
    - intros ->. apply Hac. left. reflexivity.
    - intros ->. apply Hac. right. left. reflexivity. }
  assert (Hkeys : NoDup (map fst (whash (init_w p)))).
  { rewrite HW, map_app. cbn [map fst]. rewrite !map_rev, HkC, HkA.
    apply NoDup_app_iff. split; [apply NoDup_rev, Hc2|]. split.
    - constructor; [|constructor; [|apply NoDup_rev, Ha]].
      + intros [H|H]; [apply Hz; left; symmetry; exact H|]. apply in_rev in H. apply (HaK _ H). reflexivity.
      + intros H. apply in_rev in H. apply (proj1 (proj2 (HaK _ H))). reflexivity.
    - intros x Hx Hin. apply in_rev in Hx. destruct Hin as [<-|[<-|Hin]]; [exact (Ho Hx) | exact (HzKt Hx)|].
      apply in_rev in Hin. exact (proj1 (HaK _ Hin) Hx). }
  assert (Hin : forall k e, lookup k (whash (init_w p)) = Some e ->
                 (In (k, e) C /\ In k Kt) \/ (k = ok /\ e = eo) \/ (k = zk /\ e = ez) \/ (In (k, e) A /\ In k (map fst (sp_args p)))).
  { intros k e L. apply lookup_in in L. rewrite HW in L. apply in_app_or in L as [L|[L|[L|L]]].
    - apply in_rev in L. left. split; [exact L|]. rewrite <- HkC. apply in_map_iff. exists (k, e). auto.
    - injection L as <- <-. auto.
    - injection L as <- <-. auto.
    - apply in_rev in L. right. right. right. split; [exact L|]. rewrite <- HkA. apply in_map_iff. exists (k, e). auto. }
  assert (Hlk : forall k e, In (k, e) (whash (init_w p)) -> lookup k (whash (init_w p)) = Some e)
    by (intros k e H; apply in_lookup; auto).
  assert (Lz : lookup zk (whash (init_w p)) = Some ez).
  { apply Hlk. rewrite HW. apply in_or_app. right. right. left. reflexivity. }
  assert (Lo : lookup ok (whash (init_w p)) = Some eo).
  { apply Hlk. rewrite HW. apply in_or_app. right. left. reflexivity. }
  assert (HC : forall k e, In (k, e) C -> exists ids, e = mkEntry (match ids with [] => None | b :: _ => Some b end) (Some ids) (Some ids) /\
                                          forall id, In id ids -> id = n \/ id = (n + 1)%N).
  { intros k e H. unfold C, constents in H. apply in_map_iff in H as (c & E & _). injection E as _ <-.
    eexists. split; [reflexivity|]. intros id Hid. apply in_map_iff in Hid as (b & <- & _). destruct b; auto. }
  assert (Hgeo : geo (owned_ids Kt (whash (init_w p)) ++ free_ids (init_w p)) (wnext (init_w p))).
  { rewrite HW. unfold free_ids. cbn [init_w wfree wnext free_l flat_map]. rewrite app_nil_r.
    rewrite owned_app, owned_consts by (intros q Hq; apply in_rev in Hq; rewrite <- HkC; apply in_map, Hq).
    rewrite !owned_cons by assumption. cbn [app].
    change (oblock eo) with [(n + 1)%N]. change (oblock ez) with [n].
    fold n. replace (n + 2)%N with (n + 1 + 1)%N by lia. apply geo_bump1, geo_bump1.
    pose proof (geo_args Kt (sp_args p) [] 0%N (fun k Hk => proj1 (HaK k Hk))) as Hg.
    rewrite app_nil_r in Hg. apply Hg. split; [constructor | intros id []]. }
  constructor; [exact Hkeys | apply Hgeo | apply Hgeo | | | | | |].
  - intros k e L Hk. destruct (Hin k e L) as [[_ H]|[[_ ->]|[[_ ->]|[H _]]]]; [contradiction| | |].
    + unfold entry_wf, eo. cbn [ewires ebase eids hd length]. unfold block. cbn [seq map]. rewrite N.add_0_r. repeat split; auto.
    + unfold entry_wf, ez. cbn [ewires ebase eids hd length]. unfold block. cbn [seq map]. rewrite N.add_0_r. repeat split; auto.
    + destruct (argents_in _ _ _ _ H) as (b & m & -> & _). unfold entry_wf. cbn. rewrite block_length.
      split; [|auto]. destruct m; [reflexivity|]. rewrite hd_block by discriminate. reflexivity.
  - intros k e L He. destruct (Hin k e L) as [[H _]|[[_ ->]|[[_ ->]|[H _]]]]; try discriminate.
    + destruct (HC _ _ H) as (ids & -> & _). discriminate.
    + destruct (argents_in _ _ _ _ H) as (b & m & -> & Hm). exists (block b m). split; [reflexivity|].
      rewrite block_length. apply in_lookup; auto.
  - intros k Hk. unfold Kt in Hk. apply in_map_iff in Hk as (c & <- & Hc0).
    set (ids := map (fun b : bool => if b then (n + 1)%N else n) (snd c)).
    exists (mkEntry (match ids with [] => None | b :: _ => Some b end) (Some ids) (Some ids)), ids.
    split; [|split; [reflexivity|]].
    + apply Hlk. rewrite HW. apply in_or_app. left. rewrite <- in_rev. unfold C, constents. apply in_map_iff. exists c. auto.
    + intros id Hid. apply in_map_iff in Hid as (b & <- & _). destruct b; auto.
  - exists ez, eo. repeat split; auto.
  - intros v e L. right. intros id Hid. unfold ids_of in Hid. rewrite L in Hid.
    assert (Wz : exists k e', lookup k (whash (init_w p)) = Some e' /\ ~ In k Kt /\ In n (oblock e') /\ related NC steps0 k v).
    { exists zk, ez. repeat split; auto; [left; reflexivity | left; apply Hck; left; reflexivity]. }
    assert (Wo : exists k e', lookup k (whash (init_w p)) = Some e' /\ ~ In k Kt /\ In (n + 1)%N (oblock e') /\ related NC steps0 k v).
    { exists ok, eo. repeat split; auto; [left; reflexivity | left; apply Hck; right; left; reflexivity]. }
    destruct (Hin v e L) as [[H _]|[[_ ->]|[[_ ->]|[H Hv]]]].
    + destruct (HC _ _ H) as (ids & -> & Hids). cbn in Hid. destruct (Hids id Hid) as [->| ->]; auto.
    + cbn in Hid. destruct Hid as [<-|[]]. exact Wo.
    + cbn in Hid. destruct Hid as [<-|[]]. exact Wz.
    + destruct (argents_in _ _ _ _ H) as (b & m & -> & _). cbn in Hid.
      exists v, (mkEntry None (Some (block b m)) None). repeat split; auto; [apply HaK, Hv | right].
      unfold fdesc. apply fold_fstep_mono. left. reflexivity.
  - intros k Hk. split.
    + intros Hal. split; [|auto]. apply allocated_lookup in Hal as (e & L).
      destruct (Hin k e L) as [[_ H]|[[-> _]|[[-> _]|[_ H]]]]; [|  | |exact H]; exfalso.
      * apply (Hck k); [right; right; exact H | exact Hk].
      * apply (Hck ok); [right; left; reflexivity | exact Hk].
      * apply (Hck zk); [left; reflexivity | exact Hk].
    + intros [H _]. rewrite <- HkA in H. apply in_map_iff in H as ([k' e] & <- & H). apply allocated_lookup.
      exists e. apply Hlk. rewrite HW. apply in_or_app. right. right. right. rewrite <- in_rev. exact H.
Qed.

Lemma wf_steps_last d s : wf_steps d [s] = true -> iop s = ORet /\ iout s = None /\ iret s = [].
Proof.
  cbn [wf_steps]. destruct (iop s); try discriminate. intros H.
  apply andb_prop in H as [H Hr]. apply andb_prop in H as [_ Ho].
  destruct (iout s); [discriminate|]. destruct (iret s); [auto | discriminate].
Qed.

Lemma not_ret_gc (o : opc) (b : bool) :
  match o with ORet | OGC => false | _ => b end = true -> o <> ORet /\ o <> OGC /\ b = true.
Proof. destruct o; intros H; repeat split; try discriminate; exact H. Qed.

Lemma out_shape (op : opc) (io : option val) (ir : list val) :
  match op, io with
  | OCirc, None => true
  | OCirc, Some _ => false
  | _, Some o => negb (vconst o) && match ir with [] => true | _ => false end
  | _, None => false
  end = true ->
  (op = OCirc /\ io = None) \/ (op <> OCirc /\ exists o, io = Some o /\ ir = []).
Proof.
  destruct io as [o|].
  - intros H. right. assert (Hc : op <> OCirc) by (intros ->; discriminate). split; [exact Hc|]. exists o. split; [reflexivity|].
    assert (Hb : negb (vconst o) && match ir with [] => true | _ => false end = true) by (destruct op; congruence).
    apply andb_prop in Hb as [_ Hb]. destruct ir; [reflexivity | discriminate].
  - intros H. left. split; [|reflexivity]. destruct op; try discriminate; reflexivity.
Qed.

Lemma wf_steps_step d s s2 rest : wf_steps d (s :: s2 :: rest) = true ->
  iop s <> ORet /\ iop s <> OGC /\
  ((iop s = OCirc /\ iout s = None) \/ (iop s <> OCirc /\ exists o, iout s = Some o /\ iret s = [])) /\
  NoDup (outs_of s) /\ wf_steps (outs_of s ++ d) (s2 :: rest) = true.
Proof.
  intros H. cbn [wf_steps] in H. apply not_ret_gc in H as (Hr & Hg & H).
  apply andb_prop in H as [H Hw]. apply andb_prop in H as [H _]. apply andb_prop in H as [H Hn].
  apply andb_prop in H as [_ Hs]. repeat split; auto; [apply out_shape, Hs | apply nodupb_NoDup, Hn].
Qed.

Lemma wf_shape : forall steps defd, wf_steps defd steps = true -> Forall step_kind steps.
Proof.
  induction steps as [|s [|s2 rest] IH]; intros defd H; [constructor| |].
  - constructor; [left; eapply wf_steps_last; eauto | constructor].
  - apply wf_steps_step in H as (Hr & Hg & Hs & Hn & Hw). constructor; [right | eapply IH; eauto].
    destruct Hs as [[Ec Eo]|(Hc & o & Eo & Er)].
    + right. unfold outs_of in Hn. rewrite Eo in Hn. auto.
    + left. exists o. repeat split; auto. destruct (iop s); auto; contradiction.
Qed.

Lemma wf_ret_last : forall steps defd, wf_steps defd steps = true ->
  forall E s later, steps = E ++ s :: later -> iop s = ORet -> later = [].
Proof.
  induction steps as [|s0 [|s2 rest] IH]; intros defd H E s later E0 Hr; [destruct E; discriminate| |].
  - destruct E as [|a E]; [injection E0 as _ <-; reflexivity | destruct E; discriminate].
  - apply wf_steps_step in H as (Hc & _ & _ & _ & Hw). destruct E as [|a E].
    + injection E0 as -> _. contradiction.
    + injection E0 as _ E0. eapply IH; eauto.
Qed.

Lemma consts_tabled_read p steps : consts_tabled p steps = true -> consts_read_tabled p steps = true.
Proof.
  unfold consts_tabled, consts_read_tabled. intros H. rewrite forallb_forall in *. intros s Hs. specialize (H s Hs).
  rewrite forallb_forall in *. intros j Hj. specialize (H j Hj). destruct (nth_error (iin s) j); [|reflexivity].
  unfold const_ok. rewrite H. reflexivity.
Qed.

Lemma step_ok_spec p nck s : step_ok p nck s = true ->
  circ_step_ok (sp_circs p) s /\
  (forall i, In i (iin s) -> vconst i = true -> ~ In (vid i) nck) /\
  (forall o, In o (outs_of s) -> ~ In o (const_keys p)) /\
  (forall i b, In i (iin s) -> lookup (vid i) (sp_args p) = Some b -> vbits i = b) /\
  slice_step_ok s /\ gen_step_ok (sp_circs p) s.
Proof.
  unfold step_ok. rewrite !andb_true_iff, !forallb_forall. intros (((((Hc & Hi) & Ho) & Hw) & Hsl) & Hgen).
  split; [|split; [|split; [|split; [|split]]]].
  - intros Eop. rewrite Eop in Hc. cbv zeta in *.
    rewrite !andb_true_iff, !Nat.eqb_eq, Nat.leb_le in Hc. destruct Hc as (((((H1 & H2) & H3) & H4) & H5) & H6).
    apply list_nat_eqb_eq in H4. repeat split; assumption.
  - intros i Hi0 Hc0. specialize (Hi i Hi0). rewrite Hc0 in Hi. apply mem_false, negb_true_iff, Hi.
  - intros o Ho0. apply mem_false, negb_true_iff, Ho, Ho0.
  - intros i b Hi0 Hb. specialize (Hw i Hi0). rewrite Hb in Hw. apply Nat.eqb_eq, Hw.
  - intros Eop o Eout. rewrite Eop, Eout in Hsl. cbv zeta in Hsl.
    rewrite !andb_true_iff, Z.leb_le, Z.ltb_lt, Nat.eqb_eq in Hsl. tauto.
  - intros Eop o Eout. rewrite Eop, Eout in Hgen. cbv zeta in *.
    rewrite !andb_true_iff, !Nat.eqb_eq, Nat.leb_le in Hgen. tauto.
Qed.

(* the hypotheses of Section Dyn, from wf_prog *)
Lemma wf_prog_env p steps : wf_prog p steps = true ->
  let NC := outs_l steps ++ map fst (sp_args p) in
  NoDup (map fst (sp_args p) ++ const_keys p) /\
  (forall k, In k (const_keys p) -> ~ In k NC) /\
  ~ In (sp_zero_key p) (map fst (sp_consts p)) /\ ~ In (sp_one_key p) (map fst (sp_consts p)) /\
  wf_steps (map fst (sp_args p)) steps = true /\
  Forall (sok NC (sp_args p) (sp_circs p)) steps /\
  forall s, In s steps -> step_ok p (map fst (sp_args p) ++ flat_map outs_of steps) s = true.
Proof.
  intros Hwf NC. unfold wf_prog in Hwf.
  apply andb_prop in Hwf as [Hwf Hsteps]. apply andb_prop in Hwf as [Hssa Hnd].
  apply nodupb_NoDup in Hnd. rewrite forallb_forall in Hsteps.
  pose proof (fun s Hs => step_ok_spec _ _ s (Hsteps s Hs)) as Hspec.
  assert (Hck : forall k, In k (const_keys p) -> ~ In k NC).
  { intros k Hk Hin. apply in_app_or in Hin as [Hin|Hin].
    - apply in_flat_map in Hin as (s & Hs & Ho). destruct (Hspec s Hs) as (_ & _ & Hoc & _). exact (Hoc k Ho Hk).
    - apply NoDup_app_iff in Hnd as (_ & _ & Hd). exact (Hd k Hin Hk). }
  assert (Hc : NoDup (const_keys p)) by (apply NoDup_app_iff in Hnd; apply Hnd).
  unfold const_keys in Hc. inversion Hc as [|? ? Hz0 Hc1]; subst. inversion Hc1 as [|? ? Ho0 _]; subst.
  split; [exact Hnd|]. split; [exact Hck|]. split; [intros H; apply Hz0; right; exact H|]. split; [exact Ho0|].
  split; [exact Hssa|]. split; [|exact Hsteps].
  pose proof (wf_shape _ _ Hssa) as Hsh. rewrite Forall_forall in *. intros s Hs.
  destruct (Hspec s Hs) as (Hcirc & Hcn & _ & Hwid & _).
  split; [apply Hsh, Hs|]. split.
  - intros Eop. destruct (Hcirc Eop) as (_ & _ & _ & C4 & _). cbv zeta in C4. rewrite C4. apply map_length.
  - intros i Hi. split; [|intros b; apply Hwid, Hi]. intros Hc' Hin. apply (Hcn i Hi Hc').
    apply in_app_or in Hin as [Hin|Hin]; apply in_or_app; auto.
Qed.

Theorem gc_sound p steps g :
  wf_prog p steps = true -> gc_fixed steps = Some g -> no_premature_reuse p g = true.
Proof.
  intros Hwf Hg. destruct (wf_prog_env p steps Hwf) as (Hnd & Hck & HzK & HoK & Hssa & Hsok & _).
  set (NC := outs_l steps ++ map fst (sp_args p)) in *.
  set (n := total (sp_args p)).
  unfold no_premature_reuse.
  destruct (stream_init_parts p []) as (Hi & _). rewrite (init_alloc_eq p Hnd) in Hi. cbn [fst] in Hi. injection Hi as Hw Hz.
  rewrite Hw, Hz.
  pose proof (init_ginv p steps Hnd Hck) as G0. fold NC n in G0.
  assert (Hone : nth 0 (ids_of (init_w p) (sp_one_key p)) 0%N = (n + 1)%N).
  { unfold ids_of. rewrite (in_lookup (sp_one_key p) (mkEntry (Some (n + 1)%N) (Some [(n + 1)%N]) (Some [(n + 1)%N])) _ (g_keys _ _ _ _ _ _ _ _ _ _ _ G0)).
    - reflexivity.
    - unfold init_w. cbn [whash]. apply in_or_app. right. left. reflexivity. }
  rewrite Hone.
  apply (run_npr (map fst (sp_consts p)) (sp_zero_key p) (sp_one_key p) n (n + 1)%N NC steps (sp_args p)) with
      (circs := sp_circs p) (later := steps) (E := []) (gcd := []); auto.
  - apply Hck. left. reflexivity.
  - apply Hck. right. left. reflexivity.
  - intros k Hk. apply Hck. right. right. exact Hk.
  - apply wf_steps_wfl, Hssa.
  - intros k. reflexivity.
  - eapply gc_fixed_form; eauto.
  - split; [exact G0 | intros u []].
Qed.

Fixpoint argpos (al : list (N * nat)) (off : nat) : list (N * nat * nat) :=
  match al with
  | [] => []
  | (k, n) :: t => (k, n, off) :: argpos t (off + n)
  end.

Definition sumn (al : list (N * nat)) : nat := fold_right (fun a acc => snd a + acc) 0 al.

Lemma total_sumn al : total al = N.of_nat (sumn al).
Proof.
  induction al as [|[k n] t IH]; [reflexivity|]. cbn [total sumn fold_right snd]. fold (total t). fold (sumn t).
  rewrite IH. lia.
Qed.

Lemma argents_argpos al : forall off,
  argents al (N.of_nat off) = map (fun q => (fst (fst q), mkEntry None (Some (block (N.of_nat (snd q)) (snd (fst q)))) None)) (argpos al off).
Proof.
  induction al as [|[k n] t IH]; intros off; [reflexivity|]. cbn [argents argpos map fst snd].
  f_equal. rewrite <- IH. f_equal. lia.
Qed.

Lemma argpos_bound al : forall off k n o, In (k, n, o) (argpos al off) -> off <= o /\ o + n <= off + sumn al /\ In (k, n) al.
Proof.
  induction al as [|[k0 n0] t IH]; intros off k n o H; [destruct H|]. cbn [argpos] in H. cbn [sumn fold_right snd]. fold (sumn t).
  destruct H as [H|H].
  - injection H as <- <- <-. repeat split; try lia. left. reflexivity.
  - destruct (IH _ _ _ _ H) as (A & B & C). repeat split; try lia. right. exact C.
Qed.

Lemma argpos_keys al : forall off, map (fun q => fst (fst q)) (argpos al off) = map fst al.
Proof. induction al as [|[k n] t IH]; intros off; [reflexivity|]. cbn. rewrite IH. reflexivity. Qed.

Section InitSim.
  Variable xy : list bool.

  Lemma ssa_args_fold al : forall e off,
    fold_left (fun (acc : env * nat) (a : N * nat) => let '(e, off) := acc in
                 ((fst a, firstn (snd a) (skipn off xy ++ repeat false (snd a))) :: e, (off + snd a)%nat)) al (e, off)
    = (rev (map (fun q => (fst (fst q), firstn (snd (fst q)) (skipn (snd q) xy ++ repeat false (snd (fst q))))) (argpos al off)) ++ e,
       off + sumn al).
  Proof.
    induction al as [|[k n] t IH]; intros e off.
    - cbn. f_equal. lia.
    - cbn [fold_left fst snd]. rewrite IH. cbn [argpos map rev fst snd sumn fold_right]. fold (sumn t).
      rewrite <- app_assoc. cbn [app]. f_equal. lia.
  Qed.

  Lemma ssa_consts_fold : forall cs e,
    NoDup (map fst cs) -> (forall k, In k (map fst cs) -> lookup k e = None) ->
    fold_left (fun (e : env) (c : N * list bool) => match lookup (fst c) e with Some _ => e | None => c :: e end) cs e = rev cs ++ e.
  Proof.
    induction cs as [|[k b] t IH]; intros e Hnd Hnew; [reflexivity|].
    cbn [fold_left fst]. inversion Hnd as [|? ? Hk Hnd']; subst.
    rewrite (Hnew k (or_introl eq_refl)). rewrite IH; [|exact Hnd'|].
    - cbn [rev]. rewrite <- app_assoc. reflexivity.
    - intros k' Hk'. cbn [lookup]. destruct (N.eqb k' k) eqn:E.
      + apply N.eqb_eq in E. subst. contradiction.
      + apply Hnew. right. exact Hk'.
  Qed.

End InitSim.

Lemma in_keys_lookup {A} k (l : list (N * A)) : In k (map fst l) -> exists a, lookup k l = Some a.
Proof.
  induction l as [|[k2 a2] t IH]; intros H; [destruct H|]. cbn [lookup].
  destruct (N.eqb k k2) eqn:E; [eauto|]. apply N.eqb_neq in E. destruct H as [H|H]; [cbn in H; congruence | auto].
Qed.

Lemma nodup_keys_eq {A} (k : N) (a a' : A) (l : list (N * A)) : NoDup (map fst l) -> In (k, a) l -> In (k, a') l -> a = a'.
Proof. intros Hnd H1 H2. apply (in_lookup _ _ _ Hnd) in H1. apply (in_lookup _ _ _ Hnd) in H2. congruence. Qed.

Lemma ssa_ret_length circs : forall steps e r e' r',
  ssa_steps circs steps (e, r) = Some (e', r') -> length r' = length r + ret_bits steps.
Proof.
  induction steps as [|s rest IH]; intros e r e' r' H.
  - cbn in H. injection H as _ <-. cbn. lia.
  - cbn [ssa_steps] in H. destruct (ssa_step circs s (e, r)) as [[e1 r1]|] eqn:Es; [|discriminate].
    apply IH in H. cbn [ret_bits fold_right]. fold (ret_bits rest).
    assert (Hr1 : length r1 = length r + match iop s with ORet => sum_bits (iin s) | _ => 0 end).
    { unfold ssa_step in Es.
      destruct (iop s);
        try (destruct (iout s); [|discriminate];
             match type of Es with context [alias_ids ?A ?z ?o ?i ?c ?ol ?ob] => destruct (alias_ids A z o i c ol ob) end;
             [injection Es as _ <-; lia | discriminate]).
      - injection Es as _ <-. rewrite app_length, (concat_len (operand_bits e)); [reflexivity|]. intros i. apply pad_operand_length.
      - injection Es as _ <-. lia.
      - injection Es as _ <-. lia.
      - destruct (iout s); [|discriminate]. injection Es as _ <-. lia. }
    destruct (iop s); lia.
Qed.

Lemma map_nth_seq_firstn {A B} (f : A -> B) (l : list A) d k :
  k <= length l -> map (fun i => f (nth i l d)) (seq 0 k) = firstn k (map f l).
Proof.
  revert l. induction k as [|k IH]; intros l Hk; [reflexivity|].
  destruct l as [|x t]; [simpl in Hk; lia|]. cbn [seq map firstn nth]. f_equal.
  rewrite <- seq_shift, map_map. apply IH. simpl in Hk. lia.
Qed.

Lemma init_sinv p steps xy :
  let Kt := map fst (sp_consts p) in
  let NC := outs_l steps ++ map fst (sp_args p) in
  let n := total (sp_args p) in
  NoDup (map fst (sp_args p) ++ const_keys p) ->
  (forall k, In k (const_keys p) -> ~ In k NC) ->
  SInv Kt (sp_zero_key p) (sp_one_key p) n (n + 1) NC steps (sp_args p)
       (stream_init p xy) (ssa_init p xy) [] steps [] /\
  ss_ret (stream_init p xy) = [].
Proof.
  intros Kt NC n Hnd Hck.
  pose proof (init_ginv p steps Hnd Hck) as G0. fold Kt NC n in G0.
  destruct (stream_init_parts p xy) as (Hi & Hret & Hcs). rewrite (init_alloc_eq p Hnd) in Hi, Hcs. cbn [fst snd] in Hi, Hcs.
  injection Hi as Hw Hz.
  fold n in Hz, Hcs.
  pose proof Hnd as Hnd0. unfold const_keys in Hnd0. apply NoDup_app_iff in Hnd0 as (Ha & Hc & Hac).
  inversion Hc as [|? ? Hz0 Hc1]; subst. inversion Hc1 as [|? ? Ho0 Hc2]; subst.
  assert (Hwn : wnext (fold_left (fun w a => input_wires w (fst a) (snd a)) (sp_args p) walloc0) = n).
  { rewrite (input_fold (sp_args p) walloc0 Ha) by (intros k _; reflexivity). cbn. reflexivity. }
  rewrite Hwn in Hcs.
  (* reading the initial store *)
  assert (Hrdz : rd (stream_init p xy) n = false).
  { unfold rd. rewrite Hcs. rewrite sfind_sadd_neq by lia. apply sfind_sadd_eq. }
  assert (Hrdo : rd (stream_init p xy) (n + 1)%N = true).
  { unfold rd. rewrite Hcs. apply sfind_sadd_eq. }
  assert (Hrdi : forall j, j < sumn (sp_args p) -> rd (stream_init p xy) (N.of_nat j) = nth j xy false).
  { intros j Hj. unfold rd. rewrite Hcs. pose proof (total_sumn (sp_args p)) as Ht. fold n in Ht.
    rewrite !sfind_sadd_neq by lia. apply wires0_find. lia. }
  (* the reference environment *)
  set (argb := map (fun q : N * nat * nat => (fst (fst q), firstn (snd (fst q)) (skipn (snd q) xy ++ repeat false (snd (fst q)))))
                   (argpos (sp_args p) 0)).
  assert (He : ssa_init p xy = rev (sp_consts p) ++ rev argb).
  { pose proof (ssa_args_fold xy (sp_args p) [] 0) as Hf. unfold ssa_init. unfold env in *. cbv beta in *.
    rewrite Hf. rewrite app_nil_r. fold argb.
    apply ssa_consts_fold; [exact Hc2|]. intros k Hk.
    destruct (lookup k (rev argb)) eqn:L; [|reflexivity]. exfalso. apply lookup_in, in_rev in L.
    unfold argb in L. apply in_map_iff in L as (q & Eq & Hq). injection Eq as Ek _.
    apply (Hac k); [|right; right; exact Hk].
    rewrite <- (argpos_keys (sp_args p) 0). apply in_map_iff. exists q. auto. }
  assert (Hkeys_e : forall k, In k (map fst (sp_args p)) \/ In k Kt -> exists b, lookup k (ssa_init p xy) = Some b).
  { intros k Hk. apply in_keys_lookup. rewrite He, map_app, !map_rev. apply in_or_app. destruct Hk as [Hk|Hk].
    - right. rewrite <- in_rev. unfold argb. rewrite map_map. cbn [fst]. rewrite (argpos_keys (sp_args p) 0). exact Hk.
    - left. rewrite <- in_rev. exact Hk. }
  split; [|exact Hret].
  split; [exact Hz|]. split; [rewrite Hw; split; [exact G0 | intros u []]|].
  split; [|split; [|exact Hrdz]].
  - (* Rel *)
    intros v b Lb _. rewrite Hw. rewrite He in Lb. apply lookup_in in Lb. apply in_app_or in Lb as [Lb|Lb].
    + (* a constant of the table *)
      apply in_rev in Lb.
      set (ids := map (fun x : bool => if x then (n + 1)%N else n) b).
      assert (Lw : lookup v (whash (init_w p)) = Some (mkEntry (match ids with [] => None | b0 :: _ => Some b0 end) (Some ids) (Some ids))).
      { apply in_lookup; [apply (g_keys _ _ _ _ _ _ _ _ _ _ _ G0)|]. unfold init_w. cbn [whash]. apply in_or_app. left.
        rewrite <- in_rev. unfold constents. apply in_map_iff. exists (v, b). split; [reflexivity | exact Lb]. }
      split; [unfold allocated; rewrite Lw; reflexivity|].
      unfold ids_of. rewrite Lw. cbn [eids]. unfold ids. rewrite map_map.
      rewrite <- (map_id b) at 2. apply map_ext. intros x. destruct x; [exact Hrdo | exact Hrdz].
    + (* a program argument *)
      apply in_rev in Lb. unfold argb in Lb. apply in_map_iff in Lb as ([[k n0] o] & Eq & Hq). cbn [fst snd] in Eq.
      injection Eq as <- <-.
      destruct (argpos_bound _ _ _ _ _ Hq) as (_ & Hb & _). cbn in Hb.
      assert (Lw : lookup k (whash (init_w p)) = Some (mkEntry None (Some (block (N.of_nat o) n0)) None)).
      { apply in_lookup; [apply (g_keys _ _ _ _ _ _ _ _ _ _ _ G0)|]. unfold init_w. cbn [whash]. apply in_or_app. right. right. right.
        rewrite <- in_rev. change 0%N with (N.of_nat 0). rewrite argents_argpos. apply in_map_iff.
        exists (k, n0, o). split; [reflexivity | exact Hq]. }
      split; [unfold allocated; rewrite Lw; reflexivity|].
      unfold ids_of. rewrite Lw. cbn [eids ewires].
      apply (nth_ext _ _ false false).
      * rewrite map_length, block_length, firstn_length, app_length, repeat_length. lia.
      * intros i Hi. rewrite map_length, block_length in Hi.
        rewrite (nth_indep _ false (rd (stream_init p xy) 0%N)) by (rewrite map_length, block_length; exact Hi).
        rewrite map_nth. unfold block. rewrite (nth_indep _ 0%N ((fun i0 => (N.of_nat o + N.of_nat i0)%N) 0)) by (rewrite map_length, seq_length; exact Hi).
        rewrite (map_nth (fun i0 => (N.of_nat o + N.of_nat i0)%N)), seq_nth by exact Hi. cbn [Nat.add].
        replace (N.of_nat o + N.of_nat i)%N with (N.of_nat (o + i)) by lia.
        rewrite Hrdi by lia.
        rewrite nth_firstn_lt by exact Hi.
        destruct (Nat.lt_ge_cases i (length (skipn o xy))) as [L|L].
        -- rewrite app_nth1 by exact L. rewrite nth_skipn. reflexivity.
        -- rewrite app_nth2 by exact L. rewrite nth_repeat. rewrite skipn_length in L.
           rewrite nth_overflow by lia. reflexivity.
  - (* Bd *)
    intros k Hk. apply Hkeys_e. destruct Hk as [Hk|Hk]; [left|auto].
    unfold outs_l in Hk. cbn [flat_map app] in Hk. exact Hk.
Qed.

Lemma ret_bits_filter l : ret_bits (filter not_gc l) = ret_bits l.
Proof.
  induction l as [|s t IH]; [reflexivity|]. cbn [filter]. unfold not_gc at 1.
  destruct (iop s) eqn:E; cbn [ret_bits fold_right]; rewrite ?E; fold (ret_bits t); fold (ret_bits (filter not_gc t)); rewrite ?IH; reflexivity.
Qed.

Lemma wf_prog_not_gc p steps : wf_prog p steps = true -> forallb not_gc steps = true.
Proof.
  intros Hwf. destruct (wf_prog_env p steps Hwf) as (_ & _ & _ & _ & Hssa & _).
  apply forallb_forall. intros s Hs. pose proof (wf_not_gc _ _ Hssa) as Hn. rewrite Forall_forall in Hn.
  specialize (Hn s Hs). unfold not_gc. destruct (iop s); auto; try (exfalso; apply Hn; reflexivity).
Qed.

Theorem stream_eq_whole p steps g xy :
  wf_prog p steps = true -> consts_read_tabled p steps = true -> outbits_ok p steps = true ->
  gc_fixed steps = Some g ->
  stream_eval p g xy = ssa_eval p steps xy.
Proof.
  intros Hwf Htab Hout Hg. destruct (wf_prog_env p steps Hwf) as (Hnd & Hck & HzK & HoK & Hssa & Hsok & Hsteps).
  set (Kt := map fst (sp_consts p)) in *.
  set (NC := outs_l steps ++ map fst (sp_args p)) in *.
  set (n := total (sp_args p)).
  assert (Hsok2 : Forall (sok2 Kt (sp_circs p)) steps).
  { unfold consts_read_tabled in Htab. rewrite forallb_forall in Htab. rewrite Forall_forall. intros s Hs.
    specialize (Htab s Hs). rewrite forallb_forall in Htab.
    destruct (step_ok_spec _ _ s (Hsteps s Hs)) as (Hcirc & _ & _ & _ & Hsl & Hgen).
    split; [|split; [exact Hcirc | split; [exact Hsl | exact Hgen]]].
    intros j i Hj Ej Hc. specialize (Htab j Hj). rewrite Ej in Htab. unfold const_ok in Htab. rewrite Hc in Htab.
    cbn [negb orb] in Htab. apply orb_prop in Htab as [Ht|Ht]; [left; apply mem_In; exact Ht|]. right.
    destruct (iop s) eqn:Eop; try discriminate. split; [reflexivity | exact Ht]. }
  assert (Hform : gcform steps steps g) by (eapply gc_fixed_form; eauto).
  destruct (init_sinv p steps xy Hnd Hck) as [HI Hret0]. fold Kt NC n in HI.
  pose proof (run_sim Kt (sp_zero_key p) (sp_one_key p) n (n + 1)%N NC steps (sp_args p) HzK HoK
                (Hck _ (or_introl eq_refl)) (Hck _ (or_intror (or_introl eq_refl))) (fun k Hk => Hck k (or_intror (or_intror Hk)))
                (sp_circs p) (wf_steps_wfl _ _ Hssa) (fun k => iff_refl _) Hsok Hsok2 (wf_ret_last _ _ Hssa) steps g Hform [] (stream_init p xy) (ssa_init p xy) 0
                [] eq_refl HI Hret0) as HS.
  pose proof (wf_prog_not_gc p steps Hwf) as Hng.
  rewrite <- (ssa_ignores_gc p true true steps g xy Hng Hg).
  unfold stream_eval, stream_run, ssa_eval.
  destruct (stream_steps (sp_circs p) 0 g (stream_init p xy)) as [stf|];
    destruct (ssa_steps (sp_circs p) g (ssa_init p xy, [])) as [[ef retf]|] eqn:Ess; try contradiction; [|reflexivity].
  cbn [simres] in HS. f_equal.
  pose proof (ssa_ret_length _ _ _ _ _ _ Ess) as Hlen. cbn [length Nat.add] in Hlen.
  rewrite <- (ret_bits_filter g), (gc_only_inserts true true steps g Hng Hg) in Hlen.
  unfold outbits_ok in Hout. apply Nat.eqb_eq in Hout.
  rewrite <- HS. rewrite <- HS, map_length in Hlen.
  change (fun i => sfind false (cs_wires (ss_cs stf)) (nth i (ss_ret stf) 0%N))
    with (fun i => rd stf (nth i (ss_ret stf) 0%N)).
  apply map_nth_seq_firstn. lia.
Qed.

(* C05_stream_sim.  Proved for the lists Program.GC produces (the only ones
   that are streamed) by carrying the allocator invariant; not proved for an
   arbitrary list under the bare hypothesis no_premature_reuse. *)
Theorem stream_sim_gc p steps g xy :
  wf_prog p steps = true -> consts_read_tabled p steps = true -> outbits_ok p steps = true ->
  gc_fixed steps = Some g ->
  no_premature_reuse p g = true /\ stream_eval p g xy = ssa_eval p g xy.
Proof.
  intros Hwf Htab Hout Hg. split; [eapply gc_sound; eauto|].
  rewrite (stream_eq_whole p steps g xy Hwf Htab Hout Hg). symmetry.
  apply (ssa_ignores_gc p true true steps g xy); [apply (wf_prog_not_gc p steps Hwf) | exact Hg].
Qed.

(** * Non-vacuity of the hypotheses for native-circuit steps and unread
      constant operands

   main(a uint2, b uint2): r := native("xor2", a, 1) — the narrow constant 1
   (one bit, in prog.Constants) is padded in place to the circuit's second
   2-bit input; q := gen(r, $k) where the 2-bit constant $k is NOT in
   prog.Constants and no gate of the step circuit reads its input wires
   (the offset operand of index); ret q.  wf_prog, consts_read_tabled and
   outbits_ok hold, consts_tabled does not, Program.GC frees a, and the
   streamed result is the reference result. *)
Definition nv_xor2 : ccirc := mkCcirc (mkCircuit 6 4 2 [mkGate 0 2 4 XOR; mkGate 1 3 5 XOR]) [2; 2] [2].
Definition nv_gen : ccirc := mkCcirc (mkCircuit 6 4 2 [mkGate 0 1 4 XOR; mkGate 0 1 5 AND]) [] [].
Definition nv_prog : sprog :=
  mkSprog [(0%N, 2); (1%N, 2)] 100%N 101%N [(51%N, [true])] [nv_xor2; nv_gen] [2].
Definition nv_val (k : N) : val := mkVal k false 2 false 0%Z.
Definition nv_steps : list instr :=
  [ mkInstr OCirc [nv_val 0; mkVal 51%N true 1 false 1%Z] None [nv_val 2] None 0;
    mkInstr OGen [nv_val 2; mkVal 50%N true 2 false 0%Z] (Some (nv_val 3)) [] None 1;
    mkInstr ORet [nv_val 3] None [] None 0 ].

Example circ_and_unread_nonvacuous :
  wf_prog nv_prog nv_steps = true /\ consts_read_tabled nv_prog nv_steps = true /\
  consts_tabled nv_prog nv_steps = false /\ outbits_ok nv_prog nv_steps = true /\
  exists g, gc_fixed nv_steps = Some g /\ length g = 5 /\
    stream_eval nv_prog g [true; true; false; false] = Some [true; false] /\
    ssa_eval nv_prog nv_steps [true; true; false; false] = Some [true; false].
Proof.
  split; [vm_compute; reflexivity|]. split; [vm_compute; reflexivity|]. split; [vm_compute; reflexivity|].
  split; [vm_compute; reflexivity|]. eexists. split; [vm_compute; reflexivity|].
  split; [reflexivity|]. split; vm_compute; reflexivity.
Qed.
