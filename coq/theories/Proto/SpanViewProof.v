(* SpanViewProof.v — C16: R is not in the GF(2)-span of the evaluator's view.
   A chain (GGarbleProof.chain: every value has a basis bit that no earlier
   value has) is a triangular system, so it is linearly independent, R is not
   in its span and no two elements of its span are R apart; the symbolic
   transcript of every wf circuit is a chain (the invariant of
   GGarbleProof.sym_fold); the executable span test SpanView.in_span_b only
   ever answers yes on a vector it has written as a combination. *)
From Coq Require Import NArith List Arith Lia.
From Mpc Require Import Base.Label Circuit.Circuit
     Circuit.GGarble Circuit.GGarbleProof Proto.SpanView.
Import ListNotations.
Open Scope N_scope.

Lemma span_xor_nil_l tr : span_xor [] tr = 0.
Proof. destruct tr; reflexivity. Qed.

Lemma span_xor_nil_r sel : span_xor sel [] = 0.
Proof. destruct sel; reflexivity. Qed.

Lemma chain_middle pre a tr : chain (pre ++ a :: tr) ->
  exists b, 2 <= b /\ N.testbit a b = true /\ forall u, In u pre -> N.testbit u b = false.
Proof.
  intros C. destruct (C (length pre)) as (b & B1 & B2 & B3); [rewrite app_length; cbn; lia|].
  exists b. split; [exact B1|]. rewrite nth_middle in B2. split; [exact B2|].
  intros u Hu. destruct (In_nth _ _ 0 Hu) as (i & Hi & <-).
  specialize (B3 i Hi). rewrite app_nth1 in B3 by exact Hi. exact B3.
Qed.

(* the triangular system: a combination of the values after a prefix either
   selects nothing, and is 0, or has set the basis bit (>= 2) of the last value
   it selects, which no earlier value has: none of the prefix in particular *)
Lemma chain_span : forall tr pre sel, chain (pre ++ tr) ->
  ((forall i, (i < length tr)%nat -> nth i sel false = false) /\ span_xor sel tr = 0) \/
  (exists b, 2 <= b /\ N.testbit (span_xor sel tr) b = true /\
             forall u, In u pre -> N.testbit u b = false).
Proof.
  induction tr as [|a tr IH]; intros pre sel C.
  - left. split; [intros i Hi; cbn in Hi; lia|apply span_xor_nil_r].
  - destruct sel as [|s sel]; [left; split; [intros [|i] _; reflexivity|reflexivity]|].
    cbn [span_xor].
    destruct (IH (pre ++ [a]) sel) as [[Hn E]|(b & B1 & B2 & B3)]; [rewrite <- app_assoc; exact C| |].
    + rewrite E, lxor_0_r. destruct s.
      * right. exact (chain_middle pre a tr C).
      * left. split; [|reflexivity]. intros [|i] Hi; [reflexivity|]. apply Hn. cbn in Hi. lia.
    + right. exists b. split; [exact B1|]. split.
      * unfold lxor. rewrite N.lxor_spec, B2.
        destruct s; [rewrite (B3 a) by (apply in_or_app; right; left; reflexivity)|rewrite N.bits_0];
          reflexivity.
      * intros u Hu. apply B3, in_or_app. left. exact Hu.
Qed.

Lemma chain_independent tr sel :
  chain tr -> span_xor sel tr = 0 -> forall i, (i < length tr)%nat -> nth i sel false = false.
Proof.
  intros C E. destruct (chain_span tr [] sel C) as [[Hn _]|(b & _ & Hb & _)]; [exact Hn|].
  rewrite E, N.bits_0 in Hb. discriminate.
Qed.

Lemma chain_span_not_R tr sel : chain tr -> span_xor sel tr <> Rsym.
Proof.
  intros C E. destruct (chain_span tr [] sel C) as [[_ E0]|(b & B1 & Hb & _)].
  - rewrite E0 in E. discriminate.
  - rewrite E, bits_R in Hb. lia.
Qed.

Lemma in_span_cons v a tr :
  in_span v (a :: tr) <-> exists s : bool, in_span (lxor v (if s then a else 0)) tr.
Proof.
  split.
  - intros [[|s sel] E]; cbn [span_xor] in E; subst v.
    + exists false, []. rewrite span_xor_nil_l. reflexivity.
    + exists s, sel. destruct s; xor_solve.
  - intros [s [sel E]]. exists (s :: sel). cbn [span_xor]. rewrite E. destruct s; xor_solve.
Qed.

Lemma in_span_0 tr : in_span 0 tr.
Proof. exists []. apply span_xor_nil_l. Qed.

Lemma in_span_nil v : in_span v [] <-> v = 0.
Proof.
  split; [intros [sel E]; rewrite span_xor_nil_r in E; congruence|intros ->; apply in_span_0].
Qed.

Lemma in_span_lxor : forall tr v w, in_span v tr -> in_span w tr -> in_span (lxor v w) tr.
Proof.
  induction tr as [|a tr IH]; intros v w Hv Hw.
  - apply in_span_nil in Hv, Hw. subst. apply in_span_0.
  - apply in_span_cons in Hv, Hw. destruct Hv as [s Hv], Hw as [t Hw].
    apply in_span_cons. exists (xorb s t).
    replace (lxor (lxor v w) (if xorb s t then a else 0))
      with (lxor (lxor v (if s then a else 0)) (lxor w (if t then a else 0)))
      by (destruct s, t; cbn [xorb]; xor_solve).
    apply IH; assumption.
Qed.

Lemma in_span_elem tr v : In v tr -> in_span v tr.
Proof.
  induction tr as [|a tr IH]; intros Hin; [destruct Hin|].
  apply in_span_cons. destruct Hin as [->|Hin].
  - exists true. rewrite lxor_nilp. apply in_span_0.
  - exists false. rewrite lxor_0_r. apply IH. exact Hin.
Qed.

Lemma in_span_incl_step a tr v : in_span v tr -> in_span v (a :: tr).
Proof. intros H. apply in_span_cons. exists false. rewrite lxor_0_r. exact H. Qed.

Lemma chain_span_no_R_pair tr h : chain tr -> in_span h tr -> ~ in_span (lxor h Rsym) tr.
Proof.
  intros C Hh Hr. pose proof (in_span_lxor tr _ _ Hh Hr) as [sel E].
  apply (chain_span_not_R tr sel C). rewrite E. xor_solve.
Qed.

(* what [reduce] takes off v is a combination of the view *)
Lemma reduce_span tr bs :
  Forall (fun b => in_span b tr) bs -> forall v, in_span (lxor v (reduce bs v)) tr.
Proof.
  induction 1 as [|b bs Hb _ IH]; intros v; cbn [reduce].
  - rewrite lxor_nilp. apply in_span_0.
  - destruct (N.testbit v (N.log2 b)); [|apply IH].
    replace (lxor v (reduce bs (lxor v b)))
      with (lxor b (lxor (lxor v b) (reduce bs (lxor v b)))) by xor_solve.
    apply in_span_lxor; [exact Hb|apply IH].
Qed.

Lemma insert_desc_Forall (P : N -> Prop) b bs : P b -> Forall P bs -> Forall P (insert_desc b bs).
Proof.
  intros Hb. induction 1 as [|c bs Hc Hbs IH]; cbn [insert_desc]; [repeat constructor; exact Hb|].
  destruct (N.log2 c <? N.log2 b); repeat constructor; assumption.
Qed.

Lemma add_vec_span tr bs v :
  Forall (fun b => in_span b tr) bs -> in_span v tr -> Forall (fun b => in_span b tr) (add_vec bs v).
Proof.
  intros Hb Hv. unfold add_vec. destruct (N.eqb (reduce bs v) 0); [exact Hb|].
  apply insert_desc_Forall; [|exact Hb].
  replace (reduce bs v) with (lxor v (lxor v (reduce bs v))) by xor_solve.
  apply in_span_lxor; [exact Hv|apply reduce_span; exact Hb].
Qed.

Lemma fold_add_vec_span tr : forall l bs,
  Forall (fun b => in_span b tr) bs -> Forall (fun v => in_span v tr) l ->
  Forall (fun b => in_span b tr) (fold_left add_vec l bs).
Proof.
  induction l as [|v l IH]; intros bs Hb Hl; cbn [fold_left]; [exact Hb|].
  inversion Hl; subst. apply IH; [apply add_vec_span|]; assumption.
Qed.

Lemma gf2_basis_span tr : Forall (fun b => in_span b tr) (gf2_basis tr).
Proof. apply fold_add_vec_span; [constructor|apply Forall_forall, in_span_elem]. Qed.

Lemma in_span_b_sound v tr : in_span_b v tr = true -> in_span v tr.
Proof.
  unfold in_span_b. intros H. apply N.eqb_eq in H.
  pose proof (reduce_span tr _ (gf2_basis_span tr) v) as S. rewrite H, lxor_0_r in S. exact S.
Qed.

Theorem forgery_not_in_span (perm : nat -> bool) (c : circuit) (x : list bool) :
  wf c = true -> tweaks_of (gates c) <= 2 ^ 32 ->
  let view := sym_transcript perm c x in
  (forall sel, span_xor sel view <> Rsym) /\
  (forall h, in_span h view -> ~ in_span (lxor h Rsym) view) /\
  (forall sel, span_xor sel view = 0 -> forall i, (i < length view)%nat -> nth i sel false = false).
Proof.
  intros Hwf Htw view. pose proof (sym_whole_circuit_chain perm c x Hwf Htw) as C. fold view in C.
  split; [intros sel; apply chain_span_not_R; exact C|].
  split; [intros h; apply chain_span_no_R_pair; exact C|].
  intros sel E. apply chain_independent; assumption.
Qed.

(* a response that is a linear function of the view, for an output wire whose
   honest label the evaluator can itself derive linearly from the view, is
   accepted by the garbler's label test only with the right bit *)
Theorem linear_response_right_bit (perm : nat -> bool) (c : circuit) (x : list bool)
        (w : wire) (v : bool) (sel : list bool) (b : bool) :
  wf c = true -> tweaks_of (gates c) <= 2 ^ 32 ->
  L1 w = lxor (L0 w) Rsym ->
  let view := sym_transcript perm c x in
  in_span (pick w v) view ->
  sym_accepts w (span_xor sel view) = Some b -> b = v.
Proof.
  intros Hwf Htw Hw view Hh Hacc.
  destruct (forgery_not_in_span perm c x Hwf Htw) as (_ & NP & _). fold view in NP.
  unfold sym_accepts in Hacc.
  destruct (N.eqb_spec (span_xor sel view) (L0 w)) as [E0|N0].
  - injection Hacc as <-. destruct v; [|reflexivity]. exfalso.
    cbn [pick] in Hh. apply (NP _ Hh). exists sel. fold view. rewrite E0, Hw. xor_solve.
  - destruct (N.eqb_spec (span_xor sel view) (L1 w)) as [E1|N1]; [|discriminate].
    injection Hacc as <-. destruct v; [reflexivity|]. exfalso.
    cbn [pick] in Hh. apply (NP _ Hh). exists sel. fold view. rewrite E1, Hw. reflexivity.
Qed.

Theorem span_test_never_fires (perm : nat -> bool) (c : circuit) (x : list bool) :
  wf c = true -> tweaks_of (gates c) <= 2 ^ 32 ->
  let view := sym_transcript perm c x in
  in_span_b Rsym view = false /\
  forall h, in_span_b h view = true -> in_span_b (lxor h Rsym) view = false.
Proof.
  intros Hwf Htw view.
  destruct (forgery_not_in_span perm c x Hwf Htw) as (NR & NP & _). fold view in NR, NP.
  split.
  - destruct (in_span_b Rsym view) eqn:E; [|reflexivity].
    apply in_span_b_sound in E. destruct E as [sel E]. exfalso. exact (NR sel E).
  - intros h Hh. destruct (in_span_b (lxor h Rsym) view) eqn:E; [|reflexivity].
    exfalso. apply (NP h); apply in_span_b_sound; assumption.
Qed.

Definition span_ex_circ : circuit :=
  mkCircuit 8 2 2 [mkGate 0 1 2 XOR; mkGate 2 2 3 AND; mkGate 3 0 4 OR;
                   mkGate 4 0 2 INV; mkGate 2 1 5 XNOR; mkGate 5 4 6 AND;
                   mkGate 6 3 7 OR].
(* outputs: wire 2 = x0 xor x1 (linear), wire 3 = AND (not linear) *)
Definition span_ex_circ2 : circuit :=
  mkCircuit 4 2 2 [mkGate 0 1 3 AND; mkGate 0 1 2 XOR].

(* hypotheses satisfiable; the report of the executable model: 13 values of rank
   13, R not in the span, no output label or forgery in the span *)
Example span_ex_report :
  wf span_ex_circ = true /\ tweaks_of (gates span_ex_circ) <= 2 ^ 32 /\
  span_report (fun n => Nat.odd n) span_ex_circ [true; false]
  = (13%nat, 13%nat, false, [(false, false); (false, false)]).
Proof. vm_compute. repeat split; try reflexivity; discriminate. Qed.

(* an output whose honest label IS a linear function of the view (so the
   hypothesis of linear_response_right_bit is satisfiable), next to one that is not *)
Example span_ex_linear_output :
  wf span_ex_circ2 = true /\
  span_report (fun n => Nat.even n) span_ex_circ2 [true; true]
  = (4%nat, 4%nat, false, [(true, false); (false, false)]).
Proof. vm_compute. repeat split. Qed.

(* the test does fire on a view that leaks: with sha2pc's output hints (both
   labels of an output wire, GGarbleProof.sym_transcript_with_hints) R is in the span *)
Example span_ex_hints_fire :
  in_span_b Rsym (sym_transcript_with_hints (fun n => Nat.odd n) span_ex_circ [true; false]) = true /\
  (gf2_rank (sym_transcript_with_hints (fun n => Nat.odd n) span_ex_circ [true; false])
   < length (sym_transcript_with_hints (fun n => Nat.odd n) span_ex_circ [true; false]))%nat.
Proof. vm_compute. split; [reflexivity|lia]. Qed.
