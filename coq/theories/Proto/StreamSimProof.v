(* StreamSimProof.v — groundwork for the whole-run simulation (C05_stream_sim):
   the allocator trajectory that no_premature_reuse / C05_gc_sound talk about
   ([wstep]) is exactly what Program.Stream's step loop ([stream_step]) does to
   its wire allocator, whatever the values on the wires are; and the rewiring
   of an alias step depends only on the operands in value positions and on the
   number of ids the output had.  Also: a circuit cache that passes the memo
   check is invisible. *)
From Coq Require Import NArith ZArith List Bool Lia.
From Mpc Require Import Lang.Gc Proto.Stream.
Import ListNotations.
Local Open Scope nat_scope.

Lemma vgarble_w st step c ins outs :
  ss_w (vgarble st step c ins outs) = ss_w st /\ ss_zero (vgarble st step c ins outs) = ss_zero st.
Proof. unfold vgarble. destruct (garble_circ_bits (ss_cs st) c ins outs). split; reflexivity. Qed.

Theorem stream_step_w circs idx s st :
  match stream_step circs idx s st with
  | Some st' => wstep circs (ss_zero st) s (ss_w st) = Some (ss_w st') /\ ss_zero st' = ss_zero st
  | None => wstep circs (ss_zero st) s (ss_w st) = None
  end.
Proof.
  unfold stream_step, wstep.
  destruct (operand_ids (ss_w st) (ss_zero st) (iin s)) as [wires w1].
  destruct (match iout s with Some o => assigned_ids w1 (vid o) (vbits o) | None => ([], w1) end) as [out w2].
  destruct (iop s).
  all: try (destruct (iout s) as [o|]; [|reflexivity];
            destruct (alias_ids N (ss_zero st) _ wires (map vcint (iin s)) out (vbits o)); [|reflexivity];
            split; reflexivity).
  - split; reflexivity.
  - destruct (circ_out_ids w2 (ss_zero st) (cc_outs (nth (icirc s) circs cc0)) (iret s)) as [oIDs w3].
    match goal with |- context [vgarble ?a ?b ?c ?d ?e] =>
      destruct (vgarble_w a b c d e) as [V1 V2]; rewrite V1, V2 end.
    split; reflexivity.
  - destruct (igc s) as [v|]; [|reflexivity]. destruct (gc_wires w2 (vid v)); [split; reflexivity | reflexivity].
  - match goal with |- context [vgarble ?a ?b ?c ?d ?e] =>
      destruct (vgarble_w a b c d e) as [V1 V2]; rewrite V1, V2 end.
    split; reflexivity.
Qed.

Fixpoint wsteps (circs : list ccirc) (zero : N) (steps : list instr) (w : walloc) : option walloc :=
  match steps with
  | [] => Some w
  | s :: rest => match wstep circs zero s w with Some w' => wsteps circs zero rest w' | None => None end
  end.

Theorem stream_steps_w circs : forall steps idx st,
  match stream_steps circs idx steps st with
  | Some st' => wsteps circs (ss_zero st) steps (ss_w st) = Some (ss_w st')
  | None => wsteps circs (ss_zero st) steps (ss_w st) = None
  end.
Proof.
  induction steps as [|s rest IH]; intros idx st; [reflexivity|].
  cbn [stream_steps wsteps]. pose proof (stream_step_w circs idx s st) as H.
  destruct (stream_step circs idx s st) as [st'|].
  - destruct H as [H1 H2]. rewrite H1. specialize (IH (S idx) st'). rewrite H2 in IH. exact IH.
  - rewrite H. reflexivity.
Qed.

Lemma alias_ids_positions {A} (z : A) o ins ins' cs old obits :
  (forall j, In j (value_positions o (length ins)) -> nth j ins [] = nth j ins' []) ->
  alias_ids A z o ins cs old obits = alias_ids A z o ins' cs old obits.
Proof.
  intros H. unfold alias_ids.
  destruct o; cbn [value_positions] in H;
    try (rewrite (H 0 (or_introl eq_refl)));
    try (rewrite (H 1 (or_intror (or_introl eq_refl))));
    reflexivity.
Qed.

(* nor on the content of the old output ids, only on their number *)
Lemma alias_ids_old {A} (z : A) o ins cs old old' obits :
  length old = length old' -> length old = obits ->
  (o = OSlice -> Z.to_nat (nth 2 cs 0%Z) - Z.to_nat (nth 1 cs 0%Z) = obits) ->
  alias_ids A z o ins cs old obits = alias_ids A z o ins cs old' obits.
Proof.
  intros Hl Ho Hs. unfold alias_ids. rewrite <- Hl.
  destruct o; try reflexivity.
  - (* slice *)
    specialize (Hs eq_refl). unfold nz. rewrite Hs.
    destruct (_ || _); [reflexivity|]. rewrite Ho, Nat.ltb_irrefl.
    rewrite !skipn_all2 by lia. reflexivity.
  - destruct (nth 0 ins []); rewrite Ho, Nat.ltb_irrefl; rewrite ?skipn_all2 by lia; reflexivity.
  - destruct (nth 0 ins []); [reflexivity|]. rewrite Ho, Nat.ltb_irrefl. rewrite !skipn_all2 by lia. reflexivity.
  - destruct (_ || _); [reflexivity|]. rewrite Ho, Nat.ltb_irrefl. rewrite !skipn_all2 by lia. reflexivity.
Qed.

Section MemoProof.
  Variables (S C : Type) (seqb : S -> S -> bool) (gen : S -> C).
  Hypothesis seqb_eq : forall a b, seqb a b = true -> a = b.

  Lemma lookup_map_gen k (seen : list (N * S)) :
    lookup k (map (fun q => (fst q, gen (snd q))) seen) = option_map gen (lookup k seen).
  Proof.
    induction seen as [|[k2 sh2] t IH]; [reflexivity|]. cbn [map lookup fst snd].
    destruct (N.eqb k k2); [reflexivity | exact IH].
  Qed.

  Lemma memo_run : forall l seen, memo_ok S seqb l seen = true ->
    cached_run S C gen l (map (fun q => (fst q, gen (snd q))) seen) = map (fun q => gen (snd q)) l.
  Proof.
    induction l as [|[k sh] t IH]; intros seen H; [reflexivity|].
    cbn [memo_ok cached_run map snd] in *. rewrite lookup_map_gen.
    destruct (lookup k seen) as [sh0|]; cbn [option_map].
    - apply andb_prop in H as [H1 H2]. apply seqb_eq in H1. subst sh0. f_equal. apply IH, H2.
    - f_equal. apply (IH ((k, sh) :: seen) H).
  Qed.
End MemoProof.

Lemma list_nat_eqb_eq : forall a b, list_nat_eqb a b = true -> a = b.
Proof.
  induction a as [|x a IH]; intros [|y b] H; try discriminate; [reflexivity|].
  simpl in H. apply andb_prop in H as [H1 H2]. apply Nat.eqb_eq in H1. subst. f_equal. apply IH, H2.
Qed.

Lemma shape_eqb_eq a b : shape_eqb a b = true -> a = b.
Proof.
  destruct a as [[[o1 i1] r1] c1]. destruct b as [[[o2 i2] r2] c2]. unfold shape_eqb. intros H.
  apply andb_prop in H as [H H4]. apply andb_prop in H as [H H3]. apply andb_prop in H as [H1 H2].
  apply Z.eqb_eq in H1. apply list_nat_eqb_eq in H2. apply Nat.eqb_eq in H3. apply Z.eqb_eq in H4. subst. reflexivity.
Qed.

(* For every circuit generator (any function of the shape) and every list of
   (cache key, shape) pairs that passes the executable memo check: the
   circuits the cached streamer uses are, step by step, the circuits the
   generator produces without a cache. *)
Theorem cache_is_memo (C : Type) (gen : shape -> C) (l : list (N * shape)) :
  memo_ok shape shape_eqb l [] = true ->
  cached_run shape C gen l [] = map (fun q => gen (snd q)) l.
Proof. intros H. exact (memo_run shape C shape_eqb gen shape_eqb_eq l [] H). Qed.
