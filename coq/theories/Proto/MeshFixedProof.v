(* MeshFixedProof.v — the inductive invariant of the mesh model of the code as
   it is now ([fixed = true] in Mesh.v: acceptConn stores the connection and
   decrements need[c] in one critical section): all n >= 2, all 1 <= k <= 256,
   all schedules, all prefixes.  Two parts, preserved together: per party
   (PInv: need[c] counts the inbound connections c still missing, and what
   each program counter guarantees about the table) and per link (GInv: every
   link is stored by its dialler under the connection id carried in its hello
   and is in exactly one of the listener's backlog, the hands of the accept
   thread, the acceptor's table under the same id; no error state). *)
From Coq Require Import List Bool PeanoNat Lia Sorted.
From Mpc Require Import Base.ListFacts Proto.Mesh Proto.MeshProof.
Import ListNotations.

Lemma upd_same {A} (f : nat -> A) i v : upd f i v i = v.
Proof. unfold upd. now rewrite Nat.eqb_refl. Qed.
Lemma upd_other {A} (f : nat -> A) i j v : j <> i -> upd f i v j = f j.
Proof. unfold upd. intros H. apply Nat.eqb_neq in H. now rewrite H. Qed.

(* unfold the record projections and field updates of Mesh.v, and nothing else *)
Ltac psimpl := cbn [p_queue p_peers p_conns p_main p_acc p_need p_np p_ldone p_ret
                    set_main set_acc set_queue set_need set_tab set_np main_done acc_dead
                    g_party g_link g_nlinks set_party set_hello set_info l_from l_to l_hello l_info].
Tactic Notation "psimpl" "in" hyp(H) :=
  cbn [p_queue p_peers p_conns p_main p_acc p_need p_np p_ldone p_ret
       set_main set_acc set_queue set_need set_tab set_np main_done acc_dead
       g_party g_link g_nlinks set_party set_hello set_info l_from l_to l_hello l_info] in H.
Tactic Notation "psimpl" "in" "*" :=
  cbn [p_queue p_peers p_conns p_main p_acc p_need p_np p_ldone p_ret
       set_main set_acc set_queue set_need set_tab set_np main_done acc_dead
       g_party g_link g_nlinks set_party set_hello set_info l_from l_to l_hello l_info] in *.

Definition sorted := StronglySorted lt.

Lemma memb_In x l : memb x l = true <-> In x l.
Proof.
  unfold memb. rewrite existsb_exists. split.
  - intros (y & Hy & E). apply Nat.eqb_eq in E. now subst.
  - intros H. exists x. split; [assumption|apply Nat.eqb_refl].
Qed.

Lemma insert_sorted_in x y l : In x (insert_sorted y l) <-> x = y \/ In x l.
Proof.
  induction l as [|z r IH]; simpl.
  - split; [intros [<-|[]]; auto | intros [->|[]]; auto].
  - destruct (y <? z); simpl; [split; [intros [<-|H]; auto | intros [->|H]; auto]|].
    destruct (y =? z) eqn:E2; simpl.
    + apply Nat.eqb_eq in E2. subst. split; [auto | intros [->|H]; auto].
    + rewrite IH. tauto.
Qed.

Lemma insert_sorted_sorted y l : sorted l -> sorted (insert_sorted y l).
Proof.
  unfold sorted. induction l as [|z r IH]; simpl; intros S.
  - constructor; constructor.
  - destruct (y <? z) eqn:E1.
    + apply Nat.ltb_lt in E1. constructor; [assumption|].
      inversion S; subst. constructor; [assumption|].
      eapply Forall_impl; [|eassumption]. simpl. intros; lia.
    + destruct (y =? z) eqn:E2; [assumption|].
      apply Nat.ltb_ge in E1. apply Nat.eqb_neq in E2.
      inversion S; subst. constructor; [now apply IH|].
      apply Forall_forall. intros x Hx. apply insert_sorted_in in Hx. destruct Hx as [->|Hx]; [lia|].
      rewrite Forall_forall in H2. now apply H2.
Qed.

Lemma sorted_ext l1 : forall l2, sorted l1 -> sorted l2 -> (forall x, In x l1 <-> In x l2) -> l1 = l2.
Proof.
  unfold sorted. induction l1 as [|a r1 IH]; intros [|b r2] S1 S2 H.
  - reflexivity.
  - exfalso. apply (proj2 (H b)). now left.
  - exfalso. apply (proj1 (H a)). now left.
  - inversion S1 as [|? ? S1' F1]; subst. inversion S2 as [|? ? S2' F2]; subst.
    rewrite Forall_forall in F1, F2.
    assert (a = b).
    { destruct (proj1 (H a) (or_introl eq_refl)) as [->|Ha]; [reflexivity|].
      destruct (proj2 (H b) (or_introl eq_refl)) as [->|Hb]; [reflexivity|].
      specialize (F1 _ Hb). specialize (F2 _ Ha). lia. }
    subst b. f_equal. apply IH; try assumption.
    intros x. split; intros Hx.
    + destruct (proj1 (H x) (or_intror Hx)) as [->|]; [|assumption]. specialize (F1 _ Hx). lia.
    + destruct (proj2 (H x) (or_intror Hx)) as [->|]; [|assumption]. specialize (F2 _ Hx). lia.
Qed.

Lemma seq_sorted s n : sorted (seq s n).
Proof.
  unfold sorted. revert s. induction n as [|n IH]; intros s; simpl; constructor.
  - apply IH.
  - apply Forall_forall. intros x Hx. apply in_seq in Hx. lia.
Qed.

Lemma filter_sorted f l : sorted l -> sorted (filter f l).
Proof.
  unfold sorted. induction l as [|a r IH]; simpl; intros S; [constructor|].
  inversion S; subst. destruct (f a).
  - constructor; [now apply IH|]. apply Forall_forall. intros x Hx.
    apply filter_In in Hx. rewrite Forall_forall in H2. now apply H2.
  - now apply IH.
Qed.

Lemma sorted_NoDup l : sorted l -> NoDup l.
Proof.
  unfold sorted. induction l as [|a r IH]; intros S; constructor; inversion S; subst.
  - intros Hin. rewrite Forall_forall in H2. specialize (H2 _ Hin). lia.
  - now apply IH.
Qed.

Lemma filter_len_le {A} (f : A -> bool) l : length (filter f l) <= length l.
Proof. induction l as [|a r IH]; simpl; [lia|]. destruct (f a); simpl; lia. Qed.

Lemma filter_partition {A} (f : A -> bool) l :
  length (filter f l) + length (filter (fun x => negb (f x)) l) = length l.
Proof. induction l as [|a r IH]; simpl; [reflexivity|]. destruct (f a); simpl; lia. Qed.

Lemma filter_len_full {A} (f : A -> bool) l :
  length (filter f l) = length l -> forall x, In x l -> f x = true.
Proof.
  induction l as [|a r IH]; simpl; intros H x Hx; [contradiction|].
  destruct (f a) eqn:E; simpl in H.
  - destruct Hx as [->|Hx]; [assumption|]. apply IH; [lia|assumption].
  - pose proof (filter_len_le f r). lia.
Qed.

Lemma filter_len_flip {A} (f g : A -> bool) l id :
  NoDup l -> In id l -> f id = false -> g id = true -> (forall x, x <> id -> g x = f x) ->
  length (filter g l) = S (length (filter f l)).
Proof.
  induction l as [|a r IH]; simpl; intros ND Hin Hf Hg Hext; [contradiction|].
  inversion ND; subst. destruct Hin as [->|Hin].
  - rewrite Hf, Hg. simpl. f_equal. f_equal. apply filter_ext_in.
    intros x Hx. apply Hext. intros ->. contradiction.
  - assert (a <> id) by (intros ->; contradiction).
    rewrite (Hext a H). destruct (f a); simpl; rewrite IH; auto.
Qed.

Lemma filter_len_same {A} (f g : A -> bool) l :
  (forall x, In x l -> g x = f x) -> length (filter g l) = length (filter f l).
Proof. intros H. f_equal. now apply filter_ext_in. Qed.

Lemma set_conn_spec t id c l j c' :
  set_conn t id c l j c' = if (j =? id) && (c' =? c) then Some l else t j c'.
Proof.
  unfold set_conn, upd. destruct (Nat.eqb_spec j id) as [->|]; [|reflexivity]. now destruct (c' =? c).
Qed.

(* addPeerLocked: both branches (old.SetConn for a known id, append + sort
   for a new one) write exactly the slot (id, c), which was empty *)
Lemma add_peer_spec p id c l p1 :
  (forall c', ~ In id (p_peers p) -> p_conns p id c' = None) ->
  add_peer p id c l = Some p1 ->
  id < p_np p /\ p_conns p id c = None /\
  exists ps tb, p1 = set_tab p ps tb /\
    (forall j c', tb j c' = if (j =? id) && (c' =? c) then Some l else p_conns p j c') /\
    (forall x, In x ps <-> x = id \/ In x (p_peers p)) /\ (sorted (p_peers p) -> sorted ps).
Proof.
  intros Hp3. unfold add_peer. destruct (Nat.leb_spec (p_np p) id); [discriminate|].
  destruct (memb id (p_peers p)) eqn:Hmem.
  - apply memb_In in Hmem. destruct (p_conns p id c) eqn:Hslot; [discriminate|]. intros [= <-].
    split; [assumption|]. split; [reflexivity|].
    exists (p_peers p), (set_conn (p_conns p) id c l). split; [reflexivity|]. split; [|split; [|auto]].
    + apply set_conn_spec.
    + intros x. split; [auto|intros [->|]; assumption].
  - assert (Hnin : ~ In id (p_peers p)) by (rewrite <- memb_In; congruence). intros [= <-].
    split; [assumption|]. split; [now apply Hp3|]. eexists _, _. split; [reflexivity|]. split; [|split].
    + intros j c'. unfold upd. destruct (Nat.eqb_spec j id) as [->|]; [|reflexivity].
      rewrite (Hp3 c' Hnin). now destruct (c' =? c).
    + intros x. apply insert_sorted_in.
    + apply insert_sorted_sorted.
Qed.

Lemma add_peer_some p id c l : id < p_np p -> p_conns p id c = None -> add_peer p id c l <> None.
Proof.
  intros Hid Hs. unfold add_peer. apply Nat.leb_gt in Hid. rewrite Hid, Hs.
  now destruct (memb id (p_peers p)).
Qed.

Lemma next_conn_cases k i c p :
  (S c < k /\ i = 0 /\ next_conn k i c p = set_main p (MWait (S c))) \/
  (S c < k /\ i <> 0 /\ next_conn k i c p = set_main p (MDial (S c) (targets i (S c) (p_peers p)))) \/
  (k <= S c /\ next_conn k i c p = main_done p).
Proof.
  unfold next_conn. destruct (Nat.ltb_spec (S c) k); [|auto]. destruct (Nat.eqb_spec i 0); auto.
Qed.

Definition cid (r : linkrec) : nat := match l_hello r with Some (c, _) => c | None => 0 end.
Definition dside (i t : nat) : Prop := t = 0 \/ i < t.

(* the leader is past the loop that sends the network info *)
Definition past (m : mpc) : Prop := match m with MWait c => 1 <= c | MDone => True | _ => False end.

(* the slots party i (not the leader) has still to dial are empty *)
Definition undialed (i : nat) (p : party) : Prop :=
  match p_main p with
  | MDial c ts => NoDup ts /\ forall t c', dside i t -> (c < c' \/ (c' = c /\ In t ts)) -> p_conns p t c' = None
  | MWait c => forall t c', dside i t -> c < c' -> p_conns p t c' = None
  | _ => True
  end.

Section Inv.
Variables n k : nat.

(* number of inbound connections per connection id party i expects: the
   leader from everybody, party i > 0 from the parties 1..i-1 *)
Definition E i := if i =? 0 then n - 1 else i - 1.
Definition aside i := seq 1 (E i).
Definition stored (t : table) c j := match t j c with Some _ => true | None => false end.
Definition cnt t i c := length (filter (stored t c) (aside i)).
Definition others j := filter (fun x => negb (x =? 0) && negb (x =? j)) (seq 0 n).
Definition full t i c := forall j, In j (aside i) -> stored t c j = true.
Definition dialed t i c := forall j, In j (targets i c (seq 0 n)) -> stored t c j = true.
Definition running a := match a with AOff | ADead _ => False | _ => True end.
Definition tab_le (t t' : table) := forall j c, stored t c j = true -> stored t' c j = true.

Definition link_ok (r : linkrec) :=
  1 <= l_from r /\ l_from r < n /\ l_to r < n /\ (l_to r = 0 \/ l_from r < l_to r) /\
  (forall c id, l_hello r = Some (c, id) -> id = l_from r /\ c < k) /\
  (forall ids, l_info r = Some ids -> ids = others (l_from r)).

Definition main_ok i (p : party) : Prop :=
  let t := p_conns p in
  match p_main p with
  | MStart => p_acc p = AOff /\ (forall j c, t j c = None) /\ (i = 0 -> p_peers p = [0])
  | MHello | MRecvInfo =>
      i <> 0 /\ p_acc p = AOff /\ (forall j c, (j = 0 /\ c = 0) \/ t j c = None) /\
      stored t 0 0 = true /\ p_peers p = [0; i]
  | MDial c ts =>
      i <> 0 /\ p_acc p <> AOff /\ p_peers p = seq 0 n /\ stored t 0 0 = true /\ c < k /\
      (forall c', c' < c -> full t i c' /\ dialed t i c') /\
      (forall j, In j (targets i c (seq 0 n)) -> ~ In j ts -> stored t c j = true) /\
      (forall j, In j ts -> In j (targets i c (seq 0 n)))
  | MWait c =>
      p_acc p <> AOff /\ c < k /\ (forall c', c' < c -> full t i c') /\
      (i <> 0 -> p_peers p = seq 0 n /\ stored t 0 0 = true /\ forall c', c' <= c -> dialed t i c')
  | MInfo => i = 0 /\ p_acc p <> AOff /\ full t i 0
  | MDone =>
      (forall c, c < k -> full t i c) /\
      (i <> 0 -> p_peers p = seq 0 n /\ stored t 0 0 = true /\ forall c, c < k -> dialed t i c)
  | MErr _ => True
  end.

Set Implicit Arguments.
Record PInv (nl : nat) (lk : nat -> linkrec) (i : nat) (p : party) : Prop := {
  pi_queue : forall l, In l (p_queue p) -> l < nl /\ l_to (lk l) = i;
  pi_sorted : sorted (p_peers p);
  pi_bound : forall x, In x (p_peers p) -> x < n;
  pi_zero : i = 0 -> In 0 (p_peers p) /\ p_np p = n;
  pi_p3 : forall j c, ~ In j (p_peers p) -> p_conns p j c = None;
  pi_conn : forall j c l, p_conns p j c = Some l ->
      l < nl /\ ((l_from (lk l) = i /\ l_to (lk l) = j) \/ (l_from (lk l) = j /\ l_to (lk l) = i));
  pi_acc : match p_acc p with
           | ASet l c id =>
               In id (aside i) /\ c < k /\ l < nl /\ l_from (lk l) = id /\ l_to (lk l) = i
           | AAdd _ _ _ => False
           | _ => True end;
  pi_need : running (p_acc p) -> forall c, c < k ->
      p_need p c + cnt (p_conns p) i c = E i;
  pi_main : main_ok i p;
  pi_ret : forall ps t, p_ret p = Some (ps, t) -> tab_complete n k i ps t = true;
  pi_done : match p_main p with MDone => p_ret p <> None | _ => True end
}.
Unset Implicit Arguments.

Definition Inv (st : state) : Prop :=
  (forall l, l < g_nlinks st -> link_ok (g_link st l)) /\
  (forall i, i < n -> PInv (g_nlinks st) (g_link st) i (g_party st i)).

Lemma in_aside i j : In j (aside i) <-> 1 <= j /\ j < 1 + E i.
Proof. unfold aside. rewrite in_seq. lia. Qed.

Lemma aside_len i : length (aside i) = E i.
Proof. unfold aside. apply seq_length. Qed.

Lemma aside_lt i j : i < n -> In j (aside i) -> 1 <= j /\ j < n /\ (i <> 0 -> j < i).
Proof.
  intros Hi H. apply in_aside in H. unfold E in H. destruct (i =? 0) eqn:E0.
  - apply Nat.eqb_eq in E0. lia.
  - apply Nat.eqb_neq in E0. lia.
Qed.

Lemma aside_in i j : 1 <= j -> (i = 0 -> j < n) -> (i <> 0 -> j < i) -> In j (aside i).
Proof.
  intros H1 H2 H3. apply in_aside. unfold E. destruct (Nat.eqb_spec i 0) as [E0|E0].
  - specialize (H2 E0). lia.
  - specialize (H3 E0). lia.
Qed.

Lemma pair_sides i j : i < n -> j < n -> i <> j -> In j (aside i) \/ In i (aside j).
Proof.
  intros Hi Hj Hne. destruct (Nat.eq_dec i 0) as [->|Hi0]; [left; apply aside_in; lia|].
  destruct (Nat.eq_dec j 0) as [->|Hj0]; [right; apply aside_in; lia|].
  destruct (Nat.lt_ge_cases j i); [left|right]; apply aside_in; lia.
Qed.

Lemma in_targets i c j ps : In j (targets i c ps) <-> In j ps /\ (if j =? 0 then c <> 0 else i < j).
Proof.
  unfold targets. rewrite filter_In. destruct (j =? 0).
  - rewrite negb_true_iff, Nat.eqb_neq. tauto.
  - rewrite Nat.ltb_lt. tauto.
Qed.

Lemma cnt_full t i c : cnt t i c = E i -> full t i c.
Proof. unfold cnt, full. intros H. apply filter_len_full. now rewrite aside_len. Qed.

Lemma filter_none {A} (f : A -> bool) l : (forall x, In x l -> f x = false) -> filter f l = [].
Proof.
  induction l as [|a r IH]; simpl; intros H; [reflexivity|].
  rewrite (H a (or_introl eq_refl)). apply IH. intros x Hx. apply H. now right.
Qed.

Lemma cnt_zero t i c : (forall j, In j (aside i) -> t j c = None) -> cnt t i c = 0.
Proof.
  intros H. unfold cnt. rewrite filter_none; [reflexivity|].
  intros j Hj. unfold stored. now rewrite H.
Qed.

Lemma cnt_lt t i c id : In id (aside i) -> t id c = None -> cnt t i c < E i.
Proof.
  intros Hin Hn0. unfold cnt. rewrite <- (aside_len i).
  assert (H : length (filter (stored t c) (aside i)) <= length (aside i)) by apply filter_len_le.
  destruct (Nat.eq_dec (length (filter (stored t c) (aside i))) (length (aside i))) as [Heq|]; [|lia].
  pose proof (filter_len_full _ _ Heq id Hin) as Hs. unfold stored in Hs. rewrite Hn0 in Hs. discriminate.
Qed.

Lemma need_zero_full nl lk i p c :
  PInv nl lk i p -> running (p_acc p) -> c < k -> p_need p c = 0 -> full (p_conns p) i c.
Proof.
  intros P Hrun Hc Hz. apply cnt_full. pose proof (pi_need P Hrun Hc) as Hneed. lia.
Qed.

Lemma tab_le_refl t : tab_le t t.
Proof. intros j c H; exact H. Qed.

Lemma stored_set_conn t id c l c' j :
  stored (set_conn t id c l) c' j = if (j =? id) && (c' =? c) then true else stored t c' j.
Proof. unfold stored. rewrite set_conn_spec. now destruct ((j =? id) && (c' =? c)). Qed.

Lemma tab_le_set_conn t id c l : tab_le t (set_conn t id c l).
Proof. intros j c' H. rewrite stored_set_conn. destruct ((j =? id) && (c' =? c)); auto. Qed.

Lemma main_ok_mono i p p' :
  p_main p' = p_main p -> p_acc p <> AOff -> p_acc p' <> AOff ->
  tab_le (p_conns p) (p_conns p') -> (p_peers p = seq 0 n -> p_peers p' = seq 0 n) ->
  main_ok i p -> main_ok i p'.
Proof.
  intros Hm Ha Ha' Hle Hps. unfold main_ok. rewrite Hm.
  assert (F : forall c, full (p_conns p) i c -> full (p_conns p') i c)
    by (intros c H j Hj; apply Hle; now apply H).
  assert (D : forall c, dialed (p_conns p) i c -> dialed (p_conns p') i c)
    by (intros c H j Hj; apply Hle; now apply H).
  destruct (p_main p); try tauto.
  - intros (H1 & H2 & H3 & H4 & H5 & H6 & H7 & H8).
    split; [assumption|]. split; [assumption|]. split; [now apply Hps|]. split; [now apply Hle|].
    split; [assumption|]. split; [|split].
    + intros c' Hc'. destruct (H6 c' Hc'). split; [now apply F|now apply D].
    + intros j Hj Hnj. apply Hle. now apply H7.
    + assumption.
  - intros (H1 & H2 & H3 & H4). split; [assumption|]. split; [assumption|]. split.
    + intros c' Hc'. apply F. now apply H3.
    + intros Hi. destruct (H4 Hi) as (A & B & C). split; [now apply Hps|]. split; [now apply Hle|].
      intros c' Hc'. apply D. now apply C.
  - intros (H1 & H2 & H3). split; [assumption|]. split; [assumption|]. now apply F.
  - intros (H1 & H2). split.
    + intros c Hc. apply F. now apply H1.
    + intros Hi. destruct (H2 Hi) as (A & B & C). split; [now apply Hps|]. split; [now apply Hle|].
      intros c' Hc'. apply D. now apply C.
Qed.

Lemma tab_complete_spec i ps t :
  tab_complete n k i ps t = true <->
  ps = seq 0 n /\ forall j c, j < n -> j <> i -> c < k -> stored t c j = true.
Proof.
  unfold tab_complete. rewrite andb_true_iff, forallb_forall.
  destruct (list_eq_dec Nat.eq_dec ps (seq 0 n)) as [->|Hne].
  2:{ split; intros (H & _); [discriminate|contradiction]. }
  split; intros (_ & H); (split; [reflexivity|]).
  - intros j c Hj Hji Hc. specialize (H j ltac:(apply in_seq; lia)).
    apply Nat.eqb_neq in Hji. rewrite Hji in H. simpl in H. rewrite forallb_forall in H.
    apply (H c). apply in_seq. lia.
  - intros j Hj. apply in_seq in Hj. destruct (Nat.eqb_spec j i); [reflexivity|]. simpl.
    apply forallb_forall. intros c Hc. apply in_seq in Hc. apply H; lia.
Qed.

Lemma PInv_frame nl lk nl' lk' i p :
  PInv nl lk i p -> nl <= nl' ->
  (forall l, l < nl -> l_from (lk' l) = l_from (lk l) /\ l_to (lk' l) = l_to (lk l)) ->
  PInv nl' lk' i p.
Proof.
  intros [] Hle Hsame. constructor; auto.
  - intros l Hl. destruct (pi_queue0 l Hl) as (A & B). split; [lia|]. now rewrite (proj2 (Hsame l A)).
  - intros j c l Hl. destruct (pi_conn0 j c l Hl) as (A & B). split; [lia|].
    destruct (Hsame l A) as (-> & ->). exact B.
  - destruct (p_acc p); auto. destruct pi_acc0 as (A & B & C & D & F).
    destruct (Hsame _ C) as (R1 & R2). rewrite R1, R2. repeat split; auto; lia.
Qed.

Lemma PInv_new_link nl lk i p r : PInv nl lk i p -> PInv (S nl) (upd lk nl r) i p.
Proof.
  intros P. eapply PInv_frame; [exact P|lia|]. intros l Hl. rewrite upd_other by lia. split; reflexivity.
Qed.

Lemma PInv_enqueue nl lk i p l :
  PInv nl lk i p -> l < nl -> l_to (lk l) = i -> PInv nl lk i (set_queue p (p_queue p ++ [l])).
Proof.
  intros [] Hl Ht. constructor; simpl; auto.
  intros l' Hin. apply in_app_or in Hin. destruct Hin as [Hin|[<-|[]]]; auto.
Qed.

Lemma PInv_dequeue nl lk i p q : PInv nl lk i p -> incl q (p_queue p) -> PInv nl lk i (set_queue p q).
Proof. intros [] Hq. constructor; simpl; auto. Qed.

Lemma Inv_intro st st' i :
  Inv st -> i < n ->
  g_nlinks st <= g_nlinks st' ->
  (forall l, l < g_nlinks st ->
     l_from (g_link st' l) = l_from (g_link st l) /\ l_to (g_link st' l) = l_to (g_link st l)) ->
  (forall l, l < g_nlinks st' -> link_ok (g_link st' l)) ->
  (forall i', i' < n -> i' <> i ->
     g_party st' i' = g_party st i' \/
     exists l, g_party st' i' = set_queue (g_party st i') (p_queue (g_party st i') ++ [l]) /\
               l < g_nlinks st' /\ l_to (g_link st' l) = i') ->
  PInv (g_nlinks st') (g_link st') i (g_party st' i) ->
  Inv st'.
Proof.
  intros (HL & HP) Hi Hle Hsame HL' Hoth Hme. split; [exact HL'|].
  intros i' Hi'. destruct (Nat.eq_dec i' i) as [->|Hne]; [exact Hme|].
  destruct (Hoth i' Hi' Hne) as [->|(l & -> & A & B)].
  - eapply PInv_frame; eauto.
  - apply PInv_enqueue; auto. eapply PInv_frame; eauto.
Qed.

Lemma Inv_local st i p' :
  Inv st -> i < n -> PInv (g_nlinks st) (g_link st) i p' -> Inv (set_party st i p').
Proof.
  intros HI Hi Hp.
  apply (Inv_intro st (set_party st i p') i); simpl;
    [assumption|assumption|lia|intros; split; reflexivity|apply HI| |].
  - intros i' _ Hne. left. now apply upd_other.
  - now rewrite upd_same.
Qed.

(* party i dials t (net.Dial: the new link is queued at t's listener) and
   updates its own record *)
Lemma Inv_new_link st i t h :
  Inv st -> i < n -> t < n -> 1 <= i -> t = 0 \/ i < t ->
  (forall c id, h = Some (c, id) -> id = i /\ c < k) ->
  forall p', PInv (S (g_nlinks st)) (upd (g_link st) (g_nlinks st) (mkLink i t h None)) i p' ->
  Inv (set_party (fst (new_link st i t h)) i p').
Proof.
  intros HI Hi Ht Hi1 Hd Hh p' Hp'. unfold new_link. cbn [fst].
  apply (Inv_intro st _ i); try assumption; psimpl.
  - lia.
  - intros l Hl. rewrite upd_other by lia. split; reflexivity.
  - intros l Hl. destruct (Nat.eq_dec l (g_nlinks st)) as [->|Hne].
    + rewrite upd_same. unfold link_ok. psimpl. repeat split; try lia; try discriminate; now apply (Hh c id).
    + rewrite upd_other by assumption. apply HI. lia.
  - intros i' Hi' Hne. rewrite (upd_other _ i i') by assumption.
    destruct (Nat.eq_dec i' t) as [->|Hne0].
    + right. exists (g_nlinks st). rewrite !upd_same. psimpl. split; [reflexivity|]. split; [lia|reflexivity].
    + left. now apply upd_other.
  - now rewrite upd_same.
Qed.

Lemma link_from_aside st l : Inv st -> l < g_nlinks st -> In (l_from (g_link st l)) (aside (l_to (g_link st l))).
Proof.
  intros (HL & _) Hl. destruct (HL l Hl) as (L1 & L2 & L3 & L4 & _).
  apply aside_in; try lia.
Qed.

Lemma others_spec j x : In x (others j) <-> x < n /\ x <> 0 /\ x <> j.
Proof.
  unfold others. rewrite filter_In, in_seq, andb_true_iff, !negb_true_iff, !Nat.eqb_neq. lia.
Qed.

Lemma others_len i : 1 <= i -> i < n -> 2 + length (others i) = n.
Proof.
  intros H1 H2. unfold others.
  pose proof (filter_partition (fun x => negb (x =? 0) && negb (x =? i)) (seq 0 n)) as H. rewrite seq_length in H.
  assert (E : filter (fun x => negb (negb (x =? 0) && negb (x =? i))) (seq 0 n) = [0; i]).
  { apply sorted_ext.
    - apply filter_sorted, seq_sorted.
    - unfold sorted. repeat constructor. lia.
    - intros x. rewrite filter_In, in_seq, negb_true_iff, andb_false_iff, !negb_false_iff, !Nat.eqb_eq. simpl. lia. }
  rewrite E in H. simpl in H. lia.
Qed.

Lemma add_ids_spec np ids : forall ps ps', add_ids np ids ps = Some ps' ->
  (forall x, In x ps' <-> In x ids \/ In x ps) /\ (sorted ps -> sorted ps').
Proof.
  induction ids as [|a r IH]; simpl; intros ps ps' H.
  - injection H as <-. split; [intuition|auto].
  - destruct (np <=? a); [discriminate|]. destruct (IH _ _ H) as (A & B). split.
    + intros x. rewrite A, insert_sorted_in. intuition.
    + intros S. apply B. now apply insert_sorted_sorted.
Qed.

Lemma num_accept i : i < n -> i <> 0 -> length (filter (fun id => id <? i) (others i)) = E i.
Proof.
  intros Hi H0. rewrite <- (aside_len i). f_equal. apply sorted_ext.
  - apply filter_sorted. unfold others. apply filter_sorted, seq_sorted.
  - apply seq_sorted.
  - intros x. rewrite filter_In, others_spec, Nat.ltb_lt, in_aside. unfold E.
    apply Nat.eqb_neq in H0. rewrite H0. apply Nat.eqb_neq in H0. lia.
Qed.

Lemma leader_peers_full nl lk p : PInv nl lk 0 p -> full (p_conns p) 0 0 -> p_peers p = seq 0 n.
Proof.
  intros P PF. apply sorted_ext; [apply (pi_sorted P)|apply seq_sorted|].
  intros x. rewrite in_seq. split; [intros Hx; pose proof (pi_bound P x Hx); lia|].
  intros Hx. destruct (Nat.eq_dec x 0) as [->|Hx0]; [now apply (pi_zero P)|].
  destruct (in_dec Nat.eq_dec x (p_peers p)) as [|Hnx]; [assumption|exfalso].
  assert (Hs : stored (p_conns p) 0 x = true) by (apply PF; apply aside_in; lia).
  unfold stored in Hs. rewrite (pi_p3 P x 0 Hnx) in Hs. discriminate.
Qed.

Hypothesis Hn : 2 <= n.
Hypothesis Hk : 1 <= k.

Lemma done_complete nl lk i p :
  i < n -> PInv nl lk i p ->
  (forall c, c < k -> full (p_conns p) i c) ->
  (i <> 0 -> p_peers p = seq 0 n /\ stored (p_conns p) 0 0 = true /\ forall c, c < k -> dialed (p_conns p) i c) ->
  tab_complete n k i (p_peers p) (p_conns p) = true.
Proof.
  intros Hi P HF HD. apply tab_complete_spec. split.
  - destruct (Nat.eq_dec i 0) as [->|Hne]; [|now apply HD]. eapply leader_peers_full; [exact P|]. apply HF. lia.
  - intros j c Hj Hji Hc. destruct (Nat.eq_dec i 0) as [->|Hi0]; [apply (HF c Hc); apply aside_in; lia|].
    destruct (HD Hi0) as (_ & S0 & D). destruct (Nat.lt_ge_cases j i) as [Hlt|Hge].
    + destruct (Nat.eq_dec j 0) as [->|Hj0]; [|apply (HF c Hc); apply aside_in; lia].
      destruct (Nat.eq_dec c 0) as [->|Hc0]; [assumption|].
      apply (D c Hc). apply in_targets. split; [apply in_seq; lia|assumption].
    + apply (D c Hc). apply in_targets. split; [apply in_seq; lia|].
      destruct (Nat.eqb_spec j 0); lia.
Qed.

(* the step taken when the wait for connection id c has succeeded *)
Lemma next_conn_inv nl lk i p c :
  i < n -> PInv nl lk i p -> p_acc p <> AOff ->
  (forall c', c' <= c -> full (p_conns p) i c') ->
  (i <> 0 -> p_peers p = seq 0 n /\ stored (p_conns p) 0 0 = true /\ forall c', c' <= c -> dialed (p_conns p) i c') ->
  PInv nl lk i (next_conn k i c p).
Proof.
  intros Hi P Ha HF HD.
  destruct (next_conn_cases k i c p) as [(Ek & E0 & ->)|[(Ek & E0 & ->)|(Ek & ->)]].
  - destruct P. constructor; psimpl; auto.
    unfold main_ok. psimpl. split; [assumption|]. split; [assumption|]. split.
    + intros c' Hc'. apply HF. lia.
    + intros H. contradiction.
  - destruct (HD E0) as (D1 & D2 & D3). destruct P. constructor; psimpl; auto.
    unfold main_ok. psimpl. split; [assumption|]. split; [assumption|]. split; [assumption|].
    split; [assumption|]. split; [assumption|]. split; [|split].
    + intros c' Hc'. split; [apply HF; lia|apply D3; lia].
    + intros j Hj Hnj. exfalso. apply Hnj. now rewrite D1.
    + intros j Hj. now rewrite D1 in Hj.
  - assert (HF' : forall c', c' < k -> full (p_conns p) i c') by (intros c' Hc'; apply HF; lia).
    assert (HD' : i <> 0 -> p_peers p = seq 0 n /\ stored (p_conns p) 0 0 = true /\
                            forall c', c' < k -> dialed (p_conns p) i c').
    { intros H. destruct (HD H) as (D1 & D2 & D3). repeat split; auto. intros c' Hc'. apply D3. lia. }
    pose proof (done_complete _ _ _ _ Hi P HF' HD') as TC.
    destruct P. constructor; psimpl; auto.
    + unfold main_ok. psimpl. split; assumption.
    + intros ps t [= <- <-]. exact TC.
    + discriminate.
Qed.

(* dial refuses connection ids above 0xff *)
Hypothesis Hk256 : k <= 256.

Notation P st i := (g_party st i).
Notation L st l := (g_link st l).

(* the link part of the invariant; [cid] of a link whose hello is still to be
   sent (the Join link) is 0, the connection id it will carry *)
Set Implicit Arguments.
Record GInv (st : state) : Prop := {
  g_dial : forall l, l < g_nlinks st ->
      p_conns (P st (l_from (L st l))) (l_to (L st l)) (cid (L st l)) = Some l;
  g_acc : forall i j c l, i < n -> In j (aside i) -> p_conns (P st i) j c = Some l ->
      l_from (L st l) = j /\ l_to (L st l) = i /\ l_hello (L st l) = Some (c, j);
  g_dslot : forall i t c l, i < n -> i <> 0 -> dside i t -> p_conns (P st i) t c = Some l ->
      l_from (L st l) = i /\ l_to (L st l) = t /\ cid (L st l) = c;
  g_hello : forall l, l < g_nlinks st -> l_hello (L st l) = None ->
      l_to (L st l) = 0 /\ p_main (P st (l_from (L st l))) = MHello;
  g_place : forall l, l < g_nlinks st ->
      In l (p_queue (P st (l_to (L st l)))) \/
      (exists c id, p_acc (P st (l_to (L st l))) = ASet l c id) \/
      p_conns (P st (l_to (L st l))) (l_from (L st l)) (cid (L st l)) = Some l;
  g_queue : forall i, i < n -> NoDup (p_queue (P st i)) /\
      forall l, In l (p_queue (P st i)) ->
        p_conns (P st i) (l_from (L st l)) (cid (L st l)) = None /\
        (forall c id, p_acc (P st i) <> ASet l c id);
  g_held : forall i l c id, i < n -> p_acc (P st i) = ASet l c id ->
      l_hello (L st l) = Some (c, id) /\ p_conns (P st i) id c = None;
  g_none : forall i, i < n -> i <> 0 -> undialed i (P st i);
  g_noerr : forall i, i < n -> (forall code, p_main (P st i) <> MErr code) /\
      (forall code, p_acc (P st i) <> ADead code) /\ p_ldone (P st i) = false;
  g_np : forall i, i < n -> p_acc (P st i) <> AOff -> p_np (P st i) = n;
  g_info : past (p_main (P st 0)) -> forall l, l < g_nlinks st -> l_to (L st l) = 0 -> cid (L st l) = 0 -> l_info (L st l) <> None;
  g_done : forall i, i < n -> p_main (P st i) = MDone -> p_acc (P st i) <> AOff
}.
Unset Implicit Arguments.

Lemma link_unique st l l' : GInv st -> l < g_nlinks st -> l' < g_nlinks st ->
  l_from (L st l) = l_from (L st l') -> l_to (L st l) = l_to (L st l') -> cid (L st l) = cid (L st l') -> l = l'.
Proof.
  intros G H H' E1 E2 E3. pose proof (g_dial G H) as A. pose proof (g_dial G H') as B.
  rewrite E1, E2, E3 in A. rewrite A in B. now injection B.
Qed.

Lemma accept_slot_free st i t c : Inv st -> GInv st -> t < n -> In i (aside t) ->
  p_conns (P st i) t c = None -> p_conns (P st t) i c = None.
Proof.
  intros (_ & HP) G Ht Hia Hslot. destruct (p_conns (P st t) i c) as [l|] eqn:Hs; [|reflexivity]. exfalso.
  destruct (g_acc G i c Ht Hia Hs) as (A1 & A2 & A3).
  destruct (pi_conn (HP t Ht) i c Hs) as (B & _).
  pose proof (g_dial G B) as D. unfold cid in D. rewrite A1, A2, A3 in D. congruence.
Qed.

Definition Reach (st : state) : Prop := Inv st /\ GInv st.

(* a step that changes only party i's main thread (and possibly starts its
   accept thread), leaves tables and backlogs alone, and changes at most the
   info field of links *)
Lemma ginv_local st st1 i p' :
  i < n -> Inv st -> GInv st ->
  g_party st1 = g_party st -> g_nlinks st1 = g_nlinks st ->
  (forall l, l_from (L st1 l) = l_from (L st l) /\ l_to (L st1 l) = l_to (L st l) /\ l_hello (L st1 l) = l_hello (L st l)) ->
  p_conns p' = p_conns (P st i) -> p_queue p' = p_queue (P st i) -> p_ldone p' = p_ldone (P st i) ->
  (p_acc p' = p_acc (P st i) \/ (p_acc (P st i) = AOff /\ p_acc p' = AIdle)) ->
  p_main (P st i) <> MHello ->
  (p_acc p' <> AOff -> p_np p' = n) ->
  (forall code, p_main p' <> MErr code) ->
  (i <> 0 -> undialed i p') ->
  (past (p_main (if i =? 0 then p' else P st 0)) ->
   forall l, l < g_nlinks st -> l_to (L st l) = 0 -> cid (L st l) = 0 -> l_info (L st1 l) <> None) ->
  (p_main p' = MDone -> p_acc p' <> AOff) ->
  GInv (set_party st1 i p').
Proof.
  intros Hi HI G Hp Hnl Hlk Hc Hq Hld Hacc Hnh Hnp Hne Hnone Hinfo Hdone.
  pose proof HI as (HL & HP). pose proof (HP i Hi) as PI.
  assert (Hcid : forall l, cid (L st1 l) = cid (L st l)).
  { intros l. unfold cid. now rewrite (proj2 (proj2 (Hlk l))). }
  assert (Pc : forall x, p_conns (upd (g_party st) i p' x) = p_conns (g_party st x)).
  { intros x. destruct (Nat.eq_dec x i) as [->|Hx]; [rewrite upd_same; assumption|now rewrite upd_other]. }
  assert (Pq : forall x, p_queue (upd (g_party st) i p' x) = p_queue (g_party st x)).
  { intros x. destruct (Nat.eq_dec x i) as [->|Hx]; [rewrite upd_same; assumption|now rewrite upd_other]. }
  assert (Pa : forall x l c id, p_acc (upd (g_party st) i p' x) = ASet l c id <-> p_acc (g_party st x) = ASet l c id).
  { intros x l c id. destruct (Nat.eq_dec x i) as [->|Hx]; [rewrite upd_same|now rewrite upd_other].
    destruct Hacc as [->|(E & ->)]; [tauto|]. rewrite E. split; discriminate. }
  constructor; psimpl; rewrite ?Hp, ?Hnl.
  - intros l Hl. destruct (Hlk l) as (-> & -> & _). rewrite Hcid, Pc. now apply (g_dial G).
  - intros x j c l Hx Hj. rewrite Pc. intros H. destruct (Hlk l) as (-> & -> & ->). now apply (g_acc G j c Hx).
  - intros x t c l Hx Hx0 Hd. rewrite Pc. intros H. destruct (Hlk l) as (-> & -> & _). rewrite Hcid. now apply (g_dslot G c Hx).
  - intros l Hl. destruct (Hlk l) as (-> & -> & ->). intros Hn0. destruct (g_hello G Hl Hn0) as (A & B).
    split; [assumption|]. rewrite upd_other; [assumption|]. intros E. rewrite E in B. contradiction.
  - intros l Hl. destruct (Hlk l) as (-> & -> & _). rewrite Hcid, Pq, Pc.
    destruct (g_place G Hl) as [A|[(c & id & A)|A]]; [now left| |now right; right].
    right. left. exists c, id. now apply Pa.
  - intros x Hx. rewrite Pq, Pc. destruct (g_queue G Hx) as (A & B). split; [assumption|].
    intros l Hl. destruct (Hlk l) as (-> & _ & _). rewrite Hcid. destruct (B l Hl) as (B1 & B2). split; [assumption|].
    intros c id E. apply Pa in E. now apply (B2 c id).
  - intros x l c id Hx E. apply Pa in E. rewrite Pc. destruct (Hlk l) as (_ & _ & ->). now apply (g_held G Hx).
  - intros x Hx Hx0. destruct (Nat.eq_dec x i) as [->|Hxi].
    + rewrite upd_same. now apply Hnone.
    + rewrite upd_other by assumption. now apply (g_none G).
  - intros x Hx. destruct (Nat.eq_dec x i) as [->|Hxi].
    + rewrite upd_same. destruct (g_noerr G Hi) as (A & B & C). split; [assumption|]. split; [|congruence].
      intros code. destruct Hacc as [->|(_ & ->)]; [apply B|discriminate].
    + rewrite upd_other by assumption. now apply (g_noerr G).
  - intros x Hx. destruct (Nat.eq_dec x i) as [->|Hxi].
    + rewrite upd_same. assumption.
    + rewrite upd_other by assumption. now apply (g_np G).
  - intros Hm l Hl. destruct (Hlk l) as (_ & -> & _). rewrite Hcid. intros H1 H2. apply Hinfo; auto.
    destruct (Nat.eqb_spec i 0) as [->|E0].
    + now rewrite upd_same in Hm.
    + rewrite upd_other in Hm by auto. exact Hm.
  - intros x Hx. destruct (Nat.eq_dec x i) as [->|Hxi].
    + rewrite upd_same. assumption.
    + rewrite upd_other by assumption. now apply (g_done G).
Qed.

(* the step taken when the wait for connection id c has succeeded; for the
   leader after the info loop the links carry the info (st1) *)
Lemma ginv_next_conn st st1 i c :
  i < n -> Inv st -> GInv st ->
  g_party st1 = g_party st -> g_nlinks st1 = g_nlinks st ->
  (forall l, l_from (L st1 l) = l_from (L st l) /\ l_to (L st1 l) = l_to (L st l) /\ l_hello (L st1 l) = l_hello (L st l)) ->
  (forall l, l_info (L st l) <> None -> l_info (L st1 l) <> None) ->
  p_main (P st i) <> MHello -> p_acc (P st i) <> AOff ->
  (i <> 0 -> forall t c', dside i t -> c < c' -> p_conns (P st i) t c' = None) ->
  (i = 0 -> forall l, l < g_nlinks st -> l_to (L st l) = 0 -> cid (L st l) = 0 -> l_info (L st1 l) <> None) ->
  GInv (set_party st1 i (next_conn k i c (P st i))).
Proof.
  intros Hi HI G Hp Hnl Hlk Hmono Hnh Ha Hnone Hleader.
  assert (Hnp : p_acc (P st i) <> AOff -> p_np (P st i) = n) by apply (g_np G Hi).
  assert (Hinfo : i <> 0 -> past (p_main (P st 0)) ->
            forall l, l < g_nlinks st -> l_to (L st l) = 0 -> cid (L st l) = 0 -> l_info (L st1 l) <> None).
  { intros _ Hpast l Hl H1 H2. apply Hmono. now apply (g_info G Hpast). }
  destruct (next_conn_cases k i c (P st i)) as [(Ek & E0 & ->)|[(Ek & E0 & ->)|(Ek & ->)]];
    apply (ginv_local st st1 i _ Hi HI G Hp Hnl Hlk); psimpl; auto; try discriminate.
  - intros H. contradiction.
  - intros _. unfold undialed. psimpl. split; [apply NoDup_filter, sorted_NoDup, (pi_sorted (proj2 HI i Hi))|].
    intros t c' Hd Hcc. apply Hnone; auto. destruct Hcc as [|(-> & _)]; lia.
  - rewrite (proj2 (Nat.eqb_neq i 0) E0). now apply Hinfo.
  - intros _. exact I.
  - destruct (Nat.eqb_spec i 0) as [->|E0]; [intros _; now apply Hleader|now apply Hinfo].
Qed.

(* a dial: a new link from i to t, queued at t, stored by i in the empty slot
   (t, c); the hello travels with it, except on the Join link *)
Lemma ginv_dial st i t h c p' :
  Inv st -> GInv st -> i < n -> t < n -> i <> 0 -> dside i t ->
  h = Some (c, i) \/ (h = None /\ c = 0 /\ t = 0 /\ p_main p' = MHello) ->
  p_main (P st i) <> MHello ->
  p_conns (P st i) t c = None ->
  (forall j c', p_conns p' j c' = if (j =? t) && (c' =? c) then Some (g_nlinks st) else p_conns (P st i) j c') ->
  p_queue p' = p_queue (P st i) -> p_acc p' = p_acc (P st i) -> p_ldone p' = p_ldone (P st i) ->
  (p_acc p' <> AOff -> p_np p' = n) ->
  (forall code, p_main p' <> MErr code) -> p_main p' <> MDone ->
  undialed i p' ->
  (t = 0 -> c = 0 -> ~ past (p_main (P st 0))) ->
  GInv (set_party (fst (new_link st i t h)) i p').
Proof.
  intros HI G Hi Ht Hi0 Hd Hh Hnh Hslot Cn Hq Ha Hld Hnp Hne Hnd Hnone Hinfo.
  pose proof HI as (HL & HP). pose proof (HP i Hi) as PI.
  set (newl := mkLink i t h None).
  set (pt' := set_queue (P st t) (p_queue (P st t) ++ [g_nlinks st])).
  assert (Hti : t <> i) by (destruct Hd; lia).
  assert (Hcid : cid newl = c) by (unfold cid, newl; destruct Hh as [->|(-> & -> & _)]; reflexivity).
  assert (Hia : In i (aside t)) by (apply aside_in; destruct Hd; lia).
  assert (Lk : forall l, l < g_nlinks st -> upd (g_link st) (g_nlinks st) newl l = L st l)
    by (intros l Hl; apply upd_other; lia).
  assert (Pi : upd (upd (g_party st) t pt') i p' i = p') by apply upd_same.
  assert (Pt : upd (upd (g_party st) t pt') i p' t = pt') by (rewrite upd_other by auto; apply upd_same).
  assert (Pp : forall x, x <> i -> x <> t -> upd (upd (g_party st) t pt') i p' x = P st x)
    by (intros x H1 H2; now rewrite !upd_other).
  (* every other party is as before, up to its backlog *)
  assert (Pcx : forall x, x <> i -> exists q, upd (upd (g_party st) t pt') i p' x = set_queue (P st x) q).
  { intros x Hx. destruct (Nat.eq_dec x t) as [->|Hxt]; [rewrite Pt; unfold pt'; eauto|rewrite Pp by assumption].
    exists (p_queue (P st x)). now destruct (P st x). }
  assert (Aside_ne : forall j, In j (aside i) -> (j =? t) = false).
  { intros j Hj. apply Nat.eqb_neq. destruct (aside_lt i j Hi Hj) as (J1 & J2 & J3). specialize (J3 Hi0). destruct Hd; lia. }
  unfold new_link. cbn [fst]. constructor; psimpl; fold newl pt'.
  - intros l0 Hl0. destruct (Nat.eq_dec l0 (g_nlinks st)) as [->|Hne0].
    + rewrite upd_same, Hcid. unfold newl. psimpl. rewrite Pi, Cn, !Nat.eqb_refl. reflexivity.
    + assert (Hl0' : l0 < g_nlinks st) by lia. rewrite (Lk l0 Hl0'). pose proof (g_dial G Hl0') as A.
      destruct (Nat.eq_dec (l_from (L st l0)) i) as [E|Hfi]; [|destruct (Pcx _ Hfi) as (q & ->); exact A].
      rewrite E in *. rewrite Pi, Cn. destruct ((l_to (L st l0) =? t) && (cid (L st l0) =? c)) eqn:Eb; [|exact A].
      apply andb_true_iff in Eb. destruct Eb as (E1 & E2). apply Nat.eqb_eq in E1, E2. rewrite E1, E2 in A. congruence.
  - intros x j c0 l0 Hx Hj. destruct (Nat.eq_dec x i) as [->|Hxi].
    + rewrite Pi, Cn, (Aside_ne j Hj). simpl. intros H. destruct (pi_conn PI j c0 H) as (B & _).
      rewrite (Lk l0 B). now apply (g_acc G j c0 Hx).
    + destruct (Pcx _ Hxi) as (q & ->). intros H. destruct (pi_conn (HP x Hx) j c0 H) as (B & _).
      rewrite (Lk l0 B). now apply (g_acc G j c0 Hx).
  - intros x t0 c0 l0 Hx Hx0 Hd0. destruct (Nat.eq_dec x i) as [->|Hxi].
    + rewrite Pi, Cn. destruct ((t0 =? t) && (c0 =? c)) eqn:Eb.
      * apply andb_true_iff in Eb. destruct Eb as (E1 & E2). apply Nat.eqb_eq in E1, E2. subst t0 c0.
        intros [= <-]. rewrite upd_same, Hcid. unfold newl. psimpl. auto.
      * intros H. destruct (pi_conn PI t0 c0 H) as (B & _). rewrite (Lk l0 B). now apply (g_dslot G c0 Hx).
    + destruct (Pcx _ Hxi) as (q & ->). intros H. destruct (pi_conn (HP x Hx) t0 c0 H) as (B & _).
      rewrite (Lk l0 B). now apply (g_dslot G c0 Hx).
  - intros l0 Hl0. destruct (Nat.eq_dec l0 (g_nlinks st)) as [->|Hne0].
    + rewrite upd_same. unfold newl. psimpl. rewrite Pi. intros ->. destruct Hh as [|(_ & _ & -> & ->)]; [discriminate|auto].
    + assert (Hl0' : l0 < g_nlinks st) by lia. rewrite (Lk l0 Hl0'). intros Hn0.
      destruct (g_hello G Hl0' Hn0) as (A & B). split; [assumption|].
      assert (Hfi : l_from (L st l0) <> i) by (intros E; rewrite E in B; contradiction).
      destruct (Pcx _ Hfi) as (q & ->). exact B.
  - intros l0 Hl0. destruct (Nat.eq_dec l0 (g_nlinks st)) as [->|Hne0].
    + rewrite upd_same. unfold newl. psimpl. rewrite Pt. left. unfold pt'. psimpl. apply in_or_app. right. now left.
    + assert (Hl0' : l0 < g_nlinks st) by lia. rewrite (Lk l0 Hl0'). pose proof (g_place G Hl0') as A.
      destruct (Nat.eq_dec (l_to (L st l0)) i) as [E|Hti'].
      * rewrite E in *. rewrite Pi, Hq, Ha, Cn.
        pose proof (link_from_aside st l0 HI Hl0') as Hfa. rewrite E in Hfa. rewrite (Aside_ne _ Hfa). exact A.
      * destruct (Nat.eq_dec (l_to (L st l0)) t) as [E|Htt]; [|now rewrite Pp].
        rewrite E in *. rewrite Pt. unfold pt'. psimpl.
        destruct A as [A|[A|A]]; [left; apply in_or_app; now left|now right; left|now right; right].
  - intros x Hx. destruct (Nat.eq_dec x i) as [->|Hxi].
    + rewrite Pi, Hq, Ha. destruct (g_queue G Hi) as (A & B). split; [exact A|].
      intros l0 Hl0. destruct (pi_queue PI l0 Hl0) as (C & D). rewrite (Lk l0 C), Cn.
      pose proof (link_from_aside st l0 HI C) as Hfa. rewrite D in Hfa. rewrite (Aside_ne _ Hfa). now apply B.
    + destruct (Nat.eq_dec x t) as [->|Hxt].
      * rewrite Pt. unfold pt'. psimpl. destruct (g_queue G Hx) as (A & B). split.
        -- apply NoDup_snoc; [exact A|]. intros Hin. destruct (pi_queue (HP t Hx) _ Hin). lia.
        -- intros l0 Hl0. apply in_app_or in Hl0. destruct Hl0 as [Hl0|[<-|[]]].
           ++ destruct (pi_queue (HP t Hx) l0 Hl0) as (C & D). rewrite (Lk l0 C). now apply B.
           ++ rewrite upd_same, Hcid. unfold newl. psimpl. split; [now apply accept_slot_free|].
              intros c0 id E. pose proof (pi_acc (HP t Hx)) as PA0. rewrite E in PA0. lia.
      * rewrite Pp by assumption. destruct (g_queue G Hx) as (A & B). split; [exact A|].
        intros l0 Hl0. destruct (pi_queue (HP x Hx) l0 Hl0) as (C & D). rewrite (Lk l0 C). now apply B.
  - intros x l0 c0 id Hx. destruct (Nat.eq_dec x i) as [->|Hxi].
    + rewrite Pi, Ha. intros E. pose proof (pi_acc PI) as PAx. rewrite E in PAx.
      destruct PAx as (Q1 & Q2 & Q3 & Q4 & Q5). rewrite (Lk l0 Q3), Cn, (Aside_ne _ Q1). now apply (g_held G Hx).
    + destruct (Pcx x Hxi) as (q & ->). psimpl. intros E. pose proof (pi_acc (HP x Hx)) as PAx. rewrite E in PAx.
      rewrite (Lk l0) by apply PAx. now apply (g_held G Hx).
  - intros x Hx Hx0. destruct (Nat.eq_dec x i) as [->|Hxi]; [now rewrite Pi|].
    pose proof (g_none G Hx Hx0) as A. destruct (Pcx x Hxi) as (q & ->). exact A.
  - intros x Hx. destruct (Nat.eq_dec x i) as [->|Hxi].
    + rewrite Pi, Ha, Hld. destruct (g_noerr G Hx) as (_ & B & C). auto.
    + destruct (Pcx x Hxi) as (q & ->). now apply (g_noerr G).
  - intros x Hx. destruct (Nat.eq_dec x i) as [->|Hxi]; [now rewrite Pi|].
    destruct (Pcx x Hxi) as (q & ->). now apply (g_np G).
  - destruct (Pcx 0 ltac:(auto)) as (q & ->). intros Hp l0 Hl0.
    destruct (Nat.eq_dec l0 (g_nlinks st)) as [->|Hne0].
    + rewrite upd_same, Hcid. unfold newl. psimpl. intros T0 C0. exfalso. now apply Hinfo.
    + assert (Hl0' : l0 < g_nlinks st) by lia. rewrite (Lk l0 Hl0'). now apply (g_info G Hp).
  - intros x Hx. destruct (Nat.eq_dec x i) as [->|Hxi]; [rewrite Pi; intros E; contradiction|].
    destruct (Pcx x Hxi) as (q & ->). now apply (g_done G).
Qed.

Lemma add_ids_some np ids : forall ps, (forall x, In x ids -> x < np) -> exists ps', add_ids np ids ps = Some ps'.
Proof.
  induction ids as [|a r IH]; simpl; intros ps H; [eauto|].
  assert (E : (np <=? a) = false) by (apply Nat.leb_gt; apply H; now left). rewrite E. apply IH. auto.
Qed.

Lemma targets_NoDup i c : NoDup (targets i c (seq 0 n)).
Proof. unfold targets. apply NoDup_filter, seq_NoDup. Qed.

(* connectLeader's info loop: it dereferences Conns[0] of every peer, sets the
   info of exactly those links, and touches nothing else *)
Lemma send_infos_info (tab : table) all : forall ps st st1,
  send_infos st tab all ps = Some st1 ->
  g_party st1 = g_party st /\ g_nlinks st1 = g_nlinks st /\
  (forall l, l_from (L st1 l) = l_from (L st l) /\ l_to (L st1 l) = l_to (L st l) /\ l_hello (L st1 l) = l_hello (L st l)) /\
  (forall l, l_info (L st l) <> None -> l_info (L st1 l) <> None) /\
  (forall j l, In j ps -> j <> 0 -> tab j 0 = Some l -> l_info (L st1 l) <> None) /\
  (forall l ids, l_info (L st1 l) = Some ids -> l_info (L st l) = Some ids \/
     exists j, In j ps /\ tab j 0 = Some l /\ ids = filter (fun x => negb (x =? 0) && negb (x =? j)) all).
Proof.
  induction ps as [|j r IH]; simpl; intros st st1 H.
  - injection H as <-. repeat split; auto.
  - destruct (j =? 0) eqn:Ej.
    + apply Nat.eqb_eq in Ej. destruct (IH _ _ H) as (A & B & C & D & F & I). repeat split; auto; try apply C.
      * intros j' l [<-|Hin] Hj0 Hl; [contradiction|eauto].
      * intros l ids Hl. destruct (I l ids Hl) as [|(j' & J1 & J2)]; [now left|right; eauto].
    + destruct (tab j 0) as [l|] eqn:Hl; [|discriminate].
      destruct (IH _ _ H) as (A & B & C & D & F & I). psimpl in *.
      assert (S : forall l0, (l0 = l /\ l_info (upd (g_link st) l (mkLink (l_from (g_link st l)) (l_to (g_link st l)) (l_hello (g_link st l))
                   (Some (filter (fun x => negb (x =? 0) && negb (x =? j)) all))) l0) =
                   Some (filter (fun x => negb (x =? 0) && negb (x =? j)) all)) \/
                  upd (g_link st) l (mkLink (l_from (g_link st l)) (l_to (g_link st l)) (l_hello (g_link st l))
                   (Some (filter (fun x => negb (x =? 0) && negb (x =? j)) all))) l0 = g_link st l0).
      { intros l0. unfold upd. destruct (Nat.eqb_spec l0 l); [left; split; [assumption|reflexivity]|right; reflexivity]. }
      split; [assumption|]. split; [assumption|]. split; [|split; [|split]].
      * intros l0. destruct (C l0) as (C1 & C2 & C3). rewrite C1, C2, C3. unfold upd.
        destruct (l0 =? l) eqn:El; [apply Nat.eqb_eq in El; subst; simpl; auto|auto].
      * intros l0 Hn0. apply D. destruct (S l0) as [(_ & S0)|S0]; [rewrite S0; discriminate|now rewrite S0].
      * intros j' l' [<-|Hin] Hj0 Hl'.
        -- rewrite Hl in Hl'. injection Hl' as <-. apply D. destruct (S l) as [(_ & S0)|S0]; [rewrite S0; discriminate|].
           rewrite upd_same in S0. rewrite upd_same. simpl. discriminate.
        -- eauto.
      * intros l0 ids Hl0. destruct (I l0 ids Hl0) as [Hold|(j' & J1 & J2)]; [|right; eauto].
        destruct (S l0) as [(-> & S0)|S0]; [|left; now rewrite <- S0].
        right. exists j. rewrite S0 in Hold. injection Hold as <-. auto.
Qed.

Lemma send_infos_some (tab : table) all : forall ps st,
  (forall j, In j ps -> j <> 0 -> tab j 0 <> None) -> send_infos st tab all ps <> None.
Proof.
  induction ps as [|j r IH]; simpl; intros st H; [discriminate|].
  destruct (j =? 0) eqn:Ej; [apply IH; auto|].
  apply Nat.eqb_neq in Ej. destruct (tab j 0) eqn:Hl; [apply IH; auto|].
  exfalso. apply (H j); auto.
Qed.

(* Accept, the three Receive of the hello, the goroutine-local SetConn *)
Lemma accept_reach i st st' :
  i < n -> Reach st -> p_acc (P st i) = AIdle -> acc_step true k i st = Some st' -> Reach st'.
Proof.
  intros Hi (HI & G) Ha. pose proof HI as (HL & HP). pose proof (HP i Hi) as PI.
  unfold acc_step. set (p := g_party st i) in *. rewrite Ha.
  destruct (p_queue p) as [|l q] eqn:Hq; [discriminate|].
  assert (Hlq : In l (p_queue p)) by (rewrite Hq; now left).
  destruct (pi_queue PI l Hlq) as (Hl & Hto).
  pose proof (HL l Hl) as (L1 & L2 & L3 & L4 & L5 & L6).
  destruct (l_hello (g_link st l)) as [[c id]|] eqn:Hh; [|discriminate].
  destruct (L5 c id eq_refl) as (Hid & Hc).
  assert (Hkc : (k <=? c) = false) by (apply Nat.leb_gt; lia). rewrite Hkc.
  intros [= <-]. split.
  { subst id. apply Inv_local; auto.
    assert (P1 : PInv (g_nlinks st) (g_link st) i (set_queue p q))
      by (apply PInv_dequeue; [exact PI|rewrite Hq; intros x Hx; now right]).
    destruct P1. constructor; simpl; auto.
    - split; [apply aside_in; lia|auto].
    - intros _ c' Hc'. simpl in pi_need0. rewrite Ha in pi_need0. now apply pi_need0.
    - eapply main_ok_mono; try eassumption; simpl; auto.
      + rewrite Ha. discriminate.
      + discriminate.
      + apply tab_le_refl. }
  destruct (g_queue G Hi) as (QN & QS). fold p in QN, QS. rewrite Hq in QN, QS. apply NoDup_cons_iff in QN. destruct QN as (QN1 & QN2).
  assert (Hcid : cid (g_link st l) = c) by (unfold cid; now rewrite Hh).
  set (p' := set_acc (set_queue p q) (ASet l c id)).
  assert (Pc : forall x, p_conns (upd (g_party st) i p' x) = p_conns (g_party st x)).
  { intros x. destruct (Nat.eq_dec x i) as [->|Hne]; [rewrite upd_same|rewrite upd_other by assumption]; reflexivity. }
  assert (Pm : forall x, p_main (upd (g_party st) i p' x) = p_main (g_party st x)).
  { intros x. destruct (Nat.eq_dec x i) as [->|Hne]; [rewrite upd_same|rewrite upd_other by assumption]; reflexivity. }
  constructor; psimpl.
  + intros l0 Hl0. rewrite Pc. now apply (g_dial G).
  + intros x j c0 l0 Hx Hj. rewrite Pc. now apply (g_acc G).
  + intros x t c0 l0 Hx Hx0 Hd. rewrite Pc. now apply (g_dslot G).
  + intros l0 Hl0 Hn0. rewrite Pm. now apply (g_hello G).
  + intros l0 Hl0. rewrite Pc. destruct (g_place G Hl0) as [A|[A|A]].
    * destruct (Nat.eq_dec (l_to (g_link st l0)) i) as [E|Hne].
      -- rewrite E in *. rewrite upd_same. unfold p'. psimpl. fold p in A. rewrite Hq in A. destruct A as [<-|A].
         ++ right. left. eauto.
         ++ now left.
      -- rewrite upd_other by assumption. now left.
    * destruct A as (c0 & id0 & A). destruct (Nat.eq_dec (l_to (g_link st l0)) i) as [E|Hne].
      -- rewrite E in A. fold p in A. congruence.
      -- rewrite upd_other by assumption. right. left. eauto.
    * now right; right.
  + intros x Hx. rewrite Pc. destruct (Nat.eq_dec x i) as [->|Hne].
    * rewrite upd_same. unfold p'. psimpl. split; [assumption|].
      intros l0 Hl0. destruct (QS l0 (or_intror Hl0)) as (A & B). split; [exact A|].
      intros c0 id0 [= -> _ _]. contradiction.
    * rewrite upd_other by assumption. now apply (g_queue G).
  + intros x l0 c0 id0 Hx. rewrite Pc. destruct (Nat.eq_dec x i) as [->|Hne].
    * rewrite upd_same. unfold p'. psimpl. intros [= <- <- <-]. split; [assumption|].
      destruct (QS l (or_introl eq_refl)) as (A & _). rewrite Hcid, <- Hid in A. exact A.
    * rewrite upd_other by assumption. now apply (g_held G).
  + intros x Hx Hx0. destruct (Nat.eq_dec x i) as [->|Hne].
    * rewrite upd_same. exact (g_none G Hi Hx0).
    * rewrite upd_other by assumption. now apply (g_none G).
  + intros x Hx. rewrite Pm. destruct (Nat.eq_dec x i) as [->|Hne].
    * rewrite upd_same. unfold p'. psimpl. destruct (g_noerr G Hi) as (A & B & C). repeat split; auto; discriminate.
    * rewrite upd_other by assumption. now apply (g_noerr G).
  + intros x Hx. destruct (Nat.eq_dec x i) as [->|Hne].
    * rewrite upd_same. unfold p'. psimpl. intros _. apply (g_np G Hi). fold p. rewrite Ha. discriminate.
    * rewrite upd_other by assumption. now apply (g_np G).
  + rewrite Pm. apply (g_info G).
  + intros x Hx. rewrite Pm. intros Hd. destruct (Nat.eq_dec x i) as [->|Hne].
    * rewrite upd_same. unfold p'. psimpl. discriminate.
    * rewrite upd_other by assumption. now apply (g_done G).
Qed.

(* the one critical section under nw.m: need[c] != 0, addPeerLocked, need[c]--, Broadcast.
   The held connection is not stored yet, so need[c] > 0 and addPeerLocked finds the slot empty. *)
Lemma store_reach i st st' l c id :
  i < n -> Reach st -> p_acc (P st i) = ASet l c id -> acc_step true k i st = Some st' -> Reach st'.
Proof.
  intros Hi (HI & G) Ha. pose proof (proj2 HI i Hi) as PI.
  unfold acc_step. set (p := g_party st i) in *. rewrite Ha.
  pose proof (pi_acc PI) as PA. rewrite Ha in PA. destruct PA as (Hid & Hc & Hl & Hfrom & Hto).
  destruct (g_held G Hi Ha) as (Hh & Hslot). fold p in Hslot.
  pose proof (aside_lt i id Hi Hid) as (Id1 & Id2 & Id3).
  assert (Hrun : running (p_acc p)) by (rewrite Ha; exact I).
  pose proof (pi_need PI Hrun Hc) as Hneed.
  pose proof (cnt_lt (p_conns p) i c id Hid Hslot) as Hlt.
  assert (Hnz : (p_need p c =? 0) = false) by (apply Nat.eqb_neq; lia). rewrite Hnz.
  assert (Hnp : p_np p = n) by (apply (g_np G Hi); fold p; rewrite Ha; discriminate).
  assert (Hcid : cid (g_link st l) = c) by (unfold cid; now rewrite Hh).
  destruct (add_peer p id c l) as [p1|] eqn:Hadd; [|exfalso; revert Hadd; apply add_peer_some; [lia|assumption]].
  destruct (add_peer_spec _ _ _ _ _ (pi_p3 PI id) Hadd) as (_ & _ & ps & tb & -> & Htb & Hps & Hsort).
  intros [= <-]. split.
  { assert (Hst : forall c' j, stored tb c' j = if (j =? id) && (c' =? c) then true else stored (p_conns p) c' j).
    { intros c' j. unfold stored. rewrite Htb. now destruct ((j =? id) && (c' =? c)). }
    apply Inv_local; auto. destruct PI. rewrite Ha in pi_need0. constructor; simpl; auto.
    + intros x Hx. apply Hps in Hx. destruct Hx as [->|Hx]; auto.
    + intros H0. destruct (pi_zero0 H0). split; [apply Hps; now right|assumption].
    + intros j c' Hj. rewrite Htb. destruct (Nat.eqb_spec j id) as [->|]; simpl.
      * exfalso. apply Hj, Hps. now left.
      * apply pi_p4. intros H. apply Hj, Hps. now right.
    + intros j c' l0. rewrite Htb. destruct ((j =? id) && (c' =? c)) eqn:Eb; [|apply pi_conn0].
      apply andb_true_iff in Eb. destruct Eb as (Ej & _). apply Nat.eqb_eq in Ej. subst j.
      intros [= <-]. split; [assumption|]. right. split; assumption.
    + (* need[c] + stored connections c stays E i: one more stored, need[c] one less *)
      intros _ c' Hc'. specialize (pi_need0 I c' Hc'). unfold upd at 1. unfold cnt in *.
      destruct (Nat.eqb_spec c' c) as [->|Hne].
      * rewrite (filter_len_flip (stored (p_conns p) c) (stored tb c) (aside i) id); [lia|apply seq_NoDup|assumption| | |].
        -- unfold stored. now rewrite Hslot.
        -- now rewrite Hst, !Nat.eqb_refl.
        -- intros x Hx. rewrite Hst. apply Nat.eqb_neq in Hx. now rewrite Hx.
      * rewrite (filter_len_same (stored (p_conns p) c') (stored tb c')); [lia|].
        intros x _. rewrite Hst. apply Nat.eqb_neq in Hne. now rewrite Hne, andb_false_r.
    + eapply main_ok_mono; try eassumption; simpl; auto.
      * rewrite Ha. discriminate.
      * discriminate.
      * intros j c' H. rewrite Hst. destruct ((j =? id) && (c' =? c)); auto.
      * intros Hfull. apply sorted_ext; [now apply Hsort|apply seq_sorted|].
        intros x. rewrite Hps, Hfull, !in_seq. lia. }
  assert (T1 : forall j c', j <> id \/ c' <> c -> tb j c' = p_conns p j c').
  { intros j c' Hj. rewrite Htb. destruct (Nat.eqb_spec j id); [destruct (Nat.eqb_spec c' c)|]; simpl; auto.
    exfalso. destruct Hj; auto. }
  assert (T2 : tb id c = Some l) by now rewrite Htb, !Nat.eqb_refl.
  assert (Tmono : forall j c' l0, p_conns p j c' = Some l0 -> tb j c' = Some l0).
  { intros j c' l0 H0. rewrite Htb. destruct ((j =? id) && (c' =? c)) eqn:Eb; [|exact H0].
    apply andb_true_iff in Eb. destruct Eb as (E1 & E2). apply Nat.eqb_eq in E1, E2. subst. congruence. }
  assert (Hd : i <> 0 -> forall t, dside i t -> t <> id).
  { intros Hi0 t Hdt ->. specialize (Id3 Hi0). destruct Hdt; lia. }
  constructor; psimpl.
  + intros l0 Hl0. pose proof (g_dial G Hl0) as A.
    destruct (Nat.eq_dec (l_from (g_link st l0)) i) as [E|Hne].
    * rewrite E in *. rewrite upd_same. psimpl. fold p in A. now apply Tmono.
    * rewrite upd_other by assumption. exact A.
  + intros x j c' l0 Hx Hj. destruct (Nat.eq_dec x i) as [->|Hne]; [|rewrite upd_other by assumption; now apply (g_acc G)].
    rewrite upd_same. psimpl. intros H0.
    destruct (Nat.eq_dec j id) as [->|Hnj]; [destruct (Nat.eq_dec c' c) as [->|Hnc]|].
    * rewrite T2 in H0. injection H0 as <-. auto.
    * rewrite T1 in H0 by auto. now apply (g_acc G id c' Hx Hj).
    * rewrite T1 in H0 by auto. now apply (g_acc G j c' Hx Hj).
  + intros x t c' l0 Hx Hx0 Hdt. destruct (Nat.eq_dec x i) as [->|Hne]; [|rewrite upd_other by assumption; now apply (g_dslot G)].
    rewrite upd_same. psimpl. intros H0. rewrite T1 in H0 by (left; now apply Hd). now apply (g_dslot G c' Hx Hx0 Hdt).
  + intros l0 Hl0 Hn0. destruct (g_hello G Hl0 Hn0) as (A & B). split; [assumption|].
    destruct (Nat.eq_dec (l_from (g_link st l0)) i) as [E|Hne]; [rewrite E in *; rewrite upd_same|rewrite upd_other by assumption]; exact B.
  + intros l0 Hl0. destruct (Nat.eq_dec (l_to (g_link st l0)) i) as [E|Hne]; [|rewrite upd_other by assumption; apply (g_place G Hl0)].
    rewrite E. rewrite upd_same. psimpl. destruct (g_place G Hl0) as [A|[A|A]]; rewrite E in A; fold p in A.
    * now left.
    * destruct A as (c0 & id0 & A). rewrite Ha in A. injection A as <- <- <-.
      right. right. rewrite Hfrom, Hcid. exact T2.
    * right. right. now apply Tmono.
  + intros x Hx. destruct (Nat.eq_dec x i) as [->|Hne]; [|rewrite upd_other by assumption; now apply (g_queue G)].
    rewrite upd_same. psimpl. destruct (g_queue G Hi) as (QN & QS). fold p in QN, QS.
    split; [assumption|]. intros l0 Hl0. destruct (QS l0 Hl0) as (A & B). split; [|discriminate].
    destruct (pi_queue PI l0 Hl0) as (Hl0n & Hl0to).
    rewrite T1; [exact A|]. destruct (Nat.eq_dec (l_from (g_link st l0)) id) as [Ef|]; [|now left].
    destruct (Nat.eq_dec (cid (g_link st l0)) c) as [Ec|]; [|now right]. exfalso.
    assert (l0 = l) by (apply (link_unique st); auto; congruence). subst l0. now apply (B c id).
  + intros x l0 c0 id0 Hx. destruct (Nat.eq_dec x i) as [->|Hne]; [|rewrite upd_other by assumption; now apply (g_held G)].
    rewrite upd_same. psimpl. discriminate.
  + intros x Hx Hx0. pose proof (g_none G Hx Hx0) as A. destruct (Nat.eq_dec x i) as [->|Hne]; [|now rewrite upd_other].
    rewrite upd_same. unfold undialed in *. psimpl. fold p in A. destruct (p_main p); auto.
    * destruct A as (A1 & A2). split; [assumption|]. intros t c' Hdt Hcc. rewrite T1 by (left; now apply Hd). now apply A2.
    * intros t c' Hdt Hcc. rewrite T1 by (left; now apply Hd). now apply A.
  + intros x Hx. destruct (Nat.eq_dec x i) as [->|Hne]; [|rewrite upd_other by assumption; now apply (g_noerr G)].
    rewrite upd_same. psimpl. destruct (g_noerr G Hi) as (A & B & C). repeat split; auto; discriminate.
  + intros x Hx. destruct (Nat.eq_dec x i) as [->|Hne]; [|rewrite upd_other by assumption; now apply (g_np G)].
    rewrite upd_same. psimpl. auto.
  + destruct (Nat.eq_dec 0 i) as [<-|Hne]; [rewrite upd_same|rewrite upd_other by assumption]; apply (g_info G).
  + intros x Hx. destruct (Nat.eq_dec x i) as [->|Hne]; [|rewrite upd_other by assumption; now apply (g_done G)].
    rewrite upd_same. psimpl. discriminate.
Qed.

Lemma acc_step_reach i st st' : i < n -> Reach st -> acc_step true k i st = Some st' -> Reach st'.
Proof.
  intros Hi R. destruct (p_acc (P st i)) eqn:Ha.
  - unfold acc_step. rewrite Ha. discriminate.
  - now apply accept_reach.
  - now apply (store_reach i st st' l c id).
  - (* AAdd: not reachable *)
    exfalso. pose proof (pi_acc (proj2 (proj1 R) i Hi)) as PA. rewrite Ha in PA. exact PA.
  - unfold acc_step. rewrite Ha. discriminate.
Qed.

(* Connect at the leader *)
Lemma connect_reach st st' :
  Reach st -> p_main (P st 0) = MStart -> main_step n k 0 st = Some st' -> Reach st'.
Proof.
  intros (HI & G) Hm. assert (Hi : 0 < n) by lia. pose proof (proj2 HI 0 Hi) as PI.
  pose proof (pi_main PI) as PM. unfold main_ok in PM. rewrite Hm in PM. destruct PM as (PA & PN & PP).
  unfold main_step. rewrite Hm. change (0 =? 0) with true. cbv iota.
  intros [= <-]. split.
  { apply Inv_local; auto.
    destruct PI as [Q1 Q2 Q3 Q4 Q5 Q6 Q7 Q8 Q10 Q11 Q12]. constructor; psimpl; auto.
    * intros _ c Hc. apply Nat.ltb_lt in Hc. rewrite Hc. destruct (Q4 eq_refl) as (_ & ->).
      rewrite cnt_zero by (intros; apply PN). unfold E. simpl. lia.
    * unfold main_ok. psimpl. split; [discriminate|]. split; [lia|]. split; [intros; lia|].
      intros H. contradiction. }
  apply (ginv_local st st 0 _ Hi HI G); psimpl; rewrite ?Hm; auto; try discriminate.
  * intros _. now apply (pi_zero PI).
  * intros H. contradiction.
  * simpl. lia.
Qed.

(* Join: the dial to the leader; the hello follows in a step of its own *)
Lemma join_reach i st st' :
  i < n -> i <> 0 -> Reach st -> p_main (P st i) = MStart -> main_step n k i st = Some st' -> Reach st'.
Proof.
  intros Hi E0 (HI & G) Hm. pose proof HI as (HL & HP). pose proof (HP i Hi) as PI.
  pose proof (pi_main PI) as PM. unfold main_ok in PM. rewrite Hm in PM. destruct PM as (PA & PN & PP).
  unfold main_step. rewrite Hm, (proj2 (Nat.eqb_neq i 0) E0).
  unfold new_link. cbv beta iota zeta. intros [= <-].
  assert (Hlt : 0 <? i = true) by (apply Nat.ltb_lt; lia). rewrite Hlt.
  psimpl. rewrite (upd_other _ 0 i) by assumption. split.
  { apply (Inv_new_link st i 0 None); try assumption; try lia; [discriminate|].
    destruct (PInv_new_link _ _ _ _ (mkLink i 0 None None) PI) as [Q1 Q2 Q3 Q4 Q5 Q6 Q7 Q8 Q10 Q11 Q12].
    constructor; psimpl; rewrite ?PA; auto.
    * unfold sorted. repeat constructor. lia.
    * intros x [<-|[<-|[]]]; lia.
    * intros H. contradiction.
    * intros j c Hj. unfold set_conn, upd, no_conns. destruct (j =? 0) eqn:Ej; [|reflexivity].
      exfalso. apply Hj. left. symmetry. now apply Nat.eqb_eq.
    * intros j c l. unfold set_conn, no_conns. unfold upd at 1. destruct (j =? 0) eqn:Ej; [|discriminate].
      unfold upd at 1. destruct (c =? 0); [|discriminate]. intros [= <-]. split; [lia|]. left.
      rewrite upd_same. psimpl. split; [reflexivity|]. symmetry. now apply Nat.eqb_eq.
    * intros [].
    * unfold main_ok. psimpl. split; [assumption|]. split; [assumption|]. split; [|split; reflexivity].
      intros j c. unfold set_conn, upd, no_conns. destruct (j =? 0) eqn:Ej; [|now right].
      destruct (c =? 0) eqn:Ec; [|now right]. left. split; now apply Nat.eqb_eq. }
  apply (ginv_dial st i 0 None 0); psimpl; rewrite ?Hm; auto; try lia; try discriminate.
  * now left.
  * intros j c'. rewrite set_conn_spec, PN. reflexivity.
  * rewrite PA. congruence.
  * exact I.
  * (* the leader cannot be past the info loop while a party has not joined *)
    intros _ _ Hpast.
    assert (Hin : In i (aside 0)) by (apply aside_in; lia).
    pose proof (pi_main (HP 0 ltac:(lia))) as PM0. unfold main_ok in PM0. unfold past in Hpast.
    assert (Hf : full (p_conns (P st 0)) 0 0).
    { destruct (p_main (P st 0)); try contradiction.
      - destruct PM0 as (_ & _ & F0 & _). apply F0. lia.
      - destruct PM0 as (F0 & _). apply F0. lia. }
    specialize (Hf i Hin). unfold stored in Hf.
    rewrite (accept_slot_free st i 0 0 HI G ltac:(lia) Hin (PN 0 0)) in Hf. discriminate.
Qed.

(* the Join link of a party that has not yet read the network info *)
Lemma join_slot st i : Reach st -> i < n -> i <> 0 -> stored (p_conns (P st i)) 0 0 = true ->
  exists l, p_conns (P st i) 0 0 = Some l /\ l < g_nlinks st /\
    l_from (L st l) = i /\ l_to (L st l) = 0 /\ cid (L st l) = 0.
Proof.
  intros (HI & G) Hi P0 PS. unfold stored in PS. destruct (p_conns (P st i) 0 0) as [l|] eqn:Hl; [|discriminate].
  exists l. split; [reflexivity|]. split; [apply (pi_conn (proj2 HI i Hi) 0 0 Hl)|].
  exact (g_dslot G 0 Hi P0 (or_introl eq_refl) Hl).
Qed.

(* the hello (connection id 0, own id) goes out on the Join link *)
Lemma hello_reach i st st' :
  i < n -> Reach st -> p_main (P st i) = MHello -> main_step n k i st = Some st' -> Reach st'.
Proof.
  intros Hi R Hm. pose proof R as (HI & G). pose proof HI as (HL & HP). pose proof (HP i Hi) as PI.
  pose proof (pi_main PI) as PM. unfold main_ok in PM. rewrite Hm in PM.
  destruct PM as (P0 & PA & PN & PS & PP).
  destruct (join_slot st i R Hi P0 PS) as (l & Hl & Hln & Hfrom & Hto & Hcid).
  unfold main_step. rewrite Hm, Hl.
  intros [= <-]. split.
  { pose proof (HL l Hln) as (L1 & L2 & L3 & L4 & L5 & L6).
    assert (Hsame : forall l0, l_from (g_link (set_hello st l (0, i)) l0) = l_from (g_link st l0) /\
                               l_to (g_link (set_hello st l (0, i)) l0) = l_to (g_link st l0)).
    { intros l0. psimpl. unfold upd. destruct (l0 =? l) eqn:El; psimpl; [apply Nat.eqb_eq in El; subst|]; split; reflexivity. }
    apply (Inv_intro st _ i); try assumption; psimpl.
    + lia.
    + intros l0 _. apply Hsame.
    + intros l0 Hl0. unfold upd. destruct (l0 =? l) eqn:El; [|now apply HL].
      unfold link_ok. psimpl. repeat split; auto.
      * injection H as <- <-. now symmetry.
      * injection H as <- <-. lia.
    + intros i' Hi' Hne. left. now apply upd_other.
    + rewrite upd_same. eapply PInv_frame with (nl := g_nlinks st) (lk := g_link st); [|lia|intros l0 _; apply Hsame].
      destruct PI as [Q1 Q2 Q3 Q4 Q5 Q6 Q7 Q8 Q10 Q11 Q12]. constructor; psimpl; auto.
      unfold main_ok. psimpl. repeat split; auto. }
  set (lk' := upd (g_link st) l (mkLink (l_from (g_link st l)) (l_to (g_link st l)) (Some (0, i)) (l_info (g_link st l)))).
  assert (Lft : forall l0, l_from (lk' l0) = l_from (g_link st l0) /\ l_to (lk' l0) = l_to (g_link st l0) /\
                           cid (lk' l0) = cid (g_link st l0) /\ l_info (lk' l0) = l_info (g_link st l0)).
  { intros l0. unfold lk', upd. destruct (l0 =? l) eqn:El; [|auto]. apply Nat.eqb_eq in El. subst l0.
    unfold cid at 1. psimpl. auto. }
  assert (Lh : forall l0 c id, l_hello (g_link st l0) = Some (c, id) -> l_hello (lk' l0) = Some (c, id)).
  { intros l0 c id H. unfold lk', upd. destruct (l0 =? l) eqn:El; [|exact H]. apply Nat.eqb_eq in El. subst l0.
    psimpl. pose proof (HL l Hln) as (_ & _ & _ & _ & L5 & _). destruct (L5 c id H) as (-> & _).
    unfold cid in Hcid. rewrite H in Hcid. subst c. now rewrite Hfrom. }
  assert (Lh' : forall l0, l_hello (lk' l0) = None -> l_hello (g_link st l0) = None /\ l0 <> l).
  { intros l0. unfold lk', upd. destruct (l0 =? l) eqn:El; [psimpl; discriminate|].
    apply Nat.eqb_neq in El. auto. }
  (* every party is as before, up to party i's program counter *)
  assert (Pc : forall x, exists m, upd (g_party st) i (set_main (g_party st i) MRecvInfo) x = set_main (g_party st x) m).
  { intros x. destruct (Nat.eq_dec x i) as [->|Hx]; [rewrite upd_same; eauto|rewrite upd_other by assumption].
    exists (p_main (g_party st x)). now destruct (g_party st x). }
  constructor; psimpl; fold lk'.
  + intros l0 Hl0. destruct (Lft l0) as (-> & -> & -> & _). destruct (Pc (l_from (g_link st l0))) as (m & ->). now apply (g_dial G).
  + intros x j c l0 Hx Hj. destruct (Pc x) as (m & ->). intros H. destruct (Lft l0) as (-> & -> & _).
    destruct (g_acc G j c Hx Hj H) as (A & B & C). repeat split; auto.
  + intros x t c l0 Hx Hx0 Hd. destruct (Pc x) as (m & ->). intros H. destruct (Lft l0) as (-> & -> & -> & _).
    now apply (g_dslot G c Hx).
  + intros l0 Hl0 Hn0. destruct (Lh' l0 Hn0) as (Hn1 & Hne). destruct (Lft l0) as (-> & -> & _).
    destruct (g_hello G Hl0 Hn1) as (A & B). split; [assumption|].
    rewrite upd_other; [assumption|]. intros E.
    apply Hne. apply (link_unique st); auto; try congruence.
    unfold cid at 1. rewrite Hn1. now rewrite Hcid.
  + intros l0 Hl0. destruct (Lft l0) as (-> & -> & -> & _). destruct (Pc (l_to (g_link st l0))) as (m & ->).
    now apply (g_place G).
  + intros x Hx. destruct (Pc x) as (m & ->). destruct (g_queue G Hx) as (A & B). split; [assumption|]. intros l0 Hl0.
    destruct (Lft l0) as (-> & _ & -> & _). now apply B.
  + intros x l0 c id Hx. destruct (Pc x) as (m & ->). intros E.
    destruct (g_held G Hx E) as (A & B). split; [now apply Lh|assumption].
  + intros x Hx Hx0. destruct (Nat.eq_dec x i) as [->|Hxi].
    * rewrite upd_same. exact I.
    * rewrite upd_other by assumption. now apply (g_none G).
  + intros x Hx. destruct (g_noerr G Hx) as (A & B & C).
    destruct (Nat.eq_dec x i) as [->|Hxi]; [rewrite upd_same; psimpl|rewrite upd_other by assumption]; repeat split; auto; discriminate.
  + intros x Hx. destruct (Pc x) as (m & ->). now apply (g_np G).
  + rewrite (upd_other _ i 0) by auto. intros Hp l0 Hl0. destruct (Lft l0) as (_ & -> & -> & ->). now apply (g_info G Hp).
  + intros x Hx. destruct (Nat.eq_dec x i) as [->|Hxi].
    * rewrite upd_same. psimpl. discriminate.
    * rewrite upd_other by assumption. now apply (g_done G).
Qed.

(* the network info has arrived: addPeer for every id in it, need[] set, the accept thread started *)
Lemma recv_info_reach i st st' :
  i < n -> Reach st -> p_main (P st i) = MRecvInfo -> main_step n k i st = Some st' -> Reach st'.
Proof.
  intros Hi R Hm. pose proof R as (HI & G). pose proof HI as (HL & HP). pose proof (HP i Hi) as PI.
  pose proof (pi_main PI) as PM. unfold main_ok in PM. rewrite Hm in PM.
  destruct PM as (P0 & PA & PN & PS & PP).
  destruct (join_slot st i R Hi P0 PS) as (l & Hl & Hln & Hfrom & Hto & Hcid).
  unfold main_step. rewrite Hm, Hl.
  pose proof (HL l Hln) as (L1 & L2 & L3 & L4 & L5 & L6).
  destruct (l_info (g_link st l)) as [ids|] eqn:Hinfo; [|discriminate].
  rewrite (L6 ids eq_refl), Hfrom. rewrite (others_len i) by lia.
  destruct (add_ids_some n (others i) (p_peers (g_party st i))) as (ps & Hadd).
  { intros x Hx. apply others_spec in Hx. lia. }
  rewrite Hadd.
  destruct (add_ids_spec _ _ _ _ Hadd) as (A1 & A2).
  assert (Hps : ps = seq 0 n).
  { apply sorted_ext; [apply A2; rewrite PP; unfold sorted; repeat constructor; lia|apply seq_sorted|].
    intros x. rewrite A1, others_spec, PP, in_seq. simpl. lia. }
  subst ps. intros [= <-]. split.
  { apply Inv_local; auto. rewrite num_accept by assumption.
    assert (Hnone : forall j c, j <> 0 -> p_conns (g_party st i) j c = None).
    { intros j c Hj. destruct (PN j c) as [[-> _]|]; [contradiction|assumption]. }
    destruct PI as [Q1 Q2 Q3 Q4 Q5 Q6 Q7 Q8 Q10 Q11 Q12]. constructor; psimpl; auto.
    + intros x Hx. apply in_seq in Hx. lia.
    + intros H. contradiction.
    + intros j c Hj. apply Hnone. intros ->. apply Hj. apply in_seq. lia.
    + intros _ c Hc. apply Nat.ltb_lt in Hc. rewrite Hc. rewrite cnt_zero; [simpl; lia|].
      intros j Hj. apply Hnone. apply in_aside in Hj. lia.
    + unfold main_ok. psimpl. split; [assumption|]. split; [discriminate|]. split; [reflexivity|].
      split; [assumption|]. split; [lia|]. split; [intros; lia|]. split.
      * intros j Hj Hnj. contradiction.
      * auto. }
  apply (ginv_local st st i _ Hi HI G); psimpl; rewrite ?Hm; auto; try discriminate.
  + intros _. unfold undialed. psimpl. split; [apply targets_NoDup|]. intros t c' Hd Hcc.
    destruct (PN t c') as [(-> & ->)|H]; [|exact H]. exfalso.
    destruct Hcc as [Hcc|(_ & Hin)]; [lia|]. apply in_targets in Hin. simpl in Hin. destruct Hin as (_ & Hin). now apply Hin.
  + apply Nat.eqb_neq in P0. rewrite P0. apply (g_info G).
Qed.

(* the dial loop of connection id c is through: wait for the inbound connections *)
Lemma dial_done_reach i st st' c :
  i < n -> Reach st -> p_main (P st i) = MDial c [] -> main_step n k i st = Some st' -> Reach st'.
Proof.
  intros Hi (HI & G) Hm. pose proof (proj2 HI i Hi) as PI.
  pose proof (pi_main PI) as PM. unfold main_ok in PM. rewrite Hm in PM.
  destruct PM as (P0 & PA & PP & PS & PC & PF & PD & PT). pose proof (g_np G Hi) as Hnp.
  pose proof (g_none G Hi P0) as GN. unfold undialed in GN. rewrite Hm in GN. destruct GN as (GN1 & GN2).
  unfold main_step. rewrite Hm.
  intros [= <-]. split.
  { apply Inv_local; auto.
    destruct PI as [Q1 Q2 Q3 Q4 Q5 Q6 Q7 Q8 Q10 Q11 Q12]. constructor; psimpl; auto.
    * unfold main_ok. psimpl. split; [assumption|]. split; [assumption|]. split.
      -- intros c' Hc'. now apply PF.
      -- intros _. split; [assumption|]. split; [assumption|]. intros c' Hc'.
         destruct (Nat.eq_dec c' c) as [->|Hne].
         ++ intros j Hj. apply PD; auto.
         ++ apply PF. lia. }
  apply (ginv_local st st i _ Hi HI G); psimpl; rewrite ?Hm; auto; try discriminate.
  * intros _ t c' Hd Hcc. apply GN2; auto.
  * apply Nat.eqb_neq in P0. rewrite P0. apply (g_info G).
Qed.

(* dial(t, c): the slot is empty, so SetConn succeeds *)
Lemma dial_reach i st st' c t ts :
  i < n -> Reach st -> p_main (P st i) = MDial c (t :: ts) -> main_step n k i st = Some st' -> Reach st'.
Proof.
  intros Hi (HI & G) Hm. pose proof (proj2 HI i Hi) as PI.
  pose proof (pi_main PI) as PM. unfold main_ok in PM. rewrite Hm in PM.
  destruct PM as (P0 & PA & PP & PS & PC & PF & PD & PT). pose proof (g_np G Hi) as Hnp.
  pose proof (g_none G Hi P0) as GN. unfold undialed in GN. rewrite Hm in GN. destruct GN as (GN1 & GN2).
  unfold main_step. rewrite Hm.
  assert (H255 : (255 <? c) = false) by (apply Nat.ltb_ge; lia). rewrite H255.
  assert (Ht : In t (targets i c (seq 0 n))) by (apply PT; now left).
  apply in_targets in Ht. destruct Ht as (Htn & Ht). apply in_seq in Htn.
  assert (Hnt : (n <=? t) = false) by (apply Nat.leb_gt; lia). rewrite Hnt.
  assert (Hd : dside i t) by (destruct (Nat.eqb_spec t 0); [now left|now right]).
  assert (Hslot : p_conns (g_party st i) t c = None) by (apply GN2; auto; right; split; [reflexivity|now left]).
  unfold new_link. cbv beta iota zeta. psimpl. rewrite (upd_other _ t i) by (destruct Hd; lia). rewrite Hslot.
  intros [= <-]. apply NoDup_cons_iff in GN1. destruct GN1 as (N1 & N2). split.
  { assert (Hh : forall c0 id, Some (c, i) = Some (c0, id) -> id = i /\ c0 < k) by (intros c0 id [= <- <-]; auto).
    apply (Inv_new_link st i t (Some (c, i))); try assumption; try lia.
    destruct (PInv_new_link _ _ _ _ (mkLink i t (Some (c, i)) None) PI) as [Q1 Q2 Q3 Q4 Q5 Q6 Q7 Q8 Q10 Q11 Q12]. constructor; psimpl; auto.
    * intros j c' Hj. unfold set_conn, upd. destruct (j =? t) eqn:Ej; [|now apply Q5].
      exfalso. apply Hj. apply Nat.eqb_eq in Ej. subst j. rewrite PP. apply in_seq. lia.
    * intros j c' l0. unfold set_conn. unfold upd at 1. destruct (j =? t) eqn:Ej; [|apply Q6].
      apply Nat.eqb_eq in Ej. subst j. unfold upd at 1. destruct (c' =? c) eqn:Ec; [|apply Q6].
      intros [= <-]. split; [lia|]. left. rewrite upd_same. psimpl. split; reflexivity.
    * intros R c' Hc'. rewrite <- (Q8 R c' Hc'). f_equal. unfold cnt. apply filter_len_same.
      intros x Hx. rewrite stored_set_conn. destruct (x =? t) eqn:Ex; [|reflexivity].
      exfalso. apply Nat.eqb_eq in Ex. subst x. pose proof (aside_lt i t Hi Hx) as (X1 & X2 & X3).
      specialize (X3 P0). destruct Hd; lia.
    * unfold main_ok. psimpl. split; [assumption|]. split; [assumption|]. split; [assumption|].
      split; [now apply tab_le_set_conn|]. split; [assumption|]. split; [|split].
      -- intros c' Hc'. destruct (PF c' Hc') as (F1 & F2). split; intros j Hj; apply tab_le_set_conn; auto.
      -- intros j Hj Hnj. rewrite stored_set_conn. destruct (j =? t) eqn:Ej.
         ++ now rewrite Nat.eqb_refl.
         ++ simpl. apply PD; auto. intros [->|H]; [now rewrite Nat.eqb_refl in Ej|contradiction].
      -- intros j Hj. apply PT. now right. }
  apply (ginv_dial st i t (Some (c, i)) c); psimpl; rewrite ?Hm; auto; try lia; try discriminate.
  * intros j c'. apply set_conn_spec.
  * unfold undialed. psimpl. split; [exact N2|]. intros t0 c' Hd0 Hcc. rewrite set_conn_spec.
    destruct ((t0 =? t) && (c' =? c)) eqn:Eb.
    -- apply andb_true_iff in Eb. destruct Eb as (E1 & E2). apply Nat.eqb_eq in E1, E2. subst t0 c'.
       exfalso. destruct Hcc as [Hcc|(_ & Hin)]; [lia|contradiction].
    -- apply GN2; auto. destruct Hcc as [Hcc|(E & Hin)]; [now left|right; split; [assumption|now right]].
  * intros -> ->. rewrite Nat.eqb_refl in Ht. contradiction.
Qed.

(* need[c] = 0: all expected inbound connections c are stored *)
Lemma wait_reach i st st' c :
  i < n -> Reach st -> p_main (P st i) = MWait c -> main_step n k i st = Some st' -> Reach st'.
Proof.
  intros Hi (HI & G) Hm. pose proof (proj2 HI i Hi) as PI.
  pose proof (pi_main PI) as PM. unfold main_ok in PM. rewrite Hm in PM.
  destruct (g_noerr G Hi) as (NE1 & NE2 & NE3). pose proof (g_np G Hi) as Hnp.
  unfold main_step. rewrite Hm.
  destruct PM as (PA & PC & PF & PD). rewrite NE3. rewrite orb_false_r, andb_true_r.
  destruct (p_need (g_party st i) c =? 0) eqn:Hz; [|discriminate]. apply Nat.eqb_eq in Hz.
  assert (Hrun : running (p_acc (P st i))).
  { pose proof NE2 as D. destruct (p_acc (P st i)); simpl; auto. exact (D _ eq_refl). }
  pose proof (need_zero_full _ _ _ _ c PI Hrun PC Hz) as Hfull.
  assert (HF : forall c', c' <= c -> full (p_conns (g_party st i)) i c').
  { intros c' Hc'. destruct (Nat.eq_dec c' c) as [->|Hne]; [assumption|apply PF; lia]. }
  destruct ((i =? 0) && (c =? 0)) eqn:Hic.
  + apply andb_true_iff in Hic. destruct Hic as (Hi0 & Hc0). apply Nat.eqb_eq in Hi0.
    intros [= <-]. split.
    { apply Nat.eqb_eq in Hc0. subst c. apply Inv_local; auto.
      destruct PI as [Q1 Q2 Q3 Q4 Q5 Q6 Q7 Q8 Q10 Q11 Q12]. constructor; psimpl; auto.
      unfold main_ok. psimpl. repeat split; auto. }
    apply (ginv_local st st i _ Hi HI G); psimpl; rewrite ?Hm; auto; try discriminate.
    * intros H. contradiction.
    * subst i. simpl. contradiction.
  + intros [= <-]. split; [apply Inv_local; auto; apply next_conn_inv; auto|].
    apply (ginv_next_conn st st i c); rewrite ?Hm; auto; try discriminate.
    * intros Hi0. pose proof (g_none G Hi Hi0) as GN. unfold undialed in GN. now rewrite Hm in GN.
    * intros ->. apply (g_info G). rewrite Hm. simpl in *. destruct c; [discriminate|lia].
Qed.

(* connectLeader's info loop, then on to connection id 1 or done *)
Lemma send_infos_reach i st st' :
  i < n -> Reach st -> p_main (P st i) = MInfo -> main_step n k i st = Some st' -> Reach st'.
Proof.
  intros Hi (HI & G) Hm. pose proof HI as (HL & HP). pose proof (HP i Hi) as PI.
  pose proof (pi_main PI) as PM. unfold main_ok in PM. rewrite Hm in PM.
  unfold main_step. rewrite Hm.
  destruct PM as (Pi0 & PA & PF). subst i.
  pose proof (leader_peers_full _ _ _ PI PF) as Hpeers.
  destruct (send_infos st (p_conns (g_party st 0)) (p_peers (g_party st 0)) (p_peers (g_party st 0))) as [st1|] eqn:Hsend.
  2:{ exfalso. revert Hsend. apply send_infos_some. intros j Hj Hj0. rewrite Hpeers in Hj. apply in_seq in Hj.
      assert (Hs : stored (p_conns (g_party st 0)) 0 j = true) by (apply PF; apply aside_in; lia).
      unfold stored in Hs. destruct (p_conns (g_party st 0) j 0); [discriminate|discriminate]. }
  destruct (send_infos_info _ _ _ _ _ Hsend) as (S1 & S2 & S3 & S4 & S5 & S6).
  intros [= <-]. rewrite S1. split.
  { apply (Inv_intro st _ 0); try assumption; psimpl.
    - lia.
    - intros l _. split; apply (S3 l).
    - (* a link that got the info now is the first connection of its dialler *)
      rewrite S2. intros l Hl. destruct (HL l Hl) as (L1 & L2 & L3 & L4 & L5 & L6). destruct (S3 l) as (R1 & R2 & R3).
      unfold link_ok. rewrite R1, R2, R3. do 5 (split; [assumption|]).
      intros ids Hids. destruct (S6 l ids Hids) as [|(j & _ & J2 & ->)]; [auto|]. rewrite Hpeers.
      destruct (pi_conn PI j 0 J2) as (_ & [(B & _)|(B & _)]); [lia|now rewrite B].
    - intros i' Hi' Hne. left. rewrite upd_other by assumption. now rewrite S1.
    - rewrite upd_same, S2. apply next_conn_inv; auto.
      + eapply PInv_frame; [exact PI|lia|]. intros l _. split; apply (S3 l).
      + intros c' Hc'. assert (c' = 0) by lia. subst c'. assumption.
      + intros H. contradiction. }
  apply (ginv_next_conn st st1 0 0); rewrite ?Hm; auto; try discriminate.
  + intros H. contradiction.
  + (* every first connection to the leader is in its table, so it got the info *)
    intros _ l0 Hl0 T0 C0. pose proof (HL l0 Hl0) as (L1 & L2 & _).
    set (j := l_from (g_link st l0)) in *.
    assert (Hja : In j (aside 0)) by (apply aside_in; lia).
    assert (Hs : stored (p_conns (g_party st 0)) 0 j = true) by now apply PF.
    unfold stored in Hs. destruct (p_conns (g_party st 0) j 0) as [l2|] eqn:Hl2; [|discriminate].
    destruct (g_acc G j 0 Hi Hja Hl2) as (A1 & A2 & A3).
    destruct (pi_conn PI j 0 Hl2) as (B2 & _).
    assert (l2 = l0). { apply (link_unique st); auto; try congruence. unfold cid at 1. rewrite A3. now rewrite C0. }
    subst l2. apply (S5 j l0); auto; [rewrite Hpeers; apply in_seq|]; lia.
Qed.

Lemma main_step_reach i st st' : i < n -> Reach st -> main_step n k i st = Some st' -> Reach st'.
Proof.
  intros Hi R. destruct (p_main (P st i)) as [| | |c [|t ts]|c| | |] eqn:Hm.
  - destruct (Nat.eq_dec i 0) as [->|Hi0]; [now apply connect_reach|now apply join_reach].
  - now apply hello_reach.
  - now apply recv_info_reach.
  - now apply (dial_done_reach i st st' c).
  - now apply (dial_reach i st st' c t ts).
  - now apply (wait_reach i st st' c).
  - now apply send_infos_reach.
  - unfold main_step. rewrite Hm. discriminate.
  - unfold main_step. rewrite Hm. discriminate.
Qed.

Lemma init_inv : Inv (init n).
Proof.
  split; [simpl; intros; lia|]. intros i Hi. unfold init. psimpl. unfold init_party.
  destruct (i =? 0) eqn:E0.
  - constructor; psimpl; try (intros; contradiction); try discriminate; auto.
    + unfold sorted. repeat constructor.
    + intros x [<-|[]]. lia.
    + intros _. split; [now left|reflexivity].
    + unfold main_ok. psimpl. repeat split; auto.
  - apply Nat.eqb_neq in E0. constructor; psimpl; try (intros; contradiction); try discriminate; auto.
    + unfold sorted. constructor.
    + unfold main_ok. psimpl. repeat split; auto. intros; contradiction.
Qed.

Lemma init_ginv : GInv (init n).
Proof.
  constructor; unfold init; psimpl; try (intros; lia).
  - intros i j c l Hi Hj. unfold init_party. destruct (i =? 0); discriminate.
  - intros i t c l Hi Hi0 Hd. unfold init_party. destruct (i =? 0); discriminate.
  - intros i Hi. unfold init_party. destruct (i =? 0); psimpl; (split; [constructor|intros l []]).
  - intros i l c id Hi. unfold init_party. destruct (i =? 0); discriminate.
  - intros i Hi Hi0. unfold init_party. destruct (i =? 0); exact I.
  - intros i Hi. unfold init_party. destruct (i =? 0); psimpl; repeat split; discriminate.
  - intros i Hi. unfold init_party. destruct (i =? 0); psimpl; intros H; contradiction.
  - intros i Hi. unfold init_party. destruct (i =? 0); discriminate.
Qed.

Lemma step_reach t st st' : Reach st -> step true n k t st = Some st' -> Reach st'.
Proof.
  intros R H. destruct (step_cases _ _ _ _ _ _ H) as (i & Hi & [Hs|Hs]); [eapply main_step_reach|eapply acc_step_reach]; eauto.
Qed.

Lemma exec_reach st t : Reach st -> Reach (exec true n k st t).
Proof. intros R. unfold exec. destruct (step true n k t st) eqn:Hs; [eapply step_reach; eauto|exact R]. Qed.

Lemma run_reach sched : forall st, Reach st -> Reach (run_from true n k st sched).
Proof.
  induction sched as [|t r IH]; intros st R; [exact R|].
  unfold run_from in *. simpl. apply IH. now apply exec_reach.
Qed.

Lemma init_reach : Reach (init n).
Proof. split; [apply init_inv|apply init_ginv]. Qed.

Lemma reachable_inv sched : Inv (run_from true n k (init n) sched).
Proof. apply run_reach, init_reach. Qed.

(* Whenever Connect has returned nil at party i, the table the caller sees at
   that moment — and from then on — is complete. *)
Lemma fixed_return_complete sched i :
  i < n -> let st := run_from true n k (init n) sched in
  p_main (g_party st i) = MDone ->
  (exists ps t, p_ret (g_party st i) = Some (ps, t) /\ tab_complete n k i ps t = true) /\
  tab_complete n k i (p_peers (g_party st i)) (p_conns (g_party st i)) = true.
Proof using Hn Hk Hk256.
  intros Hi st Hm. destruct (reachable_inv sched) as (_ & HP). specialize (HP i Hi). fold st in HP.
  split.
  - destruct (p_ret (g_party st i)) as [[ps t]|] eqn:Hr.
    + exists ps, t. split; [reflexivity|]. now apply (pi_ret HP).
    + exfalso. pose proof (pi_done HP) as D. rewrite Hm in D. now apply D.
  - pose proof (pi_main HP) as PM. unfold main_ok in PM. rewrite Hm in PM. destruct PM as (F & D).
    eapply done_complete; eauto.
Qed.

(* The invariant F11 is about: as long as the accept goroutine runs,
   need[c] = 0 implies that every expected inbound peer is in Peers and has
   Conns[c] stored. *)
Lemma fixed_need_zero_stored sched i c :
  i < n -> c < k -> let st := run_from true n k (init n) sched in
  running (p_acc (g_party st i)) -> p_need (g_party st i) c = 0 ->
  forall j, In j (aside i) ->
    In j (p_peers (g_party st i)) /\ exists l, p_conns (g_party st i) j c = Some l.
Proof using Hn Hk Hk256.
  intros Hi Hc st Hrun Hz j Hj. destruct (reachable_inv sched) as (_ & HP). specialize (HP i Hi). fold st in HP.
  pose proof (need_zero_full _ _ _ _ c HP Hrun Hc Hz j Hj) as Hfull. unfold stored in Hfull.
  destruct (p_conns (g_party st i) j c) as [l|] eqn:Hs; [|discriminate]. split; [|now exists l].
  destruct (in_dec Nat.eq_dec j (p_peers (g_party st i))) as [|Hnj]; [assumption|].
  rewrite (pi_p3 HP j c Hnj) in Hs. discriminate.
Qed.

(* every stored connection joins the right two parties *)
Lemma fixed_conn_endpoints sched i j c l :
  i < n -> let st := run_from true n k (init n) sched in
  p_conns (g_party st i) j c = Some l ->
  l < g_nlinks st /\
  ((l_from (g_link st l) = i /\ l_to (g_link st l) = j) \/ (l_from (g_link st l) = j /\ l_to (g_link st l) = i)).
Proof using Hn Hk Hk256.
  intros Hi st Hs. destruct (reachable_inv sched) as (_ & HP). specialize (HP i Hi). fold st in HP.
  exact (pi_conn HP j c Hs).
Qed.

(* no error state is reachable: no Connect fails, no accept thread dies; in
   particular Peer.SetConn never finds a slot already set (no slot is written
   twice) and acceptConn never sees "too many connections" *)
Lemma no_error st i : Reach st -> i < n ->
  (forall code, p_main (P st i) <> MErr code) /\ (forall code, p_acc (P st i) <> ADead code) /\
  p_ldone (P st i) = false.
Proof. intros (_ & G) Hi. now apply (g_noerr G). Qed.

(* the two ends of a pair hold the SAME link under the same index, and a link
   held at both ends is held under one index *)
Lemma same_link_aux st i j c c' l l' : Reach st -> i < n -> j < n -> In j (aside i) ->
  p_conns (P st i) j c = Some l -> p_conns (P st j) i c' = Some l' -> (c = c' -> l = l') /\ (l = l' -> c = c').
Proof.
  intros (HI & G) Hi Hj Hja Hl Hl'. pose proof HI as (HL & HP).
  destruct (g_acc G j c Hi Hja Hl) as (A1 & A2 & A3).
  destruct (pi_conn (HP i Hi) j c Hl) as (B & _).
  pose proof (g_dial G B) as D. unfold cid in D. rewrite A1, A2, A3 in D.
  destruct (aside_lt i j Hi Hja) as (J1 & J2 & J3).
  split.
  - intros <-. congruence.
  - intros <-. assert (Hj0 : j <> 0) by (clear - J1; lia).
    assert (Hd : dside j i) by (destruct (Nat.eq_dec i 0) as [->|Hi0]; [now left|right; auto]).
    destruct (g_dslot G c' Hj Hj0 Hd Hl') as (_ & _ & C). unfold cid in C. rewrite A3 in C. exact C.
Qed.

Lemma same_link st i j c c' l l' : Reach st -> i < n -> j < n -> i <> j ->
  p_conns (P st i) j c = Some l -> p_conns (P st j) i c' = Some l' -> (c = c' -> l = l') /\ (l = l' -> c = c').
Proof.
  intros R Hi Hj Hne Hl Hl'. destruct (pair_sides i j Hi Hj Hne) as [H|H].
  - exact (same_link_aux st i j c c' l l' R Hi Hj H Hl Hl').
  - destruct (same_link_aux st j i c' c l' l R Hj Hi H Hl' Hl) as (A & B). split; intros E; symmetry; auto.
Qed.

End Inv.
