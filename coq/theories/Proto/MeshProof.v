(* MeshProof.v — stuttering and quiescence of the mesh model of Mesh.v, fair
   finite schedules, and the regression record of finding F11: the model of
   acceptConn as it was before /repo commit 753a572 ([fixed = false]: need[c]--
   published before the connection is stored) is refuted for n = 2, k = 1 by a
   schedule after which no continuation recovers.  The invariant of the code
   as it is now is in MeshFixedProof.v, its liveness in MeshLive.v. *)
From Coq Require Import List PeanoNat Lia.
From Mpc Require Import Proto.Mesh.
Import ListNotations.

Lemma exec_disabled fixed n k t st : step fixed n k t st = None -> exec fixed n k st t = st.
Proof. unfold exec; intros ->; reflexivity. Qed.

Lemma step_out_of_range fixed n k t st : 2 * n <= t -> step fixed n k t st = None.
Proof.
  intros H. unfold step. destruct (Nat.leb_spec n (Nat.div2 t)) as [|E]; [reflexivity|].
  rewrite Nat.div2_div in E. apply (Nat.div_le_lower_bound t 2 n) in H; lia.
Qed.

Lemma quiescent_step fixed n k st t : quiescent fixed n k st = true -> step fixed n k t st = None.
Proof.
  intros Q. destruct (Nat.lt_ge_cases t (2 * n)) as [L|G].
  - unfold quiescent in Q. rewrite forallb_forall in Q.
    specialize (Q t). unfold tids in Q. rewrite in_seq in Q.
    assert (H : negb (enabled fixed n k t st) = true) by (apply Q; lia).
    unfold enabled in H. destruct (step fixed n k t st); [discriminate|reflexivity].
  - now apply step_out_of_range.
Qed.

(* thread 2i is party i's main thread, thread 2i+1 its accept thread *)
Lemma step_cases fixed n k t st st' : step fixed n k t st = Some st' ->
  exists i, i < n /\ (main_step n k i st = Some st' \/ acc_step fixed k i st = Some st').
Proof.
  unfold step. destruct (Nat.leb_spec n (Nat.div2 t)) as [|Hi]; [discriminate|].
  intros H. exists (Nat.div2 t). split; [assumption|]. destruct (Nat.even t); auto.
Qed.

Lemma step_main fixed n k i st : i < n -> step fixed n k (2 * i) st = main_step n k i st.
Proof.
  intros Hi. unfold step. rewrite Nat.div2_double, Nat.even_mul. simpl.
  apply Nat.leb_gt in Hi. now rewrite Hi.
Qed.

Lemma step_acc fixed n k i st : i < n -> step fixed n k (S (2 * i)) st = acc_step fixed k i st.
Proof.
  intros Hi. unfold step. rewrite Nat.div2_succ_double, Nat.even_succ, Nat.odd_mul. simpl.
  apply Nat.leb_gt in Hi. now rewrite Hi.
Qed.

Lemma quiescent_run fixed n k st sched :
  quiescent fixed n k st = true -> run_from fixed n k st sched = st.
Proof.
  intros Q. induction sched as [|t r IH]; [reflexivity|].
  unfold run_from in *. simpl. rewrite exec_disabled by now apply quiescent_step. exact IH.
Qed.

Lemma run_from_app fixed n k st s1 s2 :
  run_from fixed n k st (s1 ++ s2) = run_from fixed n k (run_from fixed n k st s1) s2.
Proof. unfold run_from. apply fold_left_app. Qed.

(* Fair finite schedules: the schedule can be cut into at least [r]
   consecutive segments each of which schedules every thread 0..2n-1 at least
   once ([count_rounds] cuts greedily, which maximises the number). *)
Fixpoint count_rounds_aux (all missing : list nat) (sched : list nat) : nat :=
  match sched with
  | [] => 0
  | t :: r =>
      let missing' := filter (fun x => negb (x =? t)) missing in
      match missing' with
      | [] => S (count_rounds_aux all all r)
      | _ => count_rounds_aux all missing' r
      end
  end.
Definition count_rounds (n : nat) (sched : list nat) : nat :=
  count_rounds_aux (seq 0 (2 * n)) (seq 0 (2 * n)) sched.

(* more rounds than any run of n parties with k connections has effective
   steps: one more than the initial value of the measure [mu] of MeshLive.v *)
Definition round_bound (n k : nat) : nat := S (n * (3 * ((k + 1) * (n + 3) + 6))).
Definition fair (n k : nat) (sched : list nat) : Prop := round_bound n k <= count_rounds n sched.

(* threads: 0 leader main, 1 leader accept, 2 party-1 main, 3 party-1 accept.
   Join(1); leader Connect-init; party 1 sends its hello; the leader's accept
   thread executes need[0]-- (and is then slow); the leader's main thread
   sees need[0] = 0, reads Peers = [0] and sends the network info to nobody;
   its Connect returns; the accept thread stores the connection.  Party 1
   waits for the network info for ever. *)
Definition f11_schedule : list nat := [2; 0; 2; 1; 0; 0; 1; 1].

Example f11_schedule_is_policy : policy_sched false 2 1 [1] 1 = f11_schedule.
Proof. vm_compute. reflexivity. Qed.

Notation f11_state := (run_from false 2 1 (init 2) f11_schedule) (only parsing).

Example f11_quiescent : quiescent false 2 1 f11_state = true.
Proof. vm_compute. reflexivity. Qed.

Example f11_leader_returned_short :
  p_main (g_party f11_state 0) = MDone /\
  (exists t, p_ret (g_party f11_state 0) = Some ([0], t)) /\
  p_main (g_party f11_state 1) = MRecvInfo.
Proof. vm_compute. split; [reflexivity|split; [eexists; reflexivity|reflexivity]]. Qed.

Example f11_not_complete : complete 2 1 f11_state = false.
Proof. vm_compute. reflexivity. Qed.

Definition round_robin (n r : nat) : list nat := concat (repeat (seq 0 (2 * n)) r).

Definition f11_fair_schedule : list nat := f11_schedule ++ round_robin 2 (S (round_bound 2 1)).

Example f11_fair : fair 2 1 f11_fair_schedule.
Proof. unfold fair. apply Nat.leb_le. vm_compute. reflexivity. Qed.

Lemma f11_absorbing ext : run_from false 2 1 (init 2) (f11_fair_schedule ++ ext) = f11_state.
Proof.
  unfold f11_fair_schedule. rewrite <- app_assoc, run_from_app.
  apply quiescent_run, f11_quiescent.
Qed.

Lemma complete_refuted :
  exists n k sched,
    n = 2 /\ k = 1 /\ fair n k sched /\
    (exists st, run_mesh false n k sched = Stuck st) /\
    (forall ext, exists st, run_mesh false n k (sched ++ ext) = Stuck st /\
                            p_main (g_party st 1) = MRecvInfo /\
                            (exists t, p_ret (g_party st 0) = Some ([0], t))).
Proof.
  exists 2, 1, f11_fair_schedule.
  split; [reflexivity|]. split; [reflexivity|]. split; [exact f11_fair|]. split.
  - exists f11_state. unfold run_mesh. rewrite <- (app_nil_r f11_fair_schedule), f11_absorbing.
    rewrite f11_not_complete. reflexivity.
  - intros ext. exists f11_state. unfold run_mesh. rewrite f11_absorbing, f11_not_complete.
    split; [reflexivity|]. destruct f11_leader_returned_short as (_ & H & H1). split; assumption.
Qed.

(* the same schedule on the model of the code as it is now forms the mesh *)
Example f11_schedule_fixed_ok :
  exists st, run_mesh true 2 1 (f11_schedule ++ round_robin 2 10) = Final st.
Proof. eexists. vm_compute. reflexivity. Qed.

(* non-vacuity: canonical schedules of both variants form complete meshes.
   In the names below [_now] is [fixed = false], the acceptConn before 753a572,
   and [_fixed] is [fixed = true], the code as it is. *)
Example canonical_complete_now :
  forallb (fun nk => match run_mesh false (fst nk) (snd nk) (policy_sched false (fst nk) (snd nk) (seq 1 (fst nk - 1)) 0)
                     with Final _ => true | Stuck _ => false end)
          [(2,1); (2,2); (3,1); (3,2); (4,3); (5,2); (6,4)] = true.
Proof. vm_compute. reflexivity. Qed.

Example canonical_complete_fixed :
  forallb (fun nk => match run_mesh true (fst nk) (snd nk) (policy_sched true (fst nk) (snd nk) (seq 1 (fst nk - 1)) 0)
                     with Final _ => true | Stuck _ => false end)
          [(2,1); (2,2); (3,1); (3,2); (4,3); (5,2); (6,4)] = true.
Proof. vm_compute. reflexivity. Qed.

(* the hook-driven schedules that broke the old acceptConn are harmless now *)
Example frozen_schedules_fixed_ok :
  forallb (fun x => match x with (n, k, order, m) =>
             match run_mesh true n k (policy_sched true n k order m) with Final _ => true | Stuck _ => false end end)
          [(2,1,[1],1); (2,2,[1],2); (2,2,[1],1); (2,3,[1],3); (3,1,[1;2],2); (3,1,[2;1],2);
           (3,2,[1;2],2); (3,1,[1;2],3); (4,1,[1;3;2],3)] = true.
Proof. vm_compute. reflexivity. Qed.
Example frozen_schedules_now_stuck :
  forallb (fun x => match x with (n, k, order, m) =>
             match run_mesh false n k (policy_sched false n k order m) with Final _ => false | Stuck _ => true end end)
          [(2,1,[1],1); (2,2,[1],2); (2,2,[1],1); (2,3,[1],3); (3,1,[1;2],2); (3,1,[2;1],2);
           (3,2,[1;2],2); (3,1,[1;2],3); (4,1,[1;3;2],3)] = true.
Proof. vm_compute. reflexivity. Qed.
