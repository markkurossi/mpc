(* SessionConn.v — the typed message channel of the session model (C02) is
   what p2p.Conn implements (C11): any list of session messages, sent through
   the Conn model and flushed, reaches the receiving side as exactly the same
   typed values under EVERY read fragmentation of the transport, and the bytes
   on the wire are [enc_msgs]. *)
From Coq Require Import ZArith List Lia.
From Mpc Require Import Proto.Session Proto.Conn Proto.ConnProof.
Import ListNotations.
Open Scope N_scope.

Definition op_of_msg (m : msg) : op :=
  match m with
  | MData bs => OData bs
  | MU32 n => OU32 (Z.of_N n)
  | MLabel l => OLabel l
  end.

Definition val_of_msg (m : msg) : val :=
  match m with
  | MData bs => VData bs
  | MU32 n => VU32 n
  | MLabel l => VLabel l
  end.

Definition ty_of_msg (m : msg) : ty :=
  match m with MData _ => TData | MU32 _ => TU32 | MLabel _ => TLabel end.

(* what fits the wire formats: uint32 counts, 128-bit labels, data below 4 GiB *)
Definition msg_ok (m : msg) : Prop :=
  match m with
  | MData bs => nlen bs < 4294967296
  | MU32 n => n < 4294967296
  | MLabel l => l < 2 ^ 128
  end.

Definition session_ops (ms : list msg) : list op := map op_of_msg ms ++ [OFlush].

Lemma value_of_msg m : msg_ok m -> value_of (op_of_msg m) = Some (val_of_msg m).
Proof.
  destruct m as [bs|n|l]; cbn [op_of_msg value_of val_of_msg msg_ok]; intros Hm; do 2 f_equal.
  - unfold u32_of_Z. rewrite Z.mod_small by lia. apply N2Z.id.
  - apply N.mod_small. exact Hm.
Qed.

Lemma values_of_session ms : Forall msg_ok ms -> values_of (session_ops ms) = map val_of_msg ms.
Proof.
  unfold session_ops. induction 1 as [|m ms Hm _ IH]; cbn [map app values_of]; [reflexivity|].
  rewrite (value_of_msg m Hm), IH. reflexivity.
Qed.

Lemma types_of_session ms : Forall msg_ok ms -> types_of (session_ops ms) = map ty_of_msg ms.
Proof.
  intros H. unfold types_of. rewrite values_of_session by exact H. rewrite map_map.
  apply map_ext. intros [bs|n|l]; reflexivity.
Qed.

Lemma close_only_last_session ms : close_only_last (session_ops ms).
Proof.
  unfold session_ops. induction ms as [|m ms IH]; cbn [map app close_only_last]; [exact I|].
  destruct m; exact IH.
Qed.

Lemma ends_flushed_session ms : ends_flushed (session_ops ms).
Proof. exists (map op_of_msg ms). left. reflexivity. Qed.

Lemma in_domain_session ms : Forall msg_ok ms -> Forall op_in_domain (session_ops ms).
Proof.
  intros H. apply Forall_app. split; [|repeat constructor].
  apply Forall_map. revert H. apply Forall_impl. intros [bs|n|l] Hm; [exact Hm|exact I|exact I].
Qed.

(* session messages use none of the in-place reads of Conn (TRaw): always in the receive domain *)
Lemma ty_fits_session rcap ms : Forall msg_ok ms -> Forall (ty_fits rcap) (types_of (session_ops ms)).
Proof.
  intros H. rewrite types_of_session by exact H. apply Forall_map, Forall_forall.
  intros [bs|n|l] _; exact I.
Qed.

Lemma encode_val_of_msg m : encode (val_of_msg m) = enc_msg m.
Proof. destruct m; reflexivity. Qed.

(* C02 over C11 *)
Theorem session_msgs_over_conn (nbuf wcap rcap : N) (ms : list msg) (frags : list N) (eofdata : bool) :
  16 <= wcap -> 16 <= rcap -> Forall msg_ok ms ->
  let s := run_sender nbuf wcap (session_ops ms) in
  wire_bytes s = enc_msgs ms /\
  snd (recv_all rcap (map ty_of_msg ms) (r_init (mkT (wire_bytes s) frags eofdata 0)))
  = Some (map val_of_msg ms).
Proof.
  intros Hw Hr Hok s. split.
  - unfold s. rewrite (wire_is_concat nbuf wcap ltac:(lia) (session_ops ms)
                         (close_only_last_session ms) (ends_flushed_session ms)).
    rewrite values_of_session by exact Hok. unfold enc_msgs. rewrite map_map.
    f_equal. apply map_ext. intros m. apply encode_val_of_msg.
  - pose proof (roundtrip nbuf wcap rcap (session_ops ms) frags eofdata Hw Hr
                  (close_only_last_session ms) (ends_flushed_session ms)
                  (in_domain_session ms Hok) (ty_fits_session rcap ms Hok)) as RT.
    cbv zeta in RT. destruct RT as (RT & _).
    rewrite types_of_session, values_of_session in RT by exact Hok. exact RT.
Qed.
