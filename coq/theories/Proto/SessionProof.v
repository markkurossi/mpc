(* SessionProof.v — the honest two-party session computes f(x,y) at both
   parties (C02), and the garbler's decoding step is sound under arbitrary
   corruption (C16). *)
From Coq Require Import NArith List Bool Arith Lia.
From Mpc Require Import Base.ListFacts.
From Mpc Require Import Base.Label Base.Codec Base.CodecProof Circuit.Circuit Circuit.Garble
     Circuit.GarbleProof Proto.Session.
Import ListNotations.
Open Scope N_scope.

Lemma wf2_inv c :
  wf2 c = true ->
  wf (cc c) = true /\ (n0 c + n1 c)%nat = ninputs (cc c) /\
  fold_right Nat.add 0%nat (outs c) = noutputs (cc c).
Proof. unfold wf2. rewrite !andb_true_iff, !Nat.eqb_eq. tauto. Qed.

Lemma ot_wires_length pi rnd scratch c :
  wf2 c = true -> length (ot_wires c (garble pi rnd scratch (cc c))) = n1 c.
Proof.
  intros Hwf. destruct (wf2_inv c Hwf) as (Hwf1 & Hn & _).
  apply wf_spec in Hwf1 as (Hle & _).
  unfold ot_wires. rewrite firstn_length, skipn_length, (proj1 (garble_lengths _ _ _ _ Hle)). lia.
Qed.

Lemma map_pick_combine (ws : list wire) (x : list bool) :
  length ws = length x ->
  map (fun p => pick (fst p) (snd p)) (combine ws x)
  = map (fun i => pick (nth i ws w0) (nth i x false)) (seq 0 (length x)).
Proof.
  intros HL. rewrite (map_nth_seq _ (w0, false)), combine_length, HL, Nat.min_id.
  apply map_ext. intros i. rewrite combine_nth by exact HL. reflexivity.
Qed.

Lemma take_labels_app ls rest n :
  length ls = n -> take_labels n (map MLabel ls ++ rest) = Some (ls, rest).
Proof. intros <-. induction ls as [|l ls IH]; cbn; [reflexivity|]. rewrite IH. reflexivity. Qed.

Lemma recv_tables_app tbl rest :
  recv_tables (length tbl) (table_msgs tbl ++ rest) = Some (tbl, rest).
Proof.
  induction tbl as [|row tbl IH]; cbn [recv_tables length table_msgs map concat app].
  - reflexivity.
  - rewrite Nat2N.id. rewrite <- app_assoc.
    change (concat (map (fun row0 => MU32 (N.of_nat (length row0)) :: map MLabel row0) tbl))
      with (table_msgs tbl).
    rewrite take_labels_app, IH by reflexivity. reflexivity.
Qed.

Lemma evaluator_first_roundtrip c key g x rest :
  length (gTables g) = length (gates (cc c)) ->
  evaluator_first c (garbler_first key g (n0 c) x ++ rest)
  = Some (mkFF key (gTables g) (garbler_inputs g (n0 c) x), rest).
Proof.
  intros Hl. unfold evaluator_first, garbler_first. cbn [app].
  rewrite Hl, N.eqb_refl. rewrite <- app_assoc, <- Hl, recv_tables_app.
  rewrite take_labels_app by (unfold garbler_inputs; rewrite map_length; apply seq_length).
  reflexivity.
Qed.

Lemma evaluator_first_roundtrip0 c key g x :
  length (gTables g) = length (gates (cc c)) ->
  evaluator_first c (garbler_first key g (n0 c) x)
  = Some (mkFF key (gTables g) (garbler_inputs g (n0 c) x), []).
Proof.
  intros Hl. pose proof (evaluator_first_roundtrip c key g x [] Hl) as H.
  rewrite app_nil_r in H. exact H.
Qed.

Lemma decode_all_map {A} (w : A -> wire) (l : A -> N) (os : list A) bs :
  map (fun o => decode (w o) (l o)) os = map Some bs ->
  decode_all (map w os) (map l os) = Some bs.
Proof.
  revert bs. induction os as [|o os IH]; intros [|b bs] H; cbn in *; try discriminate.
  - reflexivity.
  - injection H as H1 H2. rewrite H1, (IH bs H2). reflexivity.
Qed.

Lemma decode_sound w l b : decode w l = Some b -> l = pick w b.
Proof.
  unfold decode. destruct (N.eqb_spec l (L0 w)) as [->|_]; [intros [= <-]; reflexivity|].
  destruct (N.eqb_spec l (L1 w)) as [->|_]; [intros [= <-]; reflexivity|discriminate].
Qed.

(* C16: whatever labels come back, a successful decode means every returned
   label is one of the two labels of its output wire, namely the one for the
   reported bit *)
Lemma decode_all_sound : forall ws ls bs,
  decode_all ws ls = Some bs ->
  length bs = length ws /\
  forall i, (i < length ws)%nat -> nth i ls 0 = pick (nth i ws w0) (nth i bs false).
Proof.
  induction ws as [|w ws IH]; intros ls bs H; cbn in H.
  - injection H as <-. split; [reflexivity|]. cbn. intros; lia.
  - destruct ls as [|l ls]; [discriminate|].
    destruct (decode w l) as [b|] eqn:D; [|discriminate].
    destruct (decode_all ws ls) as [bs'|] eqn:DA; [|discriminate].
    injection H as <-. destruct (IH _ _ DA) as [HL HI].
    split; [cbn; congruence|].
    intros [|i] Hi; cbn.
    + apply decode_sound. exact D.
    + apply HI. cbn in Hi. lia.
Qed.

(* the evaluator's wire vector is the C01 encoding of (x ++ y) *)
Lemma encode_split pi rnd scratch c x y :
  wf2 c = true -> length x = n0 c -> length y = n1 c ->
  let g := garble pi rnd scratch (cc c) in
  garbler_inputs g (n0 c) x
  ++ map (fun p => pick (fst p) (snd p)) (combine (ot_wires c g) (firstn (n1 c) y))
  ++ repeat 0 (nwires (cc c) - n0 c - n1 c)
  = encode g (cc c) (x ++ y).
Proof.
  intros Hwf Hx Hy g. destruct (wf2_inv c Hwf) as (_ & Hn & _).
  unfold encode, garbler_inputs. rewrite <- Hn, seq_app, map_app, <- app_assoc. cbn [Nat.add].
  f_equal; [|f_equal].
  - apply map_ext_in. intros i Hi. apply in_seq in Hi. rewrite app_nth1 by lia. reflexivity.
  - rewrite firstn_all2 by lia.
    rewrite map_pick_combine by (unfold g; rewrite ot_wires_length by exact Hwf; symmetry; exact Hy).
    rewrite Hy, (map_seq_shift _ (n0 c)). apply map_ext_in. intros i Hi. apply in_seq in Hi.
    unfold ot_wires. rewrite nth_firstn_lt, nth_skipn, app_nth2, Hx by lia.
    do 2 f_equal. lia.
  - f_equal. lia.
Qed.

Section Thm.
  Variable pi_of_key : list N -> N -> N.

  (* C02: both parties obtain f(x, y), split per declared output *)
  Theorem session_correct (rnd : nat -> N) (key : list N) (scratch : list wire)
          (c : circ2) (x y : list bool) :
    wf2 c = true -> length x = n0 c -> length y = n1 c ->
    let r := split_bits (outs c) (bits_to_N (eval_plain (cc c) (x ++ y))) in
    exists g2e e2g,
      run_session pi_of_key ideal_ot rnd key scratch c x y = Ok r r g2e e2g /\
      r = map bits_to_N (chunks (outs c) (eval_plain (cc c) (x ++ y))).
  Proof.
    intros Hwf2 Hx Hy r. destruct (wf2_inv c Hwf2) as (Hwf & Hn & Ho).
    set (pi := pi_of_key key).
    destruct (garble_lengths pi rnd scratch (cc c) (proj1 (proj1 (wf_spec _) Hwf))) as [_ LT].
    unfold run_session. cbv zeta. fold pi.
    set (g := garble pi rnd scratch (cc c)) in *.
    rewrite evaluator_first_roundtrip0 by exact LT.
    cbn [evaluator_query]. unfold garbler_range_ok. rewrite !N.eqb_refl. cbn [andb].
    unfold ideal_ot. unfold evaluator_eval. cbn [ffLabels ffTables ffKey]. fold pi.
    pose proof (encode_split pi rnd scratch c x y Hwf2 Hx Hy) as ES. cbv zeta in ES. fold g in ES.
    rewrite ES.
    assert (Hxy : length (x ++ y) = ninputs (cc c)) by (rewrite app_length; lia).
    destruct (garble_decoded_outputs pi rnd scratch (cc c) (x ++ y) Hwf Hxy) as (ew & GE & DEC).
    fold g in GE, DEC. unfold geval in GE. unfold geval. rewrite GE.
    unfold garbler_finish, out_wires.
    rewrite (decode_all_map (fun o => nth o (gWires g) w0) (fun o => nth o ew 0)
               (output_wires (cc c)) (eval_plain (cc c) (x ++ y)) DEC).
    unfold evaluator_result, result_msg. rewrite big_bytes_roundtrip.
    unfold garbler_result. fold r.
    eexists. eexists. split; [reflexivity|].
    unfold r. apply split_bits_spec.
    unfold eval_plain. rewrite map_length. unfold output_wires. rewrite seq_length. lia.
  Qed.

  (* C16: the garbler's result, if it returns one, is determined by which of the
     two labels came back; hence, against any reference outputs [v] (for C16 the
     plain evaluation on the parties' inputs), a wrong accepted bit means the
     other party produced the label of the reference bit xor R *)
  Theorem garbler_wrong_implies_forgery (rnd : nat -> N) (key : list N) (scratch : list wire)
          (c : circ2) (v : list bool) (returned : list N) (bits : list bool) :
    wf2 c = true ->
    let g := garble (pi_of_key key) rnd scratch (cc c) in
    garbler_finish c g returned = Some bits ->
    length bits = noutputs (cc c) /\
    forall i, (i < noutputs (cc c))%nat ->
      let honest := pick (nth i (out_wires c g) w0) (nth i v false) in
      (nth i bits false = nth i v false /\ nth i returned 0 = honest) \/
      (nth i bits false <> nth i v false /\ nth i returned 0 = lxor honest (gR g)).
  Proof.
    intros Hwf2 g Hfin.
    unfold garbler_finish in Hfin.
    destruct (decode_all_sound _ _ _ Hfin) as [HL HI].
    assert (LO : length (out_wires c g) = noutputs (cc c))
      by (unfold out_wires, output_wires; rewrite map_length, seq_length; reflexivity).
    rewrite LO in *. split; [exact HL|].
    intros i Hi honest. specialize (HI i Hi).
    destruct (wf2_inv c Hwf2) as (Hwf & _ & _).
    assert (Hw : nth i (out_wires c g) w0
                 = nth (nwires (cc c) - noutputs (cc c) + i) (gWires g) w0).
    { unfold out_wires, output_wires. rewrite map_seq_shift.
      apply (nth_map_seq (fun r => nth (nwires (cc c) - noutputs (cc c) + r) (gWires g) w0)). exact Hi. }
    (* the output wire satisfies L1 = L0 xor R *)
    pose proof (garble_output_wires_ok (pi_of_key key) rnd scratch (cc c) Hwf
                  (nwires (cc c) - noutputs (cc c) + i)%nat ltac:(apply in_seq; lia)) as WOK.
    fold g in WOK.
    unfold honest. rewrite Hw in *. rewrite HI.
    destruct (nth i bits false), (nth i v false); cbn [pick].
    - left; split; reflexivity.
    - right; split; [discriminate|]. rewrite WOK. reflexivity.
    - right; split; [discriminate|]. rewrite WOK. symmetry. apply lxor_cancel_r.
    - left; split; reflexivity.
  Qed.
End Thm.

Lemma range_check_spec c off cnt :
  garbler_range_ok c off cnt = true <-> off = N.of_nat (n0 c) /\ cnt = N.of_nat (n1 c).
Proof.
  unfold garbler_range_ok. rewrite andb_true_iff, !N.eqb_eq. tauto.
Qed.

Lemma gate_count_check c key cnt rest :
  cnt <> N.of_nat (length (gates (cc c))) ->
  evaluator_first c (MData key :: MU32 cnt :: rest) = None.
Proof.
  intros H. unfold evaluator_first. destruct (N.eqb_spec cnt (N.of_nat (length (gates (cc c))))); [contradiction|reflexivity].
Qed.
