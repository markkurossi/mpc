(* LiveAbortProof.v — error exits of the C02 liveness model (LiveAbort.v):
   if the checker of Live.v accepts the two skeletons then, whatever point
   either party (or both) returns an error at, provided the caller closes the
   connection as the code does, for every environment, every choice of
   automatic flushes and of write errors towards a closed peer and every fair
   schedule BOTH parties terminate: nobody is left blocked in a Receive.
   Without the close the peer waits forever (refuted variant). *)
From Coq Require Import List Bool Arith Lia.
From Mpc Require Import Proto.Live Proto.LiveProof Proto.LiveAbort.
Import ListNotations.

Definition StOK (s : acfg) : Prop :=
  stG s <> Halted /\ stE s <> Halted /\
  (stG s = Failed -> stE s = Closed) /\ (stE s = Failed -> stG s = Closed).

Definition AInv (s : acfg) : Prop := Inv (base s) /\ StOK s.

Lemma lead_flush_L L F : Lead L F -> Lead (flush_half L) F.
Proof.
  intros (HcF & HbF & fl & tF & Ep & Ns & Rv & S).
  split; [auto|split; [auto|]]. exists fl, tF. simpl. repeat split; auto.
  - now rewrite app_nil_r.
  - apply (sync_mono_ff _ _ _ _ _ _ S); reflexivity.
Qed.

Lemma lead_flush_F L F : Lead L F -> Lead L (flush_half F).
Proof.
  intros (HcF & HbF & fl & tF & Ep & Ns & Rv & S).
  unfold flush_half. split; [simpl; now rewrite HcF, HbF|split; [reflexivity|]].
  exists fl, tF. simpl. repeat split; auto.
Qed.

Lemma decide_fail ab w x y sx sy : decide ab w x y sx sy = MFail -> sx = Run /\ sy = Closed.
Proof.
  unfold decide. destruct sx; try discriminate. destruct (at_abort ab x); try discriminate.
  destruct sy; simpl; try discriminate; auto.
Qed.

Lemma decide_run ab w x y sx sy : decide ab w x y sx sy <> MNone -> sx = Run.
Proof. unfold decide. destruct sx; auto; intros H; now elim H. Qed.

Lemma decide_live_nil ab w x y sx sy : decide ab w x y sx sy = MLive -> hp x = [] -> enabled x y = false.
Proof. intros _ H. unfold enabled. now rewrite H. Qed.

Definition pm (st : status) (h : half) : nat := if is_run st then S (List.length (hp h)) else 0.
Definition am (s : acfg) : nat := pm (stG s) (cG (base s)) + pm (stE s) (cE (base s)).

Lemma pm_run st h : st = Run -> pm st h = S (List.length (hp h)).
Proof. now intros ->. Qed.
Lemma pm_hp st h h' : hp h' = hp h -> pm st h' = pm st h.
Proof. unfold pm. now intros ->. Qed.
Lemma term_hp st h h' : hp h' = hp h -> term st h' = term st h.
Proof. unfold term. now intros ->. Qed.

Definition aenab (ab : option nat) (w : bool) (x y : half) (sx sy : status) : bool :=
  match decide ab w x y sx sy with MNone => false | MLive => enabled x y | _ => true end.

Definition aenG (sp : aspec) (w : bool) (s : acfg) : bool :=
  aenab (abG sp) w (cG (base s)) (cE (base s)) (stG s) (stE s).
Definition aenE (sp : aspec) (w : bool) (s : acfg) : bool :=
  aenab (abE sp) w (cE (base s)) (cG (base s)) (stE s) (stG s).
Definition aen (sp : aspec) (c : choice) (w : bool) (s : acfg) : bool :=
  if is_g c then aenG sp w s else aenE sp w s.

(* whether a write towards a closed peer reports an error decides how the
   party moves, not whether it can *)
Lemma aenab_indep ab w w' x y sx sy : aenab ab w x y sx sy = aenab ab w' x y sx sy.
Proof.
  unfold aenab, decide, enabled. destruct sx; auto. destruct (at_abort ab x); auto.
  destruct (is_closed sy); auto. destruct (hp x) as [|[k|k|] r]; auto; destruct w, w'; auto.
Qed.

Lemma aen_indep sp c w s : aen sp c w s = if is_g c then aenG sp false s else aenE sp false s.
Proof. unfold aen, aenG, aenE. destruct (is_g c); apply aenab_indep. Qed.

Lemma aenab_run ab w x y sx sy : aenab ab w x y sx sy = true -> sx = Run.
Proof.
  unfold aenab. intros H. apply (decide_run ab w x y sx sy). intros D. rewrite D in H. discriminate.
Qed.

Lemma aenab_closed ab w x y : hp x <> [] -> aenab ab w x y Run Closed = true.
Proof.
  intros H. unfold aenab, decide, enabled. destruct (at_abort ab x); auto. simpl.
  destruct (hp x) as [|[k|k|] r]; [now elim H| | |]; try (destruct w; reflexivity).
  destruct (hc y); reflexivity.
Qed.

(* [astep] for either party: [x], with status [sx], moves; [y] is its peer.
   The result: both halves, the mistyped-receive flag, the mover's status. *)
Definition pstep (ab : option nat) (cl werr auto : bool) (x y : half) (sx sy : status)
  : half * half * bool * status :=
  match decide ab werr x y sx sy with
  | MAbort => (if cl then flush_half x else x, y, false, after_abort cl)
  | MFail => (x, y, false, Failed)
  | MLive => (step_half auto x y, sx)
  | MNone => (x, y, false, sx)
  end.

Lemma astep_pstep sp c w s :
  bad (base s) = false ->
  astep sp c w s =
  match c with
  | CG a => let '(g, e, b, st) := pstep (abG sp) (closes sp) w a (cG (base s)) (cE (base s)) (stG s) (stE s) in
            mkA (mkCfg g e b) st (stE s)
  | CE a => let '(e, g, b, st) := pstep (abE sp) (closes sp) w a (cE (base s)) (cG (base s)) (stE s) (stG s) in
            mkA (mkCfg g e b) (stG s) st
  end.
Proof.
  intros B. unfold astep, pstep, step. rewrite B. destruct s as [[g e b] sg se]. simpl in *. subst b.
  destruct c as [a|a];
    (destruct (decide _ _ _ _ _ _); [destruct (closes sp)| |destruct (step_half a _ _) as [[x y] b]|]; reflexivity).
Qed.

Lemma pstep_stutter ab cl w a x y sx sy :
  aenab ab w x y sx sy = false -> pstep ab cl w a x y sx sy = (x, y, false, sx).
Proof.
  unfold aenab, pstep. destruct (decide _ _ _ _ _ _); try discriminate; [|reflexivity].
  intros E. now rewrite not_enabled_stutter.
Qed.

Lemma pstep_peer {ab cl w a x y sx sy x' y' b st} :
  pstep ab cl w a x y sx sy = (x', y', b, st) -> hp y' = hp y.
Proof.
  unfold pstep. pose proof (step_half_peer a x y) as P.
  destruct (decide _ _ _ _ _ _), (step_half a x y) as [[x1 y1] b1]; now intros [= <- <- <- <-].
Qed.

(* the invariant is kept, provided the caller closes *)
Lemma pstep_inv {ab w a x y sx sy x' y' b st} :
  pstep ab true w a x y sx sy = (x', y', b, st) ->
  Lead x y \/ Lead y x ->
  sx <> Halted /\ sy <> Halted /\ (sx = Failed -> sy = Closed) /\ (sy = Failed -> sx = Closed) ->
  b = false /\ (Lead x' y' \/ Lead y' x') /\
  st <> Halted /\ sy <> Halted /\ (st = Failed -> sy = Closed) /\ (sy = Failed -> st = Closed).
Proof.
  intros Ep Ld (S1 & S2 & S3 & S4). unfold pstep in Ep. destruct (decide _ _ _ _ _ _) eqn:D.
  - injection Ep as <- <- <- <-. split; [reflexivity|]. split.
    + destruct Ld as [L|L]; [left; now apply lead_flush_L|right; now apply lead_flush_F].
    + simpl. repeat split; auto; discriminate.
  - injection Ep as <- <- <- <-. apply decide_fail in D. destruct D as [_ ->]. repeat split; auto; discriminate.
  - pose proof (lead_step a x y Ld) as K. destruct (step_half a x y) as [[x1 y1] b1].
    injection Ep as <- <- <- <-. destruct K. now repeat split.
  - injection Ep as <- <- <- <-. now repeat split.
Qed.

Lemma pstep_decr {ab cl w a x y sx sy x' y' st} :
  pstep ab cl w a x y sx sy = (x', y', false, st) -> aenab ab w x y sx sy = true -> pm st x' < pm sx x.
Proof.
  intros Ep E. pose proof (aenab_run _ _ _ _ _ _ E). subst sx. unfold aenab, pstep in *.
  destruct (decide _ _ _ _ _ _); [destruct cl| | |discriminate];
    try (injection Ep as <- <- <-; unfold pm; simpl; lia).
  destruct (step_half a x y) as [[x1 y1] b1] eqn:Es. injection Ep as <- <- -> <-.
  pose proof (enabled_decr _ _ _ _ _ E Es). unfold pm. simpl. lia.
Qed.

Lemma pstep_term {ab cl w a x y sx sy x' y' b st} :
  pstep ab cl w a x y sx sy = (x', y', b, st) -> term sx x = true -> term st x' = true.
Proof.
  unfold pstep. intros Ep T. destruct (decide _ _ _ _ _ _) eqn:D.
  - injection Ep as <- <- <- <-. now destruct cl.
  - now injection Ep as <- <- <- <-.
  - assert (sx = Run) by (apply (decide_run ab w x y sx sy); rewrite D; discriminate). subst sx.
    unfold step_half, term in *. simpl in *. destruct (hp x) eqn:Eh; [|discriminate].
    injection Ep as <- <- <- <-. now rewrite Eh.
  - now injection Ep as <- <- <- <-.
Qed.

Lemma ainv_step sp c w s : closes sp = true -> AInv s -> AInv (astep sp c w s).
Proof.
  intros Hc [[B Ld] (S1 & S2 & S3 & S4)]. rewrite astep_pstep, Hc by exact B.
  destruct c as [a|a]; destruct (pstep _ _ _ _ _ _ _ _) as [[[x y] b] st] eqn:Ep.
  - destruct (pstep_inv Ep Ld) as (-> & L & K); [now repeat split|]. now repeat split.
  - apply or_comm in Ld. destruct (pstep_inv Ep Ld) as (-> & L & K1 & K2 & K3 & K4); [now repeat split|].
    apply or_comm in L. now repeat split.
Qed.

Lemma ainv_run sp sched : closes sp = true -> forall s, AInv s -> AInv (arun sp sched s).
Proof.
  intros Hc. unfold arun. induction sched as [|[c w] r IH]; simpl; intros s I; auto.
  apply IH. now apply ainv_step.
Qed.

Lemma astutter sp c w s : bad (base s) = false -> aen sp c w s = false -> astep sp c w s = s.
Proof.
  intros B E. rewrite astep_pstep by exact B; destruct c as [a|a];
    rewrite pstep_stutter by exact E; destruct s as [[g e b] sg se]; simpl in *; now subst b.
Qed.

Lemma aeffective sp c w s :
  closes sp = true -> AInv s -> aen sp c w s = true -> am (astep sp c w s) < am s.
Proof.
  intros Hc AI E. pose proof (ainv_step sp c w s Hc AI) as [[B' _] _]. destruct AI as [[B _] _].
  unfold am. rewrite astep_pstep in * by exact B; destruct c as [a|a];
    destruct (pstep _ _ _ _ _ _ _ _) as [[[x y] b] st] eqn:Ep; simpl in *;
    subst b; rewrite (pm_hp _ _ _ (pstep_peer Ep)); pose proof (pstep_decr Ep E); lia.
Qed.

Lemma term_run_nil h : term Run h = false -> hp h <> [].
Proof. unfold term. simpl. destruct (hp h); discriminate. Qed.

Lemma aprogress sp s : AInv s -> afin s = false -> aenG sp false s = true \/ aenE sp false s = true.
Proof.
  intros [I (S1 & S2 & S3 & S4)] D. pose proof I as [B _].
  unfold afin in D. rewrite B in D. simpl in D.
  unfold aenG, aenE.
  destruct (stG s) eqn:EG; try (now elim S1); destruct (stE s) eqn:EE; try (now elim S2);
    try (specialize (S3 eq_refl); discriminate); try (specialize (S4 eq_refl); discriminate);
    try (simpl in D; discriminate).
  - (* both running *)
    unfold aenab, decide.
    destruct (at_abort (abG sp) (cG (base s))); auto.
    destruct (at_abort (abE sp) (cE (base s))); auto. simpl.
    apply inv_progress; auto. unfold cfg_done, half_done. rewrite B. simpl.
    unfold term in D. simpl in D.
    destruct (hp (cG (base s))); [|reflexivity]. destruct (hp (cE (base s))); [discriminate|].
    destruct (hb (cG (base s))), (hc (cG (base s))); reflexivity.
  - (* the evaluator has closed *)
    left. apply aenab_closed. apply term_run_nil.
    unfold term in D at 2. simpl in D. now rewrite andb_true_r in D.
  - (* the garbler has closed *)
    right. apply aenab_closed. apply term_run_nil.
    unfold term in D at 1. simpl in D. exact D.
Qed.

Lemma afin_step sp c w s : closes sp = true -> AInv s -> afin s = true -> afin (astep sp c w s) = true.
Proof.
  intros Hc AI D. pose proof (ainv_step sp c w s Hc AI) as [[B' _] _]. destruct AI as [[B _] _].
  unfold afin in *. rewrite B in D. rewrite B'. simpl in *. apply andb_prop in D. destruct D as [DG DE].
  rewrite astep_pstep by exact B; destruct c as [a|a];
    destruct (pstep _ _ _ _ _ _ _ _) as [[[x y] b] st] eqn:Ep; simpl;
    rewrite (term_hp _ _ _ (pstep_peer Ep)), (pstep_term Ep) by assumption; now rewrite ?DG, ?DE.
Qed.

Lemma afair_run sp sched s :
  closes sp = true -> AInv s -> am s <= count_rounds false false (map fst sched) ->
  afin (arun sp sched s) = true.
Proof.
  intros Hc Is M.
  apply (fair_run acfg (choice * bool) fst (fun cw => astep sp (fst cw) (snd cw))
                  (aenG sp false) (aenE sp false) afin am AInv) with (sg := false) (se := false);
    try discriminate; auto.
  - intros [c w] s0. now apply ainv_step.
  - intros [c w] s0 [[B _] _] E. apply astutter; [exact B|]. now rewrite aen_indep.
  - intros [c w] s0 I0 E. apply aeffective; auto. now rewrite aen_indep.
  - apply aprogress.
  - intros s0 I0 D. unfold am.
    destruct (aprogress sp s0 I0 D) as [E|E]; apply aenab_run in E; rewrite (pm_run _ _ E); lia.
  - intros [c w] s0. now apply afin_step.
Qed.

Definition ended (mine peer : status) (h : half) : Prop :=
  (mine = Run /\ hp h = []) \/ mine = Closed \/ (mine = Failed /\ peer = Closed).

Lemma term_ended mine peer h :
  mine <> Halted -> (mine = Failed -> peer = Closed) -> term mine h = true -> ended mine peer h.
Proof.
  unfold ended, term. destruct mine; simpl; intros N F T; auto.
  - left. split; auto. destruct (hp h); [reflexivity|discriminate].
  - now elim N.
Qed.

Lemma ainv_init tg te : Sync false false tg te false false -> AInv (ainit tg te).
Proof.
  intros S. split.
  - split; [reflexivity|]. left. simpl. repeat split; auto. exists [], te. repeat split; auto.
  - repeat split; simpl; discriminate.
Qed.

Theorem abort_live :
  forall g e, well_flushed g e = true ->
  forall (en : env) (ag ae : option nat) (sched : asched), afair g e en sched ->
    let s := arun_live g e en (mkSpec ag ae true) sched in
    bad (base s) = false /\
    ended (stG s) (stE s) (cG (base s)) /\ ended (stE s) (stG s) (cE (base s)).
Proof.
  intros g e W en ag ae sched F.
  pose proof (ainv_init _ _ (well_flushed_sync g e W en)) as I0.
  set (sp := mkSpec ag ae true).
  assert (Fin : afin (arun_live g e en sp sched) = true).
  { unfold arun_live. apply (afair_run sp sched _ eq_refl I0).
    unfold afair, round_bound in F. unfold am, ainit, pm. simpl. lia. }
  pose proof (ainv_run sp sched eq_refl _ I0) as [[B _] (S1 & S2 & S3 & S4)].
  fold (arun_live g e en sp sched) in B, S1, S2, S3, S4.
  simpl. fold sp. set (s := arun_live g e en sp sched) in *.
  unfold afin in Fin. rewrite B in Fin. simpl in Fin. apply andb_prop in Fin. destruct Fin as [TG TE].
  split; [exact B|]. split; now apply term_ended.
Qed.

(* once the peer has closed, every scheduling of a party that has not returned
   yet makes it advance: a Send or Flush is executed (or fails), a Receive
   delivers a message still in flight or fails with EOF — nothing blocks *)
Theorem closed_peer_never_blocks :
  forall sp s a w, closes sp = true -> AInv s ->
    (stE s = Closed -> stG s = Run -> hp (cG (base s)) <> [] -> am (astep sp (CG a) w s) < am s) /\
    (stG s = Closed -> stE s = Run -> hp (cE (base s)) <> [] -> am (astep sp (CE a) w s) < am s).
Proof.
  intros sp s a w Hc I. split; intros H1 H2 H3; apply aeffective; auto;
    unfold aen, aenG, aenE; simpl; rewrite H1, H2; now apply aenab_closed.
Qed.

Theorem reachable_ainv :
  forall g e, well_flushed g e = true ->
  forall en ag ae sched, AInv (arun_live g e en (mkSpec ag ae true) sched).
Proof.
  intros g e W en ag ae sched. apply ainv_run; [reflexivity|]. now apply ainv_init, well_flushed_sync.
Qed.

Definition alt' (n : nat) : asched := map (fun c => (c, false)) (alt n).

Lemma alt'_rounds n : count_rounds false false (map fst (alt' n)) = n.
Proof. unfold alt'. rewrite map_map. simpl. rewrite map_id. apply alt_rounds. Qed.

Lemma alt'_app a b : alt' (a + b) = alt' a ++ alt' b.
Proof. unfold alt'. now rewrite alt_app, map_app. Qed.

Definition mini_te : list act := flat mini_env [] (mini_evaluator true).
Definition mini_tg : list act := flat mini_env [] mini_garbler.

(* the evaluator returns an error at its very first Receive *)
Definition mini_spec (closes : bool) : aspec := mkSpec None (Some (List.length mini_te)) closes.

Definition abort_stuck : acfg :=
  mkA (mkCfg (mkHalf [ARecv "Uint32"%nm; ARecv "Uint32"%nm; ASend "Label"%nm; AFlush] []
                     ["Data"%nm; "Label"%nm; "Label"%nm; "Data"%nm])
             (mkHalf mini_te [] []) false) Run Halted.

Lemma arun_app sp a b s : arun sp (a ++ b) s = arun sp b (arun sp a s).
Proof. apply fold_left_app. Qed.

Lemma abort_stuck_forever n :
  arun (mini_spec false) (alt' (6 + n)) (ainit mini_tg mini_te) = abort_stuck.
Proof.
  rewrite alt'_app, arun_app.
  replace (arun (mini_spec false) (alt' 6) _) with abort_stuck by (vm_compute; reflexivity).
  induction n as [|n IH]; simpl; auto.
Qed.

Lemma astep_dead sp c w s : stE s = Closed -> stG s = Failed -> astep sp c w s = s.
Proof.
  intros H1 H2. unfold astep. destruct (bad (base s)); auto.
  destruct c; unfold decide; rewrite ?H1, ?H2; reflexivity.
Qed.

Theorem no_close_refuted :
  exists (g e : prog) (en : env) (ae : option nat),
    well_flushed g e = true /\
    (* with the close (the code): terminated after 6 rounds of the alternating schedule *)
    (forall n, 6 <= n ->
       let s := arun_live g e en (mkSpec None ae true) (alt' n) in
       stE s = Closed /\ stG s = Failed) /\
    (* without: for every n the alternating schedule of n complete rounds leaves the
       garbler blocked in its Receive, and from round 6 on nothing changes any more *)
    forall n, count_rounds false false (map fst (alt' n)) = n /\
              afin (arun_live g e en (mkSpec None ae false) (alt' n)) = false /\
              (6 <= n -> arun_live g e en (mkSpec None ae false) (alt' n) = abort_stuck).
Proof.
  exists mini_garbler, (mini_evaluator true), mini_env, (Some (List.length mini_te)).
  split; [vm_compute; reflexivity|]. split.
  - intros n H. replace n with (6 + (n - 6)) by lia. generalize (n - 6). clear n H. intros n.
    unfold arun_live. rewrite alt'_app, arun_app.
    set (s6 := arun _ (alt' 6) _).
    assert (E6 : stE s6 = Closed /\ stG s6 = Failed) by (vm_compute; auto).
    clearbody s6. revert s6 E6. unfold arun. induction n as [|n IH]; intros s6 E6; [exact E6|].
    destruct E6 as [E1 E2].
    change (alt' (S n)) with ((CG false, false) :: (CE false, false) :: alt' n).
    cbn [fold_left fst snd]. rewrite (astep_dead _ (CG false) false s6) by auto.
    rewrite (astep_dead _ (CE false) false s6) by auto. apply IH. auto.
  - intros n. split; [apply alt'_rounds|].
    assert (K : 6 <= n -> arun_live mini_garbler (mini_evaluator true) mini_env
                            (mkSpec None (Some (List.length mini_te)) false) (alt' n) = abort_stuck).
    { intros H. replace n with (6 + (n - 6)) by lia. apply abort_stuck_forever. }
    split; [|exact K].
    destruct (le_lt_dec 6 n) as [H|H]; [rewrite (K H); reflexivity|].
    do 6 (destruct n as [|n]; [vm_compute; reflexivity|]). lia.
Qed.

(* non-vacuity: fair schedules in the sense of [afair] exist for the miniature session *)
Example afair_nonvacuous :
  afair mini_garbler (mini_evaluator true) mini_env (alt' (round_bound mini_garbler (mini_evaluator true) mini_env + 2)).
Proof. unfold afair. rewrite alt'_rounds. lia. Qed.

(* the sessions generated from the source, every OT kind *)
From Mpc Require Import Proto.LiveInst Proto.LiveInstProof.

Lemma abort_live_sessions :
  forall (k : otkind) (en : env) (ag ae : option nat) (sched : asched),
    afair (garbler_skel k) (evaluator_skel k) en sched ->
    let s := arun_live (garbler_skel k) (evaluator_skel k) en (mkSpec ag ae true) sched in
    bad (base s) = false /\
    ended (stG s) (stE s) (cG (base s)) /\ ended (stE s) (stG s) (cE (base s)).
Proof.
  intros k. apply abort_live, live_all.
Qed.
