(* SessionRxProof.v — C16 at the byte level: for EVERY byte string arriving at
   the garbler under EVERY fragmentation, the result loop either fails or
   returns bits each of which is backed by the honest label or by the honest
   label xor R sitting at its 16-byte position of the stream. *)
From Coq Require Import NArith List Lia.
From Mpc Require Import Base.Label Base.Codec Circuit.Circuit Circuit.Garble
     Proto.Session Proto.SessionProof Proto.Conn Proto.ConnProof Proto.SessionRx Base.ListFacts.
Import ListNotations.
Open Scope N_scope.

Lemma garbler_rx_result_init rcap c g bs fr eof :
  16 <= rcap ->
  snd (garbler_rx_result rcap c g (r_init (mkT bs fr eof 0)))
  = match parse_all (repeat TLabel (noutputs (cc c))) bs with
    | Some (vs, _) => garbler_finish c g (map label_of_val vs)
    | None => None
    end.
Proof.
  intros Hcap. unfold garbler_rx_result.
  pose proof (recv_all_init_values rcap Hcap (repeat TLabel (noutputs (cc c))) (mkT bs fr eof 0)
                (Forall_repeat (ty_fits rcap) TLabel _ I)) as E. cbn [t_stream] in E.
  destruct (recv_all rcap _ _) as [r' ovs]. cbn [snd] in E. subst ovs.
  destruct (parse_all _ bs) as [[vs rest]|]; reflexivity.
Qed.

Lemma parse_num_inv k s v rest :
  parse_num k s = Some (v, rest) ->
  (N.to_nat k <= length s)%nat /\ v = of_be (firstn (N.to_nat k) s) /\ rest = skipn (N.to_nat k) s.
Proof.
  unfold parse_num, parse_fixed, ntake, ndrop, nlen.
  destruct (N.leb_spec k (N.of_nat (length s))) as [Hk|_]; [|discriminate].
  intros H. injection H as <- <-. repeat split. lia.
Qed.

Lemma parse_labels_blocks : forall n s vs rest,
  parse_all (repeat TLabel n) s = Some (vs, rest) ->
  (16 * n <= length s)%nat /\
  forall i, (i < n)%nat -> nth i (map label_of_val vs) 0 = block16 i s.
Proof.
  induction n as [|n IH]; intros s vs rest H; cbn [repeat parse_all parse_ty] in H.
  - split; [lia|]. intros i Hi. lia.
  - destruct (parse_num 16 s) as [[l s1]|] eqn:PN; cbn [omap] in H; [|discriminate].
    destruct (parse_all (repeat TLabel n) s1) as [[vs' rest']|] eqn:PA; [|discriminate].
    injection H as <- _.
    apply parse_num_inv in PN. change (N.to_nat 16) with 16%nat in PN. destruct PN as (Hs & -> & ->).
    destruct (IH _ _ _ PA) as (HS & HB). rewrite skipn_length in HS.
    split; [lia|].
    intros [|i] Hi; cbn [map nth label_of_val]; [reflexivity|].
    rewrite HB by lia. unfold block16. rewrite skipn_skipn. do 3 f_equal. lia.
Qed.

Section Rx.
  Variable pi_of_key : list N -> N -> N.

  (* every byte string, every fragmentation, with or without EOF-with-data;
     [v] is any reference output vector, as in [garbler_wrong_implies_forgery] *)
  Theorem garbler_rx_result_sound (rcap : N) (rnd : nat -> N) (key : list N) (scratch : list wire)
          (c : circ2) (v : list bool) (bytes frags : list N) (eofdata : bool) (bits : list bool) :
    16 <= rcap -> wf2 c = true ->
    let g := garble (pi_of_key key) rnd scratch (cc c) in
    snd (garbler_rx_result rcap c g (r_init (mkT bytes frags eofdata 0))) = Some bits ->
    (16 * noutputs (cc c) <= length bytes)%nat /\ length bits = noutputs (cc c) /\
    forall i, (i < noutputs (cc c))%nat ->
      let honest := pick (nth i (out_wires c g) w0) (nth i v false) in
      (nth i bits false = nth i v false /\ block16 i bytes = honest) \/
      (nth i bits false <> nth i v false /\ block16 i bytes = lxor honest (gR g)).
  Proof.
    intros Hcap Hwf g H. rewrite garbler_rx_result_init in H by exact Hcap.
    destruct (parse_all (repeat TLabel (noutputs (cc c))) bytes) as [[vs rest]|] eqn:PA; [|discriminate].
    destruct (parse_labels_blocks _ _ _ _ PA) as (HS & HB).
    destruct (garbler_wrong_implies_forgery pi_of_key rnd key scratch c v
                (map label_of_val vs) bits Hwf H) as (Hlen & Hd).
    split; [exact HS|]. split; [exact Hlen|].
    intros i Hi. specialize (Hd i Hi). cbv zeta in Hd. rewrite HB in Hd by exact Hi. exact Hd.
  Qed.
End Rx.

Theorem garbler_rx_short_is_error (rcap : N) (c : circ2) (g : garbled) (bytes frags : list N) (eofdata : bool) :
  16 <= rcap -> (length bytes < 16 * noutputs (cc c))%nat ->
  snd (garbler_rx_result rcap c g (r_init (mkT bytes frags eofdata 0))) = None.
Proof.
  intros Hcap Hshort. rewrite garbler_rx_result_init by exact Hcap.
  destruct (parse_all (repeat TLabel (noutputs (cc c))) bytes) as [[vs rest]|] eqn:PA; [|reflexivity].
  destruct (parse_labels_blocks _ _ _ _ PA) as (HS & _). lia.
Qed.

(* the OT query: whatever 8 bytes arrive, the garbler goes on only for exactly
   (n0, n1) *)
Theorem garbler_rx_query_sound (rcap : N) (c : circ2) (bytes frags : list N) (eofdata : bool) :
  16 <= rcap ->
  snd (garbler_rx_query rcap c (r_init (mkT bytes frags eofdata 0))) = Some true ->
  (8 <= length bytes)%nat /\
  of_be (firstn 4 bytes) = N.of_nat (n0 c) /\ of_be (firstn 4 (skipn 4 bytes)) = N.of_nat (n1 c).
Proof.
  intros Hcap H. unfold garbler_rx_query in H.
  pose proof (recv_all_init_values rcap Hcap [TU32; TU32] (mkT bytes frags eofdata 0) ltac:(repeat constructor)) as E.
  cbn [t_stream] in E.
  destruct (recv_all rcap _ _) as [r' ovs]. cbn [snd] in E. subst ovs.
  cbn [parse_all parse_ty] in H.
  destruct (parse_num 4 bytes) as [[off s1]|] eqn:P1; cbn [omap] in H; [|discriminate].
  destruct (parse_num 4 s1) as [[cnt s2]|] eqn:P2; cbn [omap option_map fst snd] in H; [|discriminate].
  injection H as H. apply range_check_spec in H. destruct H as [<- <-].
  apply parse_num_inv in P1, P2. change (N.to_nat 4) with 4%nat in P1, P2.
  destruct P1 as (L1 & -> & ->), P2 as (L2 & -> & _). rewrite skipn_length in L2.
  repeat split. lia.
Qed.
