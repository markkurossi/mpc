(* StreamCircProof.v — list-level facts the whole-run simulation needs for
   native-circuit steps (streamer.go, case Circ: circ_in_ids / circ_out_ids /
   bind_rets) and for operands no gate of a step circuit reads (the offset
   operand of index): [eval_plain] does not depend on input wires that are
   not read. *)
From Coq Require Import NArith ZArith List Bool Lia.
From Mpc Require Import Base.ListFacts Circuit.Circuit Lang.Gc Proto.Stream.
Import ListNotations.
Local Open Scope nat_scope.

Lemma flat_map_map {A B C} (g : A -> B) (f : B -> list C) l :
  flat_map f (map g l) = flat_map (fun x => f (g x)) l.
Proof. induction l as [|x t IH]; [reflexivity|]. cbn. rewrite IH. reflexivity. Qed.

Lemma fill_self {A} (l : list A) (d z : A) :
  map (fun j => if j <? length l then nth j l d else z) (seq 0 (length l)) = l.
Proof.
  induction l as [|h t IH]; [reflexivity|].
  cbn [length seq map]. f_equal. rewrite <- seq_shift, map_map. rewrite <- IH at 2.
  apply map_ext. intros j. reflexivity.
Qed.

Lemma in_lookup {A} k (a : A) l : NoDup (map fst l) -> In (k, a) l -> lookup k l = Some a.
Proof.
  induction l as [|[k2 a2] t IH]; intros Hnd H; [destruct H|]. simpl in *. inversion Hnd as [|? ? Hn Hd]; subst.
  destruct H as [H|H].
  - injection H as -> ->. rewrite N.eqb_refl. reflexivity.
  - destruct (N.eqb k k2) eqn:E; [|apply IH; auto]. apply N.eqb_eq in E. subst k2.
    exfalso. apply Hn. apply in_map_iff. exists (k, a). auto.
Qed.

Lemma sum_nat_cons n t : sum_nat (n :: t) = n + sum_nat t.
Proof. reflexivity. Qed.

Lemma sum_nat_vbits l : sum_nat (map vbits l) = sum_bits l.
Proof. induction l as [|i t IH]; [reflexivity|]. cbn [map]. rewrite sum_nat_cons, IH. reflexivity. Qed.

Lemma flat_map_len {A} (g : val -> list A) l :
  (forall i, In i l -> length (g i) = vbits i) -> length (flat_map g l) = sum_bits l.
Proof.
  induction l as [|i t IH]; intros H; [reflexivity|]. cbn [flat_map].
  rewrite app_length, (H i (or_introl eq_refl)), IH by (intros i0 H0; apply H; right; exact H0).
  reflexivity.
Qed.

Lemma concat_len {A} (g : val -> list A) l :
  (forall i, length (g i) = vbits i) -> length (concat (map g l)) = sum_bits l.
Proof. intros H. rewrite <- flat_map_concat_map. apply flat_map_len. intros i _. apply H. Qed.

Lemma circ_in_length (zero : N) : forall sizes (wires : list (list N)),
  length sizes = length wires -> length (circ_in_ids zero sizes wires) = sum_nat sizes.
Proof.
  unfold circ_in_ids. induction sizes as [|n t IH]; intros [|w ws] H; try discriminate; [reflexivity|].
  cbn [combine map concat]. rewrite app_length, map_length, seq_length, sum_nat_cons.
  f_equal. apply IH. simpl in H. lia.
Qed.

Lemma circ_in_incl (zero : N) sizes wires id :
  In id (circ_in_ids zero sizes wires) -> id = zero \/ exists w, In w wires /\ In id w.
Proof.
  unfold circ_in_ids. intros H. apply in_concat in H as (l & Hl & Hid).
  apply in_map_iff in Hl as ([bits w] & <- & Hp). apply in_combine_r in Hp.
  apply in_map_iff in Hid as (j & <- & _). destruct (j <? length w) eqn:E; [|auto].
  right. exists w. split; [exact Hp|]. apply nth_In. apply Nat.ltb_lt, E.
Qed.

Lemma circ_in_read (f : N -> bool) (zero : N) : f zero = false -> forall sizes (wires : list (list N)),
  map f (circ_in_ids zero sizes wires)
  = concat (map (fun p : nat * list bool => let '(bits, w) := p in
                   map (fun j => if j <? length w then nth j w false else false) (seq 0 bits))
                (combine sizes (map (map f) wires))).
Proof.
  intros Hz. unfold circ_in_ids. induction sizes as [|n t IH]; intros [|w ws]; try reflexivity.
  cbn [combine map concat]. rewrite map_app, IH. f_equal.
  rewrite map_map. apply map_ext. intros j. rewrite map_length.
  destruct (j <? length w) eqn:E; [|exact Hz].
  apply Nat.ltb_lt in E. rewrite (nth_indep _ false (f 0%N)) by (rewrite map_length; exact E).
  symmetry. apply map_nth.
Qed.

Lemma bind_rets_other e : forall sizes rets bits v,
  ~ In v (map vid rets) -> lookup v (bind_rets e sizes rets bits) = lookup v e.
Proof.
  induction sizes as [|n t IH]; intros [|r rs] bits v H; try reflexivity.
  cbn [bind_rets lookup]. destruct (N.eqb v (vid r)) eqn:E.
  - apply N.eqb_eq in E. exfalso. apply H. left. symmetry. exact E.
  - apply IH. intros Hin. apply H. right. exact Hin.
Qed.

Lemma bind_rets_bound e : forall rets sizes bits k, length sizes = length rets ->
  (exists b, lookup k e = Some b) \/ In k (map vid rets) ->
  exists b, lookup k (bind_rets e sizes rets bits) = Some b.
Proof.
  induction rets as [|r rs IH]; intros [|n t] bits k Hl H; try discriminate.
  - destruct H as [H|[]]. exact H.
  - cbn [bind_rets lookup]. destruct (N.eqb k (vid r)) eqn:E; [eauto|].
    apply N.eqb_neq in E. apply IH; [simpl in Hl; lia|].
    destruct H as [H|[H|H]]; [auto | congruence | auto].
Qed.

(* [idsf r]: the wire ids of result r, [rdf]: reading the store after the
   circuit; when the output ids (all results, in order) carry [bits], the
   environment binds every result to what its ids carry *)
Lemma bind_rets_rel (idsf : val -> list N) (rdf : N -> bool) e : forall rets bits,
  (forall r, In r rets -> length (idsf r) = vbits r) ->
  map rdf (flat_map idsf rets) = bits ->
  forall v b, lookup v (bind_rets e (map vbits rets) rets bits) = Some b ->
    (exists r, In r rets /\ vid r = v /\ map rdf (idsf r) = b) \/
    (~ In v (map vid rets) /\ lookup v e = Some b).
Proof.
  induction rets as [|r rs IH]; intros bits Hlen Hb v b L.
  - right. split; [intros []|exact L].
  - cbn [map bind_rets lookup] in L. cbn [flat_map] in Hb. rewrite map_app in Hb.
    assert (Hl : length (map rdf (idsf r)) = vbits r) by (rewrite map_length; apply Hlen; left; reflexivity).
    assert (Hf : firstn (vbits r) bits = map rdf (idsf r)).
    { rewrite <- Hb, <- Hl. rewrite firstn_app, Nat.sub_diag, firstn_all. cbn [firstn]. apply app_nil_r. }
    assert (Hs : skipn (vbits r) bits = map rdf (flat_map idsf rs)).
    { rewrite <- Hb, <- Hl. rewrite skipn_app, Nat.sub_diag, skipn_all. reflexivity. }
    destruct (N.eqb v (vid r)) eqn:E.
    + apply N.eqb_eq in E. injection L as <-. left. exists r. split; [left; reflexivity|]. split; [auto|].
      rewrite Hf. rewrite <- Hl. symmetry. apply fill_self.
    + apply N.eqb_neq in E.
      destruct (IH _ (fun r0 H => Hlen r0 (or_intror H)) (eq_sym Hs) v b L) as [(r0 & H1 & H2 & H3)|[H1 H2]].
      * left. exists r0. split; [right; exact H1 | auto].
      * right. split; [|exact H2]. intros [H|H]; [congruence | exact (H1 H)].
Qed.

Section Unread.
  Variable c : circuit.

  (* two wire arrays agree wherever a difference could be observed: everywhere
     except on input wires that no gate reads *)
  Definition agree_read (ws ws' : list bool) : Prop :=
    length ws = length ws' /\
    forall k, (k < ninputs c -> wire_read c k = true) -> nth k ws false = nth k ws' false.

  Lemma wire_read_in g : In g (gates c) ->
    wire_read c (gin0 g) = true /\ (gop g <> INV -> wire_read c (gin1 g) = true).
  Proof.
    intros H. unfold wire_read. split.
    - apply existsb_exists. exists g. split; [exact H|]. rewrite Nat.eqb_refl. reflexivity.
    - intros Hop. apply existsb_exists. exists g. split; [exact H|].
      destruct (gop g); try (rewrite Nat.eqb_refl; apply orb_true_r). exfalso. apply Hop. reflexivity.
  Qed.

  Lemma agree_gate ws ws' g : In g (gates c) -> agree_read ws ws' -> agree_read (eval_gate ws g) (eval_gate ws' g).
  Proof.
    intros Hg [Hl Ha]. destruct (wire_read_in g Hg) as [R0 R1].
    assert (Hv : gate_fn (gop g) (nth (gin0 g) ws false) (nth (gin1 g) ws false)
                 = gate_fn (gop g) (nth (gin0 g) ws' false) (nth (gin1 g) ws' false)).
    { rewrite (Ha (gin0 g) (fun _ => R0)).
      destruct (gop g) eqn:Eo; try (rewrite (Ha (gin1 g) (fun _ => R1 ltac:(discriminate))); reflexivity).
      reflexivity. }
    unfold eval_gate. rewrite Hv. split; [rewrite !upd_length; exact Hl|].
    intros k Hk. destruct (Nat.eq_dec (gout g) k) as [<-|Hne].
    - destruct (Nat.lt_ge_cases (gout g) (length ws)) as [Hlt|Hge].
      + rewrite !nth_upd_eq by (rewrite <- ?Hl; exact Hlt). reflexivity.
      + rewrite !nth_overflow by (rewrite upd_length, <- ?Hl; exact Hge). reflexivity.
    - rewrite !nth_upd_neq by exact Hne. apply Ha, Hk.
  Qed.

  Lemma agree_gates : forall gs ws ws', (forall g, In g gs -> In g (gates c)) -> agree_read ws ws' ->
    agree_read (fold_left eval_gate gs ws) (fold_left eval_gate gs ws').
  Proof.
    induction gs as [|g gs IH]; intros ws ws' Hin Ha; [exact Ha|].
    cbn [fold_left]. apply IH; [intros g0 H0; apply Hin; right; exact H0|].
    apply agree_gate; [apply Hin; left; reflexivity | exact Ha].
  Qed.

  (* C05 (eval_ignores_unread_inputs); [ninputs c + noutputs c <= nwires c]: no
     output wire is an input wire *)
  Theorem eval_plain_unread x x' :
    length x = length x' -> ninputs c + noutputs c <= nwires c ->
    (forall k, k < ninputs c -> wire_read c k = true -> nth k x false = nth k x' false) ->
    eval_plain c x = eval_plain c x'.
  Proof.
    intros Hl Hsep Hx.
    assert (H0 : agree_read (init_wires c x) (init_wires c x')).
    { unfold init_wires. split; [rewrite !app_length, !firstn_length, !repeat_length, Hl; reflexivity|].
      intros k Hk.
      assert (Hfl : length (firstn (ninputs c) x) = length (firstn (ninputs c) x')) by (rewrite !firstn_length, Hl; reflexivity).
      destruct (Nat.lt_ge_cases k (length (firstn (ninputs c) x))) as [Hlt|Hge].
      - rewrite !app_nth1 by (rewrite <- ?Hfl; exact Hlt).
        assert (Hkn : k < ninputs c) by (rewrite firstn_length in Hlt; lia).
        rewrite !nth_firstn_lt by exact Hkn. apply Hx; [exact Hkn | apply Hk, Hkn].
      - rewrite !app_nth2 by (rewrite <- ?Hfl; exact Hge). rewrite <- Hfl.
        destruct (Nat.lt_ge_cases (k - length (firstn (ninputs c) x)) (nwires c - ninputs c)) as [H1|H1].
        + rewrite !nth_repeat. reflexivity.
        + rewrite !nth_overflow by (rewrite repeat_length; exact H1). reflexivity. }
    pose proof (agree_gates (gates c) _ _ (fun g H => H) H0) as [_ Ha].
    unfold eval_plain, eval_plain_wires. apply map_ext_in. intros w Hw.
    apply Ha. intros Hlt. unfold output_wires in Hw. apply in_seq in Hw. lia.
  Qed.

  (* the operands of a step laid out one after the other: two layouts that
     differ only inside operands whose input range no gate reads agree on
     every wire that is read *)
  Lemma blocks_agree (f g : val -> list bool) : forall l off,
    (forall i, length (f i) = vbits i) -> (forall i, length (g i) = vbits i) ->
    (forall j i, nth_error l j = Some i ->
       f i = g i \/ range_unread c (off + sum_bits (firstn j l)) (vbits i) = true) ->
    forall k, wire_read c (off + k) = true ->
      nth k (concat (map f l)) false = nth k (concat (map g l)) false.
  Proof.
    induction l as [|i t IH]; intros off Hf Hg H k Hr; [reflexivity|].
    cbn [map concat].
    destruct (Nat.lt_ge_cases k (vbits i)) as [Hk|Hk].
    - rewrite (app_nth1 (f i)) by (rewrite Hf; exact Hk). rewrite (app_nth1 (g i)) by (rewrite Hg; exact Hk).
      destruct (H 0 i eq_refl) as [E|U]; [rewrite E; reflexivity|].
      exfalso. cbn [firstn] in U. change (sum_bits []) with 0 in U. rewrite Nat.add_0_r in U.
      unfold range_unread in U. rewrite forallb_forall in U.
      assert (Hin : In (off + k) (seq off (vbits i))) by (apply in_seq; lia).
      specialize (U _ Hin). rewrite Hr in U. discriminate.
    - rewrite (app_nth2 (f i)) by (rewrite Hf; exact Hk). rewrite (app_nth2 (g i)) by (rewrite Hg; exact Hk).
      rewrite Hf, Hg. apply (IH (off + vbits i)); auto.
      + intros j i' Hj. destruct (H (S j) i' Hj) as [E|U]; [auto|right].
        cbn [firstn] in U. change (sum_bits (i :: firstn j t)) with (vbits i + sum_bits (firstn j t)) in U.
        rewrite Nat.add_assoc in U. exact U.
      + replace (off + vbits i + (k - vbits i)) with (off + k) by lia. exact Hr.
  Qed.
End Unread.

(* non-vacuity of the unread-operand exception: a two-input circuit whose
   second input no gate reads *)
Example range_unread_ex :
  let c := mkCircuit 3 2 1 [mkGate 0 0 2 INV] in
  range_unread c 1 1 = true /\ range_unread c 0 1 = false /\
  eval_plain c [true; false] = eval_plain c [true; true].
Proof. vm_compute. repeat split. Qed.
