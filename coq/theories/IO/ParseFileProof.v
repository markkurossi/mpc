(* ParseFileProof.v — the front doors of property C14 (IO/ParseFile.v): which parser circuit.Parse
   chooses for which file name, IsFilename agrees with it, the round trip through
   MarshalFormat(format) and Parse(base + "." + format), and Circuit.Stats after a parse. *)
From Coq Require Import ZArith NArith List Bool Lia.
From Mpc Require Import Base.ListFacts.
From Mpc Require Import Gen.Consts Circuit.Circuit IO.Marshal IO.MarshalProof IO.MarshalRoundTrip IO.ParseFile.
Import ListNotations.
Open Scope N_scope.

Lemma has_suffix_iff s suf : has_suffix s suf = true <-> exists base, s = base ++ suf.
Proof.
  unfold has_suffix. split.
  - intros H. apply andb_true_iff in H. destruct H as [Hl He]. apply list_eqb_eq in He.
    exists (firstn (length s - length suf) s).
    pose proof (firstn_skipn (length s - length suf) s) as F. rewrite He in F. symmetry. exact F.
  - intros [base ->]. apply andb_true_iff. split.
    + apply Nat.leb_le. rewrite app_length. lia.
    + apply list_eqb_eq. rewrite app_length.
      replace (length base + length suf - length suf)%nat with (length base) by lia.
      apply skipn_app_exact. reflexivity.
Qed.

Lemma has_suffix_app base suf : has_suffix (base ++ suf) suf = true.
Proof. apply has_suffix_iff. exists base. reflexivity. Qed.

Lemma rev_prefix_conflict (a b : list byte) x y (ra rb : list byte) :
  x <> y -> rev a ++ x :: ra <> rev a ++ y :: rb.
Proof. intros Hxy H. apply app_inv_head in H. inversion H. contradiction. Qed.

Lemma suffixes_nested s a b : (length a <= length b)%nat ->
  has_suffix s a = true -> has_suffix s b = true -> has_suffix b a = true.
Proof.
  intros Hl Ha Hb. apply has_suffix_iff in Ha, Hb. destruct Ha as [x Ex], Hb as [y Ey].
  assert (Hxy : (length y <= length x)%nat).
  { apply (f_equal (@length byte)) in Ey. rewrite Ex, !app_length in Ey. lia. }
  apply has_suffix_iff. exists (skipn (length y) x).
  transitivity (skipn (length y) (y ++ b)); [symmetry; apply skipn_app_exact; reflexivity|].
  rewrite <- Ey, Ex, skipn_app. replace (length y - length x)%nat with 0%nat by lia. reflexivity.
Qed.

Lemma suffixes_apart s a b : (length a <=? length b)%nat = true -> has_suffix b a = false ->
  has_suffix s a && has_suffix s b = false.
Proof.
  intros Hl Hba. apply Nat.leb_le in Hl.
  destruct (has_suffix s a) eqn:Ha; [|reflexivity]. destruct (has_suffix s b) eqn:Hb; [|reflexivity].
  rewrite (suffixes_nested s a b Hl Ha Hb) in Hba. discriminate.
Qed.

(* so the order of the suffix tests in Parse and IsFilename does not matter *)
Theorem suffixes_exclusive s :
  (has_suffix s s_dot_mpclc = true -> has_suffix s s_dot_circ = false /\ has_suffix s s_dot_bristol = false) /\
  (has_suffix s s_dot_bristol = true -> has_suffix s s_dot_circ = false /\ has_suffix s s_dot_mpclc = false) /\
  (has_suffix s s_dot_circ = true -> has_suffix s s_dot_bristol = false /\ has_suffix s s_dot_mpclc = false).
Proof.
  pose proof (suffixes_apart s s_dot_circ s_dot_mpclc eq_refl eq_refl) as Hcm.
  pose proof (suffixes_apart s s_dot_circ s_dot_bristol eq_refl eq_refl) as Hcb.
  pose proof (suffixes_apart s s_dot_mpclc s_dot_bristol eq_refl eq_refl) as Hmb.
  destruct (has_suffix s s_dot_circ), (has_suffix s s_dot_mpclc), (has_suffix s s_dot_bristol);
    try discriminate; repeat split; intros; first [reflexivity | discriminate].
Qed.

Theorem select_parser_spec file :
  (select_parser file = SelMPCLC <-> has_suffix file s_dot_mpclc = true) /\
  (select_parser file = SelBristol <-> has_suffix file s_dot_circ = true \/ has_suffix file s_dot_bristol = true) /\
  (select_parser file = SelNone <-> IsFilename file = false).
Proof.
  unfold select_parser, IsFilename.
  destruct (has_suffix file s_dot_mpclc) eqn:Em.
  - destruct (suffixes_exclusive file) as (Hm & _). destruct (Hm Em) as [-> ->]. cbn.
    repeat split; intros; try reflexivity; try discriminate. destruct H; discriminate.
  - destruct (has_suffix file s_dot_circ), (has_suffix file s_dot_bristol); cbn;
      repeat split; intros; try reflexivity; try discriminate; auto; destruct H; discriminate.
Qed.

Theorem isfilename_iff_dispatch file : IsFilename file = true <-> select_parser file <> SelNone.
Proof.
  destruct (select_parser_spec file) as (_ & _ & H3). destruct (IsFilename file); split; intros H; try congruence.
  - intros E. apply H3 in E. discriminate.
  - destruct H. apply H3. reflexivity.
Qed.

(* for EVERY base name (also one that itself ends in another suffix, e.g. "x.circ" + ".mpclc") *)
Theorem parse_file_dispatch base bs :
  ParseFile (base ++ s_dot_mpclc) (Some bs) = ParseMPCLC bs /\
  ParseFile (base ++ s_dot_bristol) (Some bs) = ParseBristol bs /\
  ParseFile (base ++ s_dot_circ) (Some bs) = ParseBristol bs.
Proof.
  unfold ParseFile. repeat split.
  - assert (E : select_parser (base ++ s_dot_mpclc) = SelMPCLC)
      by (apply select_parser_spec; apply has_suffix_app).
    rewrite E. reflexivity.
  - assert (E : select_parser (base ++ s_dot_bristol) = SelBristol)
      by (apply select_parser_spec; right; apply has_suffix_app).
    rewrite E. reflexivity.
  - assert (E : select_parser (base ++ s_dot_circ) = SelBristol)
      by (apply select_parser_spec; left; apply has_suffix_app).
    rewrite E. reflexivity.
Qed.

Theorem parse_file_unsupported file content : IsFilename file = false -> ParseFile file content = Err.
Proof.
  intros H. apply select_parser_spec in H. unfold ParseFile. rewrite H. destruct content; reflexivity.
Qed.

Theorem parse_file_cases file content :
  ParseFile file content = Err \/
  (exists bs, content = Some bs /\ has_suffix file s_dot_mpclc = true /\ ParseFile file content = ParseMPCLC bs) \/
  (exists bs, content = Some bs /\ (has_suffix file s_dot_circ = true \/ has_suffix file s_dot_bristol = true) /\
              ParseFile file content = ParseBristol bs).
Proof.
  destruct content as [bs|]; [|left; reflexivity].
  unfold ParseFile. destruct (select_parser file) eqn:E.
  - right. right. exists bs. repeat split; try reflexivity. apply select_parser_spec. exact E.
  - right. left. exists bs. repeat split; try reflexivity. apply select_parser_spec. exact E.
  - left. reflexivity.
Qed.

Theorem parse_file_total file content : ok_or_err (ParseFile file content).
Proof.
  destruct (parse_file_cases file content) as [H | [(bs & _ & _ & H) | (bs & _ & _ & H)]]; rewrite H.
  - exact I.
  - apply mpclc_ok_or_err.
  - apply bristol_total.
Qed.

Theorem parse_file_sound file content c : ParseFile file content = Ok c -> parse_sound c.
Proof.
  destruct (parse_file_cases file content) as [H | [(bs & _ & _ & H) | (bs & _ & _ & H)]]; rewrite H; intros E.
  - discriminate.
  - exact (mpclc_sound true true bs c E).
  - exact (bristol_sound bs c E).
Qed.

(* the format names of MarshalFormat are the suffixes of Parse *)
Theorem front_door_roundtrip base f c bs :
  MarshalFormat f c = Some bs ->
  (f = s_mpclc /\ bs = Marshal c /\
   (wf_marshal c -> ParseFile (base ++ [46] ++ f) (Some bs) = Ok (norm c))) \/
  (f = s_bristol /\ bs = MarshalBristol c /\
   (wf_bristol c -> ParseFile (base ++ [46] ++ f) (Some bs) = Ok (bristol_norm c) /\
                    ParseFile (base ++ s_dot_circ) (Some bs) = Ok (bristol_norm c))).
Proof.
  intros H. destruct (parse_file_dispatch base bs) as (Em & Eb & Ec).
  destruct (marshal_format_roundtrip c f bs H) as [(Hf & Hb & Hr) | (Hf & Hb & Hr)]; subst f.
  - left. repeat split; try assumption. intros Hwf.
    change ([46] ++ s_mpclc) with s_dot_mpclc. rewrite Em. exact (Hr Hwf).
  - right. repeat split; try assumption.
    + change ([46] ++ s_bristol) with s_dot_bristol. rewrite Eb. apply Hr. assumption.
    + rewrite Ec. apply Hr. assumption.
Qed.

Definition cnt (o : op) (gs : list gateN) : N := count_op o gs.

Lemma op_code_vals : op_code XOR = 0 /\ op_code XNOR = 1 /\ op_code AND = 2 /\ op_code OR = 3 /\ op_code INV = 4.
Proof. vm_compute. repeat split. Qed.

Ltac opcodes :=
  destruct op_code_vals as (C0 & C1 & C2 & C3 & C4); rewrite ?C0, ?C1, ?C2, ?C3, ?C4;
  change (N.to_nat 0) with 0%nat; change (N.to_nat 1) with 1%nat; change (N.to_nat 2) with 2%nat;
  change (N.to_nat 3) with 3%nat; change (N.to_nat 4) with 4%nat; simpl N.eqb; cbn [stats_inc].

Lemma count_op_cons o g gs :
  count_op o (g :: gs) = (if N.eqb (op_code (g_op g)) (op_code o) then 1 else 0) + count_op o gs.
Proof.
  unfold count_op. cbn [filter]. destruct (N.eqb (op_code (g_op g)) (op_code o)).
  - rewrite nlen_cons. lia.
  - lia.
Qed.

Lemma parse_stats_fold gs : forall a b c d e f g h,
  fold_left (fun st g => stats_inc st (N.to_nat (op_code (g_op g)))) gs [a; b; c; d; e; f; g; h] =
  [a + count_op XOR gs; b + count_op XNOR gs; c + count_op AND gs; d + count_op OR gs; e + count_op INV gs; f; g; h].
Proof.
  induction gs as [|x gs IH]; intros a b c d e f g h.
  - unfold count_op, nlen. cbn. rewrite !N.add_0_r. reflexivity.
  - cbn [fold_left]. rewrite !count_op_cons.
    destruct x as [o i0 i1 ou]. cbn [g_op]. destruct o; opcodes; rewrite IH; repeat (apply f_equal2; [lia|]); reflexivity.
Qed.

Theorem parse_stats_spec gs :
  parse_stats gs = [count_op XOR gs; count_op XNOR gs; count_op AND gs; count_op OR gs; count_op INV gs; 0; 0; 0].
Proof. unfold parse_stats. change stats_zero with [0;0;0;0;0;0;0;0]. rewrite parse_stats_fold. reflexivity. Qed.

Lemma count_ops_total gs :
  count_op XOR gs + count_op XNOR gs + count_op AND gs + count_op OR gs + count_op INV gs = nlen gs.
Proof.
  induction gs as [|x gs IH]; [reflexivity|]. rewrite !count_op_cons.
  rewrite nlen_cons, <- IH. destruct x as [o i0 i1 ou]. cbn [g_op]. destruct o; opcodes; lia.
Qed.

Theorem stats_count_spec gs :
  stats_count (parse_stats gs) = nlen gs /\
  stats_numxor (parse_stats gs) + stats_numnonxor (parse_stats gs) = stats_count (parse_stats gs) /\
  stats_at (parse_stats gs) circuit_Count = 0 /\ stats_at (parse_stats gs) circuit_NumLevels = 0 /\
  stats_at (parse_stats gs) circuit_MaxWidth = 0.
Proof.
  rewrite parse_stats_spec. unfold stats_count, stats_numxor, stats_numnonxor, stats_at.
  vm_compute Z.to_nat. cbn [seq fold_left nth]. pose proof (count_ops_total gs). repeat split; lia.
Qed.

Theorem stats_cost_spec gs :
  stats_cost (parse_stats gs) = fold_right (fun g a => gate_cost (g_op g) + a) 0 gs.
Proof.
  rewrite parse_stats_spec. unfold stats_cost, stats_at. vm_compute Z.to_nat. cbn [nth].
  induction gs as [|x gs IH]; [reflexivity|]. cbn [fold_right]. rewrite <- IH. rewrite !count_op_cons.
  destruct x as [o i0 i1 ou]. cbn [g_op]. destruct o; opcodes; cbn [gate_cost]; lia.
Qed.

(* after a parse through ANY door, Stats.Count() is the header's gate count *)
Theorem parse_file_stats file content c st :
  ParseFileStats file content = Ok (c, st) ->
  parse_sound c /\ st = parse_stats (c_gates c) /\ Z.of_N (stats_count st) = c_numgates c /\
  stats_numxor st + stats_numnonxor st = stats_count st /\
  stats_cost st = fold_right (fun g a => gate_cost (g_op g) + a) 0 (c_gates c).
Proof.
  unfold ParseFileStats. destruct (ParseFile file content) as [c'| | |] eqn:E; cbn [bind]; try discriminate.
  intros H. injection H as Hc' Hst. subst c'. subst st.
  pose proof (parse_file_sound _ _ _ E) as Hs. split; [exact Hs|]. split; [reflexivity|].
  destruct (stats_count_spec (c_gates c)) as (Hc & Hx & _). split.
  - rewrite Hc. destruct Hs as (_ & _ & Hn & _). rewrite <- Hn. unfold nlen. lia.
  - split; [exact Hx | apply stats_cost_spec].
Qed.

Lemma count_op_norm o gs : count_op o (map norm_gate gs) = count_op o gs.
Proof.
  induction gs as [|x gs IH]; [reflexivity|]. cbn [map]. rewrite !count_op_cons, IH.
  destruct x as [o' i0 i1 ou]. unfold norm_gate. cbn [g_op]. destruct o'; reflexivity.
Qed.
(* the Stats are a function of the gate kinds only, and the normal forms keep the kinds *)
Theorem stats_roundtrip c :
  parse_stats (c_gates (norm c)) = parse_stats (c_gates c) /\
  parse_stats (c_gates (bristol_norm c)) = parse_stats (c_gates c).
Proof. split; rewrite !parse_stats_spec; cbn [norm bristol_norm c_gates]; rewrite !count_op_norm; reflexivity. Qed.

Definition c99 : byte := 99.   (* 'c', the first byte of MAGIC *)

Lemma nl_lines_first l : forall cur,
  nl_lines_aux l cur = [] \/ exists pre rest, nl_lines_aux l cur = (rev cur ++ pre ++ [10]) :: rest.
Proof.
  induction l as [|x t IH]; intros cur; cbn [nl_lines_aux]; [left; reflexivity|].
  destruct (x =? 10) eqn:E.
  - right. apply N.eqb_eq in E. subst x. exists [], (nl_lines_aux t []). cbn [rev app]. reflexivity.
  - destruct (IH (x :: cur)) as [H | (pre & rest & H)]; [left; exact H|].
    right. exists (x :: pre), rest. rewrite H. cbn [rev]. rewrite <- app_assoc. reflexivity.
Qed.

(* the right trim never eats a final non-space ASCII byte (the list is reversed: it is the LAST element) *)
Lemma rtrim_keeps_last x : ascii_space x = false -> x < 128 ->
  forall fuel l, exists l', ltrim_gen uspace_len_rev fuel (l ++ [x]) = l' ++ [x].
Proof.
  intros Hsp Hx. induction fuel as [|f IH]; intros l; [exists l; reflexivity|].
  destruct l as [|y l2].
  - exists []. cbn [app ltrim_gen]. rewrite Hsp. reflexivity.
  - cbn [app ltrim_gen]. destruct (ascii_space y); [apply IH|].
    destruct l2 as [|a [|z l3]]; cbn [app]; unfold uspace_len_rev.
    + rewrite (uspace_len_ascii x [y] Hx). exists [y]. reflexivity.
    + destruct (uspace_len [a; y] =? 2)%nat.
      * cbn [skipn]. apply (IH []).
      * rewrite (uspace_len_ascii x [a; y] Hx). exists [y; a]. reflexivity.
    + destruct (uspace_len [a; y] =? 2)%nat.
      * cbn [skipn]. apply (IH (z :: l3)).
      * destruct (uspace_len [z; a; y] =? 3)%nat.
        -- cbn [skipn]. apply IH.
        -- exists (y :: a :: z :: l3). reflexivity.
Qed.

Lemma trim_space_head x u : ascii_space x = false -> x < 128 -> exists u', trim_space (x :: u) = x :: u'.
Proof.
  intros Hsp Hx. unfold trim_space. cbn [length].
  rewrite (ltrim_word uspace_len (length u) x u Hsp (uspace_len_ascii x u Hx)). cbn [rev].
  destruct (rtrim_keeps_last x Hsp Hx (length (x :: u)) (rev u)) as (l' & H). rewrite H.
  rewrite rev_app_distr. cbn [rev app]. eauto.
Qed.

Lemma fields_aux_first l : forall cur, cur <> [] -> exists f rest, fields_aux l cur = (rev cur ++ f) :: rest.
Proof.
  induction l as [|x t IH]; intros cur Hc; cbn [fields_aux].
  - destruct cur; [congruence|]. exists [], []. rewrite app_nil_r. reflexivity.
  - destruct (ascii_space x).
    + destruct cur; [congruence|]. exists [], (fields_aux t []). rewrite app_nil_r. reflexivity.
    + destruct (IH (x :: cur) ltac:(discriminate)) as (f & rest & H).
      exists (x :: f), rest. rewrite H. cbn [rev]. rewrite <- app_assoc. reflexivity.
Qed.

Lemma bristol_lines_c99 t :
  bristol_lines (c99 :: t) = [] \/ exists f rest more, bristol_lines (c99 :: t) = ((c99 :: f) :: rest) :: more.
Proof.
  unfold bristol_lines. cbn [nl_lines_aux]. change (c99 =? 10) with false. cbv iota.
  destruct (nl_lines_first t [c99]) as [H | (pre & rest & H)]; rewrite H; [left; reflexivity|].
  right. cbn [rev app map]. destruct (trim_space_head c99 (pre ++ [10]) eq_refl eq_refl) as (u' & Ht). rewrite Ht. cbn [filter map].
  unfold fields at 1. cbn [fields_aux]. change (ascii_space c99) with false. cbv iota.
  destruct (fields_aux_first u' [c99] ltac:(discriminate)) as (f & rest' & Hf). rewrite Hf. cbn [rev app]. eauto.
Qed.

Lemma atoi_c99 f : atoi (c99 :: f) = None.
Proof. reflexivity. Qed.

Theorem bristol_rejects_c99 t : ParseBristol (c99 :: t) = Err.
Proof.
  unfold ParseBristol. destruct (bristol_lines_c99 t) as [H | (f & rest & more & H)]; rewrite H; [reflexivity|].
  destruct rest as [|f1 [|f2 r]]; try reflexivity; rewrite atoi_c99; reflexivity.
Qed.

Lemma marshal_head c : exists t, Marshal c = c99 :: t.
Proof. unfold Marshal. change (be32 (Z.to_N circuit_MAGIC)) with [c99; 114; 99; 0]. cbn [app]. eauto. Qed.

Theorem mpclc_file_as_bristol_rejected c : ParseBristol (Marshal c) = Err.
Proof. destruct (marshal_head c) as (t & ->). apply bristol_rejects_c99. Qed.

Theorem mpclc_file_under_bristol_name base c :
  ParseFile (base ++ s_dot_circ) (Some (Marshal c)) = Err /\
  ParseFile (base ++ s_dot_bristol) (Some (Marshal c)) = Err.
Proof.
  destruct (parse_file_dispatch base (Marshal c)) as (_ & E1 & E2).
  rewrite E1, E2, mpclc_file_as_bristol_rejected. split; reflexivity.
Qed.

Example ex_front_door_mpclc :
  ParseFileStats ([120] ++ s_dot_mpclc) (Some (Marshal ex_circuit)) =
  Ok (norm ex_circuit, parse_stats (c_gates ex_circuit)).
Proof. vm_compute. reflexivity. Qed.
Example ex_front_door_circ :
  ParseFile ([120] ++ s_dot_circ) (Some (MarshalBristol ex_circuit)) = Ok (bristol_norm ex_circuit).
Proof. vm_compute. reflexivity. Qed.
(* the last suffix decides *)
Example ex_double_suffix :
  select_parser ([120] ++ s_dot_circ ++ s_dot_mpclc) = SelMPCLC /\
  select_parser ([120] ++ s_dot_mpclc ++ s_dot_circ) = SelBristol /\
  select_parser ([120] ++ s_dot_mpclc ++ [46; 98; 97; 107]) = SelNone /\      (* x.mpclc.bak *)
  select_parser (s_mpclc) = SelNone /\ select_parser s_dot_mpclc = SelMPCLC /\   (* "mpclc", ".mpclc" *)
  select_parser [] = SelNone.
Proof. vm_compute. repeat split. Qed.
(* the converse direction has no theorem: ParseMPCLC does not check MAGIC, a text file is read as
   a header with counts >= 2^27 (declared sizes outside the property) *)
Example ex_mpclc_under_circ : ParseFile ([120] ++ s_dot_circ) (Some (Marshal ex_circuit)) = Err.
Proof. apply (mpclc_file_under_bristol_name [120] ex_circuit). Qed.
Example ex_stats_nonzero : stats_cost (parse_stats (c_gates ex_circuit)) <> 0 /\
                           stats_count (parse_stats (c_gates ex_circuit)) <> 0.
Proof. vm_compute. split; discriminate. Qed.
