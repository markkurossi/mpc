(* MarshalProof.v — IO/Marshal.v (property C14): the buffered reader delivers exactly what is asked
   for; every parser stage returns Ok or Err and consumes input ([good]), so neither Panic nor
   Fuel is reached; an Ok result of either parser satisfies [parse_sound].  The last two are
   proved together, stage by stage, as [returns P Q x]. *)
From Coq Require Import ZArith NArith List Bool Lia MSets.MSetPositive.
From Mpc Require Import Gen.Consts Circuit.Circuit IO.Marshal.
Import ListNotations.
Open Scope N_scope.

Definition rlen (r : rd) : nat := length (fst r).
Definition rd_ok (r : rd) : Prop := snd r <= nlen (fst r).

Lemma nlen_app {A} (a b : list A) : nlen (a ++ b) = nlen a + nlen b.
Proof. unfold nlen. rewrite app_length. lia. Qed.

Lemma nlen_cons {A} (x : A) l : nlen (x :: l) = N.succ (nlen l).
Proof. unfold nlen. cbn [length]. apply Nat2N.inj_succ. Qed.

Lemma nlen_firstn {A} (l : list A) k : k <= nlen l -> nlen (firstn (N.to_nat k) l) = k.
Proof. unfold nlen. intros H. rewrite firstn_length. lia. Qed.

Lemma nlen_skipn {A} (l : list A) k : nlen (skipn (N.to_nat k) l) = nlen l - k.
Proof. unfold nlen. rewrite skipn_length. lia. Qed.

(* what every branch of [bread] returns: the first k bytes, 1 <= k <= n, and b' bytes still buffered *)
Lemma take_spec n b (rem : list byte) k b' :
  1 <= k <= nlen rem -> k <= n -> b' + k <= nlen rem -> (n <= b -> k = n /\ b' = b - n) ->
  let d := firstn (N.to_nat k) rem in
  let rest := skipn (N.to_nat k) rem in
  rd_ok (rest, b') /\ d <> [] /\ rem = d ++ rest /\ nlen d <= n /\ (n <= b -> nlen d = n /\ b' = b - n).
Proof.
  intros Hk Hn Hb' Hbuf. cbv zeta.
  assert (Hd : nlen (firstn (N.to_nat k) rem) = k) by (apply nlen_firstn; lia).
  split; [unfold rd_ok; cbn [fst snd]; rewrite nlen_skipn; lia|].
  split; [intros C; rewrite C in Hd; cbn in Hd; lia|].
  split; [symmetry; apply firstn_skipn|].
  rewrite Hd. split; [exact Hn|exact Hbuf].
Qed.

Lemma bread_spec n r d r' :
  0 < n -> rd_ok r -> bread n r = Some (d, r') ->
  rd_ok r' /\ d <> [] /\ fst r = d ++ fst r' /\ nlen d <= n /\
  (n <= snd r -> nlen d = n /\ snd r' = snd r - n).
Proof.
  destruct r as [rem b]. unfold rd_ok, bread. cbn [fst snd]. intros Hn Hok.
  destruct (b =? 0) eqn:Hb.
  - apply N.eqb_eq in Hb. subst b.
    destruct rem as [|x t]; [discriminate|].
    set (rem := x :: t) in *. assert (Hl : 1 <= nlen rem) by (unfold rem; rewrite nlen_cons; lia).
    destruct (bufsize <=? n) eqn:Hbig; intros E; inversion E; subst; clear E; cbn [fst snd].
    + apply take_spec; lia.
    + apply N.leb_gt in Hbig. apply take_spec; unfold bufsize in *; lia.
  - apply N.eqb_neq in Hb. intros E; inversion E; subst; clear E; cbn [fst snd].
    apply take_spec; lia.
Qed.

Lemma bread_none n r : bread n r = None -> fst r = [].
Proof.
  destruct r as [rem b]. unfold bread. simpl.
  destruct (b =? 0) eqn:Hb; [|discriminate].
  destruct rem; [reflexivity|]. destruct (bufsize <=? n); discriminate.
Qed.

Definition rf_post (need : N) (r : rd) (acc : list byte) (x : res (list byte * rd)) : Prop :=
  match x with
  | Ok (l, r') => exists d, l = acc ++ d /\ nlen d = need /\ fst r = d ++ fst r' /\ rd_ok r' /\
                            (need <= snd r -> snd r' = snd r - need)
  | Err => nlen (fst r) < need
  | Panic | Fuel => False
  end.

Lemma read_full_loop_spec fuel : forall need r acc,
  (rlen r < fuel)%nat -> rd_ok r -> rf_post need r acc (read_full_loop fuel need r acc).
Proof.
  induction fuel as [|f IH]; intros need r acc Hf Hok.
  - lia.
  - cbn [read_full_loop]. destruct (need =? 0) eqn:Hn.
    + apply N.eqb_eq in Hn. subst. simpl. exists []. rewrite app_nil_r. repeat split; auto; try lia.
    + apply N.eqb_neq in Hn. destruct (bread need r) as [[d r1]|] eqn:Hb.
      * destruct (bread_spec need r d r1) as (Hok1 & Hne & Hsplit & Hle & Hbuf); auto; [lia|].
        assert (Hlen : (rlen r1 < f)%nat).
        { unfold rlen in *. rewrite Hsplit in Hf. rewrite app_length in Hf.
          destruct d; [congruence|]. simpl in Hf. lia. }
        specialize (IH (need - nlen d) r1 (acc ++ d) Hlen Hok1).
        destruct (read_full_loop f (need - nlen d) r1 (acc ++ d)) as [[l r2]| | |]; simpl in *; auto.
        -- destruct IH as (d2 & -> & Hd2 & Hs2 & Hok2 & Hb2). exists (d ++ d2).
           rewrite app_assoc. repeat split; auto.
           ++ rewrite nlen_app. lia.
           ++ rewrite Hsplit, Hs2, app_assoc. reflexivity.
           ++ intros Hnb. destruct (Hbuf Hnb) as [E1 E2]. rewrite Hb2 by lia. lia.
        -- rewrite Hsplit, nlen_app. lia.
      * simpl. rewrite (bread_none _ _ Hb). unfold nlen. simpl. lia.
Qed.

Lemma read_full_spec n r : rd_ok r -> rf_post n r [] (read_full n r).
Proof. intros. unfold read_full. apply read_full_loop_spec; auto; unfold rlen; lia. Qed.

Lemma app_inv_len {A} (a c b d : list A) : a ++ b = c ++ d -> length a = length c -> a = c /\ b = d.
Proof.
  revert c; induction a as [|x a IH]; intros [|y c] H Hl; simpl in *; try discriminate; auto.
  inversion H; subst. destruct (IH c) as [-> ->]; auto.
Qed.

Lemma read_full_exact l1 l2 b :
  rd_ok (l1 ++ l2, b) ->
  exists b', read_full (nlen l1) (l1 ++ l2, b) = Ok (l1, (l2, b')) /\ rd_ok (l2, b') /\
             (nlen l1 <= b -> b' = b - nlen l1).
Proof.
  intros Hok. pose proof (read_full_spec (nlen l1) _ Hok) as H.
  destruct (read_full (nlen l1) (l1 ++ l2, b)) as [[l [rem b']]| | |]; simpl in H; try contradiction.
  - destruct H as (d & -> & Hd & Hs & Hok' & Hb). simpl in *.
    destruct (app_inv_len l1 d l2 rem) as [<- <-]; auto. { unfold nlen in Hd. lia. }
    exists b'. auto.
  - rewrite nlen_app in H. lia.
Qed.

Definition good {A} (dec : nat) (r : rd) (x : res (A * rd)) : Prop :=
  match x with
  | Ok (_, r') => rd_ok r' /\ (rlen r' + dec <= rlen r)%nat
  | Err => True
  | Panic | Fuel => False
  end.

Definition ok_or_err {A} (x : res A) : Prop := match x with Ok _ | Err => True | Panic | Fuel => False end.

(* what a parser stage may return: never Fuel, Panic only if P, an Ok value only if Q holds of it.
   [ok_or_err] is [returns False (fun _ => True)]; [good d r] is [returns False] of its Ok clause. *)
Definition returns (P : Prop) {A} (Q : A -> Prop) (x : res A) : Prop :=
  match x with Ok a => Q a | Err => True | Panic => P | Fuel => False end.

Lemma bind_ok_inv {A B} (x : res A) (k : A -> res B) b : bind x k = Ok b -> exists a, x = Ok a /\ k a = Ok b.
Proof. destruct x; cbn [bind]; [eauto|discriminate..]. Qed.

Lemma good_weaken {A} d d' r (x : res (A * rd)) : (d' <= d)%nat -> good d r x -> good d' r x.
Proof. destruct x as [[a r']| | |]; simpl; auto. intros ? [? ?]; split; auto; lia. Qed.

Lemma good_bind {A B} d1 d2 d r (x : res (A * rd)) (k : A -> rd -> res (B * rd)) :
  (d <= d1 + d2)%nat -> good d1 r x ->
  (forall a r1, rd_ok r1 -> (rlen r1 + d1 <= rlen r)%nat -> good d2 r1 (k a r1)) ->
  good d r (do (a, r1) <- x; k a r1).
Proof.
  intros Hd Hx Hk. destruct x as [[a r1]| | |]; cbn [bind good] in *; auto.
  destruct Hx as [Hok1 Hl1]. specialize (Hk a r1 Hok1 Hl1).
  destruct (k a r1) as [[c r2]| | |]; cbn [good] in *; auto.
  destruct Hk as [Hok2 Hl2]. split; [exact Hok2|lia].
Qed.

Lemma good_bind_pure {A B} d r (x : res A) (k : A -> res (B * rd)) :
  ok_or_err x -> (forall a, good d r (k a)) -> good d r (bind x k).
Proof. intros Hx Hk. destruct x; cbn [bind ok_or_err good] in *; auto. Qed.

Lemma returns_bind P {A B} (Q : A -> Prop) (R : B -> Prop) (x : res A) (k : A -> res B) :
  returns P Q x -> (forall a, Q a -> returns P R (k a)) -> returns P R (bind x k).
Proof. intros Hx Hk. destruct x; cbn [bind returns] in *; auto. Qed.

Lemma returns_bind_good P {A B} (R : B -> Prop) d r (x : res (A * rd)) (k : A -> rd -> res B) :
  good d r x ->
  (forall a r1, rd_ok r1 -> (rlen r1 + d <= rlen r)%nat -> returns P R (k a r1)) ->
  returns P R (do (a, r1) <- x; k a r1).
Proof.
  intros Hx Hk. destruct x as [[a r1]| | |]; cbn [bind good returns] in *; auto; try contradiction.
  destruct Hx as [Hok1 Hl1]. exact (Hk a r1 Hok1 Hl1).
Qed.

Lemma returns_impl P {A} (Q Q' : A -> Prop) x : (forall a, Q a -> Q' a) -> returns P Q x -> returns P Q' x.
Proof. destruct x; cbn [returns]; auto. Qed.

Lemma returns_ok {P A} {Q : A -> Prop} {x a} : returns P Q x -> x = Ok a -> Q a.
Proof. intros H ->. exact H. Qed.

Lemma returns_ok_or_err {A} {Q : A -> Prop} {x} : returns False Q x -> ok_or_err x.
Proof. destruct x; cbn [returns ok_or_err]; auto. Qed.

Lemma returns_self P {A} (x : res A) : ok_or_err x -> returns P (fun a => x = Ok a) x.
Proof. destruct x; cbn [ok_or_err returns]; auto; contradiction. Qed.

Lemma ok_or_err_bind {A B} (x : res A) (k : A -> res B) :
  ok_or_err x -> (forall a, ok_or_err (k a)) -> ok_or_err (bind x k).
Proof. intros Hx Hk. exact (returns_bind False (fun _ => True) (fun _ => True) x k Hx (fun a _ => Hk a)). Qed.

Lemma good_read_full n r : rd_ok r -> good (N.to_nat n) r (read_full n r).
Proof.
  intros Hok. pose proof (read_full_spec n r Hok) as H.
  destruct (read_full n r) as [[l r']| | |]; simpl in *; auto.
  destruct H as (d & -> & Hd & Hs & Hok' & _). split; auto.
  unfold rlen. rewrite Hs, app_length. unfold nlen in Hd. lia.
Qed.

Lemma good_read_u32 r : rd_ok r -> good 4 r (read_u32 r).
Proof.
  intros Hok. unfold read_u32.
  apply good_bind with (d1 := 4%nat) (d2 := 0%nat); [lia|exact (good_read_full 4 r Hok)|].
  intros l r' Hok' Hl'. split; [exact Hok'|lia].
Qed.

Lemma good_parse_string fx r : rd_ok r -> good 4 r (parse_string fx r).
Proof.
  intros Hok. unfold parse_string.
  apply good_bind with (d1 := 4%nat) (d2 := 0%nat); [lia|apply good_read_u32; exact Hok|].
  intros n r1 Hok1 Hl1.
  destruct (n =? 0) eqn:Hn; [split; [exact Hok1|lia]|]. apply N.eqb_neq in Hn.
  destruct fx.
  - apply good_weaken with (d := N.to_nat n); [lia|]. apply good_read_full. exact Hok1.
  - destruct (bread n r1) as [[d r2]|] eqn:Hb; [|exact I].
    destruct (bread_spec n r1 d r2) as (Hok2 & _ & Hs & _); auto; [lia|]. split; [exact Hok2|].
    unfold rlen. rewrite Hs, app_length. lia.
Qed.

Lemma span_length p l a r : span p l = (a, r) -> length l = (length a + length r)%nat.
Proof.
  revert a r; induction l as [|x t IH]; simpl; intros a r H.
  - inversion H; reflexivity.
  - destruct (p x).
    + destruct (span p t) as [a' r'] eqn:E. inversion H; subst. simpl. rewrite (IH a' r); auto.
    + inversion H; subst. reflexivity.
Qed.

Lemma split_nl_length l : forall line, In line (split_nl l) -> (length line <= length l)%nat.
Proof.
  induction l as [|x t IH]; simpl; intros line H.
  - destruct H as [<-|[]]. simpl. lia.
  - destruct (split_nl t) as [|cur more] eqn:E.
    + destruct H as [<-|[]]. simpl. lia.
    + destruct (x =? 10).
      * destruct H as [<-|H]; [simpl; lia|]. specialize (IH line H). lia.
      * destruct H as [<-|H].
        -- simpl. specialize (IH cur (or_introl eq_refl)). lia.
        -- specialize (IH line (or_intror H)). lia.
Qed.

Lemma first_some_in {A B} (f : A -> option B) l y : first_some f l = Some y -> exists x, In x l /\ f x = Some y.
Proof.
  induction l as [|x t IH]; simpl; [discriminate|].
  destruct (f x) eqn:E; intros H.
  - inversion H; subst. exists x; auto.
  - destruct (IH H) as (x' & ? & ?). exists x'; auto.
Qed.

Lemma match_arr_length line ds m2 : match_arr line = Some (ds, m2) -> (length m2 < length line)%nat.
Proof.
  unfold match_arr. destruct line as [|c t]; [discriminate|].
  destruct (c =? 91); [|discriminate].
  destruct (span is_digit t) as [d r] eqn:E. pose proof (span_length _ _ _ _ E) as Hl.
  destruct r as [|c2 [|x r]]; try discriminate.
  destruct (c2 =? 93); [|discriminate].
  intros H; inversion H; subst. simpl in *. lia.
Qed.

Lemma types_parse_ok fuel : forall val, (length val < fuel)%nat -> ok_or_err (types_parse fuel val).
Proof.
  induction fuel as [|f IH]; intros val Hf; [lia|]. cbn [types_parse].
  destruct (list_eqb val [98] || list_eqb val s_bool); [exact I|].
  destruct (list_eqb val s_byte); [exact I|].
  destruct (list_eqb val s_rune); [exact I|].
  destruct (first_some match_sized (split_nl val)) as [[name ds]|].
  - destruct (sized_type name); [|exact I]. destruct ds; [exact I|]. destruct (parse_int32 _); exact I.
  - destruct (first_some match_arr (split_nl val)) as [[ds m2]|] eqn:E; [|exact I].
    destruct (first_some_in _ _ _ E) as (line & Hin & Hm).
    pose proof (split_nl_length _ _ Hin). pose proof (match_arr_length _ _ _ Hm).
    apply ok_or_err_bind; [apply IH; lia|]. intros el.
    destruct ds; [exact I|]. destruct (parse_int32 _); exact I.
Qed.

Lemma Parse_ok val : ok_or_err (Parse val).
Proof. unfold Parse. apply types_parse_ok. lia. Qed.

Lemma good_repeat_parse {A} (p : rd -> res (A * rd)) (r0 : rd) fuel : forall cnt r,
  (forall r1, rd_ok r1 -> (rlen r1 <= rlen r0)%nat -> good 1 r1 (p r1)) ->
  rd_ok r -> (rlen r <= rlen r0)%nat -> (rlen r < fuel)%nat -> good 0 r (repeat_parse p fuel cnt r).
Proof.
  induction fuel as [|g IH]; intros cnt r Hp Hok Hle Hf; [lia|]. cbn [repeat_parse].
  destruct (cnt =? 0); [split; [exact Hok|lia]|].
  apply good_bind with (d1 := 1%nat) (d2 := 0%nat); [lia|apply Hp; assumption|].
  intros a r' Hok' Hl'.
  apply good_bind with (d1 := 0%nat) (d2 := 0%nat); [lia|apply IH; auto; lia|].
  intros l r'' Hok'' Hl''. split; [exact Hok''|lia].
Qed.

Lemma good_parse_ioarg fx fuel : forall r, rd_ok r -> (rlen r < fuel)%nat -> good 16 r (parse_ioarg fx fuel r).
Proof.
  induction fuel as [|f IH]; intros r Hok Hf; [lia|]. cbn [parse_ioarg].
  apply good_bind with (d1 := 4%nat) (d2 := 12%nat); [lia|apply good_parse_string; exact Hok|].
  intros name r1 Hok1 Hl1.
  apply good_bind with (d1 := 4%nat) (d2 := 8%nat); [lia|apply good_parse_string; exact Hok1|].
  intros t r2 Hok2 Hl2.
  apply good_bind with (d1 := 4%nat) (d2 := 4%nat); [lia|apply good_read_u32; exact Hok2|].
  intros bits r3 Hok3 Hl3.
  apply good_bind_pure; [apply Parse_ok|]. intros ti. cbv zeta.
  apply good_bind with (d1 := 4%nat) (d2 := 0%nat); [lia|apply good_read_u32; exact Hok3|].
  intros cnt r4 Hok4 Hl4.
  apply good_bind with (d1 := 0%nat) (d2 := 0%nat); [lia| |].
  - apply good_repeat_parse with (r0 := r4); auto; try lia.
    intros r' Hok' Hl'. apply good_weaken with (d := 16%nat); [lia|]. apply IH; auto. lia.
  - intros comp r5 Hok5 Hl5. split; [exact Hok5|lia].
Qed.

Lemma good_parse_ioargs fx fuel cnt r :
  rd_ok r -> (rlen r < fuel)%nat -> good 0 r (parse_ioargs fx fuel cnt r).
Proof.
  intros Hok Hf. unfold parse_ioargs. apply good_repeat_parse with (r0 := r); auto.
  intros r' Hok' Hl'. apply good_weaken with (d := 16%nat); [lia|]. apply good_parse_ioarg; auto. lia.
Qed.

Lemma read_byte_spec r x r' : rd_ok r -> read_byte r = Some (x, r') -> rd_ok r' /\ (rlen r' + 1 = rlen r)%nat.
Proof.
  destruct r as [rem b]. unfold rd_ok, read_byte, rlen. simpl. intros Hok.
  destruct rem as [|y t]; [discriminate|]. intros H; inversion H; subst; clear H. simpl.
  split; [|lia]. rewrite nlen_cons in *.
  destruct (b =? 0) eqn:E; [|apply N.eqb_neq in E]; unfold bufsize; lia.
Qed.

Definition gate_len (o : op) : N := match o with INV => 8 | _ => 12 end.

Definition decode_gate (o : op) (l : list byte) : gateN :=
  match o with
  | INV => mkG INV (of_be32 (firstn 4 l)) 0 (of_be32 (skipn 4 l))
  | _ => mkG o (of_be32 (firstn 4 l)) (of_be32 (firstn 4 (skipn 4 l))) (of_be32 (skipn 8 l))
  end.

(* what both parsers check of a gate: inputs in range and set, output in range and not an input wire *)
Definition gate_chk (iw : Z) (s : seen) (g : gateN) : res seen :=
  do _ <- check_in s (g_in0 g);
  do _ <- match g_op g with INV => Ok tt | _ => check_in s (g_in1 g) end;
  match seen_set_chk iw s (g_out g) with None => Err | Some s' => Ok s' end.

Lemma gate_chk_bind {B} iw s g (k : seen -> res B) :
  bind (gate_chk iw s g) k =
  do _ <- check_in s (g_in0 g);
  do _ <- match g_op g with INV => Ok tt | _ => check_in s (g_in1 g) end;
  match seen_set_chk iw s (g_out g) with None => Err | Some s' => k s' end.
Proof.
  unfold gate_chk. destruct (check_in s (g_in0 g)) as [[]| | |]; cbn [bind]; try reflexivity.
  destruct (g_op g); try (destruct (check_in s (g_in1 g)) as [[]| | |]); cbn [bind]; try reflexivity.
  all: destruct (seen_set_chk iw s (g_out g)); reflexivity.
Qed.

(* the five opcode branches of the gate loop of ParseMPCLC are one: read the wire ids, check them
   against the wires seen so far ([gate_chk]), record the gate *)
Lemma mpclc_gates_step fx9 iw f ng r s gate acc :
  mpclc_gates fx9 iw (S f) ng r s gate acc =
  match read_byte r with
  | None => Ok (rev acc, s, gate)
  | Some (opb, r1) =>
      if fx9 && (ng <=? gate) then Err
      else match op_of_code opb with
           | None => Err
           | Some o =>
               do (l, r2) <- read_full (gate_len o) r1;
               do s' <- gate_chk iw s (decode_gate o l);
               if ng <=? gate then Panic
               else mpclc_gates fx9 iw f ng r2 s' (gate + 1) (decode_gate o l :: acc)
           end
  end.
Proof.
  cbn [mpclc_gates]. destruct (read_byte r) as [[opb r1]|]; [|reflexivity].
  destruct (fx9 && (ng <=? gate)); [reflexivity|].
  destruct (op_of_code opb) as [o|]; [|reflexivity].
  destruct o; cbn [gate_len].
  all: destruct (read_full _ r1) as [[l r2]| | |]; [|reflexivity..].
  all: cbn [bind]; rewrite gate_chk_bind; reflexivity.
Qed.

Lemma check_in_ok_or_err s i : ok_or_err (check_in s i).
Proof. unfold check_in. destruct (seen_get s i) as [[|]|]; exact I. Qed.

Lemma gate_chk_ok_or_err iw s g : ok_or_err (gate_chk iw s g).
Proof.
  unfold gate_chk. apply ok_or_err_bind; [apply check_in_ok_or_err|]. intros _.
  apply ok_or_err_bind; [destruct (g_op g); first [apply check_in_ok_or_err|exact I]|]. intros _.
  destruct (seen_set_chk iw s (g_out g)); exact I.
Qed.

(* defined before use: every gate input is < nw and defined (an input wire or the output of an
   earlier gate); every gate output is < nw *)
Fixpoint dbu (nw : N) (def : N -> Prop) (gs : list gateN) : Prop :=
  match gs with
  | [] => True
  | g :: t =>
      g_in0 g < nw /\ def (g_in0 g) /\ (g_op g <> INV -> g_in1 g < nw /\ def (g_in1 g)) /\ g_out g < nw /\
      dbu nw (fun w => def w \/ w = g_out g) t
  end.
Definition defs (def : N -> Prop) (gs : list gateN) (w : N) : Prop :=
  def w \/ exists g, In g gs /\ g_out g = w.

(* no gate writes an input wire (commit 407ba55) *)
Definition no_input_overwrite (iw : Z) (gs : list gateN) : Prop :=
  Forall (fun g => (iw <= Z.of_N (g_out g))%Z) gs.

Definition parse_sound (c : fcircuit) : Prop :=
  let nw := Z.to_N (c_numwires c) in
  let def := fun w => (Z.of_N w < io_size (c_inputs c))%Z in
  (0 <= c_numwires c)%Z /\ (io_size (c_inputs c) <= c_numwires c)%Z /\
  Z.of_nat (length (c_gates c)) = c_numgates c /\
  dbu nw def (c_gates c) /\
  (forall w, w < nw -> defs def (c_gates c) w) /\
  no_input_overwrite (io_size (c_inputs c)) (c_gates c).

Definition smem (s : seen) (w : N) : bool := PositiveSet.mem (N.succ_pos w) (s_set s).

Lemma succ_pos_inj a b : N.succ_pos a = N.succ_pos b -> a = b.
Proof. intros H. apply (f_equal Npos) in H. rewrite !N.succ_pos_spec in H. lia. Qed.

Lemma smem_add s o w : PositiveSet.mem (N.succ_pos w) (PositiveSet.add (N.succ_pos o) (s_set s)) = true <->
                       (smem s w = true \/ w = o).
Proof.
  unfold smem. rewrite !PositiveSet.mem_spec, PositiveSet.add_spec. split.
  - intros [H|H]; [right; apply succ_pos_inj; exact H|left; exact H].
  - intros [H|H]; [right; exact H|left; subst; reflexivity].
Qed.

Lemma check_in_ok s i x : check_in s i = Ok x -> i < s_len s /\ smem s i = true.
Proof.
  unfold check_in, seen_get, smem. destruct (s_len s <=? i) eqn:E; [discriminate|].
  apply N.leb_gt in E. destruct (PositiveSet.mem _ _); [auto|discriminate].
Qed.

Lemma seen_set_ok s o s' : seen_set s o = Some s' ->
  o < s_len s /\ s_len s' = s_len s /\ forall w, smem s' w = true <-> (smem s w = true \/ w = o).
Proof.
  unfold seen_set. destruct (s_len s <=? o) eqn:E; [discriminate|]. apply N.leb_gt in E.
  intros H; inversion H; subst; clear H. simpl. repeat split; auto; apply smem_add.
Qed.

Lemma seen_set_chk_some iw s o s' : seen_set_chk iw s o = Some s' ->
  seen_set s o = Some s' /\ (iw <= Z.of_N o)%Z.
Proof.
  unfold seen_set_chk. destruct (Z.of_N o <? iw)%Z eqn:E; [discriminate|]. apply Z.ltb_ge in E. auto.
Qed.

Lemma defs_nil def w : defs def [] w <-> def w.
Proof. unfold defs. split; [intros [H|(g & [] & _)]; exact H|auto]. Qed.

Lemma defs_cons def g t w : defs def (g :: t) w <-> defs (fun w => def w \/ w = g_out g) t w.
Proof.
  unfold defs. simpl. split.
  - intros [H|(g' & [<-|Hin] & E)]; [left; left; auto|left; right; auto|right; exists g'; auto].
  - intros [[H|H]|(g' & Hin & E)]; [left; auto|right; exists g; auto|right; exists g'; auto].
Qed.

Lemma gate_chk_ok iw s g s' : gate_chk iw s g = Ok s' <->
  check_in s (g_in0 g) = Ok tt /\ (g_op g <> INV -> check_in s (g_in1 g) = Ok tt) /\
  seen_set_chk iw s (g_out g) = Some s'.
Proof.
  unfold gate_chk. split.
  - intros H. apply bind_ok_inv in H as ([] & H0 & H). apply bind_ok_inv in H as ([] & H1 & H).
    destruct (seen_set_chk iw s (g_out g)) as [s1|]; [|discriminate]. injection H as <-.
    split; [exact H0|]. split; [|reflexivity].
    revert H1. destruct (g_op g); intros H1 Hne; [exact H1..|congruence].
  - intros (-> & H1 & ->). cbn [bind].
    destruct (g_op g); try (rewrite H1 by discriminate); reflexivity.
Qed.

Lemma gate_chk_sound iw s g s' : gate_chk iw s g = Ok s' ->
  (g_in0 g < s_len s /\ smem s (g_in0 g) = true) /\
  (g_op g <> INV -> g_in1 g < s_len s /\ smem s (g_in1 g) = true) /\
  g_out g < s_len s /\ (iw <= Z.of_N (g_out g))%Z /\ s_len s' = s_len s /\
  forall w, smem s' w = true <-> (smem s w = true \/ w = g_out g).
Proof.
  intros H. apply gate_chk_ok in H. destruct H as (H0 & H1 & Hchk).
  destruct (seen_set_chk_some _ _ _ _ Hchk) as [Hset Hiw].
  destruct (seen_set_ok _ _ _ Hset) as (Ho & Hlen & Hmem).
  split; [exact (check_in_ok _ _ _ H0)|]. split; [|auto].
  intros Hne. exact (check_in_ok _ _ _ (H1 Hne)).
Qed.

(* the wires-seen state threaded through a gate list, as both parsers do *)
Inductive gates_run (iw : Z) : seen -> list gateN -> seen -> Prop :=
| run_nil s : gates_run iw s [] s
| run_cons s g s1 t s' : gate_chk iw s g = Ok s1 -> gates_run iw s1 t s' -> gates_run iw s (g :: t) s'.

Lemma gates_run_sound iw s gs s' : gates_run iw s gs s' ->
  s_len s' = s_len s /\ no_input_overwrite iw gs /\
  forall def : N -> Prop, (forall w, smem s w = true <-> def w) ->
    dbu (s_len s) def gs /\ (forall w, smem s' w = true <-> defs def gs w).
Proof.
  induction 1 as [s | s g s1 t s' Hg Hrun IH].
  - split; [reflexivity|]. split; [constructor|]. intros def Hdef. split; [exact I|].
    intros w. rewrite defs_nil. apply Hdef.
  - destruct (gate_chk_sound _ _ _ _ Hg) as ([Hi0 Hm0] & H1 & Hout & Hiw & Hl1 & Hm1).
    destruct IH as (Hl & Hnio & Hinv).
    split; [congruence|]. split; [constructor; assumption|].
    intros def Hdef. destruct (Hinv (fun w => def w \/ w = g_out g)) as [Hd Hm].
    { intros w. rewrite Hm1, Hdef. reflexivity. }
    split.
    + rewrite Hl1 in Hd. cbn [dbu]. split; [exact Hi0|]. split; [apply Hdef; exact Hm0|].
      split; [|split; [exact Hout|exact Hd]].
      intros Hne. destruct (H1 Hne) as [Ha Hb]. split; [exact Ha|apply Hdef; exact Hb].
    + intros w. rewrite defs_cons. apply Hm.
Qed.

Lemma nrange_In n : forall start w, In w (nrange start n) <-> start <= w < start + N.of_nat n.
Proof.
  induction n as [|k IH]; intros start w; simpl.
  - lia.
  - rewrite IH. lia.
Qed.

Lemma fold_add_mem l : forall st w,
  PositiveSet.mem (N.succ_pos w) (fold_left (fun st i => PositiveSet.add (N.succ_pos i) st) l st) = true
  <-> (In w l \/ PositiveSet.mem (N.succ_pos w) st = true).
Proof.
  induction l as [|x t IH]; intros st w; simpl.
  - tauto.
  - rewrite IH. rewrite !PositiveSet.mem_spec, PositiveSet.add_spec. split.
    + intros [H|[H|H]]; auto. apply succ_pos_inj in H. auto.
    + intros [[H|H]|H]; auto. subst. auto.
Qed.

Lemma mark_inputs_ok nw iw s0 : mark_inputs (mkSeen nw PositiveSet.empty) iw = Some s0 ->
  s_len s0 = nw /\ (iw <= Z.of_N nw)%Z /\ forall w, smem s0 w = true <-> (Z.of_N w < iw)%Z.
Proof.
  unfold mark_inputs. simpl. destruct (Z.of_N nw <? iw)%Z eqn:E; [discriminate|]. apply Z.ltb_ge in E.
  intros H; inversion H; subst; clear H. simpl. repeat split; auto.
  - unfold smem. simpl. rewrite fold_add_mem, nrange_In. intros [Hr|Hm]; [lia|].
    apply PositiveSet.mem_spec in Hm. exfalso. revert Hm. apply PositiveSet.empty_spec.
  - unfold smem. simpl. rewrite fold_add_mem, nrange_In. intros Hw. left. lia.
Qed.

Lemma all_seen_ok s : all_seen s = true -> forall w, w < s_len s -> smem s w = true.
Proof.
  unfold all_seen. rewrite forallb_forall. intros H w Hw. apply H. apply nrange_In. lia.
Qed.

(* what the checks of either parser establish: the input wires are marked, every gate passes
   [gate_chk] in turn, and at the end every wire is seen (the converse is [parse_sound_run] in
   MarshalRoundTrip.v) *)
Lemma run_parse_sound ng nw ins outs gs s0 s :
  mark_inputs (mkSeen nw PositiveSet.empty) (io_size ins) = Some s0 ->
  gates_run (io_size ins) s0 gs s -> all_seen s = true -> Z.of_nat (length gs) = ng ->
  parse_sound (mkFC ng (Z.of_N nw) ins outs gs).
Proof.
  intros Em Hrun Hall Hng.
  destruct (mark_inputs_ok _ _ _ Em) as (Hl0 & Hiw & Hm0).
  destruct (gates_run_sound _ _ _ _ Hrun) as (Hl & Hnio & Hinv).
  destruct (Hinv (fun w => (Z.of_N w < io_size ins)%Z) Hm0) as [Hd Hm].
  unfold parse_sound. cbn [c_numwires c_numgates c_inputs c_gates]. rewrite N2Z.id. rewrite Hl0 in *.
  split; [lia|]. split; [exact Hiw|]. split; [exact Hng|]. split; [exact Hd|]. split; [|exact Hnio].
  intros w Hw. apply Hm. apply all_seen_ok; [exact Hall|]. rewrite Hl. exact Hw.
Qed.

Lemma rd_ok_init bs : rd_ok (bs, 0).
Proof. unfold rd_ok. simpl. lia. Qed.

Lemma mpclc_gates_post fx9 iw fuel : forall ng r s gate acc, rd_ok r -> (rlen r < fuel)%nat ->
  returns (fx9 = false)
    (fun '(gs, s', n) => exists new, gs = rev acc ++ new /\ n = gate + nlen new /\ gates_run iw s new s')
    (mpclc_gates fx9 iw fuel ng r s gate acc).
Proof.
  induction fuel as [|f IH]; intros ng r s gate acc Hok Hf; [lia|]. rewrite mpclc_gates_step.
  destruct (read_byte r) as [[opb r1]|] eqn:Hb.
  2:{ exists []. rewrite app_nil_r, N.add_0_r. split; [reflexivity|]. split; [reflexivity|constructor]. }
  destruct (read_byte_spec _ _ _ Hok Hb) as [Hok1 Hl1].
  destruct (fx9 && (ng <=? gate)) eqn:Eg; [exact I|].
  destruct (op_of_code opb) as [o|]; [|exact I].
  apply returns_bind_good with (d := N.to_nat (gate_len o)) (r := r1); [apply good_read_full; exact Hok1|].
  intros l r2 Hok2 Hl2.
  apply returns_bind with (1 := returns_self _ _ (gate_chk_ok_or_err iw s (decode_gate o l))). intros s1 Hg.
  destruct (ng <=? gate).
  - destruct fx9; [discriminate|reflexivity].
  - apply returns_impl with (2 := IH ng r2 s1 (gate + 1) (decode_gate o l :: acc) Hok2 ltac:(lia)).
    intros [[gs s'] n] (new & -> & -> & Hrun). exists (decode_gate o l :: new).
    split; [cbn [rev]; rewrite <- app_assoc; reflexivity|].
    split; [rewrite nlen_cons; lia|]. econstructor; eassumption.
Qed.

(* ParseMPCLC in all four variants: total, a crash only without the gate bound check, and what
   is accepted satisfies [parse_sound] *)
Theorem parse_mpclc_post fx9 fx10 bs : returns (fx9 = false) parse_sound (parse_mpclc fx9 fx10 bs).
Proof.
  unfold parse_mpclc. cbv zeta.
  apply returns_bind_good with (d := 20%nat) (r := (bs, 0)); [exact (good_read_full 20 _ (rd_ok_init bs))|].
  intros h r1 Hok1 Hl1. change (rlen (bs, 0)) with (length bs) in Hl1.
  set (ng := of_be32 (firstn 4 (skipn 4 h))).
  apply returns_bind_good with (d := 0%nat) (r := r1); [apply good_parse_ioargs; [exact Hok1|lia]|].
  intros ins r2 Hok2 Hl2.
  apply returns_bind_good with (d := 0%nat) (r := r2); [apply good_parse_ioargs; [exact Hok2|lia]|].
  intros outs r3 Hok3 Hl3.
  destruct (mark_inputs _ _) as [s0|] eqn:Em; [|exact I].
  apply returns_bind with (1 := mpclc_gates_post fx9 (io_size ins) (S (length bs)) ng r3 s0 0 [] Hok3 ltac:(lia)).
  intros [[gs s] gate] (new & -> & -> & Hrun).
  destruct (0 + nlen new =? ng) eqn:E1; [|exact I]. destruct (all_seen s) eqn:E2; [|exact I].
  apply N.eqb_eq in E1.
  apply (run_parse_sound _ _ _ _ _ _ _ Em Hrun E2). rewrite <- E1. unfold nlen. lia.
Qed.

Theorem mpclc_sound fx9 fx10 bs c : parse_mpclc fx9 fx10 bs = Ok c -> parse_sound c.
Proof. exact (returns_ok (parse_mpclc_post fx9 fx10 bs)). Qed.

Lemma mpclc_total fx9 fx10 bs : parse_mpclc fx9 fx10 bs <> Fuel.
Proof. intros E. pose proof (parse_mpclc_post fx9 fx10 bs) as H. rewrite E in H. exact H. Qed.

Lemma mpclc_no_panic fx10 bs : parse_mpclc true fx10 bs <> Panic.
Proof. intros E. pose proof (parse_mpclc_post true fx10 bs) as H. rewrite E in H. discriminate. Qed.

Lemma mpclc_ok_or_err bs : ok_or_err (ParseMPCLC bs).
Proof.
  pose proof (parse_mpclc_post true true bs) as H. unfold ParseMPCLC.
  destruct (parse_mpclc true true bs); [exact I..|discriminate H|exact H].
Qed.

Lemma ltrim_head ulen fuel : forall l, (length l <= fuel)%nat ->
  match ltrim_gen ulen fuel l with [] => True | x :: _ => ascii_space x = false end.
Proof.
  induction fuel as [|f IH]; intros l Hl.
  - destruct l; simpl in *; [exact I|lia].
  - destruct l as [|x t]; simpl; [exact I|]. destruct (ascii_space x) eqn:E.
    + apply IH. simpl in Hl. lia.
    + destruct (ulen (x :: t)) as [|k] eqn:Eu; [exact E|].
      apply IH. rewrite skipn_length. simpl in *. lia.
Qed.

Lemma fields_aux_nonempty l : forall cur,
  (cur <> [] \/ exists y, In y l /\ ascii_space y = false) -> fields_aux l cur <> [].
Proof.
  induction l as [|x t IH]; intros cur H; simpl.
  - destruct H as [H|(y & [] & _)]. destruct cur; [congruence|discriminate].
  - destruct (ascii_space x) eqn:E.
    + destruct cur; [|discriminate]. apply IH. right.
      destruct H as [H|(y & [Hx|Hy] & Hs)]; [exfalso; apply H; reflexivity|subst; rewrite E in Hs; discriminate|eauto].
    + apply IH. left. discriminate.
Qed.

Lemma trim_fields_nonempty l : trim_space l <> [] -> fields (trim_space l) <> [].
Proof.
  unfold trim_space, fields. set (l1 := ltrim_gen uspace_len (length l) l).
  pose proof (ltrim_head uspace_len_rev (length (rev l1)) (rev l1) (le_n _)) as H.
  rewrite rev_length in H. destruct (ltrim_gen uspace_len_rev (length l1) (rev l1)) as [|x t]; [simpl; intros C; exfalso; apply C; reflexivity|].
  intros _. apply fields_aux_nonempty. right. exists x. split; auto.
  apply in_rev. rewrite rev_involutive. left; reflexivity.
Qed.

Lemma bristol_lines_nonempty bs : Forall (fun l => l <> []) (bristol_lines bs).
Proof.
  unfold bristol_lines. apply Forall_forall. intros fs Hin.
  apply in_map_iff in Hin. destruct Hin as (l & <- & Hl). apply filter_In in Hl. destruct Hl as [Hl Hne].
  apply in_map_iff in Hl. destruct Hl as (raw & <- & _).
  apply trim_fields_nonempty. destruct (trim_space raw); [discriminate|discriminate].
Qed.

Lemma bristol_ins_post line : forall n base s, (base + n <= length line)%nat ->
  returns False (fun l => length l = n /\ Forall (fun v => check_in s v = Ok tt) l) (bristol_ins line base n s).
Proof.
  induction n as [|k IH]; intros base s H; simpl; [split; [reflexivity|constructor]|].
  destruct (nth_error line base) as [f|] eqn:E.
  2:{ apply nth_error_None in E. lia. }
  destruct (parse_uint32 f) as [v|]; [|exact I].
  apply returns_bind with (1 := returns_self _ _ (check_in_ok_or_err s v)). intros [] Hc.
  apply returns_bind with (1 := IH (S base) s ltac:(lia)). intros l [Hl Hf].
  split; [simpl; lia|constructor; assumption].
Qed.

Lemma bristol_outs_post iw line : forall n base s, (base + n <= length line)%nat ->
  returns False
    (fun '(l, s') => length l = n /\
       fold_left (fun st v => match st with Some s1 => seen_set_chk iw s1 v | None => None end) l (Some s) = Some s')
    (bristol_outs iw line base n s).
Proof.
  induction n as [|k IH]; intros base s H; simpl; [split; reflexivity|].
  destruct (nth_error line base) as [f|] eqn:E.
  2:{ apply nth_error_None in E. lia. }
  destruct (parse_uint32 f) as [v|]; [|exact I]. destruct (seen_set_chk iw s v) as [s1|] eqn:Ev; [|exact I].
  apply returns_bind with (1 := IH (S base) s1 ltac:(lia)). intros [l s'] [Hl Hf].
  split; [simpl; lia|]. cbn [fold_left]. rewrite Ev. exact Hf.
Qed.

Lemma bristol_gate_line_post iw line s :
  returns False (fun '(g, s') => gate_chk iw s g = Ok s') (bristol_gate_line iw line s).
Proof.
  unfold bristol_gate_line. destruct (length line <? 3)%nat eqn:El; [exact I|]. apply Nat.ltb_ge in El.
  destruct (nth_error line 0) as [f0|] eqn:E0. 2:{ apply nth_error_None in E0. lia. }
  destruct (nth_error line 1) as [f1|] eqn:E1. 2:{ apply nth_error_None in E1. lia. }
  destruct (atoi f0) as [n1|]; [|exact I]. destruct (atoi f1) as [n2|]; [|exact I].
  destruct ((n1 <? 0)%Z || (n2 <? 0)%Z) eqn:Eneg; [exact I|].
  apply orb_false_iff in Eneg. destruct Eneg as [Hn1 Hn2]. apply Z.ltb_ge in Hn1, Hn2.
  destruct (negb (2 + n1 + n2 + 1 =? Z.of_nat (length line))%Z) eqn:Ecnt; [exact I|].
  apply negb_false_iff, Z.eqb_eq in Ecnt.
  apply returns_bind with (1 := bristol_ins_post line (Z.to_nat n1) 2 s ltac:(lia)). intros ins [_ Hins].
  apply returns_bind with (1 := bristol_outs_post iw line (Z.to_nat n2) (2 + Z.to_nat n1) s ltac:(lia)).
  intros [outs s'] [_ Hout].
  destruct (op_of_name (last line [])) as [o|]; [|exact I].
  destruct (length ins =? _)%nat eqn:Ei; [|exact I]. destruct (length outs =? 1)%nat eqn:Eo; [|exact I].
  destruct ins as [|i0 rest]; [destruct o; discriminate|]. destruct outs as [|o1 [|? ?]]; try discriminate.
  inversion Hins as [|? ? Hc0 Hrest]; subst.
  apply gate_chk_ok. cbn [g_op g_in0 g_in1 g_out].
  split; [exact Hc0|]. split; [|exact Hout].
  intros Hne. destruct rest as [|i1 ?]; [destruct o; try discriminate; congruence|].
  inversion Hrest; assumption.
Qed.

Lemma bristol_gates_post iw ng lines : forall s gate,
  returns False (fun '(gs, s', n) => n = (gate + Z.of_nat (length gs))%Z /\ gates_run iw s gs s')
    (bristol_gates iw ng lines s gate).
Proof.
  induction lines as [|line rest IH]; intros s gate; simpl; [split; [lia|constructor]|].
  destruct (ng <=? gate)%Z; [exact I|].
  apply returns_bind with (1 := bristol_gate_line_post iw line s). intros [g s1] Hg.
  apply returns_bind with (1 := IH s1 (gate + 1)%Z). intros [[gs s'] n] [-> Hrun].
  split; [simpl length; lia|]. econstructor; eassumption.
Qed.

Lemma bristol_io_np pre fs : forall i, ok_or_err (bristol_io pre i fs).
Proof.
  induction fs as [|f t IH]; intros i; simpl; [exact I|].
  destruct (parse_int32 f) as [b|]; [|exact I]. destruct (b <? 0)%Z; [exact I|].
  apply ok_or_err_bind; [apply IH|]. intros l. exact I.
Qed.

(* ParseBristol never indexes out of range, and what it accepts satisfies [parse_sound] *)
Theorem bristol_post bs : returns False parse_sound (ParseBristol bs).
Proof.
  unfold ParseBristol. pose proof (bristol_lines_nonempty bs) as Hne.
  destruct (bristol_lines bs) as [|l1 rest1]; [exact I|].
  destruct l1 as [|f0 [|f1 [|? ?]]]; try exact I.
  destruct (atoi f0) as [ng|]; [|exact I]. destruct (_ || _); [exact I|].
  destruct (atoi f1) as [nw|]; [|exact I].
  destruct (nw <? 0)%Z eqn:Hnw0; [exact I|]. apply Z.ltb_ge in Hnw0. destruct (_ || _); [exact I|].
  destruct rest1 as [|l2 rest2]; [exact I|].
  inversion Hne as [|? ? _ Hne1]; subst. inversion Hne1 as [|? ? Hl2 Hne2]; subst.
  destruct l2 as [|g0 gt]; [congruence|].
  destruct (atoi g0) as [niv|]; [|exact I]. destruct (negb _); [exact I|].
  apply returns_bind with (Q := fun _ => True); [apply bristol_io_np|]. intros ins _.
  destruct (io_size ins =? 0)%Z; [exact I|]. destruct (mark_inputs _ _) as [s0|] eqn:Em; [|exact I].
  destruct rest2 as [|l3 rest3]; [exact I|]. inversion Hne2 as [|? ? Hl3 _]; subst.
  destruct l3 as [|h0 ht]; [congruence|].
  destruct (atoi h0) as [nov|]; [|exact I]. destruct (negb _); [exact I|].
  apply returns_bind with (Q := fun _ => True); [apply bristol_io_np|]. intros outs _.
  apply returns_bind with (1 := bristol_gates_post (io_size ins) ng rest3 s0 0%Z). intros [[gs s] gate] [-> Hrun].
  destruct (_ =? ng)%Z eqn:E1; [|exact I]. destruct (all_seen s) eqn:E2; [|exact I]. apply Z.eqb_eq in E1.
  cbn [negb returns]. rewrite <- (Z2N.id nw Hnw0). apply (run_parse_sound _ _ _ _ _ _ _ Em Hrun E2). lia.
Qed.

Theorem bristol_total bs : ok_or_err (ParseBristol bs).
Proof. exact (returns_ok_or_err (bristol_post bs)). Qed.

Theorem bristol_sound bs c : ParseBristol bs = Ok c -> parse_sound c.
Proof. exact (returns_ok (bristol_post bs)). Qed.

(* finding F9: one gate more than the header announces *)
Definition f9_witness : list byte :=
  be32 (Z.to_N circuit_MAGIC) ++ be32 0 ++ be32 2 ++ be32 1 ++ be32 0 ++
  be32 0 ++ be32 2 ++ [117; 49] ++ be32 1 ++ be32 0 ++
  [0] ++ be32 0 ++ be32 0 ++ be32 1.

(* regression record: before commit 99bac0d the parser crashed on this file *)
Lemma mpclc_prefix_no_panic_refuted : exists bs, ParseMPCLC_prefix bs = Panic.
Proof. exists f9_witness. vm_compute. reflexivity. Qed.

Example f9_witness_now : ParseMPCLC f9_witness = Err.
Proof. vm_compute. reflexivity. Qed.

Definition uint1 : info := mkInfo types_TUint true 1 1 [] None 0.

(* finding F10: a circuit whose first input name is longer than what bufio has buffered.  With
   io.ReadFull in parseString the file parses back to exactly the circuit; with the single Read
   of the code before commit dace4fa (fx10 = false) the parser rejected its own output. *)
Lemma mpclc_prefix_roundtrip_refuted :
  exists c, ParseMPCLC (Marshal c) = Ok c /\ ParseMPCLC_prefix (Marshal c) = Err.
Proof.
  exists (mkFC 1 2 [mkIO (zeros 5000) uint1 []] [mkIO [] uint1 []] [mkG INV 0 0 1]).
  split; vm_compute; reflexivity.
Qed.

Definition ex_circuit : fcircuit :=
  mkFC 5 8
    [mkIO [97] (mkInfo types_TStruct true 2 2 [uint1; uint1] None 0) [mkIO [120] uint1 []; mkIO [] uint1 []];
     mkIO [] (mkInfo types_TArray true 1 1 [] (Some uint1) 1) []]
    [mkIO [114] (mkInfo types_TUint true 2 2 [] None 0) []]
    [mkG XOR 0 1 3; mkG AND 3 2 4; mkG OR 4 0 5; mkG INV 5 0 6; mkG XNOR 6 5 7].

Example ex_mpclc_roundtrip :
  match ParseMPCLC (Marshal ex_circuit) with
  | Ok c => Marshal c = Marshal ex_circuit /\ c_gates c = c_gates ex_circuit
  | _ => False end.
Proof. vm_compute. split; reflexivity. Qed.

Example ex_bristol_roundtrip :
  match ParseBristol (MarshalBristol ex_circuit) with
  | Ok c => MarshalBristol c = MarshalBristol ex_circuit /\ c_gates c = c_gates ex_circuit
  | _ => False end.
Proof. vm_compute. split; reflexivity. Qed.
