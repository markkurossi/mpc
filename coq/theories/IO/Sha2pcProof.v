(* Sha2pcProof.v — the sha2pc codec / round model (IO/Sha2pcCodec.v), property
   C18.  Each primitive reader (uvarint, chunk, fixed-width field, slice, point
   block) comes with what it returns on an encoder's output, what an Ok result
   says about its input, and that it never panics; the five codecs (Round1,
   Round2, Round3, garbler and evaluator session) are put together from these:
   round trip, accepted length, canonical form, rejection.  The protocol run
   and the op histories use of a codec only its round trip. *)
From Coq Require Import ZArith NArith List Bool Arith Lia.
From Mpc Require Import Gen.Consts Base.ListFacts Base.Codec Base.CodecProof IO.Sha2pcCodec.
Import ListNotations.
Open Scope N_scope.

(* the shift-based primitives are the Base.Codec primitives *)

Lemma be_s_be k : forall x, be_s k x = be k x.
Proof.
  induction k as [|k IH]; intros x; cbn [be_s be]; [reflexivity|].
  rewrite IH, N.shiftr_div_pow2. change (2 ^ 8) with 256.
  change 255 with (N.ones 8). rewrite N.land_ones. reflexivity.
Qed.

Lemma of_be_s_of_be l : of_be_s l = of_be l.
Proof.
  unfold of_be_s, of_be. generalize 0. induction l as [|b l IH]; intros a; cbn [fold_left]; [reflexivity|].
  rewrite IH, N.shiftl_mul_pow2. reflexivity.
Qed.

Lemma byte_bits_N_to_bits k : forall x, byte_bits k x = N_to_bits k x.
Proof.
  induction k as [|k IH]; intros x; cbn [byte_bits N_to_bits]; [reflexivity|].
  rewrite IH, N.div2_div. reflexivity.
Qed.

Lemma be_s_length k x : length (be_s k x) = k.
Proof. rewrite be_s_be. apply be_length. Qed.

Lemma of_be_s_be_s k x : x < 256 ^ N.of_nat k -> of_be_s (be_s k x) = x.
Proof. intros H. rewrite of_be_s_of_be, be_s_be, of_be_be. apply N.mod_small; exact H. Qed.

Lemma bits_to_N_byte_bits k : forall x, bits_to_N (byte_bits k x) = x mod 2 ^ N.of_nat k.
Proof.
  induction k as [|k IH]; intros x; cbn [byte_bits bits_to_N].
  - cbn. rewrite N.mod_1_r. reflexivity.
  - rewrite IH, Nat2N.inj_succ, N.pow_succ_r'.
    assert (Hp : 2 ^ N.of_nat k <> 0) by (apply N.pow_nonzero; lia).
    rewrite N.mod_mul_r by lia.
    rewrite N.div2_div.
    replace (if N.odd x then 1 else 0) with (x mod 2).
    2:{ rewrite <- N.bit0_mod, N.bit0_odd. destruct (N.odd x); reflexivity. }
    lia.
Qed.

Lemma byte_bits_length k x : length (byte_bits k x) = k.
Proof. revert x; induction k as [|k IH]; intros x; cbn [byte_bits length]; [reflexivity|]. rewrite IH. reflexivity. Qed.

Lemma bitsToBytesLittle_8 b0 b1 b2 b3 b4 b5 b6 b7 t :
  bitsToBytesLittle (b0 :: b1 :: b2 :: b3 :: b4 :: b5 :: b6 :: b7 :: t)
  = bits_to_N [b0; b1; b2; b3; b4; b5; b6; b7] :: bitsToBytesLittle t.
Proof. reflexivity. Qed.

Theorem bits_bytes_roundtrip bs :
  Forall (fun b => b < 256) bs -> bitsToBytesLittle (bytesToBitsLittle bs) = bs.
Proof.
  induction 1 as [|b bs Hb _ IH]; [reflexivity|].
  unfold bytesToBitsLittle in *. cbn [flat_map].
  pose proof (byte_bits_length 8 b) as L. pose proof (bits_to_N_byte_bits 8 b) as E.
  destruct (byte_bits 8 b) as [|? l]; [discriminate|].
  do 7 (destruct l as [|? l]; [discriminate|]). destruct l; [|discriminate].
  cbn [app]. rewrite bitsToBytesLittle_8, IH, E.
  change (2 ^ N.of_nat 8) with 256. rewrite N.mod_small by exact Hb. reflexivity.
Qed.

Lemma bytesToBitsLittle_length bs : length (bytesToBitsLittle bs) = (8 * length bs)%nat.
Proof.
  unfold bytesToBitsLittle. induction bs as [|b bs IH]; [reflexivity|].
  cbn [flat_map length]. rewrite app_length, byte_bits_length, IH. lia.
Qed.

Lemma byte_bits_0 : forall k, byte_bits k 0 = repeat false k.
Proof. induction k as [|k IH]; [reflexivity|]. cbn [byte_bits repeat]. f_equal. exact IH. Qed.

Lemma byte_bits_of_bits : forall k l, (length l <= k)%nat ->
  byte_bits k (bits_to_N l) = l ++ repeat false (k - length l).
Proof.
  induction k as [|k IH]; intros l H.
  - destruct l; [reflexivity|cbn [length] in H; lia].
  - destruct l as [|b l]; [apply byte_bits_0|].
    cbn [length] in H. cbn [byte_bits bits_to_N length Nat.sub app].
    set (x := bits_to_N l).
    assert (O : N.odd ((if b then 1 else 0) + 2 * x) = b).
    { rewrite N.odd_add_mul_2. destruct b; reflexivity. }
    assert (D : N.div2 ((if b then 1 else 0) + 2 * x) = x).
    { rewrite N.div2_div. symmetry. destruct b; [apply (N.div_unique _ 2 x 1)|apply (N.div_unique _ 2 x 0)]; lia. }
    rewrite O, D. f_equal. apply IH. lia.
Qed.

Theorem bytes_bits_roundtrip_pad : forall bits,
  exists pad, (pad < 8)%nat /\
    bytesToBitsLittle (bitsToBytesLittle bits) = bits ++ repeat false pad /\
    (length bits + pad = 8 * length (bitsToBytesLittle bits))%nat /\
    length (bitsToBytesLittle bits) = ((length bits + 7) / 8)%nat.
Proof.
  intros bits. remember (length bits) as n eqn:Hn. revert bits Hn.
  induction n as [n IH] using lt_wf_ind. intros bits Hn.
  destruct bits as [|b0 [|b1 [|b2 [|b3 [|b4 [|b5 [|b6 [|b7 t]]]]]]]].
  1:{ exists 0%nat. cbn. subst. repeat split; lia. }
  (* a full byte, then the tail *)
  8:{ destruct (IH (length t)) with (bits := t) as (pad & Hp & E & L & L2); [cbn in Hn; lia|reflexivity|].
      exists pad. rewrite bitsToBytesLittle_8. unfold bytesToBitsLittle in *. cbn [flat_map].
      rewrite E. rewrite (byte_bits_of_bits 8 [b0; b1; b2; b3; b4; b5; b6; b7]) by (cbn; lia).
      cbn [length Nat.sub repeat app]. subst n. cbn [length] in *.
      assert (D : forall m, ((8 + m + 7) / 8 = S ((m + 7) / 8))%nat).
      { intros m. replace (8 + m + 7)%nat with (1 * 8 + (m + 7))%nat by lia.
        rewrite Nat.div_add_l by lia. lia. }
      specialize (D (length t)). cbn [Nat.add] in D.
      repeat split; try lia. }
  (* 1 to 7 bits: one padded byte *)
  all: subst n; match goal with |- context [bitsToBytesLittle ?l] =>
         exists (8 - length l)%nat; change (bitsToBytesLittle l) with [bits_to_N l];
         unfold bytesToBitsLittle; cbn [flat_map]; rewrite app_nil_r, byte_bits_of_bits by (cbn; lia);
         cbn; repeat split; lia end.
Qed.

Corollary firstn_bytes_bits bits :
  firstn (length bits) (bytesToBitsLittle (bitsToBytesLittle bits)) = bits.
Proof.
  destruct (bytes_bits_roundtrip_pad bits) as (pad & _ & E & _). rewrite E.
  rewrite firstn_app, Nat.sub_diag, firstn_all. cbn. apply app_nil_r.
Qed.

Lemma sign_bytes_length bits : length bits = evaluatorCiphertextCount ->
  length (bitsToBytesLittle bits) = evaluatorChoiceSignBytes.
Proof.
  intros H. destruct (bytes_bits_roundtrip_pad bits) as (pad & _ & _ & _ & L). rewrite L, H. reflexivity.
Qed.

Lemma nth_byte_bits : forall k j x, (j < k)%nat -> nth j (byte_bits k x) false = N.testbit x (N.of_nat j).
Proof.
  induction k as [|k IH]; intros j x H; [lia|]. cbn [byte_bits].
  destruct j as [|j]; cbn [nth].
  - symmetry. apply N.bit0_odd.
  - rewrite IH by lia. rewrite N.div2_spec, N.shiftr_spec', N.add_1_r, Nat2N.inj_succ. reflexivity.
Qed.

Lemma testbit_nth : forall bs i, (i / 8 < length bs)%nat ->
  nth i (bytesToBitsLittle bs) false = N.testbit (nth (i / 8) bs 0) (N.of_nat (i mod 8)).
Proof.
  unfold bytesToBitsLittle.
  induction bs as [|b bs IH]; intros i H; [cbn in H; lia|].
  cbn [flat_map]. destruct (Nat.lt_ge_cases i 8) as [Hi|Hi].
  - rewrite app_nth1 by (rewrite byte_bits_length; exact Hi).
    rewrite Nat.div_small, Nat.mod_small by exact Hi. cbn [nth]. apply nth_byte_bits; exact Hi.
  - rewrite app_nth2 by (rewrite byte_bits_length; exact Hi). rewrite byte_bits_length.
    assert (Hd : (i / 8 = S ((i - 8) / 8))%nat).
    { replace i with ((i - 8) + 1 * 8)%nat at 1 by lia. rewrite Nat.div_add by lia. lia. }
    assert (Hm : (i mod 8 = (i - 8) mod 8)%nat).
    { replace i with ((i - 8) + 1 * 8)%nat at 1 by lia. rewrite Nat.mod_add by lia. reflexivity. }
    rewrite Hd, Hm. cbn [nth]. apply IH. cbn [length] in H. lia.
Qed.

Lemma bytes_eqb_eq a : forall b, bytes_eqb a b = true <-> a = b.
Proof.
  unfold bytes_eqb.
  induction a as [|x a IH]; intros [|y b]; cbn [list_eqb]; split; intros H; try reflexivity; try discriminate.
  - apply andb_prop in H. destruct H as [H1 H2]. apply N.eqb_eq in H1. apply IH in H2. subst. reflexivity.
  - injection H as -> ->. rewrite N.eqb_refl. apply (proj2 (IH b)). reflexivity.
Qed.

Lemma bytes_eqb_refl a : bytes_eqb a a = true.
Proof. apply bytes_eqb_eq. reflexivity. Qed.

Lemma bytes_eqb_neq a b : a <> b -> bytes_eqb a b = false.
Proof. intros H. destruct (bytes_eqb a b) eqn:E; [|reflexivity]. apply bytes_eqb_eq in E. contradiction. Qed.

(* The outcome monad.  [not_panic] goals about a decoder are closed by
   [auto with np] (bind preserves it, no primitive reader panics: the [np_*]
   lemmas).  An [Ok] result of a bind chain is taken apart one step at a time
   by the [*_bind_inv] lemmas, each about one piece in front of the rest of
   the chain [k]; [apply ... in H] finds [k] by unification. *)

Definition not_panic {A} (r : res A) : Prop := r <> Panic.

Lemma bind_np {A B} (r : res A) (f : A -> res B) :
  not_panic r -> (forall a, not_panic (f a)) -> not_panic (bind r f).
Proof. unfold not_panic. destruct r; cbn; intros H1 H2; [apply H2|discriminate|contradiction]. Qed.

Lemma np_Ok {A} (a : A) : not_panic (Ok a).
Proof. discriminate. Qed.

Lemma np_Err {A} : not_panic (@Err A).
Proof. discriminate. Qed.

Lemma np_guard b : not_panic (guard b).
Proof. destruct b; discriminate. Qed.

Create HintDb np discriminated.
#[export] Hint Resolve np_Ok np_Err bind_np np_guard : np.
#[export] Hint Extern 1 (not_panic (match ?x with pair _ _ => _ end)) => destruct x : np.

Lemma not_ok_err {A} (r : res A) : not_panic r -> (forall a, r <> Ok a) -> r = Err.
Proof. destruct r; intros H1 H2; [exfalso; apply (H2 a); reflexivity|reflexivity|exfalso; apply H1; reflexivity]. Qed.

Lemma Ok_inj {A} (a b : A) : Ok a = Ok b -> a = b.
Proof. intros H. congruence. Qed.

Lemma bind_ok_inv {A B} (r : res A) (f : A -> res B) b :
  bind r f = Ok b -> exists a, r = Ok a /\ f a = Ok b.
Proof. destruct r; cbn; intros H; try discriminate. eexists; split; [reflexivity|exact H]. Qed.

Lemma guard_bind_inv {B} c (r : res B) b : (_ <- guard c ;; r) = Ok b -> c = true /\ r = Ok b.
Proof. destruct c; [split; [reflexivity|assumption]|discriminate]. Qed.

Lemma guard_eqb_bind_inv {B} x y (r : res B) b : (_ <- guard (bytes_eqb x y) ;; r) = Ok b -> x = y /\ r = Ok b.
Proof. intros H. apply guard_bind_inv in H as [E H]. apply bytes_eqb_eq in E. split; assumption. Qed.

Lemma guard_nat_bind_inv {B} n m (r : res B) b : (_ <- guard (n =? m)%nat ;; r) = Ok b -> n = m /\ r = Ok b.
Proof. intros H. apply guard_bind_inv in H as [E H]. apply Nat.eqb_eq in E. split; assumption. Qed.

Definition is_bytes (l : bytes) : Prop := Forall (fun b => b < 256) l.

Lemma is_bytes_app a b : is_bytes (a ++ b) <-> is_bytes a /\ is_bytes b.
Proof. apply Forall_app. Qed.

Lemma is_bytes_firstn n l : is_bytes l -> is_bytes (firstn n l).
Proof. intros H. rewrite <- (firstn_skipn n l) in H. apply is_bytes_app in H. apply H. Qed.

Lemma is_bytes_skipn n l : is_bytes l -> is_bytes (skipn n l).
Proof. intros H. rewrite <- (firstn_skipn n l) in H. apply is_bytes_app in H. apply H. Qed.

Definition fits (bl : nat) (v : N) : Prop := v < 256 ^ N.of_nat bl.

Definition fits2 (w : nat) (p : N * N) : Prop := fits w (fst p) /\ fits w (snd p).

Lemma be_s_of_be_s k l : is_bytes l -> length l = k -> be_s k (of_be_s l) = l.
Proof.
  intros H <-. revert H. rewrite be_s_be, of_be_s_of_be.
  induction l as [|b l IH] using rev_ind; intros H; [reflexivity|].
  apply is_bytes_app in H. destruct H as [Hl Hb]. inversion Hb as [|? ? Hb' _]; subst.
  rewrite app_length, of_be_app. cbn [length]. rewrite Nat.add_comm. cbn [Nat.add be].
  replace ((of_be l * 256 + b) / 256) with (of_be l) by (apply (N.div_unique _ 256 _ b); lia).
  replace ((of_be l * 256 + b) mod 256) with b by (apply (N.mod_unique _ 256 (of_be l) b); lia).
  rewrite IH by exact Hl. reflexivity.
Qed.

Lemma of_be_s_fits k l : is_bytes l -> length l = k -> fits k (of_be_s l).
Proof.
  intros H <-. revert H. rewrite of_be_s_of_be. unfold fits.
  induction l as [|b l IH] using rev_ind; intros H; [cbn; lia|].
  apply is_bytes_app in H. destruct H as [Hl Hb]. inversion Hb as [|? ? Hb' _]; subst.
  rewrite app_length, of_be_app. cbn [length]. rewrite Nat.add_comm. cbn [Nat.add].
  rewrite Nat2N.inj_succ, N.pow_succ_r'. specialize (IH Hl). lia.
Qed.

Lemma of_be_s_sid sid8 : is_bytes sid8 -> length sid8 = 8%nat -> of_be_s sid8 < 2 ^ 64.
Proof. exact (of_be_s_fits 8 sid8). Qed.

Lemma land_shift_zero a b s : a < 2 ^ s -> N.land a (b * 2 ^ s) = 0.
Proof.
  intros H. apply N.bits_inj_0. intros k. rewrite N.land_spec.
  destruct (N.lt_ge_cases k s) as [Hk|Hk].
  - rewrite N.mul_pow2_bits_low by exact Hk. apply andb_false_r.
  - replace (N.testbit a k) with false; [reflexivity|]. symmetry.
    destruct (N.eq_dec a 0) as [->|Ha]; [apply N.bits_0|].
    apply N.bits_above_log2. apply N.log2_lt_pow2; [lia|].
    eapply N.lt_le_trans; [exact H|]. apply N.pow_le_mono_r; lia.
Qed.

Lemma lor_shiftl_add a b s : a < 2 ^ s -> N.lor a (N.shiftl b s) = a + b * 2 ^ s.
Proof.
  intros H. rewrite N.shiftl_mul_pow2.
  pose proof (land_shift_zero a b s H) as Z.
  rewrite <- N.lxor_lor by exact Z. symmetry. apply N.add_nocarry_lxor. exact Z.
Qed.

Lemma lor_128 m : m < 128 -> N.lor m 128 = m + 128.
Proof.
  intros H. change (N.lor m 128) with (N.lor m (N.shiftl 1 7)).
  rewrite lor_shiftl_add by exact H. reflexivity.
Qed.

Lemma land_127 x : N.land x 127 = x mod 128.
Proof. change 127 with (N.ones 7). apply N.land_ones. Qed.

Lemma shiftr_7 x : N.shiftr x 7 = x / 128.
Proof. apply N.shiftr_div_pow2. Qed.

Lemma uvarint_cont_byte x :
  let b := N.lor (N.land x 127) 128 in (b <? 128) = false /\ N.land b 127 = x mod 128.
Proof.
  cbv zeta. rewrite !land_127.
  pose proof (N.mod_lt x 128 ltac:(lia)) as Hm.
  rewrite lor_128 by exact Hm. split.
  - apply N.ltb_ge. lia.
  - replace (x mod 128 + 128) with (x mod 128 + 1 * 128) by lia.
    rewrite N.mod_add by lia. apply N.mod_small; exact Hm.
Qed.

Lemma put_uvarint_fuel_S f x : put_uvarint_fuel (S f) x =
  if x <? 128 then [x] else (N.lor (N.land x 127) 128) :: put_uvarint_fuel f (N.shiftr x 7).
Proof. reflexivity. Qed.

Lemma read_uvarint_from_S i f x s b r : read_uvarint_from i (S f) x s (b :: r) =
  if b <? 128 then (if (i =? 9)%nat && (1 <? b) then Err else Ok (N.lor x (N.shiftl b s), r))
  else read_uvarint_from (S i) f (N.lor x (N.shiftl (N.land b 127) s)) (s + 7) r.
Proof. reflexivity. Qed.

(* with f+1 bytes left of the ten, a value below 2 * 128^f is read back:
   the tenth byte may only be 0 or 1 *)
Lemma read_put_uvarint : forall f i x acc s rest,
  (i + S f = 10)%nat -> x < 2 * 128 ^ N.of_nat f -> acc < 2 ^ s ->
  read_uvarint_from i (S f) acc s (put_uvarint_fuel (S f) x ++ rest) = Ok (acc + x * 2 ^ s, rest).
Proof.
  induction f as [|f IH]; intros i x acc s rest Hi Hx Hacc; rewrite put_uvarint_fuel_S.
  - change (2 * 128 ^ N.of_nat 0) with 2 in Hx.
    assert (E : (x <? 128) = true) by (apply N.ltb_lt; lia).
    rewrite E. cbn [app]. rewrite read_uvarint_from_S, E.
    replace (1 <? x) with false by (symmetry; apply N.ltb_ge; lia).
    rewrite andb_false_r, lor_shiftl_add by exact Hacc. reflexivity.
  - destruct (x <? 128) eqn:E.
    + cbn [app]. rewrite read_uvarint_from_S, E.
      replace (i =? 9)%nat with false by (symmetry; apply Nat.eqb_neq; lia).
      cbn [andb]. rewrite lor_shiftl_add by exact Hacc. reflexivity.
    + pose proof (uvarint_cont_byte x) as [B1 B2]. cbv zeta in B1, B2.
      rewrite <- app_comm_cons, read_uvarint_from_S, B1, B2, shiftr_7, lor_shiftl_add by exact Hacc.
      pose proof (N.mod_lt x 128 ltac:(lia)) as Hm.
      assert (Hp : 0 < 2 ^ s) by (apply N.neq_0_lt_0, N.pow_nonzero; lia).
      assert (Hmp : x mod 128 * 2 ^ s <= 127 * 2 ^ s) by (apply N.mul_le_mono_r; lia).
      rewrite IH.
      * f_equal. f_equal. rewrite N.pow_add_r. change (2 ^ 7) with 128.
        rewrite (N.div_mod x 128) at 3 by lia. ring.
      * lia.
      * apply N.div_lt_upper_bound; [lia|]. rewrite Nat2N.inj_succ, N.pow_succ_r' in Hx. lia.
      * rewrite N.pow_add_r. change (2 ^ 7) with 128. lia.
Qed.

Lemma read_uvarint_put n rest : n < 2 ^ 64 -> read_uvarint (put_uvarint n ++ rest) = Ok (n, rest).
Proof.
  intros H. unfold read_uvarint, put_uvarint.
  rewrite read_put_uvarint; [|reflexivity|exact H|reflexivity].
  rewrite N.mul_1_r. reflexivity.
Qed.

Lemma put_uvarint_fuel_length : forall k f n, (k < f)%nat ->
  128 ^ N.of_nat k <= n < 128 ^ N.of_nat (S k) -> length (put_uvarint_fuel f n) = S k.
Proof.
  induction k as [|k IH]; intros f n Hf Hn; (destruct f as [|f]; [lia|]); rewrite put_uvarint_fuel_S.
  - replace (n <? 128) with true by (symmetry; apply N.ltb_lt; apply Hn). reflexivity.
  - destruct Hn as [Lo Hi]. rewrite Nat2N.inj_succ, N.pow_succ_r' in Lo by lia.
    assert (0 < 128 ^ N.of_nat k) by (apply N.neq_0_lt_0, N.pow_nonzero; lia).
    replace (n <? 128) with false by (symmetry; apply N.ltb_ge; lia).
    cbn [length]. f_equal. apply IH; [lia|]. rewrite shiftr_7. split.
    + apply N.div_le_lower_bound; lia.
    + apply N.div_lt_upper_bound; [lia|]. rewrite (Nat2N.inj_succ (S k)), N.pow_succ_r' in Hi by lia. exact Hi.
Qed.

Lemma put_uvarint_length k n : (k < 10)%nat -> 128 ^ N.of_nat k <= n < 128 ^ N.of_nat (S k) ->
  length (put_uvarint n) = S k.
Proof. apply put_uvarint_fuel_length. Qed.

Lemma put_uvarint_small n : n < 128 -> put_uvarint n = [n].
Proof. intros H. apply N.ltb_lt in H. unfold put_uvarint. rewrite put_uvarint_fuel_S, H. reflexivity. Qed.

Lemma put_uvarint_length2 n : 128 <= n < 16384 -> length (put_uvarint n) = 2%nat.
Proof. apply (put_uvarint_length 1). lia. Qed.

Lemma put_uvarint_length3 n : 16384 <= n < 2097152 -> length (put_uvarint n) = 3%nat.
Proof. apply (put_uvarint_length 2). lia. Qed.

(* what ReadUvarint consumed; if it consumed exactly as many
   bytes as PutUvarint writes for the value, it consumed PutUvarint's bytes *)
Lemma read_uvarint_from_inv : forall fuel i acc s r v r1,
  read_uvarint_from i fuel acc s r = Ok (v, r1) -> acc < 2 ^ s ->
  exists pre x, r = pre ++ r1 /\ pre <> [] /\ v = acc + x * 2 ^ s /\
    (is_bytes r -> length pre = length (put_uvarint_fuel fuel x) -> pre = put_uvarint_fuel fuel x).
Proof.
  induction fuel as [|fuel IH]; intros i acc s r v r1 H Hacc; [discriminate|].
  destruct r as [|b r']; [discriminate|]. rewrite read_uvarint_from_S in H.
  destruct (b <? 128) eqn:Eb.
  - destruct ((i =? 9)%nat && (1 <? b)); [discriminate|]. apply Ok_inj in H. injection H as <- <-.
    exists [b], b. rewrite lor_shiftl_add by exact Hacc. repeat split; try discriminate.
    intros _ _. rewrite put_uvarint_fuel_S, Eb. reflexivity.
  - apply N.ltb_ge in Eb. rewrite land_127 in H.
    pose proof (N.mod_lt b 128 ltac:(lia)) as Hlt.
    rewrite lor_shiftl_add in H by exact Hacc.
    assert (Hp : 0 < 2 ^ s) by (apply N.neq_0_lt_0, N.pow_nonzero; lia).
    assert (Hmp : b mod 128 * 2 ^ s <= 127 * 2 ^ s) by (apply N.mul_le_mono_r; lia).
    apply IH in H; [|rewrite N.pow_add_r; change (2 ^ 7) with 128; lia].
    destruct H as (pre' & x' & -> & Hne & -> & Hmin).
    exists (b :: pre'), (b mod 128 + 128 * x'). repeat split; try discriminate.
    + rewrite N.pow_add_r. change (2 ^ 7) with 128. ring.
    + (* a byte string: b < 256, so b = b mod 128 + 128, the continuation byte of the value *)
      intros B L. inversion B as [|? ? Bb Br]; subst. clear B Hmp Hacc IH.
      set (x := b mod 128 + 128 * x') in *.
      assert (Xm : x mod 128 = b mod 128) by (symmetry; apply (N.mod_unique _ 128 x' (b mod 128)); clear - Hlt; lia).
      assert (Xd : x / 128 = x') by (symmetry; apply (N.div_unique _ 128 x' (b mod 128)); clear - Hlt; lia).
      rewrite put_uvarint_fuel_S in *. destruct (x <? 128) eqn:Ex.
      * cbn [length] in L. destruct pre'; [contradiction|discriminate].
      * assert (Hb : b = b mod 128 + 128).
        { clear - Eb Bb. rewrite <- (N.mod_unique b 128 1 (b - 128)); lia. }
        rewrite land_127, shiftr_7, Xm, Xd, lor_128, <- Hb in * by exact Hlt.
        f_equal. cbn [length] in L. apply Hmin; [exact Br|lia].
Qed.

Lemma np_read_uvarint_from : forall fuel i x s r, not_panic (read_uvarint_from i fuel x s r).
Proof.
  unfold not_panic. induction fuel as [|f IH]; intros i x s r; cbn [read_uvarint_from]; [discriminate|].
  destruct r as [|b r]; [discriminate|]. destruct (b <? 128).
  - destruct ((i =? 9)%nat && (1 <? b)); discriminate.
  - apply IH.
Qed.

Lemma read_full_app k a r : length a = k -> read_full k (a ++ r) = Ok (a, r).
Proof.
  intros <-. unfold read_full. rewrite app_length.
  replace (length a <=? length a + length r)%nat with true by (symmetry; apply Nat.leb_le; lia).
  rewrite firstn_app_exact, skipn_app_exact by reflexivity. reflexivity.
Qed.

Lemma read_full_bind_inv {B} n r (k : bytes -> bytes -> res B) b :
  ('(a, r') <- read_full n r ;; k a r') = Ok b -> exists a r', r = a ++ r' /\ length a = n /\ k a r' = Ok b.
Proof.
  unfold read_full. destruct (n <=? length r)%nat eqn:E; [|discriminate]. apply Nat.leb_le in E.
  cbn [bind]. intros H. exists (firstn n r), (skipn n r).
  rewrite firstn_skipn, firstn_length. repeat split; [lia|exact H].
Qed.

Lemma np_read_full k r : not_panic (read_full k r).
Proof. unfold read_full, not_panic. destruct (k <=? length r)%nat; discriminate. Qed.

(* the limit is whatever the regenerated Gen/Consts.v says: only the closed
   examples (vm_compute) evaluate sha2pc_chunkSizeLimit; everything that needs
   "the encoders' chunks fit the limit" takes it from [chunk_limit_ok] below *)
Lemma read_chunk_write_chunk data rest :
  N.of_nat (length data) <= chunkSizeLimit -> N.of_nat (length data) < 2 ^ 64 -> data ++ rest <> [] ->
  read_chunk (write_chunk data ++ rest) = Ok (data, rest).
Proof.
  intros Hl H64 Hne. unfold read_chunk, write_chunk. rewrite <- app_assoc.
  rewrite read_uvarint_put by exact H64.
  cbn [bind].
  replace (length (put_uvarint (N.of_nat (length data)) ++ data ++ rest) - length (data ++ rest))%nat
    with (length (put_uvarint (N.of_nat (length data)))) by (rewrite (app_length (put_uvarint _)); lia).
  rewrite Nat.eqb_refl. cbn [guard bind].
  replace (chunkSizeLimit <? N.of_nat (length data)) with false by (symmetry; apply N.ltb_ge; exact Hl).
  replace (N.of_nat (length (data ++ rest)) <? N.of_nat (length data)) with false
    by (symmetry; apply N.ltb_ge; rewrite app_length; lia).
  destruct (data ++ rest) eqn:E; [contradiction|]. rewrite <- E.
  rewrite Nat2N.id, firstn_app_exact, skipn_app_exact by reflexivity. reflexivity.
Qed.

Lemma read_chunk_inv r d rest : read_chunk r = Ok (d, rest) ->
  exists pre, r = pre ++ d ++ rest /\ length pre = length (put_uvarint (N.of_nat (length d))) /\
    N.of_nat (length d) <= chunkSizeLimit /\
    (is_bytes r -> pre = put_uvarint (N.of_nat (length d))).
Proof.
  unfold read_chunk. intros H. apply bind_ok_inv in H as ([n r1] & U & H).
  apply guard_nat_bind_inv in H as [G H].
  destruct (chunkSizeLimit <? n) eqn:E1; [discriminate|]. apply N.ltb_ge in E1.
  destruct (N.of_nat (length r1) <? n) eqn:E2; [discriminate|]. apply N.ltb_ge in E2.
  destruct r1 as [|b0 r1'] eqn:Er1; [discriminate|]. rewrite <- Er1 in *. clear Er1.
  apply Ok_inj in H. injection H as <- <-.
  unfold read_uvarint in U. apply read_uvarint_from_inv in U; [|reflexivity].
  destruct U as (pre & x & -> & Hne & Hv & Hmin). rewrite N.mul_1_r, N.add_0_l in Hv. subst x.
  rewrite app_length in G. replace (length pre + length r1 - length r1)%nat with (length pre) in G by lia.
  assert (Ln : length (firstn (N.to_nat n) r1) = N.to_nat n) by (rewrite firstn_length; lia).
  rewrite Ln, N2Nat.id. exists pre. rewrite firstn_skipn. repeat split; try assumption.
  intros B. apply Hmin; assumption.
Qed.

Lemma np_read_chunk r : not_panic (read_chunk r).
Proof.
  unfold read_chunk. apply bind_np; [apply np_read_uvarint_from|]. intros [n r1].
  apply bind_np; [apply np_guard|]. intros _.
  unfold not_panic. destruct (chunkSizeLimit <? n); [discriminate|].
  destruct (N.of_nat (length r1) <? n); [discriminate|]. destruct r1; discriminate.
Qed.

(* Length prefixes.  readChunk compares the decoded uvarint as an UNSIGNED
   64-bit value with chunkSizeLimit, and only then with the remaining bytes;
   the model compares in N.  For EVERY value the uvarint may decode to
   (the whole range up to 2^64-1, in particular >= 2^63 where a signed
   conversion would turn negative) a length above the limit or above the
   remaining bytes is an error — of readChunk and of every decoder that
   reaches the field. *)
Lemma read_chunk_rejects_large r n r1 :
  read_uvarint r = Ok (n, r1) -> chunkSizeLimit < n \/ N.of_nat (length r1) < n ->
  read_chunk r = Err.
Proof.
  intros U H. unfold read_chunk. rewrite U. cbn [bind].
  destruct (length r - length r1 =? length (put_uvarint n))%nat; [|reflexivity]. cbn [guard bind].
  destruct (chunkSizeLimit <? n) eqn:E1; [reflexivity|]. apply N.ltb_ge in E1.
  destruct H as [H|H]; [lia|]. apply N.ltb_lt in H. rewrite H. reflexivity.
Qed.

Lemma no_trailing_bind_inv {B} r (k : res B) b : (_ <- no_trailing r ;; k) = Ok b -> r = [] /\ k = Ok b.
Proof.
  unfold no_trailing. intros H. apply guard_nat_bind_inv in H as [L H]. split; [|exact H].
  destruct r; [reflexivity|discriminate].
Qed.

Lemma np_no_trailing r : not_panic (no_trailing r).
Proof. apply np_guard. Qed.

#[export] Hint Resolve np_read_full np_read_chunk np_no_trailing : np.

Lemma write_fixed_ok bl v : fits bl v -> write_fixed bl v = Ok (be_s bl v).
Proof. intros H. apply N.leb_gt in H. unfold write_fixed. rewrite H. reflexivity. Qed.

Lemma read_fixed_be bl v r : fits bl v -> read_fixed bl (be_s bl v ++ r) = Ok (v, r).
Proof.
  intros H. unfold read_fixed. rewrite read_full_app by apply be_s_length. cbn [bind].
  rewrite of_be_s_be_s by exact H. reflexivity.
Qed.

Lemma read_fixed_bind_inv {B} bl r (k : N -> bytes -> res B) b :
  ('(v, r') <- read_fixed bl r ;; k v r') = Ok b ->
  exists f r', r = f ++ r' /\ length f = bl /\ k (of_be_s f) r' = Ok b.
Proof.
  unfold read_fixed. intros H. apply bind_ok_inv in H as ([v r'] & R & H).
  apply read_full_bind_inv in R as (f & r1 & -> & L & R). apply Ok_inj in R. injection R as <- <-.
  exists f, r1. repeat split; assumption.
Qed.

Lemma np_read_fixed bl r : not_panic (read_fixed bl r).
Proof. unfold read_fixed. auto with np. Qed.

#[export] Hint Resolve np_read_fixed : np.

Lemma write_fixed_list_ok bl vs : Forall (fits bl) vs -> write_fixed_list bl vs = Ok (flat_map (be_s bl) vs).
Proof.
  induction 1 as [|v vs Hv _ IH]; [reflexivity|]. cbn [write_fixed_list flat_map].
  rewrite write_fixed_ok by exact Hv. cbn [bind]. rewrite IH. reflexivity.
Qed.

Lemma read_fixed_list_ok bl vs r : Forall (fits bl) vs ->
  read_fixed_list bl (length vs) (flat_map (be_s bl) vs ++ r) = Ok (vs, r).
Proof.
  induction 1 as [|v vs Hv _ IH]; [reflexivity|]. cbn [length read_fixed_list flat_map].
  rewrite <- app_assoc, read_fixed_be by exact Hv. cbn [bind]. rewrite IH. reflexivity.
Qed.

Lemma flat_map_be_s_length bl vs : length (flat_map (be_s bl) vs) = (bl * length vs)%nat.
Proof. induction vs as [|v vs IH]; cbn [flat_map length]; [lia|]. rewrite app_length, be_s_length, IH. lia. Qed.

Lemma read_fixed_list_bind_inv bl : forall n B r (k : list N -> bytes -> res B) b,
  ('(vs, r') <- read_fixed_list bl n r ;; k vs r') = Ok b ->
  exists fs r', r = concat fs ++ r' /\ length fs = n /\ Forall (fun f => length f = bl) fs /\
    k (map of_be_s fs) r' = Ok b.
Proof.
  induction n as [|n IH]; intros B r k b H; cbn [read_fixed_list] in H.
  - exists [], r. repeat split; [constructor|exact H].
  - apply bind_ok_inv in H as ([vs r'] & R & H).
    apply read_fixed_bind_inv in R as (f & r1 & -> & Lf & R).
    apply IH in R as (fs & r2 & -> & Lfs & Ffs & R). apply Ok_inj in R. injection R as <- <-.
    exists (f :: fs), r2. cbn [concat map length]. rewrite <- app_assoc.
    repeat split; [congruence|constructor; assumption|exact H].
Qed.
Arguments read_fixed_list_bind_inv bl n {B}.

Lemma np_read_fixed_list bl : forall k r, not_panic (read_fixed_list bl k r).
Proof. induction k as [|k IH]; intros r; cbn [read_fixed_list]; auto 7 with np. Qed.

#[export] Hint Resolve np_read_fixed_list : np.

Lemma concat_length_fixed {A} bl (fs : list (list A)) :
  Forall (fun f => length f = bl) fs -> length (concat fs) = (bl * length fs)%nat.
Proof. induction 1 as [|f fs Hf _ IH]; [cbn; lia|]. cbn [concat length]. rewrite app_length, IH, Hf. lia. Qed.

Lemma flat_map_be_s_of_be_s bl fs : Forall (fun f => length f = bl) fs -> is_bytes (concat fs) ->
  flat_map (be_s bl) (map of_be_s fs) = concat fs /\ Forall (fits bl) (map of_be_s fs).
Proof.
  induction 1 as [|f fs Hf _ IH]; intros B; [split; constructor|].
  cbn [concat] in B. apply is_bytes_app in B. destruct B as [Bf Bfs].
  destruct (IH Bfs) as [E F]. cbn [map flat_map concat]. rewrite E. split.
  - f_equal. apply be_s_of_be_s; assumption.
  - constructor; [apply of_be_s_fits; assumption|exact F].
Qed.

Lemma slice_ok data lo hi : (lo <= hi)%nat -> (hi <= length data)%nat ->
  slice data lo hi = Ok (firstn (hi - lo) (skipn lo data)).
Proof.
  intros H1 H2. apply Nat.leb_le in H1, H2. unfold slice. rewrite H1, H2. reflexivity.
Qed.

Lemma slice_eq data pre mid post lo hi :
  data = pre ++ mid ++ post -> lo = length pre -> hi = (lo + length mid)%nat ->
  slice data lo hi = Ok mid.
Proof.
  intros -> -> ->. rewrite slice_ok by (rewrite ?app_length; lia).
  rewrite skipn_app_exact by reflexivity.
  replace (length pre + length mid - length pre)%nat with (length mid) by lia.
  rewrite firstn_app_exact by reflexivity. reflexivity.
Qed.

Lemma split_be_app w : forall k a b, length a = (w * k)%nat -> split_be w k (a ++ b) = split_be w k a.
Proof.
  induction k as [|k IH]; intros a b L; cbn [split_be]; [reflexivity|].
  assert (Hw : (w <= length a)%nat) by lia.
  rewrite firstn_app, skipn_app.
  replace (w - length a)%nat with 0%nat by lia. cbn [firstn skipn]. rewrite app_nil_r.
  rewrite IH by (rewrite skipn_length; lia). reflexivity.
Qed.

Lemma split_be_flat w : forall vs, Forall (fits w) vs ->
  split_be w (length vs) (flat_map (be_s w) vs) = vs.
Proof.
  induction 1 as [|v vs Hv _ IH]; [reflexivity|]. cbn [length split_be flat_map].
  rewrite firstn_app_exact, skipn_app_exact by apply be_s_length. rewrite IH, of_be_s_be_s by exact Hv. reflexivity.
Qed.

Lemma split_be_length w : forall k d, length (split_be w k d) = k.
Proof. induction k as [|k IH]; intros d; cbn [split_be length]; [reflexivity|]. rewrite IH. reflexivity. Qed.

Lemma flat_split_be w : forall k d, length d = (w * k)%nat -> is_bytes d ->
  flat_map (be_s w) (split_be w k d) = d /\ Forall (fits w) (split_be w k d).
Proof.
  induction k as [|k IH]; intros d L B; cbn [split_be flat_map].
  - rewrite Nat.mul_0_r in L. destruct d; [split; constructor|discriminate].
  - assert (Lf : length (firstn w d) = w) by (rewrite firstn_length; lia).
    destruct (IH (skipn w d)) as [E F]; [rewrite skipn_length; lia|apply is_bytes_skipn; exact B|].
    rewrite E. split.
    + rewrite be_s_of_be_s by (assumption || apply is_bytes_firstn, B). apply firstn_skipn.
    + constructor; [|exact F]. apply of_be_s_fits; [apply is_bytes_firstn, B|exact Lf].
Qed.

Lemma pairs_unpairs l : pairs (unpairs l) = l.
Proof. unfold unpairs. induction l as [|[a b] l IH]; [reflexivity|]. cbn [flat_map app fst snd pairs]. rewrite IH. reflexivity. Qed.

Lemma unpairs_pairs : forall n l, length l = (2 * n)%nat -> unpairs (pairs l) = l /\ length (pairs l) = n.
Proof.
  unfold unpairs. induction n as [|n IH]; intros l L.
  - destruct l; [split; reflexivity|discriminate].
  - destruct l as [|a [|b l]]; try (cbn in L; lia).
    destruct (IH l) as [E Ln]; [cbn in L; lia|]. cbn [pairs flat_map app fst snd length]. rewrite E, Ln. split; reflexivity.
Qed.

Lemma unpairs_length l : length (unpairs l) = (2 * length l)%nat.
Proof. unfold unpairs. induction l as [|p l IH]; [reflexivity|]. cbn [flat_map app length]. rewrite IH. lia. Qed.

Lemma unpairs_fits w l : Forall (fits2 w) l -> Forall (fits w) (unpairs l).
Proof. unfold unpairs. induction 1 as [|p l [H1 H2] _ IH]; [constructor|]. cbn [flat_map app]. repeat constructor; assumption. Qed.

Lemma list_cut {A} (l : list A) n m : length l = (n + m)%nat ->
  exists a b, l = a ++ b /\ length a = n /\ length b = m.
Proof.
  intros H. exists (firstn n l), (skipn n l). rewrite firstn_skipn, firstn_length, skipn_length.
  repeat split; lia.
Qed.

Lemma pointSign_bits signs i : (i / 8 < length signs)%nat ->
  pointSign signs i = Ok (nth i (bytesToBitsLittle signs) false).
Proof.
  intros Hq. unfold pointSign. destruct signs as [|s0 sr] eqn:Es; [cbn in Hq; lia|].
  rewrite <- Es in *. unfold index.
  destruct (nth_error signs (i / 8)) as [b|] eqn:En.
  2:{ apply nth_error_None in En. lia. }
  cbn [bind]. f_equal.
  apply (nth_error_nth _ _ 0) in En. rewrite <- En. symmetry. apply testbit_nth. exact Hq.
Qed.

Lemma pointSign_pack all i d : (i < length all)%nat ->
  pointSign (packPointSigns all) i = Ok (N.odd (snd (nth i all d))).
Proof.
  intros Hi. unfold packPointSigns.
  set (bits := map (fun p : N * N => N.odd (snd p)) all).
  assert (Lb : length bits = length all) by apply map_length.
  destruct (bytes_bits_roundtrip_pad bits) as (pad & Hp & E & L1 & L2).
  rewrite pointSign_bits by (apply Nat.div_lt_upper_bound; lia).
  rewrite E, app_nth1 by lia. unfold bits.
  rewrite (nth_indep _ false (N.odd (snd d))) by (rewrite map_length; exact Hi).
  rewrite (map_nth (fun p : N * N => N.odd (snd p))). reflexivity.
Qed.

(* the first loop of decodePoints, in bounds: consecutive big-endian fields *)
Lemma decodePoints_xs_eq bl data : forall k off, (off + k * bl <= length data)%nat ->
  decodePoints_xs bl k off data = Ok (split_be bl k (skipn off data)).
Proof.
  induction k as [|k IH]; intros off H; cbn [decodePoints_xs split_be]; [reflexivity|].
  rewrite slice_ok by lia. cbn [bind]. rewrite IH by lia. cbn [bind].
  replace (off + bl - off)%nat with bl by lia. rewrite skipn_skipn. reflexivity.
Qed.

Lemma np_decodePoints_pts dec c signs : forall xs i, (i + length xs <= 8 * length signs)%nat ->
  not_panic (decodePoints_pts dec c signs i xs).
Proof.
  induction xs as [|x xs IH]; intros i H; cbn [decodePoints_pts]; [discriminate|]. cbn [length] in H.
  rewrite pointSign_bits by (apply Nat.div_lt_upper_bound; lia). cbn [bind].
  destruct (dec c x _); [|discriminate]. apply bind_np; [apply IH; lia|]. intros ps. discriminate.
Qed.

Lemma decodePoints_eq dec c xsb signs :
  length xsb = (byteLen c * evaluatorCiphertextCount)%nat -> length signs = evaluatorChoiceSignBytes ->
  decodePoints dec c (xsb ++ signs)
  = decodePoints_pts dec c signs 0 (split_be (byteLen c) evaluatorCiphertextCount xsb).
Proof.
  intros Lx Ls. unfold decodePoints.
  rewrite app_length, Lx, Ls, (Nat.mul_comm (byteLen c)), Nat.eqb_refl. cbn [guard bind].
  rewrite decodePoints_xs_eq by (rewrite app_length; lia). cbn [skipn bind].
  rewrite split_be_app by exact Lx.
  rewrite (slice_eq _ xsb signs []) by (rewrite ?app_nil_r; lia || reflexivity).
  reflexivity.
Qed.

Lemma decodePoints_cases dec c rest :
  decodePoints dec c rest = Err \/
  exists xsb signs, rest = xsb ++ signs /\ length xsb = (byteLen c * evaluatorCiphertextCount)%nat /\
    length signs = evaluatorChoiceSignBytes /\
    decodePoints dec c rest = decodePoints_pts dec c signs 0 (split_be (byteLen c) evaluatorCiphertextCount xsb).
Proof.
  destruct (Nat.eq_dec (length rest) (byteLen c * evaluatorCiphertextCount + evaluatorChoiceSignBytes)) as [L|L].
  - right. destruct (list_cut rest _ _ L) as (xsb & signs & -> & Lx & Ls).
    exists xsb, signs. repeat split; try assumption. apply decodePoints_eq; assumption.
  - left. unfold decodePoints. replace (length rest =? _)%nat with false; [reflexivity|].
    symmetry. apply Nat.eqb_neq. lia.
Qed.

(* the slice and index expressions of decodePoints are in bounds because of
   the exact length check in front of them *)
Lemma np_decodePoints dec c rest : not_panic (decodePoints dec c rest).
Proof.
  destruct (decodePoints_cases dec c rest) as [->|(xsb & signs & _ & _ & Ls & ->)]; [discriminate|].
  apply np_decodePoints_pts. rewrite split_be_length, Ls. apply Nat.leb_le. reflexivity.
Qed.

#[export] Hint Resolve np_decodePoints : np.

Lemma curve_name_length c : length (curve_name c) = 5%nat.
Proof. destruct c; reflexivity. Qed.

Lemma curve_name_nonempty c : curve_name c <> [].
Proof. destruct c; discriminate. Qed.

Lemma curve_name_inj c c' : curve_name c = curve_name c' -> c = c'.
Proof. destruct c, c'; intros H; try reflexivity; discriminate. Qed.

Lemma check_name_ok c : check_name c (curve_name c) = Ok (curve_name c).
Proof. unfold check_name. destruct c; reflexivity. Qed.

Lemma write_chunk_name c : write_chunk (curve_name c) = 5 :: curve_name c.
Proof. destruct c; reflexivity. Qed.

Lemma byteLen_pos c : (28 <= byteLen c <= 66)%nat.
Proof. destruct c; cbv; lia. Qed.

Lemma fits_byte w v : (1 <= w)%nat -> v < 256 -> fits w v.
Proof.
  intros Hw Hv. unfold fits. eapply N.lt_le_trans; [exact Hv|].
  rewrite <- (N.pow_1_r 256) at 1. apply N.pow_le_mono_r; lia.
Qed.

Lemma fits_byteLen c v : v < 256 -> fits (byteLen c) v.
Proof. apply fits_byte. pose proof (byteLen_pos c). lia. Qed.

(* The chunk-size limit.  The largest chunk an encoder writes for curve c
   is the evaluator session's choice bundle: 6 + 2*byteLen + 256*byteLen + 32
   bytes (the garbler session's is 6 + 5*byteLen, the curve name 5).
   readChunk refuses chunks above chunkSizeLimit, writeChunk has no bound: the
   encodings round-trip iff the limit covers these sizes on every supported
   curve.  [chunk_limit_ok] is a hypothesis of every theorem below that needs
   it; it is discharged for the regenerated constant, by computation, only in
   Props/C18.v (C18_limit_covers_all_encodings), so that a limit that is too
   small breaks exactly that obligation. *)
Definition max_chunk (c : curve) : nat := (38 + 258 * byteLen c)%nat.
Definition chunk_limit_ok : Prop := forall c, N.of_nat (max_chunk c) <= chunkSizeLimit.
Definition chunk_limit_check : bool :=
  forallb (fun c => N.of_nat (max_chunk c) <=? chunkSizeLimit) [P224; P256; P384; P521].

Lemma chunk_limit_ok_of_check : chunk_limit_check = true -> chunk_limit_ok.
Proof.
  unfold chunk_limit_check. intros H c. rewrite forallb_forall in H.
  apply N.leb_le. apply H. destruct c; cbn; auto.
Qed.

Section LimitOK.
Hypothesis limit_ok : chunk_limit_ok.

Lemma chunk_fits n c : (n <= max_chunk c)%nat -> N.of_nat n <= chunkSizeLimit /\ N.of_nat n < 2 ^ 64.
Proof.
  intros H. pose proof (limit_ok c) as L. pose proof (byteLen_pos c) as B. unfold max_chunk in *.
  change (2 ^ 64) with 18446744073709551616. split; lia.
Qed.

Lemma read_chunk_name c rest : read_chunk (write_chunk (curve_name c) ++ rest) = Ok (curve_name c, rest).
Proof.
  destruct (chunk_fits (length (curve_name c)) c) as [A B].
  { rewrite curve_name_length. unfold max_chunk. lia. }
  apply read_chunk_write_chunk; [exact A|exact B|].
  destruct c; discriminate.
Qed.

(* The pieces the four chunk decoders are made of, each in front of the rest
   of the decoder [k]: run on what the encoders write ([_app], [_same],
   [_other]), and what an Ok result says about the input ([_inv]). *)

Lemma header_app {A} magic sid8 rest (k : bytes -> bytes -> res A) :
  length magic = 2%nat -> length sid8 = 8%nat ->
  ('(mg, r1) <- read_full 2 (magic ++ sid8 ++ rest) ;; _ <- guard (bytes_eqb mg magic) ;;
   '(sid, r2) <- read_full 8 r1 ;; k sid r2) = k sid8 rest.
Proof.
  intros L2 L8. rewrite read_full_app by exact L2. cbn [bind]. rewrite bytes_eqb_refl. cbn [guard bind].
  rewrite read_full_app by exact L8. reflexivity.
Qed.

Lemma header_inv {A} magic (k : bytes -> bytes -> res A) data m :
  ('(mg, r1) <- read_full 2 data ;; _ <- guard (bytes_eqb mg magic) ;; '(sid, r2) <- read_full 8 r1 ;; k sid r2) = Ok m ->
  exists sid8 rest, data = magic ++ sid8 ++ rest /\ length sid8 = 8%nat /\ k sid8 rest = Ok m.
Proof.
  intros H. apply read_full_bind_inv in H as (mg & r1 & -> & _ & H).
  apply guard_eqb_bind_inv in H as [-> H]. apply read_full_bind_inv in H as (sid & r2 & -> & L & H).
  exists sid, r2. repeat split; assumption.
Qed.

Lemma magic_reject_prefix (A : Type) magic data (k : bytes * bytes -> res A) :
  firstn 2 data <> magic ->
  ('(m, r1) <- read_full 2 data ;; _ <- guard (bytes_eqb m magic) ;; k (m, r1)) = Err.
Proof.
  intros H. unfold read_full. destruct (2 <=? length data)%nat; [|reflexivity].
  cbn [bind]. rewrite bytes_eqb_neq by exact H. reflexivity.
Qed.

Lemma header_reject {A} magic data (k : bytes -> bytes -> res A) : firstn 2 data <> magic ->
  ('(mg, r1) <- read_full 2 data ;; _ <- guard (bytes_eqb mg magic) ;;
   '(sid, r2) <- read_full 8 r1 ;; k sid r2) = Err.
Proof. exact (magic_reject_prefix A magic data (fun p => '(sid, r2) <- read_full 8 (snd p) ;; k sid r2)). Qed.

Lemma name_chunk_same {A} c rest (k : bytes -> bytes -> res A) :
  ('(name, r) <- read_chunk (write_chunk (curve_name c) ++ rest) ;;
   _ <- guard (bytes_eqb name (curve_name c)) ;; k name r) = k (curve_name c) rest.
Proof. rewrite read_chunk_name. cbn [bind]. rewrite bytes_eqb_refl. reflexivity. Qed.

Lemma name_chunk_other {A} c c' rest (k : bytes -> bytes -> res A) : c <> c' ->
  ('(name, r) <- read_chunk (write_chunk (curve_name c) ++ rest) ;;
   _ <- guard (bytes_eqb name (curve_name c')) ;; k name r) = Err.
Proof.
  intros Hc. rewrite read_chunk_name. cbn [bind]. rewrite bytes_eqb_neq; [reflexivity|].
  intros E. apply Hc. apply curve_name_inj. exact E.
Qed.

Lemma name_chunk_inv {A} c r (k : bytes -> bytes -> res A) b :
  ('(name, r') <- read_chunk r ;; _ <- guard (bytes_eqb name (curve_name c)) ;; k name r') = Ok b ->
  exists pre rest, r = pre ++ curve_name c ++ rest /\ length pre = 1%nat /\ (is_bytes r -> pre = [5]) /\
    k (curve_name c) rest = Ok b.
Proof.
  intros H. apply bind_ok_inv in H as ([name rest] & C & H). apply guard_eqb_bind_inv in H as [-> H].
  apply read_chunk_inv in C as (pre & -> & L & _ & M). rewrite curve_name_length in *.
  exists pre, rest. repeat split; assumption.
Qed.

(* the chunk that holds a whole session, with nothing after it *)
Lemma session_chunk_app {A} c inner (k : bytes -> res A) : (0 < length inner <= max_chunk c)%nat ->
  ('(chunk, rest) <- read_chunk (write_chunk inner) ;; _ <- no_trailing rest ;; k chunk) = k inner.
Proof.
  intros [H0 H]. destruct (chunk_fits _ c H) as [CA CB].
  rewrite <- (app_nil_r (write_chunk inner)), read_chunk_write_chunk; [reflexivity|exact CA|exact CB|].
  rewrite app_nil_r. destruct inner; [cbn in H0; lia|discriminate].
Qed.

Lemma session_chunk_inv {A} r (k : bytes -> res A) b :
  ('(chunk, rest) <- read_chunk r ;; _ <- no_trailing rest ;; k chunk) = Ok b ->
  exists pre chunk, r = pre ++ chunk /\ length pre = length (put_uvarint (N.of_nat (length chunk))) /\
    (is_bytes r -> pre = put_uvarint (N.of_nat (length chunk))) /\ k chunk = Ok b.
Proof.
  intros H. apply bind_ok_inv in H as ([chunk rest] & C & H). apply no_trailing_bind_inv in H as [-> H].
  apply read_chunk_inv in C as (pre & -> & L & _ & M). rewrite app_nil_r in *.
  exists pre, chunk. repeat split; assumption.
Qed.

(* curve-name chunk followed by fixed-width fields: the content of a session chunk *)
Lemma name_fields_length c tl : length (write_chunk (curve_name c) ++ tl) = (6 + length tl)%nat.
Proof. rewrite write_chunk_name, app_length. cbn [length]. rewrite curve_name_length. reflexivity. Qed.

Definition wf_r1 (c : curve) (m : round1) : Prop :=
  r1_sid m < 2 ^ 64 /\ r1_name m = curve_name c /\ fits (byteLen c) (r1_ax m) /\ fits (byteLen c) (r1_ay m).

Lemma EncodeRound1_wf c m : wf_r1 c m ->
  EncodeRound1 c m = Ok (magicRound1 ++ be_s 8 (r1_sid m) ++ write_chunk (curve_name c)
                         ++ be_s (byteLen c) (r1_ax m) ++ be_s (byteLen c) (r1_ay m)).
Proof.
  intros (_ & Hn & Hx & Hy). unfold EncodeRound1, encodeOTSetup.
  rewrite Hn, check_name_ok. cbn [bind]. rewrite !write_fixed_ok by assumption. reflexivity.
Qed.

Theorem r1_roundtrip c m : wf_r1 c m ->
  exists b, EncodeRound1 c m = Ok b /\ DecodeRound1 c b = Ok m /\ length b = (16 + 2 * byteLen c)%nat.
Proof.
  intros W. rewrite (EncodeRound1_wf c m W). destruct m as [sid name ax ay]. destruct W as (Hs & Hn & Hx & Hy).
  cbn [r1_sid r1_name r1_ax r1_ay] in *. subst name.
  eexists. split; [reflexivity|]. split.
  - unfold DecodeRound1. rewrite header_app by (reflexivity || apply be_s_length).
    unfold decodeOTSetup. rewrite name_chunk_same, read_fixed_be by exact Hx. cbn [bind].
    rewrite <- (app_nil_r (be_s (byteLen c) ay)), read_fixed_be by exact Hy. cbn [bind].
    rewrite bytes_eqb_refl. cbn [guard bind no_trailing length Nat.eqb].
    rewrite of_be_s_be_s by exact Hs. reflexivity.
  - rewrite write_chunk_name. rewrite !app_length. change (length magicRound1) with 2%nat.
    cbn [length]. rewrite !be_s_length, curve_name_length. lia.
Qed.

Lemma r1_inv c bs m : DecodeRound1 c bs = Ok m ->
  exists sid8 pre x y,
    bs = magicRound1 ++ sid8 ++ pre ++ curve_name c ++ x ++ y /\
    length sid8 = 8%nat /\ length pre = 1%nat /\ length x = byteLen c /\ length y = byteLen c /\
    m = mkR1 (of_be_s sid8) (curve_name c) (of_be_s x) (of_be_s y) /\
    (is_bytes bs -> pre = [5]).
Proof.
  intros H. apply header_inv in H as (sid8 & r & -> & Ls & H).
  apply bind_ok_inv in H as ([[[name x] y] rest] & D & H).
  apply name_chunk_inv in D as (pre & r1 & -> & Lp & M & D).
  apply read_fixed_bind_inv in D as (fx & r2 & -> & Lx & D).
  apply read_fixed_bind_inv in D as (fy & r3 & -> & Ly & D). apply Ok_inj in D. injection D as <- <- <- <-.
  apply guard_eqb_bind_inv in H as [_ H]. apply no_trailing_bind_inv in H as [-> H]. apply Ok_inj in H.
  rewrite app_nil_r in *. exists sid8, pre, fx, fy. repeat split; try (assumption || symmetry; assumption).
  intros B. apply M. rewrite !is_bytes_app in B. rewrite !is_bytes_app. apply B.
Qed.

Theorem r1_accept_length c bs m : DecodeRound1 c bs = Ok m -> length bs = (16 + 2 * byteLen c)%nat.
Proof.
  intros H. apply r1_inv in H. destruct H as (sid8 & pre & x & y & -> & Ls & Lp & Lx & Ly & _).
  rewrite !app_length, curve_name_length, Ls, Lp, Lx, Ly. change (length magicRound1) with 2%nat. lia.
Qed.

Theorem r1_canonical c bs m : is_bytes bs -> DecodeRound1 c bs = Ok m ->
  EncodeRound1 c m = Ok bs /\ wf_r1 c m.
Proof.
  intros B H. apply r1_inv in H. destruct H as (sid8 & pre & x & y & E & Ls & Lp & Lx & Ly & -> & M).
  specialize (M B). subst pre bs.
  rewrite !is_bytes_app in B. destruct B as (_ & Bs & _ & _ & Bx & By).
  assert (W : wf_r1 c (mkR1 (of_be_s sid8) (curve_name c) (of_be_s x) (of_be_s y))).
  { repeat split; cbn [r1_sid r1_name r1_ax r1_ay].
    - apply of_be_s_sid; assumption.
    - apply of_be_s_fits; assumption.
    - apply of_be_s_fits; assumption. }
  split; [|exact W]. rewrite (EncodeRound1_wf _ _ W). cbn [r1_sid r1_ax r1_ay]. rewrite write_chunk_name.
  rewrite !be_s_of_be_s by assumption. reflexivity.
Qed.

(* the encoding of one curve is rejected by the decoder of another: the
   curve-name chunk is compared *)
Theorem reject_curve_r1 c c' m b : c <> c' -> wf_r1 c m -> EncodeRound1 c m = Ok b -> DecodeRound1 c' b = Err.
Proof.
  intros Hc W E. rewrite (EncodeRound1_wf c m W) in E. apply Ok_inj in E. subst b.
  unfold DecodeRound1. rewrite header_app by (reflexivity || apply be_s_length).
  unfold decodeOTSetup. rewrite (name_chunk_other c c') by exact Hc. reflexivity.
Qed.

Theorem reject_magic_r1 c data : firstn 2 data <> magicRound1 -> DecodeRound1 c data = Err.
Proof. apply header_reject. Qed.

Theorem no_panic_r1 c data : not_panic (DecodeRound1 c data).
Proof. unfold DecodeRound1, decodeOTSetup. auto 30 with np. Qed.

Section R2.
  Variable decompress : curve -> N -> bool -> option (N * N).

  Definition point_ok (c : curve) (p : N * N) : Prop :=
    fits (byteLen c) (fst p) /\ decompress c (fst p) (N.odd (snd p)) = Some p.

  Definition wf_r2 (c : curve) (m : round2) : Prop :=
    r2_sid m < 2 ^ 64 /\ r2_name m = curve_name c /\
    length (r2_choices m) = evaluatorCiphertextCount /\ Forall (point_ok c) (r2_choices m).

  Lemma decodePoints_pts_ok c all : forall l pre,
    all = pre ++ l -> Forall (point_ok c) l ->
    decodePoints_pts decompress c (packPointSigns all) (length pre) (map fst l) = Ok l.
  Proof.
    induction l as [|p l IH]; intros pre E F; [reflexivity|].
    inversion F as [|? ? [Hf Hd] F']; subst. cbn [map decodePoints_pts].
    rewrite (pointSign_pack _ _ p) by (rewrite app_length; cbn [length]; lia).
    cbn [bind]. rewrite app_nth2, Nat.sub_diag by lia. cbn [nth]. rewrite Hd.
    specialize (IH (pre ++ [p])). rewrite app_length in IH. cbn [length] in IH.
    replace (length pre + 1)%nat with (S (length pre)) in IH by lia.
    rewrite IH; [reflexivity| rewrite <- app_assoc; reflexivity | exact F'].
  Qed.

  Lemma points_roundtrip c pts : length pts = evaluatorCiphertextCount -> Forall (point_ok c) pts ->
    exists b, encodePoints c pts = Ok b /\ decodePoints decompress c b = Ok pts /\
              length b = (32 + 256 * byteLen c)%nat.
  Proof.
    intros Lp Fp. unfold encodePoints. rewrite Lp, Nat.eqb_refl. cbn [guard bind].
    assert (Fx : Forall (fits (byteLen c)) (map fst pts)).
    { apply Forall_map. eapply Forall_impl; [|exact Fp]. intros p [H _]; exact H. }
    rewrite write_fixed_list_ok by exact Fx. cbn [bind].
    assert (Lsig : length (packPointSigns pts) = evaluatorChoiceSignBytes).
    { apply sign_bytes_length. rewrite map_length. exact Lp. }
    rewrite Lsig, Nat.eqb_refl. cbn [guard bind].
    assert (Lxs : length (flat_map (be_s (byteLen c)) (map fst pts)) = (byteLen c * evaluatorCiphertextCount)%nat).
    { rewrite flat_map_be_s_length, map_length, Lp. reflexivity. }
    eexists. split; [reflexivity|]. split.
    - rewrite decodePoints_eq by assumption.
      rewrite <- Lp, <- (map_length fst pts), split_be_flat by exact Fx.
      exact (decodePoints_pts_ok c pts pts [] eq_refl Fp).
    - rewrite app_length, Lxs, Lsig.
      change evaluatorCiphertextCount with 256%nat. change evaluatorChoiceSignBytes with 32%nat. lia.
  Qed.

  Theorem r2_roundtrip c m : wf_r2 c m ->
    exists b, EncodeRound2 c m = Ok b /\ DecodeRound2 decompress c b = Ok m /\
              length b = (48 + 256 * byteLen c)%nat.
  Proof.
    destruct m as [sid name pts]. intros (Hs & Hn & Lp & Fp). cbn [r2_sid r2_name r2_choices] in *. subst name.
    destruct (points_roundtrip c pts Lp Fp) as (pb & E & D & L).
    unfold EncodeRound2. cbn [r2_sid r2_choices]. rewrite E. cbn [bind].
    eexists. split; [reflexivity|]. split.
    - unfold DecodeRound2. rewrite header_app by (reflexivity || apply be_s_length).
      rewrite name_chunk_same, D. cbn [bind]. rewrite of_be_s_be_s by exact Hs. reflexivity.
    - rewrite write_chunk_name, !app_length. change (length magicRound2) with 2%nat.
      cbn [length]. rewrite be_s_length, curve_name_length, L. lia.
  Qed.
End R2.

(* the canonical form needs decompress_sound: r2_canonical in Sha2pcRoundsProof.v *)

(* the exact length is checked by the decoder *)
Theorem r2_accept_length dec c bs m : DecodeRound2 dec c bs = Ok m -> length bs = (48 + 256 * byteLen c)%nat.
Proof.
  intros H. apply header_inv in H as (sid8 & r & -> & Ls & H).
  apply name_chunk_inv in H as (pre & rest & -> & Lp & _ & H).
  apply bind_ok_inv in H as (pts & D & _). unfold decodePoints in D. apply guard_nat_bind_inv in D as [G _].
  rewrite !app_length, curve_name_length, Ls, Lp, G. change (length magicRound2) with 2%nat.
  change evaluatorCiphertextCount with 256%nat. change evaluatorChoiceSignBytes with 32%nat. lia.
Qed.

(* EncodeRound2 needs no well-formedness to say where its output begins *)
Theorem reject_curve_r2 dec c c' m b : c <> c' -> EncodeRound2 c m = Ok b -> DecodeRound2 dec c' b = Err.
Proof.
  intros Hc E. apply bind_ok_inv in E as (pts & _ & E). apply Ok_inj in E. subst b.
  unfold DecodeRound2. rewrite header_app by (reflexivity || apply be_s_length).
  apply name_chunk_other. exact Hc.
Qed.

Theorem reject_magic_r2 dec c data : firstn 2 data <> magicRound2 -> DecodeRound2 dec c data = Err.
Proof. apply header_reject. Qed.

Theorem reject_length_r2_canonical dec c sid8 rest :
  length sid8 = 8%nat -> length rest <> (evaluatorCiphertextCount * byteLen c + evaluatorChoiceSignBytes)%nat ->
  DecodeRound2 dec c (magicRound2 ++ sid8 ++ write_chunk (curve_name c) ++ rest) = Err.
Proof.
  intros L8 H. unfold DecodeRound2. rewrite header_app by (reflexivity || exact L8). rewrite name_chunk_same.
  unfold decodePoints. apply Nat.eqb_neq in H. rewrite H. reflexivity.
Qed.

Theorem no_panic_r2 dec c data : not_panic (DecodeRound2 dec c data).
Proof. unfold DecodeRound2. auto 30 with np. Qed.

Definition wf_r3 (m : round3) : Prop :=
  r3_sid m < 2 ^ 64 /\ length (r3_key m) = garblingKeyBytes /\
  length (r3_tables m) = garbledTableLabelCount /\ Forall (fits 16) (r3_tables m) /\
  length (r3_inputs m) = garblerInputLabelCount /\ Forall (fits 16) (r3_inputs m) /\
  length (r3_hints m) = outputHintCount /\ Forall (fits2 16) (r3_hints m) /\
  length (r3_cts m) = evaluatorCiphertextCount /\ Forall (fits2 16) (r3_cts m).

Section R3.
  (* the size parameters as variables; instantiated with params.go below *)
  Context {kKey nTabB nTab nInB nIn nHintB nHint nCtB nCt total : nat}.
  Hypothesis HtabB : nTabB = (16 * nTab)%nat.
  Hypothesis HinB : nInB = (16 * nIn)%nat.
  Hypothesis HhintB : nHintB = (16 * (2 * nHint))%nat.
  Hypothesis HctB : nCtB = (16 * (2 * nCt))%nat.
  Hypothesis Htotal : total = (length magicRound3 + 8 + kKey + nTabB + nInB + nHintB + nCtB)%nat.

  Notation Enc := (EncodeRound3_gen nTab nIn nHint nCt total).
  Notation Dec := (DecodeRound3_gen 8 kKey 16 nTabB nTab nInB nHintB nHint nCtB nCt total).

  (* the decoder cuts seven consecutive segments out of its input and reads
     them as labels; only the magic is compared *)
  Lemma r3_decode_segments mg sid key T I H C :
    length mg = 2%nat -> length sid = 8%nat -> length key = kKey ->
    length T = nTabB -> length I = nInB -> length H = nHintB -> length C = nCtB ->
    Dec (mg ++ sid ++ key ++ T ++ I ++ H ++ C)
    = (_ <- guard (bytes_eqb mg magicRound3) ;;
       Ok (mkR3 (of_be_s sid) key (split_be 16 nTab T) (split_be 16 nIn I)
                (pairs (split_be 16 (2 * nHint) H)) (pairs (split_be 16 (2 * nCt) C)))).
  Proof.
    intros Lm Ls Lk LT LI LH LC. change (length magicRound3) with 2%nat in Htotal.
    set (data := mg ++ sid ++ key ++ T ++ I ++ H ++ C).
    assert (Ld : length data = total) by (unfold data; rewrite !app_length; lia).
    assert (Ediv : (nInB / 16)%nat = nIn) by (rewrite HinB, Nat.mul_comm; apply Nat.div_mul; lia).
    unfold DecodeRound3_gen, decodeLabelBlock. rewrite Ld, Nat.eqb_refl, Ediv. cbn [guard bind]. cbv zeta.
    change (length magicRound3) with 2%nat.
    rewrite (slice_eq data [] mg (sid ++ key ++ T ++ I ++ H ++ C)) by (reflexivity || (rewrite Lm; reflexivity)).
    cbn [bind]. destruct (guard (bytes_eqb mg magicRound3)) as [[]| |]; cbn [bind]; try reflexivity.
    rewrite (slice_eq data mg sid (key ++ T ++ I ++ H ++ C)) by (reflexivity || lia).
    cbn [bind].
    rewrite (slice_eq data (mg ++ sid) key (T ++ I ++ H ++ C))
      by (rewrite ?app_length; (unfold data; rewrite <- !app_assoc; reflexivity) || lia).
    cbn [bind].
    rewrite (slice_eq data (mg ++ sid ++ key) T (I ++ H ++ C))
      by (rewrite ?app_length; (unfold data; rewrite <- !app_assoc; reflexivity) || lia).
    cbn [bind]. rewrite LT, Nat.eqb_refl. cbn [guard bind].
    rewrite (slice_eq data (mg ++ sid ++ key ++ T) I (H ++ C))
      by (rewrite ?app_length; (unfold data; rewrite <- !app_assoc; reflexivity) || lia).
    cbn [bind]. rewrite LI, Nat.eqb_refl. cbn [guard bind].
    rewrite (slice_eq data (mg ++ sid ++ key ++ T ++ I) H C)
      by (rewrite ?app_length; (unfold data; rewrite <- !app_assoc; reflexivity) || lia).
    cbn [bind]. rewrite LH, Nat.eqb_refl. cbn [guard bind].
    rewrite (slice_eq data (mg ++ sid ++ key ++ T ++ I ++ H) C [])
      by (rewrite ?app_length; (unfold data; rewrite <- !app_assoc, ?app_nil_r; reflexivity) || lia).
    cbn [bind]. rewrite LC, Nat.eqb_refl. reflexivity.
  Qed.

  Theorem reject_length_r3_gen data : length data <> total -> Dec data = Err.
  Proof. intros H. unfold DecodeRound3_gen. apply Nat.eqb_neq in H. rewrite H. reflexivity. Qed.

  Lemma r3_decode_cases data :
    Dec data = Err \/
    exists mg sid key T I H C, data = mg ++ sid ++ key ++ T ++ I ++ H ++ C /\
      length mg = 2%nat /\ length sid = 8%nat /\ length key = kKey /\
      length T = nTabB /\ length I = nInB /\ length H = nHintB /\ length C = nCtB /\
      Dec data = (_ <- guard (bytes_eqb mg magicRound3) ;;
                  Ok (mkR3 (of_be_s sid) key (split_be 16 nTab T) (split_be 16 nIn I)
                           (pairs (split_be 16 (2 * nHint) H)) (pairs (split_be 16 (2 * nCt) C)))).
  Proof.
    destruct (Nat.eq_dec (length data) total) as [L|L]; [right|left; apply reject_length_r3_gen; exact L].
    change (length magicRound3) with 2%nat in Htotal.
    destruct (list_cut data 2 (8 + kKey + nTabB + nInB + nHintB + nCtB)) as (mg & d1 & -> & Lm & L1); [lia|].
    destruct (list_cut d1 8 (kKey + nTabB + nInB + nHintB + nCtB)) as (sid & d2 & -> & Ls & L2); [lia|].
    destruct (list_cut d2 kKey (nTabB + nInB + nHintB + nCtB)) as (key & d3 & -> & Lk & L3); [lia|].
    destruct (list_cut d3 nTabB (nInB + nHintB + nCtB)) as (T & d4 & -> & LT & L4); [lia|].
    destruct (list_cut d4 nInB (nHintB + nCtB)) as (I & d5 & -> & LI & L5); [lia|].
    destruct (list_cut d5 nHintB nCtB) as (H & C & -> & LH & LC); [lia|].
    exists mg, sid, key, T, I, H, C. repeat (split; [assumption || reflexivity|]).
    apply r3_decode_segments; assumption.
  Qed.

  Theorem no_panic_r3_gen data : not_panic (Dec data).
  Proof.
    destruct (r3_decode_cases data) as [->|(mg & sid & key & T & I & H & C & _ & _ & _ & _ & _ & _ & _ & _ & ->)];
      auto with np.
  Qed.

  Theorem reject_magic_r3_gen data : firstn 2 data <> magicRound3 -> Dec data = Err.
  Proof.
    intros M.
    destruct (r3_decode_cases data) as [E|(mg & sid & key & T & I & H & C & -> & Lm & _ & _ & _ & _ & _ & _ & ->)];
      [exact E|].
    rewrite firstn_app_exact in M by exact Lm. rewrite bytes_eqb_neq by exact M. reflexivity.
  Qed.

  Theorem r3_roundtrip_gen m :
    r3_sid m < 2 ^ 64 -> length (r3_key m) = kKey ->
    length (r3_tables m) = nTab -> Forall (fits 16) (r3_tables m) ->
    length (r3_inputs m) = nIn -> Forall (fits 16) (r3_inputs m) ->
    length (r3_hints m) = nHint -> Forall (fits2 16) (r3_hints m) ->
    length (r3_cts m) = nCt -> Forall (fits2 16) (r3_cts m) ->
    exists b, Enc m = Ok b /\ Dec b = Ok m /\ length b = total.
  Proof.
    destruct m as [sid key tables inputs hints cts].
    cbn [r3_sid r3_key r3_tables r3_inputs r3_hints r3_cts].
    intros Hs Lk Lt Ft Li Fi Lh Fh Lc Fc.
    change (length magicRound3) with 2%nat in Htotal.
    unfold EncodeRound3_gen, encodeLabelList. cbn [r3_sid r3_key r3_tables r3_inputs r3_hints r3_cts].
    rewrite Lt, Li, Lh, Lc, !Nat.eqb_refl. cbn [guard bind].
    set (T := flat_map (be_s 16) tables). set (I := flat_map (be_s 16) inputs).
    set (H := flat_map (be_s 16) (unpairs hints)). set (C := flat_map (be_s 16) (unpairs cts)).
    assert (LT : length T = nTabB) by (unfold T; rewrite flat_map_be_s_length, Lt; lia).
    assert (LI : length I = nInB) by (unfold I; rewrite flat_map_be_s_length, Li; lia).
    assert (LH : length H = nHintB) by (unfold H; rewrite flat_map_be_s_length, unpairs_length, Lh; lia).
    assert (LC : length C = nCtB) by (unfold C; rewrite flat_map_be_s_length, unpairs_length, Lc; lia).
    assert (Lout : length (magicRound3 ++ be_s 8 sid ++ key ++ T ++ I ++ H ++ C) = total).
    { rewrite !app_length, be_s_length, Lk, LT, LI, LH, LC. change (length magicRound3) with 2%nat. lia. }
    rewrite Lout, Nat.eqb_refl. cbn [guard bind].
    eexists. split; [reflexivity|]. split; [|exact Lout].
    rewrite r3_decode_segments by (assumption || reflexivity || apply be_s_length).
    rewrite bytes_eqb_refl. cbn [guard bind]. unfold T, I, H, C.
    rewrite <- Lt, <- Li, <- Lh, <- Lc, <- !unpairs_length.
    rewrite !split_be_flat by (assumption || apply unpairs_fits; assumption).
    rewrite !pairs_unpairs, of_be_s_be_s by exact Hs. reflexivity.
  Qed.

  Theorem r3_canonical_gen bs m : is_bytes bs -> Dec bs = Ok m -> Enc m = Ok bs.
  Proof.
    intros B D.
    destruct (r3_decode_cases bs) as [E|(mg & sid & key & T & I & H & C & -> & Lm & Ls & Lk & LT & LI & LH & LC & E)];
      rewrite E in D; [discriminate|].
    apply guard_eqb_bind_inv in D as [-> D]. apply Ok_inj in D. subst m.
    rewrite !is_bytes_app in B. destruct B as (_ & Bs & _ & BT & BI & BH & BC).
    destruct (flat_split_be 16 nTab T) as [ET _]; [lia|exact BT|].
    destruct (flat_split_be 16 nIn I) as [EI _]; [lia|exact BI|].
    destruct (flat_split_be 16 (2 * nHint) H) as [EH _]; [lia|exact BH|].
    destruct (flat_split_be 16 (2 * nCt) C) as [EC _]; [lia|exact BC|].
    destruct (unpairs_pairs nHint (split_be 16 (2 * nHint) H) (split_be_length _ _ _)) as [UH LpH].
    destruct (unpairs_pairs nCt (split_be 16 (2 * nCt) C) (split_be_length _ _ _)) as [UC LpC].
    unfold EncodeRound3_gen, encodeLabelList. cbn [r3_sid r3_key r3_tables r3_inputs r3_hints r3_cts].
    rewrite !split_be_length, LpH, LpC, !Nat.eqb_refl. cbn [guard bind].
    rewrite UH, UC, ET, EI, EH, EC, be_s_of_be_s by assumption.
    rewrite (proj2 (Nat.eqb_eq _ total)); [reflexivity|]. change (length magicRound3) with 2%nat in Htotal. rewrite !app_length. cbn [length]. lia.
  Qed.
End R3.

(* The Round3 codec of params.go is the instance of the section above at the
   regenerated constants: the relations between them hold, and the 686624-byte
   table size is never evaluated in unary. *)
Lemma round3_instance :
  DecodeRound3 = DecodeRound3_gen 8 garblingKeyBytes 16 garbledTableByteLen garbledTableLabelCount
                   garblerInputLabelBytes outputHintBytes outputHintCount
                   ciphertextBytes evaluatorCiphertextCount round3PayloadLen /\
  garbledTableByteLen = (16 * garbledTableLabelCount)%nat /\
  garblerInputLabelBytes = (16 * garblerInputLabelCount)%nat /\
  outputHintBytes = (16 * (2 * outputHintCount))%nat /\
  ciphertextBytes = (16 * (2 * evaluatorCiphertextCount))%nat /\
  round3PayloadLen = (length magicRound3 + 8 + garblingKeyBytes + garbledTableByteLen
                      + garblerInputLabelBytes + outputHintBytes + ciphertextBytes)%nat.
Proof.
  assert (Big : garbledTableByteLen = (16 * garbledTableLabelCount)%nat).
  { apply Nat2Z.inj. rewrite Nat2Z.inj_mul. unfold garbledTableByteLen, garbledTableLabelCount.
    rewrite !Z2Nat.id by (unfold sha2pc_garbledTableByteLen, sha2pc_garbledTableLabelCount; lia).
    reflexivity. }
  assert (Csid : sessionIDBytes = 8%nat) by reflexivity.
  assert (Clab : labelByteLen = 16%nat) by reflexivity.
  unfold DecodeRound3, round3PayloadLen. rewrite Csid, Clab.
  split; [reflexivity|]. split; [exact Big|].
  repeat split; reflexivity.
Qed.

Theorem r3_roundtrip m : wf_r3 m ->
  exists b, EncodeRound3 m = Ok b /\ DecodeRound3 b = Ok m /\ length b = round3PayloadLen.
Proof.
  intros (Hs & Lk & Lt & Ft & Li & Fi & Lh & Fh & Lc & Fc).
  destruct round3_instance as (-> & Ctb & Cib & Chb & Ccb & Htot).
  exact (r3_roundtrip_gen Ctb Cib Chb Ccb Htot m Hs Lk Lt Ft Li Fi Lh Fh Lc Fc).
Qed.

Theorem r3_canonical bs m : is_bytes bs -> DecodeRound3 bs = Ok m -> EncodeRound3 m = Ok bs.
Proof.
  destruct round3_instance as (-> & Ctb & Cib & Chb & Ccb & Htot).
  exact (r3_canonical_gen Ctb Cib Chb Ccb Htot bs m).
Qed.

Theorem no_panic_r3 data : not_panic (DecodeRound3 data).
Proof.
  destruct round3_instance as (-> & Ctb & Cib & Chb & Ccb & Htot).
  exact (no_panic_r3_gen Ctb Cib Chb Ccb Htot data).
Qed.

Theorem reject_magic_r3 data : firstn 2 data <> magicRound3 -> DecodeRound3 data = Err.
Proof.
  destruct round3_instance as (-> & Ctb & Cib & Chb & Ccb & Htot).
  exact (reject_magic_r3_gen Ctb Cib Chb Ccb Htot data).
Qed.

Theorem reject_length_r3 data : length data <> round3PayloadLen -> DecodeRound3 data = Err.
Proof. destruct round3_instance as (-> & _). apply reject_length_r3_gen. Qed.

Theorem r3_accept_length bs m : DecodeRound3 bs = Ok m -> length bs = round3PayloadLen.
Proof.
  intros H. destruct (Nat.eq_dec (length bs) round3PayloadLen) as [E|E]; [exact E|].
  rewrite (reject_length_r3 bs E) in H. discriminate.
Qed.

Definition wf_gs (c : curve) (s : gsession) : Prop :=
  gs_sid s < 2 ^ 64 /\ gs_name s = curve_name c /\
  Forall (fits (byteLen c)) [gs_scalar s; gs_ax s; gs_ay s; gs_ainvx s; gs_ainvy s].

Lemma EncodeGarblerSession_wf c s : wf_gs c s ->
  EncodeGarblerSession c s
  = Ok (magicGarblerSession ++ be_s 8 (gs_sid s)
        ++ write_chunk (write_chunk (curve_name c)
                        ++ flat_map (be_s (byteLen c)) [gs_scalar s; gs_ax s; gs_ay s; gs_ainvx s; gs_ainvy s])).
Proof.
  intros (_ & Hn & Hf). unfold EncodeGarblerSession, encodeCOSenderSetup.
  rewrite Hn, check_name_ok. cbn [bind]. rewrite write_fixed_list_ok by exact Hf. reflexivity.
Qed.

(* the length of the encoding, and where the decoder of any curve c' arrives
   after the magic, the session id and the outer chunk *)
Lemma gs_encoding c s : wf_gs c s ->
  let inner := write_chunk (curve_name c)
               ++ flat_map (be_s (byteLen c)) [gs_scalar s; gs_ax s; gs_ay s; gs_ainvx s; gs_ainvy s] in
  exists b, EncodeGarblerSession c s = Ok b /\ length b = (18 + 5 * byteLen c)%nat /\
    forall c', DecodeGarblerSession c' b = decodeCOSenderSetup c' (gs_sid s) inner.
Proof.
  intros W inner. rewrite (EncodeGarblerSession_wf c s W). fold inner. destruct W as (Hs & _).
  assert (Li : length inner = (6 + 5 * byteLen c)%nat).
  { unfold inner. rewrite name_fields_length, flat_map_be_s_length. cbn [length]. lia. }
  pose proof (byteLen_pos c) as Hbl.
  eexists. split; [reflexivity|]. split.
  - rewrite !app_length, be_s_length. change (length magicGarblerSession) with 2%nat.
    unfold write_chunk. rewrite app_length, Li, put_uvarint_length2 by lia. lia.
  - intros c'. unfold DecodeGarblerSession. rewrite header_app by (reflexivity || apply be_s_length).
    rewrite (session_chunk_app c) by (rewrite Li; unfold max_chunk; lia).
    rewrite of_be_s_be_s by exact Hs. reflexivity.
Qed.

Theorem gs_roundtrip c s : wf_gs c s ->
  exists b, EncodeGarblerSession c s = Ok b /\ DecodeGarblerSession c b = Ok s /\
            length b = (18 + 5 * byteLen c)%nat.
Proof.
  intros W. destruct (gs_encoding c s W) as (b & E & L & D). exists b. split; [exact E|]. split; [|exact L].
  destruct W as (_ & Hn & Hf). rewrite D. unfold decodeCOSenderSetup. rewrite name_chunk_same.
  rewrite <- (app_nil_r (flat_map _ _)).
  change 5%nat with (length [gs_scalar s; gs_ax s; gs_ay s; gs_ainvx s; gs_ainvy s]).
  rewrite read_fixed_list_ok by exact Hf. cbn [bind no_trailing length Nat.eqb guard].
  rewrite <- Hn. destruct s; reflexivity.
Qed.

Lemma gs_inv c bs s : DecodeGarblerSession c bs = Ok s ->
  exists sid8 pre1 pre2 fs,
    let chunk := pre2 ++ curve_name c ++ concat fs in
    bs = magicGarblerSession ++ sid8 ++ pre1 ++ chunk /\
    length sid8 = 8%nat /\ length pre2 = 1%nat /\ length fs = 5%nat /\
    Forall (fun f => length f = byteLen c) fs /\
    length pre1 = length (put_uvarint (N.of_nat (length chunk))) /\
    (exists a b c0 d e, map of_be_s fs = [a; b; c0; d; e] /\ s = mkGS (of_be_s sid8) (curve_name c) a b c0 d e) /\
    (is_bytes bs -> pre2 = [5] /\ pre1 = put_uvarint (N.of_nat (length chunk))).
Proof.
  intros H. apply header_inv in H as (sid8 & r & -> & Ls & H).
  apply session_chunk_inv in H as (pre1 & chunk & -> & L1 & M1 & H).
  apply name_chunk_inv in H as (pre2 & r1 & -> & Lp2 & M2 & H).
  apply read_fixed_list_bind_inv in H as (fs & rest & -> & Lfs & Ffs & H).
  apply no_trailing_bind_inv in H as [-> H]. rewrite app_nil_r in *.
  exists sid8, pre1, pre2, fs. cbv zeta. split; [reflexivity|]. repeat (split; [assumption|]). split.
  - destruct (map of_be_s fs) as [|a [|b [|c0 [|d [|e [|? ?]]]]]]; try discriminate.
    apply Ok_inj in H. subst s. do 5 eexists. split; reflexivity.
  - intros B. rewrite !is_bytes_app in B. split; [apply M2|apply M1]; rewrite !is_bytes_app; apply B.
Qed.

Theorem gs_accept_length c bs s : DecodeGarblerSession c bs = Ok s -> length bs = (18 + 5 * byteLen c)%nat.
Proof.
  intros H. apply gs_inv in H. cbv zeta in H.
  destruct H as (sid8 & pre1 & pre2 & fs & -> & Ls & Lp2 & Lfs & Ffs & L1 & _). pose proof (byteLen_pos c) as Hbl.
  assert (Lc : length (pre2 ++ curve_name c ++ concat fs) = (6 + 5 * byteLen c)%nat).
  { rewrite !app_length, curve_name_length, Lp2, (concat_length_fixed _ _ Ffs), Lfs. lia. }
  rewrite Lc, put_uvarint_length2 in L1 by lia.
  rewrite app_length, app_length, app_length, Lc, Ls, L1. change (length magicGarblerSession) with 2%nat. lia.
Qed.

Theorem gs_canonical c bs s : is_bytes bs -> DecodeGarblerSession c bs = Ok s ->
  EncodeGarblerSession c s = Ok bs /\ wf_gs c s.
Proof.
  intros B H. apply gs_inv in H. cbv zeta in H.
  destruct H as (sid8 & pre1 & pre2 & fs & E & Ls & Lp2 & Lfs & Ffs & L1 & (a & b & c0 & d & e & Em & ->) & M).
  destruct (M B) as [-> ->]. subst bs.
  rewrite !is_bytes_app in B. destruct B as (_ & Bs & _ & _ & _ & B).
  destruct (flat_map_be_s_of_be_s _ _ Ffs B) as [Ef Ff]. rewrite Em in Ef, Ff.
  assert (W : wf_gs c (mkGS (of_be_s sid8) (curve_name c) a b c0 d e)).
  { split; [apply of_be_s_sid; assumption|]. split; [reflexivity|exact Ff]. }
  split; [|exact W]. rewrite (EncodeGarblerSession_wf _ _ W). cbn [gs_sid gs_scalar gs_ax gs_ay gs_ainvx gs_ainvy].
  rewrite Ef, write_chunk_name. rewrite be_s_of_be_s by assumption. reflexivity.
Qed.

Theorem reject_curve_gs c c' s b : c <> c' -> wf_gs c s -> EncodeGarblerSession c s = Ok b ->
  DecodeGarblerSession c' b = Err.
Proof.
  intros Hc W E. destruct (gs_encoding c s W) as (b' & E' & _ & D). rewrite E in E'. apply Ok_inj in E'. subst b'.
  rewrite D. apply name_chunk_other. exact Hc.
Qed.

Theorem reject_magic_gs c data : firstn 2 data <> magicGarblerSession -> DecodeGarblerSession c data = Err.
Proof. apply header_reject. Qed.

Theorem no_panic_gs c data : not_panic (DecodeGarblerSession c data).
Proof.
  assert (F : forall sid name fs, not_panic match fs with
              | [s; ax; ay; ix; iy] => Ok (mkGS sid name s ax ay ix iy) | _ => Err end).
  { intros sid name fs. destruct fs as [|? [|? [|? [|? [|? [|? ?]]]]]]; discriminate. }
  unfold DecodeGarblerSession, decodeCOSenderSetup. auto 30 with np.
Qed.

Definition wf_es (c : curve) (s : esession) : Prop :=
  es_sid s < 2 ^ 64 /\ es_name s = curve_name c /\
  fits (byteLen c) (es_ax s) /\ fits (byteLen c) (es_ay s) /\
  length (es_scalars s) = evaluatorCiphertextCount /\ Forall (fits (byteLen c)) (es_scalars s) /\
  length (es_bits s) = evaluatorCiphertextCount.

(* 48 + 258*byteLen + the uvarint of the inner length (3 bytes for P-521) *)
Definition es_len (c : curve) : nat :=
  (match c with P521 => 51 | _ => 50 end + 258 * byteLen c)%nat.

Lemma put_uvarint_len_es c :
  length (put_uvarint (N.of_nat (max_chunk c))) = match c with P521 => 3 | _ => 2 end%nat.
Proof.
  destruct c; [apply put_uvarint_length2|apply put_uvarint_length2|apply put_uvarint_length2|apply put_uvarint_length3];
    unfold max_chunk, byteLen; cbn [bitSize]; lia.
Qed.

Lemma EncodeEvaluatorSession_wf c s : wf_es c s ->
  EncodeEvaluatorSession c s
  = Ok (magicEvalSession ++ be_s 8 (es_sid s)
        ++ write_chunk (write_chunk (curve_name c) ++ flat_map (be_s (byteLen c)) [es_ax s; es_ay s]
                        ++ flat_map (be_s (byteLen c)) (es_scalars s) ++ bitsToBytesLittle (es_bits s))).
Proof.
  intros (_ & Hn & Hx & Hy & Ls & Fs & Lb). unfold EncodeEvaluatorSession, encodeChoiceBundle.
  rewrite Hn, check_name_ok. cbn [bind].
  rewrite write_fixed_list_ok by (repeat constructor; assumption). cbn [bind].
  rewrite Ls, Lb, Nat.eqb_refl. cbn [guard bind].
  rewrite write_fixed_list_ok by exact Fs. cbn [bind].
  rewrite (sign_bytes_length _ Lb), Nat.eqb_refl. reflexivity.
Qed.

Lemma es_encoding c s : wf_es c s ->
  let inner := write_chunk (curve_name c) ++ flat_map (be_s (byteLen c)) [es_ax s; es_ay s]
               ++ flat_map (be_s (byteLen c)) (es_scalars s) ++ bitsToBytesLittle (es_bits s) in
  exists b, EncodeEvaluatorSession c s = Ok b /\ length b = es_len c /\
    forall c', DecodeEvaluatorSession c' b = decodeChoiceBundle c' (es_sid s) inner.
Proof.
  intros W inner. rewrite (EncodeEvaluatorSession_wf c s W). fold inner.
  destruct W as (Hs & _ & _ & _ & Ls & _ & Lb). pose proof (sign_bytes_length _ Lb) as Lsig.
  assert (Li : length inner = max_chunk c).
  { unfold inner, max_chunk. rewrite name_fields_length, !app_length, !flat_map_be_s_length, Ls, Lsig.
    cbn [length]. change evaluatorCiphertextCount with 256%nat. change evaluatorChoiceSignBytes with 32%nat. lia. }
  eexists. split; [reflexivity|]. split.
  - rewrite !app_length, be_s_length. change (length magicEvalSession) with 2%nat.
    unfold write_chunk. rewrite app_length, Li, put_uvarint_len_es. unfold es_len, max_chunk. destruct c; lia.
  - intros c'. unfold DecodeEvaluatorSession. rewrite header_app by (reflexivity || apply be_s_length).
    rewrite (session_chunk_app c) by (rewrite Li; unfold max_chunk; lia).
    rewrite of_be_s_be_s by exact Hs. reflexivity.
Qed.

Theorem es_roundtrip c s : wf_es c s ->
  exists b, EncodeEvaluatorSession c s = Ok b /\ DecodeEvaluatorSession c b = Ok s /\
            length b = es_len c.
Proof.
  intros W. destruct (es_encoding c s W) as (b & E & L & D). exists b. split; [exact E|]. split; [|exact L].
  destruct W as (_ & Hn & Hx & Hy & Ls & Fs & Lb). rewrite D. unfold decodeChoiceBundle. rewrite name_chunk_same.
  change 2%nat with (length [es_ax s; es_ay s]) at 1.
  rewrite read_fixed_list_ok by (repeat constructor; assumption). cbn [bind].
  rewrite <- Ls, read_fixed_list_ok by exact Fs. cbn [bind].
  pose proof (sign_bytes_length _ Lb) as Lsig.
  rewrite <- (app_nil_r (bitsToBytesLittle _)), read_full_app by exact Lsig.
  cbn [bind no_trailing length Nat.eqb guard].
  rewrite bytesToBitsLittle_length, Lsig, Ls.
  change (evaluatorCiphertextCount <=? 8 * evaluatorChoiceSignBytes)%nat with true. cbn [guard bind nth].
  rewrite <- Lb, firstn_bytes_bits, <- Hn. destruct s; reflexivity.
Qed.

Lemma es_inv c bs s : DecodeEvaluatorSession c bs = Ok s ->
  exists sid8 pre1 pre2 fa fsc raw,
    let chunk := pre2 ++ curve_name c ++ concat fa ++ concat fsc ++ raw in
    bs = magicEvalSession ++ sid8 ++ pre1 ++ chunk /\
    length sid8 = 8%nat /\ length pre2 = 1%nat /\ length fa = 2%nat /\ length fsc = evaluatorCiphertextCount /\
    Forall (fun f => length f = byteLen c) fa /\ Forall (fun f => length f = byteLen c) fsc /\
    length raw = evaluatorChoiceSignBytes /\
    length pre1 = length (put_uvarint (N.of_nat (length chunk))) /\
    s = mkES (of_be_s sid8) (curve_name c) (nth 0 (map of_be_s fa) 0) (nth 1 (map of_be_s fa) 0)
             (map of_be_s fsc) (firstn evaluatorCiphertextCount (bytesToBitsLittle raw)) /\
    (is_bytes bs -> pre2 = [5] /\ pre1 = put_uvarint (N.of_nat (length chunk))).
Proof.
  intros H. apply header_inv in H as (sid8 & r & -> & Ls & H).
  apply session_chunk_inv in H as (pre1 & chunk & -> & L1 & M1 & H).
  apply name_chunk_inv in H as (pre2 & r1 & -> & Lp2 & M2 & H).
  apply read_fixed_list_bind_inv in H as (fa & r2 & -> & Lfa & Ffa & H).
  apply read_fixed_list_bind_inv in H as (fsc & r3 & -> & Lfsc & Ffsc & H).
  apply read_full_bind_inv in H as (raw & rest & -> & Lraw & H).
  apply no_trailing_bind_inv in H as [-> H]. apply guard_bind_inv in H as [_ H]. apply Ok_inj in H.
  rewrite app_nil_r in *. exists sid8, pre1, pre2, fa, fsc, raw. cbv zeta.
  split; [reflexivity|]. repeat (split; [assumption|]). split; [symmetry; exact H|].
  intros B. rewrite !is_bytes_app in B. split; [apply M2|apply M1]; rewrite !is_bytes_app; apply B.
Qed.

Theorem es_accept_length c bs s : DecodeEvaluatorSession c bs = Ok s -> length bs = es_len c.
Proof.
  intros H. apply es_inv in H. cbv zeta in H.
  destruct H as (sid8 & pre1 & pre2 & fa & fsc & raw & -> & Ls & Lp2 & Lfa & Lfsc & Ffa & Ffsc & Lraw & L1 & _).
  assert (Lc : length (pre2 ++ curve_name c ++ concat fa ++ concat fsc ++ raw) = max_chunk c).
  { rewrite !app_length, curve_name_length, Lp2, (concat_length_fixed _ _ Ffa), (concat_length_fixed _ _ Ffsc), Lfa, Lfsc, Lraw.
    unfold max_chunk. change evaluatorCiphertextCount with 256%nat. change evaluatorChoiceSignBytes with 32%nat. lia. }
  rewrite Lc, put_uvarint_len_es in L1.
  rewrite app_length, app_length, app_length, Lc, Ls, L1. change (length magicEvalSession) with 2%nat.
  unfold es_len, max_chunk. destruct c; lia.
Qed.

Lemma es_scalars_len c bs s : DecodeEvaluatorSession c bs = Ok s ->
  length (es_scalars s) = evaluatorCiphertextCount.
Proof.
  intros H. apply es_inv in H. cbv zeta in H.
  destruct H as (sid8 & pre1 & pre2 & fa & fsc & raw & _ & _ & _ & _ & Lfsc & _ & _ & _ & _ & -> & _).
  cbn [es_scalars]. rewrite map_length. exact Lfsc.
Qed.

Theorem es_canonical c bs s : is_bytes bs -> DecodeEvaluatorSession c bs = Ok s ->
  EncodeEvaluatorSession c s = Ok bs /\ wf_es c s.
Proof.
  intros B H. apply es_inv in H. cbv zeta in H.
  destruct H as (sid8 & pre1 & pre2 & fa & fsc & raw & E & Ls & Lp2 & Lfa & Lfsc & Ffa & Ffsc & Lraw & L1 & -> & M).
  destruct (M B) as [-> ->]. subst bs.
  rewrite !is_bytes_app in B. destruct B as (_ & Bs & _ & _ & _ & Ba & Bsc & Braw).
  destruct (flat_map_be_s_of_be_s _ _ Ffa Ba) as [Efa Ffa'].
  destruct (flat_map_be_s_of_be_s _ _ Ffsc Bsc) as [Efsc Ffsc'].
  assert (Lbits : length (bytesToBitsLittle raw) = evaluatorCiphertextCount).
  { rewrite bytesToBitsLittle_length, Lraw. reflexivity. }
  assert (Ebits : firstn evaluatorCiphertextCount (bytesToBitsLittle raw) = bytesToBitsLittle raw).
  { rewrite <- Lbits. apply firstn_all. }
  rewrite Ebits.
  destruct fa as [|f0 [|f1 [|? ?]]]; try discriminate. cbn [map nth] in *.
  assert (W : wf_es c (mkES (of_be_s sid8) (curve_name c) (of_be_s f0) (of_be_s f1) (map of_be_s fsc) (bytesToBitsLittle raw))).
  { pose proof (Forall_inv Ffa') as F0. pose proof (Forall_inv (Forall_inv_tail Ffa')) as F1.
    repeat split; cbn [es_sid es_name es_ax es_ay es_scalars es_bits]; try assumption.
    - apply of_be_s_sid; assumption.
    - rewrite map_length. exact Lfsc. }
  split; [|exact W]. rewrite (EncodeEvaluatorSession_wf _ _ W). cbn [es_sid es_ax es_ay es_scalars es_bits].
  rewrite Efa, Efsc, (bits_bytes_roundtrip raw Braw), write_chunk_name.
  rewrite be_s_of_be_s by assumption. reflexivity.
Qed.

Theorem reject_curve_es c c' s b : c <> c' -> wf_es c s -> EncodeEvaluatorSession c s = Ok b ->
  DecodeEvaluatorSession c' b = Err.
Proof.
  intros Hc W E. destruct (es_encoding c s W) as (b' & E' & _ & D). rewrite E in E'. apply Ok_inj in E'. subst b'.
  rewrite D. apply name_chunk_other. exact Hc.
Qed.

Theorem reject_magic_es c data : firstn 2 data <> magicEvalSession -> DecodeEvaluatorSession c data = Err.
Proof. apply header_reject. Qed.

Theorem no_panic_es c data : not_panic (DecodeEvaluatorSession c data).
Proof. unfold DecodeEvaluatorSession, decodeChoiceBundle. auto 40 with np. Qed.

(* wrong total length => error, every byte string, all five decoders: a
   decoder that never panics and accepts only one length *)
Lemma reject_length_gen {A} {dec : bytes -> res A} {len} :
  (forall bs, not_panic (dec bs)) -> (forall bs m, dec bs = Ok m -> length bs = len) ->
  forall bs, length bs <> len -> dec bs = Err.
Proof. intros NP AL bs H. apply not_ok_err; [apply NP|]. intros m E. apply H. exact (AL bs m E). Qed.

Theorem reject_length dec c bs :
  (length bs <> (16 + 2 * byteLen c)%nat -> DecodeRound1 c bs = Err) /\
  (length bs <> (48 + 256 * byteLen c)%nat -> DecodeRound2 dec c bs = Err) /\
  (length bs <> round3PayloadLen -> DecodeRound3 bs = Err) /\
  (length bs <> (18 + 5 * byteLen c)%nat -> DecodeGarblerSession c bs = Err) /\
  (length bs <> es_len c -> DecodeEvaluatorSession c bs = Err).
Proof.
  split; [|split; [|split; [|split]]].
  - exact (reject_length_gen (no_panic_r1 c) (r1_accept_length c) bs).
  - exact (reject_length_gen (no_panic_r2 dec c) (r2_accept_length dec c) bs).
  - exact (reject_length_r3 bs).
  - exact (reject_length_gen (no_panic_gs c) (gs_accept_length c) bs).
  - exact (reject_length_gen (no_panic_es c) (es_accept_length c) bs).
Qed.

(* a strict prefix (and any strict extension) of a valid encoding is rejected *)
Lemma reject_other_length {A} {enc : A -> res bytes} {dec : bytes -> res A} {a len} :
  (exists b, enc a = Ok b /\ dec b = Ok a /\ length b = len) -> (forall p, length p <> len -> dec p = Err) ->
  forall b p, enc a = Ok b -> length p <> length b -> dec p = Err.
Proof. intros (b' & E' & _ & Lb) R b p E Hp. rewrite E in E'. apply Ok_inj in E'. subst b'. apply R. congruence. Qed.

Theorem reject_strict_prefix dec c :
  (forall m b p, wf_r1 c m -> EncodeRound1 c m = Ok b -> length p <> length b -> DecodeRound1 c p = Err) /\
  (forall m b p, wf_r2 dec c m -> EncodeRound2 c m = Ok b -> length p <> length b -> DecodeRound2 dec c p = Err) /\
  (forall m b p, wf_r3 m -> EncodeRound3 m = Ok b -> length p <> length b -> DecodeRound3 p = Err) /\
  (forall s b p, wf_gs c s -> EncodeGarblerSession c s = Ok b -> length p <> length b -> DecodeGarblerSession c p = Err) /\
  (forall s b p, wf_es c s -> EncodeEvaluatorSession c s = Ok b -> length p <> length b -> DecodeEvaluatorSession c p = Err).
Proof.
  pose proof (fun bs => reject_length dec c bs) as R.
  split; [|split; [|split; [|split]]]; intros m b p W.
  - exact (reject_other_length (r1_roundtrip c m W) (fun q => proj1 (R q)) b p).
  - exact (reject_other_length (r2_roundtrip dec c m W) (fun q => proj1 (proj2 (R q))) b p).
  - exact (reject_other_length (r3_roundtrip m W) (fun q => proj1 (proj2 (proj2 (R q)))) b p).
  - exact (reject_other_length (gs_roundtrip c m W) (fun q => proj1 (proj2 (proj2 (proj2 (R q))))) b p).
  - exact (reject_other_length (es_roundtrip c m W) (fun q => proj2 (proj2 (proj2 (proj2 (R q))))) b p).
Qed.

Theorem reject_length_prefix dec c sid8 rest n r1 :
  length sid8 = 8%nat -> read_uvarint rest = Ok (n, r1) ->
  chunkSizeLimit < n \/ N.of_nat (length r1) < n ->
  DecodeRound1 c (magicRound1 ++ sid8 ++ rest) = Err /\
  DecodeRound2 dec c (magicRound2 ++ sid8 ++ rest) = Err /\
  DecodeGarblerSession c (magicGarblerSession ++ sid8 ++ rest) = Err /\
  DecodeEvaluatorSession c (magicEvalSession ++ sid8 ++ rest) = Err.
Proof.
  intros L U H. pose proof (read_chunk_rejects_large rest n r1 U H) as RC.
  unfold DecodeRound1, DecodeRound2, DecodeGarblerSession, DecodeEvaluatorSession, decodeOTSetup.
  rewrite !header_app by (reflexivity || exact L). rewrite RC. repeat split.
Qed.

(* the nested curve-name prefix inside a session chunk *)
Theorem reject_nested_length_prefix c sid chunk n r1 :
  read_uvarint chunk = Ok (n, r1) -> chunkSizeLimit < n \/ N.of_nat (length r1) < n ->
  decodeCOSenderSetup c sid chunk = Err /\ decodeChoiceBundle c sid chunk = Err.
Proof.
  intros U H. pose proof (read_chunk_rejects_large chunk n r1 U H) as RC.
  split; [unfold decodeCOSenderSetup|unfold decodeChoiceBundle]; rewrite RC; reflexivity.
Qed.

(* the boundary values the harness puts into every length-prefixed field,
   in their minimal encodings, in front of 40 payload bytes: each is an error
   of readChunk; 2^63 is the ten-byte uvarint 80 80 80 80 80 80 80 80 80 01 *)
Definition prefix_boundary_values : list N :=
  [41; 1048576; 1048577; 2 ^ 31 - 1; 2 ^ 31; 2 ^ 32 - 1; 2 ^ 32; 2 ^ 62; 2 ^ 63 - 1; 2 ^ 63; 2 ^ 63 + 1; 2 ^ 64 - 1].
Example prefix_boundary_values_rejected :
  forallb (fun v => match read_chunk (put_uvarint v ++ repeat 7 40) with Err => true | _ => false end)
          prefix_boundary_values = true /\
  put_uvarint (2 ^ 63) = [128; 128; 128; 128; 128; 128; 128; 128; 128; 1] /\
  read_uvarint (put_uvarint (2 ^ 64 - 1) ++ [9]) = Ok (2 ^ 64 - 1, [9]) /\
  read_uvarint ([255; 255; 255; 255; 255; 255; 255; 255; 255; 2] ++ [9]) = Err /\
  read_uvarint (repeat 128 10 ++ [0]) = Err.
Proof. vm_compute. repeat split; reflexivity. Qed.

Lemma pick2_fits w p b : fits2 w p -> fits w (pick2 p b).
Proof. intros [H1 H2]. destruct b; assumption. Qed.

Lemma Forall_pick2_combine w : forall (ws : list (N * N)) (bs : list bool),
  Forall (fits2 w) ws -> Forall (fits w) (map (fun p => pick2 (fst p) (snd p)) (combine ws bs)).
Proof.
  induction ws as [|x ws IH]; intros bs F; [constructor|]. destruct bs as [|b bs]; [constructor|].
  inversion F; subst. cbn [combine map fst snd]. constructor; [apply pick2_fits; assumption|apply IH; assumption].
Qed.

(* what is used of a codec below: a value goes through Encode, Decode unchanged *)
Lemma thru_ok {A} {enc : A -> res bytes} {dec : bytes -> res A} {a len} :
  (exists b, enc a = Ok b /\ dec b = Ok a /\ length b = len) -> (b <- enc a ;; dec b) = Ok a.
Proof. intros (b & -> & D & _). exact D. Qed.

Lemma iter_res_ok {A} {f : A -> res A} {a} : f a = Ok a -> forall n, iter_res n f a = Ok a.
Proof. intros H. induction n as [|n IH]; [reflexivity|]. cbn [iter_res]. rewrite H. exact IH. Qed.

Lemma opt_thru_ok {A} (f : A -> res A) {a} on : f a = Ok a -> opt_thru on f a = Ok a.
Proof. intros H. destruct on; [exact H|reflexivity]. Qed.

Section Protocol.
  Variable RND : Type.
  Variable c : curve.
  Variable gen_sender : RND -> N * (N * N) * (N * N).
  Variable read_sid : RND -> N.
  Variable build_choices : RND -> N -> N -> list bool -> res (list N * list (N * N)).
  Variable read_key : RND -> bytes.
  Variable garble_circ : RND -> bytes -> res (list (N * N) * list (N * N) * list (N * N) * list N).
  Variable encrypt_co : gsession -> list (N * N) -> list (N * N) -> res (list (N * N)).
  Variable decrypt_co : esession -> list (N * N) -> res (list N).
  Variable eval_circ : bytes -> list N -> list N -> list N -> res (list N).
  Variable decompress : curve -> N -> bool -> option (N * N).

  (* what the encodings need from the opaque cryptographic parts: values fit
     their fixed-width fields, counts are the protocol's, and the evaluator's
     points are ones UnmarshalCompressed gives back *)
  Hypothesis sender_fits : forall rng,
    let '(a, (ax, ay), (ix, iy)) := gen_sender rng in Forall (fits (byteLen c)) [a; ax; ay; ix; iy].
  Hypothesis sid_range : forall rng, read_sid rng < 2 ^ 64.
  Hypothesis choices_wf : forall rng ax ay bits scalars points,
    build_choices rng ax ay bits = Ok (scalars, points) ->
    length scalars = evaluatorCiphertextCount /\ Forall (fits (byteLen c)) scalars /\
    length points = evaluatorCiphertextCount /\ Forall (point_ok decompress c) points.
  Hypothesis key_len : forall rng, length (read_key rng) = garblingKeyBytes.
  Hypothesis garble_wf : forall rng key gin ein outw tables,
    garble_circ rng key = Ok (gin, ein, outw, tables) ->
    length gin = hashInputBitCount /\ Forall (fits2 16) gin /\
    length outw = outputHintCount /\ Forall (fits2 16) outw /\
    length tables = garbledTableLabelCount /\ Forall (fits 16) tables.
  Hypothesis encrypt_wf : forall st pts ein cts,
    encrypt_co st pts ein = Ok cts -> length cts = evaluatorCiphertextCount /\ Forall (fits2 16) cts.

  Notation GR1 := (GarblerRound1 RND c gen_sender read_sid).
  Notation ER2 := (EvaluatorRound2 RND c build_choices).
  Notation GR3 := (GarblerRound3 RND read_key garble_circ encrypt_co).
  Notation ER4 := (EvaluatorRound4 decrypt_co eval_circ).
  Notation RUN := (run_protocol RND c gen_sender read_sid build_choices read_key garble_circ
                                encrypt_co decrypt_co eval_circ decompress).

  Lemma round1_wf {rng m gs} : GR1 rng = (m, gs) -> wf_r1 c m /\ wf_gs c gs.
  Proof.
    unfold GarblerRound1. pose proof (sender_fits rng) as F. pose proof (sid_range rng) as S.
    destruct (gen_sender rng) as [[a [ax ay]] [ix iy]]. intros E. injection E as <- <-.
    pose proof (Forall_inv (Forall_inv_tail F)) as Fax. pose proof (Forall_inv (Forall_inv_tail (Forall_inv_tail F))) as Fay.
    repeat split; cbn; try assumption; try reflexivity.
  Qed.

  Lemma round2_wf {rng m1 b m2 es} : wf_r1 c m1 -> ER2 rng m1 b = Ok (m2, es) -> wf_r2 decompress c m2 /\ wf_es c es.
  Proof.
    intros (Hs & Hn & Hx & Hy). unfold EvaluatorRound2. intros E.
    apply guard_bind_inv in E as [_ E]. apply guard_nat_bind_inv in E as [G2 E].
    apply bind_ok_inv in E as ([scalars points] & B & E). apply Ok_inj in E. injection E as <- <-.
    destruct (choices_wf _ _ _ _ _ _ B) as (L1 & F1 & L2 & F2).
    repeat split; cbn [r2_sid r2_name r2_choices es_sid es_name es_ax es_ay es_scalars es_bits]; try assumption; try reflexivity.
  Qed.

  Lemma round3_wf {rng gs a m2 m3} : wf_gs c gs -> GR3 rng gs a m2 = Ok m3 -> wf_r3 m3.
  Proof.
    intros (Hs & _). unfold GarblerRound3. intros E.
    apply guard_bind_inv in E as [_ E]. apply bind_ok_inv in E as ([[[gin ein] outw] tables] & Gb & E).
    apply guard_nat_bind_inv in E as [G2 E]. apply bind_ok_inv in E as (cts & Ec & E). apply Ok_inj in E. subst m3.
    destruct (garble_wf _ _ _ _ _ _ Gb) as (Lg & Fg & Lo & Fo & Lt & Ft).
    destruct (encrypt_wf _ _ _ _ Ec) as (Lc & Fc).
    repeat split; cbn [r3_sid r3_key r3_tables r3_inputs r3_hints r3_cts]; try assumption.
    - apply key_len.
    - rewrite map_length, combine_length, Lg, G2. apply Nat.min_id.
    - apply Forall_pick2_combine. exact Fg.
  Qed.

  (* serialising any message and restarting either party from its serialised
     session any number of times at any round boundary does not change the run *)
  Theorem resume_same g1 g2 e2 e3 w1 w2 w3 rg1 re2 rg3 a b :
    RUN g1 g2 e2 e3 w1 w2 w3 rg1 re2 rg3 a b = RUN 0%nat 0%nat 0%nat 0%nat false false false rg1 re2 rg3 a b.
  Proof.
    unfold run_protocol. destruct (GR1 rg1) as [m1 gs] eqn:E1.
    destruct (round1_wf E1) as (W1 & Wg).
    pose proof (thru_ok (gs_roundtrip c gs Wg) : thru_gs c gs = Ok gs) as Tg.
    rewrite (iter_res_ok Tg), (opt_thru_ok (thru_r1 c) w1 (thru_ok (r1_roundtrip c m1 W1))).
    cbn [iter_res opt_thru bind].
    destruct (ER2 re2 m1 b) as [[m2 es]| |] eqn:E2; cbn [bind]; try reflexivity.
    destruct (round2_wf W1 E2) as (W2 & We).
    pose proof (thru_ok (es_roundtrip c es We) : thru_es c es = Ok es) as Te.
    rewrite (iter_res_ok Te e2), (opt_thru_ok (thru_r2 c decompress) w2 (thru_ok (r2_roundtrip decompress c m2 W2))).
    rewrite (iter_res_ok Tg g2). cbn [bind].
    destruct (GR3 rg3 gs a m2) as [m3| |] eqn:E3; cbn [bind]; try reflexivity.
    rewrite (opt_thru_ok thru_r3 w3 (thru_ok (r3_roundtrip m3 (round3_wf Wg E3)))).
    rewrite (iter_res_ok Te e3). reflexivity.
  Qed.

  Theorem reject_session_round3 rng st a req : r2_sid req <> gs_sid st -> GR3 rng st a req = Err.
  Proof. intros H. unfold GarblerRound3. apply N.eqb_neq in H. rewrite H. reflexivity. Qed.

  Theorem reject_session_round4 st msg : r3_sid msg <> es_sid st -> ER4 st msg = Err.
  Proof.
    intros H. unfold EvaluatorRound4. destruct (negb (length (es_scalars st) =? 0)%nat); [|reflexivity].
    cbn [guard bind]. apply N.eqb_neq in H. rewrite H. reflexivity.
  Qed.

  Theorem reject_curve_round2 rng msg b : r1_name msg <> curve_name c -> ER2 rng msg b = Err.
  Proof. intros H. unfold EvaluatorRound2. rewrite bytes_eqb_neq by exact H. reflexivity. Qed.

  (* Rounds are functions: sessions running in one process are
     independent.  In Gallina the result of a round depends on (state,
     message, randomness) only, by construction; the statements below spell
     out what that means for two sessions whose rounds are interleaved and for
     a retried round 3.  The Go implementation could violate it through
     aliasing (a Round3Payload pointing into memory that a later Garble
     reuses): that is what the harness checks ("overlapping-sessions",
     "round3-retry", "interleaved-sessions"). *)

  (* two sessions A and B in one process, every round of A followed by the
     same round of B; both Round3 payloads exist before either is evaluated *)
  Definition run_two_interleaved (rg1A re2A rg3A : RND) (aA bA : bytes)
                                 (rg1B re2B rg3B : RND) (aB bB : bytes) : res bytes * res bytes :=
    let '(m1A, gsA) := GR1 rg1A in
    let '(m1B, gsB) := GR1 rg1B in
    let r2A := ER2 re2A m1A bA in
    let r2B := ER2 re2B m1B bB in
    let r3A := '(m2, es) <- r2A ;; m3 <- GR3 rg3A gsA aA m2 ;; Ok (es, m3) in
    let r3B := '(m2, es) <- r2B ;; m3 <- GR3 rg3B gsB aB m2 ;; Ok (es, m3) in
    let outA := '(es, m3) <- r3A ;; ER4 es m3 in
    let outB := '(es, m3) <- r3B ;; ER4 es m3 in
    (outA, outB).

  Theorem sessions_independent rg1A re2A rg3A aA bA rg1B re2B rg3B aB bB :
    run_two_interleaved rg1A re2A rg3A aA bA rg1B re2B rg3B aB bB
    = (RUN 0%nat 0%nat 0%nat 0%nat false false false rg1A re2A rg3A aA bA,
       RUN 0%nat 0%nat 0%nat 0%nat false false false rg1B re2B rg3B aB bB).
  Proof.
    unfold run_two_interleaved, run_protocol.
    destruct (GR1 rg1A) as [m1A gsA]. destruct (GR1 rg1B) as [m1B gsB].
    cbn [iter_res opt_thru bind]. f_equal.
    - destruct (ER2 re2A m1A bA) as [[m2 es]| |]; cbn [bind]; try reflexivity.
      destruct (GR3 rg3A gsA aA m2); reflexivity.
    - destruct (ER2 re2B m1B bB) as [[m2 es]| |]; cbn [bind]; try reflexivity.
      destruct (GR3 rg3B gsB aB m2); reflexivity.
  Qed.

  Theorem round3_retry_keeps_first rng rng' st a req es :
    (let p1 := GR3 rng st a req in
     let p2 := GR3 rng' st a req in
     (m <- p1 ;; ER4 es m, m <- p2 ;; ER4 es m))
    = (m <- GR3 rng st a req ;; ER4 es m, m <- GR3 rng' st a req ;; ER4 es m).
  Proof. reflexivity. Qed.

  (* Correctness of the honest (uninterrupted) run.  Only what the proof
     needs of the cryptographic parts; instantiated from C01 and the CO model
     of C06 in IO/Sha2pcInstProof.v *)
  Section Correct.
    (* plain evaluation of the embedded circuit on garbler bits ‖ evaluator bits *)
    Variable circ_eval : list bool -> list bool.

    (* [C01] garbled evaluation on the labels selected by the inputs decodes,
       through the output hints, to the plain evaluation *)
    Hypothesis garbled_eval_correct : forall rng key gin ein outw tables xa xb,
      garble_circ rng key = Ok (gin, ein, outw, tables) ->
      length xa = hashInputBitCount -> length xb = hashInputBitCount ->
      exists outl,
        eval_circ key (map (fun p => pick2 (fst p) (snd p)) (combine gin xa))
                      (map (fun p => pick2 (fst p) (snd p)) (combine ein xb)) tables = Ok outl /\
        decode_outputs outw outl = Ok (circ_eval (xa ++ xb)).
    Hypothesis garble_total : forall rng key, exists gin ein outw tables,
      garble_circ rng key = Ok (gin, ein, outw, tables) /\
      length ein = hashInputBitCount /\ length outw = outputHintCount.
    (* [C06, CO OT as ideal OT] the receiver's choices built against the
       sender's A succeed, encryption succeeds, and decryption returns exactly
       the label selected by each choice bit *)
    Hypothesis co_ot_correct : forall rng1 rng2 sid sid' bits ein,
      let '(a, (ax, ay), (ix, iy)) := gen_sender rng1 in
      length bits = hashInputBitCount -> length ein = length bits ->
      exists scalars points cts,
        build_choices rng2 ax ay bits = Ok (scalars, points) /\
        length scalars = length bits /\
        encrypt_co (mkGS sid (curve_name c) a ax ay ix iy) points ein = Ok cts /\
        decrypt_co (mkES sid' (curve_name c) ax ay scalars bits) cts
        = Ok (map (fun p => pick2 (fst p) (snd p)) (combine ein bits)).
    Hypothesis circ_out_len : forall x, length (circ_eval x) = outputHintCount.

    Theorem protocol_correct rg1 re2 rg3 a b :
      length a = 32%nat -> length b = 32%nat ->
      RUN 0%nat 0%nat 0%nat 0%nat false false false rg1 re2 rg3 a b
      = Ok (bitsToBytesLittle (circ_eval (bytesToBitsLittle a ++ bytesToBitsLittle b))).
    Proof.
      intros La Lb. unfold run_protocol.
      assert (Lba : length (bytesToBitsLittle a) = hashInputBitCount) by (rewrite bytesToBitsLittle_length, La; reflexivity).
      assert (Lbb : length (bytesToBitsLittle b) = hashInputBitCount) by (rewrite bytesToBitsLittle_length, Lb; reflexivity).
      destruct (GarblerRound1 RND c gen_sender read_sid rg1) as [m1 gs] eqn:E1. cbn [iter_res opt_thru bind].
      revert E1. unfold GarblerRound1.
      destruct (garble_total rg3 (read_key rg3)) as (gin & ein & outw & tables & Gb & Lein & Lo).
      (* co_ot_correct is stated under a let on gen_sender rg1: instantiate it before the destruct *)
      pose proof (co_ot_correct rg1 re2 (read_sid rg1) (read_sid rg1) (bytesToBitsLittle b) ein) as OT.
      destruct (gen_sender rg1) as [[sa [ax ay]] [ix iy]].
      intros E1. injection E1 as <- <-.
      destruct (OT Lbb) as (scalars & points & cts & Bc & Ls & Ec & Dc); [congruence|].
      unfold EvaluatorRound2. cbn [r1_name r1_sid r1_ax r1_ay].
      rewrite bytes_eqb_refl. cbn [guard bind]. rewrite Lbb, Nat.eqb_refl. cbn [guard bind].
      rewrite Bc. cbn [bind].
      unfold GarblerRound3. cbn [r2_sid gs_sid r2_choices]. rewrite N.eqb_refl. cbn [guard bind].
      rewrite Gb. cbn [bind]. rewrite Lba, Nat.eqb_refl. cbn [guard bind]. rewrite Ec. cbn [bind].
      unfold EvaluatorRound4. cbn [es_scalars es_sid r3_sid r3_cts r3_key r3_inputs r3_tables r3_hints].
      rewrite Ls, Lbb. change (negb (hashInputBitCount =? 0)%nat) with true. cbn [guard bind].
      rewrite N.eqb_refl. cbn [guard bind]. rewrite Dc. cbn [bind].
      destruct (garbled_eval_correct _ _ _ _ _ _ _ _ Gb Lba Lbb) as (outl & Ev & Dec).
      rewrite Ev. cbn [bind].
      rewrite Lo, Nat.eqb_refl. cbn [guard bind]. rewrite Dec. cbn [bind].
      destruct (bytes_bits_roundtrip_pad (circ_eval (bytesToBitsLittle a ++ bytesToBitsLittle b))) as (pad & _ & _ & _ & L).
      rewrite L, circ_out_len. change ((outputHintCount + 7) / 8 =? 32)%nat with true. reflexivity.
    Qed.

    (* with the (unproved, harness-checked) fact that the embedded circuit
       computes SHA-256(a xor b) *)
    Variable sha256xor : bytes -> bytes -> bytes.
    Hypothesis circuit_computes_sha256xor : forall a b, length a = 32%nat -> length b = 32%nat ->
      circ_eval (bytesToBitsLittle a ++ bytesToBitsLittle b) = bytesToBitsLittle (sha256xor a b).
    Hypothesis sha256xor_bytes : forall a b, Forall (fun x => x < 256) (sha256xor a b).

    Theorem protocol_sha256_plain rg1 re2 rg3 a b :
      length a = 32%nat -> length b = 32%nat ->
      RUN 0%nat 0%nat 0%nat 0%nat false false false rg1 re2 rg3 a b = Ok (sha256xor a b).
    Proof.
      intros La Lb. rewrite protocol_correct by assumption.
      rewrite circuit_computes_sha256xor by assumption. rewrite bits_bytes_roundtrip by apply sha256xor_bytes.
      reflexivity.
    Qed.

    (* whatever the restart points *)
    Theorem protocol_sha256 g1 g2 e2 e3 w1 w2 w3 rg1 re2 rg3 a b :
      length a = 32%nat -> length b = 32%nat ->
      RUN g1 g2 e2 e3 w1 w2 w3 rg1 re2 rg3 a b = Ok (sha256xor a b).
    Proof. intros La Lb. rewrite resume_same. apply protocol_sha256_plain; assumption. Qed.
  End Correct.
End Protocol.

(* op histories: decoding slot j gives the j-th encoded value, whatever was
   encoded later.  Trivial in the pure model (a stored byte string cannot
   change) — which is the point: the harness runs the same histories on the
   Go encoders, holding the returned slices, and must observe the same
   decoded values; an encoder whose result aliases a reused buffer disagrees. *)
Section HistoryThm.
  Variable decompress : curve -> N -> bool -> option (N * N).
  Variable c : curve.

  Definition wf_value (v : value) : Prop :=
    match v with
    | VR1 m => wf_r1 c m | VR2 m => wf_r2 decompress c m | VR3 m => wf_r3 m
    | VGS s => wf_gs c s | VES s => wf_es c s
    end.

  Definition stored (v : value) : vkind * res bytes := (kind_of v, encode_value c v).

  Lemma decode_encoded {A} {enc : A -> res bytes} {dec : bytes -> res A} (inj : A -> value) {a len} :
    (exists b, enc a = Ok b /\ dec b = Ok a /\ length b = len) ->
    match enc a with Ok b => (m <- dec b ;; Ok (inj m)) = Ok (inj a) | _ => False end.
  Proof. intros (b & -> & -> & _). reflexivity. Qed.

  Lemma decode_stored v : wf_value v ->
    match stored v with (k, Ok b) => decode_kind decompress c k b = Ok v | _ => False end.
  Proof.
    destruct v as [m|m|m|s|s]; intros W; cbn [stored kind_of encode_value decode_kind].
    - exact (decode_encoded VR1 (r1_roundtrip c m W)).
    - exact (decode_encoded VR2 (r2_roundtrip decompress c m W)).
    - exact (decode_encoded VR3 (r3_roundtrip m W)).
    - exact (decode_encoded VGS (gs_roundtrip c s W)).
    - exact (decode_encoded VES (es_roundtrip c s W)).
  Qed.

  Lemma decode_slot_stored vals j : Forall wf_value vals ->
    decode_slot decompress c (map stored vals) j
    = match nth_error vals j with Some v => Ok v | None => Err end.
  Proof.
    intros F. unfold decode_slot. rewrite nth_error_map.
    destruct (nth_error vals j) as [v|] eqn:E; cbn [option_map]; [|reflexivity].
    assert (W : wf_value v) by (eapply Forall_forall; [exact F|eapply nth_error_In; exact E]).
    pose proof (decode_stored v W) as D. destruct (stored v) as [k [b| |]]; [exact D|contradiction|contradiction].
  Qed.

  Fixpoint history_spec (vals : list value) (ops : list hop) : list (res value) :=
    match ops with
    | [] => []
    | HEnc v :: t => history_spec (vals ++ [v]) t
    | HDec j :: t => (match nth_error vals j with Some v => Ok v | None => Err end) :: history_spec vals t
    end.

  Definition hop_wf (o : hop) : Prop := match o with HEnc v => wf_value v | HDec _ => True end.

  Theorem history_decodes_own_value : forall ops vals,
    Forall wf_value vals -> Forall hop_wf ops ->
    run_history decompress c (map stored vals) ops = history_spec vals ops.
  Proof.
    induction ops as [|[v|j] ops IH]; intros vals Fv Fo; [reflexivity| |];
      inversion Fo as [|? ? Ho Fo']; subst; cbn [run_history history_spec].
    - change [(kind_of v, encode_value c v)] with (map stored [v]). rewrite <- map_app.
      apply IH; [apply Forall_app; split; [exact Fv|constructor; [exact Ho|constructor]]|exact Fo'].
    - rewrite decode_slot_stored by exact Fv. f_equal. apply IH; assumption.
  Qed.

  Corollary later_encodes_do_not_matter vals more j v :
    Forall wf_value vals -> Forall wf_value more -> nth_error vals j = Some v ->
    run_history decompress c (map stored vals) (map HEnc more ++ [HDec j]) = [Ok v].
  Proof.
    intros Fv Fm E. rewrite history_decodes_own_value; [|exact Fv|].
    - revert vals Fv E. induction more as [|w more IH]; intros vals Fv E; cbn [map app history_spec].
      + rewrite E. reflexivity.
      + inversion Fm; subst. apply IH; [assumption|apply Forall_app; split; [exact Fv|repeat constructor; assumption]|].
        rewrite nth_error_app1; [exact E|]. apply nth_error_Some. congruence.
    - apply Forall_app. split; [|repeat constructor].
      apply Forall_forall. intros o Ho. apply in_map_iff in Ho. destruct Ho as (w & <- & Hw).
      eapply Forall_forall in Fm; [exact Fm|exact Hw].
  Qed.
End HistoryThm.

(* regression records.  The decoders as they were before the fixes in /repo
   (832c61e minimal uvarint in readChunk, ad7f790 io.ReadFull + trailing
   check in decodeChoiceBundle, 19366c8 trailing-byte checks): the witnesses
   that refuted "wrong length => error" then, and are rejected now. *)

Definition read_chunk_old (r : bytes) : res (bytes * bytes) :=
  '(n, r1) <- read_uvarint r ;;
  if chunkSizeLimit <? n then Err
  else if N.of_nat (length r1) <? n then Err
  else match r1 with
       | [] => Err
       | _ => Ok (firstn (N.to_nat n) r1, skipn (N.to_nat n) r1)
       end.

(* a single bytes.Reader.Read: fewer bytes without an error *)
Definition reader_read (k : nat) (r : bytes) : res (bytes * bytes) :=
  match r with
  | [] => Err
  | _ => let got := firstn k r in Ok (got ++ repeat 0 (k - length got), skipn k r)
  end.

Definition DecodeRound1_old (c : curve) (data : bytes) : res round1 :=
  '(magic, r1) <- read_full 2 data ;;
  _ <- guard (bytes_eqb magic magicRound1) ;;
  '(sid, r2) <- read_full 8 r1 ;;
  '(name, r3) <- read_chunk_old r2 ;;
  _ <- guard (bytes_eqb name (curve_name c)) ;;
  '(x, r4) <- read_fixed (byteLen c) r3 ;;
  '(y, _) <- read_fixed (byteLen c) r4 ;;
  Ok (mkR1 (of_be_s sid) name x y).

Definition DecodeRound2_old dec (c : curve) (data : bytes) : res round2 :=
  '(magic, r1) <- read_full 2 data ;;
  _ <- guard (bytes_eqb magic magicRound2) ;;
  '(sid, r2) <- read_full 8 r1 ;;
  '(name, rest) <- read_chunk_old r2 ;;
  _ <- guard (bytes_eqb name (curve_name c)) ;;
  pts <- decodePoints dec c rest ;;
  Ok (mkR2 (of_be_s sid) name pts).

Definition DecodeGarblerSession_old (c : curve) (data : bytes) : res gsession :=
  '(magic, r1) <- read_full 2 data ;;
  _ <- guard (bytes_eqb magic magicGarblerSession) ;;
  '(sid, r2) <- read_full 8 r1 ;;
  '(chunk, _) <- read_chunk_old r2 ;;
  '(name, r3) <- read_chunk_old chunk ;;
  _ <- guard (bytes_eqb name (curve_name c)) ;;
  '(fs, _) <- read_fixed_list (byteLen c) 5 r3 ;;
  match fs with
  | [s; ax; ay; ix; iy] => Ok (mkGS (of_be_s sid) name s ax ay ix iy)
  | _ => Err
  end.

Definition DecodeEvaluatorSession_old (c : curve) (data : bytes) : res esession :=
  '(magic, r1) <- read_full 2 data ;;
  _ <- guard (bytes_eqb magic magicEvalSession) ;;
  '(sid, r2) <- read_full 8 r1 ;;
  '(chunk, _) <- read_chunk_old r2 ;;
  '(name, r3) <- read_chunk_old chunk ;;
  _ <- guard (bytes_eqb name (curve_name c)) ;;
  '(a, r4) <- read_fixed_list (byteLen c) 2 r3 ;;
  '(scalars, r5) <- read_fixed_list (byteLen c) evaluatorCiphertextCount r4 ;;
  '(raw, _) <- reader_read evaluatorChoiceSignBytes r5 ;;
  Ok (mkES (of_be_s sid) name (nth 0 a 0) (nth 1 a 0) scalars
           (firstn evaluatorCiphertextCount (bytesToBitsLittle raw))).

Definition r1_trailing : bytes :=
  magicRound1 ++ be_s 8 7 ++ write_chunk (curve_name P224) ++ repeat 0 56 ++ [9].
Example r1_trailing_record :
  DecodeRound1_old P224 r1_trailing = Ok (mkR1 7 (curve_name P224) 0 0) /\
  (length r1_trailing =? 16 + 2 * byteLen P224)%nat = false /\
  DecodeRound1 P224 r1_trailing = Err.
Proof. vm_compute. repeat split; reflexivity. Qed.

(* Round2 with the curve-name length written as the two-byte uvarint 0x85 0x00 *)
Definition dec_any : curve -> N -> bool -> option (N * N) := fun _ x odd => Some (x, if odd then 1 else 0).
Definition r2_nonminimal : bytes :=
  magicRound2 ++ be_s 8 7 ++ [133; 0] ++ curve_name P224 ++ repeat 0 (256 * 28) ++ repeat 0 32.
Example r2_nonminimal_record :
  DecodeRound2_old dec_any P224 r2_nonminimal = Ok (mkR2 7 (curve_name P224) (repeat (0, 0) 256)) /\
  (length r2_nonminimal =? 48 + 256 * byteLen P224)%nat = false /\
  DecodeRound2 dec_any P224 r2_nonminimal = Err.
Proof.
  (* the 256 slices of decodePoints are read through split_be, not evaluated one by one *)
  set (R := repeat 0 (256 * 28) ++ repeat 0 32).
  assert (D : decodePoints dec_any P224 R = Ok (repeat (0, 0) 256)).
  { unfold R. rewrite decodePoints_eq by reflexivity. vm_compute. reflexivity. }
  assert (C : read_chunk_old ([133; 0] ++ curve_name P224 ++ R) = Ok (curve_name P224, R)) by (vm_compute; reflexivity).
  assert (L : (length r2_nonminimal =? 48 + 256 * byteLen P224)%nat = false) by reflexivity.
  split; [|split; [exact L|]].
  - unfold DecodeRound2_old, r2_nonminimal. rewrite header_app by reflexivity. fold R. rewrite C. cbn [bind].
    rewrite bytes_eqb_refl. cbn [guard bind]. rewrite D. reflexivity.
  - apply reject_length. apply Nat.eqb_neq. exact L.
Qed.

Definition gs_trailing : bytes :=
  magicGarblerSession ++ be_s 8 7 ++ write_chunk (write_chunk (curve_name P224) ++ repeat 0 140) ++ [9].
Example gs_trailing_record :
  DecodeGarblerSession_old P224 gs_trailing = Ok (mkGS 7 (curve_name P224) 0 0 0 0 0) /\
  (length gs_trailing =? 18 + 5 * byteLen P224)%nat = false /\
  DecodeGarblerSession P224 gs_trailing = Err.
Proof. vm_compute. repeat split; reflexivity. Qed.

(* evaluator session whose choice-bit field holds 1 byte instead of 32 *)
Definition es_short : bytes :=
  magicEvalSession ++ be_s 8 7
  ++ write_chunk (write_chunk (curve_name P224) ++ repeat 0 (258 * 28) ++ [255]).
Example es_short_record :
  DecodeEvaluatorSession_old P224 es_short
  = Ok (mkES 7 (curve_name P224) 0 0 (repeat 0 256) (repeat true 8 ++ repeat false 248)) /\
  (length es_short <? es_len P224)%nat = true /\
  DecodeEvaluatorSession P224 es_short = Err.
Proof. vm_compute. repeat split; reflexivity. Qed.

Example wf_inhabited c :
  wf_r1 c (mkR1 1 (curve_name c) 2 3) /\ wf_gs c (mkGS 1 (curve_name c) 2 3 4 5 6) /\
  wf_es c (mkES 1 (curve_name c) 2 3 (repeat 4 256) (repeat true 256)) /\
  wf_r2 dec_any c (mkR2 1 (curve_name c) (repeat (5, 1) 256)).
Proof.
  pose proof (fits_byteLen c) as F.
  assert (S : 1 < 2 ^ 64) by reflexivity.
  split; [|split; [|split]].
  - split; [exact S|]. split; [reflexivity|]. split; apply F; reflexivity.
  - split; [exact S|]. split; [reflexivity|]. repeat constructor; apply F; reflexivity.
  - split; [exact S|]. split; [reflexivity|]. split; [apply F; reflexivity|]. split; [apply F; reflexivity|].
    split; [apply repeat_length|]. split; [|apply repeat_length]. apply Forall_repeat, F. reflexivity.
  - split; [exact S|]. split; [reflexivity|]. split; [apply repeat_length|].
    apply Forall_repeat. split; [apply F; reflexivity|reflexivity].
Qed.

(* non-vacuity of the hypotheses of resume_same (C18_resume): a (constant)
   choice of the opaque cryptographic functions satisfies all six, on every
   curve *)
Definition nv_gen_sender (_ : unit) : N * (N * N) * (N * N) := (1, (2, 3), (4, 5)).
Definition nv_read_sid (_ : unit) : N := 7.
Definition nv_build_choices (_ : unit) (_ _ : N) (_ : list bool) : res (list N * list (N * N)) :=
  Ok (repeat 4 evaluatorCiphertextCount, repeat (5, 1) evaluatorCiphertextCount).
Definition nv_read_key (_ : unit) : bytes := repeat 0 garblingKeyBytes.
Definition nv_garble (_ : unit) (_ : bytes) : res (list (N * N) * list (N * N) * list (N * N) * list N) :=
  Ok (repeat (1, 2) hashInputBitCount, repeat (3, 4) hashInputBitCount, repeat (5, 6) outputHintCount,
      repeat 7 garbledTableLabelCount).
Definition nv_encrypt (_ : gsession) (_ _ : list (N * N)) : res (list (N * N)) :=
  Ok (repeat (8, 9) evaluatorCiphertextCount).

Example resume_hypotheses_inhabited c :
  (forall rng, let '(a, (ax, ay), (ix, iy)) := nv_gen_sender rng in Forall (fits (byteLen c)) [a; ax; ay; ix; iy]) /\
  (forall rng, nv_read_sid rng < 2 ^ 64) /\
  (forall rng ax ay bits scalars points,
     nv_build_choices rng ax ay bits = Ok (scalars, points) ->
     length scalars = evaluatorCiphertextCount /\ Forall (fits (byteLen c)) scalars /\
     length points = evaluatorCiphertextCount /\ Forall (point_ok dec_any c) points) /\
  (forall rng, length (nv_read_key rng) = garblingKeyBytes) /\
  (forall rng key gin ein outw tables,
     nv_garble rng key = Ok (gin, ein, outw, tables) ->
     length gin = hashInputBitCount /\ Forall (fits2 16) gin /\
     length outw = outputHintCount /\ Forall (fits2 16) outw /\
     length tables = garbledTableLabelCount /\ Forall (fits 16) tables) /\
  (forall st pts ein cts,
     nv_encrypt st pts ein = Ok cts -> length cts = evaluatorCiphertextCount /\ Forall (fits2 16) cts).
Proof.
  pose proof (fits_byteLen c) as F.
  assert (F2 : forall p, fst p < 256 -> snd p < 256 -> fits2 16 p).
  { intros p H1 H2. split; apply fits_byte; (lia || assumption). }
  split; [|split; [|split; [|split; [|split]]]].
  - intros rng. repeat constructor; apply F; reflexivity.
  - intros rng. reflexivity.
  - intros rng ax ay bits scalars points H. apply Ok_inj, pair_equal_spec in H as [<- <-].
    split; [apply repeat_length|]. split; [apply Forall_repeat, F; reflexivity|]. split; [apply repeat_length|].
    apply Forall_repeat. split; [apply F; reflexivity|reflexivity].
  - intros rng. apply repeat_length.
  - intros rng key gin ein outw tables H. apply Ok_inj, pair_equal_spec in H as [H <-].
    apply pair_equal_spec in H as [H <-]. apply pair_equal_spec in H as [<- _].
    split; [apply repeat_length|]. split; [apply Forall_repeat, F2; reflexivity|].
    split; [apply repeat_length|]. split; [apply Forall_repeat, F2; reflexivity|].
    split; [apply repeat_length|]. apply Forall_repeat, fits_byte; [lia|reflexivity].
  - intros st pts ein cts H. apply Ok_inj in H. subst cts.
    split; [apply repeat_length|]. apply Forall_repeat, F2; reflexivity.
Qed.

End LimitOK.
