(* IO/IOTypesProof.v — the text form of an argument type denotes the type
   (property C13; uses the type-text round trip of IO/MarshalRoundTrip.v). *)
From Coq Require Import ZArith List Lia.
From Mpc Require Import Gen.Consts IO.IOArg IO.IOTypes.
From Mpc Require IO.MarshalRoundTrip.
Import ListNotations.
Open Scope Z_scope.

(* what types.Parse gives back for the text of a type: a slice type written
   "[]T" carries no length (it is taken from the value: Parse sets count from
   the literal, InstantiateWithSizes from the size) *)
Fixpoint reparsed (t : ty) : ty :=
  match t with
  | TyArray e n => TyArray (reparsed e) n
  | TySlice e _ => TySlice (reparsed e) 0
  | _ => t
  end.

(* types whose text types.Parse reads: no struct members (a struct type is
   written "struct<bits>", without its fields), widths / lengths / total
   widths within int32 *)
Fixpoint text_ok (t : ty) : Prop :=
  match t with
  | TyBool => True
  | TyInt b | TyUint b | TyString b => Z.of_nat b < 2147483648
  | TyArray e n => text_ok e /\ Z.of_nat n < 2147483648 /\ Z.of_nat (n * bits_of (reparsed e)) < 2147483648
  | TySlice e _ => text_ok e
  | TyStruct _ => False
  end.

Fixpoint slice_free (t : ty) : Prop :=
  match t with
  | TyArray e _ => slice_free e
  | TySlice _ _ => False
  | _ => True
  end.

Lemma reparsed_slice_free t : slice_free t -> reparsed t = t.
Proof.
  induction t as [| b | b | b | e IH n | e IH n | fs]; simpl; intros H; try reflexivity; try contradiction.
  rewrite IH by exact H. reflexivity.
Qed.

Lemma wrap32_small z : 0 <= z < 2147483648 -> Marshal.wrap32 z = z.
Proof. intros H. unfold Marshal.wrap32. rewrite Z.mod_small by lia. lia. Qed.

Lemma printable_info_of t : text_ok t -> MarshalRoundTrip.printable (to_minfo (info_of t)).
Proof.
  induction t as [| b | b | b | e IH n | e IH n | fs]; simpl; intros H; try contradiction.
  1-4: apply MarshalRoundTrip.pr_base; [unfold MarshalRoundTrip.base_ty; auto 6 | reflexivity | lia].
  - destruct H as (He & Hn & _). apply MarshalRoundTrip.pr_array; [apply IH; exact He | lia].
  - apply MarshalRoundTrip.pr_slice. apply IH. exact H.
Qed.

Lemma to_minfo_tyarray e n :
  to_minfo (info_of (TyArray e n)) =
  Marshal.mkInfo types_TArray true (Z.of_nat (n * bits_of e)) (Z.of_nat (n * bits_of e)) []
                 (Some (to_minfo (info_of e))) (Z.of_nat n).
Proof. reflexivity. Qed.

Lemma to_minfo_tyslice e n :
  to_minfo (info_of (TySlice e n)) =
  Marshal.mkInfo types_TSlice true (Z.of_nat (n * bits_of e)) (Z.of_nat (n * bits_of e)) []
                 (Some (to_minfo (info_of e))) (Z.of_nat n).
Proof. reflexivity. Qed.

Lemma strip_bits t : text_ok t ->
  Marshal.i_bits (MarshalRoundTrip.strip (to_minfo (info_of t))) = Z.of_nat (bits_of (reparsed t)).
Proof.
  induction t as [| b | b | b | e IH n | e IH n | fs]; cbn [text_ok]; intros H; try contradiction; try reflexivity.
  destruct H as (He & Hn & Hb). rewrite to_minfo_tyarray, MarshalRoundTrip.strip_array.
  cbn [Marshal.i_bits reparsed bits_of]. rewrite (IH He), <- Nat2Z.inj_mul. apply wrap32_small. lia.
Qed.

Lemma strip_info_of t : text_ok t ->
  of_minfo (MarshalRoundTrip.strip (to_minfo (info_of t))) = info_of (reparsed t).
Proof.
  induction t as [| b | b | b | e IH n | e IH n | fs]; cbn [text_ok]; intros H; try contradiction.
  - reflexivity.
  - cbn. rewrite Nat2Z.id. reflexivity.
  - cbn. rewrite Nat2Z.id. reflexivity.
  - cbn. rewrite Nat2Z.id. reflexivity.
  - destruct H as (He & Hn & Hb). rewrite to_minfo_tyarray, MarshalRoundTrip.strip_array.
    cbn [of_minfo map reparsed info_of bits_of]. rewrite (IH He), (strip_bits e He), <- Nat2Z.inj_mul, wrap32_small by lia.
    rewrite !Nat2Z.id. reflexivity.
  - rewrite to_minfo_tyslice, MarshalRoundTrip.strip_slice. cbn [of_minfo map]. rewrite (IH H). reflexivity.
Qed.

Lemma types_parse_text t : text_ok t -> types_parse (info_text (info_of t)) = Ok (info_of (reparsed t)).
Proof.
  intros H. unfold types_parse, info_text.
  destruct (MarshalRoundTrip.type_roundtrip _ (printable_info_of t H)) as [E _]. rewrite E.
  rewrite (strip_info_of t H). reflexivity.
Qed.

(* for array / scalar types the IOArg built from the text is the IOArg the
   codec theorems of IO/IOArgProof.v are about *)
Lemma types_parse_text_exact t : text_ok t -> slice_free t ->
  types_parse (info_text (info_of t)) = Ok (info_of t).
Proof. intros H Hs. rewrite (types_parse_text t H), (reparsed_slice_free t Hs). reflexivity. Qed.

Lemma info_text_reparsed t : text_ok t -> info_text (info_of (reparsed t)) = info_text (info_of t).
Proof.
  unfold info_text.
  induction t as [| b | b | b | e IH n | e IH n | fs]; cbn [text_ok reparsed]; intros H; try contradiction; try reflexivity.
  - destruct H as (He & _). rewrite !to_minfo_tyarray, !MarshalRoundTrip.info_string_array, (IH He). reflexivity.
  - rewrite !to_minfo_tyslice, !MarshalRoundTrip.info_string_slice, (IH H). reflexivity.
Qed.

Definition str_of (l : list Z) : list N := map Z.to_N l.

Example ex_text_array :
  text_ok (TyArray (TyInt 16) 3) /\
  info_text (info_of (TyArray (TyInt 16) 3)) = str_of [91; 51; 93; 105; 110; 116; 49; 54] /\      (* "[3]int16" *)
  types_parse (str_of [91; 51; 93; 105; 49; 54]) = Ok (info_of (TyArray (TyInt 16) 3)).           (* "[3]i16" *)
Proof. split; [simpl; lia|]. split; vm_compute; reflexivity. Qed.

Example ex_text_slice :
  info_text (info_of (TySlice (TyUint 8) 5)) = str_of [91; 93; 117; 105; 110; 116; 56] /\          (* "[]uint8" *)
  types_parse (str_of [91; 93; 117; 105; 110; 116; 56]) = Ok (info_of (TySlice (TyUint 8) 0)).
Proof. split; vm_compute; reflexivity. Qed.
