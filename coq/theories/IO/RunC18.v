(* RunC18.v — executable entry point of the C18 model for the correspondence check.
   input  = (kind ...)
     kind 0: ()                       -> ((magic bytes)x5 ((id name byteLen)x4) round3PayloadLen)
     kind 1..5: (kind curve payload table)  decode Round1 / Round2 / Round3 /
                GarblerSession / EvaluatorSession
        payload = list of segments: (0 b...) literal bytes | (1 blob) | (2 n b) n copies of b
        blob    = ONE integer whose big-endian bytes are 0x01 ‖ data
        table   = for Round2: what elliptic.UnmarshalCompressed answers,
                  entries (x odd y) or (x odd) (no such point)
        output  = (1) error | (2) panic
                | (0 fields... reencode-class reencode-equals-input)
          fields R1: sid name ax ay        R2: sid name (x...) (y...)
                 R3: sid key tables inputs hints ciphertexts   (blobs)
                 GS: sid name scalar ax ay ainvx ainvy
                 ES: sid name ax ay (scalar...) (bit...)
     kind 6: (6 (bit...))             -> ((byte...) (bit...)) bitsToBytesLittle, and bytesToBitsLittle of it
     kind 7: (7 curve (op...))        op history over a store of returned byte strings:
                op = (0 vkind fields...) encode that value and keep the bytes | (1 j) decode slot j
                vkind 1..5 as above, fields as in the decode output
                -> (((class length)...) per Enc op, (decoded...) per Dec op), decoded = (0 fields...) | (1) | (2);
                   point decompression answers are the points of the encoded Round2 values
     kind 8: (8 ((L0 L1)...) (label...))  the output-decoding step of EvaluatorRound4: the Round3 output
                hints and the labels the evaluator holds on the output wires
                -> (1) error (a label that is neither hint of its wire, on ANY wire) | (0 (digest byte...))
     kind 9: (9 curve (byte...) answer)  elliptic.UnmarshalCompressed(curve, bytes); answer = () when it
                returned nil, (y) the Y it returned
                -> (0) rejected, as the specification demands | (1 x y) the point the encoding names
                 | (2) the answer is not that point | (3) rejected although the point exists
     kind 10: (10)                    -> ((id P B Gx Gy onCurve(G))x4) curve parameters and IsOnCurve
     kind 11: the argument validation of the four round functions (IO/Sha2pcRounds.v), the outcome
                classes of the cryptographic cores given as flags:
                (11 1 rngNil curveNil curve genOK sidOK)                                   GarblerRound1
                (11 2 rngNil curveNil curve (name...) ax ay choicesOK)                     EvaluatorRound2
                (11 3 rngNil curveNil curve stateNil scalarNil sidState sidMsg keyOK garbleOK
                      ax ay ainvx ainvy (px...) (py...) nWires)                            GarblerRound3
                (11 4 curveNil curve stateNil sidState sidMsg nScalars nBits nCts ax ay evalOK
                      ((L0 L1)...) (label...))                                             EvaluatorRound4
                -> (0 ...) Ok (round 4: the digest bytes) | (1 code) the named error | (2) panic *)
From Coq Require Import ZArith NArith List Bool.
From Mpc Require Import Gen.Consts Base.Sx Base.Codec IO.Sha2pcCodec IO.Sha2pcRounds.
Import ListNotations.

Definition curve_of_Z (z : Z) : curve :=
  if Z.eqb z 0 then P224 else if Z.eqb z 1 then P256 else if Z.eqb z 2 then P384 else P521.
Definition curve_id (c : curve) : Z :=
  match c with P224 => 0 | P256 => 1 | P384 => 2 | P521 => 3 end%Z.

(* ---- blobs: linear-time conversion between a byte string and the integer
   0x01 ‖ data (Base.Codec.be/of_be are quadratic on 700 kB fields) *)
(* peel bytes off the low end until only the leading 0x01 is left *)
Fixpoint blob_bytes_aux (fuel : nat) (n : N) (acc : list N) : list N :=
  match fuel with
  | O => acc
  | S f => if N.leb n 1 then acc
           else blob_bytes_aux f (N.shiftr n 8) (N.land n 255 :: acc)
  end.
Definition blob_bytes (n : N) : list N := blob_bytes_aux (S (N.to_nat (N.size n) / 8)) n [].
Definition bytes_blob (bs : list N) : N := of_be_s (1%N :: bs).

Definition seg_bytes (s : sx) : list N :=
  let k := getZ (nthx 0 s) in
  if Z.eqb k 0 then map getN (tl (getL s))
  else if Z.eqb k 1 then blob_bytes (getN (nthx 1 s))
  else repeat (getN (nthx 2 s)) (getnat (nthx 1 s)).

Definition payload_bytes (s : sx) : list N := flat_map seg_bytes (getL s).

(* ---- decompression table; a lookup that misses answers a point with
   Y = 0, which no curve point has, so a miss can never agree with Go *)
Fixpoint table_lookup (tbl : list sx) (x : N) (odd : bool) : option (N * N) :=
  match tbl with
  | [] => Some (x, 0%N)
  | e :: t =>
      if N.eqb (getN (nthx 0 e)) x && Bool.eqb (getB (nthx 1 e)) odd then
        match getL e with
        | [_; _; y] => Some (x, getN y)
        | _ => None
        end
      else table_lookup t x odd
  end.

Definition res_class {A} (r : res A) : Z :=
  match r with Ok _ => 0 | Err => 1 | Panic => 2 end%Z.

Definition reenc_obs (input : list N) (r : res (list N)) : list sx :=
  [SZ (res_class r); ofB (match r with Ok b => bytes_eqb b input | _ => false end)].

Definition decoded {A} (r : res A) (fields : A -> list sx) (reenc : A -> res (list N)) (input : list N) : sx :=
  match r with
  | Ok a => SL (SZ 0 :: fields a ++ reenc_obs input (reenc a))
  | Err => SL [SZ 1]
  | Panic => SL [SZ 2]
  end.

Definition all_curves := [P224; P256; P384; P521].

Definition consts_obs : sx :=
  SL [ SL (map ofLN [magicRound1; magicRound2; magicRound3; magicGarblerSession; magicEvalSession]);
       SL (map (fun c => SL [SZ (curve_id c); ofLN (curve_name c); ofnat (byteLen c)]) all_curves);
       ofnat round3PayloadLen ].

Definition fields_r1 (p : round1) : list sx := [ofN (r1_sid p); ofLN (r1_name p); ofN (r1_ax p); ofN (r1_ay p)].
Definition fields_r2 (p : round2) : list sx :=
  [ofN (r2_sid p); ofLN (r2_name p); ofLN (map fst (r2_choices p)); ofLN (map snd (r2_choices p))].
Definition fields_r3 (p : round3) : list sx :=
  [ofN (r3_sid p); ofN (bytes_blob (r3_key p));
   ofN (bytes_blob (encodeLabelList (r3_tables p)));
   ofN (bytes_blob (encodeLabelList (r3_inputs p)));
   ofN (bytes_blob (encodeLabelList (unpairs (r3_hints p))));
   ofN (bytes_blob (encodeLabelList (unpairs (r3_cts p))))].
Definition fields_gs (s : gsession) : list sx :=
  [ofN (gs_sid s); ofLN (gs_name s); ofN (gs_scalar s); ofN (gs_ax s); ofN (gs_ay s);
   ofN (gs_ainvx s); ofN (gs_ainvy s)].
Definition fields_es (s : esession) : list sx :=
  [ofN (es_sid s); ofLN (es_name s); ofN (es_ax s); ofN (es_ay s); ofLN (es_scalars s); ofLB (es_bits s)].

Definition fields_value (v : value) : list sx :=
  match v with
  | VR1 m => fields_r1 m | VR2 m => fields_r2 m | VR3 m => fields_r3 m
  | VGS s => fields_gs s | VES s => fields_es s
  end.

(* ---- values from their fields (kind 7) *)
Definition labels_of_blob (b : N) : list N :=
  let bs := blob_bytes b in split_be 16 (length bs / 16) bs.

Definition value_of_sx (k : Z) (f : list sx) : value :=
  let g i := nth i f (SZ 0) in
  if Z.eqb k 1 then VR1 (mkR1 (getN (g 0)) (getLN (g 1)) (getN (g 2)) (getN (g 3)))%nat
  else if Z.eqb k 2 then VR2 (mkR2 (getN (g 0)) (getLN (g 1)) (combine (getLN (g 2)) (getLN (g 3))))%nat
  else if Z.eqb k 3 then
    VR3 (mkR3 (getN (g 0)) (blob_bytes (getN (g 1))) (labels_of_blob (getN (g 2))) (labels_of_blob (getN (g 3)))
              (pairs (labels_of_blob (getN (g 4)))) (pairs (labels_of_blob (getN (g 5)))))%nat
  else if Z.eqb k 4 then
    VGS (mkGS (getN (g 0)) (getLN (g 1)) (getN (g 2)) (getN (g 3)) (getN (g 4)) (getN (g 5)) (getN (g 6)))%nat
  else VES (mkES (getN (g 0)) (getLN (g 1)) (getN (g 2)) (getN (g 3)) (getLN (g 4)) (getLB (g 5)))%nat.

Definition hop_of_sx (s : sx) : hop :=
  if Z.eqb (getZ (nthx 0 s)) 0 then HEnc (value_of_sx (getZ (nthx 1 s)) (tl (tl (getL s))))
  else HDec (getnat (nthx 1 s)).

(* decompression answers for a history: the points of its Round2 values; a
   miss answers Y = 0, which no curve point has *)
Definition history_points (ops : list hop) : list (N * N) :=
  flat_map (fun o => match o with HEnc (VR2 m) => r2_choices m | _ => [] end) ops.
Definition points_lookup (pts : list (N * N)) (x : N) (odd : bool) : option (N * N) :=
  match find (fun p => N.eqb (fst p) x && Bool.eqb (N.odd (snd p)) odd) pts with
  | Some p => Some p
  | None => Some (x, 0%N)
  end.

Definition res_value_obs (r : res value) : sx :=
  match r with
  | Ok v => SL (SZ 0 :: fields_value v)
  | Err => SL [SZ 1]
  | Panic => SL [SZ 2]
  end.

(* store and results in one pass (each value is encoded once); equal to
   (history_store, run_history) of the model: history_both_ok below *)
Fixpoint history_both (dec : curve -> N -> bool -> option (N * N)) (c : curve)
         (store : list (vkind * res (list N))) (ops : list hop)
  : list (vkind * res (list N)) * list (res value) :=
  match ops with
  | [] => (store, [])
  | HEnc v :: t => history_both dec c (store ++ [(kind_of v, encode_value c v)]) t
  | HDec j :: t => let '(st, rs) := history_both dec c store t in (st, decode_slot dec c store j :: rs)
  end.

Definition run_history_obs (c : curve) (ops : list hop) : sx :=
  let dec := fun (_ : curve) => points_lookup (history_points ops) in
  let '(st, rs) := history_both dec c [] ops in
  SL [ SL (map (fun e => SL [SZ (res_class (snd e));
                             ofnat (match snd e with Ok b => length b | _ => 0%nat end)]) st);
       SL (map res_value_obs rs) ].

(* ---- kind 9 / 10: compressed points and curve parameters *)
Definition uc_obs (v : uc_verdict) : sx :=
  match v with
  | UCReject => SL [SZ 0]
  | UCAccept x y => SL [SZ 1; ofN x; ofN y]
  | UCBadAnswer => SL [SZ 2]
  | UCMissed => SL [SZ 3]
  end.

Definition curves_obs : sx :=
  SL (map (fun c => SL [SZ (curve_id c); ofN (curve_p c); ofN (curve_b c);
                        ofN (fst (curve_g c)); ofN (snd (curve_g c)); ofB (on_curve c (curve_g c))]) all_curves).

(* ---- kind 11: the rounds with their validation; the cores are stand-ins
   whose outcome class is an input *)
Definition rerr_code (e : rerr) : Z :=
  match e with
  | ENilRandom => 1 | ENilCurve => 2 | EInvalidGarblerSession => 3 | EInvalidEvaluatorState => 4
  | ESessionMismatch => 5 | ECurveMismatch => 6 | EInputBits => 7 | ERandom => 8
  | EPointNotOnCurve => 9 | EPointCount => 10 | EBundle => 11 | EGarble => 12 | EEval => 13
  | EHintCount => 14 | EUnknownLabel => 15 | EOutputLength => 16 | EDecode => 17 | EEncode => 18
  end%Z.

Definition vres_obs {A} (r : vres A) (f : A -> list sx) : sx :=
  match r with
  | VOk a => SL (SZ 0 :: f a)
  | VErr e => SL [SZ 1; SZ (rerr_code e)]
  | VPanic => SL [SZ 2]
  end.

Definition flag_core {A} (ok : bool) (a : A) : vres A := if ok then VOk a else VErr ERandom.
Definition opt_of {A} (isnil : bool) (a : A) : option A := if isnil then None else Some a.

Definition run_round_validation (inp : sx) : sx :=
  let fn := getZ (nthx 1 inp) in
  if Z.eqb fn 1 then
    let c := curve_of_Z (getZ (nthx 4 inp)) in
    vres_obs (GarblerRound1_v unit (fun _ c' => flag_core (getB (nthx 5 inp)) (1%N, curve_g c', curve_g c'))
                              (fun _ => flag_core (getB (nthx 6 inp)) 7%N)
                              (opt_of (getB (nthx 2 inp)) tt) (opt_of (getB (nthx 3 inp)) c))
             (fun _ => [])
  else if Z.eqb fn 2 then
    let c := curve_of_Z (getZ (nthx 4 inp)) in
    vres_obs (EvaluatorRound2_v unit (fun _ _ _ _ _ => flag_core (getB (nthx 8 inp)) ([], []))
                                (opt_of (getB (nthx 2 inp)) tt) (opt_of (getB (nthx 3 inp)) c)
                                (mkR1 0 (getLN (nthx 5 inp)) (getN (nthx 6 inp)) (getN (nthx 7 inp))) (repeat 0%N 32%nat))
             (fun _ => [])
  else if Z.eqb fn 3 then
    let c := curve_of_Z (getZ (nthx 4 inp)) in
    let st := mkGS (getN (nthx 7 inp)) (curve_name c) 1 (getN (nthx 11 inp)) (getN (nthx 12 inp)) (getN (nthx 13 inp)) (getN (nthx 14 inp)) in
    let req := mkR2 (getN (nthx 8 inp)) (curve_name c) (combine (getLN (nthx 15 inp)) (getLN (nthx 16 inp))) in
    let nw := getnat (nthx 17 inp) in
    vres_obs (GarblerRound3_v unit (fun _ => flag_core (getB (nthx 9 inp)) (repeat 0%N 32%nat))
                              (fun _ _ => flag_core (getB (nthx 10 inp))
                                            (repeat (0%N, 0%N) 256%nat, repeat (0%N, 0%N) nw, repeat (0%N, 0%N) 256%nat, []))
                              (fun _ _ pts _ => map (fun _ => (0%N, 0%N)) pts)
                              (opt_of (getB (nthx 2 inp)) tt) (opt_of (getB (nthx 3 inp)) c)
                              (opt_of (getB (nthx 5 inp)) st) (getB (nthx 6 inp)) (repeat 0%N 32%nat) req)
             (fun _ => [])
  else
    let c := curve_of_Z (getZ (nthx 3 inp)) in
    let st := mkES (getN (nthx 5 inp)) (curve_name c) (getN (nthx 10 inp)) (getN (nthx 11 inp))
                   (repeat 1%N (getnat (nthx 7 inp))) (repeat false (getnat (nthx 8 inp))) in
    let hints := map (fun p => (getN (nthx 0 p), getN (nthx 1 p))) (getL (nthx 13 inp)) in
    let msg := mkR3 (getN (nthx 6 inp)) [] [] [] hints (repeat (0%N, 0%N) (getnat (nthx 9 inp))) in
    let outl := getLN (nthx 14 inp) in
    vres_obs (EvaluatorRound4_v (fun _ _ _ => [])
                                (fun _ _ _ _ => if getB (nthx 12 inp) then VOk outl else VErr EEval)
                                (opt_of (getB (nthx 2 inp)) c) (opt_of (getB (nthx 4 inp)) st) msg)
             (fun d => [ofLN d]).

Definition run_c18 (inp : sx) : sx :=
  let kind := getZ (nthx 0 inp) in
  if Z.eqb kind 0 then consts_obs
  else if Z.eqb kind 9 then
    uc_obs (unmarshal_compressed (curve_of_Z (getZ (nthx 1 inp))) (getLN (nthx 2 inp))
              (match getL (nthx 3 inp) with y :: _ => Some (getN y) | [] => None end))
  else if Z.eqb kind 10 then curves_obs
  else if Z.eqb kind 11 then run_round_validation inp
  else if Z.eqb kind 6 then
    let by_ := bitsToBytesLittle (getLB (nthx 1 inp)) in
    SL [ofLN by_; ofLB (bytesToBitsLittle by_)]
  else if Z.eqb kind 8 then
    let hints := map (fun p => (getN (nthx 0 p), getN (nthx 1 p))) (getL (nthx 1 inp)) in
    match (_ <- guard (length hints =? outputHintCount)%nat ;; decode_outputs hints (getLN (nthx 2 inp))) with
    | Ok bits => SL [SZ 0; ofLN (bitsToBytesLittle bits)]
    | Err => SL [SZ 1]
    | Panic => SL [SZ 2]
    end
  else if Z.eqb kind 7 then
    run_history_obs (curve_of_Z (getZ (nthx 1 inp))) (map hop_of_sx (getL (nthx 2 inp)))
  else
    let c := curve_of_Z (getZ (nthx 1 inp)) in
    let data := payload_bytes (nthx 2 inp) in
    let tbl := getL (nthx 3 inp) in
    if Z.eqb kind 1 then
      decoded (DecodeRound1 c data)
        fields_r1
        (EncodeRound1 c) data
    else if Z.eqb kind 2 then
      decoded (DecodeRound2 (fun _ => table_lookup tbl) c data)
        fields_r2
        (EncodeRound2 c) data
    else if Z.eqb kind 3 then
      decoded (DecodeRound3 data)
        fields_r3
        EncodeRound3 data
    else if Z.eqb kind 4 then
      decoded (DecodeGarblerSession c data)
        fields_gs
        (EncodeGarblerSession c) data
    else if Z.eqb kind 5 then
      decoded (DecodeEvaluatorSession c data)
        fields_es
        (EncodeEvaluatorSession c) data
    else sx_err 9.

(* the constants the model defines itself (not integer constants of
   Gen/Consts.v): the harness reports the Go values in its kind-0 case, which
   [run_c18] must reproduce; here they are tied to the documented values *)
Lemma c18_consts_ok :
  map byteLen all_curves = [28; 32; 48; 66]%nat /\
  N.of_nat round3PayloadLen = 707146%N /\
  map (fun c => N.of_nat (length (curve_name c))) all_curves = [5; 5; 5; 5]%N /\
  N.of_nat evaluatorChoiceSignBytes = ((N.of_nat evaluatorCiphertextCount + 7) / 8)%N /\
  N.of_nat garbledTableByteLen = (N.of_nat garbledTableLabelCount * N.of_nat labelByteLen)%N.
Proof.
  (* the sizes are moved to N before they are evaluated: 707146 in unary is slow to check *)
  split; [reflexivity|]. split.
  - unfold round3PayloadLen, sessionIDBytes, garblingKeyBytes, garbledTableByteLen, garblerInputLabelBytes,
      outputHintBytes, ciphertextBytes.
    rewrite !Nat2N.inj_add, !Z_nat_N. reflexivity.
  - split; [reflexivity|].
    unfold evaluatorChoiceSignBytes, evaluatorCiphertextCount, garbledTableByteLen, garbledTableLabelCount, labelByteLen.
    rewrite !Z_nat_N. split; reflexivity.
Qed.

Lemma history_both_ok dec c : forall ops store,
  history_both dec c store ops = (history_store c store ops, run_history dec c store ops).
Proof.
  induction ops as [|[v|j] ops IH]; intros store; cbn [history_both history_store run_history].
  - reflexivity.
  - apply IH.
  - rewrite IH. reflexivity.
Qed.

Lemma blob_example :
  blob_bytes 0x01000203ff%N = [0; 2; 3; 255]%N /\ bytes_blob [0; 2; 3; 255]%N = 0x01000203ff%N.
Proof. vm_compute. split; reflexivity. Qed.
