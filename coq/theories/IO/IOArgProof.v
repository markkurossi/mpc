(* IO/IOArgProof.v — proofs about the model IO/IOArg.v (property C13). *)
From Coq Require Import ZArith List Bool Lia ZifyBool.
From Coq Require String Ascii.
From Mpc Require Import Gen.Consts Base.ListFacts IO.IOArg.
Import ListNotations.
Open Scope Z_scope.

Lemma set_bit_spec r i b k :
  Z.testbit (set_bit r i b) k = if k =? Z.of_nat i then b else Z.testbit r k.
Proof.
  unfold set_bit. destruct b.
  - rewrite Z.setbit_eqb by lia. rewrite Z.eqb_sym. destruct (k =? Z.of_nat i); reflexivity.
  - rewrite Z.clearbit_eqb. rewrite Z.eqb_sym.
    destruct (k =? Z.of_nat i); simpl; [apply andb_false_r | apply andb_true_r].
Qed.

(* for i := 0; i < n; i++ { r.SetBit(r, off+i, f(i)) }: [copy_bits], [mask_of] and
   [set_int_fixed] are this loop by definition *)
Definition write_bits (f : nat -> bool) (r : Z) (off n : nat) : Z :=
  fold_left (fun r i => set_bit r (off + i) (f i)) (seq 0 n) r.

Lemma write_bits_spec f n : forall r off k,
  Z.testbit (write_bits f r off n) k =
  if (Z.of_nat off <=? k) && (k <? Z.of_nat (off + n))
  then f (Z.to_nat (k - Z.of_nat off)) else Z.testbit r k.
Proof.
  unfold write_bits. induction n as [|n IH]; intros r off k.
  - simpl. destruct (Z.of_nat off <=? k) eqn:E1, (k <? Z.of_nat (off + 0)) eqn:E2; simpl; try reflexivity; lia.
  - rewrite seq_S, fold_left_app. cbn [fold_left Nat.add].
    rewrite set_bit_spec, IH.
    destruct (Z.eqb_spec k (Z.of_nat (off + n))) as [->|Hne].
    + replace (Z.of_nat off <=? Z.of_nat (off + n)) with true by lia.
      replace (Z.of_nat (off + n) <? Z.of_nat (off + S n)) with true by lia.
      simpl. f_equal. lia.
    + replace (k <? Z.of_nat (off + S n)) with (k <? Z.of_nat (off + n)) by lia. reflexivity.
Qed.

Lemma copy_bits_spec n r off inp k :
  Z.testbit (copy_bits r off inp n) k =
  if (Z.of_nat off <=? k) && (k <? Z.of_nat (off + n))
  then Z.testbit inp (k - Z.of_nat off) else Z.testbit r k.
Proof.
  change (copy_bits r off inp n) with (write_bits (fun i => Z.testbit inp (Z.of_nat i)) r off n).
  rewrite write_bits_spec.
  destruct ((Z.of_nat off <=? k) && (k <? Z.of_nat (off + n))) eqn:E; [|reflexivity].
  rewrite Z2Nat.id by lia. reflexivity.
Qed.

Lemma mask_of_spec n k : 0 <= k -> Z.testbit (mask_of n) k = (k <? Z.of_nat n).
Proof.
  intros Hk. change (mask_of n) with (write_bits (fun _ => true) 0 0 n).
  rewrite write_bits_spec, Z.testbit_0_l.
  replace (Z.of_nat 0 <=? k) with true by lia. destruct (k <? Z.of_nat n) eqn:E; simpl; rewrite E; reflexivity.
Qed.

Lemma mask_of_ones n : mask_of n = Z.ones (Z.of_nat n).
Proof.
  apply Z.bits_inj'. intros k Hk. rewrite mask_of_spec, Z.testbit_ones_nonneg by lia. reflexivity.
Qed.

Lemma land_mask_of z n : Z.land z (mask_of n) = z mod 2 ^ Z.of_nat n.
Proof. rewrite mask_of_ones. apply Z.land_ones. lia. Qed.

Lemma testbit_nonneg_lt z n k : 0 <= z < 2 ^ n -> n <= k -> Z.testbit z k = false.
Proof.
  intros [H0 H1] Hk. destruct (Z.eq_dec z 0) as [->|Hz]; [apply Z.testbit_0_l|].
  assert (0 <= n) by (destruct (Z_lt_le_dec n 0) as [Hn|]; [rewrite Z.pow_neg_r in H1 by lia; lia | lia]).
  assert (2 ^ n <= 2 ^ k) by (apply Z.pow_le_mono_r; lia).
  apply Z.bits_above_log2; [lia|]. apply Z.log2_lt_pow2; lia.
Qed.

Lemma lt_pow2_of_bits r n :
  0 <= n -> (forall k, n <= k -> Z.testbit r k = false) -> r < 2 ^ n.
Proof.
  intros Hn Hhi. destruct (Z_lt_le_dec r (2 ^ n)) as [|Hge]; [assumption|exfalso].
  assert (Hpos : 0 < r) by (pose proof (Z.pow_pos_nonneg 2 n); lia).
  pose proof (Z.bit_log2 r Hpos) as Hb. rewrite Hhi in Hb; [discriminate|]. apply Z.log2_le_pow2; lia.
Qed.

Lemma testbit_neg_ge z n k : - 2 ^ n <= z < 0 -> 0 <= n <= k -> Z.testbit z k = true.
Proof.
  intros [H0 H1] Hk.
  replace z with (- (- z)) by lia. rewrite Z.bits_opp by lia.
  rewrite (testbit_nonneg_lt (Z.pred (- z)) n k); [reflexivity | lia | lia].
Qed.

Lemma testbit_top x n : 0 <= n -> 0 <= x < 2 ^ (n + 1) -> Z.testbit x n = (2 ^ n <=? x).
Proof.
  intros Hn Hx. rewrite Z.pow_add_r, Z.pow_1_r in Hx by lia.
  assert (Hp : 0 < 2 ^ n) by (apply Z.pow_pos_nonneg; lia).
  destruct (2 ^ n <=? x) eqn:E.
  - apply Z.testbit_true; [lia|].
    replace x with (1 * 2 ^ n + (x - 2 ^ n)) by ring.
    rewrite Z.div_add_l by lia. rewrite Z.div_small by lia. reflexivity.
  - apply Z.testbit_false; [lia|]. rewrite Z.div_small by lia. reflexivity.
Qed.

Lemma pow2_split b : (0 < b)%nat -> 2 ^ Z.of_nat b = 2 * 2 ^ (Z.of_nat b - 1).
Proof. intros Hb. replace (Z.of_nat b) with (Z.succ (Z.of_nat b - 1)) at 1 by lia. apply Z.pow_succ_r. lia. Qed.

Lemma pow2_le_mono a b : 0 <= a <= b -> 2 ^ a <= 2 ^ b.
Proof. intros. apply Z.pow_le_mono_r; lia. Qed.

Lemma wires_length r n : length (wires r n) = n.
Proof. unfold wires. rewrite map_length, seq_length. reflexivity. Qed.

Lemma wires_ext r r' n :
  (forall k, 0 <= k < Z.of_nat n -> Z.testbit r k = Z.testbit r' k) -> wires r n = wires r' n.
Proof.
  intros H. unfold wires. apply map_ext_in. intros i Hi. apply in_seq in Hi. apply H. lia.
Qed.

Lemma wires_app r a b : wires r (a + b) = wires r a ++ wires (Z.shiftr r (Z.of_nat a)) b.
Proof.
  unfold wires. rewrite seq_app, map_app. f_equal. simpl.
  rewrite map_seq_shift. apply map_ext. intros i. rewrite Z.shiftr_spec by lia. f_equal. lia.
Qed.

Lemma wires_S r n : wires r (S n) = wires r n ++ [Z.testbit r (Z.of_nat n)].
Proof. unfold wires. rewrite seq_S, map_app. reflexivity. Qed.

Lemma wires_nth r n i : (i < n)%nat -> nth i (wires r n) false = Z.testbit r (Z.of_nat i).
Proof. apply (nth_map_seq (fun i => Z.testbit r (Z.of_nat i))). Qed.

Lemma wires_mod x e : wires (x mod 2 ^ Z.of_nat e) e = wires x e.
Proof. apply wires_ext. intros k Hk. apply Z.mod_pow2_bits_low. lia. Qed.

Lemma wires_zero n : wires 0 n = repeat false n.
Proof. induction n as [|n IH]; [reflexivity|]. rewrite wires_S, IH, Z.testbit_0_l. symmetry. apply repeat_cons. Qed.

Lemma wires_all_false r n :
  (forall k, 0 <= k < Z.of_nat n -> Z.testbit r k = false) -> wires r n = repeat false n.
Proof. intros H. rewrite <- wires_zero. apply wires_ext. intros k Hk. rewrite Z.testbit_0_l. apply H, Hk. Qed.

(* nothing has been written at or above ofs yet *)
Definition clean (r : Z) (ofs : nat) : Prop := forall k, Z.of_nat ofs <= k -> Z.testbit r k = false.

Lemma clean_0 : clean 0 0.
Proof. intros k _. apply Z.testbit_0_l. Qed.

Lemma clean_mono r a b : clean r a -> (a <= b)%nat -> clean r b.
Proof. intros H Hab k Hk. apply H. lia. Qed.

Lemma clean_wires_zero r ofs n : clean r ofs -> wires r (ofs + n) = wires r ofs ++ repeat false n.
Proof.
  intros Hc. rewrite wires_app. f_equal. apply wires_all_false. intros k Hk.
  rewrite Z.shiftr_spec by lia. apply Hc. lia.
Qed.

Definition keeps_below (result r' : Z) (ofs : nat) : Prop :=
  forall k, 0 <= k < Z.of_nat ofs -> Z.testbit r' k = Z.testbit result k.

Lemma write_bits_wires f r off n : wires (write_bits f r off n) (off + n) = wires r off ++ map f (seq 0 n).
Proof.
  rewrite wires_app. f_equal; apply map_ext_in; intros i Hi; apply in_seq in Hi.
  - rewrite write_bits_spec. replace (Z.of_nat off <=? Z.of_nat i) with false by lia. reflexivity.
  - rewrite Z.shiftr_spec, write_bits_spec by lia.
    replace (Z.of_nat off <=? Z.of_nat i + Z.of_nat off) with true by lia.
    replace (Z.of_nat i + Z.of_nat off <? Z.of_nat (off + n)) with true by lia.
    simpl. f_equal. lia.
Qed.

Lemma write_bits_clean f r off n : clean r off -> clean (write_bits f r off n) (off + n).
Proof.
  intros Hc k Hk. rewrite write_bits_spec.
  replace (k <? Z.of_nat (off + n)) with false by lia. rewrite andb_false_r. apply Hc. lia.
Qed.

Lemma write_bits_keeps f r off n : keeps_below r (write_bits f r off n) off.
Proof.
  intros k Hk. rewrite write_bits_spec. replace (Z.of_nat off <=? k) with false by lia. reflexivity.
Qed.

Lemma wires_copy_bits result offset x b :
  wires (copy_bits result offset x b) (offset + b) = wires result offset ++ wires x b.
Proof. apply (write_bits_wires (fun i => Z.testbit x (Z.of_nat i))). Qed.

(* the unsigned number a wire vector spells, least significant bit first *)
Fixpoint from_bits (l : list bool) : Z :=
  match l with
  | [] => 0
  | b :: l' => Z.b2z b + 2 * from_bits l'
  end.

Lemma from_bits_app l1 l2 : from_bits (l1 ++ l2) = from_bits l1 + 2 ^ Z.of_nat (length l1) * from_bits l2.
Proof.
  induction l1 as [|b l1 IH]; cbn [from_bits app length].
  - rewrite Z.pow_0_r. lia.
  - rewrite IH. rewrite Nat2Z.inj_succ, Z.pow_succ_r by lia. ring.
Qed.

(* two's complement: the wires of z, read as an unsigned number, are z mod 2^n *)
Lemma from_bits_wires z n : from_bits (wires z n) = z mod 2 ^ Z.of_nat n.
Proof.
  induction n as [|n IH].
  - simpl. rewrite Z.mod_1_r. reflexivity.
  - rewrite wires_S, from_bits_app, wires_length, IH. cbn [from_bits].
    rewrite Nat2Z.inj_succ, Z.pow_succ_r by lia.
    rewrite Z.testbit_spec' by lia.
    assert (H2 : 0 < 2 ^ Z.of_nat n) by (apply Z.pow_pos_nonneg; lia).
    set (p := 2 ^ Z.of_nat n) in *.
    rewrite (Z.mul_comm 2 p), Z.rem_mul_r by lia. lia.
Qed.

Lemma from_bits_wires_small z n : 0 <= z < 2 ^ Z.of_nat n -> from_bits (wires z n) = z.
Proof. intros Hz. rewrite from_bits_wires. apply Z.mod_small, Hz. Qed.

Lemma from_bits_range l : 0 <= from_bits l < 2 ^ Z.of_nat (length l).
Proof.
  induction l as [|b l IH]; cbn [from_bits length].
  - simpl. lia.
  - rewrite Nat2Z.inj_succ, Z.pow_succ_r by lia. destruct b; simpl Z.b2z; lia.
Qed.

Lemma wires_inj a b n :
  0 <= a < 2 ^ Z.of_nat n -> 0 <= b < 2 ^ Z.of_nat n -> wires a n = wires b n -> a = b.
Proof.
  intros Ha Hb H. rewrite <- (from_bits_wires_small a n Ha), H. apply from_bits_wires_small, Hb.
Qed.

Lemma parse_compound t c cs ins :
  parse (IOArg t (c :: cs)) ins =
  if Nat.eqb (length ins) (length (c :: cs))
  then parse_members (fun a => parse a) (c :: cs) ins 0 0%nat else Err.
Proof. cbn [parse]. destruct (Nat.eqb (length ins) (length (c :: cs))); reflexivity. Qed.

Definition total_bits (cs : list ioarg) : nat :=
  fold_right (fun a acc => (i_bits (a_type a) + acc)%nat) O cs.

(* the values Parse computes for the members, one input string each *)
Fixpoint member_values (P : ioarg -> list (list N) -> res Z) (cs : list ioarg) (ins : list (list N))
  : option (list Z) :=
  match cs, ins with
  | [], _ => Some []
  | a :: cs', s :: ins' =>
      match P a [s] with
      | Ok x => option_map (cons x) (member_values P cs' ins')
      | _ => None
      end
  | _ :: _, [] => None
  end.

Definition member_wires (cs : list ioarg) (rs : list Z) : list bool :=
  concat (map (fun ax => wires (snd ax) (i_bits (a_type (fst ax)))) (combine cs rs)).

Lemma parse_members_wires P : forall cs ins result offset r,
  parse_members P cs ins result offset = Ok r ->
  exists rs, member_values P cs ins = Some rs /\ length rs = length cs /\
    wires r (offset + total_bits cs) = wires result offset ++ member_wires cs rs.
Proof.
  induction cs as [|a cs IH]; intros ins result offset r H; simpl in H.
  - inversion H; subst. exists []. repeat split.
    unfold member_wires. simpl. rewrite Nat.add_0_r, app_nil_r. reflexivity.
  - destruct ins as [|s ins]; [discriminate|].
    simpl member_values. destruct (P a [s]) as [x| |] eqn:EP; try discriminate.
    apply IH in H. destruct H as (rs & Hv & Hl & Hw).
    exists (x :: rs). rewrite Hv. repeat split; [simpl; lia|].
    unfold member_wires in *. simpl. rewrite Nat.add_assoc, Hw, wires_copy_bits, app_assoc. reflexivity.
Qed.

(* the wires of a compound argument are the wires of its members, each on its
   own Type.Bits wires, in declaration order *)
Lemma parse_compound_wires t c cs ins r :
  parse (IOArg t (c :: cs)) ins = Ok r ->
  length ins = length (c :: cs) /\
  exists rs, member_values parse (c :: cs) ins = Some rs /\ length rs = length (c :: cs) /\
    wires r (total_bits (c :: cs)) = member_wires (c :: cs) rs.
Proof.
  rewrite parse_compound. destruct (Nat.eqb (length ins) (length (c :: cs))) eqn:EL; [|discriminate].
  intros H. split; [apply Nat.eqb_eq, EL|]. exact (parse_members_wires _ _ _ _ _ _ H).
Qed.

(* where member i's wires are: a position fixed by the types alone *)
Fixpoint offset_of (cs : list ioarg) (i : nat) : nat :=
  match i, cs with
  | S j, a :: cs' => (i_bits (a_type a) + offset_of cs' j)%nat
  | _, _ => O
  end.

Definition segment {A} (l : list A) (off n : nat) : list A := firstn n (skipn off l).

Lemma member_wires_segment : forall cs rs i a x,
  length rs = length cs -> nth_error cs i = Some a -> nth_error rs i = Some x ->
  segment (member_wires cs rs) (offset_of cs i) (i_bits (a_type a)) = wires x (i_bits (a_type a)).
Proof.
  unfold segment, member_wires.
  induction cs as [|c cs IH]; intros rs i a x Hl Ha Hx; [destruct i; discriminate|].
  destruct rs as [|y rs]; [discriminate|]. simpl in Hl.
  destruct i as [|i]; simpl in *.
  - inversion Ha; inversion Hx; subst. apply firstn_app_exact, wires_length.
  - rewrite skipn_add, skipn_app_exact by apply wires_length. apply IH; auto.
Qed.

Lemma member_values_nth P : forall cs ins rs j a s,
  member_values P cs ins = Some rs ->
  nth_error cs j = Some a -> nth_error ins j = Some s ->
  exists x, P a [s] = Ok x /\ nth_error rs j = Some x.
Proof.
  induction cs as [|c cs IH]; intros ins rs j a s Hv Ha Hs; [destruct j; discriminate|].
  destruct ins as [|s0 ins]; [destruct j; discriminate|].
  simpl in Hv. destruct (P c [s0]) as [x0| |] eqn:EP; try discriminate.
  destruct (member_values P cs ins) as [rs0|] eqn:EV; try discriminate.
  simpl in Hv. inversion Hv; subst rs.
  destruct j as [|j]; simpl in *.
  - inversion Ha; inversion Hs; subst. exists x0. auto.
  - eapply IH; eauto.
Qed.

(* whatever the other members' inputs are, the wires of member j are the wires
   of Parse on member j alone *)
Lemma parse_member_independent t c cs ins r j a s :
  parse (IOArg t (c :: cs)) ins = Ok r ->
  nth_error (c :: cs) j = Some a -> nth_error ins j = Some s ->
  exists x, parse a [s] = Ok x /\
    segment (wires r (total_bits (c :: cs))) (offset_of (c :: cs) j) (i_bits (a_type a))
    = wires x (i_bits (a_type a)).
Proof.
  intros H Ha Hs. apply parse_compound_wires in H.
  destruct H as (Hl & rs & Hv & Hlr & Hw).
  destruct (member_values_nth _ _ _ _ _ _ _ Hv Ha Hs) as (x & Hx & Hn).
  exists x. split; [exact Hx|]. rewrite Hw. apply member_wires_segment; auto.
Qed.

Lemma parse_independent t c cs ins ins' r r' j a s :
  parse (IOArg t (c :: cs)) ins = Ok r -> parse (IOArg t (c :: cs)) ins' = Ok r' ->
  nth_error (c :: cs) j = Some a -> nth_error ins j = Some s -> nth_error ins' j = Some s ->
  segment (wires r (total_bits (c :: cs))) (offset_of (c :: cs) j) (i_bits (a_type a))
  = segment (wires r' (total_bits (c :: cs))) (offset_of (c :: cs) j) (i_bits (a_type a)).
Proof.
  intros H H' Ha Hs Hs'.
  destruct (parse_member_independent _ _ _ _ _ _ _ _ H Ha Hs) as (x & Hx & E).
  destruct (parse_member_independent _ _ _ _ _ _ _ _ H' Ha Hs') as (x' & Hx' & E').
  rewrite E, E'. congruence.
Qed.

(* Parse, Set, Result and InstantiateWithSizes pick their branch by comparing the
   kind of the Info with constants; on [info_of] of a given constructor the
   comparisons compute, and what is left is the branch *)
Lemma i_bits_info_of t : i_bits (info_of t) = bits_of t.
Proof. destruct t; reflexivity. Qed.

Lemma parse_leaf_arg t s : parse (IOArg t []) [s] = parse_leaf t s.
Proof. reflexivity. Qed.

Lemma parse_int b s : parse (leaf_arg (TyInt b)) [s] = match set_string s with Some z => Ok z | None => Err end.
Proof. reflexivity. Qed.

Lemma parse_uint b s : parse (leaf_arg (TyUint b)) [s] = match set_string s with Some z => Ok z | None => Err end.
Proof. reflexivity. Qed.

Lemma parse_bool s :
  parse (leaf_arg TyBool) [s] =
  if mem_str s bool_false_spellings then Ok 0
  else if mem_str s bool_true_spellings then Ok 1 else Err.
Proof. reflexivity. Qed.

(* number of elements a literal denotes *)
Definition literal_elems (s : list N) (val : Z) (e : nat) : nat := ceil_div (literal_bit_len s val) e.

Lemma parse_tyarray el n s :
  parse (leaf_arg (TyArray el n)) [s] =
  if Nat.eqb n 0 then Ok 0
  else match set_string s with
       | None => Err
       | Some val =>
           let e := i_bits (info_of el) in
           if Nat.eqb e 0 then Panic
           else let k := literal_elems s val e in
                if (n <? k)%nat then Err
                else Ok (parse_array_pack (Z.shiftl val (Z.of_nat ((n - k) * e))) n e)
       end.
Proof. reflexivity. Qed.

Lemma parse_tyslice el n s :
  parse (leaf_arg (TySlice el n)) [s] =
  match set_string s with
  | None => Err
  | Some val =>
      let e := i_bits (info_of el) in
      if Nat.eqb e 0 then Panic
      else let k := literal_elems s val e in
           if (k <? k)%nat then Err
           else Ok (parse_array_pack (Z.shiftl val (Z.of_nat ((k - k) * e))) k e)
  end.
Proof. reflexivity. Qed.

Lemma set_leaf_tyarray SI el n r v ofs :
  set_leaf SI (info_of (TyArray el n)) r v ofs =
  if Nat.eqb n 0 then Ok (r, ofs)
  else match set_array SI (info_of (TyArray el n)) r v ofs with
       | Ok (c, r', _) => if (n <? c)%nat then Err else Ok (r', (ofs + n * i_bits (info_of el))%nat)
       | Err => Err
       | Panic => Panic
       end.
Proof. reflexivity. Qed.

Lemma set_leaf_tyslice SI el n r v ofs :
  set_leaf SI (info_of (TySlice el n)) r v ofs =
  match set_array SI (info_of (TySlice el n)) r v ofs with
  | Ok (c, r', o) => if (n <? c)%nat then Err else Ok (r', o)
  | Err => Err
  | Panic => Panic
  end.
Proof. reflexivity. Qed.

Lemma result_is_scalar TI t r :
  kind_is t types_TArray || kind_is t types_TSlice = false -> result_gen TI t r = result_scalar TI t r.
Proof. intros H. unfold result_gen. rewrite H. reflexivity. Qed.

Lemma result_scalar_tyint TI b r :
  result_scalar TI (info_of (TyInt b)) r =
  if Nat.eqb b 0 then Panic
  else let '(v, r') := TI b r in
       match go_width b with
       | O => Ok (OBig v, r')
       | w => Ok (OInt true w (wrap_s w (big_int64 v)), r')
       end.
Proof. reflexivity. Qed.

Lemma result_scalar_tyuint TI b r :
  result_scalar TI (info_of (TyUint b)) r =
  match go_width b with
  | O => Ok (OBig r, r)
  | w => Ok (OInt false w (wrap_u w (big_uint64 r)), r)
  end.
Proof. reflexivity. Qed.

Lemma result_scalar_tystring TI b r :
  result_scalar TI (info_of (TyString b)) r =
  Ok (OStr (flat_map (fun i => string_rune (Z.land (Z.shiftr r (Z.of_nat (i * 8))) 255)) (seq 0 (b / 8))), r).
Proof. reflexivity. Qed.

Lemma result_gen_elems TI (slice : bool) el n r :
  result_gen TI (info_of (if slice then TySlice el n else TyArray el n)) r =
  match elem_go_type (info_of el) with
  | None => Panic
  | Some (ek, ew) =>
      match result_items TI (info_of el) r (mask_of (i_bits (info_of el))) (i_bits (info_of el)) (seq 0 n) with
      | Ok items => Ok (OSlice ek ew items, r)
      | Err => Err
      | Panic => Panic
      end
  end.
Proof. destruct slice; reflexivity. Qed.

Lemma elem_go_type_tyint b :
  elem_go_type (info_of (TyInt b)) = match go_width b with O => Some (4%nat, O) | w => Some (2%nat, w) end.
Proof. reflexivity. Qed.

Lemma elem_go_type_tyuint b :
  elem_go_type (info_of (TyUint b)) = match go_width b with O => Some (4%nat, O) | w => Some (3%nat, w) end.
Proof. reflexivity. Qed.

Lemma instantiate_tstruct b a e fs c s0 rest :
  instantiate (Info types_TStruct b a e fs c) (s0 :: rest) =
  match inst_fields (fun f => instantiate f) fs (s0 :: rest) 0%nat with
  | Ok (fs', tot) => Ok (Info types_TStruct tot a e fs' true)
  | Err => Err
  | Panic => Panic
  end.
Proof. reflexivity. Qed.

Lemma instantiate_tarray b a el fs c s0 rest :
  instantiate (Info types_TArray b a (Some el) fs c) (s0 :: rest) =
  if negb (concrete_of el) then Err
  else if c then Ok (Info types_TArray b a (Some el) fs true)
  else if Nat.eqb (i_bits el) 0 then Panic
  else let n := array_size_for s0 (i_bits el) in Ok (Info types_TArray (n * i_bits el) n (Some el) fs true).
Proof. reflexivity. Qed.

Lemma instantiate_tslice b a el fs c s0 rest :
  instantiate (Info types_TSlice b a (Some el) fs c) (s0 :: rest) =
  if negb (concrete_of el) then Err
  else if Nat.eqb (i_bits el) 0 then Panic
  else let n := array_size_for s0 (i_bits el) in Ok (Info types_TSlice (n * i_bits el) n (Some el) fs true).
Proof. reflexivity. Qed.

(* every spelling SetString reads as z puts the two's complement of z on the
   wires: as an unsigned number, z mod 2^b *)
Lemma parse_int_bits (signed : bool) b s z :
  set_string s = Some z ->
  exists r, parse (leaf_arg (if signed then TyInt b else TyUint b)) [s] = Ok r /\
    wires r b = wires z b /\ from_bits (wires r b) = z mod 2 ^ Z.of_nat b.
Proof.
  intros H. exists z. destruct signed; [rewrite parse_int | rewrite parse_uint];
    rewrite H; repeat split; apply from_bits_wires.
Qed.

Lemma parse_bool_bits s r : parse (leaf_arg TyBool) [s] = Ok r ->
  (mem_str s bool_false_spellings = true /\ wires r 1 = [false]) \/
  (mem_str s bool_true_spellings = true /\ wires r 1 = [true]).
Proof.
  rewrite parse_bool. destruct (mem_str s bool_false_spellings).
  - intros H; inversion H; subst. left. auto.
  - destruct (mem_str s bool_true_spellings); intros H; inversion H; subst. right. auto.
Qed.

Definition pack_step (val : Z) (count elSize : nat) (result : Z) (i : nat) : Z :=
  Z.lor result
        (Z.shiftl (Z.land (Z.shiftr val (Z.of_nat ((count - i - 1) * elSize))) (mask_of elSize))
                  (Z.of_nat (i * elSize))).

Lemma parse_array_pack_fold val count e :
  parse_array_pack val count e = fold_left (pack_step val count e) (seq 0 count) 0.
Proof. reflexivity. Qed.

Definition chunk (val : Z) (count e i : nat) : Z := Z.shiftr val (Z.of_nat ((count - i - 1) * e)).

Lemma pack_prefix val count e : forall m,
  let r := fold_left (pack_step val count e) (seq 0 m) 0 in
  0 <= r /\ (forall k, Z.of_nat (m * e) <= k -> Z.testbit r k = false) /\
  wires r (m * e) = concat (map (fun i => wires (chunk val count e i) e) (seq 0 m)).
Proof.
  induction m as [|m IH]; intros r.
  - subst r. simpl. repeat split; try lia. intros. apply Z.testbit_0_l.
  - subst r. rewrite seq_S, fold_left_app. cbn [fold_left Nat.add].
    set (rm := fold_left (pack_step val count e) (seq 0 m) 0) in *.
    destruct IH as (Hnn & Hhi & Hw).
    change (pack_step val count e rm m)
      with (Z.lor rm (Z.shiftl (Z.land (chunk val count e m) (mask_of e)) (Z.of_nat (m * e)))).
    set (X := Z.land (chunk val count e m) (mask_of e)).
    assert (HX : 0 <= X < 2 ^ Z.of_nat e).
    { subst X. rewrite land_mask_of. apply Z.mod_pos_bound. apply Z.pow_pos_nonneg; lia. }
    assert (HXb : forall k, 0 <= k < Z.of_nat e -> Z.testbit X k = Z.testbit (chunk val count e m) k).
    { intros k Hk. subst X. rewrite Z.land_spec, mask_of_spec by lia.
      replace (k <? Z.of_nat e) with true by lia. apply andb_true_r. }
    repeat split.
    + apply Z.lor_nonneg. split; [exact Hnn|]. apply Z.shiftl_nonneg. lia.
    + intros k Hk. rewrite Z.lor_spec, Hhi by lia. rewrite Z.shiftl_spec by lia.
      simpl. apply (testbit_nonneg_lt X (Z.of_nat e)); [exact HX | lia].
    + replace (S m * e)%nat with (m * e + e)%nat by lia.
      rewrite wires_app, map_app, concat_app. simpl. rewrite app_nil_r. f_equal.
      * rewrite <- Hw. apply wires_ext. intros k Hk.
        rewrite Z.lor_spec, Z.shiftl_spec_low by lia. apply orb_false_r.
      * apply wires_ext. intros k Hk.
        rewrite Z.shiftr_spec, Z.lor_spec, Hhi, Z.shiftl_spec by lia. simpl.
        replace (k + Z.of_nat (m * e) - Z.of_nat (m * e)) with k by lia. apply HXb. lia.
Qed.

Lemma parse_array_pack_spec val count e :
  let r := parse_array_pack val count e in
  0 <= r < 2 ^ Z.of_nat (count * e) /\
  wires r (count * e) = concat (map (fun i => wires (chunk val count e i) e) (seq 0 count)).
Proof.
  intros r. subst r. rewrite parse_array_pack_fold.
  destruct (pack_prefix val count e count) as (Hnn & Hhi & Hw).
  split; [|exact Hw]. split; [exact Hnn|]. apply lt_pow2_of_bits; [lia | exact Hhi].
Qed.

(* the literal's value, left-aligned to [count] elements when it has fewer ([k]) *)
Lemma chunk_padded val count k e i :
  (k <= count)%nat -> (i < count)%nat ->
  wires (chunk (Z.shiftl val (Z.of_nat ((count - k) * e))) count e i) e =
  if (i <? k)%nat then wires (chunk val k e i) e else repeat false e.
Proof.
  intros Hk Hi. unfold chunk. destruct (i <? k)%nat eqn:E.
  - apply Nat.ltb_lt in E. rewrite Z.shiftr_shiftl_r by nia.
    f_equal. f_equal. nia.
  - apply Nat.ltb_ge in E. rewrite Z.shiftr_shiftl_l by nia.
    apply wires_all_false. intros j Hj. apply Z.shiftl_spec_low. nia.
Qed.

(* element i of the array as Parse reads the literal: the literal is a
   big-endian sequence of k e-bit elements; a short literal is followed by
   zero elements *)
Definition array_elem_wires (val : Z) (k e i : nat) : list bool :=
  if (i <? k)%nat then wires (chunk val k e i) e else repeat false e.

Lemma pack_padded val n k e :
  (k <= n)%nat ->
  let r := parse_array_pack (Z.shiftl val (Z.of_nat ((n - k) * e))) n e in
  0 <= r < 2 ^ Z.of_nat (n * e) /\
  wires r (n * e) = concat (map (array_elem_wires val k e) (seq 0 n)).
Proof.
  intros Hk r. destruct (parse_array_pack_spec (Z.shiftl val (Z.of_nat ((n - k) * e))) n e) as (Hr & Hw).
  split; [exact Hr|]. fold r in Hw. rewrite Hw. f_equal.
  apply map_ext_in. intros i Hi. apply in_seq in Hi. apply chunk_padded; lia.
Qed.

Lemma parse_array_eval el n s val :
  (0 < bits_of el)%nat -> (0 < n)%nat -> set_string s = Some val ->
  let e := bits_of el in let k := literal_elems s val e in
  parse (leaf_arg (TyArray el n)) [s] =
  if (n <? k)%nat then Err else Ok (parse_array_pack (Z.shiftl val (Z.of_nat ((n - k) * e))) n e).
Proof.
  intros He Hn Hs. cbv zeta. rewrite parse_tyarray, Hs, i_bits_info_of.
  destruct n; [lia|]. destruct (bits_of el); [lia|]. reflexivity.
Qed.

Lemma parse_slice_eval el n s val :
  (0 < bits_of el)%nat -> set_string s = Some val ->
  let e := bits_of el in let k := literal_elems s val e in
  parse (leaf_arg (TySlice el n)) [s] = Ok (parse_array_pack (Z.shiftl val (Z.of_nat ((k - k) * e))) k e).
Proof.
  intros He Hs. rewrite parse_tyslice, Hs, i_bits_info_of. cbv zeta. rewrite Nat.ltb_irrefl.
  destruct (bits_of el); [lia|]. reflexivity.
Qed.

Lemma parse_array_bits el n s val r :
  (0 < bits_of el)%nat -> (0 < n)%nat ->
  set_string s = Some val ->
  parse (leaf_arg (TyArray el n)) [s] = Ok r ->
  let e := bits_of el in
  let k := literal_elems s val e in
  (k <= n)%nat /\ 0 <= r < 2 ^ Z.of_nat (n * e) /\
  wires r (n * e) = concat (map (array_elem_wires val k e) (seq 0 n)).
Proof.
  intros He Hn Hs H e k. rewrite (parse_array_eval el n s val He Hn Hs) in H. fold e k in H.
  destruct (n <? k)%nat eqn:Ek; [discriminate|]. apply Nat.ltb_ge in Ek.
  inversion H; subst r. split; [exact Ek|]. apply pack_padded, Ek.
Qed.

Lemma parse_empty_array_bits el s : parse (leaf_arg (TyArray el 0)) [s] = Ok 0.
Proof. reflexivity. Qed.

(* slices: the literal determines the element count *)
Lemma parse_slice_bits el n s val r :
  (0 < bits_of el)%nat ->
  set_string s = Some val ->
  parse (leaf_arg (TySlice el n)) [s] = Ok r ->
  let e := bits_of el in
  let k := literal_elems s val e in
  0 <= r < 2 ^ Z.of_nat (k * e) /\
  wires r (k * e) = concat (map (array_elem_wires val k e) (seq 0 k)).
Proof.
  intros He Hs H e k. rewrite (parse_slice_eval el n s val He Hs) in H.
  inversion H; subst r. apply pack_padded, le_n.
Qed.

(* the value of an array literal: its elements, first element most significant *)
Definition be_step (e : nat) (acc x : Z) : Z := acc * 2 ^ Z.of_nat e + x.
Definition be_value (e : nat) (l : list Z) : Z := fold_left (be_step e) l 0.

Lemma be_fold e : forall l acc,
  fold_left (be_step e) l acc = acc * 2 ^ Z.of_nat (length l * e) + be_value e l.
Proof.
  unfold be_value. induction l as [|x l IH]; intros acc; cbn [fold_left length].
  - simpl. lia.
  - rewrite IH, (IH (be_step e 0 x)). unfold be_step.
    replace (Z.of_nat (S (length l) * e)) with (Z.of_nat e + Z.of_nat (length l * e)) by lia.
    rewrite Z.pow_add_r by lia. ring.
Qed.

Lemma be_value_one e x : be_value e [x] = x.
Proof. unfold be_value, be_step. simpl. lia. Qed.

Lemma be_value_app e a b :
  be_value e (a ++ b) = be_value e a * 2 ^ Z.of_nat (length b * e) + be_value e b.
Proof. unfold be_value at 1. rewrite fold_left_app. apply be_fold. Qed.

Lemma be_value_range e l :
  Forall (fun x => 0 <= x < 2 ^ Z.of_nat e) l -> 0 <= be_value e l < 2 ^ Z.of_nat (length l * e).
Proof.
  induction 1 as [|x l Hx HF IH]; [unfold be_value; simpl; lia|].
  change (x :: l) with ([x] ++ l). rewrite be_value_app, be_value_one.
  replace (Z.of_nat (length ([x] ++ l) * e)) with (Z.of_nat e + Z.of_nat (length l * e)) by (simpl; lia).
  rewrite Z.pow_add_r by lia. nia.
Qed.

Lemma wires_add_high P x e : wires (P * 2 ^ Z.of_nat e + x) e = wires x e.
Proof.
  rewrite <- wires_mod, Z.add_comm, Z.mod_add by (apply Z.pow_nonzero; lia). apply wires_mod.
Qed.

Lemma chunk_be_value e l i :
  Forall (fun x => 0 <= x < 2 ^ Z.of_nat e) l -> (i < length l)%nat ->
  wires (chunk (be_value e l) (length l) e i) e = wires (nth i l 0) e.
Proof.
  (* cut l after element i: the shift drops what follows (it is below 2^s), and of
     what is left only the last element, nth i l, reaches the low e bits *)
  intros HF Hi. unfold chunk.
  rewrite <- (firstn_skipn (S i) l) at 1. rewrite be_value_app, skipn_length.
  assert (Hr : 0 <= be_value e (skipn (S i) l) < 2 ^ Z.of_nat (length (skipn (S i) l) * e)).
  { apply be_value_range. rewrite <- (firstn_skipn (S i) l) in HF. apply Forall_app in HF. apply HF. }
  rewrite skipn_length in Hr.
  replace (length l - S i)%nat with (length l - i - 1)%nat in * by lia.
  set (s := Z.of_nat ((length l - i - 1) * e)) in *.
  assert (Hs : 0 <= s) by apply Nat2Z.is_nonneg.
  assert (0 < 2 ^ s) by (apply Z.pow_pos_nonneg; lia).
  rewrite Z.shiftr_div_pow2, Z.div_add_l, Z.div_small, Z.add_0_r by lia.
  rewrite (firstn_S_nth 0), be_value_app, be_value_one by lia.
  simpl length. rewrite Nat.mul_1_l. apply wires_add_high.
Qed.

Definition bytes_wires (e : nat) (l : list N) : list bool :=
  concat (map (fun x => wires (Z.of_N x) e) l).

(* the canonical wires of a Go value for a well-formed leaf type *)
Definition gin_wires (t : ty) (v : gin) : list bool :=
  match t, v with
  | TyBool, GBool b => [b]
  | TyInt b, GInt z | TyUint b, GInt z => wires z b
  | TyArray el n, GBytes l => bytes_wires (bits_of el) l ++ repeat false ((n - length l) * bits_of el)
  | TyArray el n, GNil => repeat false (n * bits_of el)
  | TySlice el n, GBytes l => bytes_wires (bits_of el) l
  | TySlice el n, GNil => []
  | _, _ => []
  end.

Definition is_int_ty (t : ty) : bool := match t with TyInt _ | TyUint _ => true | _ => false end.

(* the Go integer kinds: int8 … uint64 *)
Definition go_int_range (z : Z) : Prop := - 2 ^ 63 <= z < 2 ^ 64.

(* the Go values of a leaf type (what a caller of Set may pass for it) *)
Definition gin_domain (t : ty) (v : gin) : Prop :=
  match t, v with
  | TyBool, GBool _ => True
  | TyInt b, GInt z => go_int_range z /\ - 2 ^ (Z.of_nat b - 1) <= z < 2 ^ (Z.of_nat b - 1) /\ (0 < b)%nat
  | TyUint b, GInt z => go_int_range z /\ 0 <= z < 2 ^ Z.of_nat b
  | TyArray el n, GBytes l =>
      is_int_ty el = true /\ (8 <= bits_of el)%nat /\ (length l <= n)%nat /\ Forall (fun x => (x < 256)%N) l
  | TyArray el n, GNil => is_int_ty el = true \/ n = O
  | TySlice el n, GBytes l =>
      is_int_ty el = true /\ (8 <= bits_of el)%nat /\ length l = n /\ Forall (fun x => (x < 256)%N) l
  | TySlice el n, GNil => is_int_ty el = true /\ n = O
  | _, _ => False
  end.

Definition sum_bits (ms : list ty) : nat := fold_right (fun m acc => (bits_of m + acc)%nat) O ms.

Definition gins_wires (ms : list ty) (vs : list gin) : list bool :=
  concat (map (fun mv => gin_wires (fst mv) (snd mv)) (combine ms vs)).

Lemma gins_wires_cons m ms v vs : gins_wires (m :: ms) (v :: vs) = gin_wires m v ++ gins_wires ms vs.
Proof. reflexivity. Qed.

Lemma Forall2_weaken {A B} (R R' : A -> B -> Prop) l1 l2 :
  (forall a b, R a b -> R' a b) -> Forall2 R l1 l2 -> Forall2 R' l1 l2.
Proof. intros H. induction 1; constructor; auto. Qed.

Lemma bytes_wires_length e l : length (bytes_wires e l) = (length l * e)%nat.
Proof.
  unfold bytes_wires. induction l as [|x l IH]; [reflexivity|].
  simpl. rewrite app_length, wires_length, IH. reflexivity.
Qed.

Lemma gin_wires_length m v : gin_domain m v -> length (gin_wires m v) = bits_of m.
Proof.
  destruct m as [| b | b | b | el n | el n | fs]; destruct v as [| bv | z | l |]; simpl; try contradiction;
    intros Hd; try reflexivity; try apply wires_length.
  - apply repeat_length.
  - destruct Hd as (_ & _ & Hl & _). rewrite app_length, bytes_wires_length, repeat_length. nia.
  - destruct Hd as (_ & ->). reflexivity.
  - destruct Hd as (_ & _ & <- & _). apply bytes_wires_length.
Qed.

Lemma gins_wires_segment : forall ms vs j m v,
  Forall2 gin_domain ms vs ->
  nth_error ms j = Some m -> nth_error vs j = Some v ->
  segment (gins_wires ms vs) (sum_bits (firstn j ms)) (bits_of m) = gin_wires m v.
Proof.
  unfold segment, gins_wires.
  induction ms as [|m0 ms IH]; intros vs j m v HF Hm Hv; [destruct j; discriminate|].
  inversion HF as [|? v0 ? vs0 Hd0 HF']; subst. apply gin_wires_length in Hd0.
  destruct j as [|j]; simpl in *.
  - inversion Hm; inversion Hv; subst. apply firstn_app_exact, Hd0.
  - rewrite skipn_add, skipn_app_exact by exact Hd0. apply IH; auto.
Qed.

Lemma concat_zero_elems (f : nat -> list bool) e : forall m s,
  (forall i, (s <= i < s + m)%nat -> f i = repeat false e) ->
  concat (map f (seq s m)) = repeat false (m * e).
Proof.
  induction m as [|m IH]; intros s H; [reflexivity|].
  simpl. rewrite H by lia. rewrite IH by (intros; apply H; lia).
  rewrite <- repeat_app. reflexivity.
Qed.

Lemma array_literal_wires e n (l : list Z) :
  Forall (fun x => 0 <= x < 2 ^ Z.of_nat e) l -> (length l <= n)%nat ->
  concat (map (array_elem_wires (be_value e l) (length l) e) (seq 0 n))
  = concat (map (fun x => wires x e) l) ++ repeat false ((n - length l) * e).
Proof.
  intros HF Hl.
  replace n with (length l + (n - length l))%nat at 1 by lia.
  rewrite seq_app, map_app, concat_app. f_equal.
  - rewrite (map_nth_seq (fun x => wires x e) 0 l). f_equal.
    apply map_ext_in. intros i Hi. apply in_seq in Hi. unfold array_elem_wires.
    replace (i <? length l)%nat with true by lia.
    apply chunk_be_value; [exact HF | lia].
  - apply concat_zero_elems. intros i Hi. unfold array_elem_wires.
    replace (i <? length l)%nat with false by lia. reflexivity.
Qed.

Lemma parse_elems_canonical (slice : bool) el n s (us : list Z) :
  let e := bits_of el in
  (0 < e)%nat -> Forall (fun x => 0 <= x < 2 ^ Z.of_nat e) us ->
  (if slice then length us = n else (length us <= n)%nat) ->
  set_string s = Some (be_value e us) -> literal_elems s (be_value e us) e = length us ->
  exists r, parse (leaf_arg (if slice then TySlice el n else TyArray el n)) [s] = Ok r /\
    wires r (n * e) = concat (map (fun x => wires x e) us) ++ repeat false ((n - length us) * e).
Proof.
  intros e He HF Hl Hs Hk.
  assert (Hle : (length us <= n)%nat) by (destruct slice; lia).
  destruct (pack_padded (be_value e us) n (length us) e Hle) as (_ & Hw).
  rewrite array_literal_wires in Hw by assumption.
  destruct slice.
  - subst n. rewrite (parse_slice_eval el _ s _ He Hs). fold e. rewrite Hk.
    eexists. split; [reflexivity | exact Hw].
  - destruct n as [|n].
    + destruct us; [|simpl in Hl; lia]. exists 0. split; reflexivity.
    + rewrite (parse_array_eval el (S n) s _ He ltac:(lia) Hs). fold e. rewrite Hk.
      replace (S n <? length us)%nat with false by lia.
      eexists. split; [reflexivity | exact Hw].
Qed.

Lemma lN_eqb_eq : forall a b, lN_eqb a b = true -> a = b.
Proof.
  induction a as [|x a IH]; intros [|y b] H; simpl in H; try discriminate; [reflexivity|].
  apply andb_true_iff in H. destruct H as [H1 H2]. apply N.eqb_eq in H1. f_equal; auto.
Qed.

Lemma mem_str_In s l : mem_str s l = true -> In s l.
Proof.
  unfold mem_str. rewrite existsb_exists. intros (x & Hx & E). apply lN_eqb_eq in E. subst x. exact Hx.
Qed.

Lemma bool_spellings_disjoint s :
  mem_str s bool_true_spellings = true -> mem_str s bool_false_spellings = false.
Proof. intros H. apply mem_str_In in H. destruct H as [<-|[<-|[<-|[]]]]; reflexivity. Qed.

(* "the string s is a textual form of the Go value v of leaf type t" *)
Definition spells (t : ty) (s : list N) (v : gin) : Prop :=
  match t, v with
  | TyBool, GBool b => mem_str s (if b then bool_true_spellings else bool_false_spellings) = true
  | TyInt _, GInt z | TyUint _, GInt z => set_string s = Some z
  | TyArray el _, GBytes l | TySlice el _, GBytes l =>
      let val := be_value (bits_of el) (map Z.of_N l) in
      set_string s = Some val /\ literal_elems s val (bits_of el) = length l
  | TyArray el _, GNil | TySlice el _, GNil =>
      (0 < bits_of el)%nat /\ set_string s = Some 0 /\ literal_elems s 0 (bits_of el) = O
  | _, _ => False
  end.

Lemma bytes_in_range e l :
  (8 <= e)%nat -> Forall (fun x => (x < 256)%N) l ->
  Forall (fun x => 0 <= x < 2 ^ Z.of_nat e) (map Z.of_N l).
Proof.
  intros He HF. apply Forall_map. revert HF. apply Forall_impl. intros x Hx.
  pose proof (pow2_le_mono 8 (Z.of_nat e)). lia.
Qed.

(* one leaf: the wires of Parse on a spelling of v are the canonical wires of v;
   nil is read as the empty element list *)
Lemma parse_leaf_canonical t s v :
  gin_domain t v -> spells t s v ->
  exists r, parse (leaf_arg t) [s] = Ok r /\ wires r (bits_of t) = gin_wires t v.
Proof.
  intros Hd Hs. destruct t as [| b | b | b | el n | el n | fs]; destruct v as [| bv | z | l |];
    simpl in Hd, Hs; try contradiction.
  - rewrite parse_bool. destruct bv.
    + rewrite (bool_spellings_disjoint s Hs), Hs. exists 1. auto.
    + rewrite Hs. exists 0. auto.
  - rewrite parse_int, Hs. exists z. auto.
  - rewrite parse_uint, Hs. exists z. auto.
  - destruct Hs as (He & Hs & Hk).
    destruct (parse_elems_canonical false el n s [] He (Forall_nil _) (Nat.le_0_l n) Hs Hk) as (r & E & Hw).
    exists r. split; [exact E|]. cbn [map concat app length] in Hw. rewrite Nat.sub_0_r in Hw. exact Hw.
  - destruct Hd as (Hel & He & Hl & HF). destruct Hs as (Hs & Hk). rewrite <- (map_length Z.of_N l) in Hk, Hl.
    destruct (parse_elems_canonical false el n s _ ltac:(lia) (bytes_in_range _ _ He HF) Hl Hs Hk) as (r & E & Hw).
    exists r. split; [exact E|]. rewrite map_length, map_map in Hw. exact Hw.
  - destruct Hd as (Hel & ->). destruct Hs as (He & Hs & Hk).
    exact (parse_elems_canonical true el 0 s [] He (Forall_nil _) eq_refl Hs Hk).
  - destruct Hd as (Hel & He & Hl & HF). destruct Hs as (Hs & Hk). rewrite <- (map_length Z.of_N l) in Hk, Hl.
    destruct (parse_elems_canonical true el n s _ ltac:(lia) (bytes_in_range _ _ He HF) Hl Hs Hk) as (r & E & Hw).
    exists r. split; [exact E|]. rewrite Hl, Nat.sub_diag, app_nil_r, map_map in Hw. exact Hw.
Qed.

Inductive members_spelled : list ty -> list (list N) -> list gin -> Prop :=
| ms_nil : members_spelled [] [] []
| ms_cons m s v ms ss vs :
    gin_domain m v -> spells m s v -> members_spelled ms ss vs ->
    members_spelled (m :: ms) (s :: ss) (v :: vs).

Lemma members_spelled_domain ms ss vs : members_spelled ms ss vs -> Forall2 gin_domain ms vs.
Proof. induction 1; constructor; auto. Qed.

Lemma members_spelled_length ms ss vs : members_spelled ms ss vs -> length ss = length ms.
Proof. induction 1; simpl; congruence. Qed.

Lemma parse_members_canonical : forall ms ss vs, members_spelled ms ss vs ->
  forall result offset,
  exists r, parse_members (fun a => parse a) (map leaf_arg ms) ss result offset = Ok r /\
    wires r (offset + sum_bits ms) = wires result offset ++ gins_wires ms vs.
Proof.
  induction 1 as [|m s v ms ss vs Hd Hs HM IH]; intros result offset.
  - exists result. simpl. rewrite Nat.add_0_r. unfold gins_wires. simpl. rewrite app_nil_r. auto.
  - destruct (parse_leaf_canonical m s v Hd Hs) as (x & Ex & Hx).
    cbn [map parse_members]. rewrite Ex. cbn [a_type leaf_arg]. rewrite i_bits_info_of.
    destruct (IH (copy_bits result offset x (bits_of m)) (offset + bits_of m)%nat) as (r & Er & Hr).
    exists r. split; [exact Er|]. simpl sum_bits.
    rewrite Nat.add_assoc, Hr, wires_copy_bits, Hx, gins_wires_cons. symmetry. apply app_assoc.
Qed.

Lemma parse_compound_canonical t m ms ss vs :
  members_spelled (m :: ms) ss vs ->
  exists rp, parse (IOArg t (map leaf_arg (m :: ms))) ss = Ok rp /\
    wires rp (sum_bits (m :: ms)) = gins_wires (m :: ms) vs.
Proof.
  intros HM. destruct (parse_members_canonical _ _ _ HM 0 0%nat) as (rp & Ep & Hwp).
  exists rp. split; [|exact Hwp].
  cbn [map]. rewrite parse_compound, (members_spelled_length _ _ _ HM).
  cbn [length]. rewrite map_length, Nat.eqb_refl. exact Ep.
Qed.

(* what a correct setInt does on a result that is clean above ofs *)
Definition si_spec (SI : info -> Z -> Z -> nat -> Z) (t : info) (z : Z) : Prop :=
  forall result ofs, clean result ofs ->
    clean (SI t result z ofs) (ofs + i_bits t) /\
    wires (SI t result z ofs) (ofs + i_bits t) = wires result ofs ++ wires z (i_bits t).

Lemma go_int_bit z i : go_int_range z -> (64 <= i)%nat -> Z.testbit z (Z.of_nat i) = (z <? 0).
Proof.
  intros [H1 H2] Hi. destruct (z <? 0) eqn:E.
  - apply (testbit_neg_ge z 63); lia.
  - apply (testbit_nonneg_lt z 64); lia.
Qed.

(* bit i that setInt writes for the Go value z *)
Definition set_int_bit (z : Z) (i : nat) : bool :=
  if (i <? 64)%nat then Z.testbit (uint64_conv z) (Z.of_nat i) else z <? 0.

Lemma set_int_fixed_write t result z ofs :
  set_int_fixed t result z ofs = write_bits (set_int_bit z) result ofs (i_bits t).
Proof. reflexivity. Qed.

Lemma set_int_fixed_spec t z : go_int_range z -> si_spec set_int_fixed t z.
Proof.
  intros Hz result ofs Hc. rewrite set_int_fixed_write.
  split; [apply write_bits_clean, Hc|]. rewrite write_bits_wires. f_equal.
  apply map_ext. intros i. unfold set_int_bit. destruct (i <? 64)%nat eqn:E.
  - apply Z.mod_pow2_bits_low. lia.
  - symmetry. apply go_int_bit; [exact Hz | lia].
Qed.

(* the values on which the 64-bit write of the setInt before 19f0a68 (F8) was harmless *)
Definition no_hazard (bits : nat) (z : Z) : Prop :=
  (0 <= z < 2 ^ 64 /\ z < 2 ^ Z.of_nat bits) \/ (bits = 64%nat /\ go_int_range z).

Lemma set_int_old_spec t z : no_hazard (i_bits t) z -> si_spec set_int_old t z.
Proof.
  intros Hz result ofs Hc. unfold set_int_old. destruct Hz as [[Hz1 Hz2]|[-> _]].
  2:{ split; [apply write_bits_clean, Hc|]. rewrite wires_copy_bits. f_equal. apply (wires_mod z 64). }
  unfold uint64_conv. rewrite Z.mod_small by exact Hz1.
  (* neither z nor the result has a bit where the 64 wires written and the
     Type.Bits wires read differ *)
  assert (Hhi : forall k, 64 <= k \/ Z.of_nat (i_bits t) <= k -> Z.testbit z k = false).
  { intros k [Hk|Hk]; [apply (testbit_nonneg_lt z 64) | apply (testbit_nonneg_lt z (Z.of_nat (i_bits t)))]; lia. }
  split.
  - intros k Hk. rewrite copy_bits_spec.
    destruct ((Z.of_nat ofs <=? k) && (k <? Z.of_nat (ofs + 64))); [apply Hhi | apply Hc]; lia.
  - rewrite wires_app. f_equal; apply wires_ext; intros k Hk.
    + rewrite copy_bits_spec. replace (Z.of_nat ofs <=? k) with false by lia. reflexivity.
    + rewrite Z.shiftr_spec, copy_bits_spec by lia.
      destruct ((Z.of_nat ofs <=? k + Z.of_nat ofs) && (k + Z.of_nat ofs <? Z.of_nat (ofs + 64))) eqn:E.
      * f_equal. lia.
      * rewrite Hc, Hhi by lia. reflexivity.
Qed.

Definition gin_no_hazard (t : ty) (v : gin) : Prop :=
  match t, v with
  | TyInt b, GInt z | TyUint b, GInt z => no_hazard b z
  | _, _ => True
  end.

Lemma set_bit_write r ofs b : set_bit r ofs b = write_bits (fun _ => b) r ofs 1.
Proof. unfold write_bits. simpl. rewrite Nat.add_0_r. reflexivity. Qed.

Lemma is_int_ty_intkind el : is_int_ty el = true -> is_intkind (info_of el) = true.
Proof. destruct el; simpl; intros H; try discriminate; reflexivity. Qed.

Definition member_ok (SI : info -> Z -> Z -> nat -> Z) (m : ty) (v : gin) : Prop :=
  gin_domain m v /\
  (forall b z, (m = TyInt b \/ m = TyUint b) -> v = GInt z -> si_spec SI (info_of m) z).

Section SetGeneric.
  Variable SI : info -> Z -> Z -> nat -> Z.
  Hypothesis SI_bytes : forall el x, (8 <= i_bits el)%nat -> (x < 256)%N -> si_spec SI el (Z.of_N x).

  Lemma set_bytes_spec el : (8 <= i_bits el)%nat -> forall l result ofs,
    Forall (fun x => (x < 256)%N) l -> clean result ofs ->
    exists r', set_bytes SI el result l ofs = (r', (ofs + length l * i_bits el)%nat) /\
      clean r' (ofs + length l * i_bits el) /\
      wires r' (ofs + length l * i_bits el) = wires result ofs ++ bytes_wires (i_bits el) l.
  Proof.
    intros He. induction l as [|x l IH]; intros result ofs HF Hc.
    - exists result. simpl. rewrite Nat.add_0_r. unfold bytes_wires. simpl. rewrite app_nil_r. auto.
    - inversion HF as [|? ? Hx HF']; subst. cbn [set_bytes length].
      destruct (SI_bytes el x He Hx result ofs Hc) as (Hc1 & Hw1).
      destruct (IH _ _ HF' Hc1) as (r' & E & Hc' & Hw').
      replace (ofs + S (length l) * i_bits el)%nat with (ofs + i_bits el + length l * i_bits el)%nat by lia.
      exists r'. split; [exact E|]. split; [exact Hc'|].
      rewrite Hw', Hw1. unfold bytes_wires. simpl. rewrite app_assoc. reflexivity.
  Qed.

  Lemma set_array_int t el result v ofs :
    i_elem t = Some (info_of el) -> is_int_ty el = true ->
    set_array SI t result v ofs =
    match v with
    | GBytes l => if (bits_of el <? 8)%nat then Err
                  else let '(r, o) := set_bytes SI (info_of el) result l ofs in Ok (length l, r, o)
    | GNil => Ok (O, result, ofs)
    | _ => Err
    end.
  Proof. intros E H. unfold set_array. rewrite E, (is_int_ty_intkind el H), i_bits_info_of. reflexivity. Qed.

  Lemma set_array_bytes t el l result ofs :
    i_elem t = Some (info_of el) -> is_int_ty el = true -> (8 <= bits_of el)%nat ->
    Forall (fun x => (x < 256)%N) l -> clean result ofs ->
    exists r', set_array SI t result (GBytes l) ofs = Ok (length l, r', (ofs + length l * bits_of el)%nat) /\
      clean r' (ofs + length l * bits_of el) /\
      wires r' (ofs + length l * bits_of el) = wires result ofs ++ bytes_wires (bits_of el) l.
  Proof.
    intros E Hel He HF Hc. rewrite <- i_bits_info_of in *.
    destruct (set_bytes_spec (info_of el) He l result ofs HF Hc) as (r' & Eb & H).
    exists r'. split; [|exact H]. rewrite (set_array_int t el _ _ _ E Hel), Eb, i_bits_info_of.
    replace (bits_of el <? 8)%nat with false by (rewrite i_bits_info_of in He; lia). reflexivity.
  Qed.

  (* one leaf member: Set writes the canonical wires of the value on the
     member's own wires and leaves the result clean above them *)
  Lemma set_leaf_spec t v result ofs :
    member_ok SI t v -> clean result ofs ->
    exists r', set_leaf SI (info_of t) result v ofs = Ok (r', (ofs + bits_of t)%nat) /\
      clean r' (ofs + bits_of t) /\
      wires r' (ofs + bits_of t) = wires result ofs ++ gin_wires t v.
  Proof.
    intros [Hd HSI] Hc. destruct t as [| b | b | b | el n | el n | fs]; destruct v as [| bv | z | l |];
      simpl in Hd; try contradiction.
    - exists (set_bit result ofs bv). split; [reflexivity|]. rewrite set_bit_write.
      split; [apply write_bits_clean, Hc | apply write_bits_wires].
    - eexists. split; [reflexivity|]. exact (HSI b z (or_introl eq_refl) eq_refl result ofs Hc).
    - eexists. split; [reflexivity|]. exact (HSI b z (or_intror eq_refl) eq_refl result ofs Hc).
    - (* [n]T given nil: the wires stay zero *)
      exists result. rewrite set_leaf_tyarray. split.
      + destruct n; [cbn; rewrite Nat.add_0_r; reflexivity|]. destruct Hd as [Hel|]; [|discriminate].
        rewrite (set_array_int (info_of (TyArray el (S n))) el _ _ _ eq_refl Hel), i_bits_info_of. reflexivity.
      + split; [eapply clean_mono; [exact Hc|lia] | apply clean_wires_zero, Hc].
    - (* [n]T given bytes: zero wires after a short value *)
      destruct Hd as (Hel & He & Hl & HF).
      destruct (set_array_bytes (info_of (TyArray el n)) el l result ofs eq_refl Hel He HF Hc) as (r' & E & Hc' & Hw').
      rewrite set_leaf_tyarray, E, i_bits_info_of. destruct n as [|n].
      + destruct l; [|simpl in Hl; lia]. exists result.
        cbn. rewrite Nat.add_0_r. split; [reflexivity|]. split; [exact Hc | symmetry; apply app_nil_r].
      + exists r'. replace (S n <? length l)%nat with false by lia. split; [reflexivity|].
        change (bits_of (TyArray el (S n))) with (S n * bits_of el)%nat.
        replace (ofs + S n * bits_of el)%nat
          with (ofs + length l * bits_of el + (S n - length l) * bits_of el)%nat by nia.
        split; [eapply clean_mono; [exact Hc'|lia]|].
        rewrite (clean_wires_zero _ _ _ Hc'), Hw', <- app_assoc. reflexivity.
    - destruct Hd as (Hel & ->). exists result.
      rewrite set_leaf_tyslice, (set_array_int (info_of (TySlice el 0)) el _ _ _ eq_refl Hel). cbn. rewrite Nat.add_0_r, app_nil_r. auto.
    - destruct Hd as (Hel & He & <- & HF).
      destruct (set_array_bytes (info_of (TySlice el (length l))) el l result ofs eq_refl Hel He HF Hc) as (r' & E & H).
      exists r'. rewrite set_leaf_tyslice, E, Nat.ltb_irrefl. split; [reflexivity | exact H].
  Qed.

  Lemma set_members_spec : forall ms vs result ofs,
    Forall2 (member_ok SI) ms vs -> clean result ofs ->
    exists r', set_members (fun a => set_at SI a) (map leaf_arg ms) vs result ofs
               = Ok (r', (ofs + sum_bits ms)%nat) /\
      clean r' (ofs + sum_bits ms) /\
      wires r' (ofs + sum_bits ms) = wires result ofs ++ gins_wires ms vs.
  Proof.
    induction ms as [|m ms IH]; intros vs result ofs HF Hc; inversion HF as [|? v ? vs' Hm HF']; subst.
    - exists result. simpl. rewrite Nat.add_0_r. unfold gins_wires. simpl. rewrite app_nil_r. auto.
    - destruct (set_leaf_spec m v result ofs Hm Hc) as (r1 & E1 & Hc1 & Hw1).
      destruct (IH vs' r1 (ofs + bits_of m)%nat HF' Hc1) as (r' & E' & Hc' & Hw').
      exists r'. cbn [map set_members].
      change (set_at SI (leaf_arg m) result [v] ofs) with (set_leaf SI (info_of m) result v ofs).
      rewrite E1. simpl sum_bits. rewrite Nat.add_assoc. split; [exact E'|]. split; [exact Hc'|].
      rewrite Hw', Hw1, gins_wires_cons. symmetry. apply app_assoc.
  Qed.

  Lemma set_compound_wires t m ms vs :
    Forall2 (member_ok SI) (m :: ms) vs ->
    exists r, set_gen SI (IOArg t (map leaf_arg (m :: ms))) vs = Ok r /\
      wires r (sum_bits (m :: ms)) = gins_wires (m :: ms) vs.
  Proof.
    intros HF. destruct (set_members_spec (m :: ms) vs 0 0%nat HF clean_0) as (r & E & _ & Hw).
    exists r. split; [|exact Hw]. unfold set_gen. cbn [map set_at] in *.
    rewrite <- (Forall2_len _ _ _ HF). cbn [length]. rewrite map_length, Nat.eqb_refl. cbn [negb]. rewrite E. reflexivity.
  Qed.

  Lemma set_single_wires m v :
    member_ok SI m v ->
    exists r, set_gen SI (leaf_arg m) [v] = Ok r /\ wires r (bits_of m) = gin_wires m v.
  Proof.
    intros Hm. destruct (set_leaf_spec m v 0 0%nat Hm clean_0) as (r & E & _ & Hw).
    exists r. unfold set_gen. change (set_at SI (leaf_arg m) 0 [v] 0) with (set_leaf SI (info_of m) 0 v 0%nat).
    rewrite E. split; [reflexivity | exact Hw].
  Qed.

  (* Set (Go values) and Parse (text) put the same bits on the wires: for every
     compound argument, all members' values in their domain, every spelling:
     both put the canonical wires of the members in order *)
  Lemma set_eq_parse_compound t m ms ss vs :
    members_spelled (m :: ms) ss vs -> Forall2 (member_ok SI) (m :: ms) vs ->
    exists rs rp,
      set_gen SI (IOArg t (map leaf_arg (m :: ms))) vs = Ok rs /\
      parse (IOArg t (map leaf_arg (m :: ms))) ss = Ok rp /\
      wires rs (sum_bits (m :: ms)) = gins_wires (m :: ms) vs /\
      wires rp (sum_bits (m :: ms)) = gins_wires (m :: ms) vs.
  Proof.
    intros HM HF.
    destruct (set_compound_wires t m ms vs HF) as (rs & Es & Hws).
    destruct (parse_compound_canonical t m ms ss vs HM) as (rp & Ep & Hwp).
    exists rs, rp. auto.
  Qed.

  Lemma set_eq_parse_single m s v :
    member_ok SI m v -> spells m s v ->
    exists rs rp, set_gen SI (leaf_arg m) [v] = Ok rs /\ parse (leaf_arg m) [s] = Ok rp /\
      wires rs (bits_of m) = wires rp (bits_of m).
  Proof.
    intros Hm Hs.
    destruct (set_single_wires m v Hm) as (rs & Es & Hws).
    destruct (parse_leaf_canonical m s v (proj1 Hm) Hs) as (rp & Ep & Hwp).
    exists rs, rp. repeat split; auto. congruence.
  Qed.

  (* member j's wires are the canonical wires of its own value, whatever the
     other members' values are *)
  Lemma set_member_segment t m ms vs j mj vj :
    Forall2 (member_ok SI) (m :: ms) vs ->
    nth_error (m :: ms) j = Some mj -> nth_error vs j = Some vj ->
    exists r, set_gen SI (IOArg t (map leaf_arg (m :: ms))) vs = Ok r /\
      segment (wires r (sum_bits (m :: ms))) (sum_bits (firstn j (m :: ms))) (bits_of mj) = gin_wires mj vj.
  Proof.
    intros HF Hm Hv. destruct (set_compound_wires t m ms vs HF) as (r & Es & Hw).
    exists r. split; [exact Es|]. rewrite Hw. apply gins_wires_segment; auto.
    exact (Forall2_weaken _ _ _ _ (fun a b H => proj1 H) HF).
  Qed.

  Lemma set_members_independent t m ms vs vs' j mj vj :
    Forall2 (member_ok SI) (m :: ms) vs -> Forall2 (member_ok SI) (m :: ms) vs' ->
    nth_error (m :: ms) j = Some mj -> nth_error vs j = Some vj -> nth_error vs' j = Some vj ->
    exists r r', set_gen SI (IOArg t (map leaf_arg (m :: ms))) vs = Ok r /\
                 set_gen SI (IOArg t (map leaf_arg (m :: ms))) vs' = Ok r' /\
      segment (wires r (sum_bits (m :: ms))) (sum_bits (firstn j (m :: ms))) (bits_of mj)
      = segment (wires r' (sum_bits (m :: ms))) (sum_bits (firstn j (m :: ms))) (bits_of mj).
  Proof.
    intros HF HF' Hm Hv Hv'.
    destruct (set_member_segment t m ms vs j mj vj HF Hm Hv) as (r & E & H).
    destruct (set_member_segment t m ms vs' j mj vj HF' Hm Hv') as (r' & E' & H').
    exists r, r'. repeat split; auto. congruence.
  Qed.
End SetGeneric.

Lemma fixed_bytes : forall el x, (8 <= i_bits el)%nat -> (x < 256)%N -> si_spec set_int_fixed el (Z.of_N x).
Proof. intros el x _ Hx. apply set_int_fixed_spec. unfold go_int_range. lia. Qed.

Lemma old_bytes : forall el x, (8 <= i_bits el)%nat -> (x < 256)%N -> si_spec set_int_old el (Z.of_N x).
Proof.
  intros el x He Hx. apply set_int_old_spec. left.
  pose proof (pow2_le_mono 8 (Z.of_nat (i_bits el))). lia.
Qed.

Lemma member_ok_fixed m v : gin_domain m v -> member_ok set_int_fixed m v.
Proof.
  intros Hd. split; [exact Hd|]. intros b z Hm Hv. subst v.
  apply set_int_fixed_spec. destruct Hm as [-> | ->]; simpl in Hd; tauto.
Qed.

Lemma member_ok_old m v : gin_domain m v -> gin_no_hazard m v -> member_ok set_int_old m v.
Proof.
  intros Hd Hh. split; [exact Hd|]. intros b z Hm Hv. subst v.
  apply set_int_old_spec. destruct Hm as [-> | ->]; exact Hh.
Qed.

Lemma member_ok_old_all ms vs :
  Forall2 gin_domain ms vs -> Forall2 gin_no_hazard ms vs -> Forall2 (member_ok set_int_old) ms vs.
Proof. intros HD; induction HD; intros HN; inversion HN; subst; constructor; auto using member_ok_old. Qed.

Lemma set_eq_parse_fixed_compound t m ms ss vs :
  members_spelled (m :: ms) ss vs ->
  exists rs rp,
    set_fixed (IOArg t (map leaf_arg (m :: ms))) vs = Ok rs /\
    parse (IOArg t (map leaf_arg (m :: ms))) ss = Ok rp /\
    wires rs (sum_bits (m :: ms)) = gins_wires (m :: ms) vs /\
    wires rp (sum_bits (m :: ms)) = gins_wires (m :: ms) vs.
Proof.
  intros HM. apply (set_eq_parse_compound set_int_fixed fixed_bytes); [exact HM|].
  exact (Forall2_weaken _ _ _ _ member_ok_fixed (members_spelled_domain _ _ _ HM)).
Qed.

(* regression record: the setInt before 19f0a68 agrees with Parse when no integer member meets
   its 64-bit write *)
Lemma set_eq_parse_old_compound t m ms ss vs :
  members_spelled (m :: ms) ss vs -> Forall2 gin_no_hazard (m :: ms) vs ->
  exists rs rp,
    set_old (IOArg t (map leaf_arg (m :: ms))) vs = Ok rs /\
    parse (IOArg t (map leaf_arg (m :: ms))) ss = Ok rp /\
    wires rs (sum_bits (m :: ms)) = wires rp (sum_bits (m :: ms)).
Proof.
  intros HM HN.
  destruct (set_eq_parse_compound set_int_old old_bytes t m ms ss vs HM
              (member_ok_old_all _ _ (members_spelled_domain _ _ _ HM) HN)) as (rs & rp & Es & Ep & Hws & Hwp).
  exists rs, rp. repeat split; auto. congruence.
Qed.

Lemma set_eq_parse_fixed_single m s v :
  gin_domain m v -> spells m s v ->
  exists rs rp, set_fixed (leaf_arg m) [v] = Ok rs /\ parse (leaf_arg m) [s] = Ok rp /\
    wires rs (bits_of m) = wires rp (bits_of m).
Proof. intros Hd. exact (set_eq_parse_single set_int_fixed fixed_bytes m s v (member_ok_fixed m v Hd)). Qed.

Lemma set_eq_parse_old_single m s v :
  gin_domain m v -> spells m s v -> gin_no_hazard m v ->
  exists rs rp, set_old (leaf_arg m) [v] = Ok rs /\ parse (leaf_arg m) [s] = Ok rp /\
    wires rs (bits_of m) = wires rp (bits_of m).
Proof.
  intros Hd Hs Hh. exact (set_eq_parse_single set_int_old old_bytes m s v (member_ok_old m v Hd Hh) Hs).
Qed.

Lemma set_fixed_independent t m ms vs vs' j mj vj :
  Forall2 gin_domain (m :: ms) vs -> Forall2 gin_domain (m :: ms) vs' ->
  nth_error (m :: ms) j = Some mj -> nth_error vs j = Some vj -> nth_error vs' j = Some vj ->
  exists r r', set_fixed (IOArg t (map leaf_arg (m :: ms))) vs = Ok r /\
               set_fixed (IOArg t (map leaf_arg (m :: ms))) vs' = Ok r' /\
    segment (wires r (sum_bits (m :: ms))) (sum_bits (firstn j (m :: ms))) (bits_of mj)
    = segment (wires r' (sum_bits (m :: ms))) (sum_bits (firstn j (m :: ms))) (bits_of mj).
Proof.
  intros HD HD'. exact (set_members_independent set_int_fixed fixed_bytes t m ms vs vs' j mj vj
                          (Forall2_weaken _ _ _ _ member_ok_fixed HD) (Forall2_weaken _ _ _ _ member_ok_fixed HD')).
Qed.

Lemma set_old_independent_partial t m ms vs vs' j mj vj :
  Forall2 gin_domain (m :: ms) vs -> Forall2 gin_domain (m :: ms) vs' ->
  Forall2 gin_no_hazard (m :: ms) vs -> Forall2 gin_no_hazard (m :: ms) vs' ->
  nth_error (m :: ms) j = Some mj -> nth_error vs j = Some vj -> nth_error vs' j = Some vj ->
  exists r r', set_old (IOArg t (map leaf_arg (m :: ms))) vs = Ok r /\
               set_old (IOArg t (map leaf_arg (m :: ms))) vs' = Ok r' /\
    segment (wires r (sum_bits (m :: ms))) (sum_bits (firstn j (m :: ms))) (bits_of mj)
    = segment (wires r' (sum_bits (m :: ms))) (sum_bits (firstn j (m :: ms))) (bits_of mj).
Proof.
  intros HD HD' HN HN'. exact (set_members_independent set_int_old old_bytes t m ms vs vs' j mj vj
                                 (member_ok_old_all _ _ HD HN) (member_ok_old_all _ _ HD' HN')).
Qed.

(* regression record of finding F8: refutations for the setInt before 19f0a68 *)

Definition f8_members : list ty := [TyInt 8; TyArray (TyUint 8) 4].
Definition f8_arg : ioarg := IOArg (info_of (TyStruct f8_members)) (map leaf_arg f8_members).

(* int8(-1) followed by a [4]byte given nil: the byte array's wires carry
   the ones setInt spilled, Parse puts zeros there *)
Lemma set_old_spill_witness :
  set_old f8_arg [GInt (-1); GNil] = Ok (2 ^ 64 - 1) /\
  parse f8_arg [[45; 49]%N; [48]%N] = Ok 255 /\
  wires (2 ^ 64 - 1) 40 <> wires 255 40.
Proof.
  split; [vm_compute; reflexivity|]. split; [vm_compute; reflexivity|]. vm_compute. discriminate.
Qed.

Lemma f8_spelled : members_spelled f8_members [[45; 49]%N; [48]%N] [GInt (-1); GNil].
Proof.
  repeat constructor; simpl; try lia; try reflexivity.
Qed.

Lemma set_eq_parse_old_refuted :
  exists t m ms ss vs rs rp,
    members_spelled (m :: ms) ss vs /\
    set_old (IOArg t (map leaf_arg (m :: ms))) vs = Ok rs /\
    parse (IOArg t (map leaf_arg (m :: ms))) ss = Ok rp /\
    wires rs (sum_bits (m :: ms)) <> wires rp (sum_bits (m :: ms)).
Proof.
  exists (info_of (TyStruct f8_members)), (TyInt 8), [TyArray (TyUint 8) 4],
         [[45; 49]%N; [48]%N], [GInt (-1); GNil], (2 ^ 64 - 1), 255.
  split; [exact f8_spelled|].
  destruct set_old_spill_witness as (H1 & H2 & H3). repeat split; assumption.
Qed.

(* changing the int8 member from 0 to -1 changes the wires of the byte array *)
Lemma set_old_independent_refuted :
  exists t m ms vs vs' j mj vj r r',
    Forall2 gin_domain (m :: ms) vs /\ Forall2 gin_domain (m :: ms) vs' /\
    nth_error (m :: ms) j = Some mj /\ nth_error vs j = Some vj /\ nth_error vs' j = Some vj /\
    set_old (IOArg t (map leaf_arg (m :: ms))) vs = Ok r /\
    set_old (IOArg t (map leaf_arg (m :: ms))) vs' = Ok r' /\
    segment (wires r (sum_bits (m :: ms))) (sum_bits (firstn j (m :: ms))) (bits_of mj)
    <> segment (wires r' (sum_bits (m :: ms))) (sum_bits (firstn j (m :: ms))) (bits_of mj).
Proof.
  exists (info_of (TyStruct f8_members)), (TyInt 8), [TyArray (TyUint 8) 4],
         [GInt 0; GNil], [GInt (-1); GNil], 1%nat, (TyArray (TyUint 8) 4), GNil, 0, (2 ^ 64 - 1).
  assert (D0 : gin_domain (TyInt 8) (GInt 0)) by (simpl; unfold go_int_range; lia).
  assert (D1 : gin_domain (TyInt 8) (GInt (-1))) by (simpl; unfold go_int_range; lia).
  assert (D2 : gin_domain (TyArray (TyUint 8) 4) GNil) by (simpl; auto).
  split; [constructor; [exact D0 | constructor; [exact D2 | constructor]]|].
  split; [constructor; [exact D1 | constructor; [exact D2 | constructor]]|].
  split; [reflexivity|]. split; [reflexivity|]. split; [reflexivity|].
  split; [vm_compute; reflexivity|].
  split; [vm_compute; reflexivity|].
  vm_compute. discriminate.
Qed.

(* a negative value of an int wider than 64 bits is not sign-extended *)
Lemma set_old_wide_refuted :
  exists b z s rs rp,
    gin_domain (TyInt b) (GInt z) /\ spells (TyInt b) s (GInt z) /\
    set_old (leaf_arg (TyInt b)) [GInt z] = Ok rs /\ parse (leaf_arg (TyInt b)) [s] = Ok rp /\
    wires rs b <> wires rp b.
Proof.
  exists 70%nat, (-1), [45; 49]%N, (2 ^ 64 - 1), (-1).
  split; [simpl; unfold go_int_range; lia|].
  split; [reflexivity|].
  split; [vm_compute; reflexivity|].
  split; [vm_compute; reflexivity|].
  vm_compute. discriminate.
Qed.

Definition map_fst {A B} (r : res (A * B)) : res A :=
  match r with Ok (a, _) => Ok a | Err => Err | Panic => Panic end.

Lemma result_array_arg_unchanged TI t r o r' :
  kind_is t types_TArray || kind_is t types_TSlice = true ->
  result_gen TI t r = Ok (o, r') -> r' = r.
Proof.
  unfold result_gen. intros ->.
  destruct (i_elem t) as [el|]; [|discriminate].
  destruct (elem_go_type el) as [[ek ew]|]; [|discriminate].
  destruct (result_items _ _ _ _ _ _); intros H; inversion H; reflexivity.
Qed.

(* purity of Result (since 8d9a986): for every type whatsoever and every value,
   the *big.Int argument is left as it was *)
Lemma result_fixed_arg_unchanged t r o r' : result_fixed t r = Ok (o, r') -> r' = r.
Proof.
  unfold result_fixed. destruct (kind_is t types_TArray || kind_is t types_TSlice) eqn:E.
  { apply result_array_arg_unchanged, E. }
  rewrite result_is_scalar by exact E. unfold result_scalar.
  destruct (kind_is t types_TString); [intros H; inversion H; reflexivity|].
  destruct (kind_is t types_TUint).
  { destruct (go_width (i_bits t)); intros H; inversion H; reflexivity. }
  destruct (kind_is t types_TInt).
  { destruct (Nat.eqb (i_bits t) 0); [discriminate|].
    unfold result_tint_fixed. destruct (Z.testbit r (Z.of_nat (i_bits t) - 1));
      destruct (go_width (i_bits t)); intros H; inversion H; reflexivity. }
  destruct (kind_is t types_TBool); intros H; inversion H; reflexivity.
Qed.

Lemma result_fixed_repeatable t r o r' :
  result_fixed t r = Ok (o, r') -> result_fixed t r' = Ok (o, r').
Proof. intros H. pose proof (result_fixed_arg_unchanged _ _ _ _ H). subst r'. exact H. Qed.

Lemma result_old_array_arg_unchanged t r o r' :
  kind_is t types_TArray || kind_is t types_TSlice = true ->
  result_old t r = Ok (o, r') -> r' = r.
Proof. apply result_array_arg_unchanged. Qed.

Lemma result_old_tint_partial b r :
  Z.testbit r (Z.of_nat b - 1) = false ->
  result_old (info_of (TyInt b)) r = result_fixed (info_of (TyInt b)) r.
Proof.
  intros H. unfold result_old, result_fixed. rewrite !result_is_scalar, !result_scalar_tyint by reflexivity.
  unfold result_tint_old, result_tint_fixed. rewrite H. reflexivity.
Qed.

(* F7 (before 8d9a986): the pre-fix Result negated the caller's big.Int: 5-bit signed -16 is
   the wire value 16; the first call returns -16 and leaves -16 behind, the
   second call returns -48 *)
Lemma result_old_f7_witness :
  result_old (info_of (TyInt 5)) 16 = Ok (OInt true 8 (-16), -16) /\
  result_old (info_of (TyInt 5)) (-16) = Ok (OInt true 8 (-48), -48) /\
  result_fixed (info_of (TyInt 5)) 16 = Ok (OInt true 8 (-16), 16).
Proof. repeat split; vm_compute; reflexivity. Qed.

Lemma result_old_mutates_refuted :
  exists t r o r', result_old t r = Ok (o, r') /\ r' <> r.
Proof.
  exists (info_of (TyInt 5)), 16, (OInt true 8 (-16)), (-16).
  split; [apply result_old_f7_witness | discriminate].
Qed.

Lemma result_old_repeatable_refuted :
  exists t r o r' o2 r2, result_old t r = Ok (o, r') /\ result_old t r' = Ok (o2, r2) /\ o2 <> o.
Proof.
  exists (info_of (TyInt 5)), 16, (OInt true 8 (-16)), (-16), (OInt true 8 (-48)), (-48).
  split; [apply result_old_f7_witness|]. split; [apply result_old_f7_witness|]. discriminate.
Qed.

Definition go_int (signed : bool) (b : nat) (z : Z) : gout :=
  match go_width b with O => OBig z | w => OInt signed w z end.

Lemma go_width_cases b :
  (go_width b = O /\ (64 < b)%nat) \/
  (exists w, go_width b = S w /\ (b <= S w <= 64)%nat).
Proof.
  unfold go_width.
  destruct (Nat.leb_spec b 8); [right; exists 7%nat; split; [reflexivity|lia]|].
  destruct (Nat.leb_spec b 16); [right; exists 15%nat; split; [reflexivity|lia]|].
  destruct (Nat.leb_spec b 32); [right; exists 31%nat; split; [reflexivity|lia]|].
  destruct (Nat.leb_spec b 64); [right; exists 63%nat; split; [reflexivity|lia]|].
  left. split; [reflexivity|lia].
Qed.

Lemma wrap_s_id w z : (0 < w)%nat -> - 2 ^ (Z.of_nat w - 1) <= z < 2 ^ (Z.of_nat w - 1) -> wrap_s w z = z.
Proof. intros Hw Hz. unfold wrap_s. pose proof (pow2_split w Hw). rewrite Z.mod_small by lia. lia. Qed.

Lemma big_int64_id z : - 2 ^ 63 <= z < 2 ^ 63 -> big_int64 z = z.
Proof.
  intros Hz. unfold big_int64.
  rewrite (Z.mod_small (Z.abs z)) by lia.
  replace (if z <? 0 then - Z.abs z else Z.abs z) with z by (destruct (z <? 0) eqn:E; lia).
  apply wrap_s_id; simpl; lia.
Qed.

(* a signed integer, whatever the sign step: if it turns the wire value into z,
   z is returned as the Go type chosen for the width *)
Lemma result_tyint TI b r z r' :
  (0 < b)%nat -> TI b r = (z, r') -> - 2 ^ (Z.of_nat b - 1) <= z < 2 ^ (Z.of_nat b - 1) ->
  result_gen TI (info_of (TyInt b)) r = Ok (go_int true b z, r').
Proof.
  intros Hb Hv Hz. rewrite result_is_scalar, result_scalar_tyint, Hv by reflexivity.
  replace (Nat.eqb b 0) with false by lia.
  unfold go_int. destruct (go_width_cases b) as [[-> _]|(w & -> & Hw)]; [reflexivity|].
  f_equal. f_equal. f_equal.
  pose proof (pow2_le_mono (Z.of_nat b - 1) (Z.of_nat (S w) - 1)).
  pose proof (pow2_le_mono (Z.of_nat (S w) - 1) 63).
  rewrite big_int64_id by lia. apply wrap_s_id; lia.
Qed.

Lemma result_tint_fixed_mod b z :
  (0 < b)%nat -> - 2 ^ (Z.of_nat b - 1) <= z < 2 ^ (Z.of_nat b - 1) ->
  result_tint_fixed b (z mod 2 ^ Z.of_nat b) = (z, z mod 2 ^ Z.of_nat b).
Proof.
  intros Hb Hz. pose proof (pow2_split b Hb) as Hp.
  set (r := z mod 2 ^ Z.of_nat b).
  assert (Hr : 0 <= r < 2 ^ Z.of_nat b) by (apply Z.mod_pos_bound; lia).
  unfold result_tint_fixed. rewrite testbit_top by (replace (Z.of_nat b - 1 + 1) with (Z.of_nat b) by lia; lia).
  destruct (Z_lt_le_dec z 0) as [Hn|Hn].
  - assert (r = z + 2 ^ Z.of_nat b) by (symmetry; apply Z.mod_unique with (q := -1); lia).
    replace (2 ^ (Z.of_nat b - 1) <=? r) with true by lia. f_equal. lia.
  - assert (r = z) by (apply Z.mod_small; lia).
    replace (2 ^ (Z.of_nat b - 1) <=? r) with false by lia. f_equal. lia.
Qed.

(* signed integers, Result since 8d9a986: the wire value of z decodes to z; the
   argument is unchanged *)
Lemma result_fixed_int_inverse b z :
  (0 < b)%nat -> - 2 ^ (Z.of_nat b - 1) <= z < 2 ^ (Z.of_nat b - 1) ->
  result_fixed (info_of (TyInt b)) (z mod 2 ^ Z.of_nat b)
  = Ok (go_int true b z, z mod 2 ^ Z.of_nat b).
Proof. intros Hb Hz. exact (result_tyint _ b _ z _ Hb (result_tint_fixed_mod b z Hb Hz) Hz). Qed.

(* unsigned integers (the same before and after the fix) *)
Lemma result_uint_inverse TI b z :
  0 <= z < 2 ^ Z.of_nat b ->
  result_gen TI (info_of (TyUint b)) z = Ok (go_int false b z, z).
Proof.
  intros Hz. rewrite result_is_scalar, result_scalar_tyuint by reflexivity.
  unfold go_int. destruct (go_width_cases b) as [[-> _]|(w & -> & Hw)]; [reflexivity|].
  f_equal. f_equal. f_equal.
  pose proof (pow2_le_mono (Z.of_nat b) (Z.of_nat (S w))).
  pose proof (pow2_le_mono (Z.of_nat (S w)) 64).
  unfold wrap_u, big_uint64. rewrite Z.abs_eq, (Z.mod_small z (2 ^ 64)), Z.mod_small by lia. reflexivity.
Qed.

Lemma result_bool_inverse TI (v : bool) :
  result_gen TI (info_of TyBool) (Z.b2z v) = Ok (OBool v, Z.b2z v).
Proof. destruct v; reflexivity. Qed.

(* Result before 8d9a986 on signed integers: the decoded value is right (what it
   did to the argument: result_old_f7_witness) *)
Lemma result_old_int_value b z :
  (0 < b)%nat -> - 2 ^ (Z.of_nat b - 1) <= z < 2 ^ (Z.of_nat b - 1) ->
  map_fst (result_old (info_of (TyInt b)) (z mod 2 ^ Z.of_nat b)) = Ok (go_int true b z).
Proof.
  intros Hb Hz.
  assert (Hv : fst (result_tint_old b (z mod 2 ^ Z.of_nat b)) = z).
  { rewrite <- (f_equal fst (result_tint_fixed_mod b z Hb Hz)) at 2. unfold result_tint_old, result_tint_fixed.
    destruct (Z.testbit _ _); reflexivity. }
  destruct (result_tint_old b (z mod 2 ^ Z.of_nat b)) as [v r'] eqn:E. simpl in Hv. subst v.
  unfold result_old. rewrite (result_tyint _ b _ z r' Hb E Hz). reflexivity.
Qed.

(* the wire value of an array: element i on wires [i*w, (i+1)*w) *)
Definition le_value (w : nat) (l : list Z) : Z :=
  fold_right (fun x acc => x + 2 ^ Z.of_nat w * acc) 0 l.

Lemma le_chunk w : forall l i,
  Forall (fun x => 0 <= x < 2 ^ Z.of_nat w) l -> (i < length l)%nat ->
  Z.land (Z.shiftr (le_value w l) (Z.of_nat (i * w))) (mask_of w) = nth i l 0.
Proof.
  assert (Hp : 0 < 2 ^ Z.of_nat w) by (apply Z.pow_pos_nonneg; lia).
  induction l as [|x l IH]; intros i HF Hi; [simpl in Hi; lia|].
  inversion HF as [|? ? Hx HF']; subst. cbn [le_value fold_right]. fold (le_value w l).
  destruct i as [|i].
  - simpl Z.of_nat. rewrite Z.shiftr_0_r, land_mask_of.
    replace (x + 2 ^ Z.of_nat w * le_value w l) with (x + le_value w l * 2 ^ Z.of_nat w) by ring.
    rewrite Z.mod_add by lia. apply Z.mod_small. exact Hx.
  - replace (Z.of_nat (S i * w)) with (Z.of_nat w + Z.of_nat (i * w)) by lia.
    rewrite <- Z.shiftr_shiftr by lia.
    replace (Z.shiftr (x + 2 ^ Z.of_nat w * le_value w l) (Z.of_nat w)) with (le_value w l).
    + simpl nth. apply IH; [exact HF' | simpl in Hi; lia].
    + rewrite Z.shiftr_div_pow2 by lia. rewrite (Z.mul_comm (2 ^ Z.of_nat w)), Z.div_add by lia.
      rewrite Z.div_small by lia. lia.
Qed.

Definition scalar_out (TI : nat -> Z -> Z * Z) (t : info) (u : Z) : gout :=
  match result_scalar TI t u with Ok (o, _) => o | _ => OUnsupported end.

Lemma result_items_spec TI el r w (us : list Z) : forall idx,
  (forall i, In i idx -> exists o a,
      result_scalar TI el (Z.land (Z.shiftr r (Z.of_nat (i * w))) (mask_of w)) = Ok (o, a) /\
      Z.land (Z.shiftr r (Z.of_nat (i * w))) (mask_of w) = nth i us 0) ->
  result_items TI el r (mask_of w) w idx = Ok (map (fun i => scalar_out TI el (nth i us 0)) idx).
Proof.
  induction idx as [|i idx IH]; intros H; [reflexivity|].
  cbn [result_items map]. destruct (H i (or_introl eq_refl)) as (o & a & E & En).
  rewrite E. rewrite IH by (intros j Hj; apply H; right; exact Hj).
  assert (Eo : scalar_out TI el (nth i us 0) = o) by (unfold scalar_out; rewrite <- En, E; reflexivity).
  rewrite Eo. reflexivity.
Qed.

(* arrays and slices: for every element type Result supports, element i of the
   Go slice is Result of the i-th element's wire value; the argument is
   unchanged (before and after the fix alike) *)
Lemma result_array_inverse TI (slice : bool) el n ek ew (us : list Z) :
  elem_go_type (info_of el) = Some (ek, ew) ->
  Forall (fun x => 0 <= x < 2 ^ Z.of_nat (bits_of el)) us -> length us = n ->
  (forall u, In u us -> exists o a, result_scalar TI (info_of el) u = Ok (o, a)) ->
  result_gen TI (info_of (if slice then TySlice el n else TyArray el n)) (le_value (bits_of el) us)
  = Ok (OSlice ek ew (map (scalar_out TI (info_of el)) us), le_value (bits_of el) us).
Proof.
  intros Hty HF Hl Hel. rewrite result_gen_elems, Hty, i_bits_info_of.
  rewrite (result_items_spec TI (info_of el) (le_value (bits_of el) us) (bits_of el) us).
  - rewrite <- Hl. rewrite <- (map_nth_seq (scalar_out TI (info_of el)) 0 us). reflexivity.
  - intros i Hi. apply in_seq in Hi.
    assert (Hc := le_chunk (bits_of el) us i HF ltac:(lia)).
    destruct (Hel (nth i us 0)) as (o & a & E); [apply nth_In; lia|].
    exists o, a. rewrite Hc. auto.
Qed.

Lemma pos_size_nat_spec p : 2 ^ (Z.of_nat (Pos.size_nat p) - 1) <= Zpos p < 2 ^ Z.of_nat (Pos.size_nat p).
Proof.
  assert (Hs : forall q, 0 < Z.of_nat (Pos.size_nat q)) by (destruct q; simpl; lia).
  induction p as [p IH|p IH|]; cbn [Pos.size_nat]; [| |simpl; lia]; specialize (Hs p);
    rewrite Nat2Z.inj_succ;
    replace (Z.succ (Z.of_nat (Pos.size_nat p)) - 1) with (Z.succ (Z.of_nat (Pos.size_nat p) - 1)) by lia;
    rewrite !Z.pow_succ_r by lia; lia.
Qed.

(* BitLen: the width InputSizes infers from a decimal/binary/octal spelling
   holds the unsigned value, and no smaller width does *)
Lemma bit_len_spec z : z < 2 ^ Z.of_nat (bit_len z) /\ (0 < z -> 2 ^ (Z.of_nat (bit_len z) - 1) <= z).
Proof.
  destruct z as [|p|p]; [simpl; lia | | lia].
  pose proof (pos_size_nat_spec p). simpl bit_len. lia.
Qed.

Lemma bit_len_loop_fixed_spec z : 0 <= z -> forall k,
  z < 2 ^ (Z.of_nat k + 1) -> z < 2 ^ Z.of_nat (bit_len_loop_fixed k z).
Proof.
  intros Hz. induction k as [|k IH]; intros Hk.
  - simpl in *. lia.
  - cbn [bit_len_loop_fixed]. destruct (Z.testbit z (Z.of_nat (S k))) eqn:E.
    + replace (Z.of_nat (S k + 1)) with (Z.of_nat (S k) + 1) by lia. exact Hk.
    + apply IH. rewrite testbit_top in E by lia.
      replace (Z.of_nat k + 1) with (Z.of_nat (S k)) by lia. lia.
Qed.

(* bitLen (since a0b0be5): the inferred width holds every uint64 value *)
Lemma bit_len_fixed_holds z : 0 <= z < 2 ^ 64 -> z < 2 ^ Z.of_nat (bit_len_fixed z).
Proof. intros Hz. apply bit_len_loop_fixed_spec; [lia|]. simpl. lia. Qed.

(* regression record: bitLen before a0b0be5 never tested bit 1 (F15 of known_findings.json;
   F13 in notes/C13-findings.md and IO/IOArg.v) *)
Lemma bit_len_old_refuted : exists z, 0 <= z < 2 ^ 64 /\ ~ z < 2 ^ Z.of_nat (bit_len_old z).
Proof. exists 2. split; [lia|]. vm_compute. intros H; discriminate H. Qed.

Lemma bit_len_loop_partial z : 0 <= z -> (z < 2 \/ 4 <= z) -> forall k,
  z < 2 ^ (Z.of_nat k + 2) -> z < 2 ^ Z.of_nat (bit_len_loop k z).
Proof.
  intros Hz Hd. induction k as [|k IH]; intros Hk.
  - simpl in *. lia.
  - cbn [bit_len_loop]. destruct (Z.testbit z (Z.of_nat (S k + 1))) eqn:E.
    + replace (Z.of_nat (S k + 2)) with (Z.of_nat (S k) + 2) by lia. exact Hk.
    + apply IH. rewrite testbit_top in E.
      * replace (Z.of_nat k + 2) with (Z.of_nat (S k + 1)) by lia. lia.
      * lia.
      * replace (Z.of_nat (S k + 1) + 1) with (Z.of_nat (S k) + 2) by lia. lia.
Qed.

Lemma bit_len_old_partial z :
  0 <= z < 2 ^ 64 -> z <> 2 -> z <> 3 -> z < 2 ^ Z.of_nat (bit_len_old z).
Proof. intros Hz H2 H3. apply bit_len_loop_partial; [lia | lia |]. simpl. lia. Qed.

(* Sizes and InputSizes collect one size per element and stop at the first
   element that has none *)
Fixpoint map_res {A B} (f : A -> res B) (l : list A) : res (list B) :=
  match l with
  | [] => Ok []
  | x :: l' =>
      match f x with
      | Ok y => bind (map_res f l') (fun r => Ok (y :: r))
      | Err => Err
      | Panic => Panic
      end
  end.

Lemma map_res_iff {A B} (f : A -> res B) : forall l l',
  map_res f l = Ok l' <-> Forall2 (fun x y => f x = Ok y) l l'.
Proof.
  induction l as [|x l IH]; intros l'; simpl.
  - split; [intros H; inversion H; constructor | intros H; inversion H; reflexivity].
  - split.
    + destruct (f x) as [y| |] eqn:E; try discriminate.
      destruct (map_res f l) as [r| |]; try discriminate.
      intros H; inversion H; subst. constructor; [exact E | apply IH; reflexivity].
    + intros H; inversion H as [|? y ? r Hy HF]; subst. rewrite Hy, (proj2 (IH r) HF). reflexivity.
Qed.

Lemma input_sizes_map ss : input_sizes ss = map_res input_size ss.
Proof. induction ss as [|s ss IH]; simpl; [|rewrite IH]; reflexivity. Qed.

(* InputSizes is computed input by input: the list is accepted exactly when
   every input is, and size i depends on input i alone *)
Lemma input_sizes_iff ss ns :
  input_sizes ss = Ok ns <-> Forall2 (fun s n => input_size s = Ok n) ss ns.
Proof. rewrite input_sizes_map. apply map_res_iff. Qed.

Definition size_of (BL : Z -> nat) (v : gin) : res nat :=
  match v with
  | GNil => Ok O
  | GBool _ => Ok 1%nat
  | GInt z => Ok (BL (uint64_conv z))
  | GBytes l => Ok (length l * 8)%nat
  | GOther => Err
  end.

Lemma sizes_gen_map BL vs : sizes_gen BL vs = map_res (size_of BL) vs.
Proof. induction vs as [|v vs IH]; simpl; [reflexivity|]. rewrite IH. destruct v; reflexivity. Qed.

Lemma sizes_fixed_int z :
  sizes_fixed [GInt z] = Ok [bit_len_fixed (uint64_conv z)] /\
  uint64_conv z < 2 ^ Z.of_nat (bit_len_fixed (uint64_conv z)).
Proof.
  split; [reflexivity|]. apply bit_len_fixed_holds. unfold uint64_conv. apply Z.mod_pos_bound. lia.
Qed.

Lemma sizes_bytes BL l : sizes_gen BL [GBytes l] = Ok [(length l * 8)%nat].
Proof. reflexivity. Qed.

Lemma sizes_uint64 z : 0 <= z < 2 ^ 64 -> sizes [GInt z] = Ok [bit_len_fixed z].
Proof. intros Hz. unfold sizes, bit_len_now. simpl. unfold uint64_conv. rewrite Z.mod_small by exact Hz. reflexivity. Qed.

(* InputSizes on a spelling SetString reads: the size is the bit length Parse
   itself assigns to the literal, so a slice instantiated from it has exactly
   the number of elements Parse writes *)
Lemma input_size_literal s z :
  set_string s = Some z ->
  mem_str s bool_false_spellings = false -> mem_str s bool_true_spellings = false ->
  match_hex_input s = None ->
  input_size s = Ok (literal_bit_len s z).
Proof.
  intros Hs Hf Ht Hm. unfold input_size.
  destruct (lN_eqb s s_underscore) eqn:Eu.
  { apply lN_eqb_eq in Eu. subst s. discriminate Hs. }
  rewrite Hf, Ht. simpl orb. cbv iota. unfold literal_bit_len.
  destruct (has_prefix s_0x s); [reflexivity|]. rewrite Hm, Hs. reflexivity.
Qed.

Lemma input_size_slice_elems s z e :
  input_size s = Ok (literal_bit_len s z) ->
  array_size_for (literal_bit_len s z) e = literal_elems s z e.
Proof. reflexivity. Qed.

(* the size inferred from the magnitude leaves no room for a sign bit (F16 of
   known_findings.json; F14 in notes/C13-findings.md) *)
Lemma input_size_signed_refuted :
  exists s z n, set_string s = Some z /\ input_size s = Ok n /\
    ~ (- 2 ^ (Z.of_nat n - 1) <= z < 2 ^ (Z.of_nat n - 1)).
Proof.
  exists [49; 50; 56]%N, 128, 8%nat. split; [reflexivity|]. split; [reflexivity|]. simpl. lia.
Qed.

Lemma input_size_unsigned s z :
  set_string s = Some z ->
  mem_str s bool_false_spellings = false -> mem_str s bool_true_spellings = false ->
  match_hex_input s = None -> has_prefix s_0x s = false ->
  exists n, input_size s = Ok n /\ z < 2 ^ Z.of_nat n.
Proof.
  intros Hs Hf Ht Hm Hp. exists (bit_len z). split.
  - rewrite (input_size_literal s z Hs Hf Ht Hm). unfold literal_bit_len. rewrite Hp. reflexivity.
  - apply bit_len_spec.
Qed.

Lemma testbit_true_ge z n : 0 <= z -> Z.testbit z n = true -> 2 ^ n <= z.
Proof.
  intros Hz H. destruct (Z_lt_le_dec z (2 ^ n)) as [Hlt|]; [|assumption].
  rewrite (testbit_nonneg_lt z n n) in H by lia. discriminate.
Qed.

Lemma bit_len_loop_fixed_lower z : 0 < z -> forall k,
  2 ^ (Z.of_nat (bit_len_loop_fixed k z) - 1) <= z.
Proof.
  intros Hz. induction k as [|k IH]; cbn [bit_len_loop_fixed].
  - simpl. lia.
  - destruct (Z.testbit z (Z.of_nat (S k))) eqn:E; [|exact IH].
    replace (Z.of_nat (S k + 1) - 1) with (Z.of_nat (S k)) by lia.
    apply testbit_true_ge; lia.
Qed.

Lemma bit_width_unique z a b :
  2 ^ (Z.of_nat a - 1) <= z < 2 ^ Z.of_nat a -> 2 ^ (Z.of_nat b - 1) <= z < 2 ^ Z.of_nat b -> a = b.
Proof.
  intros Ha Hb.
  destruct (Nat.lt_trichotomy a b) as [H|[H|H]]; [exfalso|exact H|exfalso].
  - pose proof (pow2_le_mono (Z.of_nat a) (Z.of_nat b - 1)). lia.
  - pose proof (pow2_le_mono (Z.of_nat b) (Z.of_nat a - 1)). lia.
Qed.

Lemma bit_len_loop_fixed_pos k z : (0 < bit_len_loop_fixed k z)%nat.
Proof. induction k as [|k IH]; cbn [bit_len_loop_fixed]; [lia|]. destruct (Z.testbit z (Z.of_nat (S k))); lia. Qed.

(* bitLen agrees with big.Int.BitLen on every non-zero uint64; bitLen(0) = 1 *)
Lemma bit_len_fixed_eq_bit_len z : 0 < z < 2 ^ 64 -> bit_len_fixed z = bit_len z.
Proof.
  intros Hz.
  destruct (bit_len_spec z) as (Hu & Hl).
  apply (bit_width_unique z).
  - split; [apply bit_len_loop_fixed_lower; lia | apply bit_len_fixed_holds; lia].
  - split; [apply Hl; lia | exact Hu].
Qed.

Lemma bit_len_fixed_zero : bit_len_fixed 0 = 1%nat.
Proof. reflexivity. Qed.

Lemma bool_spelling_values s z :
  set_string s = Some z ->
  mem_str s bool_false_spellings || mem_str s bool_true_spellings = true ->
  (s = s_0 /\ z = 0) \/ (s = s_1 /\ z = 1).
Proof.
  intros Hs H. apply orb_true_iff in H.
  destruct H as [H|H]; apply mem_str_In in H; destruct H as [<-|[<-|[<-|[]]]];
    vm_compute in Hs; try discriminate; inversion Hs; auto.
Qed.

(* Go value versus text: every uint64 value z INCLUDING 0, every spelling of it
   that SetString reads (not a 0x literal, not the repeat form; 0 is written
   "0"): circuit.Sizes of the Go value and circuit.InputSizes of the text infer
   the same size (for 0: one bit, bitLen(0) = 1 and "0" -> 1) *)
Lemma sizes_eq_input_sizes s z :
  0 <= z < 2 ^ 64 -> set_string s = Some z ->
  match_hex_input s = None -> has_prefix s_0x s = false ->
  (z = 0 -> s = s_0) ->
  exists n, sizes [GInt z] = Ok [n] /\ input_sizes [s] = Ok [n] /\ (0 < n)%nat.
Proof.
  intros Hz Hs Hm Hp H0.
  exists (bit_len_fixed z). split; [exact (sizes_uint64 z Hz)|].
  split; [|apply bit_len_loop_fixed_pos].
  destruct (mem_str s bool_false_spellings || mem_str s bool_true_spellings) eqn:Eb.
  - destruct (bool_spelling_values s z Hs Eb) as [[-> ->]|[-> ->]]; reflexivity.
  - apply orb_false_iff in Eb. destruct Eb as (Ef & Et).
    assert (Hz0 : 0 < z).
    { destruct (Z.eq_dec z 0) as [E|]; [|lia]. rewrite (H0 E) in Ef. discriminate Ef. }
    apply input_sizes_iff. repeat constructor.
    rewrite (input_size_literal s z Hs Ef Et Hm). unfold literal_bit_len. rewrite Hp.
    f_equal. symmetry. apply bit_len_fixed_eq_bit_len. lia.
Qed.

(* the compound example of circuit/ioarg_test.go: uint32, [8]byte, empty []byte, uint32 *)
Definition ex_members : list ty :=
  [TyUint 32; TyArray (TyUint 8) 8; TySlice (TyUint 8) 0; TyUint 32].
Definition ex_strings : list (list N) :=
  [ [48;120;50;49;50;50;50;51;50;52];                               (* "0x21222324" *)
    [48;120;97;48;97;49;97;50;97;51;97;52;97;53;97;54;97;55];       (* "0xa0a1a2a3a4a5a6a7" *)
    [48];                                                           (* "0" *)
    [48;120;51;49;51;50;51;51;51;52] ]%N.                           (* "0x31323334" *)
Definition ex_values : list gin :=
  [GInt 555885348; GBytes [160;161;162;163;164;165;166;167]%N; GNil; GInt 825373492].

Example ex_members_spelled : members_spelled ex_members ex_strings ex_values.
Proof.
  unfold ex_members, ex_strings, ex_values.
  constructor; [simpl; unfold go_int_range; lia | reflexivity |].
  constructor; [simpl; repeat split; try lia; repeat constructor | split; vm_compute; reflexivity |].
  constructor; [simpl; auto | simpl; repeat split; try lia; vm_compute; reflexivity |].
  constructor; [simpl; unfold go_int_range; lia | reflexivity |].
  constructor.
Qed.

Example ex_no_hazard : Forall2 gin_no_hazard ex_members ex_values.
Proof.
  unfold ex_members, ex_values.
  constructor; [left; simpl; lia|]. constructor; [exact I|]. constructor; [exact I|].
  constructor; [left; simpl; lia|]. constructor.
Qed.

(* a short literal: two bytes for a [4]byte, in 0x and in binary spelling *)
Example ex_short_literal :
  spells (TyArray (TyUint 8) 4) [48;120;97;48;97;49]%N (GBytes [160;161]%N) /\
  spells (TyArray (TyUint 8) 4) [48;98;49;48;49;48;48;48;48;48;49;48;49;48;48;48;48;49]%N (GBytes [160;161]%N) /\
  gin_domain (TyArray (TyUint 8) 4) (GBytes [160;161]%N).
Proof.
  split; [split; vm_compute; reflexivity|]. split; [split; vm_compute; reflexivity|].
  simpl. repeat split; try lia. repeat constructor.
Qed.

(* negative values, spelled in decimal and in hex, are in the domain of Set *)
Example ex_negative :
  spells (TyInt 8) [45;49;50;56]%N (GInt (-128)) /\ spells (TyInt 8) [45;48;120;56;48]%N (GInt (-128)) /\
  gin_domain (TyInt 8) (GInt (-128)).
Proof. split; [reflexivity|]. split; [reflexivity|]. simpl. unfold go_int_range. lia. Qed.

(* the unsized template of a type, as the compiler resolves `int`, `uint`,
   `[]T` (arrays and slices of unspecified length) and structs of those *)
Fixpoint template_of (t : ty) : info :=
  match t with
  | TyBool => info_of TyBool
  | TyInt _ => Info types_TInt 0 0 None [] false
  | TyUint _ => Info types_TUint 0 0 None [] false
  | TyString b => info_of (TyString b)
  | TyArray el _ | TySlice el _ => Info types_TSlice 0 0 (Some (info_of el)) [] false
  | TyStruct fs => Info types_TStruct 0 0 None (map template_of fs) false
  end.

(* the type a leaf template becomes for an inferred size *)
Definition resize (t : ty) (sz : nat) : ty :=
  match t with
  | TyInt _ => TyInt sz
  | TyUint _ => TyUint sz
  | TyArray el _ | TySlice el _ => TySlice el (array_size_for sz (bits_of el))
  | _ => t
  end.

Definition is_struct (t : ty) : bool := match t with TyStruct _ => true | _ => false end.

(* leaf templates this development instantiates: bool, int, uint, arrays and
   slices of non-struct elements of non-zero width *)
Definition leaf_template_ok (t : ty) : Prop :=
  match t with
  | TyBool | TyInt _ | TyUint _ => True
  | TyArray el _ | TySlice el _ => is_struct el = false /\ (0 < bits_of el)%nat
  | _ => False
  end.

Lemma concrete_info_of el : is_struct el = false -> concrete_of (info_of el) = true.
Proof. destruct el; simpl; intros H; try discriminate; reflexivity. Qed.

Lemma instantiate_leaf t sz rest :
  leaf_template_ok t -> instantiate (template_of t) (sz :: rest) = Ok (info_of (resize t sz)).
Proof.
  destruct t as [| b | b | b | el n | el n | fs]; simpl leaf_template_ok; intros H; try contradiction;
    try reflexivity; destruct H as (Hs & He); cbn [template_of resize info_of];
    rewrite instantiate_tslice, (concrete_info_of el Hs), i_bits_info_of;
    replace (Nat.eqb (bits_of el) 0) with false by lia; reflexivity.
Qed.

(* a struct member: (declared?, type).  A declared member keeps its concrete
   Info in the template, an unsized one is the template of its kind *)
Definition mtemplate (m : bool * ty) : info := if fst m then info_of (snd m) else template_of (snd m).
Definition mresize (m : bool * ty) (sz : nat) : ty := if fst m then snd m else resize (snd m) sz.

Definition declared_ok (t : ty) : Prop :=
  match t with
  | TyBool | TyInt _ | TyUint _ => True
  | TyArray el _ => is_struct el = false
  | _ => False
  end.

Definition member_ok_mixed (m : bool * ty) : Prop :=
  if fst m then declared_ok (snd m) else leaf_template_ok (snd m).

(* the frame statement: a concrete (declared-width) type is left exactly as it
   is, whatever size is inferred for the value written for it *)
Lemma instantiate_declared_frame t sz rest :
  declared_ok t -> instantiate (info_of t) (sz :: rest) = Ok (info_of t).
Proof.
  destruct t as [| b | b | b | el n | el n | fs]; simpl declared_ok; intros H; try contradiction;
    try reflexivity.
  cbn [info_of]. rewrite instantiate_tarray, (concrete_info_of el H). reflexivity.
Qed.

Lemma instantiate_member m sz rest :
  member_ok_mixed m -> instantiate (mtemplate m) (sz :: rest) = Ok (info_of (mresize m sz)).
Proof. destruct m as [[|] t]; [apply instantiate_declared_frame | apply instantiate_leaf]. Qed.

(* member i gets size i *)
Fixpoint mresize_all (ms : list (bool * ty)) (szs : list nat) : list ty :=
  match ms, szs with
  | m :: ms', s :: szs' => mresize m s :: mresize_all ms' szs'
  | _, _ => []
  end.

Lemma inst_fields_mixed : forall ms szs acc,
  Forall member_ok_mixed ms -> (length ms <= length szs)%nat ->
  inst_fields (fun f => instantiate f) (map mtemplate ms) szs acc
  = Ok (map info_of (mresize_all ms szs), (acc + sum_bits (mresize_all ms szs))%nat).
Proof.
  induction ms as [|m ms IH]; intros szs acc HF Hl.
  - simpl. rewrite Nat.add_0_r. reflexivity.
  - inversion HF as [|? ? Hm HF']; subst. destruct szs as [|s szs]; [simpl in Hl; lia|].
    cbn [map inst_fields mresize_all]. rewrite (instantiate_member m s szs Hm).
    rewrite IH by (auto; simpl in Hl; lia). rewrite i_bits_info_of.
    simpl sum_bits. rewrite Nat.add_assoc. reflexivity.
Qed.

(* flat structs mixing declared-width members (bool, intN, uintN, [n]T) with
   unsized ones (int, uint, []T), in every order: every declared member is
   unchanged, every unsized member i takes size i, Bits is the sum *)
Lemma instantiate_mixed_struct ms szs b0 a0 :
  ms <> [] -> Forall member_ok_mixed ms -> (length ms <= length szs)%nat ->
  instantiate (Info types_TStruct b0 a0 None (map mtemplate ms) false) szs
  = Ok (Info types_TStruct (sum_bits (mresize_all ms szs)) a0 None
             (map info_of (mresize_all ms szs)) true).
Proof.
  intros Hne HF Hl. destruct szs as [|s0 szs]; [destruct ms; [congruence | simpl in Hl; lia]|].
  rewrite instantiate_tstruct, (inst_fields_mixed ms (s0 :: szs) 0 HF Hl). reflexivity.
Qed.

Lemma mresize_all_declared : forall ms szs i t,
  (length ms <= length szs)%nat -> nth_error ms i = Some (true, t) ->
  nth_error (mresize_all ms szs) i = Some t.
Proof.
  induction ms as [|m ms IH]; intros szs i t Hl H; [destruct i; discriminate|].
  destruct szs as [|s szs]; [simpl in Hl; lia|]. destruct i as [|i]; simpl in *.
  - inversion H; subst. reflexivity.
  - apply IH; [lia | exact H].
Qed.

(* the example of seeded defect C13-9: struct{a int32; k [4]byte; n uint} with the
   sizes of 5, 0x0102, 100: a stays int32, k stays [4]uint8, n becomes uint7 *)
Example ex_mixed_struct :
  instantiate (Info types_TStruct 0 0 None
                 (map mtemplate [(true, TyInt 32); (true, TyArray (TyUint 8) 4); (false, TyUint 0)]) false)
              [3; 16; 7]%nat
  = Ok (Info types_TStruct 71 0 None
          (map info_of [TyInt 32; TyArray (TyUint 8) 4; TyUint 7]) true).
Proof. vm_compute. reflexivity. Qed.

Fixpoint resize_all (ms : list ty) (szs : list nat) : list ty :=
  match ms, szs with
  | m :: ms', s :: szs' => resize m s :: resize_all ms' szs'
  | _, _ => []
  end.

Lemma mresize_all_unsized : forall ms szs, mresize_all (map (pair false) ms) szs = resize_all ms szs.
Proof. induction ms as [|m ms IH]; intros [|s szs]; simpl; try reflexivity. rewrite IH. reflexivity. Qed.

(* whole flat struct templates: every member list of leaf templates, every size
   list at least as long: the instantiated struct has member i of the
   width/length inferred from input i, and Bits = their sum *)
Lemma instantiate_flat_struct ms szs :
  ms <> [] -> Forall leaf_template_ok ms -> (length ms <= length szs)%nat ->
  instantiate (template_of (TyStruct ms)) szs
  = Ok (Info types_TStruct (sum_bits (resize_all ms szs)) 0 None
             (map info_of (resize_all ms szs)) true).
Proof.
  intros Hne HF Hl.
  pose proof (instantiate_mixed_struct (map (pair false) ms) szs 0 0) as H.
  rewrite map_map, mresize_all_unsized, map_length in H. apply H.
  - destruct ms; [congruence | discriminate].
  - apply Forall_map. exact HF.
  - exact Hl.
Qed.

(* F17 of known_findings.json (F15 in notes/C13-findings.md): with a NESTED
   struct the sizes overlap: struct{struct{uint,uint},uint} with sizes [10,1,3]:
   the last member is instantiated from size 1, not 3 *)
Lemma instantiate_nested_refuted :
  exists t szs t',
    instantiate (template_of t) szs = Ok t' /\ length szs = length (leaves t) /\
    Forall leaf_template_ok (leaves t) /\
    (fix flat (i : info) : list info :=
       match i with Info _ _ _ _ fs _ =>
         if kind_is i types_TStruct then flat_map flat fs else [i] end) t'
    <> map info_of (resize_all (leaves t) szs).
Proof.
  exists (TyStruct [TyStruct [TyUint 0; TyUint 0]; TyUint 0]), [10; 1; 3]%nat.
  eexists. split; [vm_compute; reflexivity|]. split; [reflexivity|].
  split; [repeat constructor|]. vm_compute. discriminate.
Qed.

(* end to end, one unsized uint argument: every spelling of z >= 0 (other than
   the bool spellings / 0x literals): the inferred size instantiates uintN,
   Parse accepts the spelling for it, and the wires spell exactly z: nothing is
   lost *)
Lemma unsized_uint_lossless s z :
  set_string s = Some z -> 0 <= z ->
  mem_str s bool_false_spellings = false -> mem_str s bool_true_spellings = false ->
  match_hex_input s = None -> has_prefix s_0x s = false ->
  exists n r,
    input_sizes [s] = Ok [n] /\
    instantiate (template_of (TyUint 0)) [n] = Ok (info_of (TyUint n)) /\
    parse (leaf_arg (TyUint n)) [s] = Ok r /\ from_bits (wires r n) = z.
Proof.
  intros Hs Hz Hf Ht Hm Hp.
  destruct (input_size_unsigned s z Hs Hf Ht Hm Hp) as (n & Hn & Hlt).
  exists n, z. split; [apply input_sizes_iff; repeat constructor; exact Hn|].
  split; [reflexivity|]. split; [rewrite parse_uint, Hs; reflexivity|].
  apply from_bits_wires_small. lia.
Qed.

(* one unsized array/slice argument: every literal, every element type of
   non-zero width: the inferred size instantiates a slice of exactly the k
   elements Parse reads from the literal, and Parse puts them, in order, on
   its k*e wires *)
Lemma unsized_slice_lossless el s val :
  is_struct el = false -> (0 < bits_of el)%nat ->
  set_string s = Some val ->
  mem_str s bool_false_spellings = false -> mem_str s bool_true_spellings = false ->
  match_hex_input s = None ->
  let e := bits_of el in let k := literal_elems s val e in
  exists sz r,
    input_sizes [s] = Ok [sz] /\
    instantiate (template_of (TySlice el 0)) [sz] = Ok (info_of (TySlice el k)) /\
    parse (leaf_arg (TySlice el k)) [s] = Ok r /\
    0 <= r < 2 ^ Z.of_nat (k * e) /\
    wires r (k * e) = concat (map (array_elem_wires val k e) (seq 0 k)).
Proof.
  intros Hst He Hs Hf Ht Hm e k.
  exists (literal_bit_len s val). rewrite (parse_slice_eval el k s val He Hs). fold e k. eexists.
  split; [apply input_sizes_iff; repeat constructor; exact (input_size_literal s val Hs Hf Ht Hm)|].
  split; [exact (instantiate_leaf (TySlice el 0) _ [] (conj Hst He))|].
  split; [reflexivity|]. apply pack_padded, le_n.
Qed.

(* Sizes composed with InstantiateWithSizes and Set, one unsized uint argument
   and one Go value: the instantiated uintN holds the value Set writes *)
Lemma unsized_uint_sizes_lossless z :
  0 <= z < 2 ^ 64 ->
  exists n r,
    sizes [GInt z] = Ok [n] /\
    instantiate (template_of (TyUint 0)) [n] = Ok (info_of (TyUint n)) /\
    set (leaf_arg (TyUint n)) [GInt z] = Ok r /\ from_bits (wires r n) = z.
Proof.
  intros Hz.
  set (n := bit_len_fixed z).
  assert (Hn : z < 2 ^ Z.of_nat n) by (apply bit_len_fixed_holds; lia).
  assert (Hd : gin_domain (TyUint n) (GInt z)) by (simpl; unfold go_int_range; lia).
  destruct (set_single_wires set_int_fixed fixed_bytes (TyUint n) (GInt z) (member_ok_fixed _ _ Hd)) as (r & Er & Hw).
  exists n, r. split; [exact (sizes_uint64 z Hz)|].
  split; [reflexivity|]. split; [exact Er|].
  simpl bits_of in Hw. simpl gin_wires in Hw. rewrite Hw. apply from_bits_wires_small. lia.
Qed.

Lemma split_one_spec inp bit n : forall k, 0 <= k ->
  Z.testbit (split_one inp bit n) k = (k <? Z.of_nat n) && Z.testbit inp (Z.of_nat bit + k).
Proof.
  unfold split_one. induction n as [|n IH]; intros k Hk.
  - simpl. rewrite Z.testbit_0_l. replace (k <? 0) with false by lia. reflexivity.
  - rewrite seq_S, fold_left_app. cbn [fold_left Nat.add].
    set (r := fold_left _ (seq 0 n) 0) in *.
    destruct (Z.testbit inp (Z.of_nat (bit + n))) eqn:E.
    + rewrite set_bit_spec. destruct (k =? Z.of_nat n) eqn:Ek.
      * replace (k <? Z.of_nat (S n)) with true by lia.
        replace (Z.of_nat bit + k) with (Z.of_nat (bit + n)) by lia. rewrite E. reflexivity.
      * rewrite IH by lia.
        replace (k <? Z.of_nat (S n)) with (k <? Z.of_nat n) by lia. reflexivity.
    + rewrite IH by lia. destruct (k =? Z.of_nat n) eqn:Ek.
      * replace (k <? Z.of_nat n) with false by lia.
        replace (Z.of_nat bit + k) with (Z.of_nat (bit + n)) by lia. rewrite E. rewrite !andb_false_r. reflexivity.
      * replace (k <? Z.of_nat (S n)) with (k <? Z.of_nat n) by lia. reflexivity.
Qed.

Lemma split_one_range inp bit n : 0 <= split_one inp bit n < 2 ^ Z.of_nat n.
Proof.
  assert (Hhi : forall k, Z.of_nat n <= k -> Z.testbit (split_one inp bit n) k = false).
  { intros k Hk. rewrite split_one_spec by lia. replace (k <? Z.of_nat n) with false by lia. reflexivity. }
  assert (Hn : 0 <= split_one inp bit n).
  { apply Z.bits_iff_nonneg_ex. exists (Z.of_nat n). intros m Hm. apply Hhi. lia. }
  split; [exact Hn|]. apply lt_pow2_of_bits; [lia | exact Hhi].
Qed.

Lemma split_one_wires inp bit n : wires (split_one inp bit n) n = wires (Z.shiftr inp (Z.of_nat bit)) n.
Proof.
  apply wires_ext. intros k Hk. rewrite split_one_spec, Z.shiftr_spec by lia.
  replace (k <? Z.of_nat n) with true by lia. simpl. f_equal. lia.
Qed.

Lemma split_from_nth : forall io inp bit j a,
  nth_error io j = Some a ->
  nth_error (split_from io inp bit) j
  = Some (split_one inp (bit + offset_of io j) (i_bits (a_type a))).
Proof.
  induction io as [|c io IH]; intros inp bit j a H; [destruct j; discriminate|].
  destruct j as [|j]; simpl in *.
  - inversion H; subst. rewrite Nat.add_0_r. reflexivity.
  - rewrite (IH inp _ j a H). f_equal. f_equal. lia.
Qed.

(* every argument list (ill-formed ones included), every value (negative ones
   included): part j of Split is a non-negative number below 2^Bits_j whose
   wires are the wires of the value at member j's offset *)
Lemma split_member io inp j a :
  nth_error io j = Some a ->
  exists x, nth_error (split io inp) j = Some x /\
    0 <= x < 2 ^ Z.of_nat (i_bits (a_type a)) /\
    wires x (i_bits (a_type a)) = wires (Z.shiftr inp (Z.of_nat (offset_of io j))) (i_bits (a_type a)).
Proof.
  intros H. unfold split. rewrite (split_from_nth io inp 0 j a H). eexists. split; [reflexivity|].
  split; [apply split_one_range | apply split_one_wires].
Qed.

Lemma segment_wires r a n c : segment (wires r (a + n + c)) a n = wires (Z.shiftr r (Z.of_nat a)) n.
Proof.
  unfold segment. rewrite <- Nat.add_assoc, wires_app, skipn_app_exact by apply wires_length.
  rewrite wires_app. apply firstn_app_exact, wires_length.
Qed.

Lemma total_bits_split : forall cs j a,
  nth_error cs j = Some a ->
  exists c, total_bits cs = (offset_of cs j + i_bits (a_type a) + c)%nat.
Proof.
  induction cs as [|c0 cs IH]; intros j a H; [destruct j; discriminate|].
  destruct j as [|j]; simpl in *.
  - inversion H; subst. exists (total_bits cs). lia.
  - destruct (IH j a H) as (c & E). exists c. rewrite E. lia.
Qed.

(* Split undoes the packing of Parse: for every compound argument whatsoever,
   part j of Split (Parse inputs) has the wires of Parse on member j alone *)
Lemma parse_split_roundtrip t c cs ins r j a s :
  parse (IOArg t (c :: cs)) ins = Ok r ->
  nth_error (c :: cs) j = Some a -> nth_error ins j = Some s ->
  exists x p, parse a [s] = Ok x /\ nth_error (split (c :: cs) r) j = Some p /\
    0 <= p < 2 ^ Z.of_nat (i_bits (a_type a)) /\
    wires p (i_bits (a_type a)) = wires x (i_bits (a_type a)).
Proof.
  intros H Ha Hs.
  destruct (parse_member_independent _ _ _ _ _ _ _ _ H Ha Hs) as (x & Hx & Hseg).
  destruct (split_member (c :: cs) r j a Ha) as (p & Hp & Hr & Hw).
  exists x, p. split; [exact Hx|]. split; [exact Hp|]. split; [exact Hr|].
  rewrite Hw, <- Hseg. destruct (total_bits_split _ _ _ Ha) as (c0 & E). rewrite E.
  symmetry. apply segment_wires.
Qed.

Fixpoint ioarg_ind' (P : ioarg -> Prop)
         (H : forall t cs, Forall P cs -> P (IOArg t cs)) (a : ioarg) {struct a} : P a :=
  match a with
  | IOArg t cs =>
      H t cs ((fix go (l : list ioarg) : Forall P l :=
                 match l with
                 | [] => Forall_nil P
                 | x :: l' => Forall_cons x (ioarg_ind' P H x) (go l')
                 end) cs)
  end.

Lemma keeps_below_refl r ofs : keeps_below r r ofs.
Proof. intros k _. reflexivity. Qed.

Lemma keeps_below_trans r1 r2 r3 a b :
  (a <= b)%nat -> keeps_below r1 r2 a -> keeps_below r2 r3 b -> keeps_below r1 r3 a.
Proof. intros Hab H12 H23 k Hk. rewrite H23 by lia. apply H12, Hk. Qed.

Section KeepsBelow.
  Variable SI : info -> Z -> Z -> nat -> Z.
  Hypothesis SI_keeps : forall t result z ofs, keeps_below result (SI t result z ofs) ofs.

  Lemma set_bytes_keeps el : forall l result ofs r' ofs',
    set_bytes SI el result l ofs = (r', ofs') -> (ofs <= ofs')%nat /\ keeps_below result r' ofs.
  Proof.
    induction l as [|x l IH]; intros result ofs r' ofs' H; simpl in H.
    - inversion H; subst. split; [lia | apply keeps_below_refl].
    - apply IH in H. destruct H as (Hle & Hk). split; [lia|].
      exact (keeps_below_trans _ _ _ _ _ (Nat.le_add_r _ _) (SI_keeps _ _ _ _) Hk).
  Qed.

  Lemma set_array_keeps t result v ofs c r o :
    set_array SI t result v ofs = Ok (c, r, o) -> (ofs <= o)%nat /\ keeps_below result r ofs.
  Proof.
    unfold set_array. destruct (i_elem t) as [el|]; [|discriminate].
    destruct (is_intkind el); [|discriminate]. destruct v; try discriminate.
    - intros H; inversion H; subst. split; [lia | apply keeps_below_refl].
    - destruct (i_bits el <? 8)%nat; [discriminate|].
      destruct (set_bytes SI el result l ofs) as [r1 o1] eqn:E.
      intros H; inversion H; subst. exact (set_bytes_keeps _ _ _ _ _ _ E).
  Qed.

  Lemma set_leaf_keeps t result v ofs r' ofs' :
    set_leaf SI t result v ofs = Ok (r', ofs') -> (ofs <= ofs')%nat /\ keeps_below result r' ofs.
  Proof.
    unfold set_leaf. destruct (is_intkind t).
    { unfold set_int. destruct v; try discriminate. intros H; inversion H; subst.
      split; [lia | apply SI_keeps]. }
    destruct (kind_is t types_TBool).
    { unfold set_bool. destruct v; try discriminate. intros H; inversion H; subst. split; [lia|].
      rewrite set_bit_write. apply write_bits_keeps. }
    destruct (kind_is t types_TArray).
    { destruct (Nat.eqb (i_asize t) 0).
      - intros H; inversion H; subst. split; [lia | apply keeps_below_refl].
      - destruct (set_array SI t result v ofs) as [[[c r] o]| |] eqn:E; try discriminate.
        destruct (i_asize t <? c)%nat; [discriminate|]. destruct (i_elem t); [|discriminate].
        intros H; inversion H; subst. destruct (set_array_keeps _ _ _ _ _ _ _ E) as (_ & Hk). split; [lia | exact Hk]. }
    destruct (kind_is t types_TSlice); [|discriminate].
    destruct (set_array SI t result v ofs) as [[[c r] o]| |] eqn:E; try discriminate.
    destruct (i_asize t <? c)%nat; [discriminate|].
    intros H; inversion H; subst. exact (set_array_keeps _ _ _ _ _ _ _ E).
  Qed.

  Lemma set_members_keeps (S : ioarg -> Z -> list gin -> nat -> res (Z * nat)) : forall cs,
    Forall (fun a => forall result inputs ofs r' ofs',
              S a result inputs ofs = Ok (r', ofs') -> (ofs <= ofs')%nat /\ keeps_below result r' ofs) cs ->
    forall ins result ofs r' ofs',
      set_members S cs ins result ofs = Ok (r', ofs') -> (ofs <= ofs')%nat /\ keeps_below result r' ofs.
  Proof.
    induction cs as [|c cs IH]; intros HF ins result ofs r' ofs' H; simpl in H.
    - inversion H; subst. split; [lia | apply keeps_below_refl].
    - inversion HF as [|? ? Hc HF']; subst. destruct ins as [|v ins]; [discriminate|].
      destruct (S c result [v] ofs) as [[r1 o1]| |] eqn:E; try discriminate.
      destruct (Hc _ _ _ _ _ E) as (Hle1 & Hk1).
      destruct (IH HF' _ _ _ _ _ H) as (Hle2 & Hk2). split; [lia|].
      exact (keeps_below_trans _ _ _ _ _ Hle1 Hk1 Hk2).
  Qed.

  (* every argument (nested or ill-formed included), every input list, every
     starting offset: Set only writes at or above its offset: whatever comes
     later never disturbs the wires of what was written before *)
  Lemma set_at_keeps : forall io result inputs ofs r' ofs',
    set_at SI io result inputs ofs = Ok (r', ofs') ->
    (ofs <= ofs')%nat /\ keeps_below result r' ofs.
  Proof.
    induction io as [t cs IH] using ioarg_ind'. intros result inputs ofs r' ofs' H.
    destruct cs as [|c cs].
    - cbn [set_at] in H. destruct inputs as [|v [|]]; try discriminate.
      eapply set_leaf_keeps; eauto.
    - cbn [set_at] in H. destruct (negb (Nat.eqb (length inputs) (length (c :: cs)))); [discriminate|].
      eapply (set_members_keeps (fun a => set_at SI a)); eauto.
  Qed.
End KeepsBelow.

Lemma set_at_fixed_keeps : forall io result inputs ofs r' ofs',
  set_at set_int_fixed io result inputs ofs = Ok (r', ofs') ->
  (ofs <= ofs')%nat /\ keeps_below result r' ofs.
Proof. apply set_at_keeps. intros t result z ofs. rewrite set_int_fixed_write. apply write_bits_keeps. Qed.

Definition plain_spelling (s : list N) (z : Z) : Prop :=
  set_string s = Some z /\ 0 <= z /\
  mem_str s bool_false_spellings = false /\ mem_str s bool_true_spellings = false /\
  match_hex_input s = None /\ has_prefix s_0x s = false.

Definition uint_wires (zs : list Z) (szs : list nat) : list bool :=
  concat (map (fun zn => wires (fst zn) (snd zn)) (combine zs szs)).

Lemma resize_all_uints : forall (ss : list (list N)) szs, length ss = length szs ->
  resize_all (map (fun _ => TyUint 0) ss) szs = map TyUint szs.
Proof.
  induction ss as [|s ss IH]; intros [|n szs] H; simpl in *; try discriminate; [reflexivity|].
  f_equal. apply IH. lia.
Qed.

Lemma parse_members_uints : forall ss zs, Forall2 plain_spelling ss zs ->
  forall result offset,
  exists szs r,
    Forall2 (fun s n => input_size s = Ok n) ss szs /\
    Forall2 (fun z n => z < 2 ^ Z.of_nat n) zs szs /\
    parse_members (fun a => parse a) (map leaf_arg (map TyUint szs)) ss result offset = Ok r /\
    wires r (offset + sum_bits (map TyUint szs)) = wires result offset ++ uint_wires zs szs.
Proof.
  induction 1 as [|s z ss zs (Hs & Hz & Hf & Ht & Hm & Hp) HF IH]; intros result offset.
  - exists [], result. repeat split; try constructor. simpl. rewrite Nat.add_0_r.
    unfold uint_wires. simpl. rewrite app_nil_r. reflexivity.
  - destruct (input_size_unsigned s z Hs Hf Ht Hm Hp) as (n & Hn & Hlt).
    destruct (IH (copy_bits result offset z n) (offset + n)%nat) as (szs & r & H1 & H2 & H3 & H4).
    exists (n :: szs), r. split; [constructor; assumption|]. split; [constructor; assumption|].
    cbn [map parse_members]. rewrite parse_uint, Hs. cbn [a_type leaf_arg info_of i_bits].
    split; [exact H3|]. simpl sum_bits. rewrite Nat.add_assoc, H4, wires_copy_bits.
    unfold uint_wires. simpl. rewrite app_assoc. reflexivity.
Qed.

(* every non-empty list of spellings of non-negative integers: InputSizes,
   InstantiateWithSizes of the struct template with one unsized uint member per
   input, and Parse of the instantiated compound argument succeed; member i has
   the width inferred from input i, holds its value, and the wires are the
   values in declaration order *)
Lemma unsized_uint_struct_lossless s0 ss z0 zs :
  Forall2 plain_spelling (s0 :: ss) (z0 :: zs) ->
  exists szs t r,
    input_sizes (s0 :: ss) = Ok szs /\ length szs = length (s0 :: ss) /\
    instantiate (template_of (TyStruct (map (fun _ => TyUint 0) (s0 :: ss)))) szs = Ok t /\
    t = Info types_TStruct (sum_bits (map TyUint szs)) 0 None (map info_of (map TyUint szs)) true /\
    parse (IOArg t (map leaf_arg (map TyUint szs))) (s0 :: ss) = Ok r /\
    wires r (sum_bits (map TyUint szs)) = uint_wires (z0 :: zs) szs /\
    Forall2 (fun z n => z < 2 ^ Z.of_nat n) (z0 :: zs) szs.
Proof.
  intros HF. destruct (parse_members_uints _ _ HF 0 0%nat) as (szs & r & H1 & H2 & H3 & H4).
  assert (Hl : length (s0 :: ss) = length szs) by (eapply Forall2_len; eauto).
  exists szs. eexists. exists r.
  split; [apply input_sizes_iff; exact H1|]. split; [symmetry; exact Hl|].
  split.
  { rewrite instantiate_flat_struct.
    - rewrite (resize_all_uints (s0 :: ss) szs Hl). reflexivity.
    - simpl. discriminate.
    - apply Forall_map, Forall_forall. intros s _. exact I.
    - rewrite map_length. lia. }
  split; [reflexivity|].
  destruct szs as [|n szs]; [simpl in Hl; discriminate|].
  split; [|split; [exact H4 | exact H2]].
  cbn [map] in *. rewrite parse_compound, Hl. cbn [length]. rewrite !map_length, Nat.eqb_refl. exact H3.
Qed.

Example ex_plain_spellings :
  Forall2 plain_spelling [[50;53;53]; [48;98;49;48;49]; [48;111;55]]%N [255; 5; 7].
Proof. repeat constructor; try reflexivity; lia. Qed.

Example ex_flat_template :
  Forall leaf_template_ok [TyBool; TyInt 0; TyUint 0; TySlice (TyUint 8) 0; TyArray (TyInt 16) 0].
Proof. repeat constructor. Qed.

(* the value 0: one wire, from the Go value and from the text alike *)
Example sizes_of_zero :
  sizes [GInt 0] = Ok [1%nat] /\ input_sizes [s_0] = Ok [1%nat] /\ bit_len_now 0 = 1%nat /\
  instantiate (template_of (TyUint 0)) [1%nat] = Ok (info_of (TyUint 1)) /\
  (exists n, sizes [GInt 0] = Ok [n] /\ input_sizes [s_0] = Ok [n] /\ (0 < n)%nat).
Proof.
  repeat split; try reflexivity.
  apply (sizes_eq_input_sizes s_0 0); try reflexivity; try lia.
Qed.

(* the case of seeded defect C13-6: the text "-5" of a single int32 argument is
   the NEGATIVE big.Int -5 (BitLen 3); over the 32 wires of the argument
   (Bit(i), i < Type.Bits, two's complement) it has the bits of 0xfffffffb,
   exactly what Set(int32(-5)) writes; a consumer that stops at BitLen reads 3 *)
Example ex_negative_text_full_width :
  parse (leaf_arg (TyInt 32)) [[45; 53]%N] = Ok (-5) /\
  set (leaf_arg (TyInt 32)) [GInt (-5)] = Ok 4294967291 /\
  wires (-5) 32 = wires 4294967291 32 /\
  from_bits (wires (-5) 32) = 4294967291 /\
  from_bits (wires (-5) (bit_len (-5))) = 3.
Proof. repeat split; vm_compute; reflexivity. Qed.

(* every previous content of the destination (nil, zero, all ones, an earlier
   encoding), every argument (ill-formed included), every input list: Set on
   the reused destination is Set on a fresh one — value, error or panic alike *)
Lemma set_into_ignores_prev SI prev io inputs : set_into_gen SI prev io inputs = set_gen SI io inputs.
Proof. destruct prev; reflexivity. Qed.

Lemma set_into_now_ignores_prev prev io inputs : set_into prev io inputs = set io inputs.
Proof. apply set_into_ignores_prev. Qed.

(* the history of the seeded defect C13-7: uint16, [4]byte; first the full array
   a1 a2 a3 44, then the short array [44] on the same destination *)
Example ex_set_history :
  let arg := IOArg (info_of (TyStruct [TyUint 16; TyArray (TyUint 8) 4]))
                   (map leaf_arg [TyUint 16; TyArray (TyUint 8) 4]) in
  set_into None arg [GInt 45107; GBytes [161; 162; 163; 68]%N] = Ok 75469598863411 /\
  set_into (Some 75469598863411) arg [GInt 45107; GBytes [68]%N] = Ok 4501555 /\
  set arg [GInt 45107; GBytes [68]%N] = Ok 4501555.
Proof. repeat split; vm_compute; reflexivity. Qed.

(* the string constants of the model are the Go literals *)
Module StrConst.
Import String Ascii.
Definition str (s : string) : list N := map N_of_ascii (list_ascii_of_string s).

Lemma string_constants :
  s_0 = str "0" /\ s_1 = str "1" /\ s_f = str "f" /\ s_t = str "t" /\
  s_false = str "false" /\ s_true = str "true" /\ s_0x = str "0x" /\ s_underscore = str "_".
Proof. repeat split; reflexivity. Qed.
End StrConst.
