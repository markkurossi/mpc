(* MarshalRoundTrip.v — round-trip theorems for IO/Marshal.v (property C14):
   decimal and big-endian codecs, type text, MPCLC, Bristol. *)
From Coq Require Import ZArith NArith List Bool Lia MSets.MSetPositive.
From Mpc Require Import Gen.Consts Circuit.Circuit IO.Marshal IO.MarshalProof.
Import ListNotations.
Open Scope N_scope.

Lemma of_be32_be32 n : n < 4294967296 -> of_be32 (be32 n) = n.
Proof.
  intros H. unfold be32, of_be32.
  replace (n / 65536) with (n / 256 / 256) by (rewrite N.div_div by lia; reflexivity).
  replace (n / 16777216) with (n / 256 / 256 / 256) by (rewrite !N.div_div by lia; reflexivity).
  pose proof (N.div_mod n 256 ltac:(lia)) as E0.
  pose proof (N.div_mod (n / 256) 256 ltac:(lia)) as E1.
  pose proof (N.div_mod (n / 256 / 256) 256 ltac:(lia)) as E2.
  rewrite (N.mod_small (n / 256 / 256 / 256)) by (repeat (apply N.div_lt_upper_bound; [lia|]); lia).
  lia.
Qed.

Lemma be32_length n : length (be32 n) = 4%nat.
Proof. reflexivity. Qed.

Lemma digit_is_digit d : d < 10 -> is_digit (48 + d) = true.
Proof. intros H. unfold is_digit. apply andb_true_iff. split; apply N.leb_le; lia. Qed.

Lemma dec_aux_spec fuel : forall n acc, n < 2 ^ N.of_nat fuel -> (1 <= fuel)%nat ->
  exists ds, dec_aux fuel n acc = ds ++ acc /\ ds <> [] /\ forallb is_digit ds = true /\ digits_val ds = n.
Proof.
  induction fuel as [|f IH]; intros n acc Hn Hf; [lia|]. cbn [dec_aux].
  pose proof (N.div_mod n 10 ltac:(lia)) as Hdm. pose proof (N.mod_lt n 10 ltac:(lia)) as Hd.
  remember (n / 10) as q eqn:Eq. remember (n mod 10) as m eqn:Em. clear Eq Em.
  destruct (q =? 0) eqn:E.
  - apply N.eqb_eq in E. exists [48 + m]. split; [reflexivity|]. split; [discriminate|].
    split; [cbn [forallb]; rewrite digit_is_digit by exact Hd; reflexivity|].
    unfold digits_val. cbn [fold_left]. lia.
  - apply N.eqb_neq in E. rewrite Nat2N.inj_succ, N.pow_succ_r' in Hn.
    destruct (IH q ((48 + m) :: acc)) as (ds & -> & Hne & Hdig & Hv); [lia| |].
    { destruct f; [|lia]. change (2 ^ N.of_nat 0) with 1 in Hn. lia. }
    exists (ds ++ [48 + m]). rewrite <- app_assoc. split; [reflexivity|].
    split; [destruct ds; discriminate|].
    split; [rewrite forallb_app, Hdig; cbn [forallb]; rewrite digit_is_digit by exact Hd; reflexivity|].
    unfold digits_val in *. rewrite fold_left_app, Hv. cbn [fold_left]. lia.
Qed.

Lemma dec_N_spec n : forallb is_digit (dec_N n) = true /\ dec_N n <> [] /\ digits_val (dec_N n) = n.
Proof.
  unfold dec_N. destruct (dec_aux_spec (S (N.to_nat (N.size n))) n []) as (ds & -> & H2 & H1 & H3); [|lia|].
  - rewrite Nat2N.inj_succ, N2Nat.id, N.pow_succ_r'. pose proof (N.size_gt n). lia.
  - rewrite app_nil_r. auto.
Qed.

Lemma all_digits_dec n : all_digits (dec_N n) = true.
Proof.
  destruct (dec_N_spec n) as (H1 & H2 & _). unfold all_digits. destruct (dec_N n); [congruence|exact H1].
Qed.

Lemma dec_Z_nonneg z : (0 <= z)%Z -> dec_Z z = dec_N (Z.to_N z).
Proof. intros H. unfold dec_Z. destruct (z <? 0)%Z eqn:E; [apply Z.ltb_lt in E; lia|reflexivity]. Qed.

Lemma parse_uint32_dec n : n < 4294967296 -> parse_uint32 (dec_N n) = Some n.
Proof.
  intros H. unfold parse_uint32. rewrite all_digits_dec. destruct (dec_N_spec n) as (_ & _ & ->).
  apply N.ltb_lt in H. rewrite H. reflexivity.
Qed.

Lemma parse_int_digits lo hi l : all_digits l = true ->
  parse_int lo hi l =
  let v := Z.of_N (digits_val l) in if ((lo <=? v) && (v <=? hi))%Z then Some v else None.
Proof.
  intros H. unfold parse_int. destruct l as [|c t]; [discriminate|].
  assert (Hc : is_digit c = true) by (cbn in H; apply andb_true_iff in H; tauto).
  unfold is_digit in Hc. apply andb_true_iff in Hc. destruct Hc as [Hc1 Hc2]. apply N.leb_le in Hc1, Hc2.
  destruct (c =? 43) eqn:E1; [apply N.eqb_eq in E1; lia|].
  destruct (c =? 45) eqn:E2; [apply N.eqb_eq in E2; lia|].
  rewrite H. reflexivity.
Qed.

Lemma parse_int_dec lo hi n : (lo <= Z.of_N n <= hi)%Z -> parse_int lo hi (dec_N n) = Some (Z.of_N n).
Proof.
  intros H. rewrite parse_int_digits by apply all_digits_dec.
  destruct (dec_N_spec n) as (_ & _ & ->). cbv zeta.
  assert (((lo <=? Z.of_N n) && (Z.of_N n <=? hi))%Z = true) as ->
    by (apply andb_true_iff; split; apply Z.leb_le; lia).
  reflexivity.
Qed.

Definition base_ty (t : Z) : Prop :=
  t = types_TBool \/ t = types_TInt \/ t = types_TUint \/ t = types_TString \/ t = types_TStruct.

(* the types whose text Marshal emits for compiled circuits and types.Parse reads back:
   concrete bool/int/uint/string/struct with 0 <= Bits < 2^31, arrays [N]T with 0 <= N < 2^31
   and slices []T of such types (no pointers, floats, non-concrete types) *)
Inductive printable : info -> Prop :=
| pr_base t c b mb st el az :
    base_ty t -> concrete (mkInfo t c b mb st el az) = true -> (0 <= b < 2147483648)%Z ->
    printable (mkInfo t c b mb st el az)
| pr_array c b mb st e az :
    printable e -> (0 <= az < 2147483648)%Z -> printable (mkInfo types_TArray c b mb st (Some e) az)
| pr_slice c b mb st e az :
    printable e -> printable (mkInfo types_TSlice c b mb st (Some e) az).

(* what types.Parse returns for the text of a type: IsConcrete, MinBits = Bits, no struct
   fields; array Bits recomputed (int32 product); slice Bits and ArraySize 0 *)
Fixpoint strip (i : info) : info :=
  match i with
  | mkInfo t c b mb st el az =>
      if (t =? types_TArray)%Z then
        match el with
        | Some e => let e' := strip e in
                    mkInfo types_TArray true (wrap32 (az * i_bits e')) (wrap32 (az * i_bits e')) [] (Some e') az
        | None => i
        end
      else if (t =? types_TSlice)%Z then
        match el with
        | Some e => mkInfo types_TSlice true 0 0 [] (Some (strip e)) 0
        | None => i
        end
      else mkInfo t true b b [] None 0
  end.

Lemma list_eqb_eq a : forall b, list_eqb a b = true <-> a = b.
Proof.
  unfold list_eqb. induction a as [|x a IH]; intros [|y b]; simpl; split; intros H;
    try reflexivity; try discriminate.
  - apply andb_true_iff in H. destruct H as [Hl Hc]. apply andb_true_iff in Hc. destruct Hc as [Hx Hc].
    apply N.eqb_eq in Hx. subst y. f_equal. apply IH. apply andb_true_iff. split; assumption.
  - inversion H; subst. apply andb_true_iff.
    assert (E : list_eqb b b = true) by (apply IH; reflexivity).
    unfold list_eqb in E. apply andb_true_iff in E. destruct E as [El Ec].
    split; [exact El|]. apply andb_true_iff. split; [apply N.eqb_refl | exact Ec].
Qed.

Lemma list_eqb_len a b : length a <> length b -> list_eqb a b = false.
Proof. intros H. unfold list_eqb. apply Nat.eqb_neq in H. rewrite H. reflexivity. Qed.

Lemma list_eqb_head x y l1 l2 : x <> y -> list_eqb (x :: l1) (y :: l2) = false.
Proof.
  intros H. unfold list_eqb. simpl. apply N.eqb_neq in H. rewrite H. simpl. apply andb_false_r.
Qed.

Definition nonl (l : list byte) : Prop := forallb (fun x => negb (x =? 10)) l = true.

Lemma split_nl_nonl l : nonl l -> split_nl l = [l].
Proof.
  unfold nonl. induction l as [|x t IH]; simpl; intros H; [reflexivity|].
  apply andb_true_iff in H. destruct H as [Hx Ht]. rewrite (IH Ht).
  apply negb_true_iff in Hx. rewrite Hx. reflexivity.
Qed.

Lemma span_app p a r :
  forallb p a = true -> match r with [] => True | x :: _ => p x = false end -> span p (a ++ r) = (a, r).
Proof.
  induction a as [|x t IH]; simpl; intros Ha Hr.
  - destruct r as [|y r']; [reflexivity|]. simpl. rewrite Hr. reflexivity.
  - apply andb_true_iff in Ha. destruct Ha as [Hx Ht]. rewrite Hx, (IH Ht Hr). reflexivity.
Qed.

Lemma span_all p a : forallb p a = true -> span p a = (a, []).
Proof. intros H. rewrite <- (app_nil_r a) at 1. apply span_app; auto. Qed.

Lemma digit_not_alpha x : is_digit x = true -> is_alpha x = false.
Proof.
  unfold is_digit, is_alpha. intros H. apply andb_true_iff in H. destruct H as [H1 H2].
  apply N.leb_le in H1, H2. apply orb_false_iff. split; apply andb_false_iff.
  - left. apply N.leb_gt. lia.
  - left. apply N.leb_gt. lia.
Qed.

Lemma digits_nonl l : forallb is_digit l = true -> nonl l.
Proof.
  unfold nonl. induction l as [|x t IH]; simpl; intros H; [reflexivity|].
  apply andb_true_iff in H. destruct H as [Hx Ht]. rewrite (IH Ht), andb_true_r.
  unfold is_digit in Hx. apply andb_true_iff in Hx. destruct Hx as [H1 _]. apply N.leb_le in H1.
  apply negb_true_iff, N.eqb_neq. lia.
Qed.

Lemma nonl_app a b : nonl a -> nonl b -> nonl (a ++ b).
Proof. unfold nonl. intros. rewrite forallb_app. apply andb_true_iff; auto. Qed.

Lemma dec_Z_digits z : (0 <= z)%Z -> forallb is_digit (dec_Z z) = true /\ dec_Z z <> [].
Proof. intros Hz. rewrite dec_Z_nonneg by exact Hz. destruct (dec_N_spec (Z.to_N z)) as (H1 & H2 & _). auto. Qed.

Lemma parse_int_dec_Z lo hi z : (0 <= z)%Z -> (lo <= z <= hi)%Z -> parse_int lo hi (dec_Z z) = Some z.
Proof.
  intros H0 H. rewrite dec_Z_nonneg by exact H0. rewrite parse_int_dec; rewrite Z2N.id by exact H0; auto.
Qed.

Lemma info_string_array c b mb st e az :
  info_string (mkInfo types_TArray c b mb st (Some e) az) = [91] ++ dec_Z az ++ [93] ++ info_string e.
Proof. reflexivity. Qed.

Lemma info_string_slice c b mb st e az :
  info_string (mkInfo types_TSlice c b mb st (Some e) az) = [91; 93] ++ info_string e.
Proof. reflexivity. Qed.

Lemma info_string_base t c b mb st el az : base_ty t -> concrete (mkInfo t c b mb st el az) = true ->
  info_string (mkInfo t c b mb st el az) = type_string t ++ dec_Z b.
Proof. intros [-> | [-> | [-> | [-> | ->]]]] Hc; cbn [info_string]; rewrite Hc; reflexivity. Qed.

Lemma strip_array c b mb st e az :
  strip (mkInfo types_TArray c b mb st (Some e) az) =
  mkInfo types_TArray true (wrap32 (az * i_bits (strip e))) (wrap32 (az * i_bits (strip e))) [] (Some (strip e)) az.
Proof. reflexivity. Qed.

Lemma strip_slice c b mb st e az :
  strip (mkInfo types_TSlice c b mb st (Some e) az) = mkInfo types_TSlice true 0 0 [] (Some (strip e)) 0.
Proof. reflexivity. Qed.

Lemma strip_base t c b mb st el az : base_ty t -> strip (mkInfo t c b mb st el az) = mkInfo t true b b [] None 0.
Proof. intros [-> | [-> | [-> | [-> | ->]]]]; reflexivity. Qed.

(* the five base type names: alphabetic, known to [sized_type], and once digits follow
   none of the literal names bool/byte/rune that types.Parse tests first *)
Lemma names_alpha t : base_ty t ->
  forallb is_alpha (type_string t) = true /\ nonl (type_string t) /\ type_string t <> [] /\
  sized_type (type_string t) = Some t /\
  (forall d ds, is_digit d = true ->
     list_eqb (type_string t ++ d :: ds) [98] || list_eqb (type_string t ++ d :: ds) s_bool = false /\
     list_eqb (type_string t ++ d :: ds) s_byte = false /\
     list_eqb (type_string t ++ d :: ds) s_rune = false).
Proof.
  intros [-> | [-> | [-> | [-> | ->]]]]; (split; [reflexivity|]); (split; [reflexivity|]);
    (split; [discriminate|]); (split; [reflexivity|]); intros d ds Hd.
  all: repeat split; try (apply orb_false_iff; split);
       first [ reflexivity | apply list_eqb_head; discriminate | apply list_eqb_len; simpl; lia ].
Qed.

Lemma info_string_props t : printable t -> nonl (info_string t) /\ info_string t <> [].
Proof.
  induction 1 as [t c b mb st el az Hb Hc Hr | c b mb st e az He IH Hr | c b mb st e az He IH].
  - destruct (dec_Z_digits b ltac:(lia)) as (Hd & Hne).
    destruct (names_alpha t Hb) as (_ & Hnl & _).
    rewrite info_string_base by assumption. split.
    + apply nonl_app; [exact Hnl|apply digits_nonl; exact Hd].
    + destruct (dec_Z b); [congruence|]. destruct (type_string t); discriminate.
  - destruct IH as [IH1 IH2]. destruct (dec_Z_digits az ltac:(lia)) as (Hd & _).
    rewrite info_string_array. split; [|discriminate].
    apply nonl_app; [reflexivity|]. apply nonl_app; [apply digits_nonl; auto|]. apply nonl_app; [reflexivity|auto].
  - destruct IH as [IH1 IH2]. rewrite info_string_slice.
    split; [|discriminate]. apply nonl_app; [reflexivity|auto].
Qed.

(* a text that starts with '[': only the array / slice expression can match *)
Lemma types_parse_bracket f ds m : forallb is_digit ds = true -> nonl m -> m <> [] ->
  types_parse (S f) (91 :: ds ++ 93 :: m) =
  do el <- types_parse f m;
  match ds with
  | [] => Ok (mkInfo types_TSlice true 0 0 [] (Some el) 0)
  | _ => match parse_int32 ds with
         | None => Err
         | Some n => let b := wrap32 (n * i_bits el) in Ok (mkInfo types_TArray true b b [] (Some el) n)
         end
  end.
Proof.
  intros Hd Hnl Hne. cbn [types_parse].
  unfold s_bool, s_byte, s_rune. rewrite !list_eqb_head by discriminate. cbn [orb].
  rewrite split_nl_nonl.
  2:{ change (nonl ([91] ++ ds ++ [93] ++ m)).
      apply nonl_app; [reflexivity|]. apply nonl_app; [apply digits_nonl; exact Hd|]. apply nonl_app; [reflexivity|exact Hnl]. }
  cbn [first_some]. change (match_sized (91 :: (ds ++ 93 :: m))) with (@None (list byte * list byte)).
  unfold match_arr. change (91 =? 91) with true. cbv iota.
  rewrite (span_app is_digit ds (93 :: m) Hd eq_refl).
  destruct m as [|x m2]; [congruence|]. change (93 =? 93) with true. cbv iota. reflexivity.
Qed.

Lemma types_parse_roundtrip t : printable t ->
  forall fuel, (length (info_string t) < fuel)%nat -> types_parse fuel (info_string t) = Ok (strip t).
Proof.
  induction 1 as [t c b mb st el az Hb Hc Hr | c b mb st e az He IH Hr | c b mb st e az He IH];
    intros fuel Hf; (destruct fuel as [|f]; [lia|]).
  - destruct (dec_Z_digits b ltac:(lia)) as (Hd & Hne).
    pose proof (parse_int_dec_Z (-2147483648) 2147483647 b ltac:(lia) ltac:(lia)) as Hp.
    destruct (names_alpha t Hb) as (Ha & Hnl & Hnn & Hsz & Hneq).
    rewrite info_string_base, strip_base by assumption.
    destruct (dec_Z b) as [|d ds] eqn:Ed; [congruence|].
    assert (Hdd : is_digit d = true) by (simpl in Hd; apply andb_true_iff in Hd; tauto).
    destruct (Hneq d ds Hdd) as (E1 & E2 & E3).
    cbn [types_parse]. rewrite E1, E2, E3.
    rewrite split_nl_nonl by (apply nonl_app; [exact Hnl|apply digits_nonl; exact Hd]).
    cbn [first_some]. unfold match_sized.
    rewrite (span_app is_alpha (type_string t) (d :: ds) Ha (digit_not_alpha d Hdd)).
    rewrite (span_all is_digit (d :: ds) Hd).
    destruct (type_string t) as [|x xs] eqn:Ets; [congruence|].
    rewrite Hsz. unfold parse_int32. rewrite Hp. reflexivity.
  - destruct (dec_Z_digits az ltac:(lia)) as (Hd & Hne).
    pose proof (parse_int_dec_Z (-2147483648) 2147483647 az ltac:(lia) ltac:(lia)) as Hp.
    destruct (info_string_props e He) as [Hnl Hnn].
    rewrite info_string_array in *. rewrite strip_array. cbn [app] in *.
    rewrite types_parse_bracket by assumption.
    rewrite IH. 2:{ cbn [length] in Hf. rewrite app_length in Hf. cbn [length] in Hf. lia. }
    cbn [bind]. destruct (dec_Z az) as [|d0 ds0] eqn:Ed; [congruence|].
    unfold parse_int32. rewrite Hp. reflexivity.
  - destruct (info_string_props e He) as [Hnl Hnn].
    rewrite info_string_slice in *. rewrite strip_slice.
    change ([91; 93] ++ info_string e) with (91 :: [] ++ 93 :: info_string e) in *.
    rewrite (types_parse_bracket f [] (info_string e) eq_refl Hnl Hnn).
    rewrite IH. 2:{ cbn [app length] in Hf. lia. }
    reflexivity.
Qed.

Lemma strip_string t : printable t -> info_string (strip t) = info_string t.
Proof.
  induction 1 as [t c b mb st el az Hb Hc Hr | c b mb st e az He IH Hr | c b mb st e az He IH].
  - rewrite strip_base by exact Hb. rewrite !info_string_base; auto.
    destruct Hb as [-> | [-> | [-> | [-> | ->]]]]; reflexivity.
  - rewrite strip_array, !info_string_array, IH. reflexivity.
  - rewrite strip_slice, !info_string_slice, IH. reflexivity.
Qed.

Theorem type_roundtrip t : printable t ->
  Parse (info_string t) = Ok (strip t) /\ info_string (strip t) = info_string t.
Proof.
  intros H. split; [|apply strip_string; auto]. unfold Parse. apply types_parse_roundtrip; auto.
Qed.

Fixpoint norm_io (a : ioarg) : ioarg :=
  match a with
  | mkIO n t comp => mkIO n (set_bits (strip t) (i_bits t)) (map norm_io comp)
  end.
Definition norm_gate (g : gateN) : gateN :=
  match g_op g with INV => mkG INV (g_in0 g) 0 (g_out g) | _ => g end.
(* what survives a round trip through the MPCLC format: everything except IsConcrete/MinBits/
   struct field detail/slice ArraySize of the types (see [strip]) and Input1 of INV gates *)
Definition norm (c : fcircuit) : fcircuit :=
  mkFC (c_numgates c) (c_numwires c) (map norm_io (c_inputs c)) (map norm_io (c_outputs c))
       (map norm_gate (c_gates c)).

Definition two32 : N := 4294967296.

Fixpoint wf_io (a : ioarg) : Prop :=
  match a with
  | mkIO n t comp =>
      nlen n < two32 /\ printable t /\ nlen (info_string t) < two32 /\
      (-2147483648 <= i_bits t < 2147483648)%Z /\ nlen comp < two32 /\
      (fix all (l : list ioarg) : Prop := match l with [] => True | x :: r => wf_io x /\ all r end) comp
  end.

Fixpoint ioarg_ind' (P : ioarg -> Prop)
  (H : forall n t comp, Forall P comp -> P (mkIO n t comp)) (a : ioarg) : P a :=
  match a with
  | mkIO n t comp =>
      H n t comp ((fix go (l : list ioarg) : Forall P l :=
                     match l with
                     | [] => Forall_nil P
                     | x :: r => Forall_cons x (ioarg_ind' P H x) (go r)
                     end) comp)
  end.

Lemma wf_io_all comp :
  (fix all (l : list ioarg) : Prop := match l with [] => True | x :: r => wf_io x /\ all r end) comp ->
  Forall wf_io comp.
Proof. induction comp as [|x r IH]; intros H; constructor; destruct H; auto. Qed.

Lemma read_full_exact_n n l1 l2 b : nlen l1 = n -> rd_ok (l1 ++ l2, b) ->
  exists b', read_full n (l1 ++ l2, b) = Ok (l1, (l2, b')) /\ rd_ok (l2, b').
Proof.
  intros <- Hok. destruct (read_full_exact l1 l2 b Hok) as (b' & H1 & H2 & _). exists b'; auto.
Qed.

Lemma read_u32_exact n rest b : n < two32 -> rd_ok (be32 n ++ rest, b) ->
  exists b', read_u32 (be32 n ++ rest, b) = Ok (n, (rest, b')) /\ rd_ok (rest, b').
Proof.
  intros Hn Hok. unfold read_u32.
  destruct (read_full_exact_n 4 (be32 n) rest b eq_refl Hok) as (b' & -> & Hok').
  cbn [bind]. rewrite of_be32_be32 by exact Hn. exists b'; auto.
Qed.

Lemma nlen_zero {A} (l : list A) : nlen l = 0 -> l = [].
Proof. destruct l; [reflexivity|]. rewrite nlen_cons. lia. Qed.

Lemma parse_string_exact s rest b : nlen s < two32 -> rd_ok (marshal_string s ++ rest, b) ->
  exists b', parse_string true (marshal_string s ++ rest, b) = Ok (s, (rest, b')) /\ rd_ok (rest, b').
Proof.
  intros Hn Hok. unfold marshal_string in *. rewrite <- app_assoc in *.
  rewrite N.mod_small in * by exact Hn. unfold parse_string.
  destruct (read_u32_exact (nlen s) (s ++ rest) b Hn Hok) as (b1 & -> & Hok1). cbn [bind].
  destruct (nlen s =? 0) eqn:E.
  - apply N.eqb_eq in E. apply nlen_zero in E. subst s. exists b1. auto.
  - destruct (read_full_exact_n (nlen s) s rest b1 eq_refl Hok1) as (b2 & -> & Hok2). exists b2; auto.
Qed.

Lemma wrap32_u32 z : (-2147483648 <= z < 2147483648)%Z -> wrap32 (Z.of_N (u32 z)) = z.
Proof.
  intros H. unfold wrap32, u32. rewrite Z2N.id by (apply Z.mod_pos_bound; lia).
  Z.to_euclidean_division_equations. lia.
Qed.

Lemma u32_lt z : u32 z < two32.
Proof. unfold u32, two32. pose proof (Z.mod_pos_bound z 4294967296 ltac:(lia)). lia. Qed.

Definition io_rt (fuel : nat) (a : ioarg) : Prop :=
  forall rest b, rd_ok (marshal_ioarg a ++ rest, b) -> (length (marshal_ioarg a ++ rest) < fuel)%nat ->
    exists b', parse_ioarg true fuel (marshal_ioarg a ++ rest, b) = Ok (norm_io a, (rest, b')) /\ rd_ok (rest, b').

Lemma marshal_ioarg_len a : (16 <= length (marshal_ioarg a))%nat.
Proof.
  destruct a as [n t comp]. cbn [marshal_ioarg]. unfold marshal_string.
  rewrite !app_length, !be32_length. lia.
Qed.

Lemma flat_map_len comp : (length comp <= length (flat_map marshal_ioarg comp))%nat.
Proof.
  induction comp as [|x r IH]; simpl; [lia|]. rewrite app_length. pose proof (marshal_ioarg_len x). lia.
Qed.

Lemma repeat_parse_marshal pf comp : Forall (io_rt pf) comp ->
  forall gf rest b, rd_ok (flat_map marshal_ioarg comp ++ rest, b) ->
    (length (flat_map marshal_ioarg comp ++ rest) < pf)%nat -> (length comp <= gf)%nat ->
    exists b', repeat_parse (parse_ioarg true pf) gf (nlen comp) (flat_map marshal_ioarg comp ++ rest, b)
               = Ok (map norm_io comp, (rest, b')) /\ rd_ok (rest, b').
Proof.
  induction 1 as [|x r Hx Hr IH]; intros gf rest b Hok Hlen Hgf.
  - simpl. destruct gf; simpl; exists b; auto.
  - destruct gf as [|g]; [simpl in Hgf; lia|].
    cbn [repeat_parse]. rewrite nlen_cons.
    replace (N.succ (nlen r) =? 0) with false by (symmetry; apply N.eqb_neq; lia).
    replace (N.succ (nlen r) - 1) with (nlen r) by lia.
    cbn [flat_map] in *. rewrite <- app_assoc in *.
    destruct (Hx _ _ Hok Hlen) as (b1 & -> & Hok1). cbn [bind].
    destruct (IH g rest b1 Hok1) as (b2 & -> & Hok2).
    + rewrite app_length in Hlen. lia.
    + simpl in Hgf. lia.
    + cbn [bind map]. exists b2; auto.
Qed.

Lemma parse_ioarg_marshal a : wf_io a -> forall fuel, io_rt fuel a.
Proof.
  induction a as [n t comp IH] using ioarg_ind'. intros Hwf fuel rest b Hok Hlen.
  cbn [wf_io] in Hwf. destruct Hwf as (Hn & Hpr & Hts & Hbits & Hcnt & Hall).
  apply wf_io_all in Hall.
  destruct fuel as [|f]; [lia|].
  cbn [marshal_ioarg norm_io] in *. rewrite <- !app_assoc in *.
  cbn [parse_ioarg].
  destruct (parse_string_exact n _ b Hn Hok) as (b1 & -> & Hok1). cbn [bind].
  destruct (parse_string_exact (info_string t) _ b1 Hts Hok1) as (b2 & -> & Hok2). cbn [bind].
  destruct (read_u32_exact (u32 (i_bits t)) _ b2 (u32_lt _) Hok2) as (b3 & -> & Hok3). cbn [bind].
  destruct (type_roundtrip t Hpr) as [-> _]. cbn [bind].
  rewrite N.mod_small in * by exact Hcnt.
  destruct (read_u32_exact (nlen comp) _ b3 Hcnt Hok3) as (b4 & -> & Hok4). cbn [bind].
  rewrite wrap32_u32 by exact Hbits.
  assert (Hl4 : (length (flat_map marshal_ioarg comp ++ rest) < f)%nat).
  { unfold marshal_string in Hlen. rewrite !app_length, !be32_length in Hlen.
    rewrite app_length. lia. }
  destruct (repeat_parse_marshal f comp) with (gf := f) (rest := rest) (b := b4) as (b5 & -> & Hok5); auto.
  - rewrite Forall_forall in *. intros x Hx. apply IH; auto.
  - pose proof (flat_map_len comp). rewrite app_length in Hl4. lia.
  - cbn [bind]. exists b5. auto.
Qed.

Lemma op_of_code_code o : op_of_code (op_code o) = Some o.
Proof. destruct o; reflexivity. Qed.

Lemma marshal_norm_gate g : marshal_gate (norm_gate g) = marshal_gate g.
Proof. destruct g as [o i0 i1 out]. destruct o; reflexivity. Qed.

Lemma parse_ioargs_marshal fuel l rest b : Forall wf_io l ->
  rd_ok (flat_map marshal_ioarg l ++ rest, b) -> (length (flat_map marshal_ioarg l ++ rest) < fuel)%nat ->
  exists b', parse_ioargs true fuel (nlen l) (flat_map marshal_ioarg l ++ rest, b)
             = Ok (map norm_io l, (rest, b')) /\ rd_ok (rest, b').
Proof.
  intros Hwf Hok Hlen. unfold parse_ioargs. apply repeat_parse_marshal; [|exact Hok|exact Hlen|].
  - apply Forall_impl with (2 := Hwf). intros x Hx. apply parse_ioarg_marshal. exact Hx.
  - pose proof (flat_map_len l). rewrite app_length in Hlen. lia.
Qed.

Definition gate_body (g : gateN) : list byte :=
  match g_op g with
  | INV => be32 (g_in0 g) ++ be32 (g_out g)
  | _ => be32 (g_in0 g) ++ be32 (g_in1 g) ++ be32 (g_out g)
  end.

Lemma marshal_gate_eq g : marshal_gate g = op_code (g_op g) :: gate_body g.
Proof. unfold marshal_gate, gate_body. destruct (g_op g); reflexivity. Qed.

Lemma gate_body_len g : nlen (gate_body g) = gate_len (g_op g).
Proof. unfold gate_body. destruct (g_op g); reflexivity. Qed.

Lemma decode_gate_body g :
  g_in0 g < two32 -> (g_op g <> INV -> g_in1 g < two32) -> g_out g < two32 ->
  decode_gate (g_op g) (gate_body g) = norm_gate g.
Proof.
  destruct g as [o i0 i1 out]. unfold gate_body, norm_gate, two32. cbn [g_op g_in0 g_in1 g_out].
  intros H0 H1 Ho. destruct o; cbn [decode_gate].
  1-4: specialize (H1 ltac:(discriminate));
       change (firstn 4 (be32 i0 ++ be32 i1 ++ be32 out)) with (be32 i0);
       change (firstn 4 (skipn 4 (be32 i0 ++ be32 i1 ++ be32 out))) with (be32 i1);
       change (skipn 8 (be32 i0 ++ be32 i1 ++ be32 out)) with (be32 out);
       rewrite !of_be32_be32 by assumption; reflexivity.
  change (firstn 4 (be32 i0 ++ be32 out)) with (be32 i0).
  change (skipn 4 (be32 i0 ++ be32 out)) with (be32 out).
  rewrite !of_be32_be32 by assumption. reflexivity.
Qed.

Lemma gate_chk_norm iw s g : gate_chk iw s (norm_gate g) = gate_chk iw s g.
Proof. destruct g as [o i0 i1 out]. destruct o; reflexivity. Qed.

Lemma read_byte_cons x t b : rd_ok (x :: t, b) ->
  exists b1, read_byte (x :: t, b) = Some (x, (t, b1)) /\ rd_ok (t, b1).
Proof. intros Hok. eexists. split; [reflexivity|]. eapply read_byte_spec; [exact Hok|reflexivity]. Qed.

Lemma gates_marshal iw gs : forall fuel ng b s s' gate acc,
  gates_run iw s gs s' -> s_len s <= two32 -> gate + nlen gs <= ng ->
  rd_ok (flat_map marshal_gate gs, b) -> (length (flat_map marshal_gate gs) < fuel)%nat ->
  mpclc_gates true iw fuel ng (flat_map marshal_gate gs, b) s gate acc
  = Ok (rev acc ++ map norm_gate gs, s', gate + nlen gs).
Proof.
  induction gs as [|g t IH]; intros fuel ng b s s' gate acc Hrun Hlen Hng Hok Hf;
    (destruct fuel as [|f]; [lia|]); inversion Hrun as [|? ? s1 ? ? Hg Hrun']; subst.
  - cbn. rewrite app_nil_r, N.add_0_r. reflexivity.
  - rewrite nlen_cons in *. rewrite mpclc_gates_step. cbn [flat_map] in *.
    rewrite marshal_gate_eq in *. cbn [app length] in *. rewrite app_length in Hf.
    destruct (read_byte_cons _ _ _ Hok) as (b1 & -> & Hok1).
    assert (Hgate : (ng <=? gate) = false) by (apply N.leb_gt; lia).
    cbn [andb]. rewrite Hgate, op_of_code_code.
    destruct (read_full_exact_n _ (gate_body g) (flat_map marshal_gate t) b1 (gate_body_len g) Hok1)
      as (b2 & -> & Hok2). cbn [bind].
    destruct (gate_chk_sound _ _ _ _ Hg) as ([Hi0 _] & Hi1 & Hout & _ & Hl1 & _).
    rewrite decode_gate_body; [|lia|intros Hne; destruct (Hi1 Hne); lia|lia].
    rewrite gate_chk_norm, Hg. cbn [bind].
    rewrite (IH f ng b2 s1 s' (gate + 1) (norm_gate g :: acc) Hrun'); [|rewrite Hl1; exact Hlen|lia|exact Hok2|lia].
    cbn [rev map]. rewrite <- app_assoc. f_equal. f_equal. lia.
Qed.

Lemma check_in_true s i : i < s_len s -> smem s i = true -> check_in s i = Ok tt.
Proof.
  intros H1 H2. unfold check_in, seen_get. apply N.leb_gt in H1. rewrite H1.
  unfold smem in H2. rewrite H2. reflexivity.
Qed.

Lemma seen_set_some s o : o < s_len s -> exists s', seen_set s o = Some s'.
Proof. intros H. unfold seen_set. apply N.leb_gt in H. rewrite H. eauto. Qed.

Lemma seen_set_chk_ok iw s o : (iw <= Z.of_N o)%Z -> seen_set_chk iw s o = seen_set s o.
Proof. intros H. unfold seen_set_chk. apply Z.ltb_ge in H. rewrite H. reflexivity. Qed.

Lemma gate_chk_complete iw s g :
  g_in0 g < s_len s -> smem s (g_in0 g) = true ->
  (g_op g <> INV -> g_in1 g < s_len s /\ smem s (g_in1 g) = true) ->
  g_out g < s_len s -> (iw <= Z.of_N (g_out g))%Z -> exists s', gate_chk iw s g = Ok s'.
Proof.
  intros Hi0 Hm0 H1 Hout Hiw. destruct (seen_set_some s (g_out g) Hout) as [s' Hset].
  exists s'. apply gate_chk_ok. split; [apply check_in_true; assumption|]. split.
  - intros Hne. destruct (H1 Hne). apply check_in_true; assumption.
  - rewrite seen_set_chk_ok by exact Hiw. exact Hset.
Qed.

Lemma gates_run_complete iw gs : forall s (def : N -> Prop),
  (forall w, smem s w = true <-> def w) -> dbu (s_len s) def gs -> no_input_overwrite iw gs ->
  exists s', gates_run iw s gs s'.
Proof.
  induction gs as [|g t IH]; intros s def Hdef Hdbu Hnio.
  - exists s. constructor.
  - cbn [dbu] in Hdbu. destruct Hdbu as (Hi0 & Hd0 & H1 & Hout & Hrest).
    inversion Hnio as [|? ? Hio Hnio']; subst.
    destruct (gate_chk_complete iw s g) as [s1 Hg]; auto.
    { apply Hdef; exact Hd0. }
    { intros Hne. destruct (H1 Hne) as [Ha Hb]. split; [exact Ha|apply Hdef; exact Hb]. }
    destruct (gate_chk_sound _ _ _ _ Hg) as (_ & _ & _ & _ & Hl1 & Hm1).
    destruct (IH s1 (fun w => def w \/ w = g_out g)) as [s' Hrun].
    { intros w. rewrite Hm1, Hdef. reflexivity. }
    { rewrite Hl1. exact Hrest. }
    { exact Hnio'. }
    exists s'. econstructor; eassumption.
Qed.

Lemma mark_inputs_some s iw : (iw <= Z.of_N (s_len s))%Z -> exists s0, mark_inputs s iw = Some s0.
Proof. intros H. unfold mark_inputs. apply Z.ltb_ge in H. rewrite H. eauto. Qed.

Lemma all_seen_true s : (forall w, w < s_len s -> smem s w = true) -> all_seen s = true.
Proof.
  intros H. unfold all_seen. apply forallb_forall. intros w Hw. apply nrange_In in Hw. apply H. lia.
Qed.

(* the converse of [run_parse_sound] (MarshalProof.v): a circuit that satisfies [parse_sound]
   passes the checks of either parser *)
Lemma parse_sound_run c : parse_sound c ->
  exists s0 s,
    mark_inputs (mkSeen (Z.to_N (c_numwires c)) PositiveSet.empty) (io_size (c_inputs c)) = Some s0 /\
    s_len s0 = Z.to_N (c_numwires c) /\
    gates_run (io_size (c_inputs c)) s0 (c_gates c) s /\ all_seen s = true.
Proof.
  intros (Hw0 & Hiw & _ & Hdbu & Hall & Hnio).
  destruct (mark_inputs_some (mkSeen (Z.to_N (c_numwires c)) PositiveSet.empty) (io_size (c_inputs c))) as [s0 Em].
  { cbn [s_len]. lia. }
  destruct (mark_inputs_ok _ _ _ Em) as (Hl0 & _ & Hm0).
  destruct (gates_run_complete (io_size (c_inputs c)) (c_gates c) s0 _ Hm0) as [s Hrun]; [rewrite Hl0; exact Hdbu|exact Hnio|].
  destruct (gates_run_sound _ _ _ _ Hrun) as (Hl & _ & Hinv).
  destruct (Hinv _ Hm0) as [_ Hm].
  exists s0, s. split; [exact Em|]. split; [exact Hl0|]. split; [exact Hrun|].
  apply all_seen_true. intros w Hw. apply Hm. apply Hall. rewrite Hl, Hl0 in Hw. exact Hw.
Qed.

(* size bounds of the format (uint32 fields), printable types, and the circuit invariant
   the parser checks ([parse_sound]: gate count, inputs defined before use, all wires assigned) *)
Definition wf_marshal (c : fcircuit) : Prop :=
  (c_numgates c < 4294967296)%Z /\ (c_numwires c < 4294967296)%Z /\
  nlen (c_inputs c) < two32 /\ nlen (c_outputs c) < two32 /\
  Forall wf_io (c_inputs c) /\ Forall wf_io (c_outputs c) /\ parse_sound c.

Lemma i_bits_set_bits x b : i_bits (set_bits x b) = b.
Proof. destruct x; reflexivity. Qed.

Lemma io_size_norm l : io_size (map norm_io l) = io_size l.
Proof.
  unfold io_size. generalize 0%Z. induction l as [|a t IH]; intros z; simpl; [reflexivity|].
  rewrite IH. destruct a as [n ty comp]. cbn [norm_io a_type]. rewrite i_bits_set_bits. reflexivity.
Qed.

Lemma u32_small z : (0 <= z < 4294967296)%Z -> u32 z = Z.to_N z.
Proof. intros H. unfold u32. rewrite Z.mod_small by lia. reflexivity. Qed.

Lemma info_string_set_bits t : printable t -> info_string (set_bits (strip t) (i_bits t)) = info_string t.
Proof.
  intros H. rewrite <- (strip_string t H). inversion H as [ty c b mb st el az Hb Hc Hr | c b mb st e az He Hr | c b mb st e az He]; subst.
  - rewrite strip_base by exact Hb. reflexivity.
  - reflexivity.
  - reflexivity.
Qed.

Lemma flat_map_map_same {A B} (f : A -> list B) (g : A -> A) l :
  Forall (fun x => f (g x) = f x) l -> flat_map f (map g l) = flat_map f l.
Proof. induction 1 as [|x r Hx _ IH]; [reflexivity|]. cbn [map flat_map]. rewrite Hx, IH. reflexivity. Qed.

Lemma marshal_norm_io a : wf_io a -> marshal_ioarg (norm_io a) = marshal_ioarg a.
Proof.
  induction a as [n t comp IH] using ioarg_ind'. intros Hwf.
  cbn [wf_io] in Hwf. destruct Hwf as (Hn & Hpr & Hts & Hbits & Hcnt & Hall). apply wf_io_all in Hall.
  cbn [norm_io marshal_ioarg]. rewrite info_string_set_bits by exact Hpr. rewrite i_bits_set_bits.
  unfold nlen. rewrite map_length. rewrite flat_map_map_same; [reflexivity|].
  rewrite Forall_forall in *. intros x Hx. apply IH; auto.
Qed.

Lemma marshal_norm c : Forall wf_io (c_inputs c) -> Forall wf_io (c_outputs c) -> Marshal (norm c) = Marshal c.
Proof.
  intros Hins Houts. unfold Marshal, norm.
  cbn [c_numgates c_numwires c_inputs c_outputs c_gates].
  unfold nlen. rewrite !map_length.
  rewrite !(flat_map_map_same marshal_ioarg norm_io) by (eapply Forall_impl; [apply marshal_norm_io|assumption]).
  rewrite (flat_map_map_same marshal_gate norm_gate) by (apply Forall_forall; intros g _; apply marshal_norm_gate).
  reflexivity.
Qed.

Lemma parse_marshal c : wf_marshal c -> ParseMPCLC (Marshal c) = Ok (norm c).
Proof.
  intros (Hg & Hw & Hni & Hno & Hins & Houts & Hs).
  destruct (parse_sound_run c Hs) as (s0 & s & Em & Hl0 & Hrun & Hseen).
  destruct Hs as (Hw0 & _ & Hng & _).
  destruct c as [ng nw ins outs gs]. cbn [c_numgates c_numwires c_inputs c_outputs c_gates] in *.
  assert (Hg0 : (0 <= ng)%Z) by lia.
  unfold ParseMPCLC, parse_mpclc, Marshal. cbn [c_numgates c_numwires c_inputs c_outputs c_gates].
  rewrite !N.mod_small by assumption.
  set (hdr := be32 (Z.to_N circuit_MAGIC) ++ be32 (u32 ng) ++ be32 (u32 nw) ++ be32 (nlen ins) ++ be32 (nlen outs)).
  set (body := flat_map marshal_ioarg ins ++ flat_map marshal_ioarg outs ++ flat_map marshal_gate gs).
  replace (be32 (Z.to_N circuit_MAGIC) ++ be32 (u32 ng) ++ be32 (u32 nw) ++ be32 (nlen ins) ++ be32 (nlen outs) ++ body)
    with (hdr ++ body) by (unfold hdr; rewrite <- !app_assoc; reflexivity).
  remember (S (length (hdr ++ body))) as fuel eqn:Efuel.
  destruct (read_full_exact_n 20 hdr body 0 eq_refl (rd_ok_init _)) as (b1 & -> & Hok1). cbn [bind]. cbv zeta.
  change (firstn 4 (skipn 4 hdr)) with (be32 (u32 ng)).
  change (firstn 4 (skipn 8 hdr)) with (be32 (u32 nw)).
  change (firstn 4 (skipn 12 hdr)) with (be32 (nlen ins)).
  change (skipn 16 hdr) with (be32 (nlen outs)).
  rewrite !of_be32_be32 by (try apply u32_lt; assumption).
  assert (Hfuel : (length body < fuel)%nat) by (subst fuel; rewrite app_length; lia).
  clear Efuel.
  unfold body in *.
  destruct (parse_ioargs_marshal fuel ins _ b1 Hins Hok1 Hfuel) as (b2 & -> & Hok2). cbn [bind].
  destruct (parse_ioargs_marshal fuel outs _ b2 Houts Hok2) as (b3 & -> & Hok3).
  { rewrite !app_length in *. lia. }
  cbn [bind]. rewrite io_size_norm.
  rewrite (u32_small nw) by lia. rewrite (u32_small ng) by lia.
  rewrite Em.
  rewrite (gates_marshal (io_size ins) gs fuel (Z.to_N ng) b3 s0 s 0 [] Hrun);
    [|rewrite Hl0; unfold two32; lia|unfold nlen; lia|exact Hok3|rewrite !app_length in *; lia].
  cbn [bind].
  replace (0 + nlen gs =? Z.to_N ng) with true by (symmetry; apply N.eqb_eq; unfold nlen; lia).
  rewrite Hseen. cbn [negb]. unfold norm. cbn [c_numgates c_numwires c_inputs c_outputs c_gates rev app].
  rewrite !Z2N.id by lia. reflexivity.
Qed.

Theorem mpclc_roundtrip c : wf_marshal c ->
  ParseMPCLC (Marshal c) = Ok (norm c) /\ Marshal (norm c) = Marshal c.
Proof.
  intros H. split; [exact (parse_marshal c H)|].
  destruct H as (_ & _ & _ & _ & Hins & Houts & _). exact (marshal_norm c Hins Houts).
Qed.

Lemma bristol_io_size pre fs : forall i l, bristol_io pre i fs = Ok l -> True.
Proof. auto. Qed.

Definition join (toks : list (list byte)) : list byte :=
  match toks with [] => [] | t :: r => t ++ flat_map (fun x => 32 :: x) r end.
Definition wordc (x : byte) : bool := negb (ascii_space x) && (x <? 128).
Definition word (t : list byte) : Prop := t <> [] /\ forallb wordc t = true.

Lemma wordc_nl x : wordc x = true -> (x =? 10) = false.
Proof.
  unfold wordc. intros H. apply andb_true_iff in H. destruct H as [H _]. apply negb_true_iff in H.
  destruct (N.eqb_spec x 10); [subst; discriminate|reflexivity].
Qed.

Lemma nl_lines_app body : forall rest cur, forallb (fun x => negb (x =? 10)) body = true ->
  nl_lines_aux (body ++ 10 :: rest) cur = (rev cur ++ body ++ [10]) :: nl_lines_aux rest [].
Proof.
  induction body as [|x t IH]; intros rest cur H; simpl.
  - reflexivity.
  - simpl in H. apply andb_true_iff in H. destruct H as [Hx Ht]. apply negb_true_iff in Hx. rewrite Hx.
    rewrite IH by exact Ht. simpl. rewrite <- app_assoc. reflexivity.
Qed.

(* every lead and continuation byte of the non-ASCII spaces is >= 128 *)
Lemma eqb_ascii b k : b < 128 -> 128 <= k -> (b =? k) = false.
Proof. intros Hb Hk. apply N.eqb_neq. lia. Qed.

Lemma uspace_len_ascii x t : x < 128 -> uspace_len (x :: t) = 0%nat.
Proof.
  intros H. unfold uspace_len. destruct t as [|b [|c t']]; [reflexivity|..].
  all: rewrite !(eqb_ascii x) by (exact H || discriminate); reflexivity.
Qed.

Lemma uspace_len_rev_ascii b t : b < 128 -> uspace_len_rev (b :: t) = 0%nat.
Proof.
  intros H. assert (E : (128 <=? b) = false) by (apply N.leb_gt; exact H).
  destruct t as [|a [|z t']]; [reflexivity|..]; unfold uspace_len_rev, uspace_len.
  all: rewrite ?E, !(eqb_ascii b) by (exact H || discriminate); cbn [orb andb]; rewrite ?andb_false_r.
  - reflexivity.
  - destruct (_ && _); reflexivity.
Qed.

Lemma ltrim_word ulen fuel x t : ascii_space x = false -> ulen (x :: t) = 0%nat ->
  ltrim_gen ulen (S fuel) (x :: t) = x :: t.
Proof. intros H1 H2. simpl. rewrite H1, H2. reflexivity. Qed.

Lemma wordc_split x : wordc x = true -> ascii_space x = false /\ x < 128.
Proof.
  unfold wordc. intros H. apply andb_true_iff in H. destruct H as [H1 H2].
  apply negb_true_iff in H1. apply N.ltb_lt in H2. auto.
Qed.

Lemma join_last toks : Forall word toks -> toks <> [] -> exists l y, join toks = l ++ [y] /\ wordc y = true.
Proof.
  induction 1 as [|t0 r [Hn0 Hc0] Hr IH]; [congruence|]. intros _. destruct r as [|t1 r'].
  - cbn [join flat_map]. rewrite app_nil_r. destruct (exists_last Hn0) as (l & y & ->). exists l, y.
    split; [reflexivity|]. rewrite forallb_app in Hc0. apply andb_true_iff in Hc0. destruct Hc0 as [_ Hy].
    cbn [forallb] in Hy. rewrite andb_true_r in Hy. exact Hy.
  - destruct (IH ltac:(discriminate)) as (l & y & E & Hy). exists (t0 ++ 32 :: l), y. split; [|exact Hy].
    change (join (t0 :: t1 :: r')) with (t0 ++ 32 :: join (t1 :: r')). rewrite E, <- app_assoc. reflexivity.
Qed.

(* a line made of words separated by single spaces is its own trimmed form: it starts and ends
   with a non-space ASCII byte, where both trims stop *)
Lemma trim_join toks : Forall word toks -> trim_space (join toks ++ [10]) = join toks.
Proof.
  intros Hw. destruct toks as [|t0 r]; [reflexivity|].
  destruct (join_last (t0 :: r) Hw ltac:(discriminate)) as (l & y & E & Hy).
  inversion Hw as [|? ? [Hn0 Hc0] _]; subst. destruct t0 as [|x t0]; [congruence|].
  cbn [forallb] in Hc0. apply andb_true_iff in Hc0. destruct Hc0 as [Hx _].
  destruct (wordc_split _ Hx) as [Hx1 Hx2]. destruct (wordc_split _ Hy) as [Hy1 Hy2].
  unfold trim_space. set (line := join ((x :: t0) :: r) ++ [10]).
  assert (El : ltrim_gen uspace_len (length line) line = line)
    by (apply ltrim_word; [exact Hx1|apply uspace_len_ascii; exact Hx2]).
  rewrite El. unfold line. rewrite E, !rev_unit, !app_length, !Nat.add_1_r.
  change (ltrim_gen uspace_len_rev (S (S (length l))) (10 :: y :: rev l))
    with (ltrim_gen uspace_len_rev (S (length l)) (y :: rev l)).
  rewrite ltrim_word by (try apply uspace_len_rev_ascii; assumption).
  cbn [rev]. rewrite rev_involutive. reflexivity.
Qed.

Lemma fields_aux_word t : forall rest cur, forallb wordc t = true ->
  fields_aux (t ++ rest) cur = fields_aux rest (rev t ++ cur).
Proof.
  induction t as [|x t' IH]; intros rest cur H; [reflexivity|].
  simpl in H. apply andb_true_iff in H. destruct H as [Hx Ht]. destruct (wordc_split _ Hx) as [Hs _].
  cbn [app fields_aux]. rewrite Hs. rewrite IH by exact Ht. simpl. rewrite <- app_assoc. reflexivity.
Qed.

Lemma fields_join toks : Forall word toks -> fields (join toks) = toks.
Proof.
  intros Hw. unfold fields. destruct toks as [|t0 r]; [reflexivity|].
  inversion Hw as [|? ? [Hn0 Hc0] Hr]; subst. cbn [join].
  rewrite fields_aux_word by exact Hc0. rewrite app_nil_r.
  revert t0 Hn0 Hc0 Hw. induction Hr as [|t1 r' [Hn1 Hc1] Hr' IH]; intros t0 Hn0 Hc0 Hw.
  - simpl. destruct (rev t0) eqn:E; [|rewrite <- E, rev_involutive; reflexivity].
    apply (f_equal (@length byte)) in E. rewrite rev_length in E. destruct t0; [congruence|discriminate].
  - cbn [flat_map app fields_aux]. change (ascii_space 32) with true. cbv iota.
    destruct (rev t0) eqn:E.
    { apply (f_equal (@length byte)) in E. rewrite rev_length in E. destruct t0; [congruence|discriminate]. }
    rewrite <- E, rev_involutive. f_equal.
    rewrite fields_aux_word by exact Hc1. rewrite app_nil_r. apply IH; auto. constructor; auto. split; auto.
Qed.

Definition is_nil {A} (l : list A) : bool := match l with [] => true | _ => false end.

Lemma join_nonl toks : Forall word toks -> forallb (fun x => negb (x =? 10)) (join toks) = true.
Proof.
  intros Hw. destruct toks as [|t0 r]; [reflexivity|]. inversion Hw as [|? ? [_ Hc0] Hr]; subst. cbn [join].
  rewrite forallb_app. apply andb_true_iff. split.
  - apply forallb_forall. intros x Hx. rewrite forallb_forall in Hc0. rewrite (wordc_nl x); auto.
  - clear Hw Hc0. induction Hr as [|t1 r' [_ Hc1] _ IH]; [reflexivity|].
    cbn [flat_map]. rewrite forallb_app. apply andb_true_iff. split; [|exact IH].
    simpl. apply forallb_forall. intros x Hx. rewrite forallb_forall in Hc1. rewrite (wordc_nl x); auto.
Qed.

Lemma join_nil_iff toks : Forall word toks -> is_nil (join toks) = is_nil toks.
Proof.
  intros Hw. destruct toks as [|t0 r]; [reflexivity|]. inversion Hw as [|? ? [Hn0 _] _]; subst.
  cbn [join]. destruct t0; [congruence|reflexivity].
Qed.

Lemma bristol_lines_join tl : Forall (Forall word) tl ->
  bristol_lines (flat_map (fun toks => join toks ++ [10]) tl) = filter (fun t => negb (is_nil t)) tl.
Proof.
  unfold bristol_lines. induction 1 as [|toks r Hw Hr IH]; [reflexivity|].
  cbn [flat_map]. rewrite <- app_assoc. cbn [app].
  rewrite nl_lines_app by (apply join_nonl; auto). cbn [rev app map].
  rewrite trim_join by exact Hw. cbn [filter].
  pose proof (join_nil_iff toks Hw) as Hn. unfold is_nil in Hn.
  destruct (join toks) as [|x t] eqn:Ej.
  - destruct toks; [|discriminate]. cbn [is_nil negb]. exact IH.
  - destruct toks as [|t0 r0]; [discriminate|]. cbn [is_nil negb map]. rewrite <- Ej, fields_join by exact Hw.
    f_equal. exact IH.
Qed.

Definition io_toks (l : list ioarg) : list (list byte) :=
  dec_N (nlen l) :: map (fun a => dec_Z (i_bits (a_type a))) l.
Definition gate_toks (g : gateN) : list (list byte) :=
  match g_op g with
  | INV => [[49]; [49]; dec_N (g_in0 g); dec_N (g_out g); op_name INV]
  | o => [[50]; [49]; dec_N (g_in0 g); dec_N (g_in1 g); dec_N (g_out g); op_name o]
  end.

Fixpoint uint_args (pre : list byte) (i : nat) (l : list ioarg) : list ioarg :=
  match l with
  | [] => []
  | a :: r => uint_arg pre i (i_bits (a_type a)) :: uint_args pre (S i) r
  end.
(* what survives a round trip through the Bristol format: counts, sizes, gates *)
Definition bristol_norm (c : fcircuit) : fcircuit :=
  mkFC (c_numgates c) (c_numwires c) (uint_args [78; 73] 1 (c_inputs c)) (uint_args [78; 79] 1 (c_outputs c))
       (map norm_gate (c_gates c)).

Definition bits_ok (l : list ioarg) : Prop :=
  Forall (fun a => (0 <= i_bits (a_type a) < 2147483648)%Z) l /\ (Z.of_N (nlen l) < 9223372036854775807)%Z.
Definition wf_bristol (c : fcircuit) : Prop :=
  (c_numgates c <= maxInt32)%Z /\ (c_numwires c <= maxInt32)%Z /\
  bits_ok (c_inputs c) /\ bits_ok (c_outputs c) /\ (io_size (c_inputs c) <> 0)%Z /\ parse_sound c.

Lemma digits_word l : l <> [] -> forallb is_digit l = true -> word l.
Proof.
  intros Hne H. split; auto. apply forallb_forall. intros x Hx. rewrite forallb_forall in H.
  specialize (H x Hx). unfold is_digit in H. apply andb_true_iff in H. destruct H as [H1 H2].
  apply N.leb_le in H1, H2. unfold wordc, ascii_space. apply andb_true_iff. split.
  - apply negb_true_iff. apply orb_false_iff. split.
    + apply andb_false_iff. right. apply N.leb_gt. lia.
    + apply N.eqb_neq. lia.
  - apply N.ltb_lt. lia.
Qed.

Lemma dec_N_word n : word (dec_N n).
Proof. destruct (dec_N_spec n) as (H1 & H2 & _). apply digits_word; auto. Qed.
Lemma dec_Z_word z : (0 <= z)%Z -> word (dec_Z z).
Proof. intros H. rewrite dec_Z_nonneg by auto. apply dec_N_word. Qed.
Lemma op_name_word o : word (op_name o).
Proof. destruct o; split; try discriminate; reflexivity. Qed.

Lemma flat_map_map32 {A} (f : A -> list byte) l :
  flat_map (fun x => 32 :: x) (map f l) = flat_map (fun a => 32 :: f a) l.
Proof. induction l as [|a r IH]; [reflexivity|]. simpl. rewrite IH. reflexivity. Qed.

Lemma bristol_ioline_join l : bristol_ioline l = join (io_toks l) ++ [10].
Proof. unfold bristol_ioline, io_toks. cbn [join]. rewrite flat_map_map32, <- app_assoc. reflexivity. Qed.

Lemma bristol_gate_join g : bristol_gate g = join (gate_toks g) ++ [10].
Proof.
  destruct g as [o i0 i1 out]. unfold bristol_gate, gate_toks. cbn [g_op g_in0 g_in1 g_out].
  destruct o; cbn [join flat_map app]; rewrite <- ?app_assoc; cbn [app]; rewrite ?app_nil_r;
    repeat (rewrite <- ?app_assoc; cbn [app]); reflexivity.
Qed.

Lemma MarshalBristol_lines c :
  MarshalBristol c = flat_map (fun toks => join toks ++ [10])
    ([dec_Z (c_numgates c); dec_Z (c_numwires c)] :: io_toks (c_inputs c) :: io_toks (c_outputs c) :: [] ::
     map gate_toks (c_gates c)).
Proof.
  unfold MarshalBristol. cbn [flat_map]. rewrite !bristol_ioline_join.
  cbn [join flat_map app]. rewrite <- !app_assoc. cbn [app]. rewrite app_nil_r.
  repeat f_equal. induction (c_gates c) as [|g t IH]; [reflexivity|].
  cbn [map flat_map]. rewrite bristol_gate_join, IH. reflexivity.
Qed.

Lemma atoi_dec_N n : (Z.of_N n <= 9223372036854775807)%Z -> atoi (dec_N n) = Some (Z.of_N n).
Proof. intros H. unfold atoi. apply parse_int_dec. lia. Qed.
Lemma atoi_dec_Z z : (0 <= z <= 9223372036854775807)%Z -> atoi (dec_Z z) = Some z.
Proof. intros H. apply parse_int_dec_Z; lia. Qed.

Lemma gate_toks_filter gs :
  filter (fun t : list (list byte) => negb (is_nil t)) (map gate_toks gs) = map gate_toks gs.
Proof.
  induction gs as [|g t IH]; [reflexivity|]. cbn [map filter].
  destruct g as [o i0 i1 out]. destruct o; cbn [gate_toks g_op is_nil negb]; rewrite IH; reflexivity.
Qed.

Lemma bristol_io_marshal pre l : Forall (fun a => (0 <= i_bits (a_type a) < 2147483648)%Z) l ->
  forall i, bristol_io pre i (map (fun a => dec_Z (i_bits (a_type a))) l) = Ok (uint_args pre i l).
Proof.
  induction 1 as [|a r Ha Hr IH]; intros i; [reflexivity|]. cbn [map bristol_io uint_args].
  unfold parse_int32. rewrite parse_int_dec_Z by lia.
  assert ((i_bits (a_type a) <? 0)%Z = false) as -> by (apply Z.ltb_ge; lia).
  rewrite IH. reflexivity.
Qed.

Lemma io_size_uint_args pre l : forall i, io_size (uint_args pre i l) = io_size l.
Proof.
  unfold io_size. generalize 0%Z. induction l as [|a r IH]; intros z i; [reflexivity|].
  cbn [uint_args fold_left]. rewrite IH. reflexivity.
Qed.

(* [simpl] runs the parser over the five or six tokens of a gate line; the decimal strings and
   the checks on the wire state stay folded and are rewritten between the runs *)
Local Ltac run_line := with_strategy opaque [dec_N check_in parse_uint32 seen_set_chk] simpl.

Lemma bristol_gate_line_marshal iw g s s1 : gate_chk iw s g = Ok s1 -> s_len s <= two32 ->
  bristol_gate_line iw (gate_toks g) s = Ok (norm_gate g, s1).
Proof.
  intros Hg Hlen. destruct (gate_chk_sound _ _ _ _ Hg) as ([Hi0 _] & Hi1 & Hout & _).
  apply gate_chk_ok in Hg. destruct Hg as (Hc0 & Hc1 & Hset).
  destruct g as [o i0 i1 out]. cbn [g_op g_in0 g_in1 g_out] in *. unfold two32 in Hlen.
  assert (Hp0 : parse_uint32 (dec_N i0) = Some i0) by (apply parse_uint32_dec; lia).
  assert (Hpo : parse_uint32 (dec_N out) = Some out) by (apply parse_uint32_dec; lia).
  unfold bristol_gate_line, gate_toks. destruct o.
  1-4: destruct (Hi1 ltac:(discriminate)) as [Hi1a _]; specialize (Hc1 ltac:(discriminate));
       assert (Hp1 : parse_uint32 (dec_N i1) = Some i1) by (apply parse_uint32_dec; lia);
       run_line; rewrite Hp0, Hc0; run_line; rewrite Hp1, Hc1; run_line; rewrite Hpo, Hset; reflexivity.
  run_line. rewrite Hp0, Hc0. run_line. rewrite Hpo, Hset. reflexivity.
Qed.

Lemma bristol_gates_marshal iw gs : forall ng s s' gate,
  gates_run iw s gs s' -> s_len s <= two32 -> (gate + Z.of_nat (length gs) <= ng)%Z ->
  bristol_gates iw ng (map gate_toks gs) s gate
  = Ok (map norm_gate gs, s', (gate + Z.of_nat (length gs))%Z).
Proof.
  induction gs as [|g t IH]; intros ng s s' gate Hrun Hlen Hng; inversion Hrun as [|? ? s1 ? ? Hg Hrun']; subst.
  - cbn. rewrite Z.add_0_r. reflexivity.
  - cbn [length] in *.
    assert (Hgate : (ng <=? gate)%Z = false) by (apply Z.leb_gt; lia).
    destruct (gate_chk_sound _ _ _ _ Hg) as (_ & _ & _ & _ & Hl1 & _).
    cbn [map bristol_gates]. rewrite Hgate.
    rewrite (bristol_gate_line_marshal iw g s s1 Hg Hlen). cbn [bind].
    rewrite (IH ng s1 s' (gate + 1)%Z Hrun'); [|rewrite Hl1; exact Hlen|lia].
    cbn [bind]. f_equal. f_equal. lia.
Qed.

Lemma bristol_ioline_norm pre l i : bristol_ioline (uint_args pre i l) = bristol_ioline l.
Proof.
  unfold bristol_ioline. f_equal.
  - f_equal. unfold nlen. f_equal. revert i. induction l; intros; simpl; auto.
  - f_equal. revert i. induction l as [|a r IH]; intros i; [reflexivity|]. cbn [uint_args flat_map]. rewrite IH. reflexivity.
Qed.

Lemma bristol_norm_gate g : bristol_gate (norm_gate g) = bristol_gate g.
Proof. destruct g as [o i0 i1 out]. destruct o; reflexivity. Qed.

Lemma marshal_bristol_norm c : MarshalBristol (bristol_norm c) = MarshalBristol c.
Proof.
  unfold MarshalBristol, bristol_norm. cbn [c_numgates c_numwires c_inputs c_outputs c_gates].
  rewrite !bristol_ioline_norm.
  rewrite (flat_map_map_same bristol_gate norm_gate) by (apply Forall_forall; intros g _; apply bristol_norm_gate).
  reflexivity.
Qed.

Lemma io_toks_words l : bits_ok l -> Forall word (io_toks l).
Proof.
  intros [Hb _]. unfold io_toks. constructor; [apply dec_N_word|].
  induction Hb as [|a r Ha Hr IH]; [constructor|]. cbn [map]. constructor; auto. apply dec_Z_word. lia.
Qed.

Lemma gate_toks_words g : Forall word (gate_toks g).
Proof.
  destruct g as [o i0 i1 out]. unfold gate_toks. cbn [g_op g_in0 g_in1 g_out].
  assert (word [49]) by (split; [discriminate|reflexivity]).
  assert (word [50]) by (split; [discriminate|reflexivity]).
  destruct o; repeat constructor; auto; try apply dec_N_word; try apply op_name_word;
    try discriminate.
Qed.

Lemma int32_range_test z : (0 <= z <= maxInt32)%Z -> (z <? 0)%Z || (maxInt32 <? z)%Z = false.
Proof. intros H. apply orb_false_iff. split; apply Z.ltb_ge; lia. Qed.

Lemma io_toks_parse pre l : bits_ok l ->
  atoi (dec_N (nlen l)) = Some (Z.of_N (nlen l)) /\
  (1 + Z.of_N (nlen l) =? Z.of_nat (length (io_toks l)))%Z = true /\
  bristol_io pre 1 (map (fun a => dec_Z (i_bits (a_type a))) l) = Ok (uint_args pre 1 l).
Proof.
  intros [Hb Hn]. split; [apply atoi_dec_N; lia|]. split; [|apply bristol_io_marshal; exact Hb].
  apply Z.eqb_eq. unfold io_toks. cbn [length]. rewrite map_length. unfold nlen. lia.
Qed.

Theorem bristol_roundtrip c : wf_bristol c ->
  ParseBristol (MarshalBristol c) = Ok (bristol_norm c) /\ MarshalBristol (bristol_norm c) = MarshalBristol c.
Proof.
  intros (Hg & Hw & Hbi & Hbo & Hnz & Hs). split; [|apply marshal_bristol_norm].
  destruct (parse_sound_run c Hs) as (s0 & s & Em & Hl0 & Hrun & Hseen).
  destruct Hs as (Hw0 & _ & Hng & _).
  destruct c as [ng nw ins outs gs]. cbn [c_numgates c_numwires c_inputs c_outputs c_gates] in *.
  assert (Hg0 : (0 <= ng)%Z) by lia. unfold maxInt32 in Hg, Hw.
  unfold ParseBristol. rewrite MarshalBristol_lines. cbn [c_numgates c_numwires c_inputs c_outputs c_gates].
  rewrite bristol_lines_join.
  2:{ constructor; [repeat constructor; apply dec_Z_word; lia|].
      constructor; [apply io_toks_words; auto|]. constructor; [apply io_toks_words; auto|].
      constructor; [constructor|]. apply Forall_forall. intros x Hx. apply in_map_iff in Hx.
      destruct Hx as (g & <- & _). apply gate_toks_words. }
  cbn [filter is_nil negb io_toks]. rewrite gate_toks_filter.
  rewrite !atoi_dec_Z, !int32_range_test by (unfold maxInt32; lia).
  destruct (io_toks_parse [78; 73] ins Hbi) as (Ea & El & Eio).
  rewrite Ea. cbv beta match. rewrite El, Eio. cbn [negb bind]. rewrite io_size_uint_args.
  assert ((io_size ins =? 0)%Z = false) as -> by (apply Z.eqb_neq; exact Hnz).
  rewrite Em.
  destruct (io_toks_parse [78; 79] outs Hbo) as (Ea' & El' & Eio').
  rewrite Ea'. cbv beta match. rewrite El', Eio'. cbn [negb bind].
  rewrite (bristol_gates_marshal (io_size ins) gs ng s0 s 0%Z Hrun); [|rewrite Hl0; unfold two32; lia|lia].
  cbn [bind].
  assert (negb (0 + Z.of_nat (length gs) =? ng)%Z = false) as -> by (apply negb_false_iff, Z.eqb_eq; lia).
  rewrite Hseen. reflexivity.
Qed.

Lemma ex_parse_sound : parse_sound ex_circuit.
Proof.
  eapply (run_parse_sound 5 8).
  - reflexivity.
  - repeat (eapply run_cons; [reflexivity|]). apply run_nil.
  - reflexivity.
  - reflexivity.
Qed.

Lemma uint1_printable : printable uint1.
Proof. apply pr_base; [right; right; left; reflexivity|reflexivity|lia]. Qed.

Example ex_wf_marshal : wf_marshal ex_circuit.
Proof.
  unfold wf_marshal. split; [reflexivity|]. split; [reflexivity|]. split; [reflexivity|]. split; [reflexivity|].
  split; [|split; [|exact ex_parse_sound]].
  - unfold ex_circuit. cbn [c_inputs]. constructor; [|constructor; [|constructor]].
    + cbn [wf_io]. repeat split; try (cbn; lia); try exact uint1_printable.
      apply pr_base; [right; right; right; right; reflexivity|reflexivity|lia].
    + cbn [wf_io]. repeat split; try (cbn; lia).
      apply pr_array; [exact uint1_printable|lia].
  - unfold ex_circuit. cbn [c_outputs]. constructor; [|constructor].
    cbn [wf_io]. repeat split; try (cbn; lia).
    apply pr_base; [right; right; left; reflexivity|reflexivity|lia].
Qed.

Example ex_wf_bristol : wf_bristol ex_circuit.
Proof.
  unfold wf_bristol, bits_ok. split; [unfold maxInt32; cbn; lia|]. split; [unfold maxInt32; cbn; lia|].
  split; [split; [repeat constructor; cbn; lia|cbn; lia]|].
  split; [split; [repeat constructor; cbn; lia|cbn; lia]|].
  split; [discriminate|exact ex_parse_sound].
Qed.

(* Circuit.MarshalFormat (dispatcher): whatever it writes is what the matching plain
   marshaller writes, hence parses back; any other format string writes nothing *)
Lemma marshal_format_roundtrip c f bs : MarshalFormat f c = Some bs ->
  (f = s_mpclc /\ bs = Marshal c /\ (wf_marshal c -> ParseMPCLC bs = Ok (norm c))) \/
  (f = s_bristol /\ bs = MarshalBristol c /\ (wf_bristol c -> ParseBristol bs = Ok (bristol_norm c))).
Proof.
  unfold MarshalFormat. destruct (list_eqb f s_mpclc) eqn:E1.
  - apply list_eqb_eq in E1. intros H; inversion H; subst. left.
    split; [reflexivity|]. split; [reflexivity|]. intros Hw. apply mpclc_roundtrip. exact Hw.
  - destruct (list_eqb f s_bristol) eqn:E2; [|discriminate].
    apply list_eqb_eq in E2. intros H; inversion H; subst. right.
    split; [reflexivity|]. split; [reflexivity|]. intros Hw. apply bristol_roundtrip. exact Hw.
Qed.

(* gates that write an input wire are rejected (commit 407ba55) *)
Lemma parse_rejects_input_overwrite bs c : ParseMPCLC bs = Ok c \/ ParseBristol bs = Ok c ->
  forall g, In g (c_gates c) -> (io_size (c_inputs c) <= Z.of_N (g_out g))%Z.
Proof.
  intros H. assert (Hs : parse_sound c).
  { destruct H as [H|H]; [exact (mpclc_sound true true bs c H)|exact (bristol_sound bs c H)]. }
  destruct Hs as (_ & _ & _ & _ & _ & Hn). unfold no_input_overwrite in Hn. rewrite Forall_forall in Hn. exact Hn.
Qed.

Lemma seen_set_chk_rejects iw s o : (Z.of_N o < iw)%Z -> seen_set_chk iw s o = None.
Proof.
  intros H. destruct (seen_set_chk iw s o) as [s'|] eqn:E; [|reflexivity].
  destruct (seen_set_chk_some _ _ _ _ E) as [_ Hiw]. lia.
Qed.

(* XOR 0 0 0 on a 1-input circuit, in both formats: rejected *)
Example xor000_mpclc_rejected :
  ParseMPCLC (be32 (Z.to_N circuit_MAGIC) ++ be32 1 ++ be32 1 ++ be32 1 ++ be32 0 ++
              be32 0 ++ be32 2 ++ [117; 49] ++ be32 1 ++ be32 0 ++ [0] ++ be32 0 ++ be32 0 ++ be32 0) = Err.
Proof. vm_compute. reflexivity. Qed.
Example xor000_bristol_rejected :
  ParseBristol [49;32;49;10; 49;32;49;10; 49;32;49;10; 10; 50;32;49;32;48;32;48;32;48;32;88;79;82;10] = Err.
Proof. vm_compute. reflexivity. Qed.
