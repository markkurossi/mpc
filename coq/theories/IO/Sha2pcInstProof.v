(* Sha2pcInstProof.v — the cryptographic parameters of the sha2pc round model
   (IO/Sha2pcCodec.v) instantiated with the garbling model of C01
   (Circuit/Garble.v) and the Chou-Orlandi OT model of C06 (OT/Co.v); the
   hypotheses garbled_eval_correct and co_ot_correct of protocol_correct are
   discharged by Circuit.GarbleProof.garble_decoded_outputs and
   OT.CoProof.co_correct.  What remains: the group laws co_correct itself
   needs, well-formedness and the input/output counts of the embedded circuit
   (checked by ParseMPCLC and by init() of sha2pc/params.go), and
   circuit_computes_sha256xor. *)
From Coq Require Import ZArith NArith List Bool Arith Lia.
From Mpc Require Import Base.ListFacts Base.Label Base.Codec Circuit.Circuit Circuit.Garble
     Circuit.GarbleProof Proto.Session Proto.SessionProof OT.Co OT.CoProof IO.Sha2pcCodec IO.Sha2pcProof.
From Mpc Require Circuit.ScratchProof.
Import ListNotations.
Open Scope N_scope.

Definition wire_of (p : N * N) : wire := mkWire (fst p) (snd p).
Definition pair_of (w : wire) : N * N := (L0 w, L1 w).

Lemma wire_of_pair_of w : wire_of (pair_of w) = w.
Proof. destruct w; reflexivity. Qed.

Lemma pick2_pick p b : pick2 p b = pick (wire_of p) b.
Proof. destruct b; reflexivity. Qed.

Lemma map_pick_combine_wire_of : forall (ps : list (N * N)) (bs : list bool),
  map (fun p => pick (fst p) (snd p)) (combine (map wire_of ps) bs)
  = map (fun p => pick2 (fst p) (snd p)) (combine ps bs).
Proof.
  induction ps as [|p ps IH]; intros [|b bs]; try reflexivity.
  cbn [map combine fst snd]. rewrite IH, pick2_pick. reflexivity.
Qed.

Lemma map_pick2_combine_pair_of : forall (ws : list wire) (bs : list bool),
  map (fun p => pick2 (fst p) (snd p)) (combine (map pair_of ws) bs)
  = map (fun p => pick (fst p) (snd p)) (combine ws bs).
Proof.
  intros ws bs. rewrite <- map_pick_combine_wire_of, map_map.
  rewrite (map_ext _ (fun w => w) wire_of_pair_of), map_id. reflexivity.
Qed.

(* ciphertext rows a gate contributes: sha2pc/params.go gateCiphertextCount *)
Definition rows_of (g : gate) : nat :=
  match gop g with XOR | XNOR => 0 | AND => 2 | OR => 3 | INV => 1 end%nat.

Lemma garble_tables_shape pi rnd scratch c :
  map (@length _) (gTables (garble pi rnd scratch c)) = map rows_of (gates c).
Proof. (* rows_of g unfolds to Scratch.op_rows (gop g) *) exact (ScratchProof.garble_rows_by_circuit pi rnd scratch c). Qed.

Lemma chunks_concat {A} : forall (ls : list (list A)), chunks (map (@length _) ls) (concat ls) = ls.
Proof.
  induction ls as [|l ls IH]; [reflexivity|]. cbn [map chunks concat].
  rewrite firstn_app_exact, skipn_app_exact, IH by reflexivity. reflexivity.
Qed.

Lemma map_pick_firstn (ws : list wire) (x : list bool) n :
  (n <= length ws)%nat -> length x = n ->
  map (fun p => pick (fst p) (snd p)) (combine (firstn n ws) x)
  = map (fun i => pick (nth i ws w0) (nth i x false)) (seq 0 n).
Proof.
  intros Hn <-. rewrite map_pick_combine by (rewrite firstn_length; lia).
  apply map_ext_in. intros i Hi. apply in_seq in Hi. rewrite nth_firstn_lt by lia. reflexivity.
Qed.

Lemma decode_outputs_map {A} (fw : A -> wire) (fl : A -> N) : forall (os : list A) bs,
  map (fun o => decode (fw o) (fl o)) os = map Some bs ->
  decode_outputs (map (fun o => pair_of (fw o)) os) (map fl os) = Ok bs.
Proof.
  induction os as [|o os IH]; intros [|b bs] H; try discriminate; [reflexivity|].
  cbn [map] in H. injection H as Hd Ht. cbn [map decode_outputs hd tl]. rewrite (IH bs Ht).
  unfold bitFromLabel, pair_of. cbn [fst snd]. unfold decode in Hd.
  destruct (fl o =? L0 (fw o)).
  - injection Hd as <-. reflexivity.
  - destruct (fl o =? L1 (fw o)); [|discriminate]. injection Hd as <-. reflexivity.
Qed.

Section Inst.
  (* the embedded circuit (not in Coq: a variable) *)
  Variable circ : circuit.
  Hypothesis circ_wf : wf circ = true.
  Hypothesis circ_inputs : ninputs circ = (hashInputBitCount + hashInputBitCount)%nat.
  Hypothesis circ_outputs : noutputs circ = outputHintCount.

  (* garbling (C01 model): block function from the key, label stream from the randomness *)
  Variable RND : Type.
  Variable pi_of_key : bytes -> N -> N.
  Variable rnd_labels : RND -> nat -> N.
  Variable scratch : list wire.
  Variable read_key : RND -> bytes.
  Variable read_sid : RND -> N.

  Definition nI : nat := hashInputBitCount.

  Definition i_garble (rng : RND) (key : bytes)
    : res (list (N * N) * list (N * N) * list (N * N) * list N) :=
    let g := garble (pi_of_key key) (rnd_labels rng) scratch circ in
    Ok (map pair_of (firstn nI (gWires g)),
        map pair_of (firstn nI (skipn nI (gWires g))),
        map (fun o => pair_of (nth o (gWires g) w0)) (output_wires circ),
        concat (gTables g)).

  (* Circuit.Eval on wires = garbler labels ‖ evaluator labels ‖ zeros, with the
     flat table slab cut into per-gate rows by the gate kinds *)
  Definition i_eval (key : bytes) (gl el flat : list N) : res (list N) :=
    match geval (pi_of_key key) circ (gl ++ el ++ repeat 0 (nwires circ - nI - nI))
                (chunks (map rows_of (gates circ)) flat) with
    | Some ew => Ok (map (fun o => nth o ew 0) (output_wires circ))
    | None => Err
    end.

  (* Chou-Orlandi (C06 model) over an abstract group of integer pairs *)
  Notation G := (N * N)%type.
  Variables (gadd : G -> G -> G) (gneg : G -> G) (gzero : G) (smul : N -> G -> G) (Gen : G).
  Variable kdf : G -> N -> N.
  Hypothesis gadd_assoc : forall P Q R, gadd (gadd P Q) R = gadd P (gadd Q R).
  Hypothesis gadd_zero : forall P, gadd P gzero = P.
  Hypothesis gadd_neg : forall P, gadd P (gneg P) = gzero.
  Hypothesis smul_add : forall a P Q, smul a (gadd P Q) = gadd (smul a P) (smul a Q).
  Hypothesis smul_comm : forall a b P, smul a (smul b P) = smul b (smul a P).
  Variable sender_scalar : RND -> N.
  Variable receiver_scalar : RND -> nat -> N.

  Definition i_gen_sender (rng : RND) : N * (N * N) * (N * N) :=
    let s := GenerateCOSenderSetup G gneg smul Gen (sender_scalar rng) in (s_a G s, s_A G s, s_AaInv G s).

  (* ensureOnCurve only rejects inputs and is not modelled (as in OT/Co.v) *)
  Definition i_build_choices (rng : RND) (ax ay : N) (bits : list bool) : res (list N * list (N * N)) :=
    let scs := map (receiver_scalar rng) (seq 0 (length bits)) in
    Ok (scs, BuildCOChoices G gadd smul Gen (ax, ay) scs bits).

  Definition i_encrypt (st : gsession) (pts : list (N * N)) (ein : list (N * N)) : res (list (N * N)) :=
    match EncryptCOCiphertexts G gadd smul kdf
            (mkSetup G (gs_scalar st) (gs_ax st, gs_ay st) (gs_ainvx st, gs_ainvy st)) pts (map wire_of ein) with
    | Some cts => Ok cts
    | None => Err
    end.

  Definition i_decrypt (st : esession) (cts : list (N * N)) : res (list N) :=
    match DecryptCOCiphertexts G smul kdf (es_ax st, es_ay st) (es_scalars st) (es_bits st) cts with
    | Some ls => Ok ls
    | None => Err
    end.

  Variable c : curve.
  Variable decompress : curve -> N -> bool -> option (N * N).

  Lemma circ_le : (ninputs circ <= nwires circ)%nat.
  Proof. exact (proj1 (proj1 (wf_spec circ) circ_wf)). Qed.

  Lemma inst_garbled_eval_correct : forall rng key gin ein outw tables xa xb,
    i_garble rng key = Ok (gin, ein, outw, tables) ->
    length xa = hashInputBitCount -> length xb = hashInputBitCount ->
    exists outl,
      i_eval key (map (fun p => pick2 (fst p) (snd p)) (combine gin xa))
                 (map (fun p => pick2 (fst p) (snd p)) (combine ein xb)) tables = Ok outl /\
      decode_outputs outw outl = Ok (eval_plain circ (xa ++ xb)).
  Proof.
    intros rng key gin ein outw tables xa xb E La Lb. unfold i_garble in E. apply Ok_inj in E.
    apply pair_equal_spec in E as [E <-]. apply pair_equal_spec in E as [E <-]. apply pair_equal_spec in E as [<- <-].
    set (pi := pi_of_key key). set (g := garble pi (rnd_labels rng) scratch circ).
    pose proof circ_le as Hle.
    destruct (garble_lengths pi (rnd_labels rng) scratch circ Hle) as [LW _]. fold g in LW.
    assert (Lx : length (xa ++ xb) = ninputs circ) by (rewrite app_length, La, Lb, circ_inputs; reflexivity).
    destruct (garble_decoded_outputs pi (rnd_labels rng) scratch circ (xa ++ xb) circ_wf Lx) as (ew & GE & DE).
    fold g in GE, DE.
    exists (map (fun o => nth o ew 0) (output_wires circ)). split.
    - unfold i_eval. fold pi.
      rewrite <- (garble_tables_shape pi (rnd_labels rng) scratch circ). fold g. rewrite chunks_concat.
      rewrite !map_pick2_combine_pair_of.
      assert (Enc : map (fun p => pick (fst p) (snd p)) (combine (firstn nI (gWires g)) xa)
                    ++ map (fun p => pick (fst p) (snd p)) (combine (firstn nI (skipn nI (gWires g))) xb)
                    ++ repeat 0 (nwires circ - nI - nI) = encode g circ (xa ++ xb)).
      { set (c2 := mkCirc2 circ nI nI [noutputs circ]).
        assert (W2 : wf2 c2 = true).
        { unfold wf2, c2, nI. cbn [cc n0 n1 outs fold_right].
          rewrite circ_wf, circ_inputs, Nat.add_0_r, !Nat.eqb_refl. reflexivity. }
        pose proof (encode_split pi (rnd_labels rng) scratch c2 xa xb W2 La Lb) as ES.
        cbv zeta in ES. unfold c2 in ES. cbn [cc n0 n1] in ES. fold g in ES. rewrite <- ES.
        unfold garbler_inputs, ot_wires. cbn [cc n0 n1].
        rewrite map_pick_firstn by (unfold nI in *; rewrite ?LW, ?circ_inputs in *; lia || exact La).
        replace (firstn nI xb) with xb by (symmetry; unfold nI; rewrite <- Lb; apply firstn_all). reflexivity. }
      rewrite Enc, GE. reflexivity.
    - apply (decode_outputs_map (fun o => nth o (gWires g) w0) (fun o => nth o ew 0)). exact DE.
  Qed.

  Lemma inst_garble_total : forall rng key, exists gin ein outw tables,
    i_garble rng key = Ok (gin, ein, outw, tables) /\
    length ein = hashInputBitCount /\ length outw = outputHintCount.
  Proof.
    intros rng key. unfold i_garble. do 4 eexists. split; [reflexivity|].
    pose proof circ_le as Hle.
    destruct (garble_lengths (pi_of_key key) (rnd_labels rng) scratch circ Hle) as [LW _].
    split.
    - rewrite map_length, firstn_length, skipn_length, LW. unfold nI. rewrite circ_inputs in Hle. lia.
    - rewrite map_length. unfold output_wires. rewrite seq_length. exact circ_outputs.
  Qed.

  Lemma inst_co_ot_correct : forall rng1 rng2 sid sid' bits ein,
    let '(a, (ax, ay), (ix, iy)) := i_gen_sender rng1 in
    length bits = hashInputBitCount -> length ein = length bits ->
    exists scalars points cts,
      i_build_choices rng2 ax ay bits = Ok (scalars, points) /\
      length scalars = length bits /\
      i_encrypt (mkGS sid (curve_name c) a ax ay ix iy) points ein = Ok cts /\
      i_decrypt (mkES sid' (curve_name c) ax ay scalars bits) cts
      = Ok (map (fun p => pick2 (fst p) (snd p)) (combine ein bits)).
  Proof.
    intros rng1 rng2 sid sid' bits ein. unfold i_gen_sender.
    set (a := sender_scalar rng1).
    destruct (s_A G (GenerateCOSenderSetup G gneg smul Gen a)) as [ax ay] eqn:EA.
    destruct (s_AaInv G (GenerateCOSenderSetup G gneg smul Gen a)) as [ix iy] eqn:EI.
    cbn [s_a GenerateCOSenderSetup].
    intros Lb Le.
    set (scs := map (receiver_scalar rng2) (seq 0 (length bits))).
    assert (Ls : length scs = length bits) by (unfold scs; rewrite map_length, seq_length; reflexivity).
    pose proof (co_correct G gadd gneg gzero smul Gen kdf gadd_assoc gadd_zero gadd_neg smul_add smul_comm
                  a scs bits (map wire_of ein) Ls ltac:(rewrite map_length; exact Le)) as CO.
    unfold co_transfer in CO. cbv zeta in CO.
    assert (ES : GenerateCOSenderSetup G gneg smul Gen a = mkSetup G a (ax, ay) (ix, iy)).
    { revert EA EI. unfold GenerateCOSenderSetup. cbn [s_A s_AaInv]. intros -> ->. reflexivity. }
    rewrite ES in CO. cbn [s_A] in CO.
    destruct (EncryptCOCiphertexts G gadd smul kdf (mkSetup G a (ax, ay) (ix, iy))
                (BuildCOChoices G gadd smul Gen (ax, ay) scs bits) (map wire_of ein)) as [cts|] eqn:EE; [|discriminate].
    exists scs, (BuildCOChoices G gadd smul Gen (ax, ay) scs bits), cts.
    split; [reflexivity|]. split; [exact Ls|]. split.
    - unfold i_encrypt. cbn [gs_scalar gs_ax gs_ay gs_ainvx gs_ainvy]. rewrite EE. reflexivity.
    - unfold i_decrypt. cbn [es_ax es_ay es_scalars es_bits]. rewrite CO, map_pick_combine_wire_of. reflexivity.
  Qed.

  Lemma inst_circ_out_len : forall x, length (eval_plain circ x) = outputHintCount.
  Proof. intros x. unfold eval_plain, output_wires. rewrite map_length, seq_length. exact circ_outputs. Qed.

  (* C18_protocol_correct_inst (Props/C18.v): the uninterrupted run of the four
     rounds with C01 garbling and the CO OT outputs SHA-256(a xor b), given
     only that the embedded circuit computes it *)
  Variable sha256xor : bytes -> bytes -> bytes.
  Hypothesis circuit_computes_sha256xor : forall a b, length a = 32%nat -> length b = 32%nat ->
    eval_plain circ (bytesToBitsLittle a ++ bytesToBitsLittle b) = bytesToBitsLittle (sha256xor a b).
  Hypothesis sha256xor_bytes : forall a b, Forall (fun x => x < 256) (sha256xor a b).

  Theorem protocol_sha256_inst rg1 re2 rg3 a b :
    length a = 32%nat -> length b = 32%nat ->
    run_protocol RND c i_gen_sender read_sid i_build_choices read_key i_garble i_encrypt i_decrypt
                 i_eval decompress 0 0 0 0 false false false rg1 re2 rg3 a b
    = Ok (sha256xor a b).
  Proof.
    apply (protocol_sha256_plain RND c i_gen_sender read_sid i_build_choices read_key i_garble i_encrypt
             i_decrypt i_eval decompress (eval_plain circ)
             inst_garbled_eval_correct inst_garble_total inst_co_ot_correct inst_circ_out_len
             sha256xor circuit_computes_sha256xor sha256xor_bytes).
  Qed.
End Inst.
