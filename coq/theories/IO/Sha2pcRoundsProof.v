(* Sha2pcRoundsProof.v — the validated rounds of IO/Sha2pcRounds.v (property C18).
   Round2 is canonical under the soundness of point decompression
   (decompress_sound), which the harness checks against
   elliptic.UnmarshalCompressed on every run (run_c18 kind 9 evaluates
   [unmarshal_compressed] on the implementation's answers).
   The round functions with their validation are total (Ok or a NAMED error
   for every argument, never Panic) and never return Ok on a message or
   session of the wrong round / curve / session — at the level of the Go
   values and at the level of byte strings. *)
From Coq Require Import ZArith NArith List Bool Arith Lia.
From Mpc Require Import Base.ListFacts IO.Sha2pcCodec IO.Sha2pcProof IO.Sha2pcRounds.
Import ListNotations.
Open Scope N_scope.

(* what the decoder of Round2 needs from elliptic.UnmarshalCompressed: an
   accepted (X, sign) yields the point with that X and a Y of that parity —
   i.e. compressing the answer gives back the encoding — and the point is on
   the curve *)
Definition decompress_sound (dec : curve -> N -> bool -> option (N * N)) : Prop :=
  forall c x odd P, dec c x odd = Some P ->
    fst P = x /\ N.odd (snd P) = odd /\ on_curve c P = true.

Lemma skipn_cons_nth {A} (d : A) : forall i l, (i < length l)%nat -> skipn i l = nth i l d :: skipn (S i) l.
Proof.
  induction i as [|i IH]; intros l H; destruct l as [|a l]; cbn [length] in H; try lia; [reflexivity|].
  cbn [skipn nth]. rewrite (IH l) by lia. reflexivity.
Qed.

Lemma decodePoints_pts_inv dec c signs : decompress_sound dec -> forall xs i pts,
  (i + length xs <= 8 * length signs)%nat ->
  decodePoints_pts dec c signs i xs = Ok pts ->
  map fst pts = xs /\
  map (fun p : N * N => N.odd (snd p)) pts = firstn (length xs) (skipn i (bytesToBitsLittle signs)) /\
  Forall (fun p => dec c (fst p) (N.odd (snd p)) = Some p /\ on_curve c p = true) pts.
Proof.
  intros S. induction xs as [|x xs IH]; intros i pts Hi H; cbn [decodePoints_pts] in H.
  - apply Ok_inj in H. subst pts. repeat split; constructor.
  - cbn [length] in Hi.
    rewrite pointSign_bits in H by (apply Nat.div_lt_upper_bound; lia). cbn [bind] in H.
    set (odd := nth i (bytesToBitsLittle signs) false) in *.
    destruct (dec c x odd) as [p|] eqn:D; [|discriminate].
    apply bind_ok_inv in H as (ps & R & H). apply Ok_inj in H. subst pts.
    apply IH in R; [|lia]. destruct R as (Mf & Mo & F).
    destruct (S c x odd p D) as (Ex & Eo & Eon).
    cbn [map length]. rewrite Mf, Mo, Ex, Eo. repeat split.
    + rewrite (skipn_cons_nth false i) by (rewrite bytesToBitsLittle_length; lia).
      cbn [firstn]. reflexivity.
    + constructor; [|exact F]. split; [|exact Eon]. rewrite Ex, Eo. exact D.
Qed.

Lemma decodePoints_canonical dec c rest pts : decompress_sound dec -> is_bytes rest ->
  decodePoints dec c rest = Ok pts ->
  encodePoints c pts = Ok rest /\ length pts = evaluatorCiphertextCount /\
  Forall (point_ok dec c) pts /\ Forall (fun p => on_curve c p = true) pts.
Proof.
  intros S B D.
  destruct (decodePoints_cases dec c rest) as [E|(xsb & signs & -> & Lx & Ls & E)]; rewrite E in D; [discriminate|].
  apply is_bytes_app in B as [Bx Bs].
  set (xs := split_be (byteLen c) evaluatorCiphertextCount xsb) in *.
  destruct (flat_split_be (byteLen c) evaluatorCiphertextCount xsb Lx Bx) as [Efl Ffl]. fold xs in Efl, Ffl.
  assert (Lxs : length xs = evaluatorCiphertextCount) by apply split_be_length.
  assert (Lbits : length (bytesToBitsLittle signs) = evaluatorCiphertextCount).
  { rewrite bytesToBitsLittle_length, Ls. reflexivity. }
  apply (decodePoints_pts_inv dec c signs S) in D; [|rewrite Lxs, Ls; apply Nat.leb_le; reflexivity].
  destruct D as (Mf & Mo & F). cbn [skipn] in Mo. rewrite Lxs, <- Lbits, firstn_all in Mo.
  assert (Lpts : length pts = evaluatorCiphertextCount) by (rewrite <- Lxs, <- Mf, map_length; reflexivity).
  split; [|split; [exact Lpts|split]].
  - unfold encodePoints. rewrite Lpts, Nat.eqb_refl. cbn [guard bind].
    rewrite Mf, write_fixed_list_ok by exact Ffl. cbn [bind].
    unfold packPointSigns. rewrite Mo, (bits_bytes_roundtrip signs Bs), Ls, Nat.eqb_refl, Efl. reflexivity.
  - rewrite <- Mf in Ffl. rewrite Forall_map in Ffl.
    rewrite Forall_forall in *. intros p Hp. split; [apply Ffl; exact Hp|apply (F p Hp)].
  - eapply Forall_impl; [|exact F]. intros p [_ Hon]. exact Hon.
Qed.

Theorem r2_canonical dec c bs m : decompress_sound dec -> is_bytes bs ->
  DecodeRound2 dec c bs = Ok m ->
  EncodeRound2 c m = Ok bs /\ wf_r2 dec c m /\ Forall (fun p => on_curve c p = true) (r2_choices m).
Proof.
  intros S B H. apply header_inv in H as (sid & r & -> & Ls & H).
  apply name_chunk_inv in H as (pre & rest & -> & Lp & M & H).
  apply bind_ok_inv in H as (pts & D & H). apply Ok_inj in H. subst m.
  apply is_bytes_app in B as [_ B]. apply is_bytes_app in B as [Bs B].
  specialize (M B). subst pre. rewrite !is_bytes_app in B. destruct B as (_ & _ & Brest).
  destruct (decodePoints_canonical dec c rest pts S Brest D) as (E & Lpts & Fp & Fon).
  split; [|split; [|exact Fon]].
  - unfold EncodeRound2. cbn [r2_sid r2_choices]. rewrite E. cbn [bind].
    rewrite write_chunk_name. rewrite be_s_of_be_s by assumption. reflexivity.
  - repeat split; cbn [r2_sid r2_name r2_choices]; try assumption. apply of_be_s_sid; assumption.
Qed.

(* the checker the harness runs on every answer of
   elliptic.UnmarshalCompressed (run_c18 kind 9): an answer it classifies as
   UCAccept is an instance of the conclusion of decompress_sound, and
   compressing the point gives back exactly the input bytes *)
Theorem unmarshal_accept_sound c pre xb y x' y' : is_bytes xb ->
  unmarshal_compressed c (pre :: xb) (Some y) = UCAccept x' y' ->
  x' = of_be_s xb /\ y' = y /\ N.odd y' = (pre =? 3) /\ on_curve c (x', y') = true /\
  compress c x' (N.odd y') = pre :: xb.
Proof.
  intros B H. unfold unmarshal_compressed in H.
  destruct ((length xb =? byteLen c)%nat && ((pre =? 2) || (pre =? 3))) eqn:E1; cbn [negb] in H; [|discriminate].
  apply andb_prop in E1. destruct E1 as [EL EP]. apply Nat.eqb_eq in EL.
  destruct (curve_p c <=? of_be_s xb) eqn:E2; [discriminate|]. apply N.leb_gt in E2.
  destruct ((y <? curve_p c) && (y * y mod curve_p c =? curve_rhs c (of_be_s xb)) && Bool.eqb (N.odd y) (pre =? 3)) eqn:E3;
    [|discriminate].
  injection H as <- <-.
  apply andb_prop in E3. destruct E3 as [E3 Epar]. apply andb_prop in E3. destruct E3 as [Ey Eeq].
  apply Bool.eqb_prop in Epar.
  repeat split; try assumption.
  - unfold on_curve. cbn [fst snd]. rewrite Ey, Eeq. apply N.ltb_lt in E2. rewrite E2. reflexivity.
  - unfold compress. rewrite Epar, be_s_of_be_s by assumption. f_equal.
    apply orb_prop in EP. destruct EP as [EP|EP]; apply N.eqb_eq in EP; subst pre; reflexivity.
Qed.

(* everything but 0x02 / 0x03 ‖ byteLen bytes with X below the field prime is
   rejected whatever the implementation answers: wrong prefix byte (0x00, 0x04,
   0x05, ...), wrong length (incl. empty, all-zero "infinity" encodings of
   other lengths), X >= p *)
Theorem unmarshal_rejects_noncanonical c data answer :
  (match data with
   | [] => True
   | pre :: xb => length xb <> byteLen c \/ (pre <> 2 /\ pre <> 3) \/ curve_p c <= of_be_s xb
   end) ->
  unmarshal_compressed c data answer = UCReject.
Proof.
  destruct data as [|pre xb]; intros H; [reflexivity|]. unfold unmarshal_compressed.
  destruct H as [H|[[H2 H3]|H]].
  - apply Nat.eqb_neq in H. rewrite H. reflexivity.
  - apply N.eqb_neq in H2. apply N.eqb_neq in H3. rewrite H2, H3, andb_false_r. reflexivity.
  - destruct (negb _); [reflexivity|]. apply N.leb_le in H. rewrite H. reflexivity.
Qed.

Definition dec_base : curve -> N -> bool -> option (N * N) := fun c x odd =>
  let g := curve_g c in
  if (x =? fst g) && Bool.eqb odd (N.odd (snd g)) then Some g else None.

Lemma base_on_curve c : on_curve c (curve_g c) = true.
Proof. destruct c; vm_compute; reflexivity. Qed.

Example decompress_sound_inhabited :
  decompress_sound dec_base /\
  forall c, dec_base c (fst (curve_g c)) (N.odd (snd (curve_g c))) = Some (curve_g c).
Proof.
  split.
  - intros c x odd P H. unfold dec_base in H.
    destruct ((x =? fst (curve_g c)) && Bool.eqb odd (N.odd (snd (curve_g c)))) eqn:E; [|discriminate].
    injection H as <-. apply andb_prop in E. destruct E as [E1 E2].
    apply N.eqb_eq in E1. apply Bool.eqb_prop in E2. repeat split; [congruence|congruence|apply base_on_curve].
  - intros c. unfold dec_base. rewrite N.eqb_refl, Bool.eqb_reflx. reflexivity.
Qed.

Lemma base_fits c : fits2 (byteLen c) (curve_g c).
Proof. split; unfold fits; destruct c; vm_compute; reflexivity. Qed.

(* so r2_canonical is not vacuous *)
Example r2_canonical_inhabited : chunk_limit_ok -> forall c,
  exists bs m, DecodeRound2 dec_base c bs = Ok m.
Proof.
  intros L c.
  set (m := mkR2 7 (curve_name c) (repeat (curve_g c) evaluatorCiphertextCount)).
  destruct (r2_roundtrip L dec_base c m) as (b & _ & D & _).
  - unfold wf_r2, m. cbn [r2_sid r2_name r2_choices].
    split; [vm_compute; reflexivity|]. split; [reflexivity|]. split; [apply repeat_length|].
    apply Forall_repeat. split; [apply base_fits|apply decompress_sound_inhabited].
  - exists b, m. exact D.
Qed.

(* [vres] is handled like [res]: [<> VPanic] goals by [auto with np] (the
   [vnp_*] lemmas), a [VOk] result of a bind chain one step at a time *)

Lemma vbind_ok_inv {A B} (r : vres A) (f : A -> vres B) b :
  vbind r f = VOk b -> exists a, r = VOk a /\ f a = VOk b.
Proof. destruct r; cbn; intros H; try discriminate. eexists; split; [reflexivity|exact H]. Qed.

Lemma vguard_bind_inv {B} c e (r : vres B) b : vbind (vguard c e) (fun _ => r) = VOk b -> c = true /\ r = VOk b.
Proof. destruct c; [split; [reflexivity|assumption]|discriminate]. Qed.

Lemma vbind_np {A B} (r : vres A) (f : A -> vres B) :
  r <> VPanic -> (forall a, r = VOk a -> f a <> VPanic) -> vbind r f <> VPanic.
Proof. destruct r; cbn; intros H1 H2; [apply H2; reflexivity|discriminate|contradiction]. Qed.

Lemma vbind_np_all {A B} (r : vres A) (f : A -> vres B) :
  r <> VPanic -> (forall a, f a <> VPanic) -> vbind r f <> VPanic.
Proof. intros H1 H2. apply vbind_np; [exact H1|]. intros a _. apply H2. Qed.

Lemma vnp_VOk {A} (a : A) : VOk a <> VPanic.
Proof. discriminate. Qed.

Lemma vnp_VErr {A} e : @VErr A e <> VPanic.
Proof. discriminate. Qed.

Lemma vnp_vguard b e : vguard b e <> VPanic.
Proof. destruct b; discriminate. Qed.

Lemma vnp_of_res {A} e (r : res A) : not_panic r -> of_res e r <> VPanic.
Proof. destruct r; cbn; intros H; [discriminate|discriminate|contradiction]. Qed.

#[local] Hint Resolve vbind_np_all vnp_VOk vnp_VErr vnp_vguard vnp_of_res : np.
#[local] Hint Extern 1 (match ?x with pair _ _ => _ end <> VPanic) => destruct x : np.

Lemma of_res_ok_inv {A} e (r : res A) a : of_res e r = VOk a -> r = Ok a.
Proof. destruct r; cbn; intros H; try discriminate. injection H as <-. reflexivity. Qed.

Lemma erase_vbind {A B} (r : vres A) (f : A -> vres B) (g : A -> res B) :
  (forall a, erase (f a) = g a) -> erase (vbind r f) = bind (erase r) g.
Proof. intros H. destruct r; [apply H|reflexivity|reflexivity]. Qed.

Lemma erase_vguard {B} b e (r : vres B) (r' : res B) :
  erase r = r' -> erase (vbind (vguard b e) (fun _ => r)) = (_ <- guard b ;; r').
Proof. intros H. destruct b; [exact H|reflexivity]. Qed.

Lemma erase_of_res {A B} e (r : res A) (f : A -> vres B) (g : A -> res B) :
  (forall a, erase (f a) = g a) -> erase (vbind (of_res e r) f) = bind r g.
Proof. intros H. destruct r; [apply H|reflexivity|reflexivity]. Qed.

Lemma np_bitFromLabel w l : not_panic (bitFromLabel w l).
Proof. unfold bitFromLabel. destruct (l =? fst w); [discriminate|]. destruct (l =? snd w); discriminate. Qed.

Lemma vnp_decode_outputs_v : forall hints ls, decode_outputs_v hints ls <> VPanic.
Proof.
  pose proof np_bitFromLabel.
  induction hints as [|w ws IH]; intros ls; cbn [decode_outputs_v]; auto 6 with np.
Qed.

Lemma erase_decode_outputs : forall hints ls, erase (decode_outputs_v hints ls) = decode_outputs hints ls.
Proof.
  induction hints as [|w ws IH]; intros ls; cbn [decode_outputs_v decode_outputs]; [reflexivity|].
  apply erase_of_res. intros b. rewrite <- IH. apply erase_vbind. reflexivity.
Qed.

Lemma decode_outputs_v_length : forall hints ls bits,
  decode_outputs_v hints ls = VOk bits -> length bits = length hints.
Proof.
  induction hints as [|w ws IH]; intros ls bits H; cbn [decode_outputs_v] in H.
  - injection H as <-. reflexivity.
  - apply vbind_ok_inv in H as (b & _ & H). apply vbind_ok_inv in H as (bs & R & H). injection H as <-.
    cbn [length]. f_equal. eapply IH; exact R.
Qed.

Lemma np_check_name c name : not_panic (check_name c name).
Proof. unfold check_name. destruct (bytes_eqb _ _); discriminate. Qed.

Lemma np_write_fixed bl v : fits bl v -> not_panic (write_fixed bl v).
Proof. intros F. rewrite write_fixed_ok by exact F. discriminate. Qed.

Lemma np_write_fixed_list bl vs : Forall (fits bl) vs -> not_panic (write_fixed_list bl vs).
Proof. intros F. rewrite write_fixed_list_ok by exact F. discriminate. Qed.

#[local] Hint Resolve np_check_name np_write_fixed np_write_fixed_list : np.

(* the encoders reach Panic only through writeFixedBigInt on a value that
   does not fit the curve's field width *)
Lemma np_EncodeRound1 c m : fits (byteLen c) (r1_ax m) -> fits (byteLen c) (r1_ay m) ->
  not_panic (EncodeRound1 c m).
Proof. intros Fx Fy. unfold EncodeRound1, encodeOTSetup. auto 10 with np. Qed.

Lemma np_EncodeGarblerSession c s :
  Forall (fits (byteLen c)) [gs_scalar s; gs_ax s; gs_ay s; gs_ainvx s; gs_ainvy s] ->
  not_panic (EncodeGarblerSession c s).
Proof. intros F. unfold EncodeGarblerSession, encodeCOSenderSetup. auto 8 with np. Qed.

Lemma np_EncodeRound2 c m : Forall (fits (byteLen c)) (map fst (r2_choices m)) -> not_panic (EncodeRound2 c m).
Proof. intros F. unfold EncodeRound2, encodePoints. auto 10 with np. Qed.

Lemma np_EncodeEvaluatorSession c s :
  fits (byteLen c) (es_ax s) -> fits (byteLen c) (es_ay s) -> Forall (fits (byteLen c)) (es_scalars s) ->
  not_panic (EncodeEvaluatorSession c s).
Proof.
  intros Fx Fy F. assert (Fa : Forall (fits (byteLen c)) [es_ax s; es_ay s]) by (repeat constructor; assumption).
  unfold EncodeEvaluatorSession, encodeChoiceBundle. auto 16 with np.
Qed.

Lemma np_EncodeRound3 m : not_panic (EncodeRound3 m).
Proof. unfold EncodeRound3, EncodeRound3_gen. auto 12 with np. Qed.

Section VProofs.
  Variable RND : Type.
  Variable gen_sender_core : RND -> curve -> vres (N * (N * N) * (N * N)).
  Variable read_sid_core : RND -> vres N.
  Variable choices_core : RND -> curve -> N -> N -> list bool -> vres (list N * list (N * N)).
  Variable read_key_core : RND -> vres bytes.
  Variable garble_core : RND -> bytes -> vres (list (N * N) * list (N * N) * list (N * N) * list N).
  Variable encrypt_core : curve -> gsession -> list (N * N) -> list (N * N) -> list (N * N).
  Variable decrypt_core : curve -> esession -> list (N * N) -> list N.
  Variable eval_core : bytes -> list N -> list N -> list N -> vres (list N).
  Variable decompress : curve -> N -> bool -> option (N * N).

  Notation GR1 := (GarblerRound1_v RND gen_sender_core read_sid_core).
  Notation ER2 := (EvaluatorRound2_v RND choices_core).
  Notation GR3 := (GarblerRound3_v RND read_key_core garble_core encrypt_core).
  Notation ER4 := (EvaluatorRound4_v decrypt_core eval_core).
  Notation step1 := (garbler_step1 RND gen_sender_core read_sid_core).
  Notation step2 := (evaluator_step2 RND choices_core).
  Notation step3 := (garbler_step3 RND read_key_core garble_core encrypt_core decompress).
  Notation step4 := (evaluator_step4 decrypt_core eval_core).

  (* what an Ok result implies (for ALL cores): never Ok on a nil
     argument, another session id, another curve name, or points that are not
     on the curve the round is run with *)
  Theorem round1_ok_inv orng oc m1 gs : GR1 orng oc = VOk (m1, gs) ->
    exists rng c, orng = Some rng /\ oc = Some c /\
      r1_name m1 = curve_name c /\ gs_name gs = curve_name c /\ r1_sid m1 = gs_sid gs /\
      r1_ax m1 = gs_ax gs /\ r1_ay m1 = gs_ay gs.
  Proof.
    unfold GarblerRound1_v. destruct orng as [rng|]; [|discriminate]. destruct oc as [c|]; [|discriminate].
    intros H. apply vbind_ok_inv in H as ([[a [ax ay]] [ix iy]] & _ & H).
    apply vbind_ok_inv in H as (sid & _ & H). injection H as <- <-.
    exists rng, c. repeat split.
  Qed.

  Theorem round2_ok_inv orng oc msg b m2 es : ER2 orng oc msg b = VOk (m2, es) ->
    exists rng c scalars points, orng = Some rng /\ oc = Some c /\
      r1_name msg = curve_name c /\ on_curve c (r1_ax msg, r1_ay msg) = true /\
      choices_core rng c (r1_ax msg) (r1_ay msg) (bytesToBitsLittle b) = VOk (scalars, points) /\
      m2 = mkR2 (r1_sid msg) (curve_name c) points /\
      es = mkES (r1_sid msg) (curve_name c) (r1_ax msg) (r1_ay msg) scalars (bytesToBitsLittle b).
  Proof.
    unfold EvaluatorRound2_v. destruct orng as [rng|]; [|discriminate]. destruct oc as [c|]; [|discriminate].
    intros H. apply vguard_bind_inv in H as [G1 H]. apply bytes_eqb_eq in G1.
    apply vguard_bind_inv in H as [_ H].
    apply vbind_ok_inv in H as ([scalars points] & Bc & H). injection H as <- <-.
    apply vguard_bind_inv in Bc as [G3 Bc].
    exists rng, c, scalars, points. repeat split; assumption.
  Qed.

  Theorem round3_ok_inv orng oc ost sn a req m3 : GR3 orng oc ost sn a req = VOk m3 ->
    exists rng c st, orng = Some rng /\ oc = Some c /\ ost = Some st /\ sn = false /\
      r2_sid req = gs_sid st /\ r3_sid m3 = gs_sid st /\
      on_curve c (gs_ax st, gs_ay st) = true /\ on_curve c (gs_ainvx st, gs_ainvy st) = true /\
      forallb (on_curve c) (r2_choices req) = true.
  Proof.
    unfold GarblerRound3_v. destruct orng as [rng|]; [|discriminate]. destruct ost as [st|]; [|discriminate].
    destruct sn; [discriminate|]. destruct oc as [c|]; [|discriminate].
    intros H. apply vguard_bind_inv in H as [G1 H]. apply N.eqb_eq in G1.
    apply vbind_ok_inv in H as (key & _ & H).
    apply vbind_ok_inv in H as ([[[gin ein] outw] tables] & _ & H).
    apply vguard_bind_inv in H as [_ H].
    apply vbind_ok_inv in H as (cts & E & H). injection H as <-.
    apply vguard_bind_inv in E as [G3 E]. apply vguard_bind_inv in E as [G4 E].
    apply vguard_bind_inv in E as [_ E]. apply vguard_bind_inv in E as [G6 E].
    exists rng, c, st. repeat split; assumption.
  Qed.

  Theorem round4_ok_inv oc ost msg d : ER4 oc ost msg = VOk d ->
    exists c st, oc = Some c /\ ost = Some st /\ es_scalars st <> [] /\ r3_sid msg = es_sid st /\
      length (es_scalars st) = length (es_bits st) /\ length (r3_cts msg) = length (es_bits st) /\
      on_curve c (es_ax st, es_ay st) = true /\ length (r3_hints msg) = outputHintCount /\
      length d = 32%nat.
  Proof.
    unfold EvaluatorRound4_v. destruct ost as [st|]; [|discriminate].
    destruct (length (es_scalars st) =? 0)%nat eqn:E0; [discriminate|]. destruct oc as [c|]; [|discriminate].
    intros H. apply vguard_bind_inv in H as [G1 H]. apply N.eqb_eq in G1.
    apply vbind_ok_inv in H as (labels & D & H).
    apply vbind_ok_inv in H as (outl & _ & H).
    apply vguard_bind_inv in H as [G2 H]. apply Nat.eqb_eq in G2.
    apply vbind_ok_inv in H as (bits & _ & H).
    apply vguard_bind_inv in H as [G3 H]. apply Nat.eqb_eq in G3. injection H as <-.
    apply vguard_bind_inv in D as [G4 D]. apply andb_prop in G4 as [G4a G4b].
    apply Nat.eqb_eq in G4a. apply Nat.eqb_eq in G4b.
    apply vguard_bind_inv in D as [G5 D].
    exists c, st. repeat split; try assumption.
    intros En. rewrite En in E0. discriminate.
  Qed.

  (* the NAMED error of every validation step, in the order of the code *)
  Theorem rounds_named_errors :
    (forall oc, GR1 None oc = VErr ENilRandom) /\
    (forall rng, GR1 (Some rng) None = VErr ENilCurve) /\
    (forall oc msg b, ER2 None oc msg b = VErr ENilRandom) /\
    (forall rng msg b, ER2 (Some rng) None msg b = VErr ENilCurve) /\
    (forall rng c msg b, r1_name msg <> curve_name c -> ER2 (Some rng) (Some c) msg b = VErr ECurveMismatch) /\
    (forall rng c msg b, r1_name msg = curve_name c -> length b = 32%nat ->
       on_curve c (r1_ax msg, r1_ay msg) = false -> ER2 (Some rng) (Some c) msg b = VErr EPointNotOnCurve) /\
    (forall oc ost sn a req, GR3 None oc ost sn a req = VErr ENilRandom) /\
    (forall rng oc sn a req, GR3 (Some rng) oc None sn a req = VErr EInvalidGarblerSession) /\
    (forall rng oc st a req, GR3 (Some rng) oc (Some st) true a req = VErr EInvalidGarblerSession) /\
    (forall rng st a req, GR3 (Some rng) None (Some st) false a req = VErr ENilCurve) /\
    (forall rng c st a req, r2_sid req <> gs_sid st ->
       GR3 (Some rng) (Some c) (Some st) false a req = VErr ESessionMismatch) /\
    (forall oc msg, ER4 oc None msg = VErr EInvalidEvaluatorState) /\
    (forall oc st msg, es_scalars st = [] -> ER4 oc (Some st) msg = VErr EInvalidEvaluatorState) /\
    (forall st msg, es_scalars st <> [] -> ER4 None (Some st) msg = VErr ENilCurve) /\
    (forall c st msg, es_scalars st <> [] -> r3_sid msg <> es_sid st ->
       ER4 (Some c) (Some st) msg = VErr ESessionMismatch) /\
    (forall c st msg, es_scalars st <> [] -> r3_sid msg = es_sid st ->
       (length (es_scalars st) <> length (es_bits st) \/ length (r3_cts msg) <> length (es_bits st)) ->
       ER4 (Some c) (Some st) msg = VErr EBundle) /\
    (forall c st msg, es_scalars st <> [] -> r3_sid msg = es_sid st ->
       length (es_scalars st) = length (es_bits st) -> length (r3_cts msg) = length (es_bits st) ->
       on_curve c (es_ax st, es_ay st) = false -> ER4 (Some c) (Some st) msg = VErr EPointNotOnCurve).
  Proof.
    assert (NE : forall st, es_scalars st <> [] -> (length (es_scalars st) =? 0)%nat = false).
    { intros st H. destruct (es_scalars st); [contradiction|reflexivity]. }
    (* the nil checks come first in each round: those hold by computation *)
    repeat match goal with |- _ /\ _ => split end; try reflexivity.
    - intros rng c msg b H. unfold EvaluatorRound2_v. rewrite (bytes_eqb_neq _ _ H). reflexivity.
    - intros rng c msg b Hn Lb Hc. unfold EvaluatorRound2_v. rewrite Hn, bytes_eqb_refl. cbn [vguard vbind].
      rewrite bytesToBitsLittle_length, Lb. change (8 * 32 =? hashInputBitCount)%nat with true. cbn [vguard vbind].
      unfold BuildCOChoices_v. rewrite Hc. reflexivity.
    - intros rng c st a req H. unfold GarblerRound3_v. apply N.eqb_neq in H. rewrite H. reflexivity.
    - intros oc st msg H. unfold EvaluatorRound4_v. rewrite H. reflexivity.
    - intros st msg H. unfold EvaluatorRound4_v. rewrite (NE st H). reflexivity.
    - intros c st msg H Hs. unfold EvaluatorRound4_v. rewrite (NE st H). apply N.eqb_neq in Hs. rewrite Hs. reflexivity.
    - intros c st msg H Hs Hl. unfold EvaluatorRound4_v. rewrite (NE st H), Hs, N.eqb_refl. cbn [vguard vbind].
      unfold DecryptCOCiphertexts_v.
      replace ((length (es_scalars st) =? length (es_bits st))%nat && (length (r3_cts msg) =? length (es_bits st))%nat)
        with false; [reflexivity|].
      symmetry. apply andb_false_iff. destruct Hl as [Hl|Hl]; [left|right]; apply Nat.eqb_neq; exact Hl.
    - intros c st msg H Hs L1 L2 Hc. unfold EvaluatorRound4_v. rewrite (NE st H), Hs, N.eqb_refl. cbn [vguard vbind].
      unfold DecryptCOCiphertexts_v. rewrite L1, L2, !Nat.eqb_refl. cbn [andb vguard vbind]. rewrite Hc. reflexivity.
  Qed.

  Section Total.
    Hypothesis gen_np : forall rng c, gen_sender_core rng c <> VPanic.
    Hypothesis sid_np : forall rng, read_sid_core rng <> VPanic.
    Hypothesis choices_np : forall rng c ax ay bits, choices_core rng c ax ay bits <> VPanic.
    Hypothesis key_np : forall rng, read_key_core rng <> VPanic.
    Hypothesis garble_np : forall rng key, garble_core rng key <> VPanic.
    Hypothesis eval_np : forall key ins labels tables, eval_core key ins labels tables <> VPanic.

    Lemma GR1_total orng oc : GR1 orng oc <> VPanic.
    Proof.
      unfold GarblerRound1_v. destruct orng as [rng|]; [|discriminate]. destruct oc as [c|]; [|discriminate].
      auto 8 with np.
    Qed.

    Lemma ER2_total orng oc msg b : ER2 orng oc msg b <> VPanic.
    Proof.
      unfold EvaluatorRound2_v, BuildCOChoices_v. destruct orng as [rng|]; [|discriminate].
      destruct oc as [c|]; [|discriminate]. auto 8 with np.
    Qed.

    Lemma GR3_total orng oc ost sn a req : GR3 orng oc ost sn a req <> VPanic.
    Proof.
      unfold GarblerRound3_v, EncryptCOCiphertexts_v. destruct orng as [rng|]; [|discriminate].
      destruct ost as [st|]; [|discriminate]. destruct sn; [discriminate|]. destruct oc as [c|]; [|discriminate].
      auto 16 with np.
    Qed.

    Lemma ER4_total oc ost msg : ER4 oc ost msg <> VPanic.
    Proof.
      pose proof vnp_decode_outputs_v.
      unfold EvaluatorRound4_v, DecryptCOCiphertexts_v. destruct ost as [st|]; [|discriminate].
      destruct (length (es_scalars st) =? 0)%nat; [discriminate|]. destruct oc as [c|]; [|discriminate].
      auto 12 with np.
    Qed.

    Theorem rounds_total :
      (forall orng oc, GR1 orng oc <> VPanic) /\
      (forall orng oc msg b, ER2 orng oc msg b <> VPanic) /\
      (forall orng oc ost sn a req, GR3 orng oc ost sn a req <> VPanic) /\
      (forall oc ost msg, ER4 oc ost msg <> VPanic).
    Proof. exact (conj GR1_total (conj ER2_total (conj GR3_total ER4_total))). Qed.

    (* byte level, rounds 3 and 4: EVERY pair of byte strings (any list of
       numbers, even) as stored session and incoming message *)
    Theorem steps34_total :
      (forall orng oc gsb a msg2, step3 orng oc gsb a msg2 <> VPanic) /\
      (forall oc esb msg3, step4 oc esb msg3 <> VPanic).
    Proof.
      pose proof no_panic_gs. pose proof no_panic_r2. pose proof no_panic_es. pose proof no_panic_r3.
      pose proof np_EncodeRound3. pose proof GR3_total. pose proof ER4_total.
      split.
      - intros orng oc gsb a msg2. unfold garbler_step3. destruct oc as [c|]; [|discriminate]. auto 8 with np.
      - intros oc esb msg3. unfold evaluator_step4. destruct oc as [c|]; [|discriminate]. auto 8 with np.
    Qed.

    (* byte level, rounds 1 and 2: the results are encoded with
       writeFixedBigInt, which panics on a value wider than the field — the
       sampled scalars and computed coordinates must fit (they are reduced
       mod N / field elements in the implementation) *)
    Hypothesis gen_fit : forall rng c a ax ay ix iy,
      gen_sender_core rng c = VOk (a, (ax, ay), (ix, iy)) -> Forall (fits (byteLen c)) [a; ax; ay; ix; iy].
    Hypothesis choices_fit : forall rng c ax ay bits scalars points,
      choices_core rng c ax ay bits = VOk (scalars, points) ->
      Forall (fits (byteLen c)) scalars /\ Forall (fits (byteLen c)) (map fst points).

    Theorem steps12_total :
      (forall orng oc, step1 orng oc <> VPanic) /\
      (forall orng oc msg1 b, is_bytes msg1 -> step2 orng oc msg1 b <> VPanic).
    Proof.
      split.
      - intros orng oc. unfold garbler_step1. apply vbind_np; [apply GR1_total|]. intros [m1 gs] H.
        unfold GarblerRound1_v in H. destruct orng as [rng|]; [|discriminate]. destruct oc as [c|]; [|discriminate].
        apply vbind_ok_inv in H as ([[a [ax ay]] [ix iy]] & G & H).
        apply vbind_ok_inv in H as (sid & _ & H). injection H as <- <-.
        pose proof (gen_fit _ _ _ _ _ _ _ G) as F.
        pose proof (Forall_inv (Forall_inv_tail F)) as Fax. pose proof (Forall_inv (Forall_inv_tail (Forall_inv_tail F))) as Fay.
        pose proof (np_EncodeRound1 c (mkR1 sid (curve_name c) ax ay) Fax Fay).
        pose proof (np_EncodeGarblerSession c (mkGS sid (curve_name c) a ax ay ix iy) F).
        auto 8 with np.
      - intros orng oc msg1 b B. unfold evaluator_step2. destruct oc as [c|]; [|discriminate].
        apply vbind_np; [apply vnp_of_res, no_panic_r1|]. intros m1 D. apply of_res_ok_inv in D.
        destruct (r1_canonical c msg1 m1 B D) as [_ (_ & _ & Fx & Fy)].
        apply vbind_np; [apply ER2_total|]. intros [m2 es] H.
        apply round2_ok_inv in H. destruct H as (rng & c' & scalars & points & _ & Ec & _ & _ & Ch & -> & ->).
        injection Ec as <-.
        destruct (choices_fit _ _ _ _ _ _ _ Ch) as [Fs Fp].
        pose proof (np_EncodeRound2 c (mkR2 (r1_sid m1) (curve_name c) points) Fp).
        pose proof (np_EncodeEvaluatorSession c (mkES (r1_sid m1) (curve_name c) (r1_ax m1) (r1_ay m1) scalars (bytesToBitsLittle b)) Fx Fy Fs).
        auto 8 with np.
    Qed.
  End Total.

  Theorem step2_ok_inv orng oc msg1 b out : step2 orng oc msg1 b = VOk out ->
    exists rng c m1, orng = Some rng /\ oc = Some c /\ DecodeRound1 c msg1 = Ok m1 /\
      on_curve c (r1_ax m1, r1_ay m1) = true.
  Proof.
    unfold evaluator_step2. destruct oc as [c|]; [|discriminate]. intros H.
    apply vbind_ok_inv in H as (m1 & D & H). apply of_res_ok_inv in D.
    apply vbind_ok_inv in H as ([m2 es] & R & _).
    apply round2_ok_inv in R. destruct R as (rng & c' & _ & _ & -> & Ec & _ & On & _). injection Ec as <-.
    exists rng, c, m1. repeat split; assumption.
  Qed.

  Theorem step3_ok_inv orng oc gsb a msg2 out : step3 orng oc gsb a msg2 = VOk out ->
    exists rng c gs m2, orng = Some rng /\ oc = Some c /\
      DecodeGarblerSession c gsb = Ok gs /\ DecodeRound2 decompress c msg2 = Ok m2 /\
      r2_sid m2 = gs_sid gs /\
      on_curve c (gs_ax gs, gs_ay gs) = true /\ on_curve c (gs_ainvx gs, gs_ainvy gs) = true /\
      forallb (on_curve c) (r2_choices m2) = true.
  Proof.
    unfold garbler_step3. destruct oc as [c|]; [|discriminate]. intros H.
    apply vbind_ok_inv in H as (gs & D1 & H). apply of_res_ok_inv in D1.
    apply vbind_ok_inv in H as (m2 & D2 & H). apply of_res_ok_inv in D2.
    apply vbind_ok_inv in H as (m3 & R & _).
    apply round3_ok_inv in R. destruct R as (rng & c' & st & -> & Ec & Es & _ & Sid & _ & O1 & O2 & O3).
    injection Ec as <-. injection Es as <-.
    exists rng, c, gs, m2. repeat split; assumption.
  Qed.

  Theorem step4_ok_inv oc esb msg3 d : step4 oc esb msg3 = VOk d ->
    exists c es m3, oc = Some c /\ DecodeEvaluatorSession c esb = Ok es /\ DecodeRound3 msg3 = Ok m3 /\
      r3_sid m3 = es_sid es /\ on_curve c (es_ax es, es_ay es) = true /\ length d = 32%nat.
  Proof.
    unfold evaluator_step4. destruct oc as [c|]; [|discriminate]. intros H.
    apply vbind_ok_inv in H as (es & D1 & H). apply of_res_ok_inv in D1.
    apply vbind_ok_inv in H as (m3 & D2 & H). apply of_res_ok_inv in D2.
    apply round4_ok_inv in H. destruct H as (c' & st & Ec & Es & _ & Sid & _ & _ & On & _ & Ld).
    injection Ec as <-. injection Es as <-.
    exists c, es, m3. repeat split; assumption.
  Qed.

  Lemma step2_decode_fail orng c msg1 b : DecodeRound1 c msg1 = Err -> step2 orng (Some c) msg1 b = VErr EDecode.
  Proof. intros H. unfold evaluator_step2. rewrite H. reflexivity. Qed.

  Lemma decode2_fail {A B C} (r1 : res A) (r2 : res B) (k : A -> B -> vres C) :
    not_panic r1 -> r1 = Err \/ r2 = Err ->
    vbind (of_res EDecode r1) (fun a => vbind (of_res EDecode r2) (k a)) = VErr EDecode.
  Proof.
    intros NP H. destruct r1 as [a| |]; cbn [of_res vbind]; [|reflexivity|contradiction].
    destruct H as [H|H]; [discriminate|]. rewrite H. reflexivity.
  Qed.

  Lemma step3_decode_fail orng c gsb a msg2 :
    DecodeGarblerSession c gsb = Err \/ DecodeRound2 decompress c msg2 = Err ->
    step3 orng (Some c) gsb a msg2 = VErr EDecode.
  Proof. apply decode2_fail, no_panic_gs. Qed.

  Lemma step4_decode_fail c esb msg3 :
    DecodeEvaluatorSession c esb = Err \/ DecodeRound3 msg3 = Err -> step4 (Some c) esb msg3 = VErr EDecode.
  Proof. apply decode2_fail, no_panic_es. Qed.

  (* bytes of another round / another kind of state (another magic) *)
  Theorem steps_reject_wrong_round c orng :
    (forall msg1 b, firstn 2 msg1 <> magicRound1 -> step2 orng (Some c) msg1 b = VErr EDecode) /\
    (forall gsb a msg2, firstn 2 gsb <> magicGarblerSession \/ firstn 2 msg2 <> magicRound2 ->
       step3 orng (Some c) gsb a msg2 = VErr EDecode) /\
    (forall esb msg3, firstn 2 esb <> magicEvalSession \/ firstn 2 msg3 <> magicRound3 ->
       step4 (Some c) esb msg3 = VErr EDecode).
  Proof.
    repeat split.
    - intros msg1 b H. apply step2_decode_fail, reject_magic_r1, H.
    - intros gsb a msg2 [H|H]; apply step3_decode_fail; [left; apply reject_magic_gs, H|right; apply reject_magic_r2, H].
    - intros esb msg3 [H|H]; apply step4_decode_fail; [left; apply reject_magic_es, H|right; apply reject_magic_r3, H].
  Qed.

  (* the encoding of EVERY well-formed message / session of another curve *)
  Theorem steps_reject_other_curve : chunk_limit_ok -> forall c c' orng, c <> c' ->
    (forall m msg1 b, wf_r1 c m -> EncodeRound1 c m = Ok msg1 -> step2 orng (Some c') msg1 b = VErr EDecode) /\
    (forall gsb a m msg2, EncodeRound2 c m = Ok msg2 -> step3 orng (Some c') gsb a msg2 = VErr EDecode) /\
    (forall s gsb a msg2, wf_gs c s -> EncodeGarblerSession c s = Ok gsb ->
       step3 orng (Some c') gsb a msg2 = VErr EDecode) /\
    (forall s esb msg3, wf_es c s -> EncodeEvaluatorSession c s = Ok esb ->
       step4 (Some c') esb msg3 = VErr EDecode).
  Proof.
    intros L c c' orng Hc. repeat split.
    - intros m msg1 b W E. apply step2_decode_fail. exact (reject_curve_r1 L c c' m msg1 Hc W E).
    - intros gsb a m msg2 E. apply step3_decode_fail. right. exact (reject_curve_r2 L decompress c c' m msg2 Hc E).
    - intros s gsb a msg2 W E. apply step3_decode_fail. left. exact (reject_curve_gs L c c' s gsb Hc W E).
    - intros s esb msg3 W E. apply step4_decode_fail. left. exact (reject_curve_es L c c' s esb Hc W E).
  Qed.

  (* a message of another session (the decoders cannot know the expected id) *)
  Theorem steps_reject_other_session c rng :
    (forall gsb a msg2 gs m2, DecodeGarblerSession c gsb = Ok gs -> DecodeRound2 decompress c msg2 = Ok m2 ->
       r2_sid m2 <> gs_sid gs -> step3 (Some rng) (Some c) gsb a msg2 = VErr ESessionMismatch) /\
    (forall esb msg3 es m3, DecodeEvaluatorSession c esb = Ok es -> DecodeRound3 msg3 = Ok m3 ->
       r3_sid m3 <> es_sid es -> step4 (Some c) esb msg3 = VErr ESessionMismatch).
  Proof.
    split.
    - intros gsb a msg2 gs m2 D1 D2 H. unfold garbler_step3. rewrite D1, D2. cbn [of_res vbind].
      unfold GarblerRound3_v. apply N.eqb_neq in H. rewrite H. reflexivity.
    - intros esb msg3 es m3 D1 D2 H. unfold evaluator_step4. rewrite D1, D2. cbn [of_res vbind].
      unfold EvaluatorRound4_v. rewrite (es_scalars_len _ _ _ D1).
      change (evaluatorCiphertextCount =? 0)%nat with false. cbv iota.
      apply N.eqb_neq in H. rewrite H. reflexivity.
  Qed.

  (* the validated rounds are the rounds of Sha2pcCodec.v (about which
     C18_resume / C18_protocol_correct speak) with the opaque functions
     instantiated by (validation ; core), the error names forgotten *)
  Definition old_build_choices (c : curve) : RND -> N -> N -> list bool -> res (list N * list (N * N)) :=
    fun rng ax ay bits => erase (BuildCOChoices_v RND choices_core rng c ax ay bits).
  Definition old_garble : RND -> bytes -> res (list (N * N) * list (N * N) * list (N * N) * list N) :=
    fun rng key => erase (garble_core rng key).
  Definition old_encrypt (c : curve) : gsession -> list (N * N) -> list (N * N) -> res (list (N * N)) :=
    fun st pts ein => erase (EncryptCOCiphertexts_v encrypt_core c st pts ein).
  Definition old_decrypt (c : curve) : esession -> list (N * N) -> res (list N) :=
    fun st cts => erase (DecryptCOCiphertexts_v decrypt_core c st cts).
  Definition old_eval : bytes -> list N -> list N -> list N -> res (list N) :=
    fun key ins labels tables => erase (eval_core key ins labels tables).
  Definition old_read_key : RND -> bytes :=
    fun rng => match read_key_core rng with VOk k => k | _ => [] end.
  Definition old_gen_sender (c : curve) : RND -> N * (N * N) * (N * N) :=
    fun rng => match gen_sender_core rng c with VOk g => g | _ => (0, (0, 0), (0, 0)) end.
  Definition old_read_sid : RND -> N :=
    fun rng => match read_sid_core rng with VOk s => s | _ => 0 end.

  Theorem rounds_refine_codec_model c rng :
    (forall g s, gen_sender_core rng c = VOk g -> read_sid_core rng = VOk s ->
       GR1 (Some rng) (Some c) = VOk (GarblerRound1 RND c (old_gen_sender c) old_read_sid rng)) /\
    (forall msg b,
       erase (ER2 (Some rng) (Some c) msg b) = EvaluatorRound2 RND c (old_build_choices c) rng msg b) /\
    (forall k st a req, read_key_core rng = VOk k ->
       erase (GR3 (Some rng) (Some c) (Some st) false a req)
       = GarblerRound3 RND old_read_key old_garble (old_encrypt c) rng st a req) /\
    (forall st msg,
       erase (ER4 (Some c) (Some st) msg) = EvaluatorRound4 (old_decrypt c) old_eval st msg).
  Proof.
    repeat split.
    - intros g s G S0. unfold GarblerRound1_v, GarblerRound1, old_gen_sender, old_read_sid. rewrite G, S0.
      destruct g as [[a [ax ay]] [ix iy]]. reflexivity.
    - intros msg b. unfold EvaluatorRound2_v, EvaluatorRound2, old_build_choices.
      do 2 apply erase_vguard. apply erase_vbind. intros [sc pts]. reflexivity.
    - intros k st a req K. unfold GarblerRound3_v, GarblerRound3, old_read_key, old_garble, old_encrypt.
      apply erase_vguard. rewrite K. cbn [vbind]. apply erase_vbind. intros [[[gin ein] outw] tables].
      apply erase_vguard, erase_vbind. intros cts. reflexivity.
    - intros st msg. unfold EvaluatorRound4_v, EvaluatorRound4, old_decrypt, old_eval.
      destruct (length (es_scalars st) =? 0)%nat; cbn [negb guard bind erase]; [reflexivity|].
      apply erase_vguard, erase_vbind. intros labels. apply erase_vbind. intros outl.
      apply erase_vguard. rewrite <- erase_decode_outputs. apply erase_vbind. intros bits.
      apply erase_vguard. reflexivity.
  Qed.
End VProofs.

(* cores that satisfy the hypotheses of rounds_total / steps12_total and under
   which every round reaches Ok on some input *)
Definition nvv_gen (_ : unit) (c : curve) : vres (N * (N * N) * (N * N)) :=
  VOk (1, curve_g c, curve_g c).
Definition nvv_sid (_ : unit) : vres N := VOk 7.
Definition nvv_choices (_ : unit) (c : curve) (_ _ : N) (bits : list bool) : vres (list N * list (N * N)) :=
  VOk (repeat 1 (length bits), repeat (curve_g c) (length bits)).
Definition nvv_key (_ : unit) : vres bytes := VOk (repeat 0 garblingKeyBytes).
Definition nvv_garble (_ : unit) (_ : bytes) : vres (list (N * N) * list (N * N) * list (N * N) * list N) :=
  VOk (repeat (0, 1) hashInputBitCount, repeat (0, 1) hashInputBitCount, repeat (0, 1) outputHintCount, []).
Definition nvv_eval (_ : bytes) (_ _ _ : list N) : vres (list N) := VOk (repeat 0 outputHintCount).

Example rounds_total_hypotheses_inhabited :
  (forall rng c, nvv_gen rng c <> VPanic) /\ (forall rng, nvv_sid rng <> VPanic) /\
  (forall rng c ax ay bits, nvv_choices rng c ax ay bits <> VPanic) /\ (forall rng, nvv_key rng <> VPanic) /\
  (forall rng key, nvv_garble rng key <> VPanic) /\ (forall key i l t, nvv_eval key i l t <> VPanic) /\
  (forall rng c a ax ay ix iy,
     nvv_gen rng c = VOk (a, (ax, ay), (ix, iy)) -> Forall (fits (byteLen c)) [a; ax; ay; ix; iy]) /\
  (forall rng c ax ay bits scalars points,
     nvv_choices rng c ax ay bits = VOk (scalars, points) ->
     Forall (fits (byteLen c)) scalars /\ Forall (fits (byteLen c)) (map fst points)).
Proof.
  pose proof (fun c => fits_byteLen c 1 eq_refl) as F1.
  repeat split; try discriminate.
  - intros rng c a ax ay ix iy H. unfold nvv_gen in H. pose proof (base_fits c) as [Fx Fy].
    destruct (curve_g c) as [gx gy]. injection H as <- <- <- <- <-.
    repeat constructor; try assumption. apply F1.
  - injection H as <- _. apply Forall_repeat, F1.
  - injection H as _ <-. apply Forall_map, Forall_repeat, base_fits.
Qed.

(* so the Ok-inversion theorems and the refinement theorem are not about empty sets *)
Example rounds_reach_ok : forall c,
  (exists r, GarblerRound1_v unit nvv_gen nvv_sid (Some tt) (Some c) = VOk r) /\
  (exists r, EvaluatorRound2_v unit nvv_choices (Some tt) (Some c)
               (mkR1 7 (curve_name c) (fst (curve_g c)) (snd (curve_g c))) (repeat 0%N 32%nat) = VOk r).
Proof.
  intros c. split.
  - unfold GarblerRound1_v, nvv_gen, nvv_sid. destruct (curve_g c) as [gx gy]. cbn [vbind]. eexists. reflexivity.
  - unfold EvaluatorRound2_v. cbn [r1_name r1_ax r1_ay r1_sid]. rewrite bytes_eqb_refl. cbn [vguard vbind].
    change (length (bytesToBitsLittle (repeat 0%N 32%nat)) =? hashInputBitCount)%nat with true. cbn [vguard vbind].
    unfold BuildCOChoices_v. rewrite <- surjective_pairing, base_on_curve. cbn [vguard vbind].
    unfold nvv_choices. cbn [vbind]. eexists. reflexivity.
Qed.

Lemma forallb_repeat {A} (f : A -> bool) x : f x = true -> forall n, forallb f (repeat x n) = true.
Proof. intros H. induction n as [|n IH]; [reflexivity|]. cbn [repeat forallb]. rewrite H, IH. reflexivity. Qed.

Example rounds_reach_ok34 : forall c,
  (exists r, GarblerRound3_v unit nvv_key nvv_garble (fun _ _ _ _ => []) (Some tt) (Some c)
               (Some (mkGS 7 (curve_name c) 1 (fst (curve_g c)) (snd (curve_g c)) (fst (curve_g c)) (snd (curve_g c))))
               false (repeat 0%N 32%nat)
               (mkR2 7 (curve_name c) (repeat (curve_g c) hashInputBitCount)) = VOk r) /\
  (exists d, EvaluatorRound4_v (fun _ _ _ => []) nvv_eval (Some c)
               (Some (mkES 7 (curve_name c) (fst (curve_g c)) (snd (curve_g c)) (repeat 1 2%nat) (repeat false 2%nat)))
               (mkR3 7 [] [] [] (repeat (0, 1) outputHintCount) (repeat (0, 0) 2%nat)) = VOk d).
Proof.
  intros c. split.
  - unfold GarblerRound3_v. cbn [r2_sid gs_sid r2_choices]. change (7 =? 7) with true. cbn [vguard vbind].
    unfold nvv_key. cbn [vbind]. unfold nvv_garble. cbn [vbind].
    change (length (bytesToBitsLittle (repeat 0%N 32%nat)) =? hashInputBitCount)%nat with true. cbn [vguard vbind].
    unfold EncryptCOCiphertexts_v. cbn [gs_ax gs_ay gs_ainvx gs_ainvy].
    rewrite <- surjective_pairing, base_on_curve. cbn [vguard vbind].
    rewrite !repeat_length, Nat.eqb_refl. cbn [vguard vbind].
    rewrite (forallb_repeat _ _ (base_on_curve c)). cbn [vguard vbind]. eexists. reflexivity.
  - unfold EvaluatorRound4_v. cbn [es_scalars es_sid es_bits es_ax es_ay r3_sid r3_cts r3_key r3_inputs r3_tables r3_hints].
    cbn [repeat length Nat.eqb]. change (7 =? 7) with true. cbn [vguard vbind].
    unfold DecryptCOCiphertexts_v. cbn [es_scalars es_bits es_ax es_ay repeat length Nat.eqb andb vguard vbind].
    rewrite <- surjective_pairing, base_on_curve. cbn [vguard vbind].
    unfold nvv_eval. cbn [vbind]. rewrite repeat_length, Nat.eqb_refl. cbn [vguard vbind].
    vm_compute. eexists. reflexivity.
Qed.

