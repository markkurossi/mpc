(* IO/IOResultsProof.v — theorems about IO/IOResults.v (property C13):
   mpc.Results is mpc.Result per output (exactly when it returns), is pure and
   repeatable, returns the raw values for nil outputs, panics exactly when the
   outputs list is too short; the runners' pipeline Outputs.Split -> Results
   inverts IOArg.Parse and IOArg.Set for whole output lists; IO.Size; the text
   mpc.PrintResults prints with the default base reads back as the value. *)
From Coq Require Import ZArith NArith List Bool Lia.
From Mpc Require Import Gen.Consts Base.ListFacts IO.IOArg IO.IOArgProof IO.IOResults.
Import ListNotations.
Open Scope Z_scope.

(* mpc.Result has no error result in Go *)

Lemma result_scalar_not_err TI t r : result_scalar TI t r <> Err.
Proof.
  unfold result_scalar.
  destruct (kind_is t types_TString); [discriminate|].
  destruct (kind_is t types_TUint); [destruct (go_width (i_bits t)); discriminate|].
  destruct (kind_is t types_TInt).
  { destruct (Nat.eqb (i_bits t) 0); [discriminate|]. destruct (TI (i_bits t) r).
    destruct (go_width (i_bits t)); discriminate. }
  destruct (kind_is t types_TBool); discriminate.
Qed.

Lemma result_items_not_err TI el r mask e : forall idx, result_items TI el r mask e idx <> Err.
Proof.
  induction idx as [|i idx IH]; simpl; [discriminate|].
  destruct (result_scalar TI el _) as [[v a]| |] eqn:E.
  - destruct (result_items TI el r mask e idx); simpl; try discriminate. contradiction.
  - exfalso. exact (result_scalar_not_err _ _ _ E).
  - discriminate.
Qed.

Lemma result_gen_not_err TI t r : result_gen TI t r <> Err.
Proof.
  unfold result_gen. destruct (kind_is t types_TArray || kind_is t types_TSlice).
  - destruct (i_elem t) as [el|]; [|discriminate].
    destruct (elem_go_type el) as [[ek ew]|]; [|discriminate].
    destruct (result_items _ _ _ _ _ _) eqn:E; try discriminate.
    exfalso. exact (result_items_not_err _ _ _ _ _ _ E).
  - apply result_scalar_not_err.
Qed.

Section ResultsProofs.
  Variable R : info -> Z -> res (gout * Z).

  Lemma results_some_iff : forall rs outs l,
    results_some R outs rs = Ok l <->
    (length rs <= length outs)%nat /\
    Forall2 (fun ro x => R (a_type (snd ro)) (fst ro) = Ok x) (combine rs outs) l.
  Proof.
    induction rs as [|r rs IH]; intros outs l.
    - simpl. split; [intros H; inversion H; split; [lia|constructor] | intros [_ H]; inversion H; reflexivity].
    - destruct outs as [|o outs]; simpl; [split; [discriminate | intros [H _]; lia]|]. split.
      + destruct (R (a_type o) r) as [x| |] eqn:E; try discriminate.
        destruct (results_some R outs rs) as [l'| |] eqn:E2; try discriminate.
        intros H; inversion H; subst. apply IH in E2. destruct E2 as [Hl HF].
        split; [lia|]. constructor; assumption.
      + intros [Hl HF]. inversion HF as [|? x ? l0 Hx HF']; subst. simpl in Hx.
        assert (E : results_some R outs rs = Ok l0) by (apply IH; split; [lia | exact HF']).
        rewrite Hx, E. reflexivity.
  Qed.

  (* R never returns an error: with too few outputs Results panics *)
  Hypothesis R_not_err : forall t r, R t r <> Err.

  Lemma results_some_not_err : forall rs outs, results_some R outs rs <> Err.
  Proof.
    induction rs as [|r rs IH]; intros outs; simpl; [discriminate|].
    destruct outs as [|o outs]; [discriminate|].
    destruct (R (a_type o) r) as [x| |] eqn:E; [|exfalso; exact (R_not_err _ _ E)|discriminate].
    destruct (results_some R outs rs) eqn:E2; simpl; try discriminate. exfalso. exact (IH _ E2).
  Qed.

  Lemma results_some_short : forall rs outs,
    (length outs < length rs)%nat -> results_some R outs rs = Panic.
  Proof.
    intros rs outs Hl. destruct (results_some R outs rs) as [l| |] eqn:E; [| |reflexivity].
    - apply results_some_iff in E. lia.
    - exfalso. exact (results_some_not_err _ _ E).
  Qed.
End ResultsProofs.

(* Results (plural) with an outputs list: it returns exactly when there are
   at least as many outputs as values and Result returns on every pair, and
   then value i is Result(values[i], outputs[i]) *)
Lemma results_per_output rs outs l :
  results (Some outs) rs = Ok l <->
  (length rs <= length outs)%nat /\
  Forall2 (fun ro x => result (a_type (snd ro)) (fst ro) = Ok x) (combine rs outs) l.
Proof. apply results_some_iff. Qed.

Lemma results_short_outputs rs outs :
  (length outs < length rs)%nat -> results (Some outs) rs = Panic.
Proof. apply results_some_short. intros t r. apply result_gen_not_err. Qed.

(* nil outputs: every value, whatever it is (negative, wider than 1024 bits),
   comes back as the *big.Int it was *)
Lemma result_default r : result results_default_info r = Ok (OBig r, r).
Proof. reflexivity. Qed.

Lemma results_nil_outputs rs : results None rs = Ok (map (fun r => (OBig r, r)) rs).
Proof.
  unfold results, results_gen. induction rs as [|r rs IH]; [reflexivity|].
  cbn [results_nil map]. rewrite result_default, IH. reflexivity.
Qed.

Lemma Forall2_result_snd (T : list (Z * ioarg)) : forall l,
  Forall2 (fun ro x => result (a_type (snd ro)) (fst ro) = Ok x) T l -> map snd l = map fst T.
Proof.
  induction T as [|[r o] T IH]; intros l H; inversion H as [|? x ? l' Hx HF]; subst; [reflexivity|].
  simpl. destruct x as [v a]. simpl in Hx. apply result_fixed_arg_unchanged in Hx. subst a.
  simpl. f_equal. apply IH. exact HF.
Qed.

Lemma map_fst_combine {A B} : forall (a : list A) (b : list B),
  (length a <= length b)%nat -> map fst (combine a b) = a.
Proof.
  induction a as [|x a IH]; intros [|y b] H; simpl in *; try reflexivity; try lia.
  f_equal. apply IH. lia.
Qed.

(* snd of an item is the *big.Int argument after the call: Results does not
   modify the values it is given *)
Lemma results_arg_unchanged outputs rs l : results outputs rs = Ok l -> map snd l = rs.
Proof.
  destruct outputs as [outs|]; intros H.
  - apply results_per_output in H. destruct H as [Hl HF].
    rewrite (Forall2_result_snd _ _ HF). apply map_fst_combine. exact Hl.
  - rewrite results_nil_outputs in H. inversion H; subst. rewrite map_map. simpl. apply map_id.
Qed.

Lemma results_repeatable outputs rs l : results outputs rs = Ok l -> results outputs (map snd l) = Ok l.
Proof. intros H. rewrite (results_arg_unchanged _ _ _ H). exact H. Qed.

(* two's-complement reading of an e-bit element value (a byte given for an
   int8 element: 200 is -56) *)
Definition elem_out (el : ty) (x : Z) : gout :=
  match el with
  | TyInt b => go_int true b (wrap_s b x)
  | TyUint b => go_int false b x
  | _ => OUnsupported
  end.

(* (element kind tag, Go width) of the slice Result builds: 1 bool, 2 intN, 3 uintN, 4 *big.Int, 5 string *)
Definition elem_tag (el : ty) : nat * nat :=
  match el with
  | TyInt b => match go_width b with O => (4%nat, O) | w => (2%nat, w) end
  | TyUint b => match go_width b with O => (4%nat, O) | w => (3%nat, w) end
  | TyBool => (1%nat, O)
  | TyString _ => (5%nat, O)
  | _ => (O, O)
  end.

(* the element values of an array given n elements long: the bytes, then zeros *)
Definition pad_elems (n : nat) (l : list N) : list Z := map Z.of_N l ++ repeat 0 (n - length l).

Definition out_slice (el : ty) (us : list Z) : gout :=
  OSlice (fst (elem_tag el)) (snd (elem_tag el)) (map (elem_out el) us).

(* the Go value mpc.Result must return for the Go value v given for an
   argument of leaf type m *)
Definition decoded (m : ty) (v : gin) : gout :=
  match m, v with
  | TyBool, GBool b => OBool b
  | TyInt b, GInt z => go_int true b z
  | TyUint b, GInt z => go_int false b z
  | TyArray el n, GBytes l | TySlice el n, GBytes l => out_slice el (pad_elems n l)
  | TyArray el n, GNil | TySlice el n, GNil => out_slice el (pad_elems n [])
  | _, _ => OUnsupported
  end.

(* output types Result decodes element-wise: integer elements of non-zero width *)
Definition out_ok (m : ty) : Prop :=
  match m with
  | TyArray el _ | TySlice el _ => is_int_ty el = true /\ (0 < bits_of el)%nat
  | _ => True
  end.

Lemma wrap_s_spec b x :
  (0 < b)%nat -> 0 <= x < 2 ^ Z.of_nat b ->
  - 2 ^ (Z.of_nat b - 1) <= wrap_s b x < 2 ^ (Z.of_nat b - 1) /\ wrap_s b x mod 2 ^ Z.of_nat b = x.
Proof.
  intros Hb Hx. unfold wrap_s. pose proof (pow2_split b Hb) as Hp.
  assert (Hh : 0 < 2 ^ (Z.of_nat b - 1)) by (apply Z.pow_pos_nonneg; lia).
  set (h := 2 ^ (Z.of_nat b - 1)) in *. set (M := 2 ^ Z.of_nat b) in *.
  pose proof (Z.mod_pos_bound (x + h) M ltac:(lia)) as Hm. split; [lia|].
  rewrite Zminus_mod_idemp_l. replace (x + h - h) with x by ring. apply Z.mod_small. lia.
Qed.

Lemma wrap_s_mod b z :
  (0 < b)%nat -> - 2 ^ (Z.of_nat b - 1) <= z < 2 ^ (Z.of_nat b - 1) -> wrap_s b (z mod 2 ^ Z.of_nat b) = z.
Proof.
  intros Hb Hz. unfold wrap_s. pose proof (pow2_split b Hb).
  rewrite Zplus_mod_idemp_l, Z.mod_small by lia. lia.
Qed.

Lemma scalar_out_elem el x :
  is_int_ty el = true -> (0 < bits_of el)%nat -> 0 <= x < 2 ^ Z.of_nat (bits_of el) ->
  result_scalar result_tint_now (info_of el) x = Ok (elem_out el x, x).
Proof.
  intros Hel Hb Hx. destruct el as [| b | b | b | e n | e n | fs]; try discriminate; simpl bits_of in *.
  - destruct (wrap_s_spec b x Hb Hx) as [Hr Hm].
    pose proof (result_fixed_int_inverse b (wrap_s b x) Hb Hr) as E. rewrite Hm in E.
    unfold result_fixed in E. rewrite result_is_scalar in E by reflexivity. exact E.
  - pose proof (result_uint_inverse result_tint_now b x Hx) as E.
    rewrite result_is_scalar in E by reflexivity. exact E.
Qed.

Lemma elem_go_type_tag el : is_int_ty el = true -> elem_go_type (info_of el) = Some (elem_tag el).
Proof.
  intros Hel. destruct el as [| b | b | b | e n | e n | fs]; try discriminate;
    [rewrite elem_go_type_tyint | rewrite elem_go_type_tyuint]; cbn [elem_tag]; destruct (go_width b); reflexivity.
Qed.

Lemma from_bits_elems e : forall us,
  Forall (fun x => 0 <= x < 2 ^ Z.of_nat e) us ->
  from_bits (concat (map (fun x => wires x e) us)) = le_value e us.
Proof.
  induction us as [|x us IH]; intros HF; [reflexivity|].
  inversion HF as [|? ? Hx HF']; subst. cbn [map concat le_value fold_right]. fold (le_value e us).
  rewrite from_bits_app, wires_length, from_bits_wires, IH by exact HF'.
  rewrite Z.mod_small by exact Hx. reflexivity.
Qed.

Lemma repeat_false_elems e : forall k, repeat false (k * e) = concat (map (fun x => wires x e) (repeat 0 k)).
Proof.
  induction k as [|k IH]; [reflexivity|]. cbn [repeat map concat]. rewrite <- IH, wires_zero.
  rewrite <- repeat_app. reflexivity.
Qed.

Lemma array_wires_elems e n l :
  bytes_wires e l ++ repeat false ((n - length l) * e) = concat (map (fun x => wires x e) (pad_elems n l)).
Proof.
  unfold pad_elems, bytes_wires. rewrite map_app, concat_app, map_map, <- repeat_false_elems. reflexivity.
Qed.

Lemma result_elems (slice : bool) el n us :
  is_int_ty el = true -> (0 < bits_of el)%nat ->
  Forall (fun x => 0 <= x < 2 ^ Z.of_nat (bits_of el)) us -> length us = n ->
  result (info_of (if slice then TySlice el n else TyArray el n)) (le_value (bits_of el) us)
  = Ok (out_slice el us, le_value (bits_of el) us).
Proof.
  intros Hel Hb HF Hl. unfold result.
  rewrite (result_array_inverse result_tint_now slice el n (fst (elem_tag el)) (snd (elem_tag el)) us).
  - unfold out_slice. f_equal. f_equal. f_equal. apply map_ext_in. intros u Hu.
    rewrite Forall_forall in HF. unfold scalar_out. rewrite scalar_out_elem by auto. reflexivity.
  - rewrite elem_go_type_tag by exact Hel. destruct (elem_tag el); reflexivity.
  - exact HF.
  - exact Hl.
  - intros u Hu. rewrite Forall_forall in HF. eexists _, _. apply scalar_out_elem; auto.
Qed.

Lemma result_fixed_int_array_inverse (slice : bool) b n (zs : list Z) :
  (0 < b)%nat -> length zs = n ->
  Forall (fun z => - 2 ^ (Z.of_nat b - 1) <= z < 2 ^ (Z.of_nat b - 1)) zs ->
  let r := le_value b (map (fun z => z mod 2 ^ Z.of_nat b) zs) in
  exists ek ew,
    result_fixed (info_of (if slice then TySlice (TyInt b) n else TyArray (TyInt b) n)) r
    = Ok (OSlice ek ew (map (go_int true b) zs), r).
Proof.
  intros Hb Hl HF r. exists (fst (elem_tag (TyInt b))), (snd (elem_tag (TyInt b))).
  replace (map (go_int true b) zs) with (map (elem_out (TyInt b)) (map (fun z => z mod 2 ^ Z.of_nat b) zs)).
  - apply (result_elems slice (TyInt b) n _ eq_refl Hb); [|rewrite map_length; exact Hl].
    apply Forall_map, Forall_forall. intros z _. apply Z.mod_pos_bound, Z.pow_pos_nonneg; lia.
  - rewrite map_map. apply map_ext_in. intros z Hz. rewrite Forall_forall in HF.
    cbn [elem_out]. rewrite wrap_s_mod by auto. reflexivity.
Qed.

Lemma decode_padded (slice : bool) el n l :
  is_int_ty el = true -> (0 < bits_of el)%nat ->
  Forall (fun x => 0 <= x < 2 ^ Z.of_nat (bits_of el)) (map Z.of_N l) -> (length l <= n)%nat ->
  let w := bytes_wires (bits_of el) l ++ repeat false ((n - length l) * bits_of el) in
  result (info_of (if slice then TySlice el n else TyArray el n)) (from_bits w)
  = Ok (out_slice el (pad_elems n l), from_bits w).
Proof.
  intros Hel Hb HF Hl w. unfold w. rewrite array_wires_elems.
  assert (HP : Forall (fun x => 0 <= x < 2 ^ Z.of_nat (bits_of el)) (pad_elems n l)).
  { apply Forall_app. split; [exact HF|]. apply Forall_repeat.
    pose proof (Z.pow_pos_nonneg 2 (Z.of_nat (bits_of el))). lia. }
  rewrite from_bits_elems by exact HP. apply result_elems; try assumption.
  unfold pad_elems. rewrite app_length, map_length, repeat_length. lia.
Qed.

(* one member: the non-negative number its canonical wires spell decodes to
   the value that was given, the argument unchanged *)
Lemma decode_member m v :
  gin_domain m v -> out_ok m ->
  result (info_of m) (from_bits (gin_wires m v)) = Ok (decoded m v, from_bits (gin_wires m v)).
Proof.
  intros Hd Ho. destruct m as [| b | b | b | el n | el n | fs]; destruct v as [| bv | z | l |];
    simpl in Hd; try contradiction; cbn [gin_wires decoded].
  - destruct bv; reflexivity.
  - destruct Hd as (_ & Hr & Hb). rewrite from_bits_wires.
    exact (result_fixed_int_inverse b z Hb Hr).
  - destruct Hd as (_ & Hr). rewrite from_bits_wires_small by exact Hr.
    exact (result_uint_inverse result_tint_now b z Hr).
  - destruct Ho as (Hel & Hb).
    pose proof (decode_padded false el n [] Hel Hb (Forall_nil _) (Nat.le_0_l n)) as H.
    cbn [bytes_wires map concat app length] in H. rewrite Nat.sub_0_r in H. exact H.
  - destruct Ho as (Hel & Hb). destruct Hd as (_ & He & Hl & HFl).
    exact (decode_padded false el n l Hel Hb (bytes_in_range _ _ He HFl) Hl).
  - destruct Ho as (Hel & Hb). destruct Hd as (_ & ->).
    exact (decode_padded true el 0 [] Hel Hb (Forall_nil _) (le_n 0)).
  - destruct Ho as (Hel & Hb). destruct Hd as (_ & He & <- & HFl).
    pose proof (decode_padded true el (length l) l Hel Hb (bytes_in_range _ _ He HFl) (le_n _)) as H.
    rewrite Nat.sub_diag, app_nil_r in H. exact H.
Qed.

(* the (Go value, argument after the call) list for members ms given values vs *)
Definition decoded_all (ms : list ty) (vs : list gin) : list (gout * Z) :=
  map (fun mv => (decoded (fst mv) (snd mv), from_bits (gin_wires (fst mv) (snd mv)))) (combine ms vs).

Lemma app_eq_len {A} : forall (a c b d : list A), length a = length c -> a ++ b = c ++ d -> a = c /\ b = d.
Proof.
  induction a as [|x a IH]; intros [|y c] b d Hl H; simpl in *; try discriminate; [auto|].
  inversion H; subst. destruct (IH c b d ltac:(lia) H2). subst. auto.
Qed.

(* Split of any value (negative, with bits above the outputs) whose output
   wires are the canonical wires of the members: part j is the non-negative
   number member j's wires spell *)
Lemma split_from_canonical : forall ms vs, Forall2 gin_domain ms vs -> forall raw bit,
  wires (Z.shiftr raw (Z.of_nat bit)) (sum_bits ms) = gins_wires ms vs ->
  split_from (map leaf_arg ms) raw bit
  = map (fun mv => from_bits (gin_wires (fst mv) (snd mv))) (combine ms vs).
Proof.
  induction 1 as [|m v ms vs Hd HF IH]; intros raw bit Hw; [reflexivity|].
  cbn [map split_from combine fst snd a_type leaf_arg]. rewrite i_bits_info_of.
  simpl sum_bits in Hw. rewrite wires_app, gins_wires_cons in Hw.
  apply app_eq_len in Hw; [|rewrite wires_length; symmetry; apply gin_wires_length; exact Hd].
  destruct Hw as [Hw1 Hw2]. f_equal.
  - rewrite <- Hw1, <- split_one_wires. symmetry. apply from_bits_wires_small, split_one_range.
  - apply IH. rewrite <- Hw2. f_equal. rewrite Z.shiftr_shiftr by lia. f_equal. lia.
Qed.

Lemma results_canonical : forall ms vs, Forall2 gin_domain ms vs -> Forall out_ok ms ->
  results (Some (map leaf_arg ms))
          (map (fun mv => from_bits (gin_wires (fst mv) (snd mv))) (combine ms vs))
  = Ok (decoded_all ms vs).
Proof.
  induction 1 as [|m v ms vs Hd HF IH]; intros Ho; [reflexivity|].
  inversion Ho as [|? ? Hom Ho']; subst. specialize (IH Ho').
  unfold results, results_gen in *. cbn [map combine results_some fst snd a_type leaf_arg].
  rewrite (decode_member m v Hd Hom). rewrite IH. reflexivity.
Qed.

(* the output pipeline: every list of leaf output types, every in-domain value
   list, every raw result value whose output wires carry the canonical wires
   of the values (whatever it has above them, negative or not): Split then
   Results returns exactly the values, output by output *)
Lemma output_values_canonical ms vs raw :
  Forall2 gin_domain ms vs -> Forall out_ok ms ->
  wires raw (sum_bits ms) = gins_wires ms vs ->
  output_values (map leaf_arg ms) raw = Ok (decoded_all ms vs).
Proof.
  intros HD Ho Hw. unfold output_values, split.
  rewrite (split_from_canonical ms vs HD raw 0); [apply results_canonical; assumption|].
  simpl Z.of_nat. rewrite Z.shiftr_0_r. exact Hw.
Qed.

(* output j is the value of member j alone *)
Lemma decoded_all_nth : forall ms vs j mj vj,
  nth_error ms j = Some mj -> nth_error vs j = Some vj ->
  nth_error (decoded_all ms vs) j = Some (decoded mj vj, from_bits (gin_wires mj vj)).
Proof.
  unfold decoded_all. induction ms as [|m ms IH]; intros vs j mj vj Hm Hv; [destruct j; discriminate|].
  destruct vs as [|v vs]; [destruct j; discriminate|]. destruct j as [|j]; simpl in *.
  - inversion Hm; inversion Hv; subst. reflexivity.
  - apply IH; assumption.
Qed.

(* text -> Parse -> wires -> Split -> Results, a compound argument *)
Lemma roundtrip_text t m ms ss vs :
  members_spelled (m :: ms) ss vs -> Forall out_ok (m :: ms) ->
  exists rp, parse (IOArg t (map leaf_arg (m :: ms))) ss = Ok rp /\
    output_values (map leaf_arg (m :: ms)) rp = Ok (decoded_all (m :: ms) vs).
Proof.
  intros HM Ho. destruct (parse_compound_canonical t m ms ss vs HM) as (rp & Ep & Hw).
  exists rp. split; [exact Ep|].
  apply output_values_canonical; [apply (members_spelled_domain _ _ _ HM) | exact Ho | exact Hw].
Qed.

(* Go values -> Set -> wires -> Split -> Results, a compound argument *)
Lemma roundtrip_value t m ms vs :
  Forall2 gin_domain (m :: ms) vs -> Forall out_ok (m :: ms) ->
  exists rs, set (IOArg t (map leaf_arg (m :: ms))) vs = Ok rs /\
    output_values (map leaf_arg (m :: ms)) rs = Ok (decoded_all (m :: ms) vs).
Proof.
  intros HD Ho.
  destruct (set_compound_wires set_int_fixed fixed_bytes t m ms vs (Forall2_weaken _ _ _ _ member_ok_fixed HD))
    as (rs & Es & Hw).
  exists rs. split; [exact Es|]. apply output_values_canonical; assumption.
Qed.

Lemma output_values_single m v raw :
  gin_domain m v -> out_ok m -> wires raw (bits_of m) = gin_wires m v ->
  output_values [leaf_arg m] raw = Ok [(decoded m v, from_bits (gin_wires m v))].
Proof.
  intros Hd Ho Hw.
  apply (output_values_canonical [m] [v] raw); [constructor; [exact Hd|constructor] | constructor; [exact Ho|constructor] |].
  unfold gins_wires. simpl. rewrite Nat.add_0_r, app_nil_r. exact Hw.
Qed.

(* Parse may return a negative big.Int *)
Lemma roundtrip_text_single m s v :
  gin_domain m v -> spells m s v -> out_ok m ->
  exists rp, parse (leaf_arg m) [s] = Ok rp /\
    output_values [leaf_arg m] rp = Ok [(decoded m v, from_bits (gin_wires m v))].
Proof.
  intros Hd Hs Ho. destruct (parse_leaf_canonical m s v Hd Hs) as (rp & Ep & Hw).
  exists rp. split; [exact Ep | exact (output_values_single m v rp Hd Ho Hw)].
Qed.

Lemma roundtrip_value_single m v :
  gin_domain m v -> out_ok m ->
  exists rs, set (leaf_arg m) [v] = Ok rs /\
    output_values [leaf_arg m] rs = Ok [(decoded m v, from_bits (gin_wires m v))].
Proof.
  intros Hd Ho.
  destruct (set_single_wires set_int_fixed fixed_bytes m v (member_ok_fixed m v Hd)) as (rs & Es & Hw).
  exists rs. split; [exact Es | exact (output_values_single m v rs Hd Ho Hw)].
Qed.

(* int8 = -5, bool true, [3]int8 given the one byte 200, uint70 = 2^69 *)
Example ex_roundtrip :
  output_values (map leaf_arg [TyInt 8; TyBool; TyArray (TyInt 8) 3; TyUint 70])
                (Z.lor 251 (Z.lor (Z.shiftl 1 8) (Z.lor (Z.shiftl 200 9) (Z.shiftl (2 ^ 69) 33))))
  = Ok (decoded_all [TyInt 8; TyBool; TyArray (TyInt 8) 3; TyUint 70]
                    [GInt (-5); GBool true; GBytes [200%N]; GInt (2 ^ 69)]).
Proof. vm_compute. reflexivity. Qed.

Example ex_decoded :
  map fst (decoded_all [TyInt 8; TyBool; TyArray (TyInt 8) 3; TyUint 70]
                       [GInt (-5); GBool true; GBytes [200%N]; GInt (2 ^ 69)])
  = [OInt true 8 (-5); OBool true; OSlice 2 8 [OInt true 8 (-56); OInt true 8 0; OInt true 8 0]; OBig (2 ^ 69)].
Proof. vm_compute. reflexivity. Qed.

Lemma io_size_total io : io_size io = total_bits io.
Proof.
  unfold io_size, total_bits.
  assert (H : forall l acc, fold_left (fun sum a => (sum + i_bits (a_type a))%nat) l acc
                            = (acc + fold_right (fun a acc => (i_bits (a_type a) + acc)%nat) O l)%nat).
  { induction l as [|a l IH]; intros acc; simpl; [lia|]. rewrite IH. lia. }
  rewrite H. reflexivity.
Qed.

Lemma io_size_leaves ms : io_size (map leaf_arg ms) = sum_bits ms.
Proof.
  rewrite io_size_total. unfold total_bits, sum_bits. induction ms as [|m ms IH]; simpl; [reflexivity|].
  rewrite IH, i_bits_info_of. reflexivity.
Qed.

Lemma ioarg_len_spec t cs : ioarg_len (IOArg t cs) = match cs with [] => 1%nat | _ => length cs end.
Proof. destruct cs; reflexivity. Qed.

(* element types Result decodes: bool, intN (N > 0), uintN, stringN *)
Definition elem_ok (el : ty) : Prop :=
  match el with
  | TyBool | TyUint _ | TyString _ => True
  | TyInt b => (0 < b)%nat
  | _ => False
  end.

Lemma elem_go_type_ok el : elem_ok el -> elem_go_type (info_of el) = Some (elem_tag el).
Proof.
  intros Hel. destruct el as [| b | b | b | e n | e n | fs]; try contradiction;
    try reflexivity; apply elem_go_type_tag; reflexivity.
Qed.

Lemma result_scalar_elem_ok el u : elem_ok el -> exists o a, result_scalar result_tint_now (info_of el) u = Ok (o, a).
Proof.
  intros Hel. destruct el as [| b | b | b | e n | e n | fs]; try contradiction.
  - eexists _, _. reflexivity.
  - rewrite result_scalar_tyint. simpl in Hel. replace (Nat.eqb b 0) with false by lia.
    destruct (result_tint_now b u). destruct (go_width b); eexists _, _; reflexivity.
  - rewrite result_scalar_tyuint. destruct (go_width b); eexists _, _; reflexivity.
  - eexists _, _. apply result_scalar_tystring.
Qed.

(* element i of a literal read as k e-bit groups, first group most
   significant; zero after the literal's last group *)
Definition literal_elem (val : Z) (k e i : nat) : Z :=
  (if (i <? k)%nat then chunk val k e i else 0) mod 2 ^ Z.of_nat e.

Lemma literal_elem_wires val k e i : wires (literal_elem val k e i) e = array_elem_wires val k e i.
Proof.
  unfold literal_elem, array_elem_wires. rewrite wires_mod. destruct (i <? k)%nat; [reflexivity|apply wires_zero].
Qed.

Lemma literal_elem_range val k e i : 0 <= literal_elem val k e i < 2 ^ Z.of_nat e.
Proof. unfold literal_elem. apply Z.mod_pos_bound. apply Z.pow_pos_nonneg; lia. Qed.

Lemma packed_elems r val k e n :
  0 <= r < 2 ^ Z.of_nat (n * e) ->
  wires r (n * e) = concat (map (array_elem_wires val k e) (seq 0 n)) ->
  r = le_value e (map (literal_elem val k e) (seq 0 n)).
Proof.
  intros Hr Hw. rewrite <- (from_bits_wires_small r _ Hr), Hw.
  rewrite <- from_bits_elems.
  - rewrite map_map. f_equal. f_equal. apply map_ext. intros i. symmetry. apply literal_elem_wires.
  - apply Forall_map, Forall_forall. intros i _. apply literal_elem_range.
Qed.

Lemma packed_result (slice : bool) el n r val k :
  elem_ok el ->
  0 <= r < 2 ^ Z.of_nat (n * bits_of el) ->
  wires r (n * bits_of el) = concat (map (array_elem_wires val k (bits_of el)) (seq 0 n)) ->
  result (info_of (if slice then TySlice el n else TyArray el n)) r
  = Ok (OSlice (fst (elem_tag el)) (snd (elem_tag el))
               (map (fun i => scalar_out result_tint_now (info_of el) (literal_elem val k (bits_of el) i)) (seq 0 n)), r).
Proof.
  intros Hel Hr Hw. rewrite (packed_elems r val k _ n Hr Hw). unfold result.
  rewrite (result_array_inverse result_tint_now slice el n (fst (elem_tag el)) (snd (elem_tag el))).
  - rewrite map_map. reflexivity.
  - rewrite elem_go_type_ok by exact Hel. destruct (elem_tag el); reflexivity.
  - apply Forall_map, Forall_forall. intros i _. apply literal_elem_range.
  - rewrite map_length, seq_length. reflexivity.
  - intros u _. apply result_scalar_elem_ok. exact Hel.
Qed.

(* arrays: every element type Result decodes (bool, any intN/uintN also wider
   than 64 bits, stringN), every length n > 0, every literal Parse accepts in
   any spelling: the Go slice Result returns for the parsed value has element
   i = Result of the literal's i-th element, in order, zero elements after a
   short literal; the argument is unchanged *)
Lemma parse_array_result el n s val r :
  elem_ok el -> (0 < bits_of el)%nat -> (0 < n)%nat -> set_string s = Some val ->
  parse (leaf_arg (TyArray el n)) [s] = Ok r ->
  let e := bits_of el in let k := literal_elems s val e in
  result (info_of (TyArray el n)) r
  = Ok (OSlice (fst (elem_tag el)) (snd (elem_tag el))
               (map (fun i => scalar_out result_tint_now (info_of el) (literal_elem val k e i)) (seq 0 n)), r).
Proof.
  intros Hel He Hn Hs Hp e k.
  destruct (parse_array_bits el n s val r He Hn Hs Hp) as (_ & Hr & Hw).
  exact (packed_result false el n r val k Hel Hr Hw).
Qed.

(* slices: the literal determines the element count k; the instantiated slice type has k elements *)
Lemma parse_slice_result el s val r :
  elem_ok el -> (0 < bits_of el)%nat -> set_string s = Some val ->
  let e := bits_of el in let k := literal_elems s val e in
  parse (leaf_arg (TySlice el k)) [s] = Ok r ->
  result (info_of (TySlice el k)) r
  = Ok (OSlice (fst (elem_tag el)) (snd (elem_tag el))
               (map (fun i => scalar_out result_tint_now (info_of el) (literal_elem val k e i)) (seq 0 k)), r).
Proof.
  intros Hel He Hs e k Hp.
  destruct (parse_slice_bits el k s val r He Hs Hp) as (Hr & Hw).
  exact (packed_result true el k r val k Hel Hr Hw).
Qed.

(* [5]bool given "0b10110" *)
Example ex_bool_array_literal :
  exists r, parse (leaf_arg (TyArray TyBool 5)) [[48; 98; 49; 48; 49; 49; 48]%N] = Ok r /\
    result (info_of (TyArray TyBool 5)) r
    = Ok (OSlice 1 0 [OBool true; OBool false; OBool true; OBool true; OBool false], r).
Proof. eexists. split; [vm_compute; reflexivity|]. vm_compute. reflexivity. Qed.

Definition dvalue (b : N) (l : list N) (acc : N) : N :=
  fold_left (fun a c => (a * b + digit_val c)%N) l acc.

Definition valid_digit (b c : N) : Prop := c <> 95%N /\ (digit_val c < b)%N.

Lemma digit_char_range d : (d < 36)%N ->
  ((48 <= digit_char d <= 57)%N /\ digit_char d = (48 + d)%N /\ (d < 10)%N) \/
  ((97 <= digit_char d <= 122)%N /\ digit_char d = (87 + d)%N /\ (10 <= d)%N).
Proof.
  intros Hd. unfold digit_char. destruct (N.ltb_spec d 10); [left|right]; lia.
Qed.

Lemma digit_val_char d : (d < 36)%N -> digit_val (digit_char d) = d.
Proof.
  intros Hd. destruct (digit_char_range d Hd) as [(Hr & E & Hlt)|(Hr & E & Hge)]; unfold digit_val, is_digit.
  - replace (48 <=? digit_char d)%N with true by (symmetry; apply N.leb_le; lia).
    replace (digit_char d <=? 57)%N with true by (symmetry; apply N.leb_le; lia). simpl. lia.
  - replace (digit_char d <=? 57)%N with false by (symmetry; apply N.leb_gt; lia).
    rewrite andb_false_r.
    replace (97 <=? digit_char d)%N with true by (symmetry; apply N.leb_le; lia).
    replace (digit_char d <=? 122)%N with true by (symmetry; apply N.leb_le; lia). simpl. lia.
Qed.

Lemma digit_char_valid b d : (b <= 36)%N -> (d < b)%N -> valid_digit b (digit_char d).
Proof.
  intros Hb Hd. split; [|rewrite digit_val_char by lia; exact Hd].
  destruct (digit_char_range d ltac:(lia)) as [(Hr & _)|(Hr & _)]; lia.
Qed.

(* nat.scan's digit loop on a string of digits of the base without separators *)
Lemma scan_digits_valid b : forall l acc any prev inv,
  Forall (valid_digit b) l ->
  scan_digits b l acc any prev inv
  = Some (dvalue b l acc, any || match l with [] => false | _ => true end,
          match l with [] => prev | _ => PDigit end, inv).
Proof.
  induction l as [|c l IH]; intros acc any prev inv HF.
  - simpl. rewrite orb_false_r. reflexivity.
  - inversion HF as [|? ? [Hc Hd] HF']; subst. cbn [scan_digits].
    replace (c =? 95)%N with false by (symmetry; apply N.eqb_neq; exact Hc).
    replace (b <=? digit_val c)%N with false by (symmetry; apply N.leb_gt; exact Hd).
    rewrite IH by exact HF'. rewrite orb_true_r. destruct l; reflexivity.
Qed.

Lemma digits_fuel_acc b : forall f n acc, digits_fuel f b n acc = digits_fuel f b n [] ++ acc.
Proof.
  induction f as [|f IH]; intros n acc; [reflexivity|]. cbn [digits_fuel].
  destruct (n <? b)%N; [reflexivity|].
  rewrite (IH _ (_ :: acc)), (IH _ [_]), <- app_assoc. reflexivity.
Qed.

Lemma digits_fuel_S f b n acc :
  digits_fuel (S f) b n acc
  = if (n <? b)%N then digit_char n :: acc else digits_fuel f b (n / b)%N (digit_char (n mod b)%N :: acc).
Proof. reflexivity. Qed.

Definition digits_of (b n : N) (l : list N) : Prop :=
  Forall (valid_digit b) l /\ dvalue b l 0 = n /\
  exists c rest, l = c :: rest /\ ((0 < n)%N -> c <> 48%N).

Lemma digits_one b d : (b <= 36)%N -> (d < b)%N -> digits_of b d [digit_char d].
Proof.
  intros Hb Hd. split; [constructor; [apply digit_char_valid; assumption | constructor]|].
  split; [unfold dvalue; simpl; rewrite digit_val_char by lia; reflexivity|].
  exists (digit_char d), []. split; [reflexivity|].
  destruct (digit_char_range d ltac:(lia)) as [(_ & E & _)|(_ & E & _)]; lia.
Qed.

Lemma digits_snoc b q d l :
  (b <= 36)%N -> (0 < q)%N -> (d < b)%N -> digits_of b q l -> digits_of b (q * b + d) (l ++ [digit_char d]).
Proof.
  intros Hb Hq Hd (HF & Hv & c & rest & El & Hc).
  split; [apply Forall_app; split; [exact HF | constructor; [apply digit_char_valid; assumption | constructor]]|].
  split; [unfold dvalue in *; rewrite fold_left_app, Hv; simpl; rewrite digit_val_char by lia; reflexivity|].
  exists c, (rest ++ [digit_char d]). rewrite El. split; [reflexivity | intros _; exact (Hc Hq)].
Qed.

Lemma digits_fuel_spec b : (2 <= b <= 36)%N -> forall f n, (n < 2 ^ N.of_nat f)%N ->
  digits_of b n (digits_fuel (S f) b n []).
Proof.
  intros Hb. induction f as [|f IH]; intros n Hn; rewrite digits_fuel_S;
    (destruct (N.ltb_spec n b) as [Hlt|Hge]; [apply digits_one; lia|]).
  - simpl in Hn. lia.
  - rewrite digits_fuel_acc. rewrite (N.div_mod' n b) at 1. rewrite (N.mul_comm b).
    apply digits_snoc; [lia | apply N.div_str_pos; lia | apply N.mod_lt; lia |].
    apply IH. apply N.div_lt_upper_bound; [lia|].
    replace (N.of_nat (S f)) with (N.succ (N.of_nat f)) in Hn by lia. rewrite N.pow_succ_r' in Hn. nia.
Qed.

Lemma format_nat_spec b n : (2 <= b <= 36)%N -> digits_of b n (format_nat b n).
Proof.
  intros Hb. unfold format_nat. apply digits_fuel_spec; [exact Hb|].
  rewrite N2Nat.id. apply N.size_gt.
Qed.

(* the sign characters are digits of no base *)
Lemma valid_digit_not_sign b c : (b <= 36)%N -> valid_digit b c -> c <> 45%N /\ c <> 43%N.
Proof.
  intros Hb [_ H]. split; intros ->; [change (digit_val 45) with 63%N in H | change (digit_val 43) with 63%N in H]; lia.
Qed.

Lemma format_nat_zero b : (2 <= b)%N -> format_nat b 0 = [48%N].
Proof. intros Hb. unfold format_nat. simpl. replace (0 <? b)%N with true by (symmetry; apply N.ltb_lt; lia). reflexivity. Qed.

Lemma nat_scan_decimal n : nat_scan (format_nat 10 n) = Some n.
Proof.
  destruct (N.eq_dec n 0) as [->|Hn]; [reflexivity|].
  destruct (format_nat_spec 10 n ltac:(lia)) as (HF & Hv & c & rest & El & Hc0).
  rewrite El in *. unfold nat_scan.
  replace (c =? 48)%N with false by (symmetry; apply N.eqb_neq; apply Hc0; lia).
  rewrite scan_digits_valid by exact HF. unfold scan_finish. cbn [orb is_punder]. rewrite Hv. reflexivity.
Qed.

(* Int.SetString(s, 0) on "0x" followed by hex digits *)
Lemma set_string_0x l : Forall (valid_digit 16) l -> l <> [] ->
  set_string ([48; 120]%N ++ l) = Some (Z.of_N (dvalue 16 l 0)).
Proof.
  intros HF Hne. cbn [app]. unfold set_string, nat_scan. cbn [N.eqb Pos.eqb orb].
  rewrite scan_digits_valid by exact HF. destruct l; [contradiction|]. reflexivity.
Qed.

Lemma set_string_decimal z : set_string (format_int 10 z) = Some z.
Proof.
  unfold format_int. destruct (Z.ltb_spec z 0) as [Hneg|Hpos].
  - unfold set_string. change (45 =? 45)%N with true. simpl orb. cbv iota.
    rewrite nat_scan_decimal. f_equal. lia.
  - destruct (format_nat_spec 10 (Z.to_N z) ltac:(lia)) as (HF & _ & c & rest & El & _).
    pose proof (nat_scan_decimal (Z.to_N z)) as Hs. rewrite El in *. unfold set_string.
    destruct (valid_digit_not_sign 10 c ltac:(lia) (Forall_inv HF)) as [Hc1 Hc2].
    replace (c =? 45)%N with false by (symmetry; apply N.eqb_neq; exact Hc1).
    replace (c =? 43)%N with false by (symmetry; apply N.eqb_neq; exact Hc2).
    simpl orb. cbv iota. rewrite Hs. f_equal. lia.
Qed.

Lemma set_string_hex z : 0 <= z -> set_string ([48; 120]%N ++ format_int 16 z) = Some z.
Proof.
  intros Hz. unfold format_int. replace (z <? 0) with false by lia.
  destruct (format_nat_spec 16 (Z.to_N z) ltac:(lia)) as (HF & Hv & c & rest & El & _).
  rewrite set_string_0x; [rewrite Hv; f_equal; lia | exact HF | rewrite El; discriminate].
Qed.

(* what PrintResults prints for integers when -base is not given *)
Lemma print_value_int signed w z : print_value 0 (OInt signed w z) = format_int 10 z.
Proof. reflexivity. Qed.
Lemma print_value_big z : print_value 0 (OBig z) = [48; 120]%N ++ format_int 16 z.
Proof. reflexivity. Qed.

(* every intN / uintN output (N <= 64: a Go integer), every value: the printed
   text is accepted by SetString(s, 0) and is the value *)
Lemma print_int_reparse signed w z : set_string (print_value 0 (OInt signed w z)) = Some z.
Proof. rewrite print_value_int. apply set_string_decimal. Qed.

(* every *big.Int output (N > 64), every NON-NEGATIVE value *)
Lemma print_big_reparse z : 0 <= z -> set_string (print_value 0 (OBig z)) = Some z.
Proof. intros Hz. rewrite print_value_big. apply set_string_hex. exact Hz. Qed.

(* a negative *big.Int is printed "0x-…", which SetString rejects *)
Lemma print_big_negative_refuted : exists z, z < 0 /\ set_string (print_value 0 (OBig z)) = None.
Proof. exists (-1). split; [lia|]. vm_compute. reflexivity. Qed.

(* with -base 10 every integer output reads back, negative *big.Int included *)
Lemma print_base10_reparse o z :
  (exists signed w, o = OInt signed w z) \/ o = OBig z -> set_string (print_value 10 o) = Some z.
Proof. intros [(sg & w & ->)| ->]; apply set_string_decimal. Qed.

(* in terms of the argument types: the text printed for an integer output
   read by IOArg.Parse for the same type gives the value *)
Lemma print_parse_roundtrip (signed : bool) b z :
  (b <= 64)%nat \/ 0 <= z ->
  parse (leaf_arg (if signed then TyInt b else TyUint b)) [print_value 0 (go_int signed b z)] = Ok z.
Proof.
  intros H.
  assert (E : set_string (print_value 0 (go_int signed b z)) = Some z).
  { unfold go_int. destruct (go_width_cases b) as [[-> Hb]|(w & -> & Hw)].
    - apply print_big_reparse. lia.
    - apply print_int_reparse. }
  destruct signed; [rewrite parse_int | rewrite parse_uint]; rewrite E; reflexivity.
Qed.

Lemma hex_bytes_length l : length (hex_bytes l) = (2 * length l)%nat.
Proof. induction l as [|x l IH]; simpl; [reflexivity|]. rewrite IH. lia. Qed.

Lemma hex_bytes_valid l : Forall (fun x => (x < 256)%N) l -> Forall (valid_digit 16) (hex_bytes l).
Proof.
  induction 1 as [|x l Hx HF IH]; [constructor|]. cbn [hex_bytes flat_map app].
  constructor; [apply digit_char_valid; [lia|apply N.div_lt_upper_bound; lia]|].
  constructor; [apply digit_char_valid; [lia|apply N.mod_lt; lia]|exact IH].
Qed.

Lemma hex_bytes_value : forall l acc, Forall (fun x => (x < 256)%N) l ->
  dvalue 16 (hex_bytes l) acc = fold_left (fun a x => (a * 256 + x)%N) l acc.
Proof.
  induction l as [|x l IH]; intros acc HF; [reflexivity|].
  inversion HF as [|? ? Hx HF']; subst. cbn [hex_bytes flat_map app].
  change (flat_map _ l) with (hex_bytes l). unfold dvalue in *. cbn [fold_left].
  rewrite IH by exact HF'. f_equal.
  rewrite !digit_val_char.
  - rewrite (N.div_mod' x 16) at 3. lia.
  - assert (x mod 16 < 16)%N by (apply N.mod_lt; lia). lia.
  - assert (x / 16 < 16)%N by (apply N.div_lt_upper_bound; lia). lia.
Qed.

Lemma be_value_bytes : forall l acc,
  Z.of_N (fold_left (fun a x => (a * 256 + x)%N) l acc) = fold_left (be_step 8) (map Z.of_N l) (Z.of_N acc).
Proof.
  induction l as [|x l IH]; intros acc; [reflexivity|]. cbn [fold_left map]. rewrite IH. f_equal.
  unfold be_step. change (2 ^ Z.of_nat 8) with 256. lia.
Qed.

Lemma ceil_div_mul n e : (0 < e)%nat -> ceil_div (n * e) e = n.
Proof. intros He. unfold ceil_div. rewrite Nat.mod_mul, Nat.div_mul by lia. reflexivity. Qed.

(* every non-empty byte array output: PrintResults prints hex_bytes; "0x" +
   that text, parsed for the same array type, puts the same bytes on the wires *)
Lemma print_bytes_reparse l :
  l <> [] -> Forall (fun x => (x < 256)%N) l ->
  let m := TyArray (TyUint 8) (length l) in
  print_value 0 (decoded m (GBytes l)) = hex_bytes l /\
  exists r, parse (leaf_arg m) [[48; 120]%N ++ hex_bytes l] = Ok r /\
    wires r (bits_of m) = gin_wires m (GBytes l).
Proof.
  intros Hne HF m. split.
  - unfold m. cbn [decoded]. unfold out_slice, pad_elems. rewrite Nat.sub_diag. simpl repeat. rewrite app_nil_r.
    cbn [elem_tag fst snd]. change (go_width 8) with 8%nat. cbn [print_value fst snd].
    change (Nat.eqb 3 3 && Nat.eqb 8 8) with true. cbv iota. f_equal.
    unfold slice_bytes. rewrite !map_map. rewrite <- (map_id l) at 2. apply map_ext. intros x.
    cbn [elem_out]. unfold go_int. change (go_width 8) with 8%nat. cbv iota. apply N2Z.id.
  - apply parse_leaf_canonical.
    + simpl. repeat split; try lia. exact HF.
    + cbn [spells bits_of].
      assert (Es : set_string ([48; 120]%N ++ hex_bytes l) = Some (be_value 8 (map Z.of_N l))).
      { rewrite set_string_0x; [|apply hex_bytes_valid, HF | destruct l; [contradiction|discriminate]].
        rewrite hex_bytes_value by exact HF. f_equal. apply (be_value_bytes l 0). }
      split; [exact Es|].
      unfold literal_elems, literal_bit_len. change (has_prefix s_0x ([48; 120]%N ++ hex_bytes l)) with true. cbv iota.
      rewrite app_length, hex_bytes_length. simpl length.
      replace ((2 + 2 * length l - 2) * 4)%nat with (length l * 8)%nat by lia. apply (ceil_div_mul _ 8). lia.
Qed.

Example ex_print_bytes :
  print_value 0 (decoded (TyArray (TyUint 8) 3) (GBytes [161; 2; 3]%N)) = [97; 49; 48; 50; 48; 51]%N.   (* "a10203" *)
Proof. vm_compute. reflexivity. Qed.

(* Sizes, like InputSizes, is computed element by element: the list is accepted
   exactly when every value is, and size i depends on value i alone *)
Lemma sizes_iff : forall vs ns,
  sizes vs = Ok ns <-> Forall2 (fun v n => sizes [v] = Ok [n]) vs ns.
Proof.
  intros vs ns. unfold sizes. rewrite sizes_gen_map, map_res_iff.
  split; apply Forall2_weaken; intros v n; destruct v; simpl; congruence.
Qed.

(* "the text s is a spelling of the Go value v" for the size inference:
   a uint64 in any plain spelling (0 written "0"), a bool in any of its
   spellings, a byte slice as a 0x literal with two digits per byte (the
   empty slice "0x"), nil as "_" *)
Inductive size_spelled : gin -> list N -> Prop :=
| ssp_int z s :
    0 <= z < 2 ^ 64 -> set_string s = Some z -> match_hex_input s = None ->
    has_prefix s_0x s = false -> (z = 0 -> s = s_0) -> size_spelled (GInt z) s
| ssp_bool (b : bool) s :
    mem_str s (if b then bool_true_spellings else bool_false_spellings) = true -> size_spelled (GBool b) s
| ssp_bytes l : size_spelled (GBytes l) ([48; 120]%N ++ hex_bytes l)
| ssp_nil : size_spelled GNil s_underscore.

Lemma size_spelled_one v s : size_spelled v s -> exists n, sizes [v] = Ok [n] /\ input_size s = Ok n.
Proof.
  intros H. destruct H as [z s Hz Hs Hm Hp H0 | b s Hb | l | ].
  - destruct (sizes_eq_input_sizes s z Hz Hs Hm Hp H0) as (n & E1 & E2 & _).
    exists n. split; [exact E1|]. apply input_sizes_iff in E2. inversion E2; subst. assumption.
  - exists 1%nat. split; [reflexivity|].
    apply mem_str_In in Hb. destruct b; destruct Hb as [<-|[<-|[<-|[]]]]; reflexivity.
  - exists (length l * 8)%nat. split; [apply (sizes_bytes bit_len_now)|].
    unfold input_size. cbn [app].
    change (lN_eqb (48 :: 120 :: hex_bytes l)%N s_underscore) with false. cbv iota.
    change (mem_str (48 :: 120 :: hex_bytes l)%N bool_false_spellings) with false.
    change (mem_str (48 :: 120 :: hex_bytes l)%N bool_true_spellings) with false.
    change (has_prefix s_0x (48 :: 120 :: hex_bytes l)%N) with true. cbn [orb]. cbv iota.
    cbn [length]. rewrite hex_bytes_length. f_equal. lia.
  - exists O. split; reflexivity.
Qed.

(* Go values versus text for WHOLE argument lists: every list of Go values
   (uint64 incl. 0, bool, []byte of any length, nil), every list of spellings
   of them: circuit.Sizes and circuit.InputSizes infer the same size list *)
Lemma sizes_eq_input_sizes_list : forall vs ss,
  Forall2 size_spelled vs ss -> exists ns, sizes vs = Ok ns /\ input_sizes ss = Ok ns /\ length ns = length vs.
Proof.
  induction 1 as [|v s vs ss H HF IH].
  - exists []. repeat split.
  - destruct IH as (ns & E1 & E2 & El). destruct (size_spelled_one v s H) as (n & H1 & H2).
    exists (n :: ns). split; [apply sizes_iff; constructor; [exact H1 | apply sizes_iff; exact E1]|].
    split; [|simpl; lia]. apply input_sizes_iff. constructor; [exact H2 | apply input_sizes_iff; exact E2].
Qed.

Example ex_size_spelled :
  Forall2 size_spelled [GInt 300; GBool true; GBytes [161; 2]%N; GNil; GInt 0]
          [[51; 48; 48]%N; [116]%N; [48; 120; 97; 49; 48; 50]%N; s_underscore; s_0] /\
  sizes [GInt 300; GBool true; GBytes [161; 2]%N; GNil; GInt 0] = Ok [9; 1; 16; 0; 1]%nat.
Proof.
  split; [|reflexivity].
  constructor; [apply ssp_int; try reflexivity; [lia | intros; discriminate]|].
  constructor; [apply (ssp_bool true); reflexivity|].
  constructor; [apply (ssp_bytes [161; 2]%N)|].
  constructor; [apply ssp_nil|].
  constructor; [apply ssp_int; try reflexivity; lia|constructor].
Qed.

(* the wire value of a stringN output holding the bytes l: byte i on wires [8i, 8i+8) *)
Definition str_value (l : list N) : Z := le_value 8 (map Z.of_N l).

(* the Go string Result builds: one rune per byte, printable as itself (UTF-8), anything else \u00XX *)
Definition render (l : list N) : list N := flat_map (fun x => string_rune (Z.of_N x)) l.

(* every string width that is a multiple of 8, every byte content (NUL
   bytes anywhere, bytes >= 0x80): Result renders exactly one rune per byte, in
   order, byte 0 first; the argument is unchanged *)
Lemma result_string l :
  Forall (fun x => (x < 256)%N) l ->
  result (info_of (TyString (length l * 8))) (str_value l) = Ok (OStr (render l), str_value l).
Proof.
  intros HF. unfold result. rewrite result_is_scalar, result_scalar_tystring by reflexivity.
  rewrite Nat.div_mul by lia. f_equal. f_equal. f_equal.
  unfold render. rewrite !flat_map_concat_map. f_equal.
  rewrite <- (map_length Z.of_N l).
  rewrite <- (map_map Z.of_N string_rune), (map_nth_seq string_rune 0 (map Z.of_N l)).
  apply map_ext_in. intros i Hi. apply in_seq in Hi. f_equal.
  change 255 with (mask_of 8). apply (le_chunk 8); [|lia].
  apply bytes_in_range; [lia|exact HF].
Qed.

(* reading the first rune back: every '\' of the output starts a 6-character escape *)
Definition unhex (c : N) : N := if (c <? 58)%N then (c - 48)%N else (c - 87)%N.
Definition unrender_head (out : list N) : option (N * list N) :=
  match out with
  | [] => None
  | c :: rest =>
      if (c =? 92)%N then
        match rest with
        | _ :: _ :: _ :: h1 :: h2 :: rest' => Some ((unhex h1 * 16 + unhex h2)%N, rest')
        | _ => None
        end
      else if (c <? 128)%N then Some (c, rest)
      else match rest with
           | d :: rest' => Some (((c - 192) * 64 + (d - 128))%N, rest')
           | [] => None
           end
  end.

Lemma unrender_head_app l x r rest :
  unrender_head l = Some (x, r) -> unrender_head (l ++ rest) = Some (x, r ++ rest).
Proof.
  destruct l as [|c l]; [discriminate|]. cbn [unrender_head app].
  destruct (c =? 92)%N.
  - destruct l as [|? [|? [|? [|h1 [|h2 l]]]]]; try discriminate. intros H; inversion H; reflexivity.
  - destruct (c <? 128)%N; [intros H; inversion H; reflexivity|].
    destruct l; [discriminate|]. intros H; inversion H; reflexivity.
Qed.

(* the 256 runes, one by one *)
Lemma unrender_head_table :
  forallb (fun x => match unrender_head (string_rune (Z.of_N x)) with
                    | Some (y, []) => (y =? x)%N
                    | _ => false
                    end) (map N.of_nat (seq 0 256)) = true.
Proof. vm_compute. reflexivity. Qed.

Lemma unrender_head_rune : forall x, (x < 256)%N ->
  forall rest, unrender_head (string_rune (Z.of_N x) ++ rest) = Some (x, rest).
Proof.
  intros x Hx rest. pose proof unrender_head_table as H. rewrite forallb_forall in H.
  assert (Hin : In x (map N.of_nat (seq 0 256))).
  { rewrite <- (N2Nat.id x). apply in_map, in_seq. lia. }
  apply H in Hin.
  destruct (unrender_head (string_rune (Z.of_N x))) as [[y [|]]|] eqn:E; try discriminate.
  apply N.eqb_eq in Hin. subst y. exact (unrender_head_app _ _ _ rest E).
Qed.

Lemma unrender_head_render x l : (x < 256)%N -> unrender_head (render (x :: l)) = Some (x, render l).
Proof. intros Hx. exact (unrender_head_rune x Hx (render l)). Qed.

(* lossless: every two byte contents (of any lengths, any bytes) that render
   to the same Go string are equal *)
Lemma render_injective : forall l1 l2,
  Forall (fun x => (x < 256)%N) l1 -> Forall (fun x => (x < 256)%N) l2 ->
  render l1 = render l2 -> l1 = l2.
Proof.
  induction l1 as [|x l1 IH]; intros [|y l2] H1 H2 E.
  - reflexivity.
  - inversion H2; subst. apply (f_equal unrender_head) in E. rewrite unrender_head_render in E by assumption. discriminate.
  - inversion H1; subst. apply (f_equal unrender_head) in E. rewrite unrender_head_render in E by assumption. discriminate.
  - inversion H1; inversion H2; subst. apply (f_equal unrender_head) in E.
    rewrite !unrender_head_render in E by assumption. inversion E; subst. f_equal. apply IH; assumption.
Qed.

Example ex_result_string :
  result (info_of (TyString 24)) (str_value [97; 0; 233]%N)
  = Ok (OStr [97; 92; 117; 48; 48; 48; 48; 195; 169]%N, str_value [97; 0; 233]%N).   (* "a\u0000é" *)
Proof. vm_compute. reflexivity. Qed.

(* at the level of Result: two contents (any bytes, the backslash included)
   that decode to the same Go string are the same content *)
Lemma result_string_lossless l1 l2 :
  Forall (fun x => (x < 256)%N) l1 -> Forall (fun x => (x < 256)%N) l2 ->
  map_fst (result (info_of (TyString (length l1 * 8))) (str_value l1))
  = map_fst (result (info_of (TyString (length l2 * 8))) (str_value l2)) ->
  l1 = l2.
Proof.
  intros H1 H2 E. rewrite (result_string l1 H1), (result_string l2 H2) in E. simpl in E.
  inversion E. apply render_injective; assumption.
Qed.

(* the pair of finding F44 (the six characters \u0000 then NUL / NUL then those six
   characters): with the backslash escaped, two different Go strings *)
Example ex_backslash_pair :
  map_fst (result (info_of (TyString 56)) (str_value [92; 117; 48; 48; 48; 48; 0]%N))
  <> map_fst (result (info_of (TyString 56)) (str_value [0; 92; 117; 48; 48; 48; 48]%N)).
Proof. vm_compute. discriminate. Qed.
