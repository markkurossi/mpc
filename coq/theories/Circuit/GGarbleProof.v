(* GGarbleProof.v — the generic gate code instantiated concretely is the C01 model's
   garble_gate / garble_gates (so the byte-exact tie of C01 covers it); C04: in the
   symbolic (random-oracle) execution, whole-circuit or streamed, the transcript never
   contains R nor two values differing by R. *)
From Coq Require Import NArith List Bool Arith Lia ZifyN ZifyNat ZifyBool.
From Mpc Require Import Base.Label Circuit.Circuit Circuit.Garble Circuit.GarbleProof Circuit.GGarble.
Import ListNotations.
Open Scope N_scope.

Lemma tweak_idem t : tweak (tweak t) = tweak t.
Proof. unfold tweak. apply N.mod_mod. discriminate. Qed.

Lemma half_tweak pi a t : half pi a (tweak t) = half pi a t.
Proof. unfold half. rewrite tweak_idem. reflexivity. Qed.

Lemma enc_tweak pi a b c t : enc pi a b c (tweak t) = enc pi a b c t.
Proof. unfold enc, makeK. rewrite tweak_idem. reflexivity. Qed.

Lemma ggate_concrete pi r gw id g :
  ggate_core unit sbit (conc_H pi) r (nth (gin0 g) gw w0) (nth (gin1 g) gw w0) (gop g) id tt
  = (garble_gate pi r gw id g, tt).
Proof.
  unfold ggate_core, garble_gate, conc_H, gidx, gidxU, idx, idxU.
  destruct (gop g); cbv zeta; rewrite ?half_tweak, ?enc_tweak; reflexivity.
Qed.

Lemma ggates_concrete pi r : forall gs gw id,
  ggates unit sbit (conc_H pi) r gw id tt gs = (garble_gates pi r gw id gs, tt).
Proof.
  induction gs as [|g gs IH]; intros gw id; cbn [ggates garble_gates].
  - reflexivity.
  - rewrite ggate_concrete.
    destruct (garble_gate pi r gw id g) as [[c id'] row].
    rewrite IH. destruct (garble_gates pi r (upd gw (gout g) c) id' gs) as [[gwf idf] rows].
    reflexivity.
Qed.

Definition clear_from (m : N) (v : N) : Prop := forall k, m <= k -> N.testbit v k = false.

Lemma clear_from_mono m m' v : m <= m' -> clear_from m v -> clear_from m' v.
Proof. intros H C k Hk. apply C. lia. Qed.

Lemma clear_from_lxor m a b : clear_from m a -> clear_from m b -> clear_from m (lxor a b).
Proof. intros A B k Hk. unfold lxor. rewrite N.lxor_spec, (A k Hk), (B k Hk). reflexivity. Qed.

Lemma clear_from_0 m : clear_from m 0.
Proof. intros k _. apply N.bits_0. Qed.

Lemma bits_R k : N.testbit Rsym k = (k <? 2).
Proof.
  unfold Rsym. destruct k as [|p]; [reflexivity|].
  destruct p as [p|p|]; try reflexivity; destruct p; reflexivity.
Qed.

Lemma bits_b2n (p : bool) k : N.testbit (if p then 1 else 0) k = (p && (k =? 0)).
Proof.
  destruct p; cbn [andb]; [|apply N.bits_0].
  destruct k as [|q]; [reflexivity|]. destruct q; reflexivity.
Qed.

Lemma bits_basis perm n k :
  N.testbit (basis perm n) k = xorb (k =? N.of_nat n + 2) (perm n && (k =? 0)).
Proof.
  unfold basis. rewrite N.lxor_spec, N.pow2_bits_eqb, bits_b2n.
  rewrite (N.eqb_sym (N.of_nat n + 2) k). reflexivity.
Qed.

Lemma clear_from_R m : 2 <= m -> clear_from m Rsym.
Proof. intros H k Hk. rewrite bits_R. lia. Qed.

Lemma clear_from_basis perm n m : N.of_nat n + 3 <= m -> clear_from m (basis perm n).
Proof. intros H k Hk. rewrite bits_basis. destruct (perm n); cbn [andb]; lia. Qed.

(* every value has a bit (>= 2, i.e. a basis element) that no earlier value has *)
Definition chain (tr : list N) : Prop :=
  forall k, (k < length tr)%nat ->
    exists b, 2 <= b /\ N.testbit (nth k tr 0) b = true /\
              forall i, (i < k)%nat -> N.testbit (nth i tr 0) b = false.

Lemma chain_nil : chain [].
Proof. intros k H. cbn in H. lia. Qed.

Lemma chain_snoc tr v b :
  chain tr -> 2 <= b -> N.testbit v b = true ->
  (forall u, In u tr -> N.testbit u b = false) -> chain (tr ++ [v]).
Proof.
  intros C Hb Hv Hu k Hk. rewrite app_length in Hk. cbn [length] in Hk.
  destruct (Nat.lt_ge_cases k (length tr)) as [Hl|Hg].
  - destruct (C k Hl) as (b' & B1 & B2 & B3). exists b'. split; [exact B1|].
    rewrite app_nth1 by exact Hl. split; [exact B2|].
    intros i Hi. rewrite app_nth1 by lia. apply B3. exact Hi.
  - assert (k = length tr) by lia. subst k. exists b. split; [exact Hb|].
    rewrite app_nth2 by lia. rewrite Nat.sub_diag. cbn [nth]. split; [exact Hv|].
    intros i Hi. rewrite app_nth1 by exact Hi. apply Hu. apply nth_In. exact Hi.
Qed.

Lemma chain_r_safe tr : chain tr -> r_safe Rsym tr.
Proof.
  intros C. split.
  - intros u Hu E. subst u. destruct (In_nth _ _ 0 Hu) as (k & Hk & Ek).
    destruct (C k Hk) as (b & B1 & B2 & _). rewrite Ek, bits_R in B2. lia.
  - assert (W : forall i j, (i < j)%nat -> (j < length tr)%nat ->
                 lxor (nth i tr 0) (nth j tr 0) <> Rsym).
    { intros i j Hij Hj E. destruct (C j Hj) as (b & B1 & B2 & B3).
      specialize (B3 i Hij).
      assert (T : N.testbit (lxor (nth i tr 0) (nth j tr 0)) b = true)
        by (unfold lxor; rewrite N.lxor_spec, B2, B3; reflexivity).
      rewrite E, bits_R in T. lia. }
    intros i j Hi Hj E.
    destruct (Nat.lt_trichotomy i j) as [H|[H|H]].
    + exact (W i j H Hj E).
    + subst j. rewrite lxor_nilp in E. discriminate.
    + rewrite lxor_comm in E. exact (W j i H Hi E).
Qed.

Definition tbl_ok (next : nat) (id : N) (tbl : list (hkey * nat)) : Prop :=
  forall k n, In (k, n) tbl -> (n < next)%nat /\ snd k < id.

Lemma tbl_ok_ext k n id next tb :
  tbl_ok next id tb -> (n < next)%nat -> snd k < id -> tbl_ok next id ((k, n) :: tb).
Proof.
  intros H Hn Hk k' n' [E|Hin]; [injection E as <- <-; split; assumption|apply H; exact Hin].
Qed.

Lemma hkey_eqb_eq k k' : hkey_eqb k k' = true -> k = k'.
Proof.
  destruct k as [[[kd a] b] t], k' as [[[kd' a'] b'] t']. unfold hkey_eqb.
  rewrite !andb_true_iff, !N.eqb_eq. intros [[[K ->] ->] ->].
  destruct kd, kd'; try discriminate K; reflexivity.
Qed.

Lemma slookup_cons_ne k k' n tb : k <> k' -> slookup k ((k', n) :: tb) = slookup k tb.
Proof.
  intros H. cbn [slookup]. destruct (hkey_eqb k k') eqn:E; [|reflexivity].
  destruct (H (hkey_eqb_eq _ _ E)).
Qed.

Lemma slookup_fresh next id tbl k :
  tbl_ok next id tbl -> id <= snd k -> slookup k tbl = None.
Proof.
  induction tbl as [|[k' n] tbl IH]; intros Hok Ht; [reflexivity|].
  assert (Hlt : snd k' < id) by (apply (Hok k' n); left; reflexivity).
  rewrite slookup_cons_ne by (intros ->; lia).
  apply IH; [|exact Ht]. intros k0 n0 Hin. apply Hok. right. exact Hin.
Qed.

Lemma sym_H_new perm k next tbl :
  slookup k tbl = None ->
  sym_H perm k (mkSst next tbl) = (basis perm next, mkSst (S next) ((k, next) :: tbl)).
Proof. intros H. unfold sym_H. cbn [stable snext]. rewrite H. reflexivity. Qed.

Lemma lxor_R_ne a : lxor a Rsym <> a.
Proof. apply lxor_neq. discriminate. Qed.

Lemma sym_sbit_lxor_R a : sym_sbit (lxor a Rsym) = negb (sym_sbit a).
Proof. unfold sym_sbit, lxor. rewrite N.lxor_spec. apply xorb_true_r. Qed.

Lemma tweak_small t : t < 2 ^ 32 -> tweak t = t.
Proof. intros H. unfold tweak. apply N.mod_small. exact H. Qed.

Lemma basis_own_bit perm n : N.testbit (basis perm n) (N.of_nat n + 2) = true.
Proof.
  rewrite bits_basis, N.eqb_refl. replace (N.of_nat n + 2 =? 0) with false by lia.
  rewrite andb_false_r. reflexivity.
Qed.

Lemma basis_other_bit perm m n : m <> n -> N.testbit (basis perm m) (N.of_nat n + 2) = false.
Proof.
  intros H. rewrite bits_basis. replace (N.of_nat n + 2 =? N.of_nat m + 2) with false by lia.
  replace (N.of_nat n + 2 =? 0) with false by lia. rewrite andb_false_r. reflexivity.
Qed.

Lemma R_high_bit n : N.testbit Rsym (N.of_nat n + 2) = false.
Proof. rewrite bits_R. lia. Qed.

(* bit [n + 2] of an xor of basis elements, R and 0 *)
Ltac basis_bit :=
  unfold lxor, xor_if;
  rewrite ?N.lxor_spec, ?R_high_bit, ?N.bits_0;
  repeat (first [rewrite basis_own_bit | rewrite basis_other_bit by lia]);
  reflexivity.

(* [clear_from m] of an xor of basis elements, R, 0 and values known to be clear from
   some m' <= m *)
Ltac clear_above :=
  repeat first [ apply clear_from_basis; lia | apply clear_from_R; lia | apply clear_from_0
               | eapply clear_from_mono; [|eassumption]; lia | apply clear_from_lxor ].

Definition gate_tweaks (o : op) : N := match o with AND => 2 | OR | INV => 1 | _ => 0 end.

Definition step_post (perm : nat -> bool) (next : nat) (id : N) (tr : list N) (o : op)
           (res : wire * N * list N * sst) : Prop :=
  let '(c, id', rows, st') := res in
  (next <= snext st')%nat /\ id' = id + gate_tweaks o /\
  L1 c = lxor (L0 c) Rsym /\ clear_from (N.of_nat (snext st') + 2) (L0 c) /\
  (forall v, In v rows -> clear_from (N.of_nat (snext st') + 2) v) /\
  tbl_ok (snext st') id' (stable st') /\ chain (tr ++ rows).

Section Step.
  Variable perm : nat -> bool.
  Variables (next : nat) (id : N) (tbl : list (hkey * nat)) (tr : list N).
  Variables (a0 b0 : N).
  Hypothesis Ha : clear_from (N.of_nat next + 2) a0.
  Hypothesis Htr : forall v, In v tr -> clear_from (N.of_nat next + 2) v.
  Hypothesis Htbl : tbl_ok next id tbl.
  Hypothesis Hch : chain tr.

  Let a := mkWire a0 (lxor a0 Rsym).
  Let b := mkWire b0 (lxor b0 Rsym).

  Lemma tbl_ok_weaken next' id' :
    (next <= next')%nat -> id <= id' -> tbl_ok next' id' tbl.
  Proof. intros Hn Hi k n Hin. destruct (Htbl k n Hin). split; lia. Qed.

  Lemma old_bit_clear u k : In u tr -> N.of_nat next + 2 <= k -> N.testbit u k = false.
  Proof. intros Hu Hk. apply (Htr u Hu). exact Hk. Qed.

  (* the next oracle query is new: its key differs from those asked earlier for this gate,
     and its tweak is not below the counter the gate started with *)
  Ltac fresh_H :=
    rewrite sym_H_new
      by (rewrite ?slookup_cons_ne by (intros [=]; lia); eapply slookup_fresh; [exact Htbl|cbn [snd]; lia]).

  (* extend the chain by a row whose bit [k] is set, is not below [next + 2] (so it is clear
     in the old transcript) and is clear in the rows the gate emitted before *)
  Ltac new_row k :=
    apply chain_snoc with (b := k);
      [ | lia | basis_bit
        | intros u Hu; repeat (apply in_app_or in Hu; destruct Hu as [Hu|[<-|[]]]);
          [apply old_bit_clear; [exact Hu|lia] | basis_bit ..] ].

  (* XOR and XNOR ask the oracle nothing and transmit nothing *)
  Lemma step_free o (Ho : o = XOR \/ o = XNOR) (Hb : clear_from (N.of_nat next + 2) b0) :
    step_post perm next id tr o
      (ggate_core sst sym_sbit (sym_H perm) Rsym a b o id (mkSst next tbl)).
  Proof.
    destruct Ho as [-> | ->]; cbn [ggate_core step_post L0 L1 a b snext stable gate_tweaks];
      (split; [lia|]); (split; [lia|]); (split; [xor_solve|]); (split; [clear_above|]);
      (split; [intros v []|]); (split; [exact Htbl|]); rewrite app_nil_r; exact Hch.
  Qed.

  Lemma step_and (Hb : clear_from (N.of_nat next + 2) b0) (Hid : id + 2 <= 2 ^ 32) :
    step_post perm next id tr AND
      (ggate_core sst sym_sbit (sym_H perm) Rsym a b AND id (mkSst next tbl)).
  Proof.
    unfold ggate_core. cbn [L0 L1 a b].
    rewrite (tweak_small id), (tweak_small (id + 1)) by lia.
    pose proof (lxor_R_ne a0) as Na. pose proof (lxor_R_ne b0) as Nb.
    do 4 fresh_H.
    cbn [step_post snext stable gate_tweaks L0 L1].
    split; [lia|]. split; [reflexivity|]. split; [reflexivity|].
    split. { unfold xor_if. destruct (sym_sbit a0), (sym_sbit b0); clear_above. }
    split. { intros v [<-|[<-|[]]]; unfold xor_if; destruct (sym_sbit b0); clear_above. }
    split. { repeat (apply tbl_ok_ext; [|lia|cbn [snd]; lia]). apply tbl_ok_weaken; lia. }
    (* tg carries basis next+1, te carries basis next+3 *)
    match goal with |- chain (tr ++ [?x; ?y]) =>
      change (tr ++ [x; y]) with (tr ++ [x] ++ [y]); rewrite app_assoc end.
    apply chain_snoc with (b := N.of_nat (S (S (S next))) + 2).
    - destruct (sym_sbit b0); new_row (N.of_nat (S next) + 2); exact Hch.
    - lia.
    - unfold lxor. rewrite N.lxor_spec, (Ha (N.of_nat (S (S (S next))) + 2)) by lia. basis_bit.
    - intros u Hu. apply in_app_or in Hu. destruct Hu as [Hu|[<-|[]]].
      + apply old_bit_clear; [exact Hu|lia].
      + destruct (sym_sbit b0); basis_bit.
  Qed.

  Lemma step_or (Hb : clear_from (N.of_nat next + 2) b0) (Hid : id + 1 <= 2 ^ 32) :
    step_post perm next id tr OR
      (ggate_core sst sym_sbit (sym_H perm) Rsym a b OR id (mkSst next tbl)).
  Proof.
    unfold ggate_core. cbn [L0 L1 a b].
    rewrite (tweak_small id) by lia.
    pose proof (lxor_R_ne a0) as Na. pose proof (lxor_R_ne b0) as Nb.
    do 4 fresh_H.
    unfold gidx. rewrite !sym_sbit_lxor_R.
    destruct (sym_sbit a0), (sym_sbit b0);
      cbn [negb Nat.add upd nth Nat.eqb mapi mapi_from tl step_post snext stable gate_tweaks L0 L1];
      (split; [lia|]); (split; [reflexivity|]); (split; [xor_solve|]);
      (split; [clear_above|]);
      (split; [intros v [<-|[<-|[<-|[]]]]; clear_above|]);
      (split; [repeat (apply tbl_ok_ext; [|lia|cbn [snd]; lia]); apply tbl_ok_weaken; lia|]).
    (* per permutation: the row at table position q <> 0 is the xor of the hash stored there
       with the hash at position 0 (and possibly R), and carries the bit of its own hash *)
    all: match goal with |- chain (tr ++ [?x; ?y; ?z]) =>
           change (tr ++ [x; y; z]) with (tr ++ [x] ++ [y] ++ [z]); rewrite !app_assoc end.
    - new_row (N.of_nat next + 2). new_row (N.of_nat (S next) + 2).
      new_row (N.of_nat (S (S next)) + 2). exact Hch.
    - new_row (N.of_nat (S next) + 2). new_row (N.of_nat next + 2).
      new_row (N.of_nat (S (S (S next))) + 2). exact Hch.
    - new_row (N.of_nat (S (S next)) + 2). new_row (N.of_nat (S (S (S next))) + 2).
      new_row (N.of_nat next + 2). exact Hch.
    - new_row (N.of_nat (S (S (S next))) + 2). new_row (N.of_nat (S (S next)) + 2).
      new_row (N.of_nat (S next) + 2). exact Hch.
  Qed.

  Lemma step_inv (bw : wire) (Hid : id + 1 <= 2 ^ 32) :
    step_post perm next id tr INV
      (ggate_core sst sym_sbit (sym_H perm) Rsym a bw INV id (mkSst next tbl)).
  Proof.
    unfold ggate_core. cbn [L0 L1 a].
    rewrite (tweak_small id) by lia.
    pose proof (lxor_R_ne a0) as Na.
    do 2 fresh_H.
    unfold gidxU. rewrite sym_sbit_lxor_R.
    destruct (sym_sbit a0);
      cbn [negb upd nth Nat.eqb mapi mapi_from tl step_post snext stable gate_tweaks L0 L1];
      (split; [lia|]); (split; [reflexivity|]); (split; [xor_solve|]);
      (split; [clear_above|]);
      (split; [intros v [<-|[]]; clear_above|]);
      (split; [repeat (apply tbl_ok_ext; [|lia|cbn [snd]; lia]); apply tbl_ok_weaken; lia|]).
    - new_row (N.of_nat next + 2). exact Hch.
    - new_row (N.of_nat (S next) + 2). exact Hch.
  Qed.
End Step.

Definition wire_sym_ok (m : N) (w : wire) : Prop :=
  L1 w = lxor (L0 w) Rsym /\ clear_from m (L0 w).

Lemma sym_core_step perm next id tbl tr (a b : wire) (o : op) :
  wire_sym_ok (N.of_nat next + 2) a ->
  (o = INV \/ wire_sym_ok (N.of_nat next + 2) b) ->
  (forall v, In v tr -> clear_from (N.of_nat next + 2) v) ->
  tbl_ok next id tbl -> chain tr -> id + gate_tweaks o <= 2 ^ 32 ->
  step_post perm next id tr o
    (ggate_core sst sym_sbit (sym_H perm) Rsym a b o id (mkSst next tbl)).
Proof.
  intros [Ea Ca] Hb Htr Htbl Hch Hid.
  destruct a as [a0 a1]. cbn [L0 L1] in Ea, Ca. subst a1.
  destruct Hb as [->|[Eb Cb]]; [apply step_inv; assumption|].
  destruct b as [b0 b1]. cbn [L0 L1] in Eb, Cb. subst b1.
  destruct o; [apply step_free; auto|apply step_free; auto|apply step_and|apply step_or|apply step_inv]; assumption.
Qed.

Definition SInv (perm : nat -> bool) (n : nat) (next : nat) (id : N) (tbl : list (hkey * nat))
           (gw : list wire) (asg : list bool) (tr : list N) : Prop :=
  length gw = n /\ length asg = n /\
  (forall w, nth w asg false = true -> wire_sym_ok (N.of_nat next + 2) (nth w gw w0)) /\
  (forall v, In v tr -> clear_from (N.of_nat next + 2) v) /\
  tbl_ok next id tbl /\ chain tr.

Lemma tweaks_of_cons g gs : tweaks_of (g :: gs) = gate_tweaks (gop g) + tweaks_of gs.
Proof. reflexivity. Qed.

Lemma sym_fold perm n ni : forall gs gw asg id next tbl tr,
  SInv perm n next id tbl gw asg tr ->
  wf_gates n ni asg gs = true ->
  id + tweaks_of gs <= 2 ^ 32 ->
  let '(gwf, idf, rows, stf) :=
    ggates sst sym_sbit (sym_H perm) Rsym gw id (mkSst next tbl) gs in
  SInv perm n (snext stf) idf (stable stf) gwf (final_asg asg gs) (tr ++ concat rows) /\
  (forall w, (w < ni)%nat -> nth w gwf w0 = nth w gw w0).
Proof.
  induction gs as [|g gs IH]; intros gw asg id next tbl tr HI Hwf Hid.
  - cbn [ggates concat snext stable final_asg fold_left]. rewrite app_nil_r. split; [exact HI|reflexivity].
  - cbn [wf_gates] in Hwf. apply andb_prop in Hwf. destruct Hwf as [Hok Hwf].
    rewrite tweaks_of_cons in Hid.
    destruct HI as (Lg & La & HW & HT & HTb & HC).
    apply gate_ok_spec in Hok. destruct Hok as ((_ & Hgo & Hni) & A0 & A1).
    assert (HB : gop g = INV \/ wire_sym_ok (N.of_nat next + 2) (nth (gin1 g) gw w0)).
    { destruct A1 as [E|[_ A1]]; [left; exact E|right; exact (HW _ A1)]. }
    pose proof (sym_core_step perm next id tbl tr _ _ (gop g) (HW _ A0) HB HT HTb HC ltac:(lia)) as ST.
    cbn [ggates].
    destruct (ggate_core sst sym_sbit (sym_H perm) Rsym (nth (gin0 g) gw w0)
                (nth (gin1 g) gw w0) (gop g) id (mkSst next tbl)) as [[[c id'] row] st'].
    cbn [step_post] in ST. destruct ST as (Hn & Hid' & Wc & Cc & Crow & Tb' & Ch').
    destruct st' as [next' tbl']. cbn [snext stable] in *.
    specialize (IH (upd gw (gout g) c) (upd asg (gout g) true) id' next' tbl' (tr ++ row)).
    destruct (ggates sst sym_sbit (sym_H perm) Rsym (upd gw (gout g) c) id' (mkSst next' tbl') gs)
      as [[[gwf idf] rows] stf].
    destruct IH as [HIf Hkeep].
    + split; [rewrite upd_length; exact Lg|]. split; [rewrite upd_length; exact La|].
      split.
      { intros w Hw. destruct (Nat.eq_dec (gout g) w) as [<-|Hne].
        - rewrite nth_upd_eq by lia. split; assumption.
        - rewrite nth_upd_neq in Hw by assumption. rewrite nth_upd_neq by assumption.
          destruct (HW w Hw) as [E C]. split; [exact E|]. eapply clear_from_mono; [|exact C]. lia. }
      split.
      { intros v Hv. apply in_app_or in Hv. destruct Hv as [Hv|Hv].
        - eapply clear_from_mono; [|apply HT; exact Hv]. lia.
        - apply Crow. exact Hv. }
      split; assumption.
    + exact Hwf.
    + lia.
    + cbn [concat]. rewrite app_assoc. split.
      * unfold final_asg in *. cbn [fold_left]. exact HIf.
      * intros w Hw. rewrite Hkeep by exact Hw. apply nth_upd_neq. lia.
Qed.

Lemma sym_inputs_length perm ni : length (sym_inputs perm ni) = ni.
Proof. unfold sym_inputs. rewrite map_length. apply seq_length. Qed.

Lemma nth_sym_inputs perm ni w :
  (w < ni)%nat -> nth w (sym_inputs perm ni) w0 = mkWire (basis perm w) (lxor (basis perm w) Rsym).
Proof. apply (nth_map_seq (fun i => mkWire (basis perm i) (lxor (basis perm i) Rsym))). Qed.

Lemma sym_inputs_chain perm (x : list bool) gw : forall k,
  (forall w, (w < k)%nat -> nth w gw w0 = mkWire (basis perm w) (lxor (basis perm w) Rsym)) ->
  let ins := map (fun i => pick (nth i gw w0) (nth i x false)) (seq 0 k) in
  chain ins /\ forall v, In v ins -> clear_from (N.of_nat k + 2) v.
Proof.
  induction k as [|k IHk]; intros Hin.
  - split; [apply chain_nil|intros v []].
  - destruct IHk as [Ck Bk]; [intros w Hw; apply Hin; lia|].
    cbv zeta. rewrite seq_S, map_app. cbn [map Nat.add]. rewrite Hin by lia. split.
    + apply chain_snoc with (b := N.of_nat k + 2); [exact Ck|lia| |].
      * destruct (nth k x false); cbn [pick L0 L1]; basis_bit.
      * intros u Hu. apply (Bk u Hu). lia.
    + intros v Hv. apply in_app_or in Hv. destruct Hv as [Hv|[<-|[]]].
      * eapply clear_from_mono; [|apply Bk; exact Hv]. lia.
      * destruct (nth k x false); cbn [pick L0 L1]; clear_above.
Qed.

Lemma sym_ggates_chain perm n ni nk gs (x : list bool) :
  (ni <= n)%nat ->
  wf_gates n nk (repeat true ni ++ repeat false (n - ni)) gs = true ->
  tweaks_of gs <= 2 ^ 32 ->
  let gw0 := sym_inputs perm ni ++ repeat w0 (n - ni) in
  let '(gwf, _, rows, _) := ggates sst sym_sbit (sym_H perm) Rsym gw0 0 (mkSst ni []) gs in
  chain (map (fun i => pick (nth i gw0 w0) (nth i x false)) (seq 0 ni) ++ concat rows) /\
  forall w, (w < nk)%nat -> nth w gwf w0 = nth w gw0 w0.
Proof.
  intros Hni Hgs Htw gw0.
  assert (Hin0 : forall w, (w < ni)%nat ->
            nth w gw0 w0 = mkWire (basis perm w) (lxor (basis perm w) Rsym)).
  { intros w Hw. unfold gw0. rewrite app_nth1 by (rewrite sym_inputs_length; exact Hw).
    apply nth_sym_inputs. exact Hw. }
  destruct (sym_inputs_chain perm x gw0 ni Hin0) as [Cin Bin].
  pose proof (sym_fold perm n nk gs gw0 (repeat true ni ++ repeat false (n - ni)) 0 ni []
                (map (fun i => pick (nth i gw0 w0) (nth i x false)) (seq 0 ni))) as SF.
  destruct (ggates sst sym_sbit (sym_H perm) Rsym gw0 0 (mkSst ni []) gs) as [[[gwf idf] rows] stf].
  destruct SF as [(_ & _ & _ & _ & _ & CH) Hkeep]; [|exact Hgs|lia|split; [exact CH|exact Hkeep]].
  split. { unfold gw0. rewrite app_length, sym_inputs_length, repeat_length. lia. }
  split. { rewrite app_length, !repeat_length. lia. }
  split.
  { intros w Hw. apply nth_init_asg_true in Hw.
    rewrite (Hin0 w Hw). split; [reflexivity|]. cbn [L0]. clear_above. }
  split; [exact Bin|]. split; [intros k m []|exact Cin].
Qed.

(* C04, whole-circuit mode *)
Theorem sym_whole_circuit_chain (perm : nat -> bool) (c : circuit) (x : list bool) :
  wf c = true -> tweaks_of (gates c) <= 2 ^ 32 ->
  chain (sym_transcript perm c x).
Proof.
  intros Hwf Htw. apply wf_spec in Hwf. destruct Hwf as (Hni & _ & Hgs & _).
  pose proof (sym_ggates_chain perm _ _ _ _ x Hni Hgs Htw) as SC. cbv zeta in SC.
  unfold sym_transcript, sym_garble.
  destruct (ggates sst sym_sbit (sym_H perm) Rsym
              (sym_inputs perm (ninputs c) ++ repeat w0 (nwires c - ninputs c)) 0
              (mkSst (ninputs c) []) (gates c)) as [[[gwf idf] rows] stf].
  destruct SC as [CH Hkeep].
  erewrite map_ext_in; [exact CH|].
  intros i Hi. apply in_seq in Hi. cbv beta. rewrite Hkeep by lia. reflexivity.
Qed.

Theorem sym_whole_circuit_safe (perm : nat -> bool) (c : circuit) (x : list bool) :
  wf c = true -> tweaks_of (gates c) <= 2 ^ 32 ->
  r_safe Rsym (sym_transcript perm c x).
Proof. intros Hwf Htw. apply chain_r_safe, sym_whole_circuit_chain; assumption. Qed.

(* non-vacuity / executable check of the same predicate on a concrete circuit *)
Example sym_example :
  r_pairs Rsym (sym_transcript (fun n => Nat.odd n)
     (mkCircuit 8 2 2 [mkGate 0 1 2 XOR; mkGate 2 2 3 AND; mkGate 3 0 4 OR;
                       mkGate 4 0 2 INV; mkGate 2 1 5 XNOR; mkGate 5 4 6 AND;
                       mkGate 6 3 7 OR]) [true; false]) = [].
Proof. vm_compute. reflexivity. Qed.

(* C04, streaming mode with a session-wide tweak counter: the streamed
   session is the whole-circuit garbling of the flattened gate list, so the
   same invariant applies.  [n] = size of the memory (store ++ tmp),
   the first [ni] addresses are the session inputs. *)
Theorem sym_stream_safe (perm : nat -> bool) (G ni n : nat) (steps : list scirc) (x : list bool) :
  (ni <= n)%nat ->
  wf_gates n 0 (init_asg (mkCircuit n ni 0 [])) (concat (map (sflat G) steps)) = true ->
  tweaks_of (concat (map (sflat G) steps)) <= 2 ^ 32 ->
  r_safe Rsym (sym_stream_transcript false perm G ni n steps x).
Proof.
  intros Hni Hgs Htw. apply chain_r_safe.
  pose proof (sym_ggates_chain perm n ni 0 _ x Hni Hgs Htw) as SC. cbv zeta in SC.
  unfold sym_stream_transcript, gstream_session, sym_stream_mem.
  destruct (ggates sst sym_sbit (sym_H perm) Rsym (sym_inputs perm ni ++ repeat w0 (n - ni)) 0
              (mkSst ni []) (concat (map (sflat G) steps))) as [[[gwf idf] rows] stf].
  exact (proj1 SC).
Qed.

(* F1: the tweak counter restarted per streamed circuit (the code before the fix)
   is NOT safe: two AND gates at the same position of two streamed circuits
   that share their first input wire transmit rows differing by R when the
   permute bits of their second inputs differ. *)
Definition reset_witness_steps : list scirc :=
  [ mkSC [mkGate 0 1 2 AND] 3 [0; 1]%nat [3]%nat;
    mkSC [mkGate 0 1 2 AND] 3 [0; 2]%nat [4]%nat ].
Definition reset_witness_perm (n : nat) : bool := Nat.eqb n 1.

Lemma stream_tweak_reset_refuted :
  exists perm G ni n steps x,
    wf_gates n 0 (init_asg (mkCircuit n ni 0 [])) (concat (map (sflat G) steps)) = true /\
    r_pairs Rsym (sym_stream_transcript true perm G ni n steps x) <> [] /\
    r_pairs Rsym (sym_stream_transcript false perm G ni n steps x) = [].
Proof.
  exists reset_witness_perm, 5%nat, 3%nat, 8%nat, reset_witness_steps, [false; false; false].
  vm_compute. repeat split; discriminate.
Qed.

(* F2: sha2pc.GarblerRound3 additionally transmits BOTH labels of every output
   wire (Round3Payload.OutputHints).  In the same symbolic execution that
   transcript is not safe: the two hints of an output wire are R apart. *)
Definition output_hints (gwf : list wire) (outs : list nat) : list N :=
  flat_map (fun o => [L0 (nth o gwf w0); L1 (nth o gwf w0)]) outs.

Definition sym_transcript_with_hints (perm : nat -> bool) (c : circuit) (x : list bool) : list N :=
  sym_transcript perm c x ++ output_hints (fst (sym_garble perm c)) (output_wires c).

Lemma sha2pc_output_hints_refuted :
  exists perm c x, wf c = true /\
    r_pairs Rsym (sym_transcript perm c x) = [] /\
    r_pairs Rsym (sym_transcript_with_hints perm c x) <> [].
Proof.
  exists (fun n => Nat.odd n),
    (mkCircuit 8 2 2 [mkGate 0 1 2 XOR; mkGate 2 2 3 AND; mkGate 3 0 4 OR;
                      mkGate 4 0 2 INV; mkGate 2 1 5 XNOR; mkGate 5 4 6 AND;
                      mkGate 6 3 7 OR]), [true; false].
  vm_compute. repeat split; discriminate.
Qed.
