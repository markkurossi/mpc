(* PassesLazyExamples.v — non-vacuity of the hypotheses added for the
   constant-free graphs ([wfg0] + [unvalued]) and for ConstPropagate's
   panic-freedom ([wfe]).  (Property C09) *)
From Coq Require Import List Bool Arith Lia.
From Mpc Require Import Circuit.Circuit Circuit.Passes Circuit.PassesProof Circuit.PassesBFS
  Circuit.PassesInv Circuit.PassesExamples Circuit.PassesLazy Circuit.PassesPanicCP.
Import ListNotations.

Example ex_wfe : wfe ex_graph.
Proof. intros w c H. upto 11 w ltac:(members H ltac:(vm_compute; lia)). Qed.

Example ex_no_panic :
  gerr (const_propagate ex_graph) = 0 /\
  gerr (cg (compile_assign (optimize true ex_graph))) = 0.
Proof. exact (no_panic_pipeline true ex_graph ex_wfg ex_wfb ex_wfx ex_wfe). Qed.

(* inputs w0 w1 w2; w3 = w0 AND w1 has fan-out 2; w4 = w3 XOR w2 (output);
   w5 = INV w1 is unused (pruned); w6 = w3 OR w0 (output); the outputs are
   flagged sink wires (no ID gates, hence no zero wire) *)
Definition ex0_build : graph :=
  let G := empty_graph 3 in
  let '(G, w3) := gate_to_new G AND 0 1 in
  let '(G, w4) := gate_to_new G XOR w3 2 in
  let '(G, _) := inv_to_new G 1 in
  let '(G, w6) := gate_to_new G OR w3 0 in
  flag_outputs G [w4; w6].

Definition ex0_graph : graph := Eval vm_compute in ex0_build.

Example ex0_shape :
  gnw ex0_graph = 7 /\ gorder ex0_graph = [0; 1; 2; 3] /\ gouts ex0_graph = [4; 6] /\
  gzero ex0_graph = None /\ gone ex0_graph = None /\ ginv ex0_graph = None /\ gerr ex0_graph = 0.
Proof. vm_compute. repeat split. Qed.

Lemma ex0_unvalued : unvalued ex0_graph.
Proof. intros w. upto 7 w reflexivity. Qed.

Lemma ex0_wfg0 : wfg0 ex0_graph.
Proof.
  constructor.
  - vm_compute. repeat constructor; simpl; intuition; discriminate.
  - intros gid H. members H reflexivity.
  - intros l1 g l2 E.
    assert (TT : topo_ok ex0_graph [] (gorder ex0_graph) = true) by (vm_compute; reflexivity).
    exact (topo_ok_sound ex0_graph (gorder ex0_graph) [] TT l1 g l2 E).
Qed.

Lemma ex0_wfb : wfb ex0_graph.
Proof.
  wfb_tac 7 4.
  intros o H. vm_compute in H. destruct H as [<-|[<-|[]]].
  - exists 1. vm_compute. auto 12.
  - exists 3. vm_compute. auto 12.
Qed.

Lemma ex0_wfx : wfx ex0_graph.
Proof. wfx_tac 7. intros k [H|H]; vm_compute in H; discriminate. Qed.

Definition all_inputs3 : list (list bool) :=
  [[false; false; false]; [true; false; false]; [false; true; false]; [true; true; false];
   [false; false; true]; [true; false; true]; [false; true; true]; [true; true; true]].

(* not degenerate: Prune kills the unused INV, the outputs are not constant *)
Example ex0_dead_gate :
  let G3 := optimize true ex0_graph in
  existsb (fun g => ndead (gn G3 g)) (seq 0 (gnn G3)) = true /\
  length (gorder G3) < length (gorder ex0_graph) /\
  existsb (fun x => negb (lb_eqb (graph_eval ex0_graph x) (graph_eval ex0_graph [false; false; false])))
          all_inputs3 = true.
Proof. vm_compute. repeat split; auto. Qed.

Example ex0_pipeline :
  forall (do_prune : bool) t x, length x = 3 ->
    eval_plain (pipeline do_prune t ex0_graph) x = graph_eval ex0_graph x.
Proof.
  intros p t x Hx.
  exact (pipeline_correct_unvalued p t ex0_graph x ex0_wfg0 ex0_wfb ex0_wfx ex0_unvalued Hx).
Qed.
