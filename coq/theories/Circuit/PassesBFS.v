(* PassesBFS.v — Compile's wire-id assignment (Passes.compile_assign) yields a
   dependency-respecting emission ([emission_ok]) with levels growing along
   dependencies ([levels_ok]) and reaches none of its panic sites, for every
   graph satisfying [cwf].  (Property C09) *)
From Coq Require Import List Bool Arith Lia Sorting.Sorted.
From Mpc Require Import Base.ListFacts Circuit.Circuit Circuit.Passes Circuit.PassesProof.
Import ListNotations.

Lemma snoc_split {A} (l : list A) a l1 g l2 :
  l ++ [a] = l1 ++ g :: l2 ->
  (exists l2', l = l1 ++ g :: l2' /\ l2 = l2' ++ [a]) \/ (l1 = l /\ g = a /\ l2 = []).
Proof.
  destruct l2 as [|x l2'] using rev_ind; intros H.
  - right. apply app_inj_tail in H. destruct H; subst; auto.
  - clear IHl2'. left. exists l2'. change (g :: l2' ++ [x]) with ((g :: l2') ++ [x]) in H.
    rewrite app_assoc in H. apply app_inj_tail in H. destruct H; subst; auto.
Qed.

Lemma sorted_snoc_const l c n :
  StronglySorted le l -> (forall x, In x l -> x <= c) -> StronglySorted le (l ++ repeat c n).
Proof.
  induction 1 as [|a l Hs IH Hf]; intros Hb; simpl.
  - induction n; simpl; constructor; auto. apply Forall_forall. intros x Hx.
    apply repeat_spec in Hx. lia.
  - constructor.
    + apply IH. intros x Hx. apply Hb. now right.
    + apply Forall_app. split; auto. apply Forall_forall. intros x Hx.
      apply repeat_spec in Hx. subst. apply Hb. now left.
Qed.

Lemma map_const_repeat {A B} (f : A -> B) l c :
  (forall x, In x l -> f x = c) -> map f l = repeat c (length l).
Proof.
  induction l as [|a l IH]; simpl; intros H; auto. rewrite H by (now left).
  f_equal. apply IH. intros x Hx. apply H. now right.
Qed.

(* a wire whose bit is computable from the inputs through live gates *)
Inductive avail (G : graph) : nat -> Prop :=
| av_in : forall w, In w (gins G) -> avail G w
| av_gate : forall g, live G g ->
    (forall w, In w (inputs_of (gn G g)) -> avail G w) -> avail G (nO (gn G g)).

(* what Compile needs of the graph it is given *)
Record cwf (G : graph) : Prop := {
  c_fresh : forall w, wid (gw G w) = None;
  c_unvis : forall g, nvis (gn G g) = false;
  c_ins_nodup : NoDup (gins G);
  c_ins_flag : forall w, In w (gins G) -> wout (gw G w) = false;
  c_outs_nodup : NoDup (gouts G);
  c_outs_flag : forall w, wout (gw G w) = true <-> In w (gouts G);
  c_lists : forall g, live G g -> forall w, In w (inputs_of (gn G g)) -> In g (wouts (gw G w));
  c_entries : forall w c, In c (wouts (gw G w)) -> ndead (gn G c) = false -> In c (gorder G);
  c_noconsume : forall g, live G g -> forall w, In w (inputs_of (gn G g)) -> wout (gw G w) = false;
  c_prod : forall g, live G g -> ~ In (nO (gn G g)) (gins G);
  c_uniq : forall g1 g2, live G g1 -> live G g2 -> nO (gn G g1) = nO (gn G g2) -> g1 = g2;
  c_range : forall g, In g (gorder G) -> g < gnn G;
  c_avail : forall o, In o (gouts G) -> avail G o }.

Definition asg (st : cstate) (w : nat) : Prop := assigned (cg st) w = true.

(* Gate.Visit, Wire.Assign and Gate.Assign have no panic site *)
Lemma gerr_visit l st c : gerr (cg (visit l st c)) = gerr (cg st).
Proof. unfold visit. destruct (_ && _ && _); reflexivity. Qed.

Lemma gerr_wire_assign st l w : gerr (cg (wire_assign st l w)) = gerr (cg st).
Proof.
  unfold wire_assign. destruct (wout _); auto.
  rewrite (fold_left_rel (fun a b => gerr (cg b) = gerr (cg a))); try congruence.
  - destruct (assigned _ _); reflexivity.
  - intros. apply gerr_visit.
Qed.

Lemma gerr_gate_assign st g : gerr (cg (gate_assign st g)) = gerr (cg st).
Proof. unfold gate_assign. destruct (ndead _); auto. simpl. apply gerr_wire_assign. Qed.

Section BFS.
  Variable G : graph.
  Hypothesis CW : cwf G.

  (* [extra]: the gate popped from cc.pending, not yet in cc.assigned *)
  Record core (extra : list nat) (st : cstate) : Prop := {
    k_st : cstable G (cg st);
    k_w : forall w, wout (gw (cg st) w) = wout (gw G w) /\ wouts (gw (cg st) w) = wouts (gw G w);
    k_vis : forall g, nvis (gn (cg st) g) = true <-> In g (casg st ++ extra ++ cpend st);
    k_nodup : NoDup (casg st ++ extra ++ cpend st);
    k_idlt : forall w i, wid (gw (cg st) w) = Some i -> i < cnext st;
    k_idinj : forall w1 w2 i, wid (gw (cg st) w1) = Some i -> wid (gw (cg st) w2) = Some i -> w1 = w2;
    k_noflag : forall w, asg st w -> wout (gw G w) = false;
    k_pend : forall g, In g (cpend st) ->
             live G g /\ forall w, In w (inputs_of (gn G g)) -> asg st w }.

  Lemma cst_fields st g : cstable G (cg st) ->
    nop (gn (cg st) g) = nop (gn G g) /\ nA (gn (cg st) g) = nA (gn G g) /\
    nB (gn (cg st) g) = nB (gn G g) /\ nO (gn (cg st) g) = nO (gn G g) /\
    ndead (gn (cg st) g) = ndead (gn G g).
  Proof. intros (_ & _ & _ & H). apply H. Qed.

  Lemma visit_cases l st c :
    (visit l st c = st) \/
    (ndead (gn (cg st) c) = false /\ nvis (gn (cg st) c) = false /\
     (forall w, In w (inputs_of (gn (cg st) c)) -> asg st w) /\
     visit l st c = mkC (set_n (cg st) c (n_visit (gn (cg st) c) l)) (cnext st)
                        (cpend st ++ [c]) (casg st)).
  Proof.
    unfold visit.
    destruct (ndead (gn (cg st) c)) eqn:Ed; simpl; auto.
    destruct (nvis (gn (cg st) c)) eqn:Ev; simpl; auto.
    destruct (if is_inv (nop (gn (cg st) c)) then assigned (cg st) (nA (gn (cg st) c))
              else assigned (cg st) (nA (gn (cg st) c)) && assigned (cg st) (nB (gn (cg st) c))) eqn:Er; auto.
    right. repeat split; auto.
    intros w Hw. unfold inputs_of in Hw. unfold asg.
    destruct (is_inv (nop (gn (cg st) c))).
    - destruct Hw as [<-|[]]. exact Er.
    - apply andb_true_iff in Er. destruct Er as [E1 E2].
      destruct Hw as [<-|[<-|[]]]; auto.
  Qed.

  Lemma visit_not_ready l st c :
    (exists w, In w (inputs_of (gn (cg st) c)) /\ assigned (cg st) w = false) ->
    visit l st c = st.
  Proof.
    intros (w & Hw & Hn). destruct (visit_cases l st c) as [H|(_ & _ & Hr & _)]; auto.
    specialize (Hr w Hw). unfold asg in Hr. congruence.
  Qed.

  Lemma inputs_of_cst st g : cstable G (cg st) ->
    inputs_of (gn (cg st) g) = inputs_of (gn G g).
  Proof.
    intros H. destruct (cst_fields st g H) as (a & b & c & _). now apply inputs_of_congr.
  Qed.

  Lemma visit_core ex l st c :
    core ex st -> (ndead (gn G c) = false -> In c (gorder G)) -> core ex (visit l st c).
  Proof.
    intros K Hc. pose proof (cstable_visit l st c) as CV.
    destruct (visit_cases l st c) as [->|(Ed & Ev & Hr & E)]; auto. rewrite E in *.
    pose proof (cst_fields st c (k_st _ _ K)) as (f1 & f2 & f3 & f4 & f5).
    assert (Hnin : ~ In c (casg st ++ ex ++ cpend st)).
    { intros H. apply (k_vis _ _ K) in H. congruence. }
    constructor; simpl.
    - exact (cstable_trans _ _ _ (k_st _ _ K) CV).
    - apply (k_w _ _ K).
    - intros g. unfold fupd. destruct (Nat.eqb_spec g c); subst; simpl.
      + split; auto. intros _. rewrite !in_app_iff. simpl. auto.
      + rewrite (k_vis _ _ K). rewrite !in_app_iff. simpl. split; [tauto|].
        intros [H|[H|[H|[H|[]]]]]; auto. exfalso. apply n. auto.
    - replace (casg st ++ ex ++ cpend st ++ [c]) with ((casg st ++ ex ++ cpend st) ++ [c])
        by (now rewrite <- !app_assoc).
      apply NoDup_snoc; auto. apply (k_nodup _ _ K).
    - apply (k_idlt _ _ K).
    - apply (k_idinj _ _ K).
    - apply (k_noflag _ _ K).
    - intros g Hg. apply in_app_or in Hg. destruct Hg as [Hg|[<-|[]]].
      + apply (k_pend _ _ K g Hg).
      + split.
        * split; [apply Hc; congruence|congruence].
        * intros w Hw. unfold asg. simpl. apply Hr.
          rewrite (inputs_of_cst st c (k_st _ _ K)). exact Hw.
  Qed.

  Lemma visit_gw l st c : gw (cg (visit l st c)) = gw (cg st).
  Proof. destruct (visit_cases l st c) as [->|(_ & _ & _ & ->)]; reflexivity. Qed.

  Lemma visit_casg l st c : casg (visit l st c) = casg st /\ cnext (visit l st c) = cnext st.
  Proof. destruct (visit_cases l st c) as [->|(_ & _ & _ & ->)]; auto. Qed.

  Lemma visit_marks l st c :
    ndead (gn (cg st) c) = false ->
    (forall w, In w (inputs_of (gn (cg st) c)) -> asg st w) ->
    nvis (gn (cg (visit l st c)) c) = true.
  Proof.
    intros Hd Hr. unfold visit. rewrite Hd. simpl.
    destruct (nvis (gn (cg st) c)) eqn:Ev; simpl; auto.
    assert (E : (if is_inv (nop (gn (cg st) c)) then assigned (cg st) (nA (gn (cg st) c))
                 else assigned (cg st) (nA (gn (cg st) c)) && assigned (cg st) (nB (gn (cg st) c))) = true).
    { unfold inputs_of, asg in Hr. destruct (is_inv (nop (gn (cg st) c))).
      - apply Hr. now left.
      - rewrite (Hr (nA (gn (cg st) c))) by (now left).
        rewrite (Hr (nB (gn (cg st) c))) by (right; now left). reflexivity. }
    rewrite E. simpl. rewrite fupd_same. reflexivity.
  Qed.

  Lemma visit_nodes l st c :
    (forall g, nvis (gn (cg st) g) = true -> gn (cg (visit l st c)) g = gn (cg st) g) /\
    (forall g, nvis (gn (cg st) g) = true -> nvis (gn (cg (visit l st c)) g) = true) /\
    (exists new, cpend (visit l st c) = cpend st ++ new /\
       forall g, In g new -> nvis (gn (cg st) g) = false /\ nvis (gn (cg (visit l st c)) g) = true /\
                             nlevel (gn (cg (visit l st c)) g) = l).
  Proof.
    destruct (visit_cases l st c) as [->|(Ed & Ev & Hr & ->)].
    - split; auto. split; auto. exists []. rewrite app_nil_r. split; auto. intros g [].
    - simpl. split; [|split].
      + intros g Hg. unfold fupd. destruct (Nat.eqb_spec g c); subst; auto. congruence.
      + intros g Hg. unfold fupd. destruct (Nat.eqb_spec g c); subst; auto.
      + exists [c]. split; auto. intros g [<-|[]]. rewrite fupd_same. auto.
  Qed.

  Lemma visits_inv ex l cs : forall st,
    core ex st -> (forall c, In c cs -> ndead (gn G c) = false -> In c (gorder G)) ->
    let st' := fold_left (visit l) cs st in
    core ex st' /\ gw (cg st') = gw (cg st) /\ casg st' = casg st /\ cnext st' = cnext st /\
    (exists new, cpend st' = cpend st ++ new /\
       forall g, In g new -> nvis (gn (cg st) g) = false /\ nvis (gn (cg st') g) = true /\
                             nlevel (gn (cg st') g) = l) /\
    (forall g, nvis (gn (cg st) g) = true -> gn (cg st') g = gn (cg st) g) /\
    (forall c, In c cs -> live G c -> (forall w, In w (inputs_of (gn G c)) -> asg st w) ->
               nvis (gn (cg st') c) = true).
  Proof.
    induction cs as [|c cs IH]; intros st K Hcs; simpl.
    - split; auto. split; auto. split; auto. split; auto.
      split; [exists []; rewrite app_nil_r; split; auto; intros g []|].
      split; [auto|intros c []].
    - pose proof (visit_core ex l st c K (Hcs c (or_introl eq_refl))) as K1.
      destruct (visit_nodes l st c) as (N1 & N2 & (new1 & P1 & Q1)).
      destruct (visit_casg l st c) as [C1 C2].
      pose proof (visit_gw l st c) as W1.
      destruct (IH (visit l st c) K1) as (K' & W' & C' & X' & (new2 & P2 & Q2) & N' & M').
      { intros d Hd. apply Hcs. now right. }
      split; auto. split; [congruence|]. split; [congruence|]. split; [congruence|].
      assert (Mono : forall g, nvis (gn (cg st) g) = true ->
                nvis (gn (cg (fold_left (visit l) cs (visit l st c))) g) = true).
      { intros g Hg. rewrite N' by (apply N2; exact Hg). apply N2. exact Hg. }
      split; [|split].
      + exists (new1 ++ new2). split; [rewrite P2, P1, app_assoc; reflexivity|].
        intros g Hg. apply in_app_or in Hg. destruct Hg as [Hg|Hg].
        * destruct (Q1 g Hg) as (q1 & q2 & q3). split; auto.
          rewrite N' by exact q2. auto.
        * destruct (Q2 g Hg) as (q1 & q2 & q3). split; auto.
          destruct (nvis (gn (cg st) g)) eqn:E; auto. rewrite (N2 g E) in q1. discriminate.
      + intros g Hg. rewrite N' by (apply N2; exact Hg). apply N1. exact Hg.
      + intros d [<-|Hd] Ld Rd.
        * assert (V : nvis (gn (cg (visit l st c)) c) = true).
          { apply visit_marks.
            - destruct (cst_fields st c (k_st _ _ K)) as (_ & _ & _ & _ & f5). rewrite f5. apply Ld.
            - intros w Hw. apply Rd. rewrite <- (inputs_of_cst st c (k_st _ _ K)). exact Hw. }
          rewrite N' by exact V. exact V.
        * apply M'; auto. intros w Hw. unfold asg, assigned. rewrite W1. now apply Rd.
  Qed.

  Definition closed (st : cstate) : Prop :=
    forall g, live G g -> (forall w, In w (inputs_of (gn G g)) -> asg st w) ->
              nvis (gn (cg st) g) = true.

  (* giving the wire its id (the first half of Wire.Assign) *)
  Definition give_id (st : cstate) (w : nat) : cstate :=
    if assigned (cg st) w then st
    else mkC (set_w (cg st) w (w_set_id (gw (cg st) w) (Some (cnext st))))
             (S (cnext st)) (cpend st) (casg st).

  Lemma give_id_core ex st w :
    core ex st -> wout (gw G w) = false ->
    core ex (give_id st w) /\ casg (give_id st w) = casg st /\ cpend (give_id st w) = cpend st /\
    gn (cg (give_id st w)) = gn (cg st) /\
    (forall w', asg (give_id st w) w' <-> asg st w' \/ w' = w) /\
    (forall w', w' <> w -> wid (gw (cg (give_id st w)) w') = wid (gw (cg st) w')) /\
    (asg st w -> give_id st w = st) /\
    (~ asg st w -> cnext (give_id st w) = S (cnext st) /\
                   wid (gw (cg (give_id st w)) w) = Some (cnext st)).
  Proof.
    intros K Hf. unfold give_id. destruct (assigned (cg st) w) eqn:Ea.
    - split; auto. split; auto. split; auto. split; auto.
      split; [intros w'; split; auto; intros [H|H]; subst; auto|].
      split; auto. split; auto. intros H. exfalso. apply H. exact Ea.
    - assert (Hn : wid (gw (cg st) w) = None).
      { unfold assigned in Ea. destruct (wid (gw (cg st) w)); congruence. }
      split; [|split; [reflexivity|split; [reflexivity|split; [reflexivity|]]]].
      + constructor; simpl.
        * eapply cstable_trans; [apply (k_st _ _ K)|apply cstable_set_w].
        * intros w'. unfold fupd. destruct (Nat.eqb_spec w' w); subst; simpl; apply (k_w _ _ K).
        * apply (k_vis _ _ K).
        * apply (k_nodup _ _ K).
        * intros w' i. unfold fupd. destruct (Nat.eqb_spec w' w); subst; simpl.
          -- intros E. inversion E. lia.
          -- intros E. pose proof (k_idlt _ _ K _ _ E). lia.
        * intros w1 w2 i. unfold fupd.
          destruct (Nat.eqb_spec w1 w), (Nat.eqb_spec w2 w); subst; simpl; auto.
          -- intros E1 E2. inversion E1; subst. pose proof (k_idlt _ _ K _ _ E2). lia.
          -- intros E1 E2. inversion E2; subst. pose proof (k_idlt _ _ K _ _ E1). lia.
          -- apply (k_idinj _ _ K).
        * intros w'. unfold asg, assigned. simpl. unfold fupd.
          destruct (Nat.eqb_spec w' w); subst; simpl; auto. apply (k_noflag _ _ K).
        * intros g Hg. destruct (k_pend _ _ K g Hg) as [L R]. split; auto.
          intros w' Hw'. specialize (R w' Hw'). unfold asg, assigned in *. simpl. unfold fupd.
          destruct (Nat.eqb_spec w' w); subst; simpl; auto.
      + split; [|split; [|split]].
        * intros w'. unfold asg, assigned. simpl. unfold fupd.
          destruct (Nat.eqb_spec w' w); subst; simpl; [tauto|].
          split; [auto|intros [H|H]; [auto|contradiction]].
        * intros w' Hne. simpl. now rewrite fupd_other.
        * intros H. unfold asg in H. congruence.
        * intros _. simpl. rewrite fupd_same. auto.
  Qed.

  Lemma wire_assign_eq st l w :
    wout (gw (cg st) w) = false ->
    wire_assign st l w = fold_left (visit l) (wouts (gw (cg (give_id st w)) w)) (give_id st w).
  Proof. intros H. unfold wire_assign, give_id. rewrite H. destruct (assigned (cg st) w); reflexivity. Qed.

  Lemma wire_assign_inv ex st l w :
    core ex st -> wout (gw G w) = false -> closed st ->
    let st' := wire_assign st l w in
    core ex st' /\ casg st' = casg st /\
    (forall w', asg st' w' <-> asg st w' \/ w' = w) /\
    closed st' /\
    (forall w', w' <> w -> wid (gw (cg st') w') = wid (gw (cg st) w')) /\
    (asg st w -> cnext st' = cnext st /\ wid (gw (cg st') w) = wid (gw (cg st) w)) /\
    (~ asg st w -> cnext st' = S (cnext st) /\ wid (gw (cg st') w) = Some (cnext st)) /\
    (exists new, cpend st' = cpend st ++ new /\
       forall g, In g new -> nvis (gn (cg st) g) = false /\ nlevel (gn (cg st') g) = l) /\
    (forall g, nvis (gn (cg st) g) = true -> gn (cg st') g = gn (cg st) g).
  Proof.
    intros K Hf Hc. simpl.
    assert (Hf' : wout (gw (cg st) w) = false) by (rewrite (proj1 (k_w _ _ K w)); exact Hf).
    rewrite (wire_assign_eq st l w Hf').
    destruct (give_id_core ex st w K Hf) as (K1 & C1 & P1 & N1 & A1 & I1 & S1 & F1).
    set (st1 := give_id st w) in *.
    assert (Hw : wouts (gw (cg st1) w) = wouts (gw G w)) by apply (k_w _ _ K1).
    rewrite Hw.
    destruct (visits_inv ex l (wouts (gw G w)) st1 K1) as (K' & W' & C' & X' & (new & P' & Q') & N' & M').
    { intros c Hc1 Hd. eapply (c_entries _ CW); eauto. }
    set (st' := fold_left (visit l) (wouts (gw G w)) st1) in *.
    assert (AS : forall w', asg st' w' <-> asg st1 w').
    { intros w'. unfold asg, assigned. rewrite W'. tauto. }
    split; auto. split; [congruence|].
    split; [intros w'; rewrite AS; apply A1|].
    split.
    - (* a ready gate reading w is in w's list and visited now; others were ready before *)
      intros g Lg Rg.
      assert (Rg1 : forall w', In w' (inputs_of (gn G g)) -> asg st1 w').
      { intros w' Hw'. apply AS. now apply Rg. }
      destruct (in_dec Nat.eq_dec w (inputs_of (gn G g))) as [Hin|Hnin].
      + apply M'; auto. apply (c_lists _ CW); auto.
      + assert (V : nvis (gn (cg st) g) = true).
        { apply Hc; auto. intros w' Hw'. destruct (proj1 (A1 w') (Rg1 w' Hw')) as [H|H]; auto.
          subst w'. contradiction. }
        rewrite N' by (rewrite N1; exact V). rewrite N1. exact V.
    - split; [intros w' Hne; rewrite W'; now apply I1|].
      split; [intros Ha; rewrite X', W', (S1 Ha); auto|].
      split; [intros Hna; destruct (F1 Hna) as [E1 E2]; rewrite X', W'; auto|].
      split.
      + exists new. rewrite P', P1. split; auto. intros g Hg. destruct (Q' g Hg) as (q1 & q2 & q3).
        rewrite N1 in q1. auto.
      + intros g Hg. rewrite N' by (rewrite N1; exact Hg). now rewrite N1.
  Qed.

  Record binv (st : cstate) : Prop := {
    b_core : core [] st;
    b_asg : forall w, asg st w ->
            In w (gins G) \/ exists p, In p (casg st) /\ nO (gn G p) = w;
    b_casg : forall p, In p (casg st) ->
             live G p /\ (wout (gw G (nO (gn G p))) = false -> asg st (nO (gn G p)));
    b_dep : forall l1 g l2, casg st = l1 ++ g :: l2 ->
            forall w, In w (inputs_of (gn G g)) ->
            In w (gins G) \/ exists p, In p l1 /\ nO (gn G p) = w;
    b_closed : closed st;
    b_vasg : forall g, In g (casg st) -> forall w, In w (inputs_of (gn G g)) -> asg st w }.

  (* the state after Gate.Assign of g0: the gate joins cc.assigned and at most
     its output wire becomes assigned *)
  Lemma binv_push st st1 g0 :
    binv st -> live G g0 -> (forall w, In w (inputs_of (gn G g0)) -> asg st w) ->
    core [g0] st1 -> casg st1 = casg st -> closed st1 ->
    (forall w, asg st1 w <->
               asg st w \/ (wout (gw G (nO (gn G g0))) = false /\ w = nO (gn G g0))) ->
    binv (mkC (cg st1) (cnext st1) (cpend st1) (casg st1 ++ [g0])).
  Proof.
    intros B L0 R0 K1 C1 Cl1 A1.
    assert (A1' : forall w, asg st w -> asg st1 w) by (intros w Hw; apply A1; now left).
    constructor; simpl.
    - constructor; simpl; try apply K1.
      + intros g. pose proof (k_vis _ _ K1 g) as V. simpl in V.
        rewrite V, <- app_assoc. simpl. tauto.
      + pose proof (k_nodup _ _ K1) as N. simpl in N. rewrite <- app_assoc. exact N.
    - intros w Hw. apply A1 in Hw. rewrite C1. destruct Hw as [Hw|[_ ->]].
      + destruct (b_asg _ B w Hw) as [H|(p & Hp1 & Hp2)]; auto.
        right. exists p. split; auto. apply in_or_app. now left.
      + right. exists g0. split; auto. apply in_or_app. right. now left.
    - intros p Hp1. rewrite C1 in Hp1. apply in_app_or in Hp1. destruct Hp1 as [Hp1|[<-|[]]].
      + destruct (b_casg _ B p Hp1) as [Lp Ap]. split; [exact Lp|]. intros Hf. apply A1'. now apply Ap.
      + split; auto. intros Hf. apply A1. now right.
    - intros l1 g l2 Hs w Hw. rewrite C1 in Hs.
      destruct (snoc_split _ _ _ _ _ Hs) as [(l2' & E1 & E2)|(E1 & E2 & E3)].
      + eapply (b_dep _ B); eauto.
      + subst. destruct (b_asg _ B w (R0 w Hw)) as [H|H]; auto.
    - exact Cl1.
    - intros p Hp1 w Hw. apply A1'. rewrite C1 in Hp1.
      apply in_app_or in Hp1. destruct Hp1 as [Hp1|[<-|[]]].
      + apply (b_vasg _ B p Hp1 w Hw).
      + apply (R0 w Hw).
  Qed.

  (* one iteration of "for len(cc.pending) > 0" *)
  Lemma drain_step st g0 rest :
    binv st -> cpend st = g0 :: rest ->
    let st' := gate_assign (mkC (cg st) (cnext st) rest (casg st)) g0 in
    binv st' /\ casg st' = casg st ++ [g0] /\
    (forall w, asg st w -> wid (gw (cg st') w) = wid (gw (cg st) w)) /\
    (exists new, cpend st' = rest ++ new /\
       forall g, In g new -> nvis (gn (cg st) g) = false /\
                             nlevel (gn (cg st') g) = S (nlevel (gn (cg st) g0))) /\
    (forall g, nvis (gn (cg st) g) = true -> gn (cg st') g = gn (cg st) g).
  Proof.
    intros B Hp. pose proof (b_core _ B) as K.
    set (st0 := mkC (cg st) (cnext st) rest (casg st)).
    assert (K0 : core [g0] st0).
    { unfold st0. constructor; simpl; try apply K.
      - intros g. rewrite (k_vis _ _ K g), Hp. simpl. tauto.
      - pose proof (k_nodup _ _ K) as N. rewrite Hp in N. exact N.
      - intros g Hg. apply (k_pend _ _ K). rewrite Hp. now right. }
    destruct (k_pend _ _ K g0) as [L0 R0]; [rewrite Hp; now left|].
    destruct (cst_fields st g0 (k_st _ _ K)) as (f1 & f2 & f3 & f4 & f5).
    simpl. unfold gate_assign. simpl. rewrite f5, (proj2 L0), f4.
    set (O := nO (gn G g0)).
    assert (C0 : closed st0) by (exact (b_closed _ B)).
    destruct (wout (gw G O)) eqn:Ef.
    - (* output wire: Wire.Assign returns at once *)
      assert (E : wire_assign st0 (S (nlevel (gn (cg st) g0))) O = st0).
      { unfold wire_assign. simpl. rewrite (proj1 (k_w _ _ K O)), Ef. reflexivity. }
      rewrite E.
      split; [|split; [reflexivity|split; [auto|split; [exists []; rewrite app_nil_r; split; auto; intros g []|auto]]]].
      apply (binv_push st st0 g0 B L0 R0 K0 eq_refl C0).
      intros w. fold O. rewrite Ef. split; [now left|]. intros [H|[H _]]; [exact H|discriminate].
    - destruct (wire_assign_inv [g0] st0 (S (nlevel (gn (cg st) g0))) O K0 Ef C0)
        as (K1 & C1 & A1 & Cl1 & I1 & S1 & F1 & (new & P1 & Q1) & N1).
      set (st1 := wire_assign st0 (S (nlevel (gn (cg st) g0))) O) in *.
      split; [|split; [simpl; now rewrite C1|split; [|split; [exists new; split; auto|exact N1]]]].
      + apply (binv_push st st1 g0 B L0 R0 K1 C1 Cl1).
        intros w. fold O. rewrite (A1 w). split; [intros [H|H]; auto|intros [H|[_ H]]; auto].
      + intros w Hw. simpl. destruct (Nat.eq_dec w O) as [->|Hne].
        * apply S1. exact Hw.
        * now apply I1.
  Qed.

  Lemma binv_bound st : binv st -> length (casg st ++ cpend st) <= gnn G.
  Proof.
    intros B. pose proof (k_nodup _ _ (b_core _ B)) as N. simpl in N.
    rewrite <- (seq_length (gnn G) 0). apply NoDup_incl_length; auto.
    intros g Hg. apply in_seq. split; [lia|]. simpl. apply (c_range _ CW).
    apply in_app_or in Hg. destruct Hg as [Hg|Hg].
    - apply (b_casg _ B g Hg).
    - apply (k_pend _ _ (b_core _ B) g Hg).
  Qed.

  Lemma asg_wid st w : asg st w <-> exists i, wid (gw (cg st) w) = Some i.
  Proof.
    unfold asg, assigned. destruct (wid (gw (cg st) w)); split; eauto; try congruence.
    intros (i & H). discriminate.
  Qed.

  Definition lev (st : cstate) (g : nat) : nat := nlevel (gn (cg st) g).

  Record linv (st : cstate) : Prop := {
    lv_sorted : StronglySorted le (map (lev st) (casg st ++ cpend st));
    lv_bound : forall h rest, cpend st = h :: rest -> forall g, In g rest -> lev st g <= S (lev st h);
    lv_dep : forall g, In g (casg st ++ cpend st) ->
             forall w, In w (inputs_of (gn G g)) ->
             forall p, In p (casg st) -> nO (gn G p) = w -> lev st p < lev st g }.

  Lemma drain_step_linv st g0 rest :
    binv st -> linv st -> cpend st = g0 :: rest ->
    linv (gate_assign (mkC (cg st) (cnext st) rest (casg st)) g0).
  Proof.
    intros B L Hp.
    destruct (drain_step st g0 rest B Hp) as (B1 & C1 & I1 & (new & P1 & Q1) & N1).
    set (st' := gate_assign (mkC (cg st) (cnext st) rest (casg st)) g0) in *.
    pose proof (b_core _ B) as K.
    set (L0 := lev st g0).
    assert (U : forall g, In g (casg st ++ g0 :: rest) -> lev st' g = lev st g).
    { intros g Hg. unfold lev. rewrite N1; auto. apply (k_vis _ _ K). simpl. now rewrite Hp. }
    assert (Nw : forall g, In g new -> lev st' g = S L0).
    { intros g Hg. apply (Q1 g Hg). }
    assert (El : casg st' ++ cpend st' = (casg st ++ g0 :: rest) ++ new).
    { rewrite C1, P1, <- !app_assoc. reflexivity. }
    pose proof (lv_sorted _ L) as SS. rewrite Hp in SS.
    assert (Bc : (forall g, In g (casg st) -> lev st g <= L0) /\
                 (forall g, In g rest -> L0 <= lev st g)).
    { pose proof SS as SS'. rewrite map_app in SS'. destruct (sorted_app _ _ _ _ SS') as [S1 S2].
      split; intros g Hg; [apply S1|apply S2]; now apply in_map. }
    destruct Bc as [Bc Br].
    assert (Bd : forall g, In g (casg st ++ g0 :: rest) -> lev st g <= S L0).
    { intros g Hg. apply in_app_or in Hg. destruct Hg as [Hg|[<-|Hg]].
      - specialize (Bc g Hg). lia.
      - fold L0. lia.
      - apply (lv_bound _ L g0 rest Hp g Hg). }
    constructor.
    - rewrite El, map_app.
      rewrite (map_ext_in _ _ _ U).
      rewrite (map_const_repeat (lev st') new (S L0) Nw).
      apply sorted_snoc_const; auto.
      intros x Hx. apply in_map_iff in Hx. destruct Hx as (g & <- & Hg). now apply Bd.
    - intros h t Hc g Hg. rewrite P1 in Hc.
      destruct rest as [|r rest'].
      + simpl in Hc. subst new. rewrite (Nw h) by (now left). rewrite (Nw g) by (now right). lia.
      + simpl in Hc. inversion Hc; subst h t.
        assert (Uh : lev st' r = lev st r) by (apply U; apply in_or_app; right; right; now left).
        specialize (Br r (or_introl eq_refl)).
        apply in_app_or in Hg. destruct Hg as [Hg|Hg].
        * rewrite U by (apply in_or_app; right; right; now right).
          assert (lev st g <= S L0) by (apply Bd; apply in_or_app; right; right; now right). lia.
        * rewrite (Nw g Hg). lia.
    - intros g Hg w Hw p Hp1 Ep. rewrite El in Hg. rewrite C1 in Hp1.
      apply in_app_or in Hg. apply in_app_or in Hp1.
      destruct Hg as [Hg|Hg].
      + rewrite (U g Hg).
        destruct Hp1 as [Hp1|[<-|[]]].
        * rewrite U by (apply in_or_app; now left).
          apply (lv_dep _ L g) with (w := w); auto. rewrite Hp. exact Hg.
        * (* the gate being processed cannot already feed a visited gate *)
          exfalso.
          assert (Ha : asg st (nO (gn G g0))).
          { rewrite Ep. apply in_app_or in Hg. destruct Hg as [Hg|Hg].
            - apply (b_vasg _ B g Hg w Hw).
            - apply (k_pend _ _ K g); auto. now rewrite Hp. }
          destruct (k_pend _ _ K g0) as [Lg0 _]; [rewrite Hp; now left|].
          destruct (b_asg _ B _ Ha) as [Hin|(p' & Hp' & E')].
          -- apply (c_prod _ CW g0 Lg0 Hin).
          -- destruct (b_casg _ B p' Hp') as [Lp' _].
             assert (p' = g0) by (apply (c_uniq _ CW); auto). subst p'.
             pose proof (k_nodup _ _ K) as ND. simpl in ND. rewrite Hp in ND.
             apply NoDup_remove_2 in ND. apply ND. apply in_or_app. now left.
      + rewrite (Nw g Hg).
        destruct Hp1 as [Hp1|[<-|[]]].
        * rewrite U by (apply in_or_app; now left). specialize (Bc p Hp1). lia.
        * rewrite U by (apply in_or_app; right; now left). fold L0. lia.
  Qed.

  (* the queue loop: the fuel of [drain] is never exhausted *)
  Lemma drain_inv fuel : forall st,
    binv st -> length (casg st) + fuel > gnn G ->
    let st' := drain fuel st in
    binv st' /\ cpend st' = [] /\ (linv st -> linv st') /\ gerr (cg st') = gerr (cg st) /\
    (forall w, asg st w -> wid (gw (cg st') w) = wid (gw (cg st) w)).
  Proof.
    induction fuel as [|f IH]; intros st B Hf; simpl.
    - destruct (cpend st) as [|g0 rest] eqn:Hp; [auto|].
      pose proof (binv_bound st B) as Hb. rewrite app_length, Hp in Hb. simpl in Hb. lia.
    - destruct (cpend st) as [|g0 rest] eqn:Hp; [auto|].
      destruct (drain_step st g0 rest B Hp) as (B1 & C1 & I1 & _).
      pose proof (fun L => drain_step_linv st g0 rest B L Hp) as L1.
      pose proof (gerr_gate_assign (mkC (cg st) (cnext st) rest (casg st)) g0) as E1. simpl in E1.
      set (st1 := gate_assign (mkC (cg st) (cnext st) rest (casg st)) g0) in *.
      destruct (IH st1 B1) as (B2 & P2 & L2 & E2 & I2).
      { rewrite C1, app_length. simpl. lia. }
      split; auto. split; auto. split; auto. split; [congruence|]. intros w Hw.
      rewrite I2; [now apply I1|]. apply asg_wid. rewrite (I1 w Hw). now apply asg_wid.
  Qed.

  (* "for _, w := range cc.InputWires { w.Assign(cc, 0) }" *)
  Lemma input_phase todo : forall done st,
    gins G = done ++ todo ->
    core [] st -> casg st = [] -> closed st ->
    (forall w, asg st w <-> In w done) -> cnext st = length done ->
    (forall i, i < length done -> wid (gw (cg st) (nth i done 0)) = Some i) ->
    (forall g, In g (cpend st) -> lev st g = 0) ->
    let st' := fold_left (fun st w => wire_assign st 0 w) todo st in
    core [] st' /\ casg st' = [] /\ closed st' /\
    (forall w, asg st' w <-> In w (gins G)) /\ cnext st' = length (gins G) /\
    (forall i, i < length (gins G) -> wid (gw (cg st') (nth i (gins G) 0)) = Some i) /\
    (forall g, In g (cpend st') -> lev st' g = 0) /\ gerr (cg st') = gerr (cg st).
  Proof.
    induction todo as [|w todo IH]; intros done st Hg K C Cl A N I Z; simpl.
    - rewrite app_nil_r in Hg. subst done. repeat (split; [assumption|]). auto.
    - assert (Hf : wout (gw G w) = false).
      { apply (c_ins_flag _ CW). rewrite Hg. apply in_or_app. right. now left. }
      assert (Hnd : ~ In w done).
      { pose proof (c_ins_nodup _ CW) as ND. rewrite Hg in ND.
        apply NoDup_remove_2 in ND. intros H. apply ND. apply in_or_app. now left. }
      destruct (wire_assign_inv [] st 0 w K Hf Cl)
        as (K1 & C1 & A1 & Cl1 & I1 & S1 & F1 & (new & P1 & Q1) & N1).
      assert (Hna : ~ asg st w) by (rewrite A; exact Hnd).
      destruct (F1 Hna) as [E1 E2].
      rewrite <- (gerr_wire_assign st 0 w).
      apply (IH (done ++ [w])); auto.
      + rewrite <- app_assoc. exact Hg.
      + congruence.
      + intros w'. rewrite A1, A, in_app_iff. simpl. intuition.
      + rewrite E1, N, app_length. simpl. lia.
      + intros i Hi. rewrite app_length in Hi. simpl in Hi.
        destruct (Nat.eq_dec i (length done)) as [->|Hne].
        * rewrite nth_middle. congruence.
        * rewrite app_nth1 by lia. rewrite I1; [apply I; lia|].
          intros E. apply Hnd. rewrite <- E. apply nth_In. lia.
      + intros g Hg'. rewrite P1 in Hg'. apply in_app_or in Hg'. destruct Hg' as [Hg'|Hg'].
        * unfold lev. rewrite N1; [now apply Z|].
          apply (k_vis _ _ K). simpl. rewrite C. exact Hg'.
        * apply (Q1 g Hg').
  Qed.

  (* "Assign outputs" *)
  Lemma output_phase todo : forall st,
    NoDup todo -> (forall o, In o todo -> ~ asg st o) ->
    let st' := fold_left assign_output todo st in
    gn (cg st') = gn (cg st) /\ casg st' = casg st /\ cnext st' = cnext st + length todo /\
    cstable (cg st) (cg st') /\
    (forall w, ~ In w todo -> wid (gw (cg st') w) = wid (gw (cg st) w)) /\
    (forall k, k < length todo -> wid (gw (cg st') (nth k todo 0)) = Some (cnext st + k)) /\
    gerr (cg st') = gerr (cg st).
  Proof.
    induction todo as [|o todo IH]; intros st ND NA; simpl.
    - split; [reflexivity|]. split; [reflexivity|]. split; [lia|]. split; [apply cstable_refl|].
      split; [auto|]. split; [intros k Hk; lia|reflexivity].
    - inversion ND as [|? ? Hno ND']; subst.
      assert (Ho : assigned (cg st) o = false).
      { destruct (assigned (cg st) o) eqn:E; auto. exfalso. apply (NA o); [now left|exact E]. }
      set (st1 := assign_output st o).
      assert (E1 : st1 = mkC (set_w (cg st) o (w_set_id (gw (cg st) o) (Some (cnext st))))
                             (S (cnext st)) (cpend st) (casg st)).
      { unfold st1, assign_output. now rewrite Ho. }
      destruct (IH st1 ND') as (N' & C' & X' & S' & I' & O' & E').
      { intros o' Ho' Ha. rewrite E1 in Ha. unfold asg, assigned in Ha. simpl in Ha.
        unfold fupd in Ha. destruct (Nat.eqb_spec o' o); [subst; contradiction|].
        apply (NA o'); [now right|exact Ha]. }
      split; [rewrite N', E1; reflexivity|]. split; [rewrite C', E1; reflexivity|].
      split; [rewrite X', E1; simpl; lia|].
      split; [eapply cstable_trans; [|exact S']; rewrite E1; apply cstable_set_w|].
      split; [|split].
      + intros w Hw. rewrite I' by (intros H; apply Hw; now right).
        rewrite E1. simpl. unfold fupd. destruct (Nat.eqb_spec w o); [|reflexivity].
        exfalso. apply Hw. now left.
      + intros [|k] Hk.
        * rewrite I' by exact Hno. rewrite E1. simpl. rewrite fupd_same. simpl.
          f_equal. lia.
        * rewrite O' by lia. rewrite E1. simpl. f_equal. lia.
      + rewrite E', E1. reflexivity.
  Qed.

  Lemma bfs_complete st :
    binv st -> cpend st = [] -> (forall w, In w (gins G) -> asg st w) ->
    forall w, avail G w ->
      (In w (gins G) \/ exists g, In g (casg st) /\ nO (gn G g) = w) /\
      (wout (gw G w) = false -> asg st w).
  Proof.
    intros B Hp Hi w Hav. induction Hav as [w Hw|g Lg Hin IH].
    - split; auto.
    - assert (Hasg : forall w, In w (inputs_of (gn G g)) -> asg st w).
      { intros w Hw. apply IH; auto. apply (c_noconsume _ CW g Lg w Hw). }
      assert (V : nvis (gn (cg st) g) = true) by (apply (b_closed _ B); auto).
      apply (k_vis _ _ (b_core _ B)) in V. rewrite Hp in V. simpl in V. rewrite app_nil_r in V.
      split; [right; eauto|]. apply (b_casg _ B g V).
  Qed.

  (* Compile's three phases up to "Assign outputs": the state after the queue
     has drained *)
  Lemma compile_run :
    exists st2, compile_assign G = fold_left assign_output (gouts G) st2 /\
      binv st2 /\ linv st2 /\ cpend st2 = [] /\ gerr (cg st2) = gerr G /\
      (forall w, In w (gins G) -> asg st2 w) /\
      (forall i, i < length (gins G) -> wid (gw (cg st2) (nth i (gins G) 0)) = Some i) /\
      (forall o, In o (gouts G) -> ~ asg st2 o).
  Proof.
    unfold compile_assign.
    set (st0 := mkC G 0 [] []).
    assert (A0 : forall w, asg st0 w <-> In w []).
    { intros w. unfold asg, assigned. simpl. rewrite (c_fresh _ CW w). split; [discriminate|intros []]. }
    assert (K0 : core [] st0).
    { constructor; simpl.
      - apply cstable_refl.
      - auto.
      - intros g. rewrite (c_unvis _ CW g). split; [discriminate|intros []].
      - constructor.
      - intros w i. rewrite (c_fresh _ CW w). discriminate.
      - intros w1 w2 i. rewrite (c_fresh _ CW w1). discriminate.
      - intros w Hw. now apply A0 in Hw.
      - intros g []. }
    assert (Cl0 : closed st0).
    { intros g Lg Hr. exfalso. exact (proj1 (A0 _) (Hr _ (inputs_of_A _))). }
    destruct (input_phase (gins G) [] st0 eq_refl K0 eq_refl Cl0 A0 eq_refl)
      as (K1 & C1 & Cl1 & A1 & N1 & I1 & Z1 & E1).
    { intros i Hi. simpl in Hi. lia. }
    { intros g []. }
    set (st1 := fold_left (fun st w => wire_assign st 0 w) (gins G) st0) in *.
    assert (B1 : binv st1).
    { constructor; auto.
      - intros w Hw. left. now apply A1.
      - rewrite C1. intros p [].
      - rewrite C1. intros l1 g l2 H. destruct l1; discriminate.
      - rewrite C1. intros g []. }
    assert (L1 : linv st1).
    { constructor.
      - rewrite C1. simpl. rewrite (map_const_repeat (lev st1) (cpend st1) 0 Z1).
        apply (sorted_snoc_const [] 0 (length (cpend st1))); [constructor|intros x []].
      - intros h rest E g Hg. rewrite (Z1 g), (Z1 h); [lia|rewrite E; now left|rewrite E; now right].
      - rewrite C1. intros g _ w _ p []. }
    destruct (drain_inv (S (gnn G)) st1 B1) as (B2 & P2 & L2 & E2 & W2); [lia|].
    exists (drain (S (gnn G)) st1).
    split; [reflexivity|]. split; [exact B2|]. split; [auto|]. split; [exact P2|].
    split; [now rewrite E2, E1|]. split; [|split].
    - intros w Hw. apply asg_wid. apply A1 in Hw. rewrite (W2 w Hw). now apply asg_wid.
    - intros i Hi. rewrite W2; [now apply I1|]. apply A1. now apply nth_In.
    - intros o Ho Ha. apply (k_noflag _ _ (b_core _ B2)) in Ha.
      apply (c_outs_flag _ CW) in Ho. congruence.
  Qed.

  (* C09_compile_emission: this and [compile_levels_ok] *)
  Theorem compile_emission_ok :
    let st := compile_assign G in
    emission_ok (cg st) (id_of (cg st)) (cnext st) (casg st).
  Proof.
    destruct compile_run as (st2 & -> & B2 & _ & P2 & _ & Ains & I2 & NA).
    pose proof (b_core _ B2) as K2.
    destruct (output_phase (gouts G) st2 (c_outs_nodup _ CW) NA) as (N3 & C3 & X3 & S3 & I3 & O3 & _).
    set (st3 := fold_left assign_output (gouts G) st2) in *.
    assert (CS : cstable G (cg st3)) by (eapply cstable_trans; [apply (k_st _ _ K2)|exact S3]).
    pose proof CS as (Gi & Go & Gord & Gn).
    assert (Fn : forall g, nO (gn (cg st3) g) = nO (gn G g) /\
                           inputs_of (gn (cg st3) g) = inputs_of (gn G g)).
    { intros g. destruct (Gn g) as (a & b & c & d & e). split; auto using inputs_of_congr. }
    assert (IdA : forall w i, wid (gw (cg st2) w) = Some i -> id_of (cg st3) w = i /\ i < cnext st2).
    { intros w i E. split; [|apply (k_idlt _ _ K2 _ _ E)].
      unfold id_of. rewrite I3, E; auto.
      intros Hin. apply (NA w Hin). apply asg_wid. eauto. }
    assert (IdO : forall k, k < length (gouts G) ->
                  id_of (cg st3) (nth k (gouts G) 0) = cnext st2 + k).
    { intros k Hk. unfold id_of. now rewrite O3. }
    assert (Cls : forall w, rel (cg st3) (casg st3) w ->
                  (exists i, wid (gw (cg st2) w) = Some i) \/ In w (gouts G)).
    { intros w [Hw|(p & Hp & E)].
      - left. apply asg_wid. apply Ains. now rewrite <- Gi.
      - rewrite C3 in Hp. rewrite (proj1 (Fn p)) in E. subst w.
        destruct (b_casg _ B2 p Hp) as [Lp Ap].
        destruct (wout (gw G (nO (gn G p)))) eqn:Ef.
        + right. now apply (c_outs_flag _ CW).
        + left. apply asg_wid. now apply Ap. }
    constructor.
    - intros g Hg. rewrite C3 in Hg. destruct (b_casg _ B2 g Hg) as [[Li Ld] _].
      split; [now rewrite Gord|]. destruct (Gn g) as (_ & _ & _ & _ & e). congruence.
    - intros l1 g l2 Hs w Hw. rewrite C3 in Hs. rewrite (proj2 (Fn g)) in Hw.
      destruct (b_dep _ B2 l1 g l2 Hs w Hw) as [H|(p & Hp & E)].
      + left. now rewrite Gi.
      + right. exists p. split; auto. now rewrite (proj1 (Fn p)).
    - intros w1 w2 R1 R2 E.
      destruct (Cls w1 R1) as [(i1 & E1)|H1], (Cls w2 R2) as [(i2 & E2)|H2].
      + destruct (IdA _ _ E1) as [J1 _]. destruct (IdA _ _ E2) as [J2 _].
        apply (k_idinj _ _ K2 w1 w2 i1); congruence.
      + destruct (IdA _ _ E1) as [J1 L1]. destruct (In_nth_ex _ _ H2) as (k & Hk & <-).
        rewrite (IdO k Hk) in E. lia.
      + destruct (IdA _ _ E2) as [J2 L2]. destruct (In_nth_ex _ _ H1) as (k & Hk & <-).
        rewrite (IdO k Hk) in E. lia.
      + destruct (In_nth_ex _ _ H1) as (k1 & Hk1 & <-). destruct (In_nth_ex _ _ H2) as (k2 & Hk2 & <-).
        rewrite (IdO k1 Hk1), (IdO k2 Hk2) in E. f_equal. lia.
    - intros w R. rewrite X3. destruct (Cls w R) as [(i & E)|H].
      + destruct (IdA _ _ E). lia.
      + destruct (In_nth_ex _ _ H) as (k & Hk & <-). rewrite (IdO k Hk). lia.
    - intros i Hi. rewrite Gi in *. apply (IdA _ _ (I2 i Hi)).
    - intros k Hk. rewrite Go in *. split.
      + assert (Ho : In (nth k (gouts G) 0) (gouts G)) by (now apply nth_In).
        destruct (bfs_complete st2 B2 P2 Ains _ (c_avail _ CW _ Ho)) as [[Hin|(g & Hg & E)] _].
        * exfalso. apply (c_ins_flag _ CW) in Hin. apply (c_outs_flag _ CW) in Ho. congruence.
        * right. exists g. rewrite C3. split; auto. now rewrite (proj1 (Fn g)).
      + rewrite (IdO k Hk), X3. lia.
  Qed.

  Theorem compile_levels_ok :
    let st := compile_assign G in levels_ok (cg st) (casg st).
  Proof.
    destruct compile_run as (st2 & -> & B2 & L2 & P2 & _ & _ & _ & NA). cbv zeta.
    destruct (output_phase (gouts G) st2 (c_outs_nodup _ CW) NA) as (N3 & C3 & _ & S3 & _).
    assert (CS : cstable G (cg (fold_left assign_output (gouts G) st2))).
    { eapply cstable_trans; [apply (k_st _ _ (b_core _ B2))|exact S3]. }
    destruct CS as (_ & _ & _ & Gn).
    intros l1 g l2 Hs w Hw p Hp Ep.
    rewrite C3 in Hs. rewrite N3.
    destruct (Gn g) as (a & b & c & _). destruct (Gn p) as (_ & _ & _ & dp & _).
    apply (lv_dep _ L2 g) with (w := w).
    - rewrite Hs, P2, app_nil_r. apply in_or_app. right. now left.
    - now rewrite <- (inputs_of_congr _ _ a b c).
    - rewrite Hs. apply in_or_app. now left.
    - now rewrite <- dp.
  Qed.

  (* Compile's queue never outlives its fuel and no output wire is assigned
     twice *)
  Theorem compile_gerr : gerr (cg (compile_assign G)) = gerr G.
  Proof.
    destruct compile_run as (st2 & -> & _ & _ & _ & E2 & _ & _ & NA).
    destruct (output_phase (gouts G) st2 (c_outs_nodup _ CW) NA) as (_ & _ & _ & _ & _ & _ & E3).
    congruence.
  Qed.
End BFS.

(* C09_compile: both targets *)
Theorem compile_correct_cwf t G x v :
  cwf G -> sat G x v -> length x = length (gins G) ->
  eval_plain (compile t G) x = map v (gouts G).
Proof.
  intros CW SAT Hx. set (st := compile_assign G).
  pose proof (cstable_compile_assign G) as CS. fold st in CS.
  pose proof CS as (Hi & Hou & _).
  assert (SAT' : sat (cg st) x v) by (eapply cstable_sat; eauto).
  assert (EO : emission_ok (cg st) (id_of (cg st)) (cnext st) (compile_order t st)).
  { destruct t; simpl; [now apply compile_emission_ok|].
    apply emission_ok_sorted; [now apply compile_emission_ok|now apply compile_levels_ok]. }
  pose proof (flat_eval_correct (cg st) (id_of (cg st)) (cnext st) (compile_order t st) x v EO SAT') as F.
  rewrite Hi, Hou in F. specialize (F Hx).
  unfold compile, compile_state. fold st. simpl.
  unfold flat in F. rewrite Hi, Hou in F. exact F.
Qed.

(* the bookkeeping of a freshly built graph (what NewWire / BinaryGate /
   INVGate / AddGate / SetOutput leave behind) *)
Record wfb (G : graph) : Prop := {
  fb_fresh : forall w, wid (gw G w) = None;
  fb_unvis : forall g, nvis (gn G g) = false;
  fb_ins_flag : forall w, In w (gins G) -> wout (gw G w) = false;
  fb_outs_nodup : NoDup (gouts G);
  fb_outs_flag : forall w, wout (gw G w) = true <-> In w (gouts G);
  fb_lists : forall g, In g (gorder G) -> forall w, In w (inputs_of (gn G g)) -> In g (wouts (gw G w));
  fb_entries : forall w c, In c (wouts (gw G w)) -> In c (gorder G);
  fb_noconsume : forall g, In g (gorder G) -> forall w, In w (inputs_of (gn G g)) -> wout (gw G w) = false;
  fb_range : forall g, In g (gorder G) -> g < gnn G;
  fb_outs_prod : forall o, In o (gouts G) -> exists g, In g (gorder G) /\ nO (gn G g) = o }.

Lemma wfg0_avail G : wfg0 G -> forall g, In g (gorder G) -> avail G (nO (gn G g)).
Proof.
  intros WF.
  assert (H : forall l1 l2, gorder G = l1 ++ l2 -> forall g, In g l1 -> avail G (nO (gn G g))).
  { induction l1 as [|a l IH] using rev_ind; intros l2 Ho g Hg; [destruct Hg|].
    rewrite <- app_assoc in Ho. simpl in Ho.
    apply in_app_or in Hg. destruct Hg as [Hg|[<-|[]]].
    - eapply IH; eauto.
    - destruct (w0_topo _ WF l a l2 Ho) as (Tin & _ & _).
      apply av_gate.
      + split; [rewrite Ho; apply in_or_app; right; now left|].
        apply (w0_nodead _ WF). rewrite Ho. apply in_or_app. right. now left.
      + intros w Hw. destruct (Tin w Hw) as [H|(p & Hp & <-)]; [now apply av_in|].
        eapply IH; eauto. }
  intros g. apply (H (gorder G) []). now rewrite app_nil_r.
Qed.

Lemma wfg0_uniq G : wfg0 G ->
  forall g1 g2, In g1 (gorder G) -> In g2 (gorder G) -> nO (gn G g1) = nO (gn G g2) -> g1 = g2.
Proof.
  intros WF g1 g2 L1 L2 E.
  destruct (Nat.eq_dec g1 g2) as [|Hne]; auto. exfalso.
  destruct (in_split _ _ L1) as (l1 & l2 & E1).
  rewrite E1 in L2. apply in_app_or in L2. destruct L2 as [L2|[L2|L2]].
  - destruct (w0_topo _ WF l1 g1 l2 E1) as (_ & _ & D). apply (D g2 L2). now symmetry.
  - congruence.
  - destruct (in_split _ _ L2) as (a & b & E2).
    assert (Hs : gorder G = (l1 ++ g1 :: a) ++ g2 :: b).
    { rewrite E1, E2, <- app_assoc. reflexivity. }
    destruct (w0_topo _ WF _ _ _ Hs) as (_ & _ & D). apply (D g1); auto.
    apply in_or_app. right. now left.
Qed.

Theorem fresh_cwf0 G : wfg0 G -> wfb G -> cwf G.
Proof.
  intros WF FB. constructor.
  - apply (fb_fresh _ FB).
  - apply (fb_unvis _ FB).
  - apply (w0_nodup_ins _ WF).
  - apply (fb_ins_flag _ FB).
  - apply (fb_outs_nodup _ FB).
  - apply (fb_outs_flag _ FB).
  - intros g [Lg _]. now apply (fb_lists _ FB).
  - intros w c Hc _. eapply (fb_entries _ FB); eauto.
  - intros g [Lg _]. now apply (fb_noconsume _ FB).
  - intros g [Lg _]. destruct (in_split _ _ Lg) as (l1 & l2 & E).
    apply (w0_topo _ WF l1 g l2 E).
  - intros g1 g2 [L1 _] [L2 _]. now apply wfg0_uniq.
  - apply (fb_range _ FB).
  - intros o Ho. destruct (fb_outs_prod _ FB o Ho) as (g & Hg & <-).
    now apply wfg0_avail.
Qed.

(* C09_compile_fresh *)
Theorem compile_fresh_correct t G x :
  wfg G -> wfb G -> length x = length (gins G) ->
  eval_plain (compile t G) x = graph_eval G x.
Proof.
  intros WF FB Hx. unfold graph_eval.
  apply compile_correct_cwf; auto using fresh_cwf0, wfg_wfg0.
  apply (geval_sat G WF x).
Qed.
