(* PassesIO.v — the passes never touch cc.InputWires / cc.OutputWires and only
   allocate new wires (property C09, side conditions of the pipeline theorem). *)
From Coq Require Import List Bool Arith Lia.
From Mpc Require Import Circuit.Circuit Circuit.Passes Circuit.PassesProof.
Import ListNotations.

Definition io_same (G G' : graph) : Prop :=
  gins G' = gins G /\ gouts G' = gouts G /\ gnw G <= gnw G'.

Lemma io_refl G : io_same G G.
Proof. repeat split; auto. Qed.

Lemma io_trans G1 G2 G3 : io_same G1 G2 -> io_same G2 G3 -> io_same G1 G3.
Proof. intros (a & b & c) (d & e & f). repeat split; try congruence; lia. Qed.

Ltac io_basic := unfold io_same; simpl; repeat split; auto; lia.

Lemma io_set_w G w r : io_same G (set_w G w r). Proof. io_basic. Qed.
Lemma io_set_n G i n : io_same G (set_n G i n). Proof. io_basic. Qed.
Lemma io_set_err G e : io_same G (set_err G e). Proof. io_basic. Qed.
Lemma io_set_order G o : io_same G (set_order G o). Proof. io_basic. Qed.
Lemma io_set_consts G a b c : io_same G (set_consts G a b c). Proof. io_basic. Qed.
Lemma io_new_wire G : io_same G (fst (new_wire G)). Proof. io_basic. Qed.
Lemma io_alloc_node G n : io_same G (fst (alloc_node G n)). Proof. io_basic. Qed.

Lemma io_set_value G w v : io_same G (set_value G w v). Proof. apply io_set_w. Qed.
Lemma io_add_output G w g : io_same G (add_output G w g). Proof. apply io_set_w. Qed.
Lemma io_disconnect G w : io_same G (disconnect_outputs G w). Proof. apply io_set_w. Qed.
Lemma io_remove_output G w : io_same G (remove_output G w).
Proof. unfold remove_output. destruct (wnum _); [apply io_set_err|apply io_set_w]. Qed.
Lemma io_set_input G w g : io_same G (set_input G w g).
Proof. unfold set_input. destruct (winp _); [apply io_set_err|apply io_set_w]. Qed.

Lemma io_add_binary_gate G o a b out : io_same G (add_binary_gate G o a b out).
Proof.
  unfold add_binary_gate. simpl.
  eapply io_trans; [|apply io_set_order].
  eapply io_trans; [|apply io_set_input].
  eapply io_trans; [|apply io_add_output].
  eapply io_trans; [|apply io_add_output].
  apply (io_alloc_node G (mkN o a b out false false 0)).
Qed.

Lemma io_add_inv_gate G a out : io_same G (add_inv_gate G a out).
Proof.
  unfold add_inv_gate. simpl.
  eapply io_trans; [|apply io_set_order].
  eapply io_trans; [|apply io_set_input].
  eapply io_trans; [|apply io_add_output].
  apply (io_alloc_node G (mkN INV a 0 out false false 0)).
Qed.

Lemma io_inv_i0_wire G : io_same G (fst (inv_i0_wire G)).
Proof.
  unfold inv_i0_wire. destruct (ginv G); simpl; [apply io_refl|].
  eapply io_trans; [|apply io_add_inv_gate].
  eapply io_trans; [apply (io_new_wire G)|apply io_set_consts].
Qed.

(* the gate that ZeroWire/OneWire add for a new constant *)
Lemma io_const_gate G o z val :
  io_same G (fst (let '(G3, i) := inv_i0_wire G in
                  (set_value (add_binary_gate G3 o (input0 G3) i z) z val, z))).
Proof.
  pose proof (io_inv_i0_wire G) as H. destruct (inv_i0_wire G) as [G3 i]. simpl in *.
  eapply io_trans; [exact H|]. eapply io_trans; [apply io_add_binary_gate|apply io_set_value].
Qed.

Lemma io_zero_wire G : io_same G (fst (zero_wire G)).
Proof.
  unfold zero_wire. destruct (gzero G); simpl; [apply io_refl|].
  eapply io_trans; [|apply io_const_gate].
  eapply io_trans; [apply (io_new_wire G)|apply io_set_consts].
Qed.

Lemma io_one_wire G : io_same G (fst (one_wire G)).
Proof.
  unfold one_wire. destruct (gone G); simpl; [apply io_refl|].
  eapply io_trans; [|apply io_const_gate].
  eapply io_trans; [apply (io_new_wire G)|apply io_set_consts].
Qed.

Lemma io_replace_input G c from to : io_same G (replace_input G c from to).
Proof.
  unfold replace_input.
  assert (H : io_same G (add_output (remove_output G from) to c)).
  { eapply io_trans; [apply io_remove_output|apply io_add_output]. }
  destruct (Nat.eqb _ _); [eapply io_trans; [exact H|apply io_set_n]|].
  destruct (_ && _); [eapply io_trans; [exact H|apply io_set_n]|apply io_set_err].
Qed.

Lemma io_short_circuit G gid o : io_same G (short_circuit G gid o).
Proof.
  unfold short_circuit. destruct (wout _); [apply io_refl|].
  eapply io_trans; [|apply io_disconnect].
  apply (fold_left_rel io_same _ _ io_refl io_trans). intros; apply io_replace_input.
Qed.

(* a substitution block, whichever constant it asks for *)
Lemma io_subst_block G a gid (mk : graph -> graph * nat) (setn : node -> nat -> node) :
  (forall H, io_same H (fst (mk H))) ->
  io_same G (let '(G2, z) := mk (remove_output G a) in
             add_output (set_n G2 gid (setn (gn G2 gid) z)) z gid).
Proof.
  intros Hmk. pose proof (Hmk (remove_output G a)) as H. destruct (mk _) as [G2 z]. simpl in H.
  eapply io_trans; [apply io_remove_output|]. eapply io_trans; [exact H|].
  eapply io_trans; [apply io_set_n|apply io_add_output].
Qed.

Lemma io_subst sa G gid : io_same G (subst sa G gid).
Proof.
  destruct sa; simpl; unfold cp_subst_A, cp_subst_B.
  - destruct (wv _); [apply io_refl| |].
    + apply (io_subst_block G _ gid zero_wire n_set_A io_zero_wire).
    + apply (io_subst_block G _ gid one_wire n_set_A io_one_wire).
  - destruct (is_inv _); [apply io_refl|]. destruct (wv _); [apply io_refl| |].
    + apply (io_subst_block G _ gid zero_wire n_set_B io_zero_wire).
    + apply (io_subst_block G _ gid one_wire n_set_B io_one_wire).
Qed.

Lemma io_cp_step G gid : io_same G (cp_step G gid).
Proof.
  rewrite cp_step_eq.
  eapply io_trans; [|apply io_subst].
  eapply io_trans; [|apply io_subst].
  unfold cp_switch. destruct (cp_action _ _ _);
    auto using io_refl, io_set_value, io_short_circuit.
Qed.

Lemma io_const_propagate G : io_same G (const_propagate G).
Proof. apply (fold_left_rel io_same _ _ io_refl io_trans). apply io_cp_step. Qed.

Lemma io_scx_try G g z o : io_same G (scx_try G g z o).
Proof.
  unfold scx_try. destruct (isZ _); [|apply io_refl].
  destruct (winp _); [|apply io_refl].
  destruct (Nat.eqb _ _); [|apply io_refl]. simpl.
  eapply io_trans; [|apply io_set_n].
  eapply io_trans; [apply io_set_n|]. apply (io_new_wire (set_n G _ _)).
Qed.

Lemma io_scx_step G g : io_same G (scx_step G g).
Proof.
  unfold scx_step. destruct (is_xor _); [|apply io_refl].
  eapply io_trans; apply io_scx_try.
Qed.

Lemma io_scx G : io_same G (short_circuit_xor_zero G).
Proof. apply (fold_left_rel io_same _ _ io_refl io_trans). apply io_scx_step. Qed.

Lemma io_gate_prune G g : io_same G (fst (gate_prune G g)).
Proof.
  unfold gate_prune. destruct (_ || _ || _); simpl; [apply io_refl|].
  eapply io_trans; [|apply io_remove_output].
  eapply io_trans; [apply io_set_n|].
  destruct (is_inv _); [apply io_refl|apply io_remove_output].
Qed.

Lemma io_prune G : io_same G (prune G).
Proof. apply (prune_rel io_same io_refl io_trans io_gate_prune io_set_order). Qed.

Lemma io_optimize (p : bool) G : io_same G (optimize p G).
Proof.
  unfold optimize.
  assert (H : io_same G (short_circuit_xor_zero (const_propagate G))).
  { eapply io_trans; [apply io_const_propagate|apply io_scx]. }
  destruct p; auto. eapply io_trans; [exact H|apply io_prune].
Qed.

Definition rsame (G G' : graph) : Prop :=
  gn G' = gn G /\ gorder G' = gorder G /\ gnw G' = gnw G /\ gins G' = gins G /\
  gzero G' = gzero G /\ gone G' = gone G.

Lemma rsame_ranged G G' : rsame G G' -> ranged G -> ranged G'.
Proof.
  intros (a & b & c & d & e & f) (R1 & R2 & R3 & R4).
  unfold ranged, live. rewrite a, b, c, d, e, f. auto.
Qed.

Lemma rsame_set_value G w v : rsame G (set_value G w v). Proof. repeat split. Qed.

(* C09_ranges: this and [io_optimize] *)
Theorem const_propagate_ranged G : wfg G -> ranged G -> ranged (const_propagate G).
Proof.
  intros WF R.
  destruct (cp_fold_sweep (fun _ _ => True) [] (geval G [])) with (l := gorder G) (G := G)
    as (_ & _ & R1 & _); auto.
  - intros gid Hin. split; auto. now apply (wf_nodead _ WF).
  - apply geval_sat. exact WF.
Qed.
