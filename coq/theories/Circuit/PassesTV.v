(* PassesTV.v — frame facts of the passes (property C09): no pass assigns a
   wire id, sets Visited, changes an output flag or touches
   InputWires/OutputWires/the constant wires. *)
From Coq Require Import List Bool Arith.
From Mpc Require Import Circuit.Circuit Circuit.Passes Circuit.PassesProof Circuit.PassesBFS.
Import ListNotations.

Record TV (G : graph) : Prop := {
  tv_fresh : forall w, wid (gw G w) = None;
  tv_unvis : forall g, nvis (gn G g) = false;
  tv_ins_nodup : NoDup (gins G);
  tv_ins_flag : forall w, In w (gins G) -> wout (gw G w) = false;
  tv_outs_nodup : NoDup (gouts G);
  tv_outs_flag : forall w, wout (gw G w) = true <-> In w (gouts G) }.

Definition tvs (G G' : graph) : Prop :=
  gins G' = gins G /\ gouts G' = gouts G /\ gzero G' = gzero G /\ gone G' = gone G /\
  (forall w, wid (gw G' w) = wid (gw G w) /\ wout (gw G' w) = wout (gw G w)) /\
  (forall g, nvis (gn G' g) = nvis (gn G g)).

Lemma tvs_refl G : tvs G G.
Proof. repeat split. Qed.

Lemma tvs_trans G1 G2 G3 : tvs G1 G2 -> tvs G2 G3 -> tvs G1 G3.
Proof.
  intros (a1&a2&a3&a4&a5&a6) (b1&b2&b3&b4&b5&b6).
  split; [congruence|]. split; [congruence|]. split; [congruence|]. split; [congruence|].
  split.
  - intros w. destruct (a5 w), (b5 w). split; congruence.
  - intros g. now rewrite b6, a6.
Qed.

Lemma tvs_TV G G' : tvs G G' -> TV G -> TV G'.
Proof.
  intros (a1&a2&a3&a4&a5&a6) T. constructor.
  - intros w. rewrite (proj1 (a5 w)). apply (tv_fresh _ T).
  - intros g. rewrite a6. apply (tv_unvis _ T).
  - rewrite a1. apply (tv_ins_nodup _ T).
  - intros w Hw. rewrite a1 in Hw. rewrite (proj2 (a5 w)). now apply (tv_ins_flag _ T).
  - rewrite a2. apply (tv_outs_nodup _ T).
  - intros w. rewrite (proj2 (a5 w)), a2. apply (tv_outs_flag _ T).
Qed.

Lemma tvs_set_order G o : tvs G (set_order G o). Proof. repeat split. Qed.

Lemma tvs_set_w G w r :
  wid r = wid (gw G w) -> wout r = wout (gw G w) -> tvs G (set_w G w r).
Proof.
  intros H1 H2. split; [reflexivity|]. split; [reflexivity|]. split; [reflexivity|].
  split; [reflexivity|]. split; [|intros g; reflexivity].
  intros w0. simpl. unfold fupd. destruct (Nat.eqb_spec w0 w); subst; auto.
Qed.

Lemma tvs_set_n G i n : nvis n = nvis (gn G i) -> tvs G (set_n G i n).
Proof.
  intros H. split; [reflexivity|]. split; [reflexivity|]. split; [reflexivity|].
  split; [reflexivity|]. split; [intros w; split; reflexivity|].
  intros g. simpl. unfold fupd. destruct (Nat.eqb_spec g i); subst; auto.
Qed.

Lemma tvs_set_value G w v : tvs G (set_value G w v). Proof. apply tvs_set_w; reflexivity. Qed.

Lemma wonly_tvs {G G'} : wonly G G' -> tvs G G'.
Proof.
  intros W. split; [apply W|]. split; [apply W|]. split; [apply W|]. split; [apply W|].
  split; [intros w; split; apply (wo_wire W)|]. intros g. now rewrite (wo_n W).
Qed.

Lemma moved_tvs {sa G G' c from to} : moved sa G G' c from to -> tvs G G'.
Proof.
  intros M. split; [apply M|]. split; [apply M|]. split; [apply M|]. split; [apply M|].
  split; [intros w; split; apply (m_wire M)|]. intros g. apply (moved_fields M).
Qed.

Lemma tvs_remove_output G w : tvs G (remove_output G w).
Proof. apply wonly_tvs, wonly_remove_output. Qed.

Lemma tvs_frame : frame tvs.
Proof.
  constructor.
  - apply tvs_refl.
  - apply tvs_trans.
  - intros G G'. apply wonly_tvs.
  - apply tvs_set_value.
  - intros sa G G' c from to. apply moved_tvs.
Qed.

Lemma tvs_const_propagate x v G :
  (forall g, In g (gorder G) -> ndead (gn G g) = false) -> Inv x v G ->
  tvs G (const_propagate G).
Proof.
  intros Hd HI. apply (cp_fold_frame tvs tvs_frame x v); auto.
  intros g Hg. split; auto.
Qed.

Lemma tvs_gate_prune G g : tvs G (fst (gate_prune G g)).
Proof.
  unfold gate_prune. destruct (_ || _ || _); simpl; [apply tvs_refl|].
  eapply tvs_trans; [|apply tvs_remove_output].
  apply tvs_trans with (set_n G g (n_set_dead (gn G g))); [apply tvs_set_n; reflexivity|].
  destruct (is_inv _); [apply tvs_refl|apply tvs_remove_output].
Qed.

Lemma tvs_prune G : tvs G (prune G).
Proof. apply (prune_rel tvs tvs_refl tvs_trans tvs_gate_prune tvs_set_order). Qed.

Lemma fresh_TV0 G : wfg0 G -> wfb G -> TV G.
Proof.
  intros WF FB. constructor; try apply FB. apply (w0_nodup_ins _ WF).
Qed.
