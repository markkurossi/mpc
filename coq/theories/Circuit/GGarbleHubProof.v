(* GGarbleHubProof.v — C04 for HUB sessions of ANY length (the class the harness family
   harness/c04long.go samples at > 131072 streamed circuits, far beyond what the extracted
   model executes): a streaming session of k single-AND circuits that all read the SAME
   first input wire (global wire 0, the hub) and an arbitrary earlier wire, each writing a
   fresh global wire.  In such a session every first-half-gate hash is keyed by the hub's
   labels, so the transcript is safe only because the tweaks are pairwise distinct.  The
   session is well formed and consumes 2k tweaks, so C04_stream applies for every k < 2^31:
   no transmitted value is R and no two differ by R, with the session-wide counter. *)
From Coq Require Import NArith List Arith Lia.
From Mpc Require Import Circuit.Circuit Circuit.GarbleProof Circuit.GGarble Circuit.GGarbleProof.
Import ListNotations.

Fixpoint hub_steps_from (j : nat) (bs : list nat) : list scirc :=
  match bs with
  | [] => []
  | b :: t => mkSC [mkGate 0 1 2 AND] 3 [0; b]%nat [j] :: hub_steps_from (S j) t
  end.

Definition hub_steps (ni : nat) (bs : list nat) : list scirc := hub_steps_from ni bs.

Fixpoint hub_ok (j : nat) (bs : list nat) : Prop :=
  match bs with
  | [] => True
  | b :: t => (b < j)%nat /\ hub_ok (S j) t
  end.

Fixpoint hub_flat (j : nat) (bs : list nat) : list gate :=
  match bs with
  | [] => []
  | b :: t => mkGate 0 b j AND :: hub_flat (S j) t
  end.

Lemma hub_flat_eq G : forall bs j,
  concat (map (sflat G) (hub_steps_from j bs)) = hub_flat j bs.
Proof.
  induction bs as [|b t IH]; intros j; [reflexivity|].
  cbn [hub_steps_from map concat hub_flat]. rewrite IH. reflexivity.
Qed.

Lemma hub_tweaks : forall bs j, tweaks_of (hub_flat j bs) = (2 * N.of_nat (length bs))%N.
Proof.
  induction bs as [|b t IH]; intros j; [reflexivity|].
  cbn [hub_flat length]. rewrite tweaks_of_cons, IH. cbn [gop]. rewrite Nat2N.inj_succ.
  unfold gate_tweaks. lia.
Qed.

Lemma hub_wf n ni : forall bs j asg,
  (1 <= j)%nat -> (ni <= j)%nat -> length asg = n -> (j + length bs <= n)%nat ->
  (forall w, (w < j)%nat -> nth w asg false = true) ->
  hub_ok j bs ->
  wf_gates n ni asg (hub_flat j bs) = true.
Proof.
  induction bs as [|b t IH]; intros j asg Hj Hni Hlen Hn Hasg Hok; [reflexivity|].
  cbn [hub_flat wf_gates]. cbn [hub_ok] in Hok. destruct Hok as [Hb Hok].
  cbn [length] in Hn.
  apply andb_true_intro; split.
  - apply gate_ok_spec. cbn [gin0 gin1 gout gop].
    split; [lia|]. split; [apply Hasg; lia|]. right. split; [lia|apply Hasg; exact Hb].
  - cbn [gout]. apply IH.
    + lia.
    + lia.
    + rewrite upd_length. exact Hlen.
    + lia.
    + intros w Hw. destruct (Nat.eq_dec w j) as [->|Hne].
      * apply nth_upd_eq. lia.
      * rewrite nth_upd_neq by (intro E; apply Hne; symmetry; exact E). apply Hasg. lia.
    + exact Hok.
Qed.

Theorem stream_hub_safe (perm : nat -> bool) (ni : nat) (bs : list nat) (x : list bool) :
  (1 <= ni)%nat -> hub_ok ni bs -> (2 * N.of_nat (length bs) <= 2 ^ 32)%N ->
  r_safe Rsym (sym_stream_transcript false perm (ni + length bs) ni (ni + length bs + 3)
                 (hub_steps ni bs) x).
Proof.
  intros Hni Hok Htw. unfold hub_steps.
  apply sym_stream_safe.
  - lia.
  - rewrite hub_flat_eq. apply hub_wf.
    + exact Hni.
    + lia.
    + apply (init_asg_length (mkCircuit _ ni 0 [])). cbn [ninputs nwires]. lia.
    + lia.
    + intros w Hw. apply nth_init_asg_lt. exact Hw.
    + exact Hok.
  - rewrite hub_flat_eq, hub_tweaks. exact Htw.
Qed.

(* [hub_ok] is inhabited at every length: all second operands are session input 1 *)
Lemma hub_ok_repeat_1 : forall k j, (2 <= j)%nat -> hub_ok j (repeat 1%nat k).
Proof.
  induction k as [|k IH]; intros j Hj; [exact I|].
  cbn [repeat hub_ok]. split; [lia|apply IH; lia].
Qed.
