(* PassesInv.v — the bookkeeping invariant of the rewriting passes
   (output-gate lists cover every consumer slot, NumOutputs >= true use
   count, acyclicity, availability of the output cone) through
   ConstPropagate and ShortCircuitXORZero, and its derivation for a freshly
   built graph (Prune: PassesPrune.v).  (Property C09) *)
From Coq Require Import List Bool Arith Lia.
From Mpc Require Import Circuit.Circuit Circuit.Passes Circuit.PassesProof Circuit.PassesBFS
  Circuit.PassesIO Circuit.PassesTV.
Import ListNotations.

Definition slotA (n : node) (w : nat) : nat := if Nat.eqb (nA n) w then 1 else 0.
Definition slotB (n : node) (w : nat) : nat :=
  if negb (is_inv (nop n)) && Nat.eqb (nB n) w then 1 else 0.
Definition slots (n : node) (w : nat) : nat := slotA n w + slotB n w.
Definition lslots (G : graph) (c w : nat) : nat :=
  if ndead (gn G c) then 0 else slots (gn G c) w.
Definition uses (G : graph) (w : nat) : nat :=
  list_sum (map (fun c => lslots G c w) (gorder G)).

Lemma slots_inputs n w : In w (inputs_of n) <-> 0 < slots n w.
Proof.
  unfold inputs_of, slots, slotA, slotB. destruct (is_inv (nop n)); simpl.
  - destruct (Nat.eqb_spec (nA n) w); split; intros H; try lia; auto;
      destruct H as [H|[]]; contradiction.
  - destruct (Nat.eqb_spec (nA n) w), (Nat.eqb_spec (nB n) w); split; intros H; try lia; auto;
      destruct H as [H|[H|[]]]; contradiction.
Qed.

Lemma sum_same {A} (l : list A) f f' :
  (forall x, In x l -> f' x = f x) -> list_sum (map f' l) = list_sum (map f l).
Proof.
  induction l as [|a l IH]; simpl; intros H; [reflexivity|].
  rewrite H by (now left). rewrite IH; [reflexivity|]. intros x Hx. apply H. now right.
Qed.

Lemma sum_zero {A} (l : list A) : list_sum (map (fun _ => 0) l) = 0.
Proof. induction l; simpl; auto. Qed.

Lemma sum_change {A} (l : list A) f f' c :
  NoDup l -> In c l -> (forall x, x <> c -> f' x = f x) ->
  list_sum (map f' l) + f c = list_sum (map f l) + f' c.
Proof.
  induction l as [|a l IH]; simpl; intros ND Hin H; [destruct Hin|].
  inversion ND as [|? ? Hna ND']; subst. destruct Hin as [->|Hin].
  - rewrite (sum_same l f f'); [lia|]. intros x Hx. apply H. intros ->. contradiction.
  - assert (a <> c) by (intros ->; contradiction).
    rewrite (H a) by auto. specialize (IH ND' Hin H). lia.
Qed.

Lemma sum_pos_in {A} (l : list A) f c : In c l -> f c <= list_sum (map f l).
Proof.
  induction l as [|a l IH]; simpl; intros H; [destruct H|].
  destruct H as [->|H]; [lia|]. specialize (IH H). lia.
Qed.

Lemma sum_two {A} (l : list A) f a b :
  NoDup l -> In a l -> In b l -> a <> b -> f a + f b <= list_sum (map f l).
Proof.
  induction l as [|x l IH]; simpl; intros ND Ha Hb Hne; [destruct Ha|].
  inversion ND; subst. destruct Ha as [->|Ha], Hb as [->|Hb].
  - contradiction.
  - pose proof (sum_pos_in l f b Hb). lia.
  - pose proof (sum_pos_in l f a Ha). lia.
  - specialize (IH H2 Ha Hb Hne). lia.
Qed.

Lemma count_occ_snoc (l : list nat) a c :
  count_occ Nat.eq_dec (l ++ [a]) c = count_occ Nat.eq_dec l c + (if Nat.eqb a c then 1 else 0).
Proof.
  rewrite count_occ_app. simpl. destruct (Nat.eq_dec a c), (Nat.eqb_spec a c); try lia; contradiction.
Qed.

Lemma count_occ_cons_eqb (l : list nat) h c :
  count_occ Nat.eq_dec (h :: l) c = (if Nat.eqb c h then 1 else 0) + count_occ Nat.eq_dec l c.
Proof. simpl. destruct (Nat.eq_dec h c), (Nat.eqb_spec c h); try lia; congruence. Qed.

Lemma lslots_pos G c w :
  0 < lslots G c w <-> ndead (gn G c) = false /\ In w (inputs_of (gn G c)).
Proof.
  unfold lslots. rewrite slots_inputs. destruct (ndead (gn G c)); split; try tauto.
  - lia.
  - intros [H _]. discriminate.
Qed.

Lemma lslots_none G c w : ~ In w (inputs_of (gn G c)) -> lslots G c w = 0.
Proof.
  intros H. destruct (Nat.eq_dec (lslots G c w) 0) as [|N]; auto.
  exfalso. apply H, (lslots_pos G c w). lia.
Qed.

Lemma lslots_ext G G' c w : gn G' c = gn G c -> lslots G' c w = lslots G c w.
Proof. intros H. unfold lslots. now rewrite H. Qed.

Lemma lslots_live G c w : ndead (gn G c) = false -> lslots G c w = slots (gn G c) w.
Proof. intros H. unfold lslots. now rewrite H. Qed.

Lemma lslots_shape G G' c w : same_shape G G' -> lslots G' c w = lslots G c w.
Proof.
  intros H. destruct (H c) as (a & b & c0 & d).
  unfold lslots, slots, slotA, slotB. now rewrite a, b, c0, d.
Qed.

Lemma uses_ge G c w : In c (gorder G) -> lslots G c w <= uses G w.
Proof. apply (sum_pos_in (gorder G) (fun i => lslots G i w)). Qed.

Lemma uses_zero G w : (forall c, In c (gorder G) -> lslots G c w = 0) -> uses G w = 0.
Proof. intros H. unfold uses. rewrite (sum_same _ (fun _ => 0)) by exact H. apply sum_zero. Qed.

Record BK (G : graph) : Prop := {
  bk_nodup : NoDup (gorder G);
  bk_range : forall g, In g (gorder G) -> g < gnn G;
  bk_lists : forall c w, In c (gorder G) ->
             lslots G c w <= count_occ Nat.eq_dec (wouts (gw G w)) c;
  bk_cnt : forall w, uses G w <= wnum (gw G w);
  bk_entries : forall w c, In c (wouts (gw G w)) -> ndead (gn G c) = false -> In c (gorder G) }.

Lemma moved_lslots {sa G G' c from to} :
  moved sa G G' c from to ->
  (forall i w, i <> c -> lslots G' i w = lslots G i w) /\
  (forall w, lslots G' c w + (if ndead (gn G c) then 0 else if Nat.eqb from w then 1 else 0)
             = lslots G c w + (if ndead (gn G c) then 0 else if Nat.eqb to w then 1 else 0)).
Proof.
  intros M. split.
  - intros i w Hi. unfold lslots. now rewrite (m_node_o M Hi).
  - intros w. unfold lslots. rewrite (m_node_c M).
    destruct (m_from M) as [Hf Hinv].
    destruct sa; simpl.
    + destruct (ndead (gn G c)); auto. unfold slots, slotA, slotB. simpl. rewrite Hf.
      destruct (Nat.eqb from w), (Nat.eqb to w); lia.
    + destruct (ndead (gn G c)); auto. unfold slots, slotA, slotB. simpl.
      rewrite (Hinv eq_refl). simpl. rewrite Hf.
      destruct (Nat.eqb from w), (Nat.eqb to w); lia.
Qed.

Lemma moved_BK sa G G' c from to :
  moved sa G G' c from to -> BK G -> live G c -> BK G'.
Proof.
  intros M B [Hin Hd]. destruct (moved_lslots M) as [Lo Lc].
  pose proof (m_order M) as Eo.
  constructor.
  - rewrite Eo. apply (bk_nodup _ B).
  - rewrite Eo, (m_nn M). apply (bk_range _ B).
  - intros i w Hi. rewrite Eo in Hi. rewrite (m_wouts M w).
    pose proof (bk_lists _ B i w Hi) as H.
    destruct (Nat.eq_dec i c) as [->|Hne].
    + specialize (Lc w). rewrite Hd in Lc. destruct (Nat.eqb_spec w to) as [->|Hwt].
      * rewrite count_occ_snoc, Nat.eqb_refl. rewrite Nat.eqb_refl in Lc.
        destruct (Nat.eqb from to); lia.
      * assert (E : Nat.eqb to w = false) by (apply Nat.eqb_neq; auto).
        rewrite E in Lc. destruct (Nat.eqb from w); lia.
    + rewrite (Lo i w Hne). destruct (Nat.eqb w to); auto.
      rewrite count_occ_snoc. lia.
  - intros w. pose proof (m_wnum M w) as Hn. pose proof (bk_cnt _ B w) as Hu.
    unfold uses in *. rewrite Eo.
    pose proof (sum_change (gorder G) (fun i => lslots G i w) (fun i => lslots G' i w) c
                  (bk_nodup _ B) Hin (fun i Hi => Lo i w Hi)) as S. simpl in S.
    specialize (Lc w). rewrite Hd in Lc.
    rewrite (Nat.eqb_sym w to), (Nat.eqb_sym w from) in Hn.
    pose proof (sum_pos_in (gorder G) (fun i => lslots G i w) c Hin) as P. simpl in P.
    destruct (Nat.eqb from w), (Nat.eqb to w); lia.
  - intros w i Hi Hdi. rewrite Eo. rewrite (m_wouts M w) in Hi.
    assert (Hdi' : ndead (gn G i) = false).
    { destruct (Nat.eq_dec i c) as [->|Hne]; auto.
      rewrite (m_node_o M Hne) in Hdi. exact Hdi. }
    destruct (Nat.eqb w to).
    + apply in_app_or in Hi. destruct Hi as [Hi|[<-|[]]]; [eapply (bk_entries _ B); eauto|auto].
    + eapply (bk_entries _ B); eauto.
Qed.

Lemma uses_ext G G' w :
  gorder G' = gorder G -> (forall c, gn G' c = gn G c) -> uses G' w = uses G w.
Proof.
  intros Ho Hn. unfold uses. rewrite Ho. apply sum_same. intros c _. now apply lslots_ext.
Qed.

Lemma BK_ext G G' :
  gorder G' = gorder G -> gnn G' = gnn G -> (forall c, gn G' c = gn G c) ->
  (forall w, wouts (gw G' w) = wouts (gw G w) /\ wnum (gw G' w) = wnum (gw G w)) ->
  BK G -> BK G'.
Proof.
  intros Ho Hnn Hn Hw B. constructor.
  - rewrite Ho. apply (bk_nodup _ B).
  - rewrite Ho, Hnn. apply (bk_range _ B).
  - intros c w Hc. rewrite Ho in Hc. rewrite (lslots_ext _ _ _ _ (Hn c)), (proj1 (Hw w)).
    now apply (bk_lists _ B).
  - intros w. rewrite (uses_ext _ _ w Ho Hn), (proj2 (Hw w)). apply (bk_cnt _ B).
  - intros w c Hc Hd. rewrite (proj1 (Hw w)) in Hc. rewrite Hn in Hd. rewrite Ho.
    eapply (bk_entries _ B); eauto.
Qed.

Lemma BK_pos G c w : BK G -> In c (gorder G) -> 0 < lslots G c w -> 0 < wnum (gw G w).
Proof.
  intros B Hc Hl. pose proof (bk_cnt _ B w). pose proof (uses_ge G c w Hc). lia.
Qed.

Definition isconst (G : graph) (k : nat) : Prop := gzero G = Some k \/ gone G = Some k.

Record ST (rank : nat -> nat) (G : graph) : Prop := {
  st_nodead : forall g, In g (gorder G) -> ndead (gn G g) = false;
  st_nocons : forall c, In c (gorder G) -> forall w, In w (inputs_of (gn G c)) -> wout (gw G w) = false;
  st_prod : forall c, In c (gorder G) -> ~ In (nO (gn G c)) (gins G);
  st_uniq : forall c1 c2, In c1 (gorder G) -> In c2 (gorder G) ->
            nO (gn G c1) = nO (gn G c2) -> c1 = c2;
  st_rank : forall c, In c (gorder G) -> forall w, In w (inputs_of (gn G c)) ->
            rank w < rank (nO (gn G c));
  st_vrank : forall w k, wv (gw G w) <> Unknown -> isconst G k -> rank k <= rank w;
  st_cavail : forall k, isconst G k -> avail G k /\ wout (gw G k) = false /\ k < gnw G;
  st_avail : forall o, In o (gouts G) -> avail G o;
  st_rng : forall c, In c (gorder G) ->
           nO (gn G c) < gnw G /\ forall w, In w (inputs_of (gn G c)) -> w < gnw G;
  st_rng_in : forall w, In w (gins G) -> w < gnw G;
  st_winp1 : forall h, In h (gorder G) -> winp (gw G (nO (gn G h))) = Some h;
  st_winp2 : forall w p, winp (gw G w) = Some p -> In p (gorder G) /\ nO (gn G p) = w;
  st_entries : forall w c, In c (wouts (gw G w)) -> In c (gorder G);
  st_oflag : forall o, In o (gouts G) -> wout (gw G o) = true /\ o < gnw G }.

Record ST0 (rank : nat -> nat) (G : graph) : Prop := {
  s0_nodead : forall g, In g (gorder G) -> ndead (gn G g) = false;
  s0_nocons : forall c, In c (gorder G) -> forall w, In w (inputs_of (gn G c)) -> wout (gw G w) = false;
  s0_prod : forall c, In c (gorder G) -> ~ In (nO (gn G c)) (gins G);
  s0_uniq : forall c1 c2, In c1 (gorder G) -> In c2 (gorder G) ->
            nO (gn G c1) = nO (gn G c2) -> c1 = c2;
  s0_rank : forall c, In c (gorder G) -> forall w, In w (inputs_of (gn G c)) ->
            rank w < rank (nO (gn G c));
  s0_avail : forall o, In o (gouts G) -> avail G o;
  s0_rng : forall c, In c (gorder G) ->
           nO (gn G c) < gnw G /\ forall w, In w (inputs_of (gn G c)) -> w < gnw G;
  s0_rng_in : forall w, In w (gins G) -> w < gnw G;
  s0_entries : forall w c, In c (wouts (gw G w)) -> In c (gorder G);
  s0_oflag : forall o, In o (gouts G) -> wout (gw G o) = true /\ o < gnw G }.

Lemma ST_ST0 rank G : ST rank G -> ST0 rank G.
Proof. intros S. constructor; apply S. Qed.

Lemma ST_live rank G c : ST rank G -> In c (gorder G) -> live G c.
Proof. intros S H. split; auto. apply (st_nodead _ _ S c H). Qed.

Lemma avail_live_ext (P : nat -> Prop) G G' :
  gins G' = gins G ->
  (forall c, live G c -> P (nO (gn G c)) ->
     live G' c /\ gn G' c = gn G c /\ forall w, In w (inputs_of (gn G c)) -> P w) ->
  forall w, avail G w -> P w -> avail G' w.
Proof.
  intros Hi Hl w H. induction H as [w Hw|g Lg Hin IH]; intros Pw.
  - apply av_in. now rewrite Hi.
  - destruct (Hl g Lg Pw) as (L' & E & Hp). rewrite <- E. apply av_gate; auto.
    intros w Hw. rewrite E in Hw. apply IH; auto.
Qed.

Lemma avail_ext G G' :
  gins G' = gins G -> gorder G' = gorder G ->
  (forall c, In c (gorder G) -> gn G' c = gn G c) ->
  forall w, avail G w -> avail G' w.
Proof.
  intros Hi Ho Hn w Hw. apply (avail_live_ext (fun _ => True) G); auto.
  intros c [Lc Dc] _. split; [split; [now rewrite Ho|now rewrite (Hn c Lc)]|]. split; [now apply Hn|auto].
Qed.

(* induction on the rank, not on [avail]: the counterpart c' may be another gate
   and may read other wires than the original *)
Lemma avail_by_rank (rank : nat -> nat) (P : nat -> Prop) G G' :
  (forall w, In w (gins G) -> In w (gins G')) ->
  (forall c, live G c -> (forall w, In w (inputs_of (gn G c)) -> avail G w) -> P (nO (gn G c)) ->
     exists c', live G' c' /\ nO (gn G' c') = nO (gn G c) /\
       forall w, In w (inputs_of (gn G' c')) ->
                 avail G w /\ P w /\ rank w < rank (nO (gn G c))) ->
  forall w, avail G w -> P w -> avail G' w.
Proof.
  intros Hi Hg.
  assert (H : forall n w, rank w < n -> avail G w -> P w -> avail G' w).
  { induction n as [|n IH]; intros w Hn Hw Pw; [lia|].
    destruct Hw as [w Hw|c Lc Hin]; [now apply av_in, Hi|].
    destruct (Hg c Lc Hin Pw) as (c' & Lc' & E & Hc'). rewrite <- E.
    apply av_gate; auto. intros w Hw. destruct (Hc' w Hw) as (a & b & r). apply IH; auto. lia. }
  intros w. apply (H (S (rank w))). lia.
Qed.

Lemma avail_input rank G c w :
  ST0 rank G -> In c (gorder G) -> In w (inputs_of (gn G c)) ->
  avail G (nO (gn G c)) -> avail G w.
Proof.
  intros S Hc Hw Ha. inversion Ha as [? Hi|q [Lq _] Hq E].
  - destruct (s0_prod _ _ S c Hc Hi).
  - rewrite (s0_uniq _ _ S q c Lq Hc E) in Hq. now apply Hq.
Qed.

Lemma ST_transfer rank G G' :
  gorder G' = gorder G -> gins G' = gins G -> gouts G' = gouts G ->
  gzero G' = gzero G -> gone G' = gone G -> gnw G' = gnw G ->
  (forall i, nO (gn G' i) = nO (gn G i) /\ ndead (gn G' i) = ndead (gn G i)) ->
  (forall w, wout (gw G' w) = wout (gw G w) /\ winp (gw G' w) = winp (gw G w)) ->
  (forall i w, In i (gorder G) -> In w (inputs_of (gn G' i)) ->
     In w (inputs_of (gn G i)) \/
     (wout (gw G w) = false /\ rank w < rank (nO (gn G i)) /\ w < gnw G)) ->
  (forall w k, wv (gw G' w) <> Unknown -> isconst G k -> rank k <= rank w) ->
  (forall w c, In c (wouts (gw G' w)) -> In c (gorder G)) ->
  (forall w, avail G w -> avail G' w) ->
  ST rank G -> ST rank G'.
Proof.
  intros Ho Hi Hou Hz Hone Hnw Hn Hw Hin Hv He AV S.
  assert (IC : forall k, isconst G' k -> isconst G k).
  { intros k. unfold isconst. now rewrite Hz, Hone. }
  constructor.
  - intros g Hg. rewrite Ho in Hg. rewrite (proj2 (Hn g)). now apply (st_nodead _ _ S).
  - intros c Hc w Hwi. rewrite Ho in Hc. rewrite (proj1 (Hw w)).
    destruct (Hin c w Hc Hwi) as [H|(H & _)]; auto. now apply (st_nocons _ _ S c).
  - intros c Hc. rewrite Ho in Hc. rewrite (proj1 (Hn c)), Hi. now apply (st_prod _ _ S).
  - intros c1 c2 H1 H2. rewrite Ho in H1, H2. rewrite (proj1 (Hn c1)), (proj1 (Hn c2)).
    now apply (st_uniq _ _ S).
  - intros c Hc w Hwi. rewrite Ho in Hc. rewrite (proj1 (Hn c)).
    destruct (Hin c w Hc Hwi) as [H|(_ & H & _)]; auto. now apply (st_rank _ _ S c).
  - intros w k Hvw Hk. apply (Hv w k Hvw (IC k Hk)).
  - intros k Hk. destruct (st_cavail _ _ S k (IC k Hk)) as (a & b & c).
    rewrite (proj1 (Hw k)), Hnw. auto.
  - intros o Ho'. rewrite Hou in Ho'. apply AV. now apply (st_avail _ _ S).
  - intros c Hc. rewrite Ho in Hc. rewrite (proj1 (Hn c)), Hnw.
    destruct (st_rng _ _ S c Hc) as [r1 r2]. split; auto.
    intros w Hwi. destruct (Hin c w Hc Hwi) as [H|(_ & _ & H)]; auto.
  - intros w Hw'. rewrite Hi in Hw'. rewrite Hnw. now apply (st_rng_in _ _ S).
  - intros h Hh. rewrite Ho in Hh. rewrite (proj1 (Hn h)), (proj2 (Hw _)). now apply (st_winp1 _ _ S).
  - intros w p Hp. rewrite (proj2 (Hw w)) in Hp. rewrite Ho, (proj1 (Hn p)). now apply (st_winp2 _ _ S).
  - intros w c Hc. rewrite Ho. now apply (He w c).
  - intros o Ho'. rewrite Hou in Ho'. rewrite (proj1 (Hw o)), Hnw. now apply (st_oflag _ _ S).
Qed.

Lemma moved_ST rank sa G G' c from to :
  ST rank G -> moved sa G G' c from to -> In c (gorder G) ->
  wout (gw G to) = false -> rank to < rank (nO (gn G c)) ->
  (avail G (nO (gn G c)) -> avail G to) -> to < gnw G ->
  ST rank G'.
Proof.
  intros S M Hc Hf Hr Ha Hlt.
  apply (ST_transfer rank G); try apply M.
  - intros i. destruct (moved_fields M i) as (f1 & f2 & _). auto.
  - intros w. destruct (m_wire M w) as (_ & a & b & _). auto.
  - intros i w _ Hw. destruct (moved_inputs M i w Hw) as [H|[-> ->]]; auto.
  - intros w k Hv. rewrite (proj1 (m_wire M w)) in Hv. now apply (st_vrank _ _ S).
  - intros w i Hi. rewrite (m_wouts M w) in Hi.
    destruct (Nat.eqb w to); [|eapply (st_entries _ _ S); eauto].
    apply in_app_or in Hi. destruct Hi as [Hi|[<-|[]]]; auto. eapply (st_entries _ _ S); eauto.
  - intros w Hw. apply (avail_by_rank rank (fun _ => True) G G'); auto.
    + intros w0. now rewrite (m_ins M).
    + intros i Li Hin _. exists i. destruct (moved_fields M i) as (f1 & f2 & _).
      split; [split; [rewrite (m_order M)|rewrite f2]; apply Li|]. split; [exact f1|].
      intros w0 Hw0. destruct (moved_inputs M i w0 Hw0) as [H|[-> ->]].
      * split; [now apply Hin|]. split; [exact I|]. now apply (st_rank _ _ S i (proj1 Li)).
      * split; [|split; [exact I|exact Hr]]. apply Ha. now apply av_gate.
  - exact S.
Qed.

Lemma ST_ext rank G G' :
  gorder G' = gorder G -> gins G' = gins G -> gouts G' = gouts G ->
  gzero G' = gzero G -> gone G' = gone G -> gnw G' = gnw G ->
  (forall c, gn G' c = gn G c) ->
  (forall w, wout (gw G' w) = wout (gw G w) /\ winp (gw G' w) = winp (gw G w)) ->
  (forall w k, wv (gw G' w) <> Unknown -> isconst G k -> rank k <= rank w) ->
  (forall w c, In c (wouts (gw G' w)) -> In c (wouts (gw G w))) ->
  ST rank G -> ST rank G'.
Proof.
  intros Ho Hi Hou Hz Hone Hnw Hn Hw Hv He S.
  apply (ST_transfer rank G); auto.
  - intros i. now rewrite Hn.
  - intros i w _ H. left. now rewrite <- Hn.
  - intros w c Hc. apply (st_entries _ _ S w c). now apply He.
  - apply avail_ext; auto.
Qed.

Lemma set_err_BK G e : BK G -> BK (set_err G e).
Proof. apply BK_ext; auto. Qed.
Lemma set_err_ST rank G e : ST rank G -> ST rank (set_err G e).
Proof. intros S. apply (ST_ext rank G); auto. intros w k. apply (st_vrank _ _ S). Qed.

Lemma set_value_BK G w v : BK G -> BK (set_value G w v).
Proof.
  apply BK_ext; auto. intros w'. simpl. unfold fupd. destruct (Nat.eqb_spec w' w); subst; auto.
Qed.

Lemma set_value_ST rank G w v :
  (forall k, isconst G k -> rank k <= rank w) -> ST rank G -> ST rank (set_value G w v).
Proof.
  intros Hk S. apply (ST_ext rank G); auto.
  - intros w'. simpl. unfold fupd. destruct (Nat.eqb_spec w' w); subst; auto.
  - intros w' k Hv Hc. simpl in Hv. unfold fupd in Hv.
    destruct (Nat.eqb_spec w' w); subst; auto. apply (st_vrank _ _ S w' k Hv Hc).
  - intros w' c. simpl. unfold fupd. destruct (Nat.eqb_spec w' w); subst; auto.
Qed.

Lemma disconnect_ST rank G w : ST rank G -> ST rank (disconnect_outputs G w).
Proof.
  intros S. apply (ST_ext rank G); auto.
  - intros w'. simpl. unfold fupd. destruct (Nat.eqb_spec w' w); subst; auto.
  - intros w' k Hv Hc. simpl in Hv. unfold fupd in Hv.
    destruct (Nat.eqb_spec w' w); subst; apply (st_vrank _ _ S _ k Hv Hc).
  - intros w' c. simpl. unfold fupd. destruct (Nat.eqb_spec w' w); subst; simpl; auto. intros [].
Qed.

Lemma disconnect_BK G w :
  (forall c, In c (gorder G) -> lslots G c w = 0) -> BK G -> BK (disconnect_outputs G w).
Proof.
  intros Hz B.
  assert (Hn : forall c, gn (disconnect_outputs G w) c = gn G c) by reflexivity.
  constructor.
  - apply (bk_nodup _ B).
  - apply (bk_range _ B).
  - intros c w' Hc. rewrite (lslots_ext _ _ _ _ (Hn c)). simpl. unfold fupd.
    destruct (Nat.eqb_spec w' w); subst; simpl; [rewrite (Hz c Hc); lia|now apply (bk_lists _ B)].
  - intros w'. rewrite (uses_ext G (disconnect_outputs G w) w' eq_refl Hn). simpl. unfold fupd.
    destruct (Nat.eqb_spec w' w); subst; simpl; [|apply (bk_cnt _ B)].
    now rewrite (uses_zero G w Hz).
  - intros w' c Hc Hd. simpl in Hc. unfold fupd in Hc.
    destruct (Nat.eqb_spec w' w); subst; simpl in Hc; [destruct Hc|].
    eapply (bk_entries _ B); eauto.
Qed.

Definition SI (rank : nat -> nat) (G : graph) : Prop := BK G /\ ST rank G.
Definition fr (G G' : graph) : Prop :=
  gorder G' = gorder G /\ gzero G' = gzero G /\ gone G' = gone G.

Lemma fr_refl G : fr G G. Proof. repeat split. Qed.
Lemma fr_trans G1 G2 G3 : fr G1 G2 -> fr G2 G3 -> fr G1 G3.
Proof. intros (a & b & c) (d & e & f). repeat split; congruence. Qed.
Lemma moved_fr sa G G' c from to : moved sa G G' c from to -> fr G G'.
Proof. intros M. repeat split; apply M. Qed.

Lemma fr_frame : frame fr.
Proof.
  constructor.
  - apply fr_refl.
  - apply fr_trans.
  - intros G G' W. repeat split; apply W.
  - repeat split.
  - apply moved_fr.
Qed.

Lemma moved_SI rank sa G G' c from to :
  SI rank G -> moved sa G G' c from to -> In c (gorder G) ->
  wout (gw G to) = false -> rank to < rank (nO (gn G c)) ->
  (avail G (nO (gn G c)) -> avail G to) -> to < gnw G ->
  SI rank G'.
Proof.
  intros [B S] M Hc H1 H2 H3 H4. split.
  - eapply moved_BK; eauto. eapply ST_live; eauto.
  - eapply moved_ST; eauto.
Qed.

(* one call of Gate.ReplaceInput in the loop of Gate.ShortCircuit, which
   replaces g's output O by g's input o: the consumer h loses one slot on O if
   it has one (then nothing panics); an entry that no longer reads O only sets
   the error code *)
Lemma sc_step rank g O o G h :
  SI rank G -> In g (gorder G) -> nO (gn G g) = O -> In o (inputs_of (gn G g)) ->
  In h (gorder G) ->
  let G1 := replace_input G h O o in
  SI rank G1 /\ fr G G1 /\ gn G1 g = gn G g /\
  (forall c, lslots G1 c O = if Nat.eqb c h then pred (lslots G h O) else lslots G c O) /\
  (0 < lslots G h O -> exists sa, moved sa G G1 h O o /\ gerr G1 = gerr G).
Proof.
  intros [B S] Hg HO Ho Hh. simpl.
  assert (Hro : rank o < rank O) by (rewrite <- HO; now apply (st_rank _ _ S g)).
  destruct (replace_input_spec G h O o) as [(sa & M & Eg)|(Hnin & ->)].
  - pose proof (moved_from_input M) as HinO.
    assert (Hhg : h <> g).
    { intros E. subst h. pose proof (st_rank _ _ S g Hg O HinO) as X. rewrite HO in X. lia. }
    assert (RO : rank O < rank (nO (gn G h))) by (now apply (st_rank _ _ S h)).
    destruct (moved_lslots M) as [Lo Lc].
    split; [|split; [eapply moved_fr; eauto|split; [apply (m_node_o M); auto|split]]].
    + eapply moved_SI; eauto; [split; auto| | | |].
      * now apply (st_nocons _ _ S g).
      * lia.
      * intros Ha. apply (avail_input rank G g o (ST_ST0 _ _ S) Hg Ho). rewrite HO.
        now apply (avail_input rank G h O (ST_ST0 _ _ S) Hh HinO).
      * now apply (st_rng _ _ S g Hg).
    + intros c. destruct (Nat.eqb_spec c h) as [->|Hne]; [|now apply Lo].
      specialize (Lc O). rewrite (st_nodead _ _ S h Hh), Nat.eqb_refl in Lc.
      assert (E : Nat.eqb o O = false) by (apply Nat.eqb_neq; intros ->; lia). rewrite E in Lc. lia.
    + intros Hpos. exists sa. split; [exact M|]. apply Eg, (BK_pos G h O B Hh Hpos).
  - split; [split; [now apply set_err_BK|now apply set_err_ST]|].
    split; [repeat split|]. split; [reflexivity|]. split.
    + intros c. change (lslots (set_err G 3) c O) with (lslots G c O).
      destruct (Nat.eqb_spec c h) as [->|Hne]; [|reflexivity]. now rewrite (lslots_none G h O Hnin).
    + intros Hpos. rewrite (lslots_none G h O Hnin) in Hpos. lia.
Qed.

(* the loop of Gate.ShortCircuit when every consumer slot on O is listed *)
Lemma sc_fold rank g O o : forall l G,
  SI rank G -> In g (gorder G) -> nO (gn G g) = O -> In o (inputs_of (gn G g)) ->
  (forall c, In c (gorder G) -> lslots G c O <= count_occ Nat.eq_dec l c) ->
  (forall c, In c l -> In c (gorder G)) ->
  let G' := fold_left (fun G c => replace_input G c O o) l G in
  SI rank G' /\ fr G G' /\ gn G' g = gn G g /\
  (forall c, In c (gorder G) -> lslots G' c O = 0).
Proof.
  induction l as [|h l IH]; intros G SIG Hg HO Ho Q Hl; simpl.
  - split; auto. split; [apply fr_refl|]. split; auto.
    intros c Hc. specialize (Q c Hc). simpl in Q. lia.
  - assert (Hh : In h (gorder G)) by (apply Hl; now left).
    destruct (sc_step rank g O o G h SIG Hg HO Ho Hh) as (SI1 & (F1 & F2 & F3) & N1 & L1 & _).
    destruct (IH (replace_input G h O o)) as (SI' & F' & N' & Z'); auto.
    + now rewrite F1.
    + now rewrite N1.
    + now rewrite N1.
    + intros c Hc. rewrite F1 in Hc. rewrite (L1 c). generalize (Q c Hc).
      rewrite count_occ_cons_eqb. destruct (Nat.eqb_spec c h) as [Ec|_]; [subst c|]; lia.
    + intros c Hc. rewrite F1. apply Hl. now right.
    + split; auto. split; [eapply fr_trans; eauto; repeat split; auto|].
      split; [congruence|]. intros c Hc. apply Z'. now rewrite F1.
Qed.

Lemma short_circuit_SI rank G g o :
  SI rank G -> In g (gorder G) -> In o (inputs_of (gn G g)) -> SI rank (short_circuit G g o).
Proof.
  intros SIG Hg Ho. unfold short_circuit.
  destruct (wout (gw G (nO (gn G g)))); auto.
  destruct SIG as [B S].
  destruct (sc_fold rank g (nO (gn G g)) o (wouts (gw G (nO (gn G g)))) G (conj B S) Hg eq_refl Ho)
    as ((B' & S') & F' & _ & Z').
  - intros c Hc. now apply (bk_lists _ B).
  - intros c Hc. eapply (st_entries _ _ S); eauto.
  - split.
    + apply disconnect_BK; auto. intros c Hc. apply Z'. destruct F' as (E & _). now rewrite <- E.
    + now apply disconnect_ST.
Qed.

Lemma cp_action_valued o a b :
  (cp_action o a b = ActZero \/ cp_action o a b = ActOne) ->
  a <> Unknown \/ (is_inv o = false /\ b <> Unknown).
Proof.
  destruct o, a, b; simpl; intros [H|H]; try discriminate;
    try (left; discriminate); right; split; auto; discriminate.
Qed.

Lemma cp_switch_SI rank G g : SI rank G -> In g (gorder G) -> SI rank (cp_switch G g).
Proof.
  intros SIG Hg. unfold cp_switch.
  pose proof SIG as [B S].
  set (act := cp_action _ _ _).
  assert (Val : forall v, act = ActZero \/ act = ActOne -> SI rank (set_value G (nO (gn G g)) v)).
  { intros v Hact. split; [now apply set_value_BK|]. apply set_value_ST; auto.
    intros k Hk. destruct (cp_action_valued _ _ _ Hact) as [Ha|[Hi Hb]].
    - pose proof (st_vrank _ _ S _ k Ha Hk).
      pose proof (st_rank _ _ S g Hg _ (inputs_of_A _)). lia.
    - rewrite Hi in Hb. pose proof (st_vrank _ _ S _ k Hb Hk).
      pose proof (st_rank _ _ S g Hg _ (inputs_of_B _ Hi)). lia. }
  destruct act eqn:E; auto.
  - apply short_circuit_SI; auto. apply inputs_of_B. exact (cp_action_scb _ _ _ E).
  - apply short_circuit_SI; auto. apply inputs_of_A.
Qed.

(* a substitution block moves an input of g to a constant wire: the constant
   is not an output, sits below every valued wire and is available *)
Lemma subst_SI sa rank G g : SI rank G -> In g (gorder G) -> consts_ok G -> SI rank (subst sa G g).
Proof.
  intros SIG Hg C. pose proof SIG as [B S].
  destruct (subst_spec sa G g C) as [->|(k & Hk & _ & Hv & M & _)]; auto.
  destruct (st_cavail _ _ S k Hk) as (c1 & c2 & c3).
  pose proof (st_vrank _ _ S _ k Hv Hk).
  pose proof (st_rank _ _ S g Hg _ (moved_from_input M)).
  eapply moved_SI; eauto. lia.
Qed.

Lemma cp_step_SI rank x v G g :
  live G g -> Inv x v G -> SI rank G -> SI rank (cp_step G g).
Proof.
  intros Lg HI SIG. rewrite cp_step_eq.
  pose proof (cp_switch_Inv x v G g Lg HI) as I1.
  pose proof (subst_Inv true x v _ g I1) as I2.
  assert (Hg1 : In g (gorder (cp_switch G g))).
  { rewrite (proj1 (cp_switch_frame fr fr_frame G g)). apply Lg. }
  assert (Hg2 : In g (gorder (subst true (cp_switch G g) g))).
  { now rewrite (proj1 (subst_frame fr fr_frame true _ g (Inv_consts _ _ _ I1))). }
  apply subst_SI; [|exact Hg2|exact (Inv_consts _ _ _ I2)].
  apply subst_SI; [|exact Hg1|exact (Inv_consts _ _ _ I1)].
  apply cp_switch_SI; [exact SIG|apply Lg].
Qed.

Theorem const_propagate_SI rank x v G :
  SI rank G -> Inv x v G ->
  SI rank (const_propagate G) /\ fr G (const_propagate G).
Proof.
  intros S I.
  assert (Hl : forall g, In g (gorder G) -> live G g) by (intros g; apply (ST_live rank), S).
  split; [|now apply (cp_fold_frame fr fr_frame x v)].
  destruct (cp_fold_sweep (fun G G' => SI rank G -> SI rank G') x v) with (l := gorder G) (G := G)
    as (_ & _ & _ & K); auto.
  intros G1 g L1 I1. now apply (cp_step_SI rank x v).
Qed.

(* the producer links as ShortCircuitXORZero leaves them: exact, or pointing
   to a gate whose output is a fresh unused wire, or nobody left to look *)
Definition CL (L : list nat) (G : graph) : Prop :=
  forall w p, winp (gw G w) = Some p ->
    In p (gorder G) /\
    (nO (gn G p) = w \/ wnum (gw G (nO (gn G p))) = 0 \/
     forall h, In h L -> ~ In w (inputs_of (gn G h))).

Definition rank_ext (rank : nat -> nat) (f v : nat) : nat -> nat :=
  fun w => if Nat.eqb w f then v else rank w.

(* [CL] at one wire *)
Definition clp (L : list nat) (G : graph) (w : nat) : Prop :=
  forall p, winp (gw G w) = Some p ->
    In p (gorder G) /\
    (nO (gn G p) = w \/ wnum (gw G (nO (gn G p))) = 0 \/
     forall h, In h L -> ~ In w (inputs_of (gn G h))).

(* the gates read what they read before, and nothing reads the fresh wire *)
Lemma fire_BK G g p :
  (forall c, In c (gorder G) -> forall w, In w (inputs_of (gn G c)) -> w < gnw G) ->
  BK G -> BK (fire G g p).
Proof.
  intros R B. destruct (fire_eqs G g p) as (Shape & Wold & Wf & _).
  assert (LSf : forall c, In c (gorder G) -> lslots G c (gnw G) = 0).
  { intros c Hc. apply lslots_none. intros H. specialize (R c Hc _ H). lia. }
  assert (Uf : forall w, uses (fire G g p) w = uses G w).
  { intros w. unfold uses. apply sum_same. intros c _. now apply lslots_shape. }
  constructor.
  - apply (bk_nodup _ B).
  - apply (bk_range _ B).
  - intros c w Hc. rewrite (lslots_shape G _ c w Shape).
    destruct (Nat.eq_dec w (gnw G)) as [->|Hw].
    + rewrite (LSf c Hc). lia.
    + rewrite (Wold w Hw). now apply (bk_lists _ B).
  - intros w. rewrite Uf. destruct (Nat.eq_dec w (gnw G)) as [->|Hw].
    + rewrite (uses_zero G _ LSf). lia.
    + rewrite (Wold w Hw). apply (bk_cnt _ B).
  - intros w c Hc Hd. destruct (Nat.eq_dec w (gnw G)) as [->|Hw].
    + rewrite Wf in Hc. destruct Hc.
    + rewrite (Wold w Hw) in Hc. rewrite (proj2 (proj2 (proj2 (Shape c)))) in Hd.
      eapply (bk_entries _ B); eauto.
Qed.

Lemma fire_TV G g p :
  (forall w, In w (gins G) -> w < gnw G) -> (forall o, In o (gouts G) -> o < gnw G) ->
  TV G -> TV (fire G g p).
Proof.
  intros Ri Ro T. destruct (fire_eqs G g p) as (_ & Wold & Wf & Nv).
  constructor.
  - intros w. destruct (Nat.eq_dec w (gnw G)) as [->|Hw]; [now rewrite Wf|].
    rewrite (Wold w Hw). apply (tv_fresh _ T).
  - intros i. rewrite Nv. apply (tv_unvis _ T).
  - apply (tv_ins_nodup _ T).
  - intros w Hw. change (In w (gins G)) in Hw.
    rewrite (Wold w) by (specialize (Ri w Hw); lia). now apply (tv_ins_flag _ T).
  - apply (tv_outs_nodup _ T).
  - intros w. change (gouts (fire G g p)) with (gouts G).
    destruct (Nat.eq_dec w (gnw G)) as [->|Hw].
    + rewrite Wf. split; [discriminate|]. intros Hin. specialize (Ro _ Hin). lia.
    + rewrite (Wold w Hw). apply (tv_outs_flag _ T).
Qed.

(* a firing on gate g whose input oin is written by p and read by nobody else *)
Section Fire.
  Variables (rank : nat -> nat) (G : graph) (g oin p : nat).
  Hypothesis HB : BK G.
  Hypothesis HS : ST0 rank G.
  Hypothesis Hg : In g (gorder G).
  Hypothesis Hoin : In oin (inputs_of (gn G g)).
  Hypothesis Hp : In p (gorder G).
  Hypothesis HOp : nO (gn G p) = oin.
  Hypothesis Hn1 : wnum (gw G oin) = 1.

  Lemma fire_pg : p <> g.
  Proof. intros ->. pose proof (s0_rank _ _ HS g Hg oin Hoin) as R. rewrite HOp in R. lia. Qed.

  Lemma fire_only c : In c (gorder G) -> c <> g -> ~ In oin (inputs_of (gn G c)).
  Proof.
    intros Hc Hne Hin.
    pose proof (bk_cnt _ HB oin) as U. rewrite Hn1 in U. unfold uses in U.
    pose proof (sum_two (gorder G) (fun i => lslots G i oin) g c (bk_nodup _ HB) Hg Hc
                  (fun E => Hne (eq_sym E))) as T. simpl in T.
    pose proof (proj2 (lslots_pos G g oin) (conj (s0_nodead _ _ HS g Hg) Hoin)).
    pose proof (proj2 (lslots_pos G c oin) (conj (s0_nodead _ _ HS c Hc) Hin)).
    lia.
  Qed.

  (* the fresh wire takes the rank of g's old output *)
  Lemma fire_ST0 : ST0 (rank_ext rank (gnw G) (rank (nO (gn G g)))) (fire G g p).
  Proof.
    destruct (fire_eqs G g p) as (Shape & Wold & Wf & _).
    pose proof (fun c => same_shape_inputs G (fire G g p) c Shape) as Inp.
    pose proof (fire_out G g p) as Out.
    assert (Olt : forall c, In c (gorder G) -> nO (gn G c) < gnw G).
    { intros c Hc. exact (proj1 (s0_rng _ _ HS c Hc)). }
    assert (Ilt : forall c w, In c (gorder G) -> In w (inputs_of (gn G c)) -> w < gnw G).
    { intros c w Hc. exact (proj2 (s0_rng _ _ HS c Hc) w). }
    assert (Rk : forall w, w < gnw G -> rank_ext rank (gnw G) (rank (nO (gn G g))) w = rank w).
    { intros w Hw. unfold rank_ext. destruct (Nat.eqb_spec w (gnw G)); [lia|reflexivity]. }
    pose proof (Olt g Hg) as OltG.
    pose proof (s0_rank _ _ HS g Hg oin Hoin) as RkG.
    constructor.
    - intros c Hc. rewrite (proj2 (proj2 (proj2 (Shape c)))). now apply (s0_nodead _ _ HS).
    - intros c Hc w Hw. rewrite Inp in Hw.
      rewrite Wold by (specialize (Ilt c w Hc Hw); lia). now apply (s0_nocons _ _ HS c).
    - intros c Hc Hin. change (In (nO (gn (fire G g p) c)) (gins G)) in Hin.
      destruct (Out c) as [[-> E]|[(_ & -> & E)|(_ & _ & E)]]; rewrite E in Hin.
      + pose proof (s0_rng_in _ _ HS _ Hin). lia.
      + apply (s0_prod _ _ HS g Hg Hin).
      + apply (s0_prod _ _ HS c Hc Hin).
    - intros c1 c2 H1 H2 E. pose proof (Olt c1 H1). pose proof (Olt c2 H2).
      destruct (Out c1) as [[-> E1]|[(N1 & -> & E1)|(N1 & _ & E1)]],
               (Out c2) as [[-> E2]|[(N2 & -> & E2)|(N2 & _ & E2)]];
        rewrite E1, ?E2 in E; auto; try lia.
      + destruct N2. symmetry. now apply (s0_uniq _ _ HS).
      + destruct N1. now apply (s0_uniq _ _ HS).
      + now apply (s0_uniq _ _ HS).
    - intros c Hc w Hw. rewrite Inp in Hw.
      rewrite (Rk w (Ilt c w Hc Hw)). pose proof (s0_rank _ _ HS c Hc w Hw) as R.
      destruct (Out c) as [[-> E]|[(_ & -> & E)|(_ & _ & E)]]; rewrite E.
      + unfold rank_ext. now rewrite Nat.eqb_refl.
      + rewrite (Rk _ OltG). rewrite HOp in R. lia.
      + now rewrite (Rk _ (Olt c Hc)).
    - (* the outputs stay available: g's old output is now written by p, whose
         inputs are available because oin is *)
      intros o Ho. apply (avail_by_rank rank (fun w => w <> oin) G); auto.
      + intros c [Lc Dc] Hin Hne.
        destruct (Out c) as [[-> E]|[(_ & -> & E)|(Ng & _ & E)]].
        * exists p. split; [split; [exact Hp|]|split; [exact (fire_out_p G g p fire_pg)|]].
          { rewrite (proj2 (proj2 (proj2 (Shape p)))). now apply (s0_nodead _ _ HS). }
          intros w Hw. rewrite Inp in Hw.
          pose proof (s0_rank _ _ HS p Hp w Hw) as R. rewrite HOp in R.
          split; [|split; [intros ->; lia|lia]].
          apply (avail_input rank G p w HS Hp Hw). rewrite HOp. now apply Hin.
        * congruence.
        * exists c. split; [split; [exact Lc|now rewrite E]|]. rewrite E. split; [reflexivity|].
          intros w Hw. split; [now apply Hin|]. split; [|now apply (s0_rank _ _ HS c)].
          intros ->. apply (fire_only c Lc Ng Hw).
      + now apply (s0_avail _ _ HS).
      + intros ->. pose proof (s0_nocons _ _ HS g Hg oin Hoin).
        destruct (s0_oflag _ _ HS oin Ho). congruence.
    - intros c Hc. change (gnw (fire G g p)) with (S (gnw G)). split.
      + pose proof (Olt c Hc).
        destruct (Out c) as [[-> E]|[(_ & -> & E)|(_ & _ & E)]]; rewrite E; lia.
      + intros w Hw. rewrite Inp in Hw. specialize (Ilt c w Hc Hw). lia.
    - intros w Hw. change (gnw (fire G g p)) with (S (gnw G)).
      pose proof (s0_rng_in _ _ HS w Hw). lia.
    - intros w c Hc. destruct (Nat.eq_dec w (gnw G)) as [->|Hw].
      + rewrite Wf in Hc. destruct Hc.
      + rewrite (Wold w Hw) in Hc. eapply (s0_entries _ _ HS); eauto.
    - intros o Ho. change (gnw (fire G g p)) with (S (gnw G)).
      destruct (s0_oflag _ _ HS o Ho) as [a b]. rewrite (Wold o) by lia. split; auto.
  Qed.

  Lemma fire_clp L w :
    (forall h, In h L -> In h (gorder G)) -> (w = oin -> ~ In g L) ->
    clp L G w -> clp L (fire G g p) w.
  Proof.
    intros HL HgL C q Hq.
    destruct (fire_eqs G g p) as (Shape & Wold & Wf & _).
    destruct (Nat.eq_dec w (gnw G)) as [->|Hw]; [rewrite Wf in Hq; discriminate|].
    rewrite (Wold w Hw) in Hq. destruct (C q Hq) as [Hqo D]. split; [exact Hqo|].
    destruct (fire_out G g p q) as [[-> E]|[(_ & -> & E)|(_ & _ & E)]]; rewrite E.
    - (* g now writes the fresh wire, which nobody reads *)
      right. left. now rewrite Wf.
    - (* p now writes g's old output; its old output oin was read by g alone *)
      right. right. intros h Hh Hin. rewrite (same_shape_inputs G _ h Shape) in Hin.
      destruct D as [D|[D|D]].
      + rewrite HOp in D. subst w. apply (fire_only h (HL h Hh)); auto. intros ->. now apply HgL.
      + rewrite HOp in D. lia.
      + apply (D h Hh Hin).
    - rewrite Wold by (pose proof (proj1 (s0_rng _ _ HS q Hqo)); lia).
      destruct D as [D|[D|D]]; auto.
      right. right. intros h Hh Hin. rewrite (same_shape_inputs G _ h Shape) in Hin.
      apply (D h Hh Hin).
  Qed.
End Fire.

Lemma clp_weaken L L' G w : (forall h, In h L' -> In h L) -> clp L G w -> clp L' G w.
Proof.
  intros H C p Hp. destruct (C p Hp) as [a [d|[d|d]]]; (split; [exact a|]); auto;
    try (right; right; intros h Hh; apply d; now apply H).
Qed.

Lemma scx_try_BK_ST0 rank G g zin oin :
  BK G -> ST0 rank G -> In g (gorder G) -> In oin (inputs_of (gn G g)) ->
  link_ok G zin oin -> (forall p, winp (gw G oin) = Some p -> In p (gorder G)) ->
  let G' := scx_try G g zin oin in
  exists rank', BK G' /\ ST0 rank' G' /\
    (forall L w, (forall h, In h L -> In h (gorder G)) -> (w = oin -> ~ In g L) ->
                 clp L G w -> clp L G' w) /\
    gorder G' = gorder G /\ same_shape G G' /\
    (G' = G \/ slots (gn G g) oin = 1) /\ (TV G -> TV G').
Proof.
  intros B S Hg Hoin LK Hpo. simpl.
  destruct (scx_try_cases G g zin oin) as [->|(p & EZ & EP & E1 & ->)].
  { exists rank. split; [exact B|]. split; [exact S|]. split; [auto|]. split; [auto|].
    split; [intros i; auto|]. split; auto. }
  pose proof (LK p EZ EP E1) as Hlink. rewrite Hlink in E1. pose proof (Hpo p EP) as Hp.
  exists (rank_ext rank (gnw G) (rank (nO (gn G g)))).
  split; [apply fire_BK; auto; intros c Hc; apply (s0_rng _ _ S c Hc)|].
  split; [now apply (fire_ST0 rank G g oin p)|].
  split; [intros L w; now apply (fire_clp rank G g oin p)|].
  split; [reflexivity|]. split; [apply fire_eqs|]. split.
  - (* g holds exactly one slot on oin *)
    right. pose proof (bk_cnt _ B oin) as U. rewrite E1 in U. pose proof (uses_ge G g oin Hg).
    pose proof (proj2 (lslots_pos G g oin) (conj (s0_nodead _ _ S g Hg) Hoin)) as P.
    rewrite (lslots_live _ _ _ (s0_nodead _ _ S g Hg)) in *. lia.
  - apply fire_TV; [apply (s0_rng_in _ _ S)|intros o Ho; now apply (s0_oflag _ _ S o Ho)].
Qed.

Lemma link_from_clp L G g zin oin :
  In g L -> In oin (inputs_of (gn G g)) -> clp L G oin -> link_ok G zin oin.
Proof.
  intros Hg Hin C p _ Hp Hn. destruct (C p Hp) as [_ [d|[d|d]]]; auto; [lia|].
  exfalso. apply (d g Hg Hin).
Qed.

Lemma scx_fold_BK_ST0 l : forall G rank,
  NoDup l -> (forall h, In h l -> In h (gorder G)) ->
  BK G -> ST0 rank G -> (forall w, clp l G w) ->
  links_exact G l /\
  exists rank', BK (fold_left scx_step l G) /\ ST0 rank' (fold_left scx_step l G) /\
                gorder (fold_left scx_step l G) = gorder G /\
                (TV G -> TV (fold_left scx_step l G)).
Proof.
  induction l as [|g l IH]; intros G rank ND Hl B S C; simpl.
  - split; auto. exists rank. auto.
  - inversion ND as [|? ? Hgl ND']; subst.
    assert (Hg : In g (gorder G)) by (apply Hl; now left).
    assert (Hl' : forall h, In h l -> In h (gorder G)) by (intros h Hh; apply Hl; now right).
    assert (Cl' : forall G0, (forall w, clp (g :: l) G0 w) -> forall w, clp l G0 w).
    { intros G0 H w. apply (clp_weaken (g :: l)); auto. intros h Hh. now right. }
    destruct (is_xor (nop (gn G g))) eqn:EX.
    + assert (Hop : is_inv (nop (gn G g)) = false) by (destruct (nop (gn G g)); simpl in *; congruence).
      set (A := nA (gn G g)) in *. set (Bw := nB (gn G g)) in *.
      assert (HA : In A (inputs_of (gn G g))) by apply inputs_of_A.
      assert (HB : In Bw (inputs_of (gn G g))) by (now apply inputs_of_B).
      assert (K1 : link_ok G A Bw) by (apply (link_from_clp (g :: l) G g); auto; now left).
      destruct (scx_try_BK_ST0 rank G g A Bw B S Hg HB K1) as (r1 & B1 & S1 & T1 & O1 & Sh1 & F1 & V1).
      { intros p Hp. apply (C Bw p Hp). }
      set (G1 := scx_try G g A Bw) in *.
      destruct (Sh1 g) as (s1 & s2 & s3 & s4). fold A in s2. fold Bw in s3.
      assert (Hg1 : In g (gorder G1)) by (now rewrite O1).
      assert (HA1 : In A (inputs_of (gn G1 g))) by (now rewrite (same_shape_inputs G G1 g Sh1)).
      (* if the first try fired, g holds one slot on Bw, so A is another wire *)
      assert (CA1 : clp (g :: l) G1 A).
      { destruct F1 as [E|E].
        - rewrite E. apply C.
        - apply T1; auto. intros EAB. exfalso.
          unfold slots, slotA, slotB in E. rewrite Hop in E. fold A in E. fold Bw in E.
          rewrite EAB, Nat.eqb_refl in E. simpl in E. lia. }
      assert (K2 : link_ok G1 Bw A) by (apply (link_from_clp (g :: l) G1 g); auto; now left).
      destruct (scx_try_BK_ST0 r1 G1 g Bw A B1 S1 Hg1 HA1 K2) as (r2 & B2 & S2 & T2 & O2 & Sh2 & F2 & V2).
      { intros p Hp. apply (CA1 p Hp). }
      set (G2 := scx_try G1 g Bw A) in *.
      assert (E : scx_step G g = G2).
      { unfold scx_step. rewrite EX. fold A. fold Bw. fold G1. now rewrite s2, s3. }
      rewrite E.
      destruct (IH G2 r2 ND') as (LE & r3 & B3 & S3 & O3 & V3); auto.
      * intros h Hh. rewrite O2, O1. now apply Hl'.
      * intros w. apply T2; [intros h Hh; rewrite O1; now apply Hl'|intros _; exact Hgl|].
        apply T1; [exact Hl'|intros _; exact Hgl|]. apply Cl'. exact C.
      * split; [split; [intros _; split; auto|exact LE]|].
        exists r3. split; auto. split; auto. split; [now rewrite O3, O2, O1|auto].
    + assert (E : scx_step G g = G) by (unfold scx_step; now rewrite EX). rewrite E.
      destruct (IH G rank ND' Hl' B S (Cl' G C)) as (LE & r3 & B3 & S3 & O3 & V3).
      split; [split; [intros H; discriminate|exact LE]|]. exists r3. auto.
Qed.

(* the rest of the builder's bookkeeping: exact-enough lists and counters,
   producer links and ranges (the acyclicity witness is derived from the
   construction order, [fresh_rank]) *)
Record wfx (G : graph) : Prop := {
  x_nodup : NoDup (gorder G);
  x_lists : forall c w, In c (gorder G) ->
            slots (gn G c) w <= count_occ Nat.eq_dec (wouts (gw G w)) c;
  x_cnt : forall w, uses G w <= wnum (gw G w);
  x_winp1 : forall h, In h (gorder G) -> winp (gw G (nO (gn G h))) = Some h;
  x_winp2 : forall w p, winp (gw G w) = Some p -> In p (gorder G) /\ nO (gn G p) = w;
  x_rng : forall c, In c (gorder G) ->
          nO (gn G c) < gnw G /\ forall w, In w (inputs_of (gn G c)) -> w < gnw G;
  x_rng_in : forall w, In w (gins G) -> w < gnw G;
  x_rng_out : forall o, In o (gouts G) -> o < gnw G;
  x_const : forall k, isconst G k -> wout (gw G k) = false /\ k < gnw G }.

Fixpoint first_prod (G : graph) (l : list nat) (w : nat) : option nat :=
  match l with
  | [] => None
  | g :: t => if Nat.eqb (nO (gn G g)) w then Some 0 else option_map S (first_prod G t w)
  end.

Definition base_rank (G : graph) (w : nat) : nat :=
  match first_prod G (gorder G) w with Some i => S i | None => 0 end.

Lemma first_prod_none G l w :
  (forall g, In g l -> nO (gn G g) <> w) -> first_prod G l w = None.
Proof.
  induction l as [|a l IH]; simpl; intros H; auto.
  destruct (Nat.eqb_spec (nO (gn G a)) w) as [E|E]; [exfalso; apply (H a); auto|].
  rewrite IH; auto.
Qed.

Lemma first_prod_here G l1 c l2 :
  (forall p, In p l1 -> nO (gn G p) <> nO (gn G c)) ->
  first_prod G (l1 ++ c :: l2) (nO (gn G c)) = Some (length l1).
Proof.
  induction l1 as [|a l1 IH]; simpl; intros H.
  - now rewrite Nat.eqb_refl.
  - destruct (Nat.eqb_spec (nO (gn G a)) (nO (gn G c))) as [E|E]; [exfalso; apply (H a); auto|].
    rewrite IH; auto.
Qed.

Lemma first_prod_before G l1 l2 p w :
  In p l1 -> nO (gn G p) = w ->
  exists i, first_prod G (l1 ++ l2) w = Some i /\ i < length l1.
Proof.
  induction l1 as [|a l1 IH]; simpl; intros Hp E; [destruct Hp|].
  destruct (Nat.eqb_spec (nO (gn G a)) w) as [Ea|Ea].
  - exists 0. split; auto. lia.
  - destruct Hp as [->|Hp]; [contradiction|].
    destruct (IH Hp E) as (i & Hi & Hlt). exists (S i). rewrite Hi. simpl. split; auto. lia.
Qed.

Lemma base_rank_edge0 G : wfg0 G ->
  forall c, In c (gorder G) -> forall w, In w (inputs_of (gn G c)) ->
  base_rank G w < base_rank G (nO (gn G c)).
Proof.
  intros WF c Hc w Hw. destruct (in_split _ _ Hc) as (l1 & l2 & E).
  destruct (w0_topo _ WF l1 c l2 E) as (Tin & Tnot & Tdist).
  unfold base_rank. rewrite E. rewrite (first_prod_here G l1 c l2 Tdist).
  destruct (Tin w Hw) as [Hi|(p & Hp & Ep)].
  - rewrite first_prod_none; [lia|]. intros g Hg Eg. rewrite <- E in Hg.
    destruct (in_split _ _ Hg) as (a & b & E').
    destruct (w0_topo _ WF a g b E') as (_ & N & _). apply N. now rewrite Eg.
  - destruct (first_prod_before G l1 (c :: l2) p w Hp Ep) as (i & Hi & Hlt). rewrite Hi. lia.
Qed.

(* both constant wires are put at the lower of their two positions *)
Definition fresh_rank (G : graph) (z o : nat) : nat -> nat :=
  fun w => if Nat.eqb w z || Nat.eqb w o
           then Nat.min (base_rank G z) (base_rank G o) else base_rank G w.

Lemma fresh_rank_ok G : wfg G ->
  exists rank,
    (forall c, In c (gorder G) -> forall w, In w (inputs_of (gn G c)) -> rank w < rank (nO (gn G c))) /\
    (forall k k', isconst G k -> isconst G k' -> rank k = rank k').
Proof.
  intros WF.
  destruct (wf_consts _ WF) as (z & o & iw & gz & go & gi & Hz & Ho & Vz & Vo & Hall &
                                Li & Oi & Ai & Wi & Lz & Oz & Az & Bz & Wz & Lo & Oo & Ao & Bo & Wo).
  exists (fresh_rank G z o).
  pose proof (base_rank_edge0 G (wfg_wfg0 G WF)) as BE.
  assert (Le : forall w, fresh_rank G z o w <= base_rank G w).
  { intros w. unfold fresh_rank.
    destruct (Nat.eqb_spec w z) as [->|Nz]; simpl; [lia|].
    destruct (Nat.eqb_spec w o) as [->|No]; simpl; lia. }
  assert (InZ : forall w, In w (inputs_of (gn G gz)) -> base_rank G w < base_rank G z).
  { intros w Hw. rewrite <- Wz. apply BE; auto. apply Lz. }
  assert (InO : forall w, In w (inputs_of (gn G go)) -> base_rank G w < base_rank G o).
  { intros w Hw. rewrite <- Wo. apply BE; auto. apply Lo. }
  assert (Same : inputs_of (gn G gz) = inputs_of (gn G go)).
  { unfold inputs_of. rewrite Oz, Oo, Az, Ao, Bz, Bo. reflexivity. }
  split.
  - intros c Hc w Hw. pose proof (BE c Hc w Hw) as E. pose proof (Le w) as L.
    unfold fresh_rank at 2.
    destruct (Nat.eqb_spec (nO (gn G c)) z) as [Ez|Nz]; simpl.
    + (* c writes the zero wire: c = gz *)
      assert (c = gz) by (apply (wfg0_uniq G (wfg_wfg0 G WF)); auto; [apply Lz|congruence]).
      subst c. pose proof (InZ w Hw). rewrite Same in Hw. pose proof (InO w Hw). lia.
    + destruct (Nat.eqb_spec (nO (gn G c)) o) as [Eo|No]; simpl; [|lia].
      assert (c = go) by (apply (wfg0_uniq G (wfg_wfg0 G WF)); auto; [apply Lo|congruence]).
      subst c. pose proof (InO w Hw). rewrite <- Same in Hw. pose proof (InZ w Hw). lia.
  - intros k k' [Hk|Hk] [Hk'|Hk']; rewrite ?Hz, ?Ho in *; inversion Hk; inversion Hk'; subst;
      unfold fresh_rank; rewrite ?Nat.eqb_refl, ?orb_true_r; simpl; reflexivity.
Qed.

Lemma fresh_BK0 G : wfg0 G -> wfb G -> wfx G -> BK G.
Proof.
  intros WF FB X. constructor.
  - apply (x_nodup _ X).
  - apply (fb_range _ FB).
  - intros c w Hc. rewrite (lslots_live G c w (w0_nodead _ WF c Hc)). now apply (x_lists _ X).
  - apply (x_cnt _ X).
  - intros w c Hc _. eapply (fb_entries _ FB); eauto.
Qed.

Lemma fresh_ST0 rank G : wfg0 G -> wfb G -> wfx G ->
  (forall c, In c (gorder G) -> forall w, In w (inputs_of (gn G c)) -> rank w < rank (nO (gn G c))) ->
  ST0 rank G.
Proof.
  intros WF FB X R. pose proof (fresh_cwf0 G WF FB) as CW.
  assert (LV : forall c, In c (gorder G) -> live G c).
  { intros c Hc. split; auto. now apply (w0_nodead _ WF). }
  constructor.
  - apply (w0_nodead _ WF).
  - apply (fb_noconsume _ FB).
  - intros c Hc. apply (c_prod _ CW c (LV c Hc)).
  - now apply wfg0_uniq.
  - exact R.
  - apply (c_avail _ CW).
  - apply (x_rng _ X).
  - apply (x_rng_in _ X).
  - apply (fb_entries _ FB).
  - intros o Ho. split; [now apply (fb_outs_flag _ FB)|now apply (x_rng_out _ X)].
Qed.

Lemma ST0_ST rank G :
  ST0 rank G ->
  (forall w k, wv (gw G w) <> Unknown -> isconst G k -> rank k <= rank w) ->
  (forall k, isconst G k -> avail G k /\ wout (gw G k) = false /\ k < gnw G) ->
  (forall h, In h (gorder G) -> winp (gw G (nO (gn G h))) = Some h) ->
  (forall w p, winp (gw G w) = Some p -> In p (gorder G) /\ nO (gn G p) = w) ->
  ST rank G.
Proof. intros S H1 H2 H3 H4. constructor; auto; apply S. Qed.

Lemma fresh_SI G : wfg G -> wfb G -> wfx G -> exists rank, SI rank G.
Proof.
  intros WF FB X. destruct (fresh_rank_ok G WF) as (rank & R1 & R2). exists rank.
  pose proof (wfg_wfg0 G WF) as WF0.
  destruct (wf_consts _ WF) as (z & o & iw & gz & go & gi & Hz & Ho & Vz & Vo & Hall & _ & _ & _ & _ &
                                Lz & _ & _ & _ & Wz & Lo & _ & _ & _ & Wo).
  split; [now apply fresh_BK0|].
  apply ST0_ST; [now apply fresh_ST0| | |apply (x_winp1 _ X)|apply (x_winp2 _ X)].
  - intros w k Hv Hk. destruct (Hall w Hv) as [-> | ->].
    + rewrite (R2 k z Hk); auto. now left.
    + rewrite (R2 k o Hk); auto. now right.
  - intros k Hk. destruct (x_const _ X k Hk) as [a b]. split; [|auto].
    destruct Hk as [Hk|Hk].
    + rewrite Hz in Hk. inversion Hk; subst k. rewrite <- Wz. apply (wfg0_avail G WF0), Lz.
    + rewrite Ho in Hk. inversion Hk; subst k. rewrite <- Wo. apply (wfg0_avail G WF0), Lo.
Qed.

Lemma fresh_rewritten G :
  wfg G -> wfb G -> wfx G ->
  let G1 := const_propagate G in
  links_exact G1 (gorder G1) /\
  exists rank, BK (short_circuit_xor_zero G1) /\ ST0 rank (short_circuit_xor_zero G1) /\
               TV (short_circuit_xor_zero G1).
Proof.
  intros WF FB X G1. destruct (fresh_SI G WF FB X) as (rank & SIG).
  pose proof (geval_sat G WF []) as I0.
  destruct (const_propagate_SI rank [] _ G SIG I0) as ((B1 & S1) & _).
  pose proof (tvs_TV _ _ (tvs_const_propagate [] _ G (wf_nodead _ WF) I0)
                (fresh_TV0 G (wfg_wfg0 G WF) FB)) as T1.
  fold G1 in B1, S1, T1.
  destruct (scx_fold_BK_ST0 (gorder G1) G1 rank) as (LE & r & B2 & S2 & _ & V2); auto.
  - apply (bk_nodup _ B1).
  - now apply ST_ST0.
  - intros w p Hp. destruct (st_winp2 _ _ S1 w p Hp) as [a b]. split; auto.
  - split; [exact LE|]. exists r. auto.
Qed.

(* C09_rewriting_invariant: this and [rewriting_invariant].  The [links_exact]
   hypothesis of [short_circuit_xor_zero_sat] is derived on every freshly built graph *)
Theorem links_exact_derived G :
  wfg G -> wfb G -> wfx G ->
  links_exact (const_propagate G) (gorder (const_propagate G)).
Proof. intros WF FB X. apply (fresh_rewritten G WF FB X). Qed.

Theorem rewriting_invariant G :
  wfg G -> wfb G -> wfx G ->
  let G2 := short_circuit_xor_zero (const_propagate G) in
  BK G2 /\ exists rank, ST0 rank G2.
Proof.
  intros WF FB X. destruct (fresh_rewritten G WF FB X) as (_ & r & B2 & S2 & _).
  split; eauto.
Qed.

Lemma wfx_ranged G : wfx G -> ranged G.
Proof.
  intros X. split; [|split; [|split]].
  - intros gid [Hg _]. apply (x_rng _ X gid Hg).
  - apply (x_rng_in _ X).
  - intros z Hz. apply (x_const _ X). now left.
  - intros o Ho. apply (x_const _ X). now right.
Qed.

(* C09_short_circuit_pipeline: [short_circuit_xor_zero_sat] with its hypotheses discharged *)
Theorem short_circuit_sat_wf G x :
  wfg G -> wfb G -> wfx G ->
  let G1 := const_propagate G in
  exists v', Inv x v' (short_circuit_xor_zero G1) /\
             forall w, w < gnw G1 -> v' w = geval G x w.
Proof.
  intros WF FB X G1.
  pose proof (geval_sat G WF x) as I0.
  destruct (const_propagate_sat x _ G (wf_nodead _ WF) I0) as [I1 S1]. fold G1 in I1, S1.
  apply short_circuit_xor_zero_sat; auto.
  - intros gid Hin. destruct S1 as [So Sd]. rewrite Sd. apply (wf_nodead _ WF). now rewrite <- So.
  - apply const_propagate_ranged; auto. now apply wfx_ranged.
  - now apply links_exact_derived.
Qed.

(* Gate.ShortCircuit moves EVERY consumer slot of the bypassed wire, in
   particular both inputs of a consumer op(w, w): such a gate is listed twice
   in w's output gates (Allocator.BinaryGate calls AddOutput for a and for b)
   and ForEachOutput calls Gate.ReplaceInput once per entry (A first, then B). *)
Theorem short_circuit_moves_every_slot rank G g o :
  SI rank G -> In g (gorder G) -> In o (inputs_of (gn G g)) ->
  wout (gw G (nO (gn G g))) = false ->
  forall c, In c (gorder G) -> lslots (short_circuit G g o) c (nO (gn G g)) = 0.
Proof.
  intros [B S] Hg Ho Hf c Hc. unfold short_circuit. rewrite Hf.
  destruct (sc_fold rank g (nO (gn G g)) o (wouts (gw G (nO (gn G g)))) G (conj B S) Hg eq_refl Ho)
    as (_ & _ & _ & Z').
  - intros c' Hc'. now apply (bk_lists _ B).
  - intros c' Hc'. eapply (st_entries _ _ S); eauto.
  - rewrite <- (Z' c Hc). apply lslots_ext. reflexivity.
Qed.
