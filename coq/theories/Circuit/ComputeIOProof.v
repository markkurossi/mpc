(* ComputeIOProof.v — theorems about the big.Int layer of Circuit.Compute
   (model: ComputeIO.v). *)
From Coq Require Import ZArith List Lia.
From Mpc Require Import Base.Label Circuit.Circuit Circuit.Garble Circuit.GarbleProof Circuit.ComputeIO.
Import ListNotations.
Local Open Scope nat_scope.

Lemma map_nth_seq_firstn {A} (l : list A) d n :
  n <= length l -> map (fun i => nth i l d) (seq 0 n) = firstn n l.
Proof.
  intros H. rewrite <- (map_id (firstn n l)), (map_nth_seq (fun x => x) d), firstn_length, Nat.min_l by exact H.
  apply map_ext_in. intros i Hi. apply in_seq in Hi. symmetry. apply nth_firstn_lt. lia.
Qed.

Lemma map_nth_window {A} (l : list A) d w n :
  w + n <= length l ->
  map (fun i => nth (w + i) l d) (seq 0 n) = firstn n (skipn w l).
Proof.
  intros H.
  rewrite (map_ext _ (fun i => nth i (skipn w l) d)) by (intros; symmetry; apply nth_skipn).
  apply map_nth_seq_firstn. rewrite skipn_length. lia.
Qed.

Lemma sum_widths_iobits outs : sum_widths (map iobits outs) = io_size outs.
Proof. induction outs as [|a t IH]; simpl; [reflexivity|]. rewrite IH. reflexivity. Qed.

Lemma zbits_length w v : length (zbits w v) = w.
Proof. unfold zbits. rewrite map_length, seq_length. reflexivity. Qed.

Lemma flatten_inputs_length ws : forall vs, length vs = length ws ->
  length (flatten_inputs ws vs) = sum_widths ws.
Proof.
  induction ws as [|w ws IH]; intros [|v vs] H; simpl in *; try discriminate; [reflexivity|].
  rewrite app_length, zbits_length, IH by lia. reflexivity.
Qed.

Lemma zbits_mod w v : zbits w (v mod 2 ^ Z.of_nat w) = zbits w v.
Proof.
  unfold zbits. apply map_ext_in. intros i Hi. apply in_seq in Hi.
  apply Z.mod_pow2_bits_low. lia.
Qed.

Lemma flatten_inputs_reduce ws : forall vs,
  flatten_inputs ws (reduce_vals ws vs) = flatten_inputs ws vs.
Proof.
  induction ws as [|w ws IH]; intros [|v vs]; simpl; try reflexivity.
  rewrite zbits_mod, IH. reflexivity.
Qed.

Lemma zbits_ext w u v : (u mod 2 ^ Z.of_nat w = v mod 2 ^ Z.of_nat w)%Z -> zbits w u = zbits w v.
Proof. intros H. rewrite <- (zbits_mod w u), <- (zbits_mod w v), H. reflexivity. Qed.

Lemma zbits_nth w v i : i < w -> nth i (zbits w v) false = Z.testbit v (Z.of_nat i).
Proof.
  intros H. apply (nth_map_seq (fun i => Z.testbit v (Z.of_nat i))). exact H.
Qed.

Lemma bits_to_Z_range l : (0 <= bits_to_Z l < 2 ^ Z.of_nat (length l))%Z.
Proof.
  induction l as [|b t IH]; simpl length; cbn [bits_to_Z]; [simpl; lia|].
  rewrite Nat2Z.inj_succ, Z.pow_succ_r by lia.
  destruct b; simpl Z.b2z; lia.
Qed.

Lemma zbits_succ w v :
  zbits (S w) v = Z.testbit v 0 :: zbits w (Z.div2 v).
Proof.
  unfold zbits. simpl seq. simpl map. f_equal.
  rewrite (map_seq_shift _ 1 w). apply map_ext. intros i.
  rewrite Z.div2_spec, Z.shiftr_spec by lia. f_equal. lia.
Qed.

Lemma bits_to_Z_div2 b t : Z.div2 (bits_to_Z (b :: t)) = bits_to_Z t.
Proof. cbn [bits_to_Z]. rewrite Z.div2_div. apply Z.add_b2z_double_div2. Qed.

Lemma zbits_bits_to_Z l : zbits (length l) (bits_to_Z l) = l.
Proof.
  induction l as [|b t IH]; [reflexivity|].
  simpl length. rewrite zbits_succ, bits_to_Z_div2, IH. f_equal. apply Z.add_b2z_double_bit0.
Qed.

Lemma pack_from_pack_bits outs : forall w wires,
  w + sum_widths outs <= length wires ->
  pack_from outs w wires = pack_bits outs (skipn w wires).
Proof.
  induction outs as [|n t IH]; intros w wires H; simpl in *; [reflexivity|].
  rewrite map_nth_window by lia. f_equal.
  rewrite IH by lia. rewrite skipn_skipn. reflexivity.
Qed.

Lemma pack_bits_length outs : forall bs, length (pack_bits outs bs) = length outs.
Proof. induction outs as [|n t IH]; intros bs; simpl; [reflexivity|]. rewrite IH. reflexivity. Qed.

Lemma pack_bits_roundtrip outs : forall bs, length bs = sum_widths outs ->
  flatten_inputs outs (pack_bits outs bs) = bs /\
  Forall2 (fun n r => (0 <= r < 2 ^ Z.of_nat n)%Z) outs (pack_bits outs bs).
Proof.
  induction outs as [|n t IH]; intros bs H; simpl in *.
  - destruct bs; [split; constructor | discriminate].
  - assert (Hn : length (firstn n bs) = n) by (rewrite firstn_length; lia).
    destruct (IH (skipn n bs)) as [IH1 IH2]; [rewrite skipn_length; lia|].
    split.
    + pose proof (zbits_bits_to_Z (firstn n bs)) as Z1. rewrite Hn in Z1.
      rewrite IH1, Z1. apply firstn_skipn.
    + constructor; [|exact IH2].
      pose proof (bits_to_Z_range (firstn n bs)) as R. rewrite Hn in R. exact R.
Qed.

Lemma eval_gate_length ws g : length (eval_gate ws g) = length ws.
Proof. unfold eval_gate. apply upd_length. Qed.

Lemma fold_eval_gate_length gs : forall ws, length (fold_left eval_gate gs ws) = length ws.
Proof.
  induction gs as [|g gs IH]; intros ws; simpl; [reflexivity|].
  rewrite IH. apply eval_gate_length.
Qed.

Lemma eval_plain_wires_length c x :
  length x = ninputs c -> ninputs c <= nwires c -> length (eval_plain_wires c x) = nwires c.
Proof.
  intros Hx Hle. unfold eval_plain_wires, init_wires.
  rewrite fold_eval_gate_length, app_length, firstn_length, repeat_length. lia.
Qed.

Lemma eval_plain_skipn c x :
  length x = ninputs c -> ninputs c <= nwires c -> noutputs c <= nwires c ->
  eval_plain c x = skipn (nwires c - noutputs c) (eval_plain_wires c x).
Proof.
  intros Hx Hi Ho. unfold eval_plain, output_wires.
  pose proof (eval_plain_wires_length c x Hx Hi) as HL.
  rewrite (map_seq_shift (fun w => nth w (eval_plain_wires c x) false)).
  rewrite map_nth_window by lia.
  apply firstn_all2. rewrite skipn_length. lia.
Qed.

Definition layout_ok (c : circuit) (ins outs : list ioarg) : Prop :=
  sum_widths (flat_args ins) = ninputs c /\ ninputs c <= nwires c /\
  io_size outs = noutputs c /\ noutputs c <= nwires c.

Theorem compute_io_eq_eval_plain :
  forall (c : circuit) (ins outs : list ioarg) (vals : list Z),
    layout_ok c ins outs -> length vals = length (flat_args ins) ->
    compute_io c ins outs vals
    = COk (pack_bits (map iobits outs) (eval_plain c (flatten_inputs (flat_args ins) vals))).
Proof.
  intros c ins outs vals (Hin & Hile & Hout & Hole) Hlen.
  pose proof (flatten_inputs_length _ _ Hlen) as HL.
  set (bits := flatten_inputs (flat_args ins) vals) in *.
  assert (Hx : length bits = ninputs c) by lia.
  unfold compute_io. fold bits.
  rewrite Hlen, Nat.eqb_refl. cbn [negb].
  replace (nwires c <? length bits) with false by (symmetry; apply Nat.ltb_ge; lia).
  replace (nwires c <? io_size outs) with false by (symmetry; apply Nat.ltb_ge; lia).
  f_equal.
  assert (HW : fold_left eval_gate (gates c) (bits ++ repeat false (nwires c - length bits))
               = eval_plain_wires c bits).
  { unfold eval_plain_wires, init_wires. rewrite firstn_all2 by lia. rewrite Hx. reflexivity. }
  rewrite HW.
  rewrite pack_from_pack_bits.
  - rewrite Hout. rewrite <- eval_plain_skipn by assumption. reflexivity.
  - rewrite sum_widths_iobits, eval_plain_wires_length by assumption. lia.
Qed.

(* the results are determined by the argument values modulo 2^width: a negative value
   is read as its two's complement, a value wider than the argument is truncated, a
   narrower one zero-extended *)
Theorem compute_io_vals_mod :
  forall c ins outs vals,
    length vals = length (flat_args ins) ->
    compute_io c ins outs (reduce_vals (flat_args ins) vals) = compute_io c ins outs vals.
Proof.
  intros c ins outs vals Hlen. unfold compute_io.
  assert (HR : length (reduce_vals (flat_args ins) vals) = length vals).
  { clear - Hlen. revert vals Hlen. induction (flat_args ins) as [|w ws IH]; intros [|v vs] H;
      simpl in *; try discriminate; [reflexivity|]. rewrite IH by lia. reflexivity. }
  rewrite HR, flatten_inputs_reduce. reflexivity.
Qed.

Theorem compute_io_results_roundtrip :
  forall c ins outs vals,
    layout_ok c ins outs -> length vals = length (flat_args ins) ->
    exists rs, compute_io c ins outs vals = COk rs /\
      length rs = length outs /\
      Forall2 (fun n r => (0 <= r < 2 ^ Z.of_nat n)%Z) (map iobits outs) rs /\
      flatten_inputs (map iobits outs) rs = eval_plain c (flatten_inputs (flat_args ins) vals).
Proof.
  intros c ins outs vals HL Hlen.
  eexists. split; [apply compute_io_eq_eval_plain; assumption|].
  destruct HL as (Hin & Hile & Hout & Hole).
  assert (HE : length (eval_plain c (flatten_inputs (flat_args ins) vals))
               = sum_widths (map iobits outs)).
  { unfold eval_plain, output_wires. rewrite map_length, seq_length, sum_widths_iobits. lia. }
  destruct (pack_bits_roundtrip _ _ HE) as [R1 R2].
  split; [rewrite pack_bits_length, map_length; reflexivity|]. split; assumption.
Qed.

Theorem compute_io_arg_count :
  forall c ins outs vals, length vals <> length (flat_args ins) ->
    compute_io c ins outs vals = CErrArgs (length vals) (length (flat_args ins)).
Proof.
  intros c ins outs vals H. unfold compute_io.
  apply Nat.eqb_neq in H. rewrite H. reflexivity.
Qed.

Theorem garbled_eq_compute_io :
  forall (pi : N -> N) (rnd : nat -> N) (scratch : list wire) c ins outs vals,
    wf c = true -> layout_ok c ins outs -> length vals = length (flat_args ins) ->
    let x := flatten_inputs (flat_args ins) vals in
    let g := garble pi rnd scratch c in
    exists ew bs, geval pi c (encode g c x) (gTables g) = Some ew /\
      map (fun o => decode (nth o (gWires g) w0) (nth o ew 0%N)) (output_wires c) = map Some bs /\
      compute_io c ins outs vals = COk (pack_bits (map iobits outs) bs).
Proof.
  intros pi rnd scratch c ins outs vals Hwf HL Hlen x g.
  assert (Hx : length x = ninputs c).
  { unfold x. rewrite flatten_inputs_length by exact Hlen. apply HL. }
  destruct (garble_decoded_outputs pi rnd scratch c x Hwf Hx) as (ew & GE & D).
  exists ew, (eval_plain c x). split; [exact GE|]. split; [exact D|].
  apply compute_io_eq_eval_plain; assumption.
Qed.

(* a 7-wire circuit, arguments (uint3, struct{uint1,uint1}) = three values, outputs (uint1, uint1):
   the hypotheses hold, a negative and an over-wide value are accepted *)
Definition ex_c : circuit :=
  mkCircuit 7 5 2 [mkGate 0 3 5 AND; mkGate 2 4 6 XOR].
Definition ex_ins : list ioarg := [mkIO 3 []; mkIO 2 [1; 1]].
Definition ex_outs : list ioarg := [mkIO 1 []; mkIO 1 []].

Example layout_ok_ex : layout_ok ex_c ex_ins ex_outs /\ wf ex_c = true.
Proof. unfold layout_ok. vm_compute. repeat split; lia. Qed.

Example compute_io_ex :
  compute_io ex_c ex_ins ex_outs [(-3)%Z; 255%Z; 0%Z] = COk [1%Z; 1%Z] /\
  compute_io ex_c ex_ins ex_outs [5%Z; 1%Z; 0%Z] = COk [1%Z; 1%Z] /\
  compute_io ex_c ex_ins ex_outs [5%Z; 1%Z] = CErrArgs 2 3 /\
  compute_io ex_c (mkIO 9 [] :: ex_ins) ex_outs [0%Z; 5%Z; 1%Z; 0%Z] = CPanic.
Proof. vm_compute. repeat split. Qed.
