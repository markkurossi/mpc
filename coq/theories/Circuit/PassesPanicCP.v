(* PassesPanicCP.v — ConstPropagate reaches none of its panic sites on a
   freshly built graph (property C09):

   * Wire.RemoveOutput -> SetNumOutputs(NumOutputs-1) "wire outputs overflow"
     (model error 1), three call sites: Gate.ReplaceInput and the two
     substitution blocks after the switch;
   * Gate.ReplaceInput "... is not input for gate ..." (model error 3): a stale
     entry of a wire's output-gate list reaching Gate.ShortCircuit's loop;
   * Wire.SetInput "wire input gate already set" (model error 2): only inside
     cc.ZeroWire()/cc.OneWire(), not called when both constants exist.

   RemoveOutput never removes a list entry, so stale entries do exist — but
   only in the lists of wires that carry a value ([EX]: the list of an
   unvalued wire is exact, with multiplicity), and Gate.ShortCircuit only ever
   walks the list of an unvalued wire: the output of a gate that is still to
   be processed is unvalued or a constant wire ([UV]), and the gates producing
   the constants (and INV(in0)) read wires that never get a value ([CS]), so
   they take no branch of the switch. *)
From Coq Require Import List Bool Arith Lia ZArith.
From Mpc Require Import Circuit.Circuit Circuit.Passes Circuit.PassesProof Circuit.PassesBFS
  Circuit.PassesInv Circuit.PassesPanic.
From Mpc Require Gen.Consts Circuit.RunC09.
Import ListNotations.

(* the output-gate lists contain nothing but consumer slots, with
   multiplicity (Allocator.BinaryGate/INVGate call AddOutput once per input
   slot); together with wfx.x_lists the lists are exact *)
Definition wfe (G : graph) : Prop :=
  forall w c, In c (wouts (gw G w)) ->
    count_occ Nat.eq_dec (wouts (gw G w)) c <= slots (gn G c) w.

Definition EXe (X : nat) (G : graph) : Prop :=
  forall w, w <> X -> wv (gw G w) = Unknown ->
  forall c, count_occ Nat.eq_dec (wouts (gw G w)) c <= lslots G c w.

Definition EX (G : graph) : Prop :=
  forall w, wv (gw G w) = Unknown ->
  forall c, count_occ Nat.eq_dec (wouts (gw G w)) c <= lslots G c w.

Lemma EX_EXe X G : EX G -> EXe X G.
Proof. intros E w _. apply E. Qed.

Lemma EXe_EX X G : EXe X G -> wv (gw G X) <> Unknown -> EX G.
Proof.
  intros E Hv w Hw. destruct (Nat.eq_dec w X) as [->|Hne]; [contradiction|]. now apply E.
Qed.

Lemma moved_EXe sa G G' c from to :
  moved sa G G' c from to -> ndead (gn G c) = false -> EXe from G -> EXe from G'.
Proof.
  intros M Hd E w Hw Hv c'.
  rewrite (proj1 (m_wire M w)) in Hv.
  specialize (E w Hw Hv c').
  destruct (moved_lslots M) as [Lo Lc].
  rewrite (m_wouts M w).
  assert (Ef : Nat.eqb from w = false) by (apply Nat.eqb_neq; auto).
  destruct (Nat.eq_dec c' c) as [->|Hne].
  - specialize (Lc w). rewrite Hd, Ef in Lc.
    destruct (Nat.eqb_spec w to) as [->|Hwt].
    + rewrite count_occ_snoc, !Nat.eqb_refl in *. lia.
    + assert (Et : Nat.eqb to w = false) by (apply Nat.eqb_neq; auto). rewrite Et in Lc. lia.
  - rewrite (Lo c' w Hne). destruct (Nat.eqb w to); auto.
    rewrite count_occ_snoc. assert (Ec : Nat.eqb c c' = false) by (apply Nat.eqb_neq; auto).
    rewrite Ec. lia.
Qed.

Record CS (U : nat -> Prop) (G : graph) : Prop := {
  cs_unk : forall w, U w -> wv (gw G w) = Unknown;
  cs_clo : forall c, In c (gorder G) -> U (nO (gn G c)) ->
           forall w, In w (inputs_of (gn G c)) -> U w;
  cs_const : forall k, isconst G k ->
             exists p, In p (gorder G) /\ nO (gn G p) = k /\
                       forall w, In w (inputs_of (gn G p)) -> U w }.

Lemma act_none G n :
  (forall w, In w (inputs_of n) -> wv (gw G w) = Unknown) ->
  cp_action (nop n) (wv (gw G (nA n)))
            (if is_inv (nop n) then Unknown else wv (gw G (nB n))) = ActNone.
Proof.
  intros H. unfold inputs_of in H. destruct (is_inv (nop n)) eqn:Ei.
  - rewrite (H (nA n)) by (now left). destruct (nop n); reflexivity.
  - rewrite (H (nA n)) by (now left). rewrite (H (nB n)) by (right; now left).
    destruct (nop n); reflexivity.
Qed.

Lemma moved_CS (U : nat -> Prop) sa G G' c from to :
  moved sa G G' c from to -> ~ U from -> CS U G -> CS U G'.
Proof.
  intros M Hu C. pose proof (moved_from_input M) as Hin.
  constructor.
  - intros w Hw. rewrite (proj1 (m_wire M w)). now apply (cs_unk _ _ C).
  - intros c' Hc' Hu' w Hw. rewrite (m_order M) in Hc'.
    rewrite (proj1 (moved_fields M c')) in Hu'.
    destruct (Nat.eq_dec c' c) as [->|Hne].
    + exfalso. apply Hu. now apply (cs_clo _ _ C c Hc' Hu').
    + rewrite (m_node_o M Hne) in Hw. now apply (cs_clo _ _ C c' Hc' Hu').
  - intros k Hk. assert (Hk' : isconst G k).
    { unfold isconst in *. now rewrite <- (m_zero M), <- (m_one M). }
    destruct (cs_const _ _ C k Hk') as (p & Hp & Ep & Hi).
    exists p. rewrite (m_order M).
    destruct (Nat.eq_dec p c) as [->|Hne].
    + exfalso. apply Hu. now apply Hi.
    + rewrite (m_node_o M Hne). auto.
Qed.

(* the loop of Gate.ShortCircuit over an exact list: every entry still holds a
   slot on O, so no call panics *)
Lemma sc_fold_noerr rank (U : nat -> Prop) g O o : forall l G,
  SI rank G -> In g (gorder G) -> nO (gn G g) = O -> In o (inputs_of (gn G g)) ->
  (forall c, In c l -> In c (gorder G)) -> ~ U O ->
  (forall c, count_occ Nat.eq_dec l c <= lslots G c O) ->
  EXe O G -> CS U G ->
  let G' := fold_left (fun G c => replace_input G c O o) l G in
  gerr G' = gerr G /\ EXe O G' /\ CS U G'.
Proof.
  induction l as [|h l IH]; intros G SIG Hg HO Ho Hl HU Q E C; simpl; auto.
  assert (Hh : In h (gorder G)) by (apply Hl; now left).
  assert (Hpos : 0 < lslots G h O).
  { specialize (Q h). rewrite count_occ_cons_eqb, Nat.eqb_refl in Q. lia. }
  destruct (sc_step rank g O o G h SIG Hg HO Ho Hh) as (SI1 & (F1 & _) & N1 & L1 & St).
  destruct (St Hpos) as (sa & M & Eg).
  pose proof (st_nodead _ _ (proj2 SIG) h Hh) as Hd.
  destruct (IH (replace_input G h O o)) as (a1 & a2 & a3); auto.
  - now rewrite F1.
  - now rewrite N1.
  - now rewrite N1.
  - intros c Hc. rewrite F1. apply Hl. now right.
  - intros c. rewrite (L1 c). generalize (Q c).
    rewrite count_occ_cons_eqb. destruct (Nat.eqb_spec c h) as [Ec|_]; [subst c|]; lia.
  - eapply moved_EXe; eauto.
  - eapply moved_CS; eauto.
  - split; [congruence|auto].
Qed.

Lemma fold_replace_frame O o l G :
  let G' := fold_left (fun G c => replace_input G c O o) l G in
  (forall w, wv (gw G' w) = wv (gw G w)) /\ (forall i, nO (gn G' i) = nO (gn G i)).
Proof.
  apply (fold_replace_ind (fun H => (forall w, wv (gw H w) = wv (gw G w)) /\
                                    (forall i, nO (gn H i) = nO (gn G i)))); auto.
  - intros G1 G2 W [a b]. split.
    + intros w. now rewrite (proj1 (wo_wire W w)).
    + intros i. now rewrite (wo_n W).
  - intros sa G1 G2 c M [a b]. split.
    + intros w. now rewrite (proj1 (m_wire M w)).
    + intros i. now rewrite (proj1 (moved_fields M i)).
Qed.

Definition keeps (U : nat -> Prop) (G G' : graph) : Prop :=
  gerr G' = gerr G /\ EX G' /\ CS U G' /\ (forall i, nO (gn G' i) = nO (gn G i)).

Lemma keeps_refl (U : nat -> Prop) G : EX G -> CS U G -> keeps U G G.
Proof. intros E C. split; [reflexivity|]. split; [exact E|]. split; [exact C|]. reflexivity. Qed.

Lemma keeps_trans (U : nat -> Prop) G1 G2 G3 : keeps U G1 G2 -> keeps U G2 G3 -> keeps U G1 G3.
Proof.
  intros (a1 & a2 & a3 & a4) (b1 & b2 & b3 & b4).
  split; [congruence|]. split; auto. split; auto. intros i. now rewrite b4, a4.
Qed.

Lemma CS_ext (U : nat -> Prop) G G' :
  gorder G' = gorder G -> gzero G' = gzero G -> gone G' = gone G ->
  (forall i, gn G' i = gn G i) ->
  (forall w, U w -> wv (gw G' w) = wv (gw G w)) -> CS U G -> CS U G'.
Proof.
  intros Ho Hz Hone Hn Hv C. constructor.
  - intros w Hw. rewrite (Hv w Hw). now apply (cs_unk _ _ C).
  - intros c Hc. rewrite Ho in Hc. rewrite Hn. now apply (cs_clo _ _ C).
  - intros k Hk. assert (Hk' : isconst G k) by (unfold isconst in *; now rewrite <- Hz, <- Hone).
    destruct (cs_const _ _ C k Hk') as (p & Hp & Ep & Hi). exists p. rewrite Ho, Hn. auto.
Qed.

Lemma short_circuit_keeps rank (U : nat -> Prop) G g o :
  SI rank G -> In g (gorder G) -> In o (inputs_of (gn G g)) ->
  wv (gw G (nO (gn G g))) = Unknown -> ~ U (nO (gn G g)) ->
  EX G -> CS U G ->
  keeps U G (short_circuit G g o) /\
  forall w, wv (gw (short_circuit G g o) w) = wv (gw G w).
Proof.
  intros SIG Hg Ho Hv HU E C. pose proof SIG as [B S]. unfold short_circuit.
  destruct (wout (gw G (nO (gn G g)))); [split; [now apply keeps_refl|reflexivity]|].
  set (O := nO (gn G g)) in *.
  destruct (fold_replace_frame O o (wouts (gw G O)) G) as [a4 a5].
  destruct (sc_fold_noerr rank U g O o (wouts (gw G O)) G SIG Hg eq_refl Ho) as (a1 & a2 & a3); auto.
  - intros c Hc. eapply (st_entries _ _ S); eauto.
  - now apply EX_EXe.
  - set (G' := fold_left (fun G c => replace_input G c O o) (wouts (gw G O)) G) in *.
    split; [|intros w; simpl; unfold fupd; destruct (Nat.eqb_spec w O); subst; simpl; apply a4].
    split; [exact a1|]. split; [|split].
    + intros w Hw c. simpl in Hw |- *. unfold fupd in *.
      destruct (Nat.eqb_spec w O) as [Ew|Hne]; simpl in *.
      * lia.
      * specialize (a2 w Hne Hw c). unfold lslots in *. simpl. exact a2.
    + apply (CS_ext U G'); auto. intros w _. simpl. unfold fupd.
      destruct (Nat.eqb_spec w O); subst; reflexivity.
    + intros i. simpl. apply a5.
Qed.

Lemma cp_switch_keeps rank (U : nat -> Prop) G g :
  SI rank G -> In g (gorder G) -> EX G -> CS U G ->
  (wv (gw G (nO (gn G g))) <> Unknown -> isconst G (nO (gn G g))) ->
  keeps U G (cp_switch G g) /\
  forall w, w <> nO (gn G g) -> wv (gw (cp_switch G g) w) = wv (gw G w).
Proof.
  intros SIG Hg E C UVg. pose proof SIG as [B S]. unfold cp_switch.
  set (act := cp_action (nop (gn G g)) (wv (gw G (nA (gn G g))))
                (if is_inv (nop (gn G g)) then Unknown else wv (gw G (nB (gn G g))))).
  (* a gate that takes a branch has a valued input, so it is none of the
     gates whose inputs never get a value *)
  assert (NU : act <> ActNone -> ~ U (nO (gn G g)) /\ wv (gw G (nO (gn G g))) = Unknown).
  { intros Ha. assert (N1 : ~ U (nO (gn G g))).
    { intros Hu. apply Ha. apply act_none. intros w Hw. apply (cs_unk _ _ C).
      now apply (cs_clo _ _ C g Hg Hu). }
    split; auto.
    destruct (wval_eq_dec (wv (gw G (nO (gn G g)))) Unknown) as [|Ev]; auto. exfalso.
    (* a valued output is a constant wire, whose producer reads unvalued wires *)
    destruct (cs_const _ _ C _ (UVg Ev)) as (p & Hp & Ep & Hi).
    assert (p = g) by (apply (st_uniq _ _ S); auto). subst p.
    apply Ha. apply act_none. intros w Hw. apply (cs_unk _ _ C). now apply Hi. }
  assert (Val : forall v, act <> ActNone ->
            keeps U G (set_value G (nO (gn G g)) v) /\
            forall w, w <> nO (gn G g) -> wv (gw (set_value G (nO (gn G g)) v) w) = wv (gw G w)).
  { intros v Ha. destruct (NU Ha) as [N1 N2]. split.
    - split; [reflexivity|]. split; [|split; [|intros i; reflexivity]].
      + intros w Hw c. simpl in Hw |- *. unfold fupd in *.
        destruct (Nat.eqb_spec w (nO (gn G g))) as [Ew|Hne]; simpl in *.
        * rewrite Ew. assert (X := E _ N2 c). unfold lslots in *. simpl. exact X.
        * assert (X := E _ Hw c). unfold lslots in *. simpl. exact X.
      + apply (CS_ext U G); auto. intros w Hw. simpl. unfold fupd.
        destruct (Nat.eqb_spec w (nO (gn G g))); subst; [contradiction|reflexivity].
    - intros w Hw. simpl. unfold fupd. destruct (Nat.eqb_spec w (nO (gn G g))); [contradiction|reflexivity]. }
  destruct act eqn:Ea.
  - split; [now apply keeps_refl|reflexivity].
  - apply Val. discriminate.
  - apply Val. discriminate.
  - destruct NU as [N1 N2]; [discriminate|].
    destruct (short_circuit_keeps rank U G g (nB (gn G g)) SIG Hg) as [K W]; auto.
    apply inputs_of_B. exact (cp_action_scb _ _ _ Ea).
  - destruct NU as [N1 N2]; [discriminate|].
    destruct (short_circuit_keeps rank U G g (nA (gn G g)) SIG Hg) as [K W]; auto.
    apply inputs_of_A.
Qed.

Lemma moved_keeps (U : nat -> Prop) sa G G' c from to :
  moved sa G G' c from to -> gerr G' = gerr G -> ndead (gn G c) = false ->
  wv (gw G from) <> Unknown -> EX G -> CS U G -> keeps U G G'.
Proof.
  intros M Eg Hd Hv E C. split; auto. split; [|split].
  - apply (EXe_EX from).
    + eapply moved_EXe; eauto. now apply EX_EXe.
    + now rewrite (proj1 (m_wire M from)).
  - eapply moved_CS; eauto. intros Hu. apply Hv. now apply (cs_unk _ _ C).
  - intros i. apply (moved_fields M).
Qed.

Lemma subst_keeps sa rank (U : nat -> Prop) G g :
  SI rank G -> In g (gorder G) -> consts_ok G -> EX G -> CS U G ->
  keeps U G (subst sa G g) /\ forall w, wv (gw (subst sa G g) w) = wv (gw G w).
Proof.
  intros [B S] Hg C0 E C.
  pose proof (st_nodead _ _ S g Hg) as Hd.
  destruct (subst_spec sa G g C0) as [->|(k & _ & _ & Hv & M & Eg)].
  - split; [now apply keeps_refl|reflexivity].
  - split; [|intros w; apply (m_wire M)].
    apply (moved_keeps U _ _ _ _ _ _ M); auto.
    (* the counter of the wire g reads is positive *)
    apply Eg, (BK_pos G g _ B Hg). rewrite (lslots_live _ _ _ Hd).
    apply slots_inputs, (moved_from_input M).
Qed.

Lemma cp_step_keeps rank x v (U : nat -> Prop) G g :
  SI rank G -> In g (gorder G) -> Inv x v G -> EX G -> CS U G ->
  (wv (gw G (nO (gn G g))) <> Unknown -> isconst G (nO (gn G g))) ->
  keeps U G (cp_step G g) /\
  forall w, w <> nO (gn G g) -> wv (gw (cp_step G g) w) = wv (gw G w).
Proof.
  intros SIG Hg HI E C UVg. rewrite cp_step_eq.
  assert (Lg : live G g) by (eapply ST_live; [apply SIG|auto]).
  pose proof (cp_switch_SI rank G g SIG Hg) as S1.
  pose proof (cp_switch_Inv x v G g Lg HI) as I1.
  destruct (cp_switch_keeps rank U G g SIG Hg E C UVg) as (K1 & W1).
  assert (Hg1 : In g (gorder (cp_switch G g))).
  { rewrite (proj1 (cp_switch_frame fr fr_frame G g)). exact Hg. }
  pose proof (subst_SI true rank _ g S1 Hg1 (Inv_consts _ _ _ I1)) as S2.
  pose proof (subst_Inv true x v _ g I1) as I2.
  pose proof K1 as (_ & E1 & C1 & _).
  destruct (subst_keeps true rank U _ g S1 Hg1 (Inv_consts _ _ _ I1) E1 C1) as (K2 & W2).
  assert (Hg2 : In g (gorder (subst true (cp_switch G g) g))).
  { now rewrite (proj1 (subst_frame fr fr_frame true _ g (Inv_consts _ _ _ I1))). }
  pose proof K2 as (_ & E2 & C2 & _).
  destruct (subst_keeps false rank U _ g S2 Hg2 (Inv_consts _ _ _ I2) E2 C2) as (K3 & W3).
  split.
  - exact (keeps_trans U _ _ _ (keeps_trans U _ _ _ K1 K2) K3).
  - intros w Hw. rewrite W3, W2. now apply W1.
Qed.

Lemma cp_fold_keeps rank x v (U : nat -> Prop) : forall rest G,
  SI rank G -> NoDup rest -> (forall g, In g rest -> In g (gorder G)) -> Inv x v G ->
  EX G -> CS U G ->
  (forall g, In g rest -> wv (gw G (nO (gn G g))) <> Unknown -> isconst G (nO (gn G g))) ->
  gerr (fold_left cp_step rest G) = gerr G.
Proof.
  induction rest as [|g rest IH]; intros G SIG ND Hl HI E C UV; simpl; auto.
  inversion ND as [|? ? Hng ND']; subst.
  assert (Hg : In g (gorder G)) by (apply Hl; now left).
  assert (Lg : live G g) by (eapply ST_live; [apply SIG|auto]).
  pose proof (cp_step_SI rank x v G g Lg HI SIG) as S1.
  destruct (cp_step_frame fr fr_frame x v G g Lg HI) as (Fo & Fz & Fone).
  destruct (cp_step_Inv x v G g Lg HI) as [I1 _].
  destruct (cp_step_keeps rank x v U G g SIG Hg HI E C (UV g (or_introl eq_refl)))
    as ((k1 & k2 & k3 & k4) & W1).
  rewrite IH; auto.
  - intros h Hh. rewrite Fo. apply Hl. now right.
  - intros h Hh. rewrite k4. intros Hv.
    assert (Hne : nO (gn G h) <> nO (gn G g)).
    { intros Eq. destruct SIG as [_ S].
      assert (h = g) by (apply (st_uniq _ _ S); auto; apply Hl; now right). subst h. contradiction. }
    rewrite (W1 _ Hne) in Hv.
    pose proof (UV h (or_intror Hh) Hv) as Hk. unfold isconst in *. now rewrite Fz, Fone.
Qed.

Lemma wfg_input0 G : wfg G -> In (input0 G) (gins G).
Proof.
  intros WF.
  destruct (wf_consts _ WF) as (z & o & iw & gz & go & gi & _ & _ & _ & _ & _ & Li & _).
  destruct Li as [Li _].
  destruct (gorder G) as [|g0 rest] eqn:Eo; [destruct Li|].
  destruct (wf_topo _ WF [] g0 rest Eo) as (Tin & _ & _).
  assert (Ha : In (nA (gn G g0)) (inputs_of (gn G g0))).
  { apply inputs_of_A. }
  unfold input0. destruct (Tin _ Ha) as [H|(p & [] & _)].
  destruct (gins G); [destruct H|now left].
Qed.

(* C09_no_panic_const_propagate *)
Theorem const_propagate_no_panic G :
  wfg G -> wfb G -> wfx G -> wfe G -> gerr (const_propagate G) = gerr G.
Proof.
  intros WF FB X XE.
  destruct (fresh_SI G WF FB X) as (rank & SIG).
  pose proof (geval_sat G WF []) as I0.
  pose proof (fresh_cwf0 G (wfg_wfg0 G WF) FB) as CW.
  pose proof (wfg_input0 G WF) as Hin0.
  assert (LV : forall c, In c (gorder G) -> live G c).
  { intros c Hc. split; auto. now apply (wf_nodead _ WF). }
  destruct (wf_consts _ WF) as (z & o & iw & gz & go & gi & Hz & Ho & Vz & Vo & Hall &
                                Li & Oi & Ai & Wi & Lz & Oz & Az & Bz & Wz & Lo & Oo & Ao & Bo & Wo).
  assert (NP : forall c, In c (gorder G) -> nO (gn G c) <> input0 G).
  { intros c Hc Eq. apply (c_prod _ CW c (LV c Hc)). now rewrite Eq. }
  assert (Hzi : z <> input0 G) by (rewrite <- Wz; apply NP; apply Lz).
  assert (Hoi : o <> input0 G) by (rewrite <- Wo; apply NP; apply Lo).
  assert (Hzw : z <> iw).
  { intros Eq. assert (gz = gi) by (apply (c_uniq _ CW); auto; congruence). subst gz.
    rewrite Oi in Oz. discriminate. }
  assert (How : o <> iw).
  { intros Eq. assert (go = gi) by (apply (c_uniq _ CW); auto; congruence). subst go.
    rewrite Oi in Oo. discriminate. }
  set (U := fun w => w = input0 G \/ w = iw).
  apply (cp_fold_keeps rank [] (geval G []) U); auto.
  - apply (x_nodup _ X).
  - (* EX *)
    intros w _ c. destruct (in_dec Nat.eq_dec c (wouts (gw G w))) as [Hc|Hc].
    + unfold lslots. rewrite (wf_nodead _ WF c (fb_entries _ FB w c Hc)). now apply XE.
    + rewrite (proj1 (count_occ_not_In Nat.eq_dec _ _) Hc). lia.
  - (* CS *)
    constructor.
    + (* input0 and iw are neither of the two valued wires *)
      intros w Hw. destruct (wval_eq_dec (wv (gw G w)) Unknown) as [|Ev]; auto. exfalso.
      destruct (Hall w Ev) as [-> | ->]; destruct Hw; congruence.
    + intros c Hc [Hu|Hu] w Hw.
      * exfalso. now apply (NP c Hc).
      * assert (c = gi) by (apply (c_uniq _ CW); auto; congruence). subst c.
        unfold inputs_of in Hw. rewrite Oi in Hw. simpl in Hw. destruct Hw as [<-|[]].
        left. exact Ai.
    + intros k [Hk|Hk].
      * rewrite Hz in Hk. inversion Hk; subst k. exists gz. split; [apply Lz|]. split; auto.
        intros w Hw. unfold inputs_of in Hw. rewrite Oz in Hw. simpl in Hw.
        destruct Hw as [<-|[<-|[]]]; [left; exact Az|right; exact Bz].
      * rewrite Ho in Hk. inversion Hk; subst k. exists go. split; [apply Lo|]. split; auto.
        intros w Hw. unfold inputs_of in Hw. rewrite Oo in Hw. simpl in Hw.
        destruct Hw as [<-|[<-|[]]]; [left; exact Ao|right; exact Bo].
  - (* UV *)
    intros g _ Hv. destruct (Hall _ Hv) as [E|E]; rewrite E; [now left|now right].
Qed.

(* C09_no_panic_pipeline *)
Theorem no_panic_pipeline (do_prune : bool) G :
  wfg G -> wfb G -> wfx G -> wfe G ->
  gerr (const_propagate G) = gerr G /\
  gerr (cg (compile_assign (optimize do_prune G))) = gerr G.
Proof.
  intros WF FB X XE. pose proof (const_propagate_no_panic G WF FB X XE) as E.
  split; auto. now rewrite (no_panic_after_cp do_prune G WF FB X).
Qed.

(* cc.InputWires[0] (InvI0Wire, ZeroWire, OneWire; [input0] = hd 0 in the
   model): in range on every well-formed graph — the first gate of cc.Gates
   can only read input wires, so InputWires is not empty *)
Theorem input0_in_range G : wfg G -> In (input0 G) (gins G) /\ 0 < length (gins G).
Proof.
  intros WF. pose proof (wfg_input0 G WF) as H. split; auto.
  destruct (gins G); [destruct H|simpl; lia].
Qed.

(* stats[g.Op]++ in ConstPropagate/ShortCircuitXORZero/Compile: circuit.Stats
   is [MaxWidth+1]uint64 and every operation of the model's gate type is an
   index below it (constants regenerated from circuit/circuit.go) *)
(* Gen.Consts opens Z_scope *)
Import Gen.Consts Circuit.RunC09.

Theorem stats_index_in_range :
  forall o : op, (0 <= Z_of_op o)%Z /\ (Z_of_op o < circuit_Count)%Z /\
                 (circuit_Count <= circuit_MaxWidth)%Z /\ op_of_Z9 (Z_of_op o) = o.
Proof. destruct o; cbv; repeat split; intros H; discriminate H. Qed.
