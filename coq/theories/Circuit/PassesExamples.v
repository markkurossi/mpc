(* PassesExamples.v — non-vacuity of the hypotheses of the C09 theorems:
   a concrete graph built with the model's own builder functions (constants,
   fan-out, a gate that pruning kills) satisfies wfg / wfb / cwf, hence
   emission_ok and levels_ok hold of Compile's result on it; and the whole
   pipeline (with a dead gate after Prune) computes the graph's meaning on
   every input (vm_compute). *)
From Coq Require Import List Bool Arith Lia.
From Mpc Require Import Circuit.Circuit Circuit.Passes Circuit.PassesProof Circuit.PassesBFS
  Circuit.PassesInv.
Import ListNotations.

(* a checker for [wf_topo] *)
Fixpoint topo_ok (G : graph) (seen l : list nat) : bool :=
  match l with
  | [] => true
  | g :: l' =>
      forallb (fun w => existsb (Nat.eqb w) (gins G) ||
                        existsb (fun p => Nat.eqb (nO (gn G p)) w) seen) (inputs_of (gn G g)) &&
      negb (existsb (Nat.eqb (nO (gn G g))) (gins G)) &&
      forallb (fun p => negb (Nat.eqb (nO (gn G p)) (nO (gn G g)))) seen &&
      topo_ok G (g :: seen) l'
  end.

Lemma topo_ok_sound G l : forall seen,
  topo_ok G seen l = true ->
  forall l1 g l2, l = l1 ++ g :: l2 ->
    (forall w, In w (inputs_of (gn G g)) ->
       In w (gins G) \/ exists p, In p (seen ++ l1) /\ nO (gn G p) = w) /\
    ~ In (nO (gn G g)) (gins G) /\
    (forall p, In p (seen ++ l1) -> nO (gn G p) <> nO (gn G g)).
Proof.
  induction l as [|a l IH]; intros seen H l1 g l2 E; [destruct l1; discriminate|].
  simpl in H. apply andb_true_iff in H. destruct H as [H H4].
  apply andb_true_iff in H. destruct H as [H H3].
  apply andb_true_iff in H. destruct H as [H1 H2].
  destruct l1 as [|b l1]; simpl in E; inversion E; subst.
  - rewrite app_nil_r. split; [|split].
    + intros w Hw. rewrite forallb_forall in H1. specialize (H1 w Hw).
      apply orb_true_iff in H1. destruct H1 as [H1|H1]; apply existsb_exists in H1.
      * destruct H1 as (y & Hy & Ey). apply Nat.eqb_eq in Ey. subst. now left.
      * destruct H1 as (p & Hp & Ep). apply Nat.eqb_eq in Ep. right. eauto.
    + intros Hin. apply negb_true_iff in H2.
      assert (existsb (Nat.eqb (nO (gn G g))) (gins G) = true).
      { apply existsb_exists. exists (nO (gn G g)). split; auto. apply Nat.eqb_refl. }
      congruence.
    + intros p Hp Ep. rewrite forallb_forall in H3. specialize (H3 p Hp).
      apply negb_true_iff in H3. apply Nat.eqb_neq in H3. auto.
  - destruct (IH (b :: seen) H4 l1 g l2 eq_refl) as (A & B & C).
    assert (Hperm : forall p, In p (seen ++ b :: l1) <-> In p ((b :: seen) ++ l1)).
    { intros p. simpl. rewrite !in_app_iff. simpl. tauto. }
    split; [|split; auto].
    + intros w Hw. destruct (A w Hw) as [Hl|(p & Hp & Ep)]; auto.
      right. exists p. split; auto. now apply Hperm.
    + intros p Hp. apply C. now apply Hperm.
Qed.

Definition empty_graph (ni : nat) : graph :=
  mkG (fun _ => blank_wire) ni (fun _ => mkN XOR 0 0 0 false false 0) 0 []
      (seq 0 ni) [] None None None 0.

Definition gate_to_new (G : graph) (o : op) (a b : nat) : graph * nat :=
  let '(G1, w) := new_wire G in (add_binary_gate G1 o a b w, w).
Definition inv_to_new (G : graph) (a : nat) : graph * nat :=
  let '(G1, w) := new_wire G in (add_inv_gate G1 a w, w).

(* Wire.SetOutput(true) on the wires of cc.OutputWires *)
Definition flag_outputs (G : graph) (outs : list nat) : graph :=
  let G1 := fold_left (fun G w => let r := gw G w in
               set_w G w (mkW (wv r) true (wnum r) (winp r) (wouts r) (wid r))) outs G in
  mkG (gw G1) (gnw G1) (gn G1) (gnn G1) (gorder G1) (gins G1) outs
      (ginv G1) (gzero G1) (gone G1) (gerr G1).

(* inputs w0 w1; constants as CompileCircuit creates them; w5 = w0 AND w1 has
   fan-out 2; an XOR with zero (short-circuited), an OR with one (constant),
   an unused INV (pruned); two outputs behind ID gates *)
Definition ex_graph_build : graph :=
  let G := empty_graph 2 in
  let '(G, z) := zero_wire G in
  let '(G, o) := one_wire G in
  let '(G, w5) := gate_to_new G AND 0 1 in
  let '(G, w6) := gate_to_new G XOR w5 z in
  let '(G, w7) := gate_to_new G OR w5 o in
  let '(G, _) := inv_to_new G 1 in
  let '(G, o1) := gate_to_new G XOR w6 z in
  let '(G, o2) := gate_to_new G XOR w7 z in
  flag_outputs G [o1; o2].

(* normalised once: later proofs compute on the closed record *)
Definition ex_graph : graph := Eval vm_compute in ex_graph_build.

Example ex_shape :
  gnw ex_graph = 11 /\ gorder ex_graph = [0; 1; 2; 3; 4; 5; 6; 7; 8] /\
  gouts ex_graph = [9; 10] /\ gzero ex_graph = Some 2 /\ gone ex_graph = Some 4 /\
  gerr ex_graph = 0.
Proof. vm_compute. repeat split. Qed.

(* The well-formedness records quantify over wire and gate indices; on a
   concrete graph every index below the allocation counter is checked by
   evaluation and all others at once (the tables are constant there).
   [upto n i tac]: tac for i = 0 .. n-1 and for the rest;
   [members H tac]: tac for every element of the concrete list in H. *)
Tactic Notation "upto" int_or_var(n) ident(i) tactic3(tac) := do n (destruct i as [|i]; [tac|]); tac.
Ltac members H tac := vm_compute in H; repeat (destruct H as [<-|H]; [tac|]); destruct H.

(* all fields of [wfb] but the last (producers of the outputs); nw wires, ng gates *)
Tactic Notation "wfb_tac" integer(nw) integer(ng) :=
  constructor;
  [ intros w; upto nw w reflexivity
  | intros g; upto ng g reflexivity
  | intros w H; members H reflexivity
  | vm_compute; repeat constructor; simpl; intuition; discriminate
  | intros w; upto nw w ltac:(vm_compute; split; intros H; try discriminate; intuition; discriminate)
  | intros g H; members H ltac:(intros w Hw; members Hw ltac:(vm_compute; auto 12))
  | intros w c H; upto nw w ltac:(vm_compute in H |- *; intuition)
  | intros g H; members H ltac:(intros w Hw; members Hw reflexivity)
  | intros g H; members H ltac:(vm_compute; lia)
  | ].

(* all fields of [wfx] but the last (the constant wires) *)
Tactic Notation "wfx_tac" integer(nw) :=
  constructor;
  [ vm_compute; repeat constructor; simpl; intuition; discriminate
  | intros c w H; members H ltac:(upto nw w ltac:(vm_compute; lia))
  | intros w; upto nw w ltac:(vm_compute; lia)
  | intros h H; members H reflexivity
  | intros w p H;
    upto nw w ltac:(vm_compute in H; try discriminate; inversion H; subst; vm_compute; auto 12)
  | intros c H; members H ltac:(split; [vm_compute; lia|intros w Hw; members Hw ltac:(vm_compute; lia)])
  | intros w H; members H ltac:(vm_compute; lia)
  | intros o H; members H ltac:(vm_compute; lia)
  | ].

Lemma ex_wfg : wfg ex_graph.
Proof.
  constructor.
  - vm_compute. repeat constructor; simpl; intuition; discriminate.
  - intros gid H. members H reflexivity.
  - intros l1 g l2 E.
    assert (TT : topo_ok ex_graph [] (gorder ex_graph) = true) by (vm_compute; reflexivity).
    exact (topo_ok_sound ex_graph (gorder ex_graph) [] TT l1 g l2 E).
  - exists 2, 4, 3, 1, 2, 0.
    repeat split; try (vm_compute; auto 12; discriminate).
    intros w H.
    upto 11 w ltac:(try (now left); try (now right); exfalso; apply H; vm_compute; reflexivity).
Qed.

Lemma ex_wfb : wfb ex_graph.
Proof.
  wfb_tac 11 9.
  intros o H. vm_compute in H. destruct H as [<-|[<-|[]]].
  - exists 7. vm_compute. auto 12.
  - exists 8. vm_compute. auto 12.
Qed.

(* non-vacuity of cwf, emission_ok and levels_ok: they hold of Compile's
   result on the example (constants, fan-out) *)
Example ex_cwf : cwf ex_graph.
Proof. exact (fresh_cwf0 _ (wfg_wfg0 _ ex_wfg) ex_wfb). Qed.

Example ex_emission :
  let st := compile_assign ex_graph in
  emission_ok (cg st) (id_of (cg st)) (cnext st) (casg st) /\ levels_ok (cg st) (casg st).
Proof. split; [apply compile_emission_ok|apply compile_levels_ok]; exact ex_cwf. Qed.

(* the example is not degenerate: ConstPropagate moves inputs and Prune kills
   gates (dead gates stay referenced from the output-gate lists), the GMW
   order differs from the Yao order, and all four configurations compute the
   graph's meaning on all four inputs.  ShortCircuitXORZero does not fire on
   it; it does on [ex2_graph] below. *)
Definition all_inputs2 : list (list bool) :=
  [[false; false]; [true; false]; [false; true]; [true; true]].

Example ex_dead_gates :
  let G3 := optimize true ex_graph in
  existsb (fun g => ndead (gn G3 g)) (seq 0 (gnn G3)) = true /\
  length (gorder G3) < length (gorder ex_graph) /\ gerr G3 = 0.
Proof. vm_compute. repeat split; auto. Qed.

Fixpoint lb_eqb (a b : list bool) : bool :=
  match a, b with
  | [], [] => true
  | x :: a', y :: b' => Bool.eqb x y && lb_eqb a' b'
  | _, _ => false
  end.

Example ex_pipeline_all_configs :
  forallb (fun x =>
    forallb (fun cfg : bool * target =>
      let c := pipeline (fst cfg) (snd cfg) ex_graph in
      lb_eqb (eval_plain c x) (graph_eval ex_graph x) && negb (Nat.eqb (length (eval_plain c x)) 0))
      [(false, Yao); (false, GMW); (true, Yao); (true, GMW)]) all_inputs2 = true.
Proof. vm_compute. reflexivity. Qed.

Definition ex_rank (w : nat) : nat := nth w [0; 0; 2; 1; 2; 3; 4; 4; 1; 5; 5] 0.

Lemma ex_isconst k : isconst ex_graph k -> k = 2 \/ k = 4.
Proof. intros [H|H]; vm_compute in H; inversion H; auto. Qed.

Lemma ex_wfx : wfx ex_graph.
Proof.
  wfx_tac 11.
  intros k H. destruct (ex_isconst k H) as [-> | ->]; vm_compute; split; auto; lia.
Qed.

Example ex_links_exact :
  links_exact (const_propagate ex_graph) (gorder (const_propagate ex_graph)).
Proof. exact (links_exact_derived _ ex_wfg ex_wfb ex_wfx). Qed.

(* w = XOR(in0, zero) is short-circuited by ConstPropagate; c = AND(w, w) reads
   it on both inputs; d = XOR(c, in1); the output is ID(d). *)
Definition ex2_build : graph :=
  let G := empty_graph 2 in
  let '(G, z) := zero_wire G in
  let '(G, o) := one_wire G in
  let '(G, w) := gate_to_new G XOR 0 z in
  let '(G, c) := gate_to_new G AND w w in
  let '(G, d) := gate_to_new G XOR c 1 in
  let '(G, o1) := gate_to_new G XOR d z in
  flag_outputs G [o1].
Definition ex2_graph : graph := Eval vm_compute in ex2_build.

(* gate 3 is w's producer, gate 4 the consumer, wire 5 is w *)
Example ex2_shape :
  nO (gn ex2_graph 3) = 5 /\ nA (gn ex2_graph 4) = 5 /\ nB (gn ex2_graph 4) = 5 /\
  wouts (gw ex2_graph 5) = [4; 4] /\ wnum (gw ex2_graph 5) = 2.
Proof. vm_compute. repeat split. Qed.

(* ConstPropagate moves BOTH inputs of the consumer to in0 (wire 0), clears
   w's list and counter, and every configuration still computes the meaning *)
Example ex2_both_inputs_moved :
  let G1 := const_propagate ex2_graph in
  nA (gn G1 4) = 0 /\ nB (gn G1 4) = 0 /\ wouts (gw G1 5) = [] /\ wnum (gw G1 5) = 0 /\
  gerr G1 = 0.
Proof. vm_compute. repeat split. Qed.

Example ex2_pipeline_all_configs :
  forallb (fun x =>
    forallb (fun cfg : bool * target =>
      let c := pipeline (fst cfg) (snd cfg) ex2_graph in
      lb_eqb (eval_plain c x) (graph_eval ex2_graph x) && negb (Nat.eqb (length (eval_plain c x)) 0))
      [(false, Yao); (false, GMW); (true, Yao); (true, GMW)]) all_inputs2 = true.
Proof. vm_compute. reflexivity. Qed.

(* The "visit once" variant: ForEachOutput skips consecutive duplicate entries
   and DisconnectOutputs only zeroes the counter.  Then only the A input of
   op(w, w) is moved, w's counter is forced to 0 while B still reads w, Prune
   kills w's producer, and the compiled circuit is wrong (or Prune panics). *)
Fixpoint dedup_consec (l : list nat) : list nat :=
  match l with
  | a :: ((b :: _) as t) => if Nat.eqb a b then dedup_consec t else a :: dedup_consec t
  | _ => l
  end.

Definition short_circuit_once (G : graph) (gid o : nat) : graph :=
  let out := nO (gn G gid) in
  if wout (gw G out) then G
  else
    let G1 := fold_left (fun G c => replace_input G c out o) (dedup_consec (wouts (gw G out))) G in
    set_w G1 out (w_set_num (gw G1 out) 0).

Definition cp_step_once (G : graph) (gid : nat) : graph :=
  let g := gn G gid in
  let a := wv (gw G (nA g)) in
  let b := if is_inv (nop g) then Unknown else wv (gw G (nB g)) in
  let G1 :=
    match cp_action (nop g) a b with
    | ActNone => G
    | ActZero => set_value G (nO g) Zero
    | ActOne => set_value G (nO g) One
    | ActSCB => short_circuit_once G gid (nB g)
    | ActSCA => short_circuit_once G gid (nA g)
    end in
  cp_subst_B (cp_subst_A G1 gid) gid.

Definition const_propagate_once (G : graph) : graph := fold_left cp_step_once (gorder G) G.

Definition pipeline_once (do_prune : bool) (t : target) (G : graph) : graph * circuit :=
  let G2 := short_circuit_xor_zero (const_propagate_once G) in
  let G3 := if do_prune then prune G2 else G2 in
  (cg (fst (compile_state t G3)), compile t G3).

Example ex2_once_moves_one_input :
  let G1 := const_propagate_once ex2_graph in
  nA (gn G1 4) = 0 /\ nB (gn G1 4) = 5 /\ wnum (gw G1 5) = 0.
Proof. vm_compute. repeat split. Qed.

(* without pruning the variant is still right; with pruning it is refuted:
   some input gives a different output, or a pass panics *)
Example ex2_once_noprune_ok :
  forallb (fun x => lb_eqb (eval_plain (snd (pipeline_once false Yao ex2_graph)) x)
                           (graph_eval ex2_graph x)) all_inputs2 = true.
Proof. vm_compute. reflexivity. Qed.

Example ex2_visit_once_refuted :
  exists x, In x all_inputs2 /\
    (negb (Nat.eqb (gerr (fst (pipeline_once true Yao ex2_graph))) 0) ||
     negb (lb_eqb (eval_plain (snd (pipeline_once true Yao ex2_graph)) x)
                  (graph_eval ex2_graph x))) = true.
Proof. exists [false; true]. split; [simpl; auto|]. vm_compute. reflexivity. Qed.
