(* PassesProof.v — theorems about Circuit/Passes.v (property C09).

   Meaning of a gate graph: a valuation [v : wire -> bool] with [sat G x v]
   (inputs carry x, every live gate's equation holds).  For a freshly built
   graph (gates in dependency order) [geval G x] is such a valuation.

   Every pass keeps a satisfying valuation (ConstPropagate: the same one;
   ShortCircuitXORZero: extended to the fresh wires; Prune: the same one) and
   keeps the constant annotations sound.  Compile: the flat circuit evaluates
   every emitted gate's output wire to the valuation's bit (any order in which
   inputs are written before they are read will do; the GMW sort yields such
   an order). *)
From Coq Require Import List Bool Arith Lia Permutation Sorting.Sorted.
From Mpc Require Import Circuit.Circuit Circuit.Passes.
Import ListNotations.

Lemma fupd_same {A} (f : nat -> A) i v : fupd f i v i = v.
Proof. unfold fupd. now rewrite Nat.eqb_refl. Qed.

Lemma fupd_other {A} (f : nat -> A) i j v : j <> i -> fupd f i v j = f j.
Proof. unfold fupd. intros H. destruct (Nat.eqb_spec j i); congruence. Qed.

Lemma wval_eqb_eq a b : wval_eqb a b = true <-> a = b.
Proof. destruct a, b; simpl; split; congruence. Qed.

Lemma wval_eq_dec (a b : wval) : {a = b} + {a <> b}.
Proof. decide equality. Qed.

Lemma isZ_true v : isZ v = true <-> v = Zero.
Proof. apply wval_eqb_eq. Qed.
Lemma isO_true v : isO v = true <-> v = One.
Proof. apply wval_eqb_eq. Qed.

Lemma fold_left_rel {A S} (R : S -> S -> Prop) (f : S -> A -> S) l :
  (forall s, R s s) -> (forall a b c, R a b -> R b c -> R a c) ->
  (forall s a, R s (f s a)) -> forall s, R s (fold_left f l s).
Proof. intros Rr Rt H. induction l; intros s; simpl; eauto. Qed.

Lemma fold_left_fix {A S} (f : S -> A -> S) l s : (forall a, f s a = s) -> fold_left f l s = s.
Proof. intros H. induction l as [|a l IH]; simpl; auto. now rewrite H. Qed.

Lemma In_nth_ex (l : list nat) w : In w l -> exists i, i < length l /\ nth i l 0 = w.
Proof. intros H. destruct (In_nth l w 0 H) as (i & Hi & He). eauto. Qed.

Lemma sorted_app {A} (R : A -> A -> Prop) l1 a l2 :
  StronglySorted R (l1 ++ a :: l2) ->
  (forall x, In x l1 -> R x a) /\ (forall x, In x l2 -> R a x).
Proof.
  induction l1 as [|b l1 IH]; simpl; intros H.
  - inversion H as [|? ? _ Hf]; subst. split; [intros x []|]. now apply Forall_forall.
  - inversion H as [|? ? Hs Hf]; subst. destruct (IH Hs) as [I1 I2]. split; auto.
    intros x [<-|Hx]; auto. rewrite Forall_forall in Hf. apply Hf. apply in_or_app. right. now left.
Qed.

Definition inputs_of (g : node) : list nat :=
  if is_inv (nop g) then [nA g] else [nA g; nB g].

Lemma inputs_of_A n : In (nA n) (inputs_of n).
Proof. unfold inputs_of. destruct (is_inv _); now left. Qed.

Lemma inputs_of_B n : is_inv (nop n) = false -> In (nB n) (inputs_of n).
Proof. intros H. unfold inputs_of. rewrite H. right. now left. Qed.

Lemma inputs_of_congr n n' :
  nop n' = nop n -> nA n' = nA n -> nB n' = nB n -> inputs_of n' = inputs_of n.
Proof. intros a b c. unfold inputs_of. now rewrite a, b, c. Qed.

Lemma node_fn_ext g v v' :
  (forall w, In w (inputs_of g) -> v w = v' w) -> node_fn g v = node_fn g v'.
Proof.
  unfold node_fn, inputs_of. intros H. destruct (is_inv (nop g)).
  - rewrite (H (nA g)) by (now left). reflexivity.
  - rewrite (H (nA g)) by (now left). rewrite (H (nB g)) by (right; now left). reflexivity.
Qed.

Lemma node_fn_congr n n' v v' :
  nop n' = nop n -> nA n' = nA n -> nB n' = nB n ->
  (forall w, In w (inputs_of n) -> v' w = v w) -> node_fn n' v' = node_fn n v.
Proof.
  intros H1 H2 H3 H. rewrite <- (node_fn_ext n v' v H). unfold node_fn. now rewrite H1, H2, H3.
Qed.

(* cc.ZeroWire()/cc.OneWire() once the constant exists *)
Lemma zero_wire_some G z : gzero G = Some z -> zero_wire G = (G, z).
Proof. intros H. unfold zero_wire. now rewrite H. Qed.

Lemma one_wire_some G o : gone G = Some o -> one_wire G = (G, o).
Proof. intros H. unfold one_wire. now rewrite H. Qed.

Definition vsound (G : graph) (v : nat -> bool) : Prop :=
  forall w, (wv (gw G w) = Zero -> v w = false) /\ (wv (gw G w) = One -> v w = true).

(* cc.ZeroWire() and cc.OneWire() exist (CompileCircuit creates both before
   any gate is added) and carry their values *)
Definition consts_ok (G : graph) : Prop :=
  exists z o, gzero G = Some z /\ gone G = Some o /\
              wv (gw G z) = Zero /\ wv (gw G o) = One.

Definition node_eqv (v : nat -> bool) (n n' : node) : Prop :=
  ndead n' = ndead n /\ nO n' = nO n /\ node_fn n' v = node_fn n v.

Lemma node_eqv_refl v n : node_eqv v n n.
Proof. repeat split. Qed.

Lemma sat_congr G G' x v :
  gorder G' = gorder G -> gins G' = gins G ->
  (forall gid, node_eqv v (gn G gid) (gn G' gid)) ->
  sat G x v -> sat G' x v.
Proof.
  intros Ho Hi Hn [Hin Hg]. split.
  - rewrite Hi. exact Hin.
  - intros gid [Hl Hd]. destruct (Hn gid) as (Hd' & HO & Hf).
    rewrite HO, Hf. apply Hg. split; [now rewrite <- Ho | congruence].
Qed.

Definition Inv (x : list bool) (v : nat -> bool) (G : graph) : Prop :=
  sat G x v /\ vsound G v /\ consts_ok G.

Lemma Inv_consts x v G : Inv x v G -> consts_ok G.
Proof. now intros (_ & _ & H). Qed.

(* liveness is not changed (no gate is added when the constants exist, none
   is marked dead) *)
Definition same_gates (G G' : graph) : Prop :=
  gorder G' = gorder G /\ forall i, ndead (gn G' i) = ndead (gn G i).

Lemma same_gates_refl G : same_gates G G.
Proof. split; auto. Qed.
Lemma same_gates_trans G1 G2 G3 : same_gates G1 G2 -> same_gates G2 G3 -> same_gates G1 G3.
Proof. intros [a b] [c d]. split; [congruence|]. intros i. now rewrite d, b. Qed.

Lemma same_gates_live G G' gid : same_gates G G' -> live G gid -> live G' gid.
Proof. intros [Ho Hd] [Hi Hn]. split; [now rewrite Ho|now rewrite Hd]. Qed.

Lemma live_dec G gid : In gid (gorder G) -> ndead (gn G gid) = false -> live G gid.
Proof. split; auto. Qed.

Definition ranged (G : graph) : Prop :=
  (forall gid, live G gid ->
     nO (gn G gid) < gnw G /\ forall w, In w (inputs_of (gn G gid)) -> w < gnw G) /\
  (forall w, In w (gins G) -> w < gnw G) /\
  (forall z, gzero G = Some z -> z < gnw G) /\ (forall o, gone G = Some o -> o < gnw G).

(* ConstPropagate edits the graph in three ways: wire bookkeeping ([wonly]),
   Wire.SetValue, and moving one input of one gate to another wire ([moved]).
   Each property below is shown to survive each kind of edit once. *)

Set Implicit Arguments.

(* an edit that touches only NumOutputs and the output-gate list of wires, or
   the error code *)
Record wonly (G G' : graph) : Prop := {
  wo_n : gn G' = gn G;
  wo_nw : gnw G' = gnw G;
  wo_nn : gnn G' = gnn G;
  wo_order : gorder G' = gorder G;
  wo_ins : gins G' = gins G;
  wo_outs : gouts G' = gouts G;
  wo_zero : gzero G' = gzero G;
  wo_one : gone G' = gone G;
  wo_wire : forall w, wv (gw G' w) = wv (gw G w) /\ wout (gw G' w) = wout (gw G w) /\
                      winp (gw G' w) = winp (gw G w) /\ wid (gw G' w) = wid (gw G w) }.

(* "the [side] input of gate c moves from wire [from] to wire [to]":
   Gate.ReplaceInput and the substitution blocks of ConstPropagate *)
Record moved (sideA : bool) (G G' : graph) (c from to : nat) : Prop := {
  m_order : gorder G' = gorder G;
  m_ins : gins G' = gins G;
  m_outs : gouts G' = gouts G;
  m_nw : gnw G' = gnw G;
  m_nn : gnn G' = gnn G;
  m_zero : gzero G' = gzero G;
  m_one : gone G' = gone G;
  m_node_o : forall i, i <> c -> gn G' i = gn G i;
  m_node_c : gn G' c = if sideA then n_set_A (gn G c) to else n_set_B (gn G c) to;
  m_from : (if sideA then nA (gn G c) else nB (gn G c)) = from /\
           (sideA = false -> is_inv (nop (gn G c)) = false);
  m_wire : forall w, wv (gw G' w) = wv (gw G w) /\ wout (gw G' w) = wout (gw G w) /\
                     winp (gw G' w) = winp (gw G w) /\ wid (gw G' w) = wid (gw G w);
  m_wouts : forall w, wouts (gw G' w) =
                      if Nat.eqb w to then wouts (gw G w) ++ [c] else wouts (gw G w);
  m_wnum : forall w, wnum (gw G w) + (if Nat.eqb w to then 1 else 0)
                     <= wnum (gw G' w) + (if Nat.eqb w from then 1 else 0) }.

Unset Implicit Arguments.

Lemma wonly_refl G : wonly G G.
Proof. constructor; auto. Qed.

Lemma wonly_trans G1 G2 G3 : wonly G1 G2 -> wonly G2 G3 -> wonly G1 G3.
Proof.
  intros A B. constructor; try (etransitivity; [apply B|apply A]).
  intros w. destruct (wo_wire A w) as (a1 & a2 & a3 & a4), (wo_wire B w) as (b1 & b2 & b3 & b4).
  repeat split; congruence.
Qed.

Lemma wonly_set_err G e : wonly G (set_err G e).
Proof. constructor; auto. Qed.

Lemma wonly_set_w G w r :
  wv r = wv (gw G w) -> wout r = wout (gw G w) -> winp r = winp (gw G w) -> wid r = wid (gw G w) ->
  wonly G (set_w G w r).
Proof.
  intros H1 H2 H3 H4. constructor; try reflexivity. intros w'. simpl. unfold fupd.
  destruct (Nat.eqb_spec w' w); subst; auto.
Qed.

Lemma wonly_remove_output G w : wonly G (remove_output G w).
Proof.
  unfold remove_output. destruct (wnum (gw G w)).
  - apply wonly_set_err.
  - apply wonly_set_w; reflexivity.
Qed.

(* Wire.RemoveOutput touches one counter; it panics only on an underflow *)
Lemma remove_output_wire G w w' :
  wouts (gw (remove_output G w) w') = wouts (gw G w') /\
  (0 < wnum (gw G w) ->
   wnum (gw (remove_output G w) w') + (if Nat.eqb w w' then 1 else 0) = wnum (gw G w') /\
   gerr (remove_output G w) = gerr G).
Proof.
  unfold remove_output. destruct (wnum (gw G w)) eqn:E; simpl.
  - split; [reflexivity|lia].
  - unfold fupd. rewrite (Nat.eqb_sym w w').
    destruct (Nat.eqb_spec w' w) as [->|Hne]; simpl; split; auto; intros _; split; auto; lia.
Qed.

Lemma wonly_disconnect G w : wonly G (disconnect_outputs G w).
Proof. apply wonly_set_w; reflexivity. Qed.

Lemma wonly_Inv {x v G G'} : wonly G G' -> Inv x v G -> Inv x v G'.
Proof.
  intros W (Hs & Hvs & (z & o & Hz1 & Ho1 & Hz2 & Ho2)).
  split; [|split].
  - apply (sat_congr G); [apply W|apply W| |exact Hs].
    intros gid. rewrite (wo_n W). apply node_eqv_refl.
  - intros w. rewrite (proj1 (wo_wire W w)). apply Hvs.
  - exists z, o. rewrite (wo_zero W), (wo_one W), !(proj1 (wo_wire W _)). auto.
Qed.

Lemma wonly_same_gates {G G'} : wonly G G' -> same_gates G G'.
Proof. intros W. split; [apply W|]. intros i. now rewrite (wo_n W). Qed.

Lemma wonly_ranged {G G'} : wonly G G' -> ranged G -> ranged G'.
Proof.
  intros W R. unfold ranged, live.
  rewrite (wo_n W), (wo_order W), (wo_nw W), (wo_ins W), (wo_zero W), (wo_one W). exact R.
Qed.

(* setting a value that is right keeps sat and vsound; consts_ok is kept
   because the value written to a constant wire is its own *)
Lemma set_value_Inv x v G w val :
  (val = Zero -> v w = false) -> (val = One -> v w = true) -> val <> Unknown ->
  Inv x v G -> Inv x v (set_value G w val).
Proof.
  intros Hz Ho Hnu (Hs & Hvs & (z & o & Hz1 & Ho1 & Hz2 & Ho2)).
  split; [|split].
  - apply (sat_congr G); [reflexivity|reflexivity| |exact Hs].
    intros g. apply node_eqv_refl.
  - intros w'. simpl. unfold fupd. destruct (Nat.eqb_spec w' w); subst; simpl; auto;
      try apply Hvs.
  - exists z, o. simpl. unfold fupd.
    destruct (Hvs z) as [Hzf _]. destruct (Hvs o) as [_ Hot].
    specialize (Hzf Hz2). specialize (Hot Ho2).
    repeat split; auto.
    + destruct (Nat.eqb_spec z w); subst; simpl; auto.
      destruct val; auto; try congruence. specialize (Ho eq_refl). congruence.
    + destruct (Nat.eqb_spec o w); subst; simpl; auto.
      destruct val; auto; try congruence. specialize (Hz eq_refl). congruence.
Qed.

Lemma node_fn_set_A v n a :
  v a = v (nA n) -> node_fn (n_set_A n a) v = node_fn n v.
Proof. unfold node_fn. simpl. now intros ->. Qed.

Lemma node_fn_set_B v n b :
  v b = v (nB n) -> node_fn (n_set_B n b) v = node_fn n v.
Proof. unfold node_fn. simpl. now intros ->. Qed.

Lemma inputs_set_A n to w : In w (inputs_of (n_set_A n to)) -> In w (inputs_of n) \/ w = to.
Proof. unfold inputs_of. simpl. destruct (is_inv (nop n)); simpl; intuition. Qed.

Lemma inputs_set_B n to w : In w (inputs_of (n_set_B n to)) -> In w (inputs_of n) \/ w = to.
Proof. unfold inputs_of. simpl. destruct (is_inv (nop n)); simpl; intuition. Qed.

Lemma moved_inputs {sa G G' c from to} :
  moved sa G G' c from to ->
  forall i w, In w (inputs_of (gn G' i)) -> In w (inputs_of (gn G i)) \/ (i = c /\ w = to).
Proof.
  intros M i w Hw. destruct (Nat.eq_dec i c) as [->|Hne].
  - rewrite (m_node_c M) in Hw. destruct sa.
    + destruct (inputs_set_A _ _ _ Hw); auto.
    + destruct (inputs_set_B _ _ _ Hw); auto.
  - rewrite (m_node_o M Hne) in Hw. auto.
Qed.

Lemma moved_from_input {sa G G' c from to} :
  moved sa G G' c from to -> In from (inputs_of (gn G c)).
Proof.
  intros M. destruct (m_from M) as [<- Hi]. destruct sa.
  - apply inputs_of_A.
  - apply inputs_of_B. now apply Hi.
Qed.

Lemma moved_fields {sa G G' c from to} :
  moved sa G G' c from to ->
  forall i, nO (gn G' i) = nO (gn G i) /\ ndead (gn G' i) = ndead (gn G i) /\
            nop (gn G' i) = nop (gn G i) /\ nvis (gn G' i) = nvis (gn G i).
Proof.
  intros M i. destruct (Nat.eq_dec i c) as [->|Hne].
  - rewrite (m_node_c M). destruct sa; auto.
  - rewrite (m_node_o M Hne). auto.
Qed.

Lemma moved_Inv {x v sa G G' c from to} :
  moved sa G G' c from to -> v from = v to -> Inv x v G -> Inv x v G'.
Proof.
  intros M Hv (Hs & Hvs & (z & o & Hz & Ho & Vz & Vo)).
  destruct (m_from M) as [Hf _].
  split; [|split].
  - apply (sat_congr G); [apply M|apply M| |exact Hs].
    intros g. destruct (Nat.eq_dec g c) as [->|Hne].
    + rewrite (m_node_c M). destruct sa; repeat split;
        [apply node_fn_set_A|apply node_fn_set_B]; congruence.
    + rewrite (m_node_o M Hne). apply node_eqv_refl.
  - intros w. rewrite (proj1 (m_wire M w)). apply Hvs.
  - exists z, o. rewrite (m_zero M), (m_one M), !(proj1 (m_wire M _)). auto.
Qed.

Lemma moved_same_gates {sa G G' c from to} : moved sa G G' c from to -> same_gates G G'.
Proof. intros M. split; [apply M|]. intros i. apply (moved_fields M). Qed.

Lemma moved_ranged {sa G G' c from to} :
  moved sa G G' c from to -> to < gnw G -> ranged G -> ranged G'.
Proof.
  intros M Ht (R1 & R2). unfold ranged.
  rewrite (m_nw M), (m_ins M), (m_zero M), (m_one M). split; [|exact R2].
  intros i [Hi Hd]. rewrite (m_order M) in Hi.
  destruct (moved_fields M i) as (f1 & f2 & _). rewrite f2 in Hd.
  destruct (R1 i (conj Hi Hd)) as [r1 r2]. rewrite f1. split; auto.
  intros w Hw. destruct (moved_inputs M i w Hw) as [H|[_ ->]]; auto.
Qed.

(* [moved] between explicit graph terms: each field is an equation, closed by
   splitting on the updated wire and gate indices *)
Ltac moved_tac :=
  constructor; simpl; try reflexivity; auto;
  try (intros; unfold fupd;
       repeat match goal with |- context [Nat.eqb ?a ?b] => destruct (Nat.eqb_spec a b) end;
       subst; simpl; try lia; try congruence; auto).

(* Gate.ReplaceInput moves the A input, else the B input, else panics; the
   move itself panics only on a NumOutputs underflow *)
Lemma replace_input_spec G c from to :
  (exists sa, moved sa G (replace_input G c from to) c from to /\
              (0 < wnum (gw G from) -> gerr (replace_input G c from to) = gerr G)) \/
  (~ In from (inputs_of (gn G c)) /\ replace_input G c from to = set_err G 3).
Proof.
  unfold replace_input, inputs_of.
  destruct (Nat.eqb_spec (nA (gn G c)) from) as [HA|HA].
  - left. exists true. unfold remove_output.
    destruct (wnum (gw G from)) eqn:En; (split; [moved_tac|intros; lia || reflexivity]).
  - destruct (is_inv (nop (gn G c))) eqn:Ei; simpl.
    + right. split; [intros [H|[]]; contradiction|reflexivity].
    + destruct (Nat.eqb_spec (nB (gn G c)) from) as [HB|HB].
      * left. exists false. unfold remove_output.
        destruct (wnum (gw G from)) eqn:En; (split; [moved_tac|intros; lia || reflexivity]).
      * right. split; [intros [H|[H|[]]]; contradiction|reflexivity].
Qed.

(* the two substitution blocks after the switch *)
Definition side (sa : bool) (n : node) : nat := if sa then nA n else nB n.
Definition subst (sa : bool) (G : graph) (g : nat) : graph :=
  if sa then cp_subst_A G g else cp_subst_B G g.

Lemma subst_spec sa G g :
  consts_ok G ->
  let a := side sa (gn G g) in
  subst sa G g = G \/
  exists k, (gzero G = Some k \/ gone G = Some k) /\ wv (gw G k) = wv (gw G a) /\
            wv (gw G a) <> Unknown /\ moved sa G (subst sa G g) g a k /\
            (0 < wnum (gw G a) -> gerr (subst sa G g) = gerr G).
Proof.
  intros (z & o & Hz & Ho & Vz & Vo). simpl.
  (* the four blocks are one edit *)
  assert (Move : forall k, (sa = false -> is_inv (nop (gn G g)) = false) ->
            let a := side sa (gn G g) in
            let G1 := remove_output G a in
            let G' := add_output (set_n G1 g (if sa then n_set_A (gn G1 g) k else n_set_B (gn G1 g) k)) k g in
            moved sa G G' g a k /\ (0 < wnum (gw G a) -> gerr G' = gerr G)).
  { intros k Hi. simpl. unfold remove_output.
    destruct sa; simpl; destruct (wnum (gw G _)) eqn:En;
      (split; [moved_tac|intros; lia || reflexivity]). }
  assert (Wz : forall a, gzero (remove_output G a) = Some z) by (intros a; rewrite <- Hz; apply wonly_remove_output).
  assert (Wo : forall a, gone (remove_output G a) = Some o) by (intros a; rewrite <- Ho; apply wonly_remove_output).
  destruct sa; simpl; unfold cp_subst_A, cp_subst_B.
  - destruct (wv (gw G (nA (gn G g)))) eqn:Ev; [now left| |]; right.
    + exists z. rewrite (zero_wire_some _ z (Wz _)).
      split; [now left|]. split; [congruence|]. split; [discriminate|]. apply (Move z). discriminate.
    + exists o. rewrite (one_wire_some _ o (Wo _)).
      split; [now right|]. split; [congruence|]. split; [discriminate|]. apply (Move o). discriminate.
  - destruct (is_inv (nop (gn G g))) eqn:Ei; [now left|].
    destruct (wv (gw G (nB (gn G g)))) eqn:Ev; [now left| |]; right.
    + exists z. rewrite (zero_wire_some _ z (Wz _)).
      split; [now left|]. split; [congruence|]. split; [discriminate|]. now apply (Move z).
    + exists o. rewrite (one_wire_some _ o (Wo _)).
      split; [now right|]. split; [congruence|]. split; [discriminate|]. now apply (Move o).
Qed.

(* the loop of Gate.ShortCircuit *)
Lemma fold_replace_ind (P : graph -> Prop) O o :
  (forall G G', wonly G G' -> P G -> P G') ->
  (forall sa G G' c, moved sa G G' c O o -> P G -> P G') ->
  forall l G, P G -> P (fold_left (fun G c => replace_input G c O o) l G).
Proof.
  intros Pw Pm. induction l as [|c l IH]; intros G H; simpl; auto.
  apply IH. destruct (replace_input_spec G c O o) as [(sa & M & _)|(_ & ->)].
  - exact (Pm _ _ _ _ M H).
  - exact (Pw _ _ (wonly_set_err G 3) H).
Qed.

Lemma short_circuit_ind (P : graph -> Prop) G g o :
  (forall G G', wonly G G' -> P G -> P G') ->
  (forall sa G1 G2 c, moved sa G1 G2 c (nO (gn G g)) o -> P G1 -> P G2) ->
  P G -> P (short_circuit G g o).
Proof.
  intros Pw Pm H. unfold short_circuit. destruct (wout _); auto.
  apply (Pw _ _ (wonly_disconnect _ _)). now apply fold_replace_ind.
Qed.

Lemma short_circuit_Inv x v G gid o :
  v (nO (gn G gid)) = v o -> Inv x v G -> Inv x v (short_circuit G gid o).
Proof.
  intros Hv. apply short_circuit_ind.
  - intros G1 G2 W. exact (wonly_Inv W).
  - intros sa G1 G2 c M. exact (moved_Inv M Hv).
Qed.

Lemma short_circuit_ranged G gid o :
  ranged G -> o < gnw G -> ranged (short_circuit G gid o).
Proof.
  intros R Ho.
  apply (short_circuit_ind (fun H => ranged H /\ o < gnw H) G gid o); auto.
  - intros G1 G2 W [R1 H1]. split; [exact (wonly_ranged W R1)|now rewrite (wo_nw W)].
  - intros sa G1 G2 c M [R1 H1]. split; [exact (moved_ranged M H1 R1)|now rewrite (m_nw M)].
Qed.

Lemma cp_action_sound o a b va vb :
  (a = Zero -> va = false) -> (a = One -> va = true) ->
  (b = Zero -> vb = false) -> (b = One -> vb = true) ->
  match cp_action o a b with
  | ActNone => True
  | ActZero => gate_fn o va vb = false
  | ActOne => gate_fn o va vb = true
  | ActSCB => gate_fn o va vb = vb /\ o <> INV
  | ActSCA => gate_fn o va vb = va
  end.
Proof.
  intros Haz Hao Hbz Hbo.
  destruct o, a, b; simpl;
    try (specialize (Haz eq_refl)); try (specialize (Hao eq_refl));
    try (specialize (Hbz eq_refl)); try (specialize (Hbo eq_refl));
    subst; simpl; auto; try (split; [|discriminate]);
    try (destruct va; reflexivity); try (destruct vb; reflexivity).
Qed.

Lemma cp_action_scb o a b : cp_action o a b = ActSCB -> is_inv o = false.
Proof. destruct o; simpl; auto. destruct (isO a); [discriminate|]. destruct (isZ a); discriminate. Qed.

(* the switch of ConstPropagate as a function of its own *)
Definition cp_switch (G : graph) (gid : nat) : graph :=
  let g := gn G gid in
  let a := wv (gw G (nA g)) in
  let b := if is_inv (nop g) then Unknown else wv (gw G (nB g)) in
  match cp_action (nop g) a b with
  | ActNone => G
  | ActZero => set_value G (nO g) Zero
  | ActOne => set_value G (nO g) One
  | ActSCB => short_circuit G gid (nB g)
  | ActSCA => short_circuit G gid (nA g)
  end.

Lemma cp_step_eq G gid : cp_step G gid = subst false (subst true (cp_switch G gid) gid) gid.
Proof. reflexivity. Qed.

Lemma cp_switch_Inv x v G gid : live G gid -> Inv x v G -> Inv x v (cp_switch G gid).
Proof.
  intros Hl HI. unfold cp_switch. set (g := gn G gid).
  pose proof HI as (Hs & Hvs & _).
  assert (Heq : v (nO g) = node_fn g v) by (apply Hs; exact Hl).
  set (a := wv (gw G (nA g))).
  set (b := if is_inv (nop g) then Unknown else wv (gw G (nB g))).
  pose proof (cp_action_sound (nop g) a b (v (nA g))
                (if is_inv (nop g) then false else v (nB g))) as Hact.
  assert (Ha : (a = Zero -> v (nA g) = false) /\ (a = One -> v (nA g) = true)) by apply Hvs.
  assert (Hb : (b = Zero -> (if is_inv (nop g) then false else v (nB g)) = false) /\
               (b = One -> (if is_inv (nop g) then false else v (nB g)) = true)).
  { unfold b. destruct (is_inv (nop g)); [split; discriminate|apply Hvs]. }
  specialize (Hact (proj1 Ha) (proj2 Ha) (proj1 Hb) (proj2 Hb)).
  fold (node_fn g v) in Hact.
  destruct (cp_action (nop g) a b).
  - exact HI.
  - apply set_value_Inv; auto; try congruence.
  - apply set_value_Inv; auto; try congruence.
  - destruct Hact as [Hf Hni]. apply short_circuit_Inv; auto.
    fold g. rewrite Heq. unfold node_fn in *. rewrite Hf.
    destruct (nop g); simpl; congruence.
  - apply short_circuit_Inv; auto. fold g. rewrite Heq. exact Hact.
Qed.

Lemma cp_switch_ranged G gid : live G gid -> ranged G -> ranged (cp_switch G gid).
Proof.
  intros L R. unfold cp_switch. destruct (proj1 R gid L) as [_ RI].
  destruct (cp_action _ _ _) eqn:E; try exact R.
  - apply short_circuit_ranged; auto. apply RI, inputs_of_B. exact (cp_action_scb _ _ _ E).
  - apply short_circuit_ranged; auto. apply RI, inputs_of_A.
Qed.

Lemma subst_Inv sa x v G g : Inv x v G -> Inv x v (subst sa G g).
Proof.
  intros HI.
  destruct (subst_spec sa G g (Inv_consts _ _ _ HI)) as [->|(k & _ & Ek & Hn & M & _)]; auto.
  apply (moved_Inv M); auto.
  destruct HI as (_ & Hvs & _).
  destruct (Hvs (side sa (gn G g))) as [A0 A1]. destruct (Hvs k) as [K0 K1].
  destruct (wv (gw G (side sa (gn G g)))); [congruence| |].
  - rewrite A0, K0; auto.
  - rewrite A1, K1; auto.
Qed.

Lemma subst_ranged sa G g : consts_ok G -> ranged G -> ranged (subst sa G g).
Proof.
  intros C R. destruct (subst_spec sa G g C) as [->|(k & Hk & _ & _ & M & _)]; auto.
  apply (moved_ranged M); auto.
  destruct R as (_ & _ & Rz & Ro). destruct Hk; auto.
Qed.

Lemma cp_step_Inv x v G gid :
  live G gid -> Inv x v G ->
  Inv x v (cp_step G gid) /\ (ranged G -> ranged (cp_step G gid)).
Proof.
  intros Hl HI. rewrite cp_step_eq.
  pose proof (cp_switch_Inv x v G gid Hl HI) as I1.
  pose proof (subst_Inv true x v _ gid I1) as I2.
  split; [now apply subst_Inv|]. intros R.
  apply subst_ranged; [exact (Inv_consts _ _ _ I2)|].
  apply subst_ranged; [exact (Inv_consts _ _ _ I1)|]. now apply cp_switch_ranged.
Qed.

(* frame conditions: a preorder on graphs that contains the three kinds of edit
   contains every iteration of the loop *)
Set Implicit Arguments.
Record frame (R : graph -> graph -> Prop) : Prop := {
  f_refl : forall G, R G G;
  f_trans : forall G1 G2 G3, R G1 G2 -> R G2 G3 -> R G1 G3;
  f_wonly : forall G G', wonly G G' -> R G G';
  f_value : forall G w val, R G (set_value G w val);
  f_moved : forall sa G G' c from to, moved sa G G' c from to -> R G G' }.
Unset Implicit Arguments.

Section Frame.
  Variable R : graph -> graph -> Prop.
  Hypothesis F : frame R.

  Lemma short_circuit_frame G g o : R G (short_circuit G g o).
  Proof.
    apply (short_circuit_ind (R G)); [| |apply (f_refl F)].
    - intros G1 G2 W H. exact (f_trans F _ _ _ H (f_wonly F W)).
    - intros sa G1 G2 c M H. exact (f_trans F _ _ _ H (f_moved F M)).
  Qed.

  Lemma cp_switch_frame G g : R G (cp_switch G g).
  Proof.
    unfold cp_switch.
    destruct (cp_action _ _ _); auto using short_circuit_frame, (f_refl F), (f_value F).
  Qed.

  Lemma subst_frame sa G g : consts_ok G -> R G (subst sa G g).
  Proof.
    intros C. destruct (subst_spec sa G g C) as [->|(k & _ & _ & _ & M & _)].
    - apply (f_refl F).
    - exact (f_moved F M).
  Qed.

  Lemma cp_step_frame x v G g : live G g -> Inv x v G -> R G (cp_step G g).
  Proof.
    intros Hl HI. rewrite cp_step_eq.
    pose proof (cp_switch_Inv x v G g Hl HI) as I1.
    pose proof (subst_Inv true x v _ g I1) as I2.
    apply (f_trans F) with (cp_switch G g); [apply cp_switch_frame|].
    apply (f_trans F) with (subst true (cp_switch G g) g); apply subst_frame.
    - exact (Inv_consts _ _ _ I1).
    - exact (Inv_consts _ _ _ I2).
  Qed.
End Frame.

Lemma same_gates_frame : frame same_gates.
Proof.
  constructor.
  - apply same_gates_refl.
  - apply same_gates_trans.
  - intros G G'. apply wonly_same_gates.
  - split; auto.
  - intros sa G G' c from to. apply moved_same_gates.
Qed.

(* the loop of ConstPropagate: a step needs [Inv] and a live gate, so both travel
   with the relation [R] that is being established *)
Lemma cp_fold_sweep (R : graph -> graph -> Prop) x v :
  (forall G, R G G) -> (forall G1 G2 G3, R G1 G2 -> R G2 G3 -> R G1 G3) ->
  (forall G g, live G g -> Inv x v G -> R G (cp_step G g)) ->
  forall l G, (forall gid, In gid l -> live G gid) -> Inv x v G ->
  let G' := fold_left cp_step l G in
  Inv x v G' /\ same_gates G G' /\ (ranged G -> ranged G') /\ R G G'.
Proof.
  intros Rr Rt Rs. induction l as [|gid l IH]; intros G Hl HI; simpl.
  - auto using same_gates_refl.
  - assert (Hg : live G gid) by (apply Hl; now left).
    destruct (cp_step_Inv x v G gid Hg HI) as [I1 R1].
    pose proof (cp_step_frame _ same_gates_frame x v G gid Hg HI) as S1.
    destruct (IH (cp_step G gid)) as (I2 & S2 & R2 & F2); auto.
    + intros g Hin. apply (same_gates_live _ _ g S1). apply Hl. now right.
    + split; [exact I2|]. split; [eapply same_gates_trans; eauto|]. split; [auto|].
      eapply Rt; [apply Rs|]; eauto.
Qed.

Lemma cp_fold_frame R (F : frame R) x v l G :
  (forall gid, In gid l -> live G gid) -> Inv x v G -> R G (fold_left cp_step l G).
Proof.
  intros Hl HI. apply (cp_fold_sweep R x v (f_refl F) (f_trans F)); auto.
  intros G1 g. now apply cp_step_frame.
Qed.

(* C09_const_propagate: when no gate of cc.Gates is dead, the same valuation
   satisfies the propagated graph, the (new) constant annotations are right
   for it, and the set of live gates is unchanged *)
Theorem const_propagate_sat x v G :
  (forall gid, In gid (gorder G) -> ndead (gn G gid) = false) ->
  Inv x v G ->
  Inv x v (const_propagate G) /\ same_gates G (const_propagate G).
Proof.
  intros Hd HI.
  destruct (cp_fold_sweep (fun _ _ => True) x v) with (l := gorder G) (G := G) as (I1 & S1 & _); auto.
  intros gid Hin. split; auto.
Qed.

(* an edit that removes constraints only *)
Definition shrinks (G G' : graph) : Prop :=
  gins G' = gins G /\ gzero G' = gzero G /\ gone G' = gone G /\
  (forall w, wv (gw G' w) = wv (gw G w)) /\
  (forall gid, nop (gn G' gid) = nop (gn G gid) /\ nA (gn G' gid) = nA (gn G gid) /\
               nB (gn G' gid) = nB (gn G gid) /\ nO (gn G' gid) = nO (gn G gid)) /\
  (forall gid, ndead (gn G gid) = true -> ndead (gn G' gid) = true).

Lemma shrinks_refl G : shrinks G G.
Proof. repeat split; auto. Qed.

Lemma shrinks_trans G1 G2 G3 : shrinks G1 G2 -> shrinks G2 G3 -> shrinks G1 G3.
Proof.
  intros (a1&a2&a3&a4&a5&a6) (b1&b2&b3&b4&b5&b6).
  split; [congruence|]. split; [congruence|]. split; [congruence|].
  split; [intros w; now rewrite b4, a4|].
  split; [|auto].
  intros gid. destruct (a5 gid) as (p1&p2&p3&p4). destruct (b5 gid) as (q1&q2&q3&q4).
  repeat split; congruence.
Qed.

Lemma wonly_shrinks G G' : wonly G G' -> shrinks G G'.
Proof.
  intros W.
  split; [apply W|]. split; [apply W|]. split; [apply W|].
  split; [intros w; apply (wo_wire W)|].
  split; intros gid; rewrite (wo_n W); auto.
Qed.

Lemma gate_prune_shrinks G gid :
  shrinks G (fst (gate_prune G gid)) /\
  gorder (fst (gate_prune G gid)) = gorder G.
Proof.
  unfold gate_prune.
  destruct (ndead (gn G gid) || wout (gw G (nO (gn G gid))) ||
            negb (Nat.eqb (wnum (gw G (nO (gn G gid)))) 0)); simpl.
  - split; auto using shrinks_refl.
  - set (G1 := set_n G gid (n_set_dead (gn G gid))).
    assert (S1 : shrinks G G1).
    { split; [reflexivity|]. split; [reflexivity|]. split; [reflexivity|].
      split; [reflexivity|]. split.
      - intros g. simpl. unfold fupd. destruct (Nat.eqb_spec g gid); subst; auto.
      - intros g. simpl. unfold fupd. destruct (Nat.eqb_spec g gid); subst; auto. }
    set (G2 := if is_inv (nop (gn G gid)) then G1 else remove_output G1 (nB (gn G gid))).
    assert (W2 : wonly G1 G2).
    { unfold G2. destruct (is_inv _); [apply wonly_refl|apply wonly_remove_output]. }
    pose proof (wonly_remove_output G2 (nA (gn G gid))) as W3.
    split.
    + eapply shrinks_trans; [exact S1|].
      eapply shrinks_trans; apply wonly_shrinks; eauto.
    + now rewrite (wo_order W3), (wo_order W2).
Qed.

Definition prune_step : graph * list nat -> nat -> graph * list nat :=
  fun '(G, kept) gid =>
    let '(G1, p) := gate_prune G gid in
    (G1, if p then kept else gid :: kept).

Lemma prune_sweep_eq G l : prune_sweep G l = fold_left prune_step l (G, []).
Proof. reflexivity. Qed.

Lemma prune_fold_rel (R : graph -> graph -> Prop) :
  (forall G, R G G) -> (forall G1 G2 G3, R G1 G2 -> R G2 G3 -> R G1 G3) ->
  (forall G g, R G (fst (gate_prune G g))) ->
  forall l st, R (fst st) (fst (fold_left prune_step l st)).
Proof.
  intros Rr Rt Rs l st.
  apply (fold_left_rel (fun a b => R (fst a) (fst b))); auto.
  - intros a b c. apply Rt.
  - intros [G kept] g. simpl. specialize (Rs G g). destruct (gate_prune G g). exact Rs.
Qed.

Lemma prune_rel (R : graph -> graph -> Prop) :
  (forall G, R G G) -> (forall G1 G2 G3, R G1 G2 -> R G2 G3 -> R G1 G3) ->
  (forall G g, R G (fst (gate_prune G g))) -> (forall G o, R G (set_order G o)) ->
  forall G, R G (prune G).
Proof.
  intros Rr Rt Rs Ro G. unfold prune. rewrite prune_sweep_eq.
  pose proof (prune_fold_rel R Rr Rt Rs (rev (gorder G)) (G, [])) as H.
  destruct (fold_left prune_step (rev (gorder G)) (G, [])) as [G1 kept]. simpl in H.
  eapply Rt; [exact H|apply Ro].
Qed.

Lemma prune_fold_kept l : forall st g,
  In g (snd (fold_left prune_step l st)) -> In g (snd st) \/ In g l.
Proof.
  induction l as [|gid l IH]; intros [G kept] g Hg; simpl in *; auto.
  destruct (gate_prune G gid) as [G1 p]. destruct (IH _ g Hg) as [H|H]; auto.
  destruct p; simpl in H; auto. destruct H; auto.
Qed.

Lemma prune_shrinks G :
  shrinks G (prune G) /\ forall gid, In gid (gorder (prune G)) -> In gid (gorder G).
Proof.
  unfold prune. rewrite prune_sweep_eq.
  pose proof (prune_fold_rel shrinks shrinks_refl shrinks_trans
                (fun G g => proj1 (gate_prune_shrinks G g)) (rev (gorder G)) (G, [])) as S.
  pose proof (prune_fold_kept (rev (gorder G)) (G, [])) as K.
  destruct (fold_left prune_step (rev (gorder G)) (G, [])) as [G1 kept]. simpl in *.
  split; [exact S|]. intros gid Hin. destruct (K gid Hin) as [[]|H]. now apply in_rev.
Qed.

Lemma shrinks_sat x v G G' :
  shrinks G G' -> (forall gid, In gid (gorder G') -> In gid (gorder G)) ->
  sat G x v -> sat G' x v.
Proof.
  intros (Hi & _ & _ & _ & Hn & Hd) Ho (Hin & Hg).
  split; [now rewrite Hi|].
  intros gid [Hl Hdead]. destruct (Hn gid) as (p1&p2&p3&p4).
  unfold node_fn. rewrite p1, p2, p3, p4. apply Hg. split; auto.
  destruct (ndead (gn G gid)) eqn:E; auto. rewrite (Hd gid E) in Hdead. discriminate.
Qed.

Lemma shrinks_Inv x v G G' :
  shrinks G G' -> (forall gid, In gid (gorder G') -> In gid (gorder G)) ->
  Inv x v G -> Inv x v G'.
Proof.
  intros S Ho (Hs & Hvs & (z & o & Hz1 & Ho1 & Hz2 & Ho2)).
  split; [exact (shrinks_sat x v G G' S Ho Hs)|].
  destruct S as (_ & Hz & Hone & Hv & _). split.
  - intros w. rewrite Hv. apply Hvs.
  - exists z, o. rewrite Hz, Hone, !Hv. auto.
Qed.

(* Prune needs no constants: [sat] alone is kept *)
Theorem prune_sat0 x v G : sat G x v -> sat (prune G) x v.
Proof. destruct (prune_shrinks G) as [S O]. now apply shrinks_sat. Qed.

(* C09_prune *)
Theorem prune_sat x v G : Inv x v G -> Inv x v (prune G).
Proof. destruct (prune_shrinks G) as [S O]. now apply shrinks_Inv. Qed.

(* a wire that holds a bit in the flat circuit: a circuit input or the
   output of an emitted gate *)
Definition rel (G : graph) (order : list nat) (w : nat) : Prop :=
  In w (gins G) \/ exists p, In p order /\ nO (gn G p) = w.

Record emission_ok (G : graph) (idf : nat -> nat) (nw : nat) (order : list nat) : Prop := {
  e_live : forall gid, In gid order -> live G gid;
  e_dep : forall l1 g l2, order = l1 ++ g :: l2 ->
          forall w, In w (inputs_of (gn G g)) ->
          In w (gins G) \/ exists p, In p l1 /\ nO (gn G p) = w;
  e_inj : forall w1 w2, rel G order w1 -> rel G order w2 -> idf w1 = idf w2 -> w1 = w2;
  e_lt : forall w, rel G order w -> idf w < nw;
  e_ins : forall i, i < length (gins G) -> idf (nth i (gins G) 0) = i;
  e_outs : forall k, k < length (gouts G) ->
           rel G order (nth k (gouts G) 0) /\
           idf (nth k (gouts G) 0) = nw - length (gouts G) + k }.

(* Gate.Compile with an arbitrary numbering *)
Definition emit_with (G : graph) (idf : nat -> nat) (gid : nat) : list gate :=
  let g := gn G gid in
  if ndead g then []
  else if is_inv (nop g) then [mkGate (idf (nA g)) 0 (idf (nO g)) INV]
  else [mkGate (idf (nA g)) (idf (nB g)) (idf (nO g)) (nop g)].

Lemma emit_emit_with G gid : emit G gid = emit_with G (id_of G) gid.
Proof. reflexivity. Qed.

Definition flat (G : graph) (idf : nat -> nat) (nw : nat) (order : list nat) : circuit :=
  mkCircuit nw (length (gins G)) (length (gouts G)) (flat_map (emit_with G idf) order).

Lemma eval_emit_with G idf g ws :
  ndead (gn G g) = false ->
  fold_left eval_gate (emit_with G idf g) ws =
  upd ws (idf (nO (gn G g))) (node_fn (gn G g) (fun w => nth (idf w) ws false)).
Proof.
  intros Hd. unfold emit_with, node_fn. rewrite Hd.
  destruct (is_inv (nop (gn G g))) eqn:Ei; [|reflexivity].
  destruct (nop (gn G g)); try discriminate. reflexivity.
Qed.

Section FlatEval.
  Variables (G : graph) (idf : nat -> nat) (nw : nat) (order : list nat).
  Variables (x : list bool) (v : nat -> bool).
  Hypothesis EO : emission_ok G idf nw order.
  Hypothesis SAT : sat G x v.

  Lemma run_suffix : forall l2 l1 ws,
    order = l1 ++ l2 -> length ws = nw ->
    (forall w, (In w (gins G) \/ exists p, In p l1 /\ nO (gn G p) = w) ->
               nth (idf w) ws false = v w) ->
    let ws' := fold_left eval_gate (flat_map (emit_with G idf) l2) ws in
    length ws' = nw /\ forall w, rel G order w -> nth (idf w) ws' false = v w.
  Proof.
    induction l2 as [|g l2 IH]; intros l1 ws Ho Hlen Hready; simpl.
    - split; auto. intros w Hr. apply Hready. rewrite app_nil_r in Ho. subst l1. exact Hr.
    - assert (Hin : In g order) by (rewrite Ho; apply in_or_app; right; now left).
      pose proof (e_live _ _ _ _ EO g Hin) as Hg.
      assert (HrO : rel G order (nO (gn G g))) by (right; eauto).
      assert (Hrd : forall w, In w (inputs_of (gn G g)) -> nth (idf w) ws false = v w).
      { intros w Hw. apply Hready. eapply (e_dep _ _ _ _ EO); eauto. }
      assert (Hrel1 : forall w, (In w (gins G) \/ exists p, In p l1 /\ nO (gn G p) = w) ->
                                rel G order w).
      { intros w [H|(p & Hp & E)]; [now left|]. right. exists p. split; auto.
        rewrite Ho. apply in_or_app. now left. }
      (* g writes the valuation's bit *)
      rewrite fold_left_app, (eval_emit_with G idf g ws (proj2 Hg)).
      rewrite (node_fn_ext _ _ v Hrd), <- (proj2 SAT g Hg).
      apply (IH (l1 ++ [g])); [rewrite <- app_assoc; exact Ho|now rewrite upd_length|].
      intros w Hw.
      assert (Hw' : w = nO (gn G g) \/ (w <> nO (gn G g) /\ nth (idf w) ws false = v w /\ rel G order w)).
      { destruct (Nat.eq_dec w (nO (gn G g))); auto. right. split; auto.
        destruct Hw as [H|(p & Hp & Ep)]; [split; [apply Hready|]; now left|].
        apply in_app_or in Hp. destruct Hp as [Hp|[<-|[]]]; [|congruence].
        split; [apply Hready|apply Hrel1]; right; eauto. }
      destruct Hw' as [->|(Hne & Hv & Hr)].
      + rewrite nth_upd_eq by (rewrite Hlen; now apply (e_lt _ _ _ _ EO)). reflexivity.
      + rewrite nth_upd_neq; [exact Hv|].
        intros E. apply Hne. symmetry. now apply (e_inj _ _ _ _ EO).
  Qed.

  (* C09_compile_order *)
  Lemma flat_eval_correct :
    length x = length (gins G) ->
    eval_plain (flat G idf nw order) x = map v (gouts G).
  Proof.
    intros Hx.
    assert (Hni : length (gins G) <= nw).
    { destruct (gins G) as [|a l] eqn:E; simpl; [lia|].
      assert (H : idf (nth (length l) (gins G) 0) < nw).
      { apply (e_lt _ _ _ _ EO). left. apply nth_In. rewrite E. simpl. lia. }
      rewrite (e_ins _ _ _ _ EO) in H by (rewrite E; simpl; lia). lia. }
    unfold eval_plain, eval_plain_wires, init_wires, flat. simpl.
    destruct (run_suffix order [] (firstn (length (gins G)) x ++ repeat false (nw - length (gins G))))
      as [Hlen Hall]; auto.
    - rewrite app_length, firstn_all2, repeat_length by lia. lia.
    - intros w [Hw|(p & [] & _)].
      destruct (In_nth_ex _ _ Hw) as (i & Hi & <-).
      rewrite (e_ins _ _ _ _ EO) by auto.
      rewrite firstn_all2, app_nth1 by lia.
      symmetry. apply SAT. exact Hi.
    - unfold output_wires. simpl.
      set (ws := fold_left eval_gate (flat_map (emit_with G idf) order) _) in *.
      assert (Hk : forall k, k < length (gouts G) ->
                  nth (nw - length (gouts G) + k) ws false = v (nth k (gouts G) 0)).
      { intros k Hk. destruct (e_outs _ _ _ _ EO k Hk) as [Hr Hid].
        rewrite <- Hid. now apply Hall. }
      clear - Hk. revert Hk. generalize (nw - length (gouts G)) as base.
      induction (gouts G) as [|o l IH]; intros base Hk; simpl; auto.
      f_equal.
      + specialize (Hk 0). simpl in Hk. rewrite Nat.add_0_r in Hk. apply Hk. lia.
      + apply IH. intros k Hlt. specialize (Hk (S k)). simpl in Hk.
        replace (S base + k) with (base + S k) by lia. apply Hk. lia.
  Qed.
End FlatEval.

Section Sort.
  Variable less : nat -> nat -> bool.
  Variable key : nat -> nat.
  Hypothesis less_key : forall a b, less a b = (key a <? key b).

  Definition kle (a b : nat) : Prop := key a <= key b.

  Lemma sinsert_perm x l : Permutation (sinsert less x l) (x :: l).
  Proof.
    induction l as [|y t IH]; simpl; auto.
    destruct (less y x); auto.
    eapply perm_trans; [apply perm_skip, IH|apply perm_swap].
  Qed.

  Lemma ssort_perm l : Permutation (ssort less l) l.
  Proof.
    induction l as [|x l IH]; simpl; auto.
    eapply perm_trans; [apply sinsert_perm|]. now apply perm_skip.
  Qed.

  Lemma sinsert_sorted x l :
    StronglySorted kle l -> StronglySorted kle (sinsert less x l).
  Proof.
    induction 1 as [|y t Hs IH Hf]; simpl.
    - constructor; constructor.
    - rewrite less_key. destruct (Nat.ltb_spec (key y) (key x)) as [Hlt|Hge].
      + constructor; auto.
        eapply Permutation_Forall; [apply Permutation_sym, sinsert_perm|].
        constructor; auto. unfold kle. lia.
      + constructor; [constructor; auto|].
        constructor; [unfold kle; lia|].
        eapply Forall_impl; [|exact Hf]. unfold kle. intros z Hz. lia.
  Qed.

  Lemma ssort_sorted l : StronglySorted kle (ssort less l).
  Proof.
    induction l as [|x l IH]; simpl; [constructor|]. now apply sinsert_sorted.
  Qed.

End Sort.

Definition gmw_key (G : graph) (g : nat) : nat :=
  2 * nlevel (gn G g) + (if is_and (nop (gn G g)) then 0 else 1).

Lemma gmw_less_key G a b : gmw_less G a b = (gmw_key G a <? gmw_key G b).
Proof.
  unfold gmw_less, gmw_key.
  destruct (Nat.eqb_spec (nlevel (gn G a)) (nlevel (gn G b))) as [E|E]; simpl.
  - rewrite E. destruct (is_and (nop (gn G a))), (is_and (nop (gn G b))); simpl;
      symmetry; [apply Nat.ltb_ge|apply Nat.ltb_lt|apply Nat.ltb_ge|apply Nat.ltb_ge]; lia.
  - destruct (Nat.ltb_spec (nlevel (gn G a)) (nlevel (gn G b))) as [L|L];
      symmetry; [apply Nat.ltb_lt|apply Nat.ltb_ge];
      destruct (is_and (nop (gn G a))), (is_and (nop (gn G b))); lia.
Qed.

Definition levels_ok (G : graph) (order : list nat) : Prop :=
  forall l1 g l2, order = l1 ++ g :: l2 ->
  forall w, In w (inputs_of (gn G g)) ->
  forall p, In p l1 -> nO (gn G p) = w -> nlevel (gn G p) < nlevel (gn G g).

Lemma rel_perm G l l' w : Permutation l l' -> rel G l w -> rel G l' w.
Proof.
  intros P [H|(p & Hp & E)]; [now left|]. right. exists p. split; auto.
  eapply Permutation_in; eauto.
Qed.

(* C09_gmw_sort: any order sorted by (level, AND first) in which levels grow along
   dependencies is again a dependency-respecting emission: this is the
   sort.SliceStable step of Compile for the GMW target *)
Theorem emission_ok_sorted G idf nw order :
  emission_ok G idf nw order -> levels_ok G order ->
  emission_ok G idf nw (ssort (gmw_less G) order).
Proof.
  intros EO LP.
  pose proof (ssort_perm (gmw_less G) order) as P.
  pose proof (ssort_sorted (gmw_less G) (gmw_key G) (gmw_less_key G) order) as SS.
  constructor.
  - intros gid Hin. apply (e_live _ _ _ _ EO). eapply Permutation_in; eauto.
  - intros s1 g s2 Hs w Hw.
    assert (Hg : In g order).
    { eapply Permutation_in; [exact P|]. rewrite Hs. apply in_or_app. right. now left. }
    destruct (in_split _ _ Hg) as (l1 & l2 & Hl).
    destruct (e_dep _ _ _ _ EO l1 g l2 Hl w Hw) as [H|(p & Hp & E)]; [now left|].
    right. exists p. split; auto.
    pose proof (LP l1 g l2 Hl w Hw p Hp E) as Hlev.
    assert (Hk : gmw_key G p < gmw_key G g).
    { unfold gmw_key. destruct (is_and _), (is_and _); lia. }
    assert (Hps : In p (s1 ++ g :: s2)).
    { rewrite <- Hs. eapply Permutation_in; [apply Permutation_sym, P|].
      rewrite Hl. apply in_or_app. now left. }
    apply in_app_or in Hps. destruct Hps as [H|[H|H]]; auto.
    + subst p. lia.
    + rewrite Hs in SS. pose proof (proj2 (sorted_app _ s1 g s2 SS) p H). unfold kle in *. lia.
  - intros w1 w2 H1 H2. apply (e_inj _ _ _ _ EO); eapply rel_perm; eauto.
  - intros w H. apply (e_lt _ _ _ _ EO). eapply rel_perm; eauto.
  - apply (e_ins _ _ _ _ EO).
  - intros k Hk. destruct (e_outs _ _ _ _ EO k Hk) as [H1 H2]. split; auto.
    eapply rel_perm; [apply Permutation_sym|]; eauto.
Qed.

(* Compile's assignment writes wire ids, Visited/Level and the error code only *)
Definition cstable (G G' : graph) : Prop :=
  gins G' = gins G /\ gouts G' = gouts G /\ gorder G' = gorder G /\
  forall gid, nop (gn G' gid) = nop (gn G gid) /\ nA (gn G' gid) = nA (gn G gid) /\
              nB (gn G' gid) = nB (gn G gid) /\ nO (gn G' gid) = nO (gn G gid) /\
              ndead (gn G' gid) = ndead (gn G gid).

Lemma cstable_refl G : cstable G G.
Proof. repeat split; auto. Qed.

Lemma cstable_trans G1 G2 G3 : cstable G1 G2 -> cstable G2 G3 -> cstable G1 G3.
Proof.
  intros (a1&a2&a3&a4) (b1&b2&b3&b4).
  split; [congruence|]. split; [congruence|]. split; [congruence|].
  intros gid. destruct (a4 gid) as (p1&p2&p3&p4&p5). destruct (b4 gid) as (q1&q2&q3&q4&q5).
  repeat split; congruence.
Qed.

Lemma cstable_set_w G w r : cstable G (set_w G w r).
Proof. repeat split; auto. Qed.

Lemma cstable_set_err G e : cstable G (set_err G e).
Proof. repeat split; auto. Qed.

Lemma cstable_visit level st gid : cstable (cg st) (cg (visit level st gid)).
Proof.
  unfold visit. destruct (_ && _ && _); [|apply cstable_refl]. simpl.
  split; [reflexivity|]. split; [reflexivity|]. split; [reflexivity|].
  intros g. simpl. unfold fupd. destruct (Nat.eqb_spec g gid); subst; simpl; auto.
Qed.

Lemma cstable_fold {A} (f : cstate -> A -> cstate) l :
  (forall st a, cstable (cg st) (cg (f st a))) ->
  forall st, cstable (cg st) (cg (fold_left f l st)).
Proof.
  intros H. apply (fold_left_rel (fun a b => cstable (cg a) (cg b))); auto using cstable_refl.
  intros a b c. apply cstable_trans.
Qed.

Lemma cstable_wire_assign st level w : cstable (cg st) (cg (wire_assign st level w)).
Proof.
  unfold wire_assign. destruct (wout _); [apply cstable_refl|].
  destruct (assigned (cg st) w).
  - apply cstable_fold, cstable_visit.
  - eapply cstable_trans; [|apply cstable_fold, cstable_visit]. simpl. apply cstable_set_w.
Qed.

Lemma cstable_gate_assign st gid : cstable (cg st) (cg (gate_assign st gid)).
Proof.
  unfold gate_assign. destruct (ndead _); [apply cstable_refl|]. simpl.
  apply cstable_wire_assign.
Qed.

Lemma cstable_drain fuel : forall st, cstable (cg st) (cg (drain fuel st)).
Proof.
  induction fuel as [|f IH]; intros st; simpl.
  - destruct (cpend st); [apply cstable_refl|]. simpl. apply cstable_set_err.
  - destruct (cpend st) as [|gid rest]; [apply cstable_refl|].
    eapply cstable_trans; [|apply IH].
    apply (cstable_gate_assign (mkC (cg st) (cnext st) rest (casg st)) gid).
Qed.

Lemma cstable_assign_output st w : cstable (cg st) (cg (assign_output st w)).
Proof.
  unfold assign_output. destruct (assigned _ _); simpl;
    [apply cstable_set_err|apply cstable_set_w].
Qed.

Lemma cstable_compile_assign G : cstable G (cg (compile_assign G)).
Proof.
  unfold compile_assign.
  eapply cstable_trans; [|apply cstable_fold; apply cstable_assign_output].
  eapply cstable_trans; [|apply cstable_drain].
  apply (cstable_fold (fun st w => wire_assign st 0 w) (gins G)
           (fun st a => cstable_wire_assign st 0 a) (mkC G 0 [] [])).
Qed.

Lemma cstable_sat G G' x v : cstable G G' -> sat G x v -> sat G' x v.
Proof.
  intros (Hi & _ & Ho & Hn). apply sat_congr; auto.
  intros gid. destruct (Hn gid) as (p1&p2&p3&p4&p5).
  repeat split; auto. unfold node_fn. now rewrite p1, p2, p3.
Qed.

(* cc.ZeroWire()/cc.OneWire() as compiler.go builds them, and nothing else
   carries a constant annotation *)
Definition std_consts (G : graph) : Prop :=
  exists z o iw gz go gi,
    gzero G = Some z /\ gone G = Some o /\
    wv (gw G z) = Zero /\ wv (gw G o) = One /\
    (forall w, wv (gw G w) <> Unknown -> w = z \/ w = o) /\
    live G gi /\ nop (gn G gi) = INV /\ nA (gn G gi) = input0 G /\ nO (gn G gi) = iw /\
    live G gz /\ nop (gn G gz) = AND /\ nA (gn G gz) = input0 G /\ nB (gn G gz) = iw /\
    nO (gn G gz) = z /\
    live G go /\ nop (gn G go) = XOR /\ nA (gn G go) = input0 G /\ nB (gn G go) = iw /\
    nO (gn G go) = o.

Lemma std_consts_sound G x v : std_consts G -> sat G x v -> vsound G v /\ consts_ok G.
Proof.
  intros (z & o & iw & gz & go & gi & Hz & Ho & Vz & Vo & Hall &
          Li & Oi & Ai & Wi & Lz & Oz & Az & Bz & Wz & Lo & Oo & Ao & Bo & Wo) [_ Hg].
  pose proof (Hg gi Li) as Ei. pose proof (Hg gz Lz) as Ez. pose proof (Hg go Lo) as Eo.
  unfold node_fn in Ei, Ez, Eo. rewrite Oi, Ai, Wi in Ei. rewrite Oz, Az, Bz, Wz in Ez.
  rewrite Oo, Ao, Bo, Wo in Eo. simpl in Ei, Ez, Eo.
  assert (Fz : v z = false) by (rewrite Ez, Ei; destruct (v (input0 G)); reflexivity).
  assert (Fo : v o = true) by (rewrite Eo, Ei; destruct (v (input0 G)); reflexivity).
  split.
  - intros w. split; intros Hw.
    + destruct (Hall w) as [->| ->]; [congruence|auto|congruence].
    + destruct (Hall w) as [->| ->]; [congruence|congruence|auto].
  - exists z, o. auto.
Qed.

(* the part of [wfg] that does not mention the constant wires: gates in
   dependency order, single assignment, inputs distinct and never written,
   no dead gate.  Graphs built without cc.ZeroWire()/cc.OneWire() satisfy it. *)
Record wfg0 (G : graph) : Prop := {
  w0_nodup_ins : NoDup (gins G);
  w0_nodead : forall gid, In gid (gorder G) -> ndead (gn G gid) = false;
  w0_topo : forall l1 g l2, gorder G = l1 ++ g :: l2 ->
      (forall w, In w (inputs_of (gn G g)) ->
                 In w (gins G) \/ exists p, In p l1 /\ nO (gn G p) = w) /\
      ~ In (nO (gn G g)) (gins G) /\
      (forall p, In p l1 -> nO (gn G p) <> nO (gn G g)) }.

(* a freshly built graph: [wfg0] and the standard constants *)
Record wfg (G : graph) : Prop := {
  wf_nodup_ins : NoDup (gins G);
  wf_nodead : forall gid, In gid (gorder G) -> ndead (gn G gid) = false;
  wf_topo : forall l1 g l2, gorder G = l1 ++ g :: l2 ->
      (forall w, In w (inputs_of (gn G g)) ->
                 In w (gins G) \/ exists p, In p l1 /\ nO (gn G p) = w) /\
      ~ In (nO (gn G g)) (gins G) /\
      (forall p, In p l1 -> nO (gn G p) <> nO (gn G g));
  wf_consts : std_consts G }.

Lemma wfg_wfg0 G : wfg G -> wfg0 G.
Proof. intros WF. constructor; apply WF. Qed.

Lemma init_val_notin ins : forall x v0 w, ~ In w ins -> init_val ins x v0 w = v0 w.
Proof.
  induction ins as [|a ins IH]; intros x v0 w Hn; simpl; auto.
  rewrite IH by (intros H; apply Hn; now right).
  apply fupd_other. intros ->. apply Hn. now left.
Qed.

Lemma init_val_spec ins : forall x v0 i,
  NoDup ins -> i < length ins -> init_val ins x v0 (nth i ins 0) = nth i x false.
Proof.
  induction ins as [|a ins IH]; intros x v0 i Hnd Hi; simpl in *; [lia|].
  inversion Hnd as [|? ? Hna Hnd']; subst.
  destruct i as [|j].
  - rewrite init_val_notin by auto. rewrite fupd_same. destruct x; reflexivity.
  - rewrite IH by (auto; lia). destruct x; simpl; auto. destruct j; reflexivity.
Qed.

Section Geval.
  Variable G : graph.
  Hypothesis WF : wfg0 G.

  Lemma geval_fold : forall l2 l1 v0,
    gorder G = l1 ++ l2 ->
    let vf := fold_left (geval_step G) l2 v0 in
    (forall w, (forall g, In g l2 -> nO (gn G g) <> w) -> vf w = v0 w) /\
    (forall g, In g l2 -> vf (nO (gn G g)) = node_fn (gn G g) vf).
  Proof.
    induction l2 as [|g l2 IH]; intros l1 v0 Ho; simpl.
    - split; auto. intros g [].
    - assert (Hd : ndead (gn G g) = false).
      { apply (w0_nodead _ WF). rewrite Ho. apply in_or_app. right. now left. }
      set (v1 := fupd v0 (nO (gn G g)) (node_fn (gn G g) v0)).
      assert (Hstep : geval_step G v0 g = v1) by (unfold geval_step; rewrite Hd; reflexivity).
      rewrite Hstep.
      assert (Ho' : gorder G = (l1 ++ [g]) ++ l2) by (rewrite <- app_assoc; exact Ho).
      destruct (IH (l1 ++ [g]) v1 Ho') as [IHa IHb].
      destruct (w0_topo _ WF l1 g l2 Ho) as (Tin & Tnot & Tdist).
      (* outputs of later gates differ from those of g and of earlier gates *)
      assert (Later : forall h, In h l2 ->
                nO (gn G h) <> nO (gn G g) /\ ~ In (nO (gn G h)) (gins G) /\
                forall p, In p l1 -> nO (gn G p) <> nO (gn G h)).
      { intros h Hh. destruct (in_split _ _ Hh) as (a & b & E).
        assert (Hs : gorder G = (l1 ++ g :: a) ++ h :: b).
        { rewrite Ho, E. rewrite <- app_assoc. reflexivity. }
        destruct (w0_topo _ WF _ _ _ Hs) as (_ & N & D).
        split; [|split; auto].
        - intros Eq. apply (D g); [apply in_or_app; right; now left|congruence].
        - intros p Hp. apply D. apply in_or_app. now left. }
      split.
      + intros w Hw. rewrite IHa by (intros h Hh; apply Hw; now right).
        unfold v1. apply fupd_other. intros ->. apply (Hw g); [now left|reflexivity].
      + intros h [<-|Hh]; [|now apply IHb].
        rewrite IHa by (intros h' Hh'; apply (proj1 (Later h' Hh'))).
        unfold v1 at 1. rewrite fupd_same.
        apply node_fn_ext. intros w Hw. symmetry.
        rewrite IHa.
        * unfold v1. apply fupd_other. intros ->.
          destruct (Tin _ Hw) as [H|(p & Hp & E)]; [contradiction|].
          apply (Tdist p Hp E).
        * intros h Hh Eq. destruct (Later h Hh) as (_ & N & D).
          destruct (Tin _ Hw) as [H|(p & Hp & E)]; [congruence|].
          apply (D p Hp). congruence.
  Qed.

  Theorem geval_sat0 x : sat G x (geval G x).
  Proof.
    unfold geval.
    destruct (geval_fold (gorder G) [] (init_val (gins G) x (fun _ => false)) eq_refl) as [Ha Hb].
    split.
    - intros i Hi. rewrite Ha.
      + apply init_val_spec; auto. apply (w0_nodup_ins _ WF).
      + intros g Hg Eq. destruct (in_split _ _ Hg) as (a & b & E).
        destruct (w0_topo _ WF a g b E) as (_ & N & _). apply N. rewrite Eq. now apply nth_In.
    - intros gid [Hin _]. now apply Hb.
  Qed.
End Geval.

(* C09_graph_meaning *)
Theorem geval_sat G (WF : wfg G) x : Inv x (geval G x) G.
Proof.
  pose proof (geval_sat0 G (wfg_wfg0 G WF) x) as S.
  destruct (std_consts_sound G x _ (wf_consts _ WF) S) as [V C].
  split; [|split]; auto.
Qed.

Definition same_shape (G G' : graph) : Prop :=
  forall i, nop (gn G' i) = nop (gn G i) /\ nA (gn G' i) = nA (gn G i) /\
            nB (gn G' i) = nB (gn G i) /\ ndead (gn G' i) = ndead (gn G i).

Lemma same_shape_inputs G G' i : same_shape G G' -> inputs_of (gn G' i) = inputs_of (gn G i).
Proof. intros H. destruct (H i) as (a & b & c & _). now apply inputs_of_congr. Qed.

(* one firing of ShortCircuitXORZero on gate g with producer p:
   p.ResetOutput(g.O); g.O = cc.Calloc.Wire() *)
Definition fire (G : graph) (g p : nat) : graph :=
  let G1 := set_n G p (n_set_O (gn G p) (nO (gn G g))) in
  let G2 := fst (new_wire G1) in
  set_n G2 g (n_set_O (gn G2 g) (gnw G)).

Lemma fire_eqs G g p :
  same_shape G (fire G g p) /\
  (forall w, w <> gnw G -> gw (fire G g p) w = gw G w) /\
  gw (fire G g p) (gnw G) = blank_wire /\
  (forall i, nvis (gn (fire G g p) i) = nvis (gn G i)).
Proof.
  unfold fire, same_shape. simpl. unfold fupd.
  split; [|split; [|split; [now rewrite Nat.eqb_refl|]]].
  - intros i. destruct (Nat.eqb_spec i g); subst; simpl.
    + destruct (Nat.eqb_spec g p); subst; simpl; auto.
    + destruct (Nat.eqb_spec i p); subst; simpl; auto.
  - intros w Hw. destruct (Nat.eqb_spec w (gnw G)); [contradiction|reflexivity].
  - intros i. destruct (Nat.eqb_spec i g); subst; simpl.
    + destruct (Nat.eqb_spec g p); subst; simpl; auto.
    + destruct (Nat.eqb_spec i p); subst; simpl; auto.
Qed.

Lemma fire_out G g p c :
  (c = g /\ nO (gn (fire G g p) c) = gnw G) \/
  (c <> g /\ c = p /\ nO (gn (fire G g p) c) = nO (gn G g)) \/
  (c <> g /\ c <> p /\ gn (fire G g p) c = gn G c).
Proof.
  unfold fire. simpl. unfold fupd.
  destruct (Nat.eqb_spec c g) as [->|Ng]; [now left|right].
  destruct (Nat.eqb_spec c p) as [->|Np]; [left|right]; auto.
Qed.

Lemma fire_out_p G g p : p <> g -> nO (gn (fire G g p) p) = nO (gn G g).
Proof.
  intros H. destruct (fire_out G g p p) as [[E _]|[(_ & _ & E)|(_ & N & _)]];
    [contradiction|exact E|now destruct N].
Qed.

Lemma scx_try_cases G g zin oin :
  scx_try G g zin oin = G \/
  exists p, isZ (wv (gw G zin)) = true /\ winp (gw G oin) = Some p /\
            wnum (gw G (nO (gn G p))) = 1 /\ scx_try G g zin oin = fire G g p.
Proof.
  unfold scx_try. destruct (isZ _); auto. destruct (winp _) as [p|]; auto.
  destruct (Nat.eqb_spec (wnum (gw G (nO (gn G p)))) 1); auto.
  right. exists p. auto.
Qed.

(* the exactness of the producer link that a firing of the rewrite relies on:
   the gate found through Wire.Input() really produces the wire *)
Definition link_ok (G : graph) (zin oin : nat) : Prop :=
  forall p, isZ (wv (gw G zin)) = true -> winp (gw G oin) = Some p ->
            wnum (gw G (nO (gn G p))) = 1 -> nO (gn G p) = oin.

Lemma scx_try_Inv x v1 G g zin oin :
  ranged G -> live G g -> nop (gn G g) = XOR ->
  ((zin = nA (gn G g) /\ oin = nB (gn G g)) \/ (zin = nB (gn G g) /\ oin = nA (gn G g))) ->
  link_ok G zin oin -> Inv x v1 G ->
  let G' := scx_try G g zin oin in
  exists v2, Inv x v2 G' /\ (forall w, w < gnw G -> v2 w = v1 w) /\
             ranged G' /\ gnw G <= gnw G' /\ same_gates G G' /\ same_shape G G'.
Proof.
  intros RG Lg Hop Hor LK HI. simpl.
  destruct (scx_try_cases G g zin oin) as [->|(p & EZ & EP & E1 & ->)].
  { exists v1. split; [exact HI|]. split; [auto|]. split; [exact RG|]. split; [lia|].
    split; [apply same_gates_refl|]. intros i. auto. }
  pose proof (LK p EZ EP E1) as Hlink.
  destruct HI as ((Hin & Hg) & Hvs & (z & o & Hz1 & Ho1 & Hz2 & Ho2)).
  destruct RG as (Rg & Ri & Rz & Ro).
  set (f := gnw G).
  set (v2 := fupd v1 f (v1 oin)).
  assert (Ag : forall w, w < gnw G -> v2 w = v1 w).
  { intros w Hw. unfold v2. apply fupd_other. unfold f. lia. }
  (* the nodes of the new graph *)
  set (G' := fire G g p).
  destruct (fire_eqs G g p) as (Shape & _). pose proof (fire_out G g p) as Out.
  fold G' in Shape, Out. fold f in Out.
  assert (SG : same_gates G G').
  { split; [reflexivity|]. intros i. apply Shape. }
  assert (Lv : forall i, live G' i <-> live G i).
  { intros i. unfold live. destruct SG as [So Sd]. rewrite So, Sd. tauto. }
  (* value of the rewritten XOR *)
  assert (Vz : v1 zin = false) by (apply Hvs; now apply isZ_true).
  destruct (Rg g Lg) as [ROg RIg].
  assert (HA : nA (gn G g) < gnw G) by apply RIg, inputs_of_A.
  assert (HB : nB (gn G g) < gnw G) by (apply RIg, inputs_of_B; now rewrite Hop).
  assert (Vg : node_fn (gn G g) v1 = v1 oin).
  { unfold node_fn. rewrite Hop. simpl.
    destruct Hor as [[-> ->]|[-> ->]].
    - rewrite Vz. now destruct (v1 (nB (gn G g))).
    - rewrite Vz. now destruct (v1 (nA (gn G g))). }
  exists v2.
  split; [|split; [exact Ag|split; [|split; [simpl; lia|split; [exact SG|exact Shape]]]]].
  - split; [|split].
    + (* sat *)
      split.
      * intros i Hi. simpl in Hi |- *. rewrite Ag; [now apply Hin|].
        apply Ri. now apply nth_In.
      * intros gid HL. apply Lv in HL.
        destruct (Shape gid) as (S1 & S2 & S3 & S4).
        destruct (Rg gid HL) as [ROi RIi].
        destruct (Out gid) as [[-> E]|[(_ & -> & E)|(_ & _ & E)]]; rewrite E.
        -- unfold v2 at 1. rewrite fupd_same. rewrite <- Vg.
           symmetry. apply node_fn_congr; auto; intros w Hw; apply Ag; now apply RIi.
        -- rewrite Ag by exact ROg.
           rewrite (Hg g Lg), Vg, <- Hlink, (Hg p HL).
           symmetry. apply node_fn_congr; auto; intros w Hw; apply Ag; now apply RIi.
        -- rewrite Ag by exact ROi. rewrite (Hg gid HL).
           symmetry. apply node_fn_ext. intros w Hw. apply Ag. now apply RIi.
    + (* vsound *)
      intros w. unfold G', fire. simpl. unfold fupd, v2, fupd. fold f.
      destruct (Nat.eqb_spec w f); subst; simpl; [split; discriminate|apply Hvs].
    + exists z, o. unfold G', fire. simpl. unfold fupd. fold f.
      pose proof (Rz z Hz1). pose proof (Ro o Ho1).
      destruct (Nat.eqb_spec z f); [unfold f in *; lia|].
      destruct (Nat.eqb_spec o f); [unfold f in *; lia|]. auto.
  - (* ranged *)
    assert (NW : gnw G' = S (gnw G)) by reflexivity.
    assert (NI : gins G' = gins G) by reflexivity.
    assert (NZ : gzero G' = gzero G) by reflexivity.
    assert (NO : gone G' = gone G) by reflexivity.
    unfold ranged. rewrite NW, NI, NZ, NO.
    split; [|split; [|split]].
    + intros gid HL. apply Lv in HL. destruct (Shape gid) as (S1 & S2 & S3 & S4).
      destruct (Rg gid HL) as [ROi RIi].
      split.
      * destruct (Out gid) as [[-> E]|[(_ & -> & E)|(_ & _ & E)]]; rewrite E; unfold f; lia.
      * intros w Hw. unfold inputs_of in Hw. rewrite S1, S2, S3 in Hw.
        specialize (RIi w Hw). lia.
    + intros w Hw. specialize (Ri w Hw). lia.
    + intros z' Hz'. specialize (Rz z' Hz'). lia.
    + intros o' Ho'. specialize (Ro o' Ho'). lia.
Qed.

(* every firing of the sweep goes through an exact producer link *)
Fixpoint links_exact (G : graph) (l : list nat) : Prop :=
  match l with
  | [] => True
  | g :: l' =>
      (is_xor (nop (gn G g)) = true ->
       link_ok G (nA (gn G g)) (nB (gn G g)) /\
       link_ok (scx_try G g (nA (gn G g)) (nB (gn G g))) (nB (gn G g)) (nA (gn G g))) /\
      links_exact (scx_step G g) l'
  end.

Lemma scx_fold_Inv x l : forall G v1,
  (forall g, In g l -> live G g) -> ranged G -> Inv x v1 G -> links_exact G l ->
  exists v2, Inv x v2 (fold_left scx_step l G) /\ (forall w, w < gnw G -> v2 w = v1 w).
Proof.
  induction l as [|g l IH]; intros G v1 Hl RG HI LE; simpl.
  - exists v1. auto.
  - destruct LE as [L1 L2].
    assert (Lg : live G g) by (apply Hl; now left).
    assert (Step : exists v2, Inv x v2 (scx_step G g) /\ (forall w, w < gnw G -> v2 w = v1 w) /\
                     ranged (scx_step G g) /\ gnw G <= gnw (scx_step G g) /\
                     same_gates G (scx_step G g)).
    { unfold scx_step in *. destruct (is_xor (nop (gn G g))) eqn:EX.
      - assert (Hop : nop (gn G g) = XOR) by (destruct (nop (gn G g)); simpl in EX; congruence).
        destruct (L1 eq_refl) as [K1 K2].
        destruct (scx_try_Inv x v1 G g (nA (gn G g)) (nB (gn G g)) RG Lg Hop
                    (or_introl (conj eq_refl eq_refl)) K1 HI)
          as (va & Ia & Aa & Ra & Na & Sa & Sha).
        set (G1 := scx_try G g (nA (gn G g)) (nB (gn G g))) in *.
        destruct (Sha g) as (s1 & s2 & s3 & s4).
        assert (Lg1 : live G1 g) by (eapply same_gates_live; eauto).
        assert (Hop1 : nop (gn G1 g) = XOR) by congruence.
        rewrite s2, s3.
        assert (K2' : link_ok G1 (nB (gn G g)) (nA (gn G g))) by exact K2.
        destruct (scx_try_Inv x va G1 g (nB (gn G g)) (nA (gn G g)) Ra Lg1 Hop1
                    (or_intror (conj (eq_sym s3) (eq_sym s2))) K2' Ia) as
            (vb & Ib & Ab & Rb & Nb & Sb & Shb).
        exists vb. split; auto. split.
        + intros w Hw. rewrite Ab by lia. now apply Aa.
        + split; auto. split; [lia|]. eapply same_gates_trans; eauto.
      - exists v1. split; [exact HI|]. split; [auto|]. split; [exact RG|]. split; [lia|].
        apply same_gates_refl. }
    destruct Step as (va & Ia & Aa & Ra & Na & Sa).
    destruct (IH (scx_step G g) va) as (vb & Ib & Ab); auto.
    + intros h Hh. eapply same_gates_live; eauto. apply Hl. now right.
    + exists vb. split; auto. intros w Hw. rewrite Ab by lia. now apply Aa.
Qed.

(* C09_short_circuit *)
Theorem short_circuit_xor_zero_sat x v G :
  (forall gid, In gid (gorder G) -> ndead (gn G gid) = false) ->
  ranged G -> links_exact G (gorder G) -> Inv x v G ->
  exists v', Inv x v' (short_circuit_xor_zero G) /\ forall w, w < gnw G -> v' w = v w.
Proof.
  intros Hd RG LE HI. apply scx_fold_Inv; auto.
  intros g Hg. split; auto.
Qed.

Corollary passes_keep_outputs x G :
  wfg G ->
  let v := geval G x in
  Inv x v (const_propagate G) /\ Inv x v (prune (const_propagate G)).
Proof.
  intros WF v. pose proof (geval_sat G WF x) as I0.
  destruct (const_propagate_sat x _ G (wf_nodead _ WF) I0) as [I1 _].
  split; auto. now apply prune_sat.
Qed.
