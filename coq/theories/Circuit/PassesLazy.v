(* PassesLazy.v — gate graphs on which the constant wires were never created
   (cc.ZeroWire()/cc.OneWire() are lazy: compiler.go creates them on first
   use).  Wire.SetValue is called by ZeroWire/OneWire and by ConstPropagate
   only, so on such a graph no wire carries a value ([unvalued]); then
   ConstPropagate and ShortCircuitXORZero are the identity — in particular no
   constant is created lazily inside ConstPropagate — and the pipeline of
   CompileCircuit is Prune + Compile.  (Property C09) *)
From Coq Require Import List Arith Lia.
From Mpc Require Import Circuit.Circuit Circuit.Passes Circuit.PassesProof Circuit.PassesBFS
  Circuit.PassesIO Circuit.PassesTV Circuit.PassesInv Circuit.PassesPrune.
Import ListNotations.

(* no Wire.SetValue(Zero/One) has happened *)
Definition unvalued (G : graph) : Prop := forall w, wv (gw G w) = Unknown.

Lemma cp_action_unknown o : cp_action o Unknown Unknown = ActNone.
Proof. destruct o; reflexivity. Qed.

(* one iteration of ConstPropagate's loop: no switch branch is taken and
   neither substitution block (the only callers of cc.ZeroWire()/cc.OneWire()
   inside the pass) is entered *)
Lemma cp_step_unvalued G g : unvalued G -> cp_step G g = G.
Proof.
  intros U. unfold cp_step.
  rewrite (U (nA (gn G g))).
  assert (E : (if is_inv (nop (gn G g)) then Unknown else wv (gw G (nB (gn G g)))) = Unknown).
  { destruct (is_inv _); auto. }
  rewrite E, cp_action_unknown.
  unfold cp_subst_A. rewrite (U (nA (gn G g))).
  unfold cp_subst_B. destruct (is_inv (nop (gn G g))); auto.
  now rewrite (U (nB (gn G g))).
Qed.

Theorem const_propagate_unvalued G : unvalued G -> const_propagate G = G.
Proof. intros U. apply fold_left_fix. intros g. now apply cp_step_unvalued. Qed.

Lemma scx_try_unvalued G g zin oin : unvalued G -> scx_try G g zin oin = G.
Proof. intros U. unfold scx_try. now rewrite (U zin). Qed.

Lemma scx_step_unvalued G g : unvalued G -> scx_step G g = G.
Proof.
  intros U. unfold scx_step. destruct (is_xor _); auto.
  rewrite (scx_try_unvalued G g _ _ U). now apply scx_try_unvalued.
Qed.

Theorem short_circuit_xor_zero_unvalued G : unvalued G -> short_circuit_xor_zero G = G.
Proof. intros U. apply fold_left_fix. intros g. now apply scx_step_unvalued. Qed.

Theorem optimize_unvalued (do_prune : bool) G :
  unvalued G -> optimize do_prune G = if do_prune then prune G else G.
Proof.
  intros U. unfold optimize.
  now rewrite (const_propagate_unvalued G U), (short_circuit_xor_zero_unvalued G U).
Qed.

(* the position-based rank is an acyclicity witness; no constant wire has to
   be placed *)
Lemma fresh_ST0_base_rank G : wfg0 G -> wfb G -> wfx G -> ST0 (base_rank G) G.
Proof. intros WF FB X. apply fresh_ST0; auto. now apply base_rank_edge0. Qed.

(* C09_no_constants_cwf_no_panic: this and [no_panic_unvalued] *)
Theorem optimize_cwf_unvalued (do_prune : bool) G :
  wfg0 G -> wfb G -> wfx G -> unvalued G -> cwf (optimize do_prune G).
Proof.
  intros WF FB X U. rewrite (optimize_unvalued do_prune G U). destruct do_prune.
  - apply (prune_cwf (base_rank G)); auto using fresh_BK0, fresh_ST0_base_rank, fresh_TV0.
  - now apply fresh_cwf0.
Qed.

(* C09_options_no_constants *)
Theorem pipeline_correct_unvalued (do_prune : bool) t G x :
  wfg0 G -> wfb G -> wfx G -> unvalued G -> length x = length (gins G) ->
  eval_plain (pipeline do_prune t G) x = graph_eval G x.
Proof.
  intros WF FB X U Hx. unfold pipeline.
  pose proof (optimize_cwf_unvalued do_prune G WF FB X U) as CW.
  destruct (io_optimize do_prune G) as (I3 & O3 & _).
  assert (S3 : sat (optimize do_prune G) x (geval G x)).
  { rewrite (optimize_unvalued do_prune G U).
    pose proof (geval_sat0 G WF x) as S0. destruct do_prune; auto. now apply prune_sat0. }
  rewrite (compile_correct_cwf t _ x (geval G x) CW S3) by (rewrite I3; exact Hx).
  rewrite O3. reflexivity.
Qed.

Theorem no_panic_unvalued (do_prune : bool) G :
  wfg0 G -> wfb G -> wfx G -> unvalued G ->
  gerr (const_propagate G) = gerr G /\
  gerr (cg (compile_assign (optimize do_prune G))) = gerr G.
Proof.
  intros WF FB X U. split; [now rewrite (const_propagate_unvalued G U)|].
  rewrite (compile_gerr _ (optimize_cwf_unvalued do_prune G WF FB X U)).
  rewrite (optimize_unvalued do_prune G U). destruct do_prune; auto.
  apply (prune_gerr (base_rank G)); auto using fresh_BK0, fresh_ST0_base_rank, fresh_TV0.
Qed.

Theorem no_lazy_creation_unvalued G :
  unvalued G ->
  gnw (const_propagate G) = gnw G /\ gnn (const_propagate G) = gnn G /\
  gzero (const_propagate G) = gzero G /\ gone (const_propagate G) = gone G /\
  ginv (const_propagate G) = ginv G.
Proof. intros U. rewrite (const_propagate_unvalued G U). repeat split. Qed.

Lemma set_input_blank G w g : winp (gw G w) = None -> gerr (set_input G w g) = gerr G.
Proof. intros H. unfold set_input. now rewrite H. Qed.

Lemma winp_add_output G a g w : winp (gw (add_output G a g) w) = winp (gw G w).
Proof. unfold add_output. simpl. unfold fupd. destruct (Nat.eqb_spec w a); subst; reflexivity. Qed.

Lemma gerr_add_binary_gate G o a b out :
  winp (gw G out) = None -> gerr (add_binary_gate G o a b out) = gerr G.
Proof.
  intros H. unfold add_binary_gate, alloc_node. simpl.
  rewrite set_input_blank; [reflexivity|]. now rewrite !winp_add_output.
Qed.

Lemma gerr_add_inv_gate G a out :
  winp (gw G out) = None -> gerr (add_inv_gate G a out) = gerr G.
Proof.
  intros H. unfold add_inv_gate, alloc_node. simpl.
  rewrite set_input_blank; [reflexivity|]. now rewrite winp_add_output.
Qed.

Lemma winp_set_input G out g w : w <> out -> winp (gw (set_input G out g) w) = winp (gw G w).
Proof.
  intros H. unfold set_input. destruct (winp (gw G out)); simpl; auto.
  now rewrite fupd_other.
Qed.

Lemma winp_add_inv_gate G a out w :
  w <> out -> winp (gw (add_inv_gate G a out) w) = winp (gw G w).
Proof.
  intros H. unfold add_inv_gate, alloc_node. simpl.
  rewrite winp_set_input by auto. now rewrite winp_add_output.
Qed.

Lemma gerr_inv_i0_wire G : gerr (fst (inv_i0_wire G)) = gerr G.
Proof.
  unfold inv_i0_wire. destruct (ginv G); [reflexivity|]. cbn -[add_inv_gate].
  rewrite gerr_add_inv_gate; [reflexivity|]. simpl. now rewrite fupd_same.
Qed.

Lemma winp_inv_i0_wire G w :
  winp (gw G w) = None -> w < gnw G -> winp (gw (fst (inv_i0_wire G)) w) = None.
Proof.
  intros Hn Hw. unfold inv_i0_wire. destruct (ginv G); [exact Hn|]. cbn -[add_inv_gate].
  rewrite winp_add_inv_gate by lia. simpl. unfold fupd.
  destruct (Nat.eqb_spec w (gnw G)); [lia|exact Hn].
Qed.

(* the gate that ZeroWire/OneWire add for the new constant wire z *)
Lemma gerr_const_gate G o z val :
  winp (gw G z) = None -> z < gnw G ->
  gerr (fst (let '(G3, i) := inv_i0_wire G in
             (set_value (add_binary_gate G3 o (input0 G3) i z) z val, z))) = gerr G.
Proof.
  intros W0 L0.
  pose proof (gerr_inv_i0_wire G) as E. pose proof (winp_inv_i0_wire G z W0 L0) as W.
  destruct (inv_i0_wire G) as [G3 i]. cbn [fst] in *.
  unfold set_value, set_w; cbn [gerr]. rewrite gerr_add_binary_gate; auto.
Qed.

(* C09_constant_creation_no_panic.  Wire.SetInput ("wire input gate already set") is the
   only panic site of the creation; it is never reached, on any graph: the output wire
   of the new gate comes straight from Calloc.Wire() *)
Theorem creation_no_panic G :
  gerr (fst (inv_i0_wire G)) = gerr G /\
  gerr (fst (zero_wire G)) = gerr G /\ gerr (fst (one_wire G)) = gerr G.
Proof.
  split; [apply gerr_inv_i0_wire|]. split.
  - unfold zero_wire. destruct (gzero G); [reflexivity|].
    cbn -[add_binary_gate inv_i0_wire set_consts set_value].
    rewrite gerr_const_gate; [reflexivity| |simpl; lia].
    simpl. now rewrite fupd_same.
  - unfold one_wire. destruct (gone G); [reflexivity|].
    cbn -[add_binary_gate inv_i0_wire set_consts set_value].
    rewrite gerr_const_gate; [reflexivity| |simpl; lia].
    simpl. now rewrite fupd_same.
Qed.
