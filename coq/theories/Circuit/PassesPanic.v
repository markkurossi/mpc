(* PassesPanic.v — ShortCircuitXORZero, Prune and Compile reach none of the Go
   panics (the model's sticky error code [gerr]) on the graphs ConstPropagate
   leaves behind (ConstPropagate itself: PassesPanicCP.v; Compile on its own:
   PassesBFS.compile_gerr).  (Property C09) *)
From Coq Require Import List NArith.
From Mpc Require Import Circuit.Circuit Circuit.Passes Circuit.PassesProof Circuit.PassesBFS
  Circuit.PassesInv Circuit.PassesPrune.
Import ListNotations.

(* ShortCircuitXORZero has no panic site *)
Lemma gerr_scx_try G g z o : gerr (scx_try G g z o) = gerr G.
Proof.
  unfold scx_try. destruct (isZ _); auto. destruct (winp _); auto. destruct (Nat.eqb _ _); auto.
Qed.

Lemma gerr_scx_step G g : gerr (scx_step G g) = gerr G.
Proof. unfold scx_step. destruct (is_xor _); auto. now rewrite !gerr_scx_try. Qed.

Lemma gerr_scx G : gerr (short_circuit_xor_zero G) = gerr G.
Proof.
  apply (fold_left_rel (fun a b => gerr b = gerr a)); try congruence.
  intros. apply gerr_scx_step.
Qed.

(* C09_no_panic *)
Theorem no_panic_after_cp (do_prune : bool) G :
  wfg G -> wfb G -> wfx G ->
  gerr (cg (compile_assign (optimize do_prune G))) = gerr (const_propagate G).
Proof.
  intros WF FB X.
  rewrite (compile_gerr _ (optimize_cwf do_prune G WF FB X)).
  destruct (fresh_rewritten G WF FB X) as (_ & r & B2 & S2 & T2).
  unfold optimize. destruct do_prune.
  - rewrite (prune_gerr r _ B2 S2 T2). apply gerr_scx.
  - apply gerr_scx.
Qed.

(* C09_level_wrap16_refuted.  [levels_ok]/[emission_ok_sorted] are about Gate.Level as a natural number.
   A level stored modulo 2^16 is not order preserving: two gates on one
   dependent chain, at BFS depth 65535 and 65536, get keys 65535 and 0, so the
   stable sort would emit the consumer before its producer.  (The harness
   builds such chains for the GMW target on every run.) *)
Lemma level_wrap16_not_monotone :
  exists a b : N, (a < b)%N /\ ~ ((a mod 65536) < (b mod 65536))%N.
Proof. exists 65535%N, 65536%N. split; [reflexivity|]. vm_compute. intros H. discriminate H. Qed.
