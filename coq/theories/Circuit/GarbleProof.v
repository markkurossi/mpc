(* GarbleProof.v — garbled evaluation = plain evaluation (C01), for every
   block function, every randomness, every well-formed circuit. *)
From Coq Require Import NArith List Bool Arith Lia.
From Mpc Require Export Base.ListFacts.
From Mpc Require Import Base.Label Circuit.Circuit Circuit.Garble.
Import ListNotations.
Open Scope N_scope.

Lemma gate_ok_spec n ni asg g :
  gate_ok n ni asg g = true <->
  (gin0 g < n /\ gout g < n /\ ni <= gout g)%nat /\ nth (gin0 g) asg false = true /\
  (gop g = INV \/ (gin1 g < n)%nat /\ nth (gin1 g) asg false = true).
Proof.
  unfold gate_ok. rewrite !andb_true_iff, !Nat.ltb_lt, Nat.leb_le.
  destruct (gop g); rewrite ?andb_true_iff, ?Nat.ltb_lt; intuition discriminate.
Qed.

Lemma wf_spec c :
  wf c = true <->
  (ninputs c <= nwires c)%nat /\ (noutputs c <= nwires c)%nat /\
  wf_gates (nwires c) (ninputs c) (init_asg c) (gates c) = true /\
  forall o, In o (output_wires c) -> nth o (final_asg (init_asg c) (gates c)) false = true.
Proof. unfold wf. rewrite !andb_true_iff, !Nat.leb_le, forallb_forall. tauto. Qed.

Lemma init_asg_length c : (ninputs c <= nwires c)%nat -> length (init_asg c) = nwires c.
Proof. intros H. unfold init_asg. rewrite app_length, !repeat_length. lia. Qed.

Lemma nth_init_asg_true ni k w :
  nth w (repeat true ni ++ repeat false k) false = true -> (w < ni)%nat.
Proof.
  intros H. destruct (Nat.lt_ge_cases w ni) as [Hl|Hg]; [exact Hl|].
  rewrite app_nth2, nth_repeat in H by (rewrite repeat_length; exact Hg). discriminate.
Qed.

Lemma nth_init_asg_lt ni w (l : list bool) :
  (w < ni)%nat -> nth w (repeat true ni ++ l) false = true.
Proof.
  intros H. rewrite app_nth1 by (rewrite repeat_length; exact H).
  apply (repeat_spec ni). apply nth_In. rewrite repeat_length. exact H.
Qed.

Lemma input_wires_length r rnd n : length (input_wires r rnd n) = n.
Proof. unfold input_wires. rewrite map_length. apply seq_length. Qed.

Lemma nth_input_wires r rnd n w :
  (w < n)%nat -> nth w (input_wires r rnd n) w0 = mkWire (rnd (S w)) (lxor (rnd (S w)) r).
Proof. apply (nth_map_seq (fun i => mkWire (rnd (S i)) (lxor (rnd (S i)) r))). Qed.

Section Garble.
  Variable pi : N -> N.

  Lemma dec_as_enc a b t c : dec pi a b t c = lxor c (enc pi a b 0 t).
  Proof. unfold dec, enc; cbv zeta. generalize (pi (makeK a b t)), (makeK a b t); intros. xor_solve. Qed.

  Definition wire_ok (r : label) (w : wire) : Prop := L1 w = lxor (L0 w) r.

  Definition Inv (r : label) (n : nat) (gw : list wire) (ew : list label)
             (pv asg : list bool) : Prop :=
    length gw = n /\ length ew = n /\ length pv = n /\ length asg = n /\
    forall w, nth w asg false = true ->
      wire_ok r (nth w gw w0) /\
      nth w ew 0 = pick (nth w gw w0) (nth w pv false).

  Ltac atoms :=
    repeat match goal with
           | |- context [half pi ?x ?i] => generalize (half pi x i); intro
           | |- context [enc pi ?a ?b ?c ?i] => generalize (enc pi a b c i); intro
           end.

  (* per gate kind 16 cases: value of a x value of b x the two permute bits *)
  Lemma gate_sim r a b (va vb : bool) id o gi0 gi1 go gw ew :
    sbit r = true ->
    nth gi0 gw w0 = a -> nth gi1 gw w0 = b ->
    wire_ok r a -> (o = INV \/ wire_ok r b) ->
    nth gi0 ew 0 = pick a va -> (o = INV \/ nth gi1 ew 0 = pick b vb) ->
    let g := mkGate gi0 gi1 go o in
    let '(c, id', row) := garble_gate pi r gw id g in
    geval_gate pi ew id g row = Some (pick c (gate_fn o va vb), id') /\ wire_ok r c.
  Proof.
    intros Hr Ha Hb Wa Wb Ea Eb g; subst g.
    destruct a as [a0 a1]; destruct b as [b0 b1]; unfold wire_ok in *; cbn [L0 L1] in *.
    subst a1.
    assert (Sr : forall l, sbit (lxor l r) = negb (sbit l))
      by (intro l; rewrite sbit_lxor, Hr; apply xorb_true_r).
    destruct o; unfold garble_gate, geval_gate; cbn [gin0 gin1 gout gop];
      rewrite Ha, ?Hb, Ea; cbn [L0 L1]; clear Ha Hb Ea.
    - (* XOR *)
      destruct Wb as [?|Wb]; [discriminate|]. destruct Eb as [?|Eb]; [discriminate|].
      rewrite Eb; subst b1. split; [|reflexivity].
      f_equal. f_equal. destruct va, vb; cbn [pick L0 L1 gate_fn xorb negb]; xor_solve.
    - (* XNOR *)
      destruct Wb as [?|Wb]; [discriminate|]. destruct Eb as [?|Eb]; [discriminate|].
      rewrite Eb; subst b1. split; [|cbn [L0 L1]; xor_solve].
      f_equal. f_equal. destruct va, vb; cbn [pick L0 L1 gate_fn xorb negb]; xor_solve.
    - (* AND *)
      destruct Wb as [?|Wb]; [discriminate|]. destruct Eb as [?|Eb]; [discriminate|].
      rewrite Eb; subst b1.
      split; [|reflexivity].
      f_equal. f_equal.
      destruct va, vb; cbn [pick L0 L1 gate_fn andb];
        rewrite ?Sr;
        destruct (sbit a0), (sbit b0); cbn [xor_if negb];
        atoms; xor_solve.
    - (* OR *)
      destruct Wb as [?|Wb]; [discriminate|]. destruct Eb as [?|Eb]; [discriminate|].
      rewrite Eb; subst b1.
      unfold idx.
      destruct va, vb; cbn [pick L0 L1 gate_fn orb];
        rewrite ?Sr;
        destruct (sbit a0), (sbit b0); cbn [negb Nat.add upd nth Nat.eqb mapi mapi_from tl nth_error];
        rewrite dec_as_enc; (split; [|xor_solve]);
        f_equal; f_equal; cbn [pick L0 L1]; atoms; xor_solve.
    - (* INV *)
      unfold idxU.
      destruct va; cbn [pick L0 L1 gate_fn negb];
        rewrite ?Sr;
        destruct (sbit a0); cbn [negb upd nth Nat.eqb mapi mapi_from tl nth_error];
        rewrite dec_as_enc; (split; [|xor_solve]);
        f_equal; f_equal; cbn [pick L0 L1]; atoms; xor_solve.
  Qed.

  Lemma inv_step r n ni gw ew pv asg id g :
    sbit r = true -> Inv r n gw ew pv asg -> gate_ok n ni asg g = true ->
    let '(c, id', row) := garble_gate pi r gw id g in
    exists o, geval_gate pi ew id g row = Some (o, id') /\
      Inv r n (upd gw (gout g) c) (upd ew (gout g) o) (eval_gate pv g)
          (upd asg (gout g) true).
  Proof.
    intros Hr (Lg & Le & Lp & La & H) Hok.
    apply gate_ok_spec in Hok. destruct Hok as ((_ & Hgo & _) & A0 & A1).
    destruct g as [i0 i1 go o]; cbn [gin0 gin1 gout gop] in *.
    destruct (H _ A0) as [Wa Ea].
    assert (HB : o = INV \/ (wire_ok r (nth i1 gw w0) /\
                 nth i1 ew 0 = pick (nth i1 gw w0) (nth i1 pv false))).
    { destruct A1 as [E|[_ A1]]; [left; exact E|right; exact (H _ A1)]. }
    pose proof (gate_sim r (nth i0 gw w0) (nth i1 gw w0) (nth i0 pv false)
                  (nth i1 pv false) id o i0 i1 go gw ew Hr eq_refl eq_refl Wa) as GS.
    cbv zeta in GS.
    destruct (garble_gate pi r gw id (mkGate i0 i1 go o)) as [[c id'] row].
    destruct GS as [GE Wc]; [tauto| exact Ea | tauto |].
    eexists; split; [exact GE|].
    unfold eval_gate; cbn [gin0 gin1 gout gop].
    split; [rewrite upd_length; assumption|].
    split; [rewrite upd_length; assumption|].
    split; [rewrite upd_length; assumption|].
    split; [rewrite upd_length; assumption|].
    intros w Hw. destruct (Nat.eq_dec go w) as [->|Hne].
    - rewrite !nth_upd_eq by lia. split; [exact Wc | reflexivity].
    - rewrite !nth_upd_neq by assumption. rewrite nth_upd_neq in Hw by assumption.
      apply H; assumption.
  Qed.

  Lemma gates_sim r n ni : sbit r = true -> forall gs gw ew pv asg id,
    Inv r n gw ew pv asg -> wf_gates n ni asg gs = true ->
    let '(gwf, idf, rows) := garble_gates pi r gw id gs in
    exists ewf, geval_gates pi ew id gs rows = Some ewf /\
      Inv r n gwf ewf (fold_left eval_gate gs pv) (final_asg asg gs).
  Proof.
    intros Hr. induction gs as [|g gs IH]; intros gw ew pv asg id HI Hwf.
    - cbn. exists ew. split; [reflexivity| exact HI].
    - cbn [wf_gates] in Hwf. apply andb_prop in Hwf. destruct Hwf as [Hok Hwf].
      cbn [garble_gates geval_gates fold_left].
      pose proof (inv_step r n ni gw ew pv asg id g Hr HI Hok) as ST.
      destruct (garble_gate pi r gw id g) as [[c id'] row].
      destruct ST as (o & GE & HI').
      specialize (IH _ _ _ _ id' HI' Hwf).
      destruct (garble_gates pi r (upd gw (gout g) c) id' gs) as [[gwf idf] rows].
      destruct IH as (ewf & GEs & HIf).
      exists ewf. cbn [hd tl]. rewrite GE. split; [exact GEs|].
      unfold final_asg in *. cbn [fold_left]. exact HIf.
  Qed.

  Lemma garble_gates_shape r : forall gs gw id,
    let '(gwf, _, rows) := garble_gates pi r gw id gs in
    length gwf = length gw /\ length rows = length gs /\
    forall w, (forall g, In g gs -> gout g <> w) -> nth w gwf w0 = nth w gw w0.
  Proof.
    induction gs as [|g gs IH]; intros gw id; cbn [garble_gates].
    - split; [reflexivity|]. split; reflexivity.
    - destruct (garble_gate pi r gw id g) as [[c id'] row].
      specialize (IH (upd gw (gout g) c) id').
      destruct (garble_gates pi r (upd gw (gout g) c) id' gs) as [[gwf idf] rows].
      destruct IH as (L & R & K). rewrite upd_length in L.
      split; [exact L|]. split; [cbn [length]; congruence|].
      intros w Hw. rewrite K by (intros g' Hg'; apply Hw; right; exact Hg').
      apply nth_upd_neq. apply Hw. left. reflexivity.
  Qed.

  Lemma wf_gates_gout n ni g : forall gs asg,
    wf_gates n ni asg gs = true -> In g gs -> (ni <= gout g < n)%nat.
  Proof.
    induction gs as [|g0 gs IH]; intros asg Hwf Hin; [destruct Hin|].
    cbn [wf_gates] in Hwf. apply andb_prop in Hwf. destruct Hwf as [Hok Hwf].
    destruct Hin as [<-|Hin]; [|exact (IH _ Hwf Hin)].
    apply gate_ok_spec in Hok. lia.
  Qed.

  (* gates never write input wires => input wires survive garbling *)
  Lemma garble_gates_inputs r n ni : forall gs gw asg id w,
    wf_gates n ni asg gs = true -> (w < ni)%nat ->
    let '(gwf, _, _) := garble_gates pi r gw id gs in nth w gwf w0 = nth w gw w0.
  Proof.
    intros gs gw asg id w Hwf Hw. pose proof (garble_gates_shape r gs gw id) as S.
    destruct (garble_gates pi r gw id gs) as [[gwf idf] rows]. apply S.
    intros g Hg E. apply (wf_gates_gout _ _ _ _ _ Hwf) in Hg. lia.
  Qed.

  (* the wire array Circuit.Garble starts the gate loop with *)
  Lemma garble_init_wires r rnd scratch n ni :
    (ni <= n)%nat ->
    let gw0 := input_wires r rnd ni ++ firstn (n - ni) (skipn ni scratch ++ repeat w0 n) in
    length gw0 = n /\
    forall w, (w < ni)%nat -> nth w gw0 w0 = mkWire (rnd (S w)) (lxor (rnd (S w)) r).
  Proof.
    intros Hni gw0. split.
    - unfold gw0. rewrite app_length, input_wires_length, firstn_length, app_length, repeat_length. lia.
    - intros w Hw. unfold gw0. rewrite app_nth1 by (rewrite input_wires_length; exact Hw).
      apply nth_input_wires. exact Hw.
  Qed.

  Lemma garble_lengths rnd scratch c :
    (ninputs c <= nwires c)%nat ->
    length (gWires (garble pi rnd scratch c)) = nwires c /\
    length (gTables (garble pi rnd scratch c)) = length (gates c).
  Proof.
    intros Hni. unfold garble.
    destruct (garble_init_wires (setS (rnd 0%nat)) rnd scratch _ _ Hni) as [L0 _].
    match goal with |- context [garble_gates pi ?r ?gw 0 (gates c)] =>
      pose proof (garble_gates_shape r (gates c) gw 0) as S;
      destruct (garble_gates pi r gw 0 (gates c)) as [[gwf idf] rows] end.
    cbn [gWires gTables]. destruct S as (S1 & S2 & _). split; congruence.
  Qed.

  Lemma decode_pick r w b : sbit r = true -> wire_ok r w -> decode w (pick w b) = Some b.
  Proof.
    intros Hr Hw. unfold decode. destruct b; cbn [pick].
    - rewrite Hw. destruct (N.eqb_spec (lxor (L0 w) r) (L0 w)) as [E|_].
      + exfalso. exact (lxor_r_neq _ _ Hr E).
      + rewrite N.eqb_refl. reflexivity.
    - rewrite N.eqb_refl. reflexivity.
  Qed.

  Lemma garble_inv (rnd : nat -> N) (scratch : list wire) (c : circuit) (x : list bool) :
    wf c = true -> length x = ninputs c ->
    let g := garble pi rnd scratch c in
    sbit (gR g) = true /\
    exists ew, geval pi c (encode g c x) (gTables g) = Some ew /\
      Inv (gR g) (nwires c) (gWires g) ew (eval_plain_wires c x) (final_asg (init_asg c) (gates c)).
  Proof.
    intros Hwf Hx. apply wf_spec in Hwf. destruct Hwf as (Hni & _ & Hgs & _).
    set (r := setS (rnd 0%nat)).
    assert (Hr : sbit r = true) by apply sbit_setS.
    destruct (garble_init_wires r rnd scratch _ _ Hni) as [Lgw0 Hin0].
    set (n := nwires c) in *. set (ni := ninputs c) in *.
    set (gw0 := input_wires r rnd ni ++ firstn (n - ni) (skipn ni scratch ++ repeat w0 n)) in *.
    pose proof (garble_gates_inputs r n ni (gates c) gw0 (init_asg c) 0) as Hkeep.
    pose proof (gates_sim r n ni Hr (gates c) gw0) as SIM.
    unfold garble, geval. fold r ni n gw0.
    destruct (garble_gates pi r gw0 0 (gates c)) as [[gwf idf] rows] eqn:GG.
    cbn [gR gWires gTables]. split; [exact Hr|].
    set (ew0 := encode (mkGarbled r gwf rows) c x).
    specialize (SIM ew0 (init_wires c x) (init_asg c) 0).
    rewrite GG in SIM. apply SIM; [|exact Hgs].
    split; [exact Lgw0|].
    split. { unfold ew0, encode. rewrite app_length, map_length, seq_length, repeat_length. fold ni n. lia. }
    split. { unfold init_wires. fold ni n. rewrite app_length, firstn_length, repeat_length. lia. }
    split; [apply init_asg_length; exact Hni|].
    intros w Hw. apply nth_init_asg_true in Hw. fold ni in Hw.
    rewrite (Hin0 w Hw). split; [reflexivity|].
    unfold ew0, encode. cbn [gWires]. fold ni.
    rewrite app_nth1 by (rewrite map_length, seq_length; exact Hw).
    rewrite (nth_map_seq (fun i => pick (nth i gwf w0) (nth i x false))) by exact Hw.
    specialize (Hkeep w Hgs Hw). rewrite Hkeep, (Hin0 w Hw).
    unfold init_wires. fold ni. rewrite <- Hx at 1. rewrite firstn_all.
    rewrite app_nth1 by lia. reflexivity.
  Qed.

  Theorem garble_eval_correct (rnd : nat -> N) (scratch : list wire) (c : circuit) (x : list bool) :
    wf c = true -> length x = ninputs c ->
    let g := garble pi rnd scratch c in
    exists ew, geval pi c (encode g c x) (gTables g) = Some ew /\
      forall o, In o (output_wires c) ->
        let b := nth o (eval_plain_wires c x) false in
        nth o ew 0 = pick (nth o (gWires g) w0) b /\
        decode (nth o (gWires g) w0) (nth o ew 0) = Some b /\
        L0 (nth o (gWires g) w0) <> L1 (nth o (gWires g) w0).
  Proof.
    intros Hwf Hx g. destruct (garble_inv rnd scratch c x Hwf Hx) as (Hr & ew & GE & HI).
    fold g in Hr, GE, HI. exists ew. split; [exact GE|].
    intros o Ho. apply wf_spec in Hwf. destruct Hwf as (_ & _ & _ & Hout).
    destruct HI as (_ & _ & _ & _ & HI). destruct (HI o (Hout o Ho)) as [Wo Eo].
    split; [exact Eo|]. split.
    - rewrite Eo. apply decode_pick with (r := gR g); assumption.
    - rewrite Wo. intro E. symmetry in E. exact (lxor_r_neq _ _ Hr E).
  Qed.
End Garble.

Lemma garble_decoded_outputs :
  forall pi rnd scratch c x, wf c = true -> length x = ninputs c ->
    let g := garble pi rnd scratch c in
    exists ew, geval pi c (encode g c x) (gTables g) = Some ew /\
      map (fun o => decode (nth o (gWires g) w0) (nth o ew 0)) (output_wires c)
      = map Some (eval_plain c x).
Proof.
  intros pi rnd scratch c x Hwf Hx g.
  destruct (garble_eval_correct pi rnd scratch c x Hwf Hx) as (ew & GE & H).
  exists ew. split; [exact GE|].
  unfold eval_plain. rewrite map_map. apply map_ext_in. intros o Ho.
  destruct (H o Ho) as (_ & D & _). exact D.
Qed.

(* non-vacuity: a 7-gate circuit with every gate kind, fan-out, in0 = in1 and an
   overwritten intermediate wire is well-formed *)
Example wf_example :
  wf (mkCircuit 8 2 2 [mkGate 0 1 2 XOR; mkGate 2 2 3 AND; mkGate 3 0 4 OR;
                       mkGate 4 0 2 INV; mkGate 2 1 5 XNOR; mkGate 5 4 6 AND;
                       mkGate 6 3 7 OR]) = true.
Proof. vm_compute. reflexivity. Qed.

Lemma garble_output_wires_ok pi rnd scratch c :
  wf c = true ->
  let g := garble pi rnd scratch c in
  forall o, In o (output_wires c) -> L1 (nth o (gWires g) w0) = lxor (L0 (nth o (gWires g) w0)) (gR g).
Proof.
  intros Hwf g o Ho.
  destruct (garble_inv pi rnd scratch c (repeat false (ninputs c)) Hwf (repeat_length _ _))
    as (_ & ew & _ & _ & _ & _ & _ & HI).
  apply wf_spec in Hwf. destruct Hwf as (_ & _ & _ & Hout).
  exact (proj1 (HI o (Hout o Ho))).
Qed.
