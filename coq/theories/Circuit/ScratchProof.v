(* ScratchProof.v — theorems about Circuit/Scratch.v: the pooled scratch is sized
   exactly for its circuit, by the circuit alone. *)
From Coq Require Import List Bool Arith Lia.
From Mpc Require Import Base.Label Circuit.Circuit Circuit.Garble Circuit.GarbleProof Circuit.Scratch.
Import ListNotations.
Open Scope nat_scope.

Definition rows_of (gs : list gate) : list nat := map (fun g => op_rows (gop g)) gs.

Lemma fold_rows_acc gs a :
  fold_left (fun s g => s + op_rows (gop g)) gs a = a + list_sum (rows_of gs).
Proof.
  revert a; induction gs as [|g gs IH]; intros a; simpl; [lia|].
  rewrite IH. lia.
Qed.

Lemma slab_size_sum gs : slab_size gs = list_sum (rows_of gs).
Proof. unfold slab_size. rewrite fold_rows_acc. lia. Qed.

Lemma mapi_from_length {A B} (f : nat -> A -> B) i l : length (mapi_from f i l) = length l.
Proof. revert i; induction l as [|x t IH]; intros i; simpl; auto. Qed.

Lemma tl_length' {A} (l : list A) : length (tl l) = length l - 1.
Proof. destruct l; simpl; lia. Qed.

(* Gate.garbleInto returns count = 2 / 3 / 1 / 0 rows by gate kind alone *)
Lemma garble_gate_rows pi r gw id g :
  length (snd (garble_gate pi r gw id g)) = op_rows (gop g).
Proof.
  unfold garble_gate. destruct (gop g); cbv zeta; cbn [snd op_rows]; try reflexivity.
  all: unfold mapi; rewrite tl_length', mapi_from_length, !upd_length; reflexivity.
Qed.

Lemma garble_gates_rows pi gs : forall r gw id,
  map (@length label) (snd (garble_gates pi r gw id gs)) = rows_of gs.
Proof.
  induction gs as [|g gs IH]; intros r gw id; simpl; [reflexivity|].
  pose proof (garble_gate_rows pi r gw id g) as Hg.
  destruct (garble_gate pi r gw id g) as [[c id'] row]. simpl in Hg.
  specialize (IH r (upd gw (gout g) c) id').
  destruct (garble_gates pi r (upd gw (gout g) c) id' gs) as [[gwf idf] rows].
  simpl in *. rewrite Hg, IH. reflexivity.
Qed.

(* C17_scratch_rows_by_circuit *)
Theorem garble_rows_by_circuit : forall pi rnd scr c,
  map (@length label) (gTables (garble pi rnd scr c)) = rows_of (gates c).
Proof.
  intros pi rnd scr c. unfold garble.
  match goal with |- context [garble_gates pi ?r ?gw ?id (gates c)] =>
    pose proof (garble_gates_rows pi (gates c) r gw id) as H;
    destruct (garble_gates pi r gw id (gates c)) as [[gwf idf] rows] end.
  simpl in *. exact H.
Qed.

Lemma garble_tables_length pi rnd scr c : length (gTables (garble pi rnd scr c)) = length (gates c).
Proof.
  rewrite <- (map_length (@length label)), garble_rows_by_circuit. unfold rows_of. apply map_length.
Qed.

Theorem garble_rows_same : forall pi pi' rnd rnd' scr scr' c,
  map (@length label) (gTables (garble pi rnd scr c))
  = map (@length label) (gTables (garble pi' rnd' scr' c)).
Proof. intros. rewrite !garble_rows_by_circuit. reflexivity. Qed.

Theorem garble_rows_total : forall pi rnd scr c ng,
  list_sum (map (@length label) (gTables (garble pi rnd scr c))) = sh_slab (scratch_shape c ng).
Proof. intros. rewrite garble_rows_by_circuit. simpl. rewrite slab_size_sum. reflexivity. Qed.

Lemma blit_length slab off row :
  off + length row <= length slab -> length (blit slab off row) = length slab.
Proof.
  intros H. unfold blit. rewrite !app_length, firstn_length, skipn_length. lia.
Qed.

Lemma carve_ok : forall rows i off slab hdrs,
  off + list_sum (map (@length label) rows) <= length slab ->
  i + length rows <= length hdrs ->
  exists s h, carve rows i off slab hdrs = CarveOk s h (off + list_sum (map (@length label) rows))
              /\ length s = length slab /\ length h = length hdrs.
Proof.
  induction rows as [|row rest IH]; intros i off slab hdrs Hs Hh; simpl in *.
  - exists slab, hdrs. rewrite Nat.add_0_r. auto.
  - destruct (length hdrs <=? i) eqn:E; [apply Nat.leb_le in E; lia|].
    destruct row as [|x row'].
    + simpl in *. destruct (IH (S i) off slab (upd hdrs i None)) as (s & h & H1 & H2 & H3);
        [lia | rewrite upd_length; lia |].
      exists s, h. rewrite H1, H2, H3, upd_length. auto.
    + remember (x :: row') as row eqn:Er.
      destruct (length slab <? off + length row) eqn:E2; [apply Nat.ltb_lt in E2; lia|].
      destruct (IH (S i) (off + length row) (blit slab off row) (upd hdrs i (Some (off, length row))))
        as (s & h & H1 & H2 & H3).
      * rewrite blit_length by lia. lia.
      * rewrite upd_length. lia.
      * exists s, h. rewrite H1, H2, H3, upd_length, blit_length by lia.
        split; [f_equal; lia | auto].
Qed.

Lemma carve_panics : forall rows i off slab hdrs,
  off <= length slab ->
  length slab < off + list_sum (map (@length label) rows) ->
  i + length rows <= length hdrs ->
  exists gi, carve rows i off slab hdrs = CarvePanic gi 1.
Proof.
  induction rows as [|row rest IH]; intros i off slab hdrs Ho Hs Hh; simpl in *; [lia|].
  destruct (length hdrs <=? i) eqn:E; [apply Nat.leb_le in E; lia|].
  destruct row as [|x row'].
  - simpl in *. apply IH; [lia | lia | rewrite upd_length; lia].
  - remember (x :: row') as row eqn:Er.
    destruct (length slab <? off + length row) eqn:E2; [eexists; reflexivity|].
    apply Nat.ltb_ge in E2.
    apply IH; [rewrite blit_length by lia; lia | rewrite blit_length by lia; lia | rewrite upd_length; lia].
Qed.

(* C17_scratch_in_bounds.  Circuit.Garble on a scratch of the circuit's shape: no index or slice expression on the
   slab and the header array goes out of range, the slab is used up exactly, and the scratch
   has the same shape afterwards *)
Theorem garble_into_ok : forall pi rnd sc c,
  ninputs c <= nwires c ->
  has_shape sc (scratch_shape c (length (gates c))) ->
  exists g sc', garble_into pi rnd sc c = GOk g sc' (slab_size (gates c))
                /\ g = garble pi rnd (sc_wires sc) c
                /\ has_shape sc' (scratch_shape c (length (gates c))).
Proof.
  intros pi rnd sc c Hn (Hw & Hs & Hg). simpl in *.
  unfold garble_into.
  pose proof (garble_rows_by_circuit pi rnd (sc_wires sc) c) as Hr.
  set (g := garble pi rnd (sc_wires sc) c) in *.
  pose proof (garble_tables_length pi rnd (sc_wires sc) c) as Hlen. fold g in Hlen.
  destruct (carve_ok (gTables g) 0 0 (sc_slab sc) (sc_gates sc)) as (s & h & H1 & H2 & H3).
  - rewrite Hr, <- slab_size_sum. lia.
  - lia.
  - rewrite H1. exists g, (mkScratch (gWires g) s h).
    rewrite Hr, <- slab_size_sum. simpl. split; [reflexivity|]. split; [reflexivity|].
    unfold has_shape; simpl. repeat split; try lia.
    apply garble_lengths. exact Hn.
Qed.

(* C17_scratch_reuse_any_history *)
Theorem garble_seq_ok : forall calls sc c,
  ninputs c <= nwires c ->
  has_shape sc (scratch_shape c (length (gates c))) ->
  exists sc', garble_seq calls sc c = Some sc'
              /\ has_shape sc' (scratch_shape c (length (gates c))).
Proof.
  induction calls as [|[pi rnd] rest IH]; intros sc c Hn Hsh; simpl.
  - exists sc. auto.
  - destruct (garble_into_ok pi rnd sc c Hn Hsh) as (g & sc' & H1 & _ & H3).
    rewrite H1. apply IH; assumption.
Qed.

Lemma new_scratch_shape sh : has_shape (new_scratch sh) sh.
Proof. unfold has_shape, new_scratch; simpl. rewrite !repeat_length. auto. Qed.

(* C17_scratch_small_slab_panics *)
Theorem garble_into_small_slab_panics : forall pi rnd sc c,
  length (sc_slab sc) < slab_size (gates c) ->
  length (sc_gates sc) = length (gates c) ->
  exists gi, garble_into pi rnd sc c = GPanic gi 1.
Proof.
  intros pi rnd sc c Hs Hg. unfold garble_into.
  pose proof (garble_rows_by_circuit pi rnd (sc_wires sc) c) as Hr.
  set (g := garble pi rnd (sc_wires sc) c) in *.
  pose proof (garble_tables_length pi rnd (sc_wires sc) c) as Hlen. fold g in Hlen.
  destruct (carve_panics (gTables g) 0 0 (sc_slab sc) (sc_gates sc)) as (gi & H).
  - lia.
  - rewrite Hr, <- slab_size_sum. lia.
  - lia.
  - exists gi. rewrite H. reflexivity.
Qed.

Lemma wf_gates_indices n ni : forall gs asg,
  wf_gates n ni asg gs = true -> Forall (fun i => i < n) (flat_map gate_indices gs).
Proof.
  induction gs as [|g gs IH]; intros asg H; simpl in *; [constructor|].
  apply andb_true_iff in H. destruct H as [Hg Hrest].
  apply Forall_app. split; [|eapply IH; exact Hrest].
  apply gate_ok_spec in Hg. destruct Hg as ((H0 & Ho & _) & _ & H1).
  unfold gate_indices.
  destruct (gop g); try (destruct H1 as [?|[H1 _]]; [discriminate|]); repeat constructor; assumption.
Qed.

Theorem garble_indices_in_range : forall c ng,
  wf c = true -> Forall (fun i => i < sh_wires (scratch_shape c ng)) (garble_indices c).
Proof.
  intros c ng H. apply wf_spec in H. destruct H as (Hni & _ & Hgs & _).
  simpl. unfold garble_indices. apply Forall_app. split.
  - apply Forall_forall. intros i Hi. apply in_seq in Hi. lia.
  - eapply wf_gates_indices. exact Hgs.
Qed.

Example mix_wf : wf mix_light = true /\ wf mix_heavy = true.
Proof. vm_compute. auto. Qed.

Example shape_hypotheses_inhabited :
  ninputs mix_heavy <= nwires mix_heavy /\
  has_shape (new_scratch (scratch_shape mix_heavy 1)) (scratch_shape mix_heavy (length (gates mix_heavy))).
Proof. split; [vm_compute; lia | apply new_scratch_shape]. Qed.

(* C17_pool_by_counts_refuted: a pool keyed by (NumWires, NumGates) is unsound *)
Theorem pool_by_counts_refuted :
  nwires mix_light = nwires mix_heavy /\ length (gates mix_light) = length (gates mix_heavy) /\
  wf mix_light = true /\ wf mix_heavy = true /\
  scratch_shape mix_light 1 <> scratch_shape mix_heavy 1 /\
  forall pi rnd, exists gi,
    garble_into pi rnd (new_scratch (scratch_shape mix_light 1)) mix_heavy = GPanic gi 1.
Proof.
  split; [reflexivity|]. split; [reflexivity|]. split; [reflexivity|]. split; [reflexivity|].
  split; [discriminate|].
  intros pi rnd. apply garble_into_small_slab_panics; cbn; lia.
Qed.
