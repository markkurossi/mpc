(* PoolProof.v — theorems about the scratch-pool model of Pool.v, by induction
   over the step relation: all interleavings of any number of goroutines, all
   programs (histories), all resolutions of pool.Get(), arbitrary pool drops. *)
From Coq Require Import List Bool PeanoNat Lia.
From Mpc Require Import Base.ListFacts Circuit.Pool.
Import ListNotations.

Lemma upd_same {A} (f : nat -> A) i v : upd f i v i = v.
Proof. unfold upd. now rewrite Nat.eqb_refl. Qed.
Lemma upd_other {A} (f : nat -> A) i j v : j <> i -> upd f i v j = f j.
Proof. unfold upd. intros H. apply Nat.eqb_neq in H. now rewrite H. Qed.

(* [step_cases H] takes H : step t ch st = Some st' apart along the program
   counter of goroutine t and, where it is Idle, its next call: twelve goals,
   the two kinds of Garble first; the tests that remain (s_ptr, the handle's
   pool, the choice of pool.Get(), ...) stay in H. *)
Ltac step_cases H :=
  unfold step in H;
  match type of H with context [t_pc ?th] =>
    destruct (t_pc th) as [|seed p|seed|seed p|seed p|seed p s|hi|hi v1] eqn:Hpc;
    [destruct (t_prog th) as [|[seed|seed site|hi|hi|x] rest] eqn:Hprog; [discriminate H| | | | |]| | | | | | |]
  end.

(* [step_leaves H] goes on along the remaining tests: one goal per branch of
   [step], with st' replaced by the successor state of that branch.  For facts
   that hold branch by branch for the same reason. *)
Ltac step_leaves H :=
  step_cases H;
  repeat match type of H with
         | context [match ?x with _ => _ end] => destruct x eqn:?
         end;
  injection H as <-.

Lemma step_other t ch st st' t' : step t ch st = Some st' -> t' <> t -> s_thr st' t' = s_thr st t'.
Proof. intros H Hne. step_leaves H; simpl; now rewrite upd_other. Qed.

Lemma step_cfg t ch st st' : step t ch st = Some st' -> s_dput st' = s_dput st /\ s_late st' = s_late st.
Proof. intros H. step_leaves H; simpl; auto. Qed.

Lemma step_ptr_stable t ch st st' q : step t ch st = Some st' -> s_ptr st = Some q -> s_ptr st' = Some q.
Proof. intros H Hp. step_leaves H; simpl; congruence. Qed.

Lemma step_newset_mono t ch st st' q :
  s_late st = false -> step t ch st = Some st' -> s_newset st q = true -> s_newset st' q = true.
Proof.
  intros Hl H Hq. step_leaves H; simpl; auto; rewrite ?Hl; unfold upd; destruct (q =? _); auto.
Qed.

Lemma step_ptr_from t ch st st' q :
  step t ch st = Some st' -> s_ptr st' = Some q -> s_ptr st = Some q \/ exists seed, t_pc (s_thr st t) = GCas seed q.
Proof. intros H. step_leaves H; simpl; auto. all: intros [= <-]; eauto. Qed.

Lemma run_preserves (P : state -> Prop) :
  (forall t ch st st', P st -> step t ch st = Some st' -> P st') ->
  (forall p i st, P st -> P (exec st (SDrop p i))) ->
  forall sched st, P st -> P (run_from st sched).
Proof.
  intros Hstep Hdrop. induction sched as [|[t ch|p i] r IH]; intros st HP; [exact HP| |].
  - apply IH. simpl. destruct (step t ch st) eqn:Hs; [exact (Hstep _ _ _ _ HP Hs)|exact HP].
  - apply IH. now apply Hdrop.
Qed.

Lemma run_ptr_stable sched : forall st p, s_ptr st = Some p -> s_ptr (run_from st sched) = Some p.
Proof.
  intros st p. apply (run_preserves (fun st => s_ptr st = Some p)).
  - intros t ch st0 st' Hp H. exact (step_ptr_stable _ _ _ _ _ H Hp).
  - intros q i st0 Hp. exact Hp.
Qed.

(* where a scratch is: in a pool, held by a goroutine inside Garble, or owned
   by a live handle (whose garbling it then holds).  The invariant says that
   every occurrence of a scratch in the state is recorded by ONE function
   [loc]; since a function has one value per scratch, no scratch is in two
   places. *)
Inductive place := InPool (p : nat) | Held (t : nat) | Live (t hi gid : nat).

Definition is_at (st : state) (s : nat) (pl : place) : Prop :=
  match pl with
  | InPool p => In s (s_pool st p)
  | Held t => exists seed p, t_pc (s_thr st t) = GFill seed p s
  | Live t hi g => live (s_thr st t) hi = true /\ h_scr (t_h (s_thr st t) hi) = s /\ h_gid (t_h (s_thr st t) hi) = g
  end.

Definition Own (st : state) (loc : nat -> option place) : Prop :=
  (forall p, NoDup (s_pool st p)) /\
  (forall s pl, is_at st s pl -> loc s = Some pl /\ s < s_nscr st) /\
  (forall s t hi g, loc s = Some (Live t hi g) -> s_contents st s = g).

Definition Inv (st : state) : Prop := s_dput st = false /\ exists loc, Own st loc.

Lemma at_live st t hi :
  live (s_thr st t) hi = true -> is_at st (h_scr (t_h (s_thr st t) hi)) (Live t hi (h_gid (t_h (s_thr st t) hi))).
Proof. intros H. repeat split. exact H. Qed.

Lemma at_inj {st loc s a b} : Own st loc -> is_at st s a -> is_at st s b -> a = b.
Proof. intros (_ & O & _) A B. apply O in A as (A & _), B as (B & _). congruence. Qed.

Lemma at_not {st loc s a} b : Own st loc -> is_at st s a -> a <> b -> ~ is_at st s b.
Proof. intros HO A Hab B. exact (Hab (at_inj HO A B)). Qed.

Lemma own_contents st loc t hi :
  Own st loc -> live (s_thr st t) hi = true ->
  s_contents st (h_scr (t_h (s_thr st t) hi)) = h_gid (t_h (s_thr st t) hi).
Proof. intros (_ & O2 & O3) H. apply at_live, O2 in H as (H & _). exact (O3 _ _ _ _ H). Qed.

Lemma remove_nth_In i : forall l x, In x (remove_nth i l) -> In x l.
Proof.
  induction i as [|i IH]; intros [|a r] x; simpl; auto.
  intros [->|H]; auto.
Qed.

Lemma remove_nth_NoDup i : forall l, NoDup l -> NoDup (remove_nth i l).
Proof.
  induction i as [|i IH]; intros [|a r] ND; simpl; auto; inversion ND; subst; auto.
  constructor; auto. intros H. apply remove_nth_In in H. contradiction.
Qed.

Lemma remove_nth_nth i : forall l, NoDup l -> i < length l -> ~ In (nth i l 0) (remove_nth i l).
Proof.
  induction i as [|i IH]; intros [|a r] ND Hl; simpl in *; try lia; inversion ND; subst; auto.
  intros [H|H].
  - apply H1. rewrite H. apply nth_In. lia.
  - revert H. apply IH; auto. lia.
Qed.

Lemma own_keep st st' loc :
  Own st loc -> (forall s b, is_at st' s b -> is_at st s b) -> (forall p, NoDup (s_pool st' p)) ->
  s_contents st' = s_contents st -> s_nscr st' = s_nscr st -> Own st' loc.
Proof.
  intros (O1 & O2 & O3) H ND Hc Hn. unfold Own. rewrite Hc, Hn.
  split; [exact ND|]. split; [|exact O3]. intros s b Hb. apply O2, H, Hb.
Qed.

(* the places that a step of goroutine t which uses pool p can change *)
Definition near (t p : nat) (b : place) : Prop :=
  match b with InPool q => q = p | Held t' | Live t' _ _ => t' = t end.

Lemma near_dec t p b : {near t p b} + {~ near t p b}.
Proof. destruct b; apply Nat.eq_dec. Qed.

Lemma at_old st s pl' s0 b : ~ is_at st s b -> is_at st s0 b -> (s0, b) = (s, pl') \/ s0 <> s /\ is_at st s0 b.
Proof. intros N H. right. split; [intros ->; exact (N H)|exact H]. Qed.

(* a step of goroutine t that moves scratch s to place pl' -- out of pool p,
   out of t's own hands, or newly made -- and leaves every other occupant
   where it is: only the places near t and p need to be looked at.  [at_old]
   is the second alternative for the occupant of a place where s was not. *)
Lemma own_move st st' loc t th' p s pl' :
  Own st loc ->
  s_thr st' = upd (s_thr st) t th' ->
  (forall q, q <> p -> s_pool st' q = s_pool st q) ->
  (forall b, is_at st s b -> near t p b) ->
  (forall s0 b, near t p b -> is_at st' s0 b -> (s0, b) = (s, pl') \/ s0 <> s /\ is_at st s0 b) ->
  (forall q, NoDup (s_pool st' q)) ->
  s_nscr st <= s_nscr st' -> s < s_nscr st' ->
  (forall x, x <> s -> s_contents st' x = s_contents st x) ->
  (forall t hi g, pl' = Live t hi g -> s_contents st' s = g) ->
  Own st' (upd loc s (Some pl')).
Proof.
  intros (O1 & O2 & O3) Ht Hq Hs Hat ND Hn Hsn Hc Hc'. split; [exact ND|]. split.
  - intros s0 b H.
    assert (Hb : (s0, b) = (s, pl') \/ s0 <> s /\ is_at st s0 b).
    { destruct (near_dec t p b) as [Hb|Hb]; [exact (Hat s0 b Hb H)|]. right.
      assert (H0 : is_at st s0 b) by (destruct b; simpl in *; rewrite ?Ht, ?upd_other, ?Hq in H; assumption).
      split; [|exact H0]. intros ->. exact (Hb (Hs b H0)). }
    destruct Hb as [[= -> ->]|(Hne & H0)].
    + now rewrite upd_same.
    + destruct (O2 s0 b H0) as (A & B). rewrite upd_other by exact Hne. split; [exact A|lia].
  - intros s0 t0 hi g. unfold upd. destruct (Nat.eqb_spec s0 s) as [->|E].
    + intros [= E]. exact (Hc' _ _ _ E).
    + rewrite (Hc _ E). apply O3.
Qed.

Lemma own_frame st st' loc t th' :
  Own st loc ->
  s_pool st' = s_pool st -> s_contents st' = s_contents st -> s_nscr st' = s_nscr st ->
  s_thr st' = upd (s_thr st) t th' ->
  (forall hi, live th' hi = true -> live (s_thr st t) hi = true /\ t_h th' hi = t_h (s_thr st t) hi) ->
  (forall seed p s, t_pc th' = GFill seed p s -> t_pc (s_thr st t) = GFill seed p s) ->
  Own st' loc.
Proof.
  intros HO Hp Hc Hn Ht Hl Hg. apply (own_keep st _ _ HO); auto; [|rewrite Hp; apply HO].
  intros s [p|t'|t' hi g]; simpl; rewrite ?Hp, ?Ht; auto;
    (destruct (Nat.eq_dec t' t) as [->|Hne]; [rewrite upd_same|now rewrite upd_other]).
  - intros (seed & p & H). eauto.
  - intros (H & E). destruct (Hl hi H) as (A & B). rewrite <- B. auto.
Qed.

Lemma live_pc_irrelevant th pc' hi :
  (forall h, t_pc th <> RClear h) -> (forall h, pc' <> RClear h) ->
  live (th_pc th pc') hi = live th hi.
Proof.
  intros H1 H2. unfold live, th_pc. simpl.
  destruct (t_pc th); try (exfalso; eapply H1; reflexivity);
    destruct pc'; try (exfalso; eapply H2; reflexivity); reflexivity.
Qed.

Lemma live_ret th r hi :
  (forall h, t_pc th <> RClear h) -> live (th_ret th r) hi = live th hi.
Proof.
  intros H1. unfold live, th_ret. simpl.
  destruct (t_pc th); try (exfalso; eapply H1; reflexivity); reflexivity.
Qed.

Ltac frame_pc HO :=
  eexists; eapply own_frame; [exact HO|reflexivity|reflexivity|reflexivity|reflexivity| |];
  [ let hx := fresh "hx" in let Hlx := fresh "Hlx" in
    intros hx Hlx; split; [|reflexivity];
    first [ rewrite live_pc_irrelevant in Hlx; [exact Hlx|congruence|congruence]
          | rewrite live_ret in Hlx; [exact Hlx|congruence] ]
  | simpl; intros; congruence ].

Lemma step_inv t ch st st' : Inv st -> step t ch st = Some st' -> Inv st'.
Proof.
  intros (Hdp & loc & HO) Hstep. split; [now rewrite (proj1 (step_cfg _ _ _ _ Hstep))|].
  pose proof HO as (O1 & O2 & _).
  step_cases Hstep; revert Hstep; set (th := s_thr st t) in *.
  (* Garble, failing or not: Load *)
  1-2: destruct (s_ptr st) as [p|]; intros [= <-]; frame_pc HO.
  - (* Release *)
    destruct (h_pool (t_h th hi)) as [p|] eqn:Hp.
    2:{ intros [= <-]. frame_pc HO. }
    destruct (hi <? t_nh th) eqn:Hhi.
    2:{ intros [= <-]. frame_pc HO. }
    (* Put: from the handle into the pool *)
    intros [= <-].
    assert (Hs : is_at st (h_scr (t_h th hi)) (Live t hi (h_gid (t_h th hi)))).
    { apply at_live. unfold live. fold th. now rewrite Hhi, Hp, Hpc. }
    exists (upd loc (h_scr (t_h th hi)) (Some (InPool p))).
    eapply (own_move st _ loc t _ p _ _ HO); simpl;
      [reflexivity|intros q; apply upd_other| | | |reflexivity|apply (O2 _ _ Hs)|reflexivity|discriminate].
    + intros b Hb. now rewrite <- (at_inj HO Hs Hb).
    + intros s0 [q|t'|t' hi' g] Hb H; simpl in Hb, H; subst; rewrite upd_same in H.
      * apply in_app_or in H as [H|[<-|[]]]; [|now left]. apply at_old; [apply (at_not _ HO Hs); discriminate|exact H].
      * destruct H as (seed & q & [=]).
      * destruct H as (H & E). unfold live in H. simpl in H. apply andb_true_iff in H as (H & Hne).
        apply at_old; [apply (at_not _ HO Hs); intros [= <-]; now rewrite Nat.eqb_refl in Hne|].
        split; [unfold live; fold th; now rewrite Hpc, H|exact E].
    + intros q. unfold upd. destruct (Nat.eqb_spec q p) as [->|Ep]; [|apply O1].
      apply NoDup_snoc; [apply O1|]. now apply (at_not (InPool p) HO Hs).
  - (* Eval: first read *)
    destruct (h_pool (t_h th hi)) as [p|] eqn:Hp.
    2:{ intros [= <-]. frame_pc HO. }
    destruct (hi <? t_nh th); intros [= <-]; frame_pc HO.
  - (* Compute *)
    intros [= <-]. frame_pc HO.
  - (* CAS *)
    destruct (s_ptr st); [|destruct (s_late st)]; intros [= <-]; frame_pc HO.
  - (* Load after a lost CAS *)
    destruct (s_ptr st); intros [= <-]; frame_pc HO.
  - (* late New (regression variant only) *)
    intros [= <-]. frame_pc HO.
  - (* pool.Get() *)
    destruct (ch <? length (s_pool st p)) eqn:Hch.
    + (* an element of the pool: from the pool to the goroutine *)
      apply Nat.ltb_lt in Hch. intros [= <-]. set (s := nth ch (s_pool st p) 0).
      assert (Hs : is_at st s (InPool p)) by (apply nth_In; assumption).
      exists (upd loc s (Some (Held t))).
      eapply (own_move st _ loc t _ p _ _ HO); simpl;
        [reflexivity|intros q; apply upd_other| | | |reflexivity|apply (O2 _ _ Hs)|reflexivity|discriminate].
      * intros b Hb. now rewrite <- (at_inj HO Hs Hb).
      * intros s0 [q|t'|t' hi' g] Hb H; simpl in Hb, H; subst; rewrite upd_same in H.
        -- right. split; [|exact (remove_nth_In _ _ _ H)]. intros ->. revert H. now apply remove_nth_nth.
        -- destruct H as (seed' & q & [= _ _ <-]). now left.
        -- rewrite live_pc_irrelevant in H; [|fold th; congruence|congruence].
           apply at_old; [apply (at_not _ HO Hs); discriminate|exact H].
      * intros q. unfold upd. destruct (q =? p); [apply remove_nth_NoDup|]; apply O1.
    + (* New(): a new scratch *)
      destruct (negb (s_newset st p)); [intros [= <-]; frame_pc HO|].
      intros [= <-].
      assert (Hnew : forall b, ~ is_at st (s_nscr st) b) by (intros b Hb; apply O2 in Hb; lia).
      exists (upd loc (s_nscr st) (Some (Held t))).
      eapply (own_move st _ loc t _ p _ _ HO); simpl;
        [reflexivity|reflexivity| | |exact O1|lia|lia| |discriminate].
      * intros b Hb. destruct (Hnew b Hb).
      * intros s0 [q|t'|t' hi' g] Hb H; simpl in Hb, H; subst; rewrite ?upd_same in H.
        -- apply at_old; [apply Hnew|exact H].
        -- destruct H as (seed' & q & [= _ _ <-]). now left.
        -- rewrite live_pc_irrelevant in H; [|fold th; congruence|congruence]. apply at_old; [apply Hnew|exact H].
      * intros x Hx. now rewrite upd_other.
  - (* fill the scratch: return the handle, or fail and put the scratch back *)
    assert (Hs : is_at st s (Held t)) by (exists seed, p; exact Hpc).
    assert (Hnear : forall b, is_at st s b -> near t p b) by (intros b Hb; now rewrite <- (at_inj HO Hs Hb)).
    assert (Succ : exists loc', Own (mkState (s_ptr st) (s_npools st) (s_pool st) (upd (s_contents st) s seed) (s_nscr st)
                     (upd (s_thr st) t (mkThread (tl (t_prog th)) Idle (S (t_nh th))
                        (upd (t_h th) (t_nh th) (mkHandle s (Some p) seed)) (RGarble seed :: t_res th))) (s_dput st) (s_newset st) (s_late st)) loc').
    { (* from the goroutine to its new handle *)
      exists (upd loc s (Some (Live t (t_nh th) seed))).
      eapply (own_move st _ loc t _ p _ _ HO); simpl;
        [reflexivity|reflexivity|exact Hnear| |exact O1|reflexivity|apply (O2 _ _ Hs)| |].
      + intros s0 [q|t'|t' hi' g] Hb H; simpl in Hb, H; subst; rewrite ?upd_same in H.
        * apply at_old; [apply (at_not _ HO Hs); discriminate|exact H].
        * destruct H as (seed' & q & [=]).
        * destruct H as (H & E). unfold live in H. simpl in H, E. unfold upd in H, E.
          destruct (Nat.eqb_spec hi' (t_nh th)) as [->|Eh]; [destruct E as (<- & <-); now left|].
          apply at_old; [apply (at_not _ HO Hs); discriminate|]. split; [|exact E].
          unfold live. fold th. rewrite Hpc. apply andb_true_iff in H as (H & _). apply andb_true_iff in H as (H1 & H2).
          rewrite H2. apply Nat.ltb_lt in H1. replace (hi' <? t_nh th) with true by (symmetry; apply Nat.ltb_lt; lia). reflexivity.
      + intros x Hx. now rewrite upd_other.
      + intros t' hi' g [= _ _ <-]. apply upd_same. }
    destruct (t_prog th) as [|[seed0|seed0 site|hi0|hi0|x0] prog0] eqn:Hprog; try (intros [= <-]; exact Succ).
    (* the failing Garble: from the goroutine back into the pool *)
    rewrite Hdp. simpl andb. cbv iota. generalize (2 <=? site). intros c [= <-].
    exists (upd loc s (Some (InPool p))).
    eapply (own_move st _ loc t _ p _ _ HO); simpl;
      [reflexivity|intros q; apply upd_other|exact Hnear| | |reflexivity|apply (O2 _ _ Hs)| |discriminate].
    + intros s0 [q|t'|t' hi' g] Hb H; simpl in Hb, H; subst; rewrite upd_same in H.
      * apply in_app_or in H as [H|[<-|[]]]; [|now left]. apply at_old; [apply (at_not _ HO Hs); discriminate|exact H].
      * destruct H as (seed' & q & [=]).
      * rewrite live_ret in H by (fold th; congruence). apply at_old; [apply (at_not _ HO Hs); discriminate|exact H].
    + intros q. unfold upd. destruct (Nat.eqb_spec q p) as [->|Ep]; [|apply O1].
      apply NoDup_snoc; [apply O1|]. now apply (at_not (InPool p) HO Hs).
    + intros x Hx. destruct c; [now rewrite upd_other|reflexivity].
  - (* Release: clear the fields *)
    intros [= <-]. eexists. eapply own_frame; [exact HO|reflexivity|reflexivity|reflexivity|reflexivity| |].
    + intros hi' H. unfold live in H. simpl in H.
      apply andb_true_iff in H. destruct H as (H & _). apply andb_true_iff in H. destruct H as (H1 & H2).
      unfold upd in H2. destruct (hi' =? hi) eqn:Eh; [simpl in H2; discriminate|].
      split.
      * unfold live. fold th. rewrite Hpc, H1, H2. simpl. rewrite Nat.eqb_sym, Eh. reflexivity.
      * simpl. unfold upd. now rewrite Eh.
    + simpl. intros; congruence.
  - (* Eval: last read *)
    intros [= <-]. frame_pc HO.
Qed.

Lemma drop_inv p i st : Inv st -> Inv (exec st (SDrop p i)).
Proof.
  intros (Hd & loc & HO). split; [exact Hd|]. exists loc. apply (own_keep st _ _ HO); try reflexivity; simpl.
  - intros s [q|t|t hi g]; simpl; auto. unfold upd. destruct (Nat.eqb_spec q p) as [->|]; auto. apply remove_nth_In.
  - intros q. unfold upd. destruct (q =? p); [apply remove_nth_NoDup|]; apply HO.
Qed.

Lemma init_inv progs : Inv (init progs).
Proof.
  split; [reflexivity|]. exists (fun _ => None). split; [intros; constructor|]. split; [|discriminate].
  intros s [p|t|t hi g]; simpl; [intros []|intros (seed & p & [=])|intros ([=] & _)].
Qed.

Definition shared_eq (a b : state) : Prop :=
  s_ptr a = s_ptr b /\ s_npools a = s_npools b /\ s_pool a = s_pool b /\
  s_contents a = s_contents b /\ s_nscr a = s_nscr b.

(* C17_release_idempotent: this and [release_again] *)
Lemma release_clears t ch st st' hi :
  t_pc (s_thr st t) = RClear hi -> step t ch st = Some st' ->
  h_pool (t_h (s_thr st' t) hi) = None /\ t_pc (s_thr st' t) = Idle.
Proof.
  unfold step. intros ->. intros [= <-]. simpl. rewrite !upd_same. simpl. rewrite upd_same. auto.
Qed.

Lemma release_again t ch st st' hi rest :
  t_pc (s_thr st t) = Idle -> t_prog (s_thr st t) = ORelease hi :: rest ->
  h_pool (t_h (s_thr st t) hi) = None -> step t ch st = Some st' ->
  shared_eq st st' /\ t_h (s_thr st' t) = t_h (s_thr st t) /\ t_nh (s_thr st' t) = t_nh (s_thr st t) /\
  t_pc (s_thr st' t) = Idle /\ t_prog (s_thr st' t) = rest /\ t_res (s_thr st' t) = RUnit :: t_res (s_thr st t) /\
  (forall t', t' <> t -> s_thr st' t' = s_thr st t').
Proof.
  intros Hpc Hprog Hh. unfold step. rewrite Hpc, Hprog, Hh. intros [= <-]. simpl.
  rewrite !upd_same. simpl. rewrite Hprog. simpl.
  split; [repeat split|]. split; [reflexivity|]. split; [reflexivity|]. split; [reflexivity|].
  split; [reflexivity|]. split; [reflexivity|]. intros t' Hne. now apply upd_other.
Qed.

Definition abs (th : thread) (hi : nat) : nat * bool :=
  (h_gid (t_h th hi), match h_pool (t_h th hi) with None => true | Some _ => false end).

Definition gprog (th : thread) (seed : nat) : Prop :=
  exists r, t_prog th = OGarble seed :: r \/ exists site, t_prog th = OGarbleFail seed site :: r.

Definition lin_ok (prog0 : list op) (th : thread) : Prop :=
  rev (t_res th) ++ solo (t_prog th) (t_nh th) (abs th) = solo_run prog0.

Lemma solo_ext prog : forall nh f g, (forall hi, f hi = g hi) -> solo prog nh f = solo prog nh g.
Proof.
  induction prog as [|[seed|seed site|hi|hi|x] r IH]; intros nh f g H; simpl; auto.
  - f_equal. apply IH. intros hi. unfold upd. destruct (hi =? nh); auto.
  - f_equal. now apply IH.
  - f_equal. rewrite (H hi). destruct ((hi <? nh) && negb (snd (g hi))); apply IH; auto.
    intros hi'. unfold upd. destruct (hi' =? hi); auto.
  - rewrite (H hi). f_equal. now apply IH.
  - f_equal. now apply IH.
Qed.

Lemma lin_push prog0 res r rest nh f g :
  rev res ++ r :: solo rest nh g = solo_run prog0 -> (forall hi, f hi = g hi) ->
  rev (r :: res) ++ solo rest nh f = solo_run prog0.
Proof.
  intros H E. simpl. rewrite <- app_assoc. simpl. rewrite (solo_ext rest nh f g E). exact H.
Qed.

(* what the program counter of a goroutine records: the call it is inside; that
   a pool object it has built has its New function before the CompareAndSwap;
   that the pool it is about to Get from, or holds a scratch of, is the installed
   one; that the handle it is releasing or evaluating was live, and that the
   first read of Eval saw that handle's own garbling.  GInit is entered in the
   regression variant [s_late = true] only. *)
Definition pc_ok (st : state) (th : thread) : Prop :=
  match t_pc th with
  | Idle => True
  | GCas seed p => gprog th seed /\ s_newset st p = true
  | GLoad seed => gprog th seed /\ s_ptr st <> None
  | GInit _ _ => False
  | GGet seed p | GFill seed p _ => gprog th seed /\ s_ptr st = Some p
  | RClear hi => exists r, t_prog th = ORelease hi :: r /\ hi < t_nh th /\ h_pool (t_h th hi) <> None
  | EEnd hi v1 => (exists r, t_prog th = OEval hi :: r) /\ live th hi = true /\ v1 = h_gid (t_h th hi)
  end.

Definition thr_ok (prog0 : list op) (st : state) (th : thread) : Prop :=
  pc_ok st th /\ (forall hi p, h_pool (t_h th hi) = Some p -> s_ptr st = Some p) /\ lin_ok prog0 th.

(* [thr_ok] depends on the shared state only through facts that steps of other
   goroutines keep *)
Lemma thr_ok_mono prog0 st st' th :
  (forall p, s_ptr st = Some p -> s_ptr st' = Some p) ->
  (forall x, s_newset st x = true -> s_newset st' x = true) ->
  thr_ok prog0 st th -> thr_ok prog0 st' th.
Proof.
  intros Hp Hn (PC & HP & L). split; [|split; [eauto|exact L]].
  unfold pc_ok in *. destruct (t_pc th); intuition auto.
  destruct (s_ptr st) as [p|] eqn:E; [|contradiction]. rewrite (Hp p eq_refl) in *. discriminate.
Qed.

Lemma lin_ret prog0 th o rest r :
  t_prog th = o :: rest -> solo (o :: rest) (t_nh th) (abs th) = r :: solo rest (t_nh th) (abs th) ->
  lin_ok prog0 th -> lin_ok prog0 (th_ret th r).
Proof.
  unfold lin_ok. intros E S L. rewrite E, S in L. simpl. rewrite E. simpl. rewrite <- app_assoc. exact L.
Qed.

Lemma live_abs th hi : live th hi = true -> (hi <? t_nh th) = true /\ abs th hi = (h_gid (t_h th hi), false).
Proof.
  unfold live, abs. intros H. apply andb_true_iff in H as (H & _). apply andb_true_iff in H as (H1 & H2).
  split; [exact H1|]. destruct (h_pool _); [reflexivity|discriminate].
Qed.

Lemma step_thr prog0 t ch st st' :
  Inv st -> s_late st = false -> (forall p, s_ptr st = Some p -> s_newset st p = true) ->
  thr_ok prog0 st (s_thr st t) -> step t ch st = Some st' -> thr_ok prog0 st' (s_thr st' t).
Proof.
  intros (_ & loc & HO) Hl I1 (PC & HP & LIN) H.
  assert (HP' : forall hi p, h_pool (t_h (s_thr st t) hi) = Some p -> s_ptr st' = Some p)
    by (intros hi p E; exact (step_ptr_stable _ _ _ _ _ H (HP hi p E))).
  unfold pc_ok in PC. step_cases H.
  (* Garble, failing or not: Load; a pool built here has its New function *)
  1-2: destruct (s_ptr st) as [p|] eqn:Hptr in H; injection H as <-; simpl; rewrite upd_same;
    (split; [|split; [exact HP'|exact LIN]]); unfold pc_ok, gprog; simpl; rewrite ?Hl; eauto using upd_same.
  - (* Release *)
    destruct (h_pool (t_h (s_thr st t) hi)) as [p|] eqn:Hp in H; [destruct (hi <? t_nh (s_thr st t)) eqn:Hhi in H|];
      injection H as <-; simpl; rewrite upd_same; (split; [|split; [exact HP'|]]); try exact I.
    + unfold pc_ok. simpl. exists rest. apply Nat.ltb_lt in Hhi. rewrite Hp. repeat split; auto. discriminate.
    + exact LIN.
    + apply (lin_ret _ _ _ _ _ Hprog); [|exact LIN]. simpl. now rewrite Hhi.
    + apply (lin_ret _ _ _ _ _ Hprog); [|exact LIN]. simpl. unfold abs. now rewrite Hp, andb_false_r.
  - (* Eval: first read *)
    destruct (h_pool (t_h (s_thr st t) hi)) as [p|] eqn:Hp in H; [destruct (hi <? t_nh (s_thr st t)) eqn:Hhi in H|];
      injection H as <-; simpl; rewrite upd_same; (split; [|split; [exact HP'|]]); try exact I.
    + assert (Hlive : live (s_thr st t) hi = true) by (unfold live; now rewrite Hhi, Hp, Hpc).
      unfold pc_ok. simpl. split; [eauto|]. split; [|exact (own_contents _ _ _ _ HO Hlive)].
      unfold live in *. simpl. now rewrite Hpc in Hlive.
    + exact LIN.
    + apply (lin_ret _ _ _ _ _ Hprog); [|exact LIN]. simpl. now rewrite Hhi.
    + apply (lin_ret _ _ _ _ _ Hprog); [|exact LIN]. simpl. unfold abs. now rewrite Hp, andb_false_r.
  - (* Compute *)
    injection H as <-. simpl. rewrite upd_same. split; [exact I|]. split; [exact HP'|].
    now apply (lin_ret _ _ _ _ _ Hprog).
  - (* CAS: the winner publishes a pool that has its New function *)
    destruct PC as (PC & Hnew). rewrite Hl in H.
    destruct (s_ptr st) as [q|] eqn:Hptr in H; injection H as <-; simpl; rewrite upd_same;
      (split; [|split; [|exact LIN]]).
    + split; [exact PC|]. simpl. congruence.
    + exact HP'.
    + split; [exact PC|reflexivity].
    + intros hi q E. apply HP in E. congruence.
  - (* Load after a lost CAS *)
    destruct PC as (PC & Hnn). destruct (s_ptr st) as [q|] eqn:Hptr in H; [|congruence].
    injection H as <-. simpl. rewrite upd_same. split; [|split; [exact HP'|exact LIN]]. split; [exact PC|exact Hptr].
  - (* late New: only in the regression variant *)
    contradiction.
  - (* Get: the installed pool has its New function, so Get never returns nil *)
    rewrite (I1 p (proj2 PC)) in H. simpl negb in H. cbv iota in H.
    destruct (ch <? length (s_pool st p)); injection H as <-; simpl; rewrite upd_same;
      (split; [exact PC|split; [exact HP'|exact LIN]]).
  - (* Fill *)
    destruct PC as ((r & [Hprog|(site & Hprog)]) & Hptr); rewrite Hprog in H; injection H as <-; simpl; rewrite upd_same;
      (split; [exact I|split]).
    + simpl. intros hi q. unfold upd. destruct (hi =? t_nh (s_thr st t)); [intros [= <-]; exact Hptr|apply HP].
    + unfold lin_ok in *. cbn [t_res t_prog t_nh t_h]. rewrite Hprog in *. cbn [tl]. simpl in LIN.
      eapply lin_push; [exact LIN|]. intros hi. unfold abs. cbn [t_h]. unfold upd.
      destruct (hi =? t_nh (s_thr st t)); reflexivity.
    + exact HP'.
    + now apply (lin_ret _ _ _ _ _ Hprog).
  - (* Release: clear the fields *)
    destruct PC as (r & Hprog & Hhi & Hp). injection H as <-. simpl. rewrite upd_same. split; [exact I|split].
    + simpl. intros hi' q. unfold upd. destruct (hi' =? hi); [discriminate|apply HP].
    + unfold lin_ok in *. cbn [t_res t_prog t_nh t_h]. rewrite Hprog in *. cbn [tl]. simpl in LIN.
      apply Nat.ltb_lt in Hhi. rewrite Hhi in LIN. unfold abs in LIN at 1.
      destruct (h_pool (t_h (s_thr st t) hi)) eqn:Hpool; [|contradiction]. simpl in LIN.
      eapply lin_push; [exact LIN|]. intros hi'. unfold abs. cbn [t_h]. unfold upd.
      destruct (hi' =? hi) eqn:Eh; [|reflexivity]. apply Nat.eqb_eq in Eh. subst hi'. reflexivity.
  - (* Eval: last read *)
    destruct PC as ((r & Hprog) & Hlive & ->). pose proof (own_contents _ _ _ _ HO Hlive) as Hc.
    destruct (live_abs _ _ Hlive) as (Hhi & Habs).
    injection H as <-. simpl. rewrite upd_same. split; [exact I|]. split; [exact HP'|].
    rewrite Hc, Nat.eqb_refl. apply (lin_ret _ _ _ _ _ Hprog); [|exact LIN]. cbn [solo]. now rewrite Hhi, Habs.
Qed.

Definition Good (progs : list (list op)) (st : state) : Prop :=
  Inv st /\ s_late st = false /\ (forall p, s_ptr st = Some p -> s_newset st p = true) /\
  forall t, thr_ok (nth t progs []) st (s_thr st t).

Lemma init_good progs : Good progs (init progs).
Proof.
  split; [apply init_inv|]. split; [reflexivity|]. split; [discriminate|].
  intros t. split; [exact I|]. split; [discriminate|reflexivity].
Qed.

Lemma step_good progs t ch st st' : Good progs st -> step t ch st = Some st' -> Good progs st'.
Proof.
  intros (HI & Hl & I1 & HT) H.
  pose proof (fun x => step_newset_mono _ _ _ _ x Hl H) as Mono.
  split; [exact (step_inv _ _ _ _ HI H)|]. split; [now rewrite (proj2 (step_cfg _ _ _ _ H))|]. split.
  - intros p Hp. destruct (step_ptr_from _ _ _ _ _ H Hp) as [E|(seed & E)]; apply Mono; [auto|].
    destruct (HT t) as (PC & _). unfold pc_ok in PC. rewrite E in PC. apply PC.
  - intros t'. destruct (Nat.eq_dec t' t) as [->|Hne]; [now apply (step_thr _ t ch st)|].
    rewrite (step_other _ _ _ _ _ H Hne). apply (thr_ok_mono _ st); auto.
    intros p. apply (step_ptr_stable _ _ _ _ _ H).
Qed.

Lemma drop_good progs p i st : Good progs st -> Good progs (exec st (SDrop p i)).
Proof. intros (HI & HR). split; [now apply drop_inv|exact HR]. Qed.

Lemma run_good progs sched : Good progs (run_from (init progs) sched).
Proof. apply (run_preserves (Good progs)); [apply step_good|apply drop_good|apply init_good]. Qed.

Section Reachable.
Variable progs : list (list op).
Variable sched : list sitem.
Let st := run_from (init progs) sched.

Lemma reach_own : exists loc, Own st loc.
Proof. destruct (run_good progs sched) as ((_ & H) & _). exact H. Qed.

(* C17_exclusive *)
Lemma exclusive_handles t1 h1 t2 h2 :
  live (s_thr st t1) h1 = true -> live (s_thr st t2) h2 = true ->
  h_scr (t_h (s_thr st t1) h1) = h_scr (t_h (s_thr st t2) h2) -> t1 = t2 /\ h1 = h2.
Proof.
  destruct reach_own as (loc & HO).
  intros L1 L2 E. apply at_live in L1, L2. rewrite E in L1. now injection (at_inj HO L1 L2).
Qed.

Lemma exclusive_pool t h p :
  live (s_thr st t) h = true -> ~ In (h_scr (t_h (s_thr st t) h)) (s_pool st p).
Proof.
  destruct reach_own as (loc & HO).
  intros L. apply (at_not (InPool p) HO (at_live _ _ _ L)). discriminate.
Qed.

Lemma exclusive_held t h t' seed p s :
  live (s_thr st t) h = true -> t_pc (s_thr st t') = GFill seed p s ->
  h_scr (t_h (s_thr st t) h) <> s /\ (forall p', ~ In s (s_pool st p')) /\
  (forall t'' seed' p', t_pc (s_thr st t'') = GFill seed' p' s -> t'' = t').
Proof.
  destruct reach_own as (loc & HO).
  intros L H. assert (Hs : is_at st s (Held t')) by (exists seed, p; exact H). split; [|split].
  - intros E. apply at_live in L. rewrite E in L. discriminate (at_inj HO Hs L).
  - intros p'. now apply (at_not (InPool p') HO Hs).
  - intros t'' seed' p' H'. assert (Hs' : is_at st s (Held t'')) by (exists seed', p'; exact H').
    now injection (at_inj HO Hs Hs').
Qed.

Lemma pool_nodup p : NoDup (s_pool st p).
Proof. destruct reach_own as (loc & O1 & _). apply O1. Qed.

(* C17_valid_until_release *)
Lemma valid_until_release t h :
  live (s_thr st t) h = true ->
  s_contents st (h_scr (t_h (s_thr st t) h)) = h_gid (t_h (s_thr st t) h).
Proof. destruct reach_own as (loc & HO). exact (own_contents _ _ _ _ HO). Qed.

End Reachable.

(* C17_pool_initialised_before_published: the pool object is complete (its New
   function is set) before anybody can see it: when it is the CompareAndSwap argument, when it is installed, when
   a goroutine is about to Get from it *)
Definition InitInv (st : state) : Prop :=
  s_late st = false /\
  (forall p, s_ptr st = Some p -> s_newset st p = true) /\
  (forall t seed p, t_pc (s_thr st t) = GCas seed p \/ t_pc (s_thr st t) = GGet seed p -> s_newset st p = true) /\
  (forall t seed p, t_pc (s_thr st t) <> GInit seed p).

Lemma run_initinv progs sched : InitInv (run_from (init progs) sched).
Proof.
  destruct (run_good progs sched) as (_ & Hl & I1 & HT). split; [exact Hl|]. split; [exact I1|].
  split; intros t seed p; destruct (HT t) as (PC & _); unfold pc_ok in PC.
  - intros [E|E]; rewrite E in PC; [apply PC|apply I1, PC].
  - intros E. now rewrite E in PC.
Qed.

(* C17_single_pool: every pool a goroutine is about to use, and the pool of every
   handle, is the installed one: CAS losers use the winner's *)
Definition PoolInv (st : state) : Prop :=
  (forall t seed p, t_pc (s_thr st t) = GGet seed p -> s_ptr st = Some p) /\
  (forall t seed p s, t_pc (s_thr st t) = GFill seed p s -> s_ptr st = Some p) /\
  (forall t hi p, h_pool (t_h (s_thr st t) hi) = Some p -> s_ptr st = Some p).

Lemma run_poolinv progs sched : PoolInv (run_from (init progs) sched).
Proof.
  destruct (run_good progs sched) as (_ & _ & _ & HT).
  split; [|split]; intros t; destruct (HT t) as (PC & HP & _); unfold pc_ok in PC.
  - intros seed p E. rewrite E in PC. apply PC.
  - intros seed p s E. rewrite E in PC. apply PC.
  - exact HP.
Qed.

(* C17_linearizable_eval.  The result of every Eval in every interleaving: the garbling of the handle
   it was called on, seen unchanged from the first to the last read — what the
   same call returns when no other goroutine exists ([solo]) *)
Lemma eval_result progs sched t ch hi v1 st' :
  let st := run_from (init progs) sched in
  t_pc (s_thr st t) = EEnd hi v1 -> step t ch st = Some st' ->
  t_res (s_thr st' t) = REval (h_gid (t_h (s_thr st t) hi)) :: t_res (s_thr st t).
Proof.
  intros st Hpc Hs. destruct (run_good progs sched) as (_ & _ & _ & HT). destruct (HT t) as (PC & _).
  unfold pc_ok in PC. fold st in PC. rewrite Hpc in PC. destruct PC as (_ & Hl & ->).
  pose proof (valid_until_release progs sched t hi Hl) as Hv. fold st in Hv.
  unfold step in Hs. rewrite Hpc in Hs. injection Hs as <-. simpl. rewrite upd_same. simpl.
  rewrite Hv, Nat.eqb_refl. reflexivity.
Qed.

(* C17_linearizable.  In every interleaving, at every moment, the results a goroutine
   has obtained so far followed by what the rest of its program yields alone are
   the results of its whole program run alone; when its program is finished,
   its results ARE those of the program run alone. *)
Lemma linearizable progs sched t :
  let th := s_thr (run_from (init progs) sched) t in
  rev (t_res th) ++ solo (t_prog th) (t_nh th) (abs th) = solo_run (nth t progs []) /\
  (t_prog th = [] -> rev (t_res th) = solo_run (nth t progs [])).
Proof.
  intros th. destruct (run_good progs sched) as (_ & _ & _ & HT). destruct (HT t) as (_ & _ & L). fold th in L. unfold lin_ok in L.
  split; [exact L|]. intros E. rewrite E in L. simpl in L. now rewrite app_nil_r in L.
Qed.

(* C17_double_put_refuted.  In the variant [s_dput = true] (the error returns inside the two loops of
   Garble put the scratch back twice: once explicitly, once through a deferred
   cleanup) the invariant breaks with ONE failed Garble followed by two
   overlapping garblings: both live handles are backed by the same scratch,
   the first handle's buffers hold the second one's garbling, the pool held
   the scratch twice. *)
Definition dput_progs : list (list op) := [[OGarbleFail 1 2; OGarble 2]; [OGarble 3]].
Definition dput_sched : list sitem :=
  [SThread 0 0; SThread 0 0; SThread 0 0; SThread 0 0;      (* Garble fails at the first input label *)
   SThread 0 0; SThread 0 0; SThread 0 0;                    (* goroutine 0 garbles: gets the scratch *)
   SThread 1 0; SThread 1 0; SThread 1 0].                   (* goroutine 1 garbles: gets it, too *)

Lemma double_put_refuted :
  let st := run_from (init_cfg true false dput_progs) dput_sched in
  live (s_thr st 0) 0 = true /\ live (s_thr st 1) 0 = true /\
  h_scr (t_h (s_thr st 0) 0) = h_scr (t_h (s_thr st 1) 0) /\
  s_contents st (h_scr (t_h (s_thr st 0) 0)) <> h_gid (t_h (s_thr st 0) 0) /\
  exclusive 2 st = false /\
  (* right after the failed call the pool holds the scratch twice *)
  s_pool (run_from (init_cfg true false dput_progs) (firstn 4 dput_sched)) 0 = [0; 0].
Proof. vm_compute. repeat split; try reflexivity. discriminate. Qed.

(* the same history on the model of the code as it is: exclusive *)
Example single_put_ok :
  let st := run_from (init dput_progs) dput_sched in
  exclusive 2 st = true /\ h_scr (t_h (s_thr st 0) 0) <> h_scr (t_h (s_thr st 1) 0).
Proof. vm_compute. split; [reflexivity|discriminate]. Qed.

(* C17_frame.  Two runs with arbitrary other goroutines, arbitrary schedules, arbitrary
   pool behaviour: if goroutine t has the same program in both and has
   finished it in both, its results are the same (both are [solo_run] of the
   program).  In the model Eval reads the tables of its own handle and nothing
   else — in particular nothing mutable of the Circuit; that the Go code has no
   such state is what the source inventory of harness c17 checks. *)
Lemma frame progs progs' sched sched' t :
  nth t progs [] = nth t progs' [] ->
  let th := s_thr (run_from (init progs) sched) t in
  let th' := s_thr (run_from (init progs') sched') t in
  t_prog th = [] -> t_prog th' = [] -> t_res th = t_res th'.
Proof.
  intros E th th' H H'.
  destruct (linearizable progs sched t) as (_ & A). destruct (linearizable progs' sched' t) as (_ & B).
  fold th in A. fold th' in B. specialize (A H). specialize (B H'). rewrite E in A. rewrite <- B in A.
  apply (f_equal (@rev res)) in A. now rewrite !rev_involutive in A.
Qed.

Lemma solo_no_panic prog : forall nh hs, ~ In RPanic (solo prog nh hs).
Proof.
  induction prog as [|[seed|seed site|hi|hi|x] r IH]; intros nh hs; simpl; [tauto| | | | |];
    intros [H|H]; try discriminate; try (revert H; apply IH).
  destruct ((hi <? nh) && negb (snd (hs hi))); discriminate.
Qed.

(* pool.Get() never returns nil: no Garble panics, in any interleaving *)
Lemma no_panic progs sched t : ~ In RPanic (t_res (s_thr (run_from (init progs) sched) t)).
Proof.
  intros H. destruct (linearizable progs sched t) as (L & _).
  apply (solo_no_panic (nth t progs []) 0 (fun _ => (0, true))). fold (solo_run (nth t progs [])).
  rewrite <- L. apply in_or_app. left. now apply in_rev in H.
Qed.

(* C17_publish_then_initialise_refuted.  In the variant [s_late = true] that publishes an EMPTY pool by
   CompareAndSwap and assigns New afterwards, a goroutine that finds the
   pointer already set reaches pool.Get() before New exists: Get returns nil
   and its Garble panics.  Two goroutines, first use. *)
Definition late_progs : list (list op) := [[OGarble 1]; [OGarble 2]].
Definition late_sched : list sitem :=
  [SThread 0 0; SThread 0 0;      (* goroutine 0: Load = nil, builds the empty pool, wins the CAS *)
   SThread 1 0; SThread 1 0].     (* goroutine 1: Load = the empty pool, Get -> nil *)

Lemma late_init_refuted :
  let st := run_from (init_cfg false true late_progs) late_sched in
  t_res (s_thr st 1) = [RPanic] /\ t_pc (s_thr st 0) = GInit 1 0 /\ s_ptr st = Some 0 /\ s_newset st 0 = false.
Proof. vm_compute. repeat split. Qed.

Example late_sched_ok_now :
  let st := run_from (init late_progs) (late_sched ++ [SThread 0 0; SThread 0 0; SThread 1 0]) in
  rev (t_res (s_thr st 0)) = [RGarble 1] /\ rev (t_res (s_thr st 1)) = [RGarble 2].
Proof. vm_compute. split; reflexivity. Qed.
