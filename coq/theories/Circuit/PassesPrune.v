(* PassesPrune.v — the graph handed to Compile satisfies [cwf]: directly after
   the rewriting passes, and after Prune (a gate is pruned only when
   NumOutputs of its output is 0 >= its true use count, so no live gate and no
   circuit output needs it).  (Property C09) *)
From Coq Require Import List Bool Arith Lia.
From Mpc Require Import Circuit.Circuit Circuit.Passes Circuit.PassesProof Circuit.PassesBFS
  Circuit.PassesIO Circuit.PassesTV Circuit.PassesInv.
Import ListNotations.

Lemma BK_listed G g w : BK G -> live G g -> In w (inputs_of (gn G g)) -> In g (wouts (gw G w)).
Proof.
  intros B [Hg Hd] Hw. apply (count_occ_In Nat.eq_dec).
  pose proof (bk_lists _ B g w Hg) as L. rewrite (lslots_live _ _ _ Hd) in L.
  apply slots_inputs in Hw. lia.
Qed.

Theorem cwf_of_inv rank G : BK G -> ST0 rank G -> TV G -> cwf G.
Proof.
  intros B S T. constructor; try apply T.
  - intros g Lg w. now apply BK_listed.
  - intros w c Hc _. eapply (s0_entries _ _ S); eauto.
  - intros g [Hg _]. now apply (s0_nocons _ _ S).
  - intros g [Hg _]. now apply (s0_prod _ _ S).
  - intros g1 g2 [H1 _] [H2 _]. now apply (s0_uniq _ _ S).
  - apply (bk_range _ B).
  - apply (s0_avail _ _ S).
Qed.

Definition node_same (n n' : node) : Prop :=
  nop n' = nop n /\ nA n' = nA n /\ nB n' = nB n /\ nO n' = nO n /\ nvis n' = nvis n.

(* invariant of Prune's backward sweep over G0: [done] are the gates visited so
   far, [kept] those of them that stay alive *)
Record PI (G0 G : graph) (kept done : list nat) : Prop := {
  p_order : gorder G = gorder G0;
  p_ins : gins G = gins G0;
  p_outs : gouts G = gouts G0;
  p_nodes : forall i, node_same (gn G0 i) (gn G i);
  p_dead : forall i, ~ In i done -> ndead (gn G i) = ndead (gn G0 i);
  p_kept : forall i, In i kept <-> In i done /\ ndead (gn G i) = false;
  p_wires : forall w, wouts (gw G w) = wouts (gw G0 w) /\ wout (gw G w) = wout (gw G0 w);
  p_cnt : forall w, uses G w <= wnum (gw G w);
  p_avail : forall o, In o (gouts G0) -> avail G o;
  p_err : gerr G = gerr G0;
  p_nn : gnn G = gnn G0 }.

Lemma node_same_inputs n n' : node_same n n' -> inputs_of n' = inputs_of n.
Proof. intros (a & b & c & _). now apply inputs_of_congr. Qed.
Lemma node_same_slots n n' w : node_same n n' -> slots n' w = slots n w.
Proof. intros (a & b & c & _). unfold slots, slotA, slotB. now rewrite a, b, c. Qed.

Lemma uses_dead G G' g w :
  NoDup (gorder G) -> In g (gorder G) -> gorder G' = gorder G ->
  (forall i, i <> g -> gn G' i = gn G i) ->
  ndead (gn G g) = false -> ndead (gn G' g) = true ->
  uses G' w + slots (gn G g) w = uses G w.
Proof.
  intros ND Hg Ho Hn Hd Hd'. unfold uses. rewrite Ho.
  pose proof (sum_change (gorder G) (fun i => lslots G i w) (fun i => lslots G' i w) g ND Hg) as S.
  simpl in S.
  assert (E1 : lslots G g w = slots (gn G g) w) by (now apply lslots_live).
  assert (E2 : lslots G' g w = 0) by (unfold lslots; now rewrite Hd').
  assert (Hf : forall x, x <> g -> lslots G' x w = lslots G x w).
  { intros i Hi. unfold lslots. now rewrite (Hn i Hi). }
  specialize (S Hf). lia.
Qed.

(* the RemoveOutput calls of Gate.Prune take the gate's slots off the counters
   of its inputs; they do not underflow when the counters cover the slots *)
Lemma remove_inputs_spec G n :
  (forall w, slots n w <= wnum (gw G w)) ->
  let G' := remove_output (if is_inv (nop n) then G else remove_output G (nB n)) (nA n) in
  wonly G G' /\ gerr G' = gerr G /\
  forall w, wouts (gw G' w) = wouts (gw G w) /\ wnum (gw G' w) + slots n w = wnum (gw G w).
Proof.
  intros Cnt. pose proof (Cnt (nA n)) as CA. pose proof (Cnt (nB n)) as CB.
  unfold slots, slotA, slotB in *. rewrite Nat.eqb_refl in CA, CB.
  destruct (is_inv (nop n)); simpl in *.
  - assert (PA : 0 < wnum (gw G (nA n))) by lia.
    split; [apply wonly_remove_output|]. split; [apply (remove_output_wire G (nA n) 0), PA|].
    intros w. destruct (remove_output_wire G (nA n) w) as [a b]. destruct (b PA) as [c _].
    split; [exact a|lia].
  - assert (PB : 0 < wnum (gw G (nB n))) by lia.
    pose proof (fun w => remove_output_wire G (nB n) w) as RB.
    set (H := remove_output G (nB n)) in *.
    assert (PA : 0 < wnum (gw H (nA n))).
    { destruct (proj2 (RB (nA n)) PB) as [c _]. destruct (Nat.eqb (nB n) (nA n)); lia. }
    split; [|split].
    + eapply wonly_trans; apply wonly_remove_output.
    + rewrite (proj2 (proj2 (remove_output_wire H (nA n) 0) PA)). apply (RB 0), PB.
    + intros w. destruct (remove_output_wire H (nA n) w) as [a b]. destruct (b PA) as [c _].
      destruct (RB w) as [a2 b2]. destruct (b2 PB) as [c2 _]. split; [congruence|lia].
Qed.

Section Prune.
  Variables (rank : nat -> nat) (G0 : graph).
  Hypothesis B0 : BK G0.
  Hypothesis S0 : ST0 rank G0.
  Hypothesis T0 : TV G0.

  Lemma prune_step_PI G kept done g :
    PI G0 G kept done -> In g (gorder G0) -> ~ In g done ->
    let st' := prune_step (G, kept) g in
    PI G0 (fst st') (snd st') (g :: done).
  Proof.
    intros P Hg Hnd. simpl.
    assert (Hd0 : ndead (gn G g) = false).
    { rewrite (p_dead _ _ _ _ P g Hnd). now apply (s0_nodead _ _ S0). }
    destruct (p_nodes _ _ _ _ P g) as (f1 & f2 & f3 & f4 & f5).
    unfold gate_prune. rewrite Hd0. simpl.
    destruct (wout (gw G (nO (gn G g))) || negb (wnum (gw G (nO (gn G g))) =? 0)) eqn:Ek; simpl.
    - (* kept *)
      constructor; try apply P.
      + intros i Hi. apply (p_dead _ _ _ _ P). intros H. apply Hi. now right.
      + intros i. simpl. rewrite (p_kept _ _ _ _ P i). split.
        * intros [<-|[H1 H2]]; auto.
        * intros [[<-|H1] H2]; auto.
    - (* pruned *)
      apply orb_false_iff in Ek. destruct Ek as [Ef En].
      apply negb_false_iff in En. apply Nat.eqb_eq in En.
      set (O := nO (gn G g)) in *.
      assert (ND : NoDup (gorder G)) by (rewrite (p_order _ _ _ _ P); apply (bk_nodup _ B0)).
      assert (HgG : In g (gorder G)) by (now rewrite (p_order _ _ _ _ P)).
      (* no live gate reads O *)
      assert (NoUse : forall c, In c (gorder G) -> ndead (gn G c) = false ->
                                ~ In O (inputs_of (gn G c))).
      { intros c Hc Hdc Hin. pose proof (p_cnt _ _ _ _ P O) as U. rewrite En in U.
        pose proof (uses_ge G c O Hc). pose proof (proj2 (lslots_pos G c O) (conj Hdc Hin)). lia. }
      (* the counters of g's inputs cover g's slots *)
      destruct (remove_inputs_spec (set_n G g (n_set_dead (gn G g))) (gn G g)) as (W & E3 & W3).
      { intros w. simpl. pose proof (p_cnt _ _ _ _ P w) as U. pose proof (uses_ge G g w HgG) as Q.
        rewrite (lslots_live _ _ _ Hd0) in Q. lia. }
      set (G3 := remove_output _ _) in *.
      assert (Dg : ndead (gn G3 g) = true).
      { rewrite (wo_n W). simpl. now rewrite fupd_same. }
      assert (Oth : forall i, i <> g -> gn G3 i = gn G i).
      { intros i Hi. rewrite (wo_n W). simpl. now apply fupd_other. }
      assert (NS : forall i, node_same (gn G i) (gn G3 i)).
      { intros i. destruct (Nat.eq_dec i g) as [->|Hi]; [|rewrite (Oth i Hi); repeat split].
        rewrite (wo_n W). simpl. rewrite fupd_same. repeat split. }
      pose proof (wo_order W : gorder G3 = gorder G) as o1.
      pose proof (wo_ins W : gins G3 = gins G) as o2.
      pose proof (wo_outs W : gouts G3 = gouts G) as o3.
      constructor.
      + now rewrite o1, (p_order _ _ _ _ P).
      + now rewrite o2, (p_ins _ _ _ _ P).
      + now rewrite o3, (p_outs _ _ _ _ P).
      + intros i. destruct (p_nodes _ _ _ _ P i) as (a & b & c & d & e).
        destruct (NS i) as (a' & b' & c' & d' & e'). repeat split; congruence.
      + intros i Hi. assert (i <> g) by (intros ->; apply Hi; now left).
        rewrite (Oth i H). apply (p_dead _ _ _ _ P). intros H1. apply Hi. now right.
      + intros i. rewrite (p_kept _ _ _ _ P i). simpl. split.
        * intros [H1 H2]. assert (i <> g) by (intros ->; contradiction).
          rewrite (Oth i H). auto.
        * intros [[<-|H1] H2]; [congruence|].
          assert (i <> g) by (intros ->; contradiction). rewrite (Oth i H) in H2. auto.
      + intros w. destruct (p_wires _ _ _ _ P w) as [a b]. destruct (wo_wire W w) as (_ & c & _).
        split; [now rewrite (proj1 (W3 w))|now rewrite c].
      + intros w. pose proof (proj2 (W3 w)) as c. simpl in c.
        pose proof (uses_dead G G3 g w ND HgG o1 Oth Hd0 Dg) as U.
        pose proof (p_cnt _ _ _ _ P w). lia.
      + (* the outputs stay available: none of them is O, and the gates that
           write the others read neither O *)
        intros o Ho. apply (avail_live_ext (fun w => w <> O) G); auto.
        * intros c [Lc Dc] Hne. assert (Hcg : c <> g) by (intros ->; now apply Hne).
          split; [split; [now rewrite o1|now rewrite (Oth c Hcg)]|]. split; [now apply Oth|].
          intros w Hw ->. apply (NoUse c Lc Dc Hw).
        * now apply (p_avail _ _ _ _ P).
        * intros ->. rewrite <- (p_outs _ _ _ _ P) in Ho.
          assert (wout (gw G0 O) = true).
          { apply (tv_outs_flag _ T0). now rewrite <- (p_outs _ _ _ _ P). }
          rewrite <- (proj2 (p_wires _ _ _ _ P O)) in H. congruence.
      + rewrite E3. apply (p_err _ _ _ _ P).
      + rewrite (wo_nn W). apply (p_nn _ _ _ _ P).
  Qed.

  Lemma prune_fold_PI l : forall G kept done,
    NoDup l -> (forall g, In g l -> In g (gorder G0) /\ ~ In g done) ->
    PI G0 G kept done ->
    PI G0 (fst (fold_left prune_step l (G, kept))) (snd (fold_left prune_step l (G, kept)))
       (rev l ++ done).
  Proof.
    induction l as [|g l IH]; intros G kept done ND Hl P; [simpl; auto|].
    cbn [fold_left rev].
    inversion ND as [|? ? Hgl ND']; subst.
    destruct (Hl g (or_introl eq_refl)) as [Hg Hnd].
    pose proof (prune_step_PI G kept done g P Hg Hnd) as P1.
    destruct (prune_step (G, kept) g) as [G1 k1] eqn:E. simpl in P1.
    rewrite <- app_assoc. simpl.
    apply IH; auto.
    intros h Hh. destruct (Hl h (or_intror Hh)) as [a b]. split; auto.
    intros [<-|H]; auto.
  Qed.

  Lemma prune_PI : exists G1 kept,
    fold_left prune_step (rev (gorder G0)) (G0, []) = (G1, kept) /\ PI G0 G1 kept (gorder G0).
  Proof.
    assert (P0 : PI G0 G0 [] []).
    { constructor; try reflexivity.
      - intros i. repeat split.
      - intros i. simpl. tauto.
      - intros w. split; reflexivity.
      - apply (bk_cnt _ B0).
      - intros o Ho. now apply (s0_avail _ _ S0). }
    pose proof (prune_fold_PI (rev (gorder G0)) G0 [] []) as PF.
    destruct (fold_left prune_step (rev (gorder G0)) (G0, [])) as [G1 kept]. simpl in PF.
    exists G1, kept. split; [reflexivity|].
    rewrite app_nil_r, rev_involutive in PF. apply PF; auto.
    - apply NoDup_rev. apply (bk_nodup _ B0).
    - intros g Hg. split; [now apply in_rev|intros []].
  Qed.

  Theorem prune_cwf : cwf (prune G0).
  Proof.
    pose proof (tvs_TV _ _ (tvs_prune G0) T0) as T'.
    unfold prune in *. rewrite prune_sweep_eq in *.
    destruct prune_PI as (G1 & kept & E & P). rewrite E in *.
    assert (NI : forall i, inputs_of (gn G1 i) = inputs_of (gn G0 i)).
    { intros i. apply node_same_inputs. apply (p_nodes _ _ _ _ P). }
    assert (NO : forall i, nO (gn G1 i) = nO (gn G0 i)).
    { intros i. apply (p_nodes _ _ _ _ P). }
    assert (LV : forall g, live (set_order G1 kept) g -> In g (gorder G0) /\ ndead (gn G1 g) = false).
    { intros g [Hk Hd]. simpl in Hk, Hd. apply (p_kept _ _ _ _ P) in Hk. tauto. }
    constructor; try apply T'.
    - (* lists *)
      intros g Lg w Hw. destruct (LV g Lg) as [Hg Hd]. simpl in Hw |- *. rewrite NI in Hw.
      rewrite (proj1 (p_wires _ _ _ _ P w)).
      apply (BK_listed G0 g w B0); [exact (conj Hg (s0_nodead _ _ S0 g Hg))|exact Hw].
    - (* entries *)
      intros w c Hc Hd. simpl in Hc, Hd |- *. rewrite (proj1 (p_wires _ _ _ _ P w)) in Hc.
      apply (p_kept _ _ _ _ P). split; auto. eapply (s0_entries _ _ S0); eauto.
    - intros g Lg w Hw. destruct (LV g Lg) as [Hg Hd]. simpl in Hw |- *. rewrite NI in Hw.
      rewrite (proj2 (p_wires _ _ _ _ P w)). now apply (s0_nocons _ _ S0 g).
    - intros g Lg. destruct (LV g Lg) as [Hg Hd]. simpl. rewrite NO, (p_ins _ _ _ _ P).
      now apply (s0_prod _ _ S0).
    - intros g1 g2 L1 L2. destruct (LV g1 L1) as [H1 _]. destruct (LV g2 L2) as [H2 _].
      simpl. rewrite !NO. now apply (s0_uniq _ _ S0).
    - intros g Hg. simpl in Hg |- *. apply (p_kept _ _ _ _ P) in Hg. destruct Hg as [Hg _].
      rewrite (p_nn _ _ _ _ P). now apply (bk_range _ B0).
    - (* availability *)
      intros o Ho. simpl in Ho. rewrite (p_outs _ _ _ _ P) in Ho.
      apply (avail_live_ext (fun _ => True) G1); [reflexivity| |now apply (p_avail _ _ _ _ P)|exact I].
      intros c [Lc Dc] _. split; [|auto]. split; auto. simpl.
      apply (p_kept _ _ _ _ P). split; auto. now rewrite <- (p_order _ _ _ _ P).
  Qed.

  (* Prune never underflows a counter *)
  Theorem prune_gerr : gerr (prune G0) = gerr G0.
  Proof.
    unfold prune. rewrite prune_sweep_eq.
    destruct prune_PI as (G1 & kept & -> & P). apply (p_err _ _ _ _ P).
  Qed.
End Prune.

(* C09_optimize_cwf *)
Theorem optimize_cwf (do_prune : bool) G : wfg G -> wfb G -> wfx G -> cwf (optimize do_prune G).
Proof.
  intros WF FB X. destruct (fresh_rewritten G WF FB X) as (_ & r & B2 & S2 & T2).
  unfold optimize. destruct do_prune.
  - now apply (prune_cwf r).
  - now apply (cwf_of_inv r).
Qed.

(* C09_options: for all prune flags, all targets, every freshly built graph and every
   input the compiled circuit computes the graph's meaning *)
Theorem pipeline_correct_all (do_prune : bool) t G x :
  wfg G -> wfb G -> wfx G -> length x = length (gins G) ->
  eval_plain (pipeline do_prune t G) x = graph_eval G x.
Proof.
  intros WF FB X Hx. unfold pipeline.
  destruct (short_circuit_sat_wf G x WF FB X) as (v' & I2 & Ag).
  destruct (io_optimize do_prune G) as (I3 & O3 & _).
  destruct (io_const_propagate G) as (_ & _ & N1).
  assert (S3 : sat (optimize do_prune G) x v').
  { unfold optimize. destruct do_prune; [apply prune_sat|]; apply I2. }
  rewrite (compile_correct_cwf t _ x v' (optimize_cwf do_prune G WF FB X) S3) by (rewrite I3; exact Hx).
  rewrite O3. apply map_ext_in. intros o Ho. apply Ag.
  pose proof (x_rng_out _ X o Ho). lia.
Qed.
