(* GmwNetProof.v — proofs about Gmw/GmwNet.v (C10, online phase: termination,
   empty channels, every receive meets the item it expects).

   The general theorem: for ANY family of per-party programs that is
     compatible  (what i sends to j is, in order, what j expects from i),
     clean       (nothing unflushed when a party receives or ends, no NBad),
     ranked      (a rank on tags such that in every program a receive of u
                  before a send of t implies rk u < rk t)
   every fair schedule (any interleaving, any automatic flushes) ends with all
   parties finished, all buffers and channels empty, bad = false.  The GMW
   programs satisfy the three conditions for every n and every list of levels,
   and the flattening of the skeleton generated from the source is that program. *)
From Coq Require Import List Bool Arith NArith Lia.
From Mpc Require Import Proto.Live Gmw.GmwNet Gen.SkelGmw.
Import ListNotations.
Local Open Scope nat_scope.

Lemma lN_eqb_true a : forall b, lN_eqb a b = true -> a = b.
Proof.
  induction a as [|x a IH]; intros [|y b]; simpl; try discriminate; auto.
  intros H. apply andb_prop in H. destruct H as [H1 H2].
  apply N.eqb_eq in H1. subst. f_equal. auto.
Qed.

Lemma name_eqb_true a b : name_eqb a b = true -> a = b.
Proof. destruct a, b. simpl. intros H. f_equal. now apply lN_eqb_true. Qed.

Lemma tag_eqb_true a b : tag_eqb a b = true -> a = b.
Proof.
  destruct a, b. unfold tag_eqb. simpl. intros H.
  repeat (apply andb_prop in H; destruct H as [H ?]).
  apply Nat.eqb_eq in H. repeat match goal with X : (_ =? _) = true |- _ => apply Nat.eqb_eq in X end.
  match goal with X : name_eqb _ _ = true |- _ => apply name_eqb_true in X end.
  subst. reflexivity.
Qed.

Lemma lN_eqb_refl a : lN_eqb a a = true.
Proof. induction a; simpl; auto. rewrite N.eqb_refl. auto. Qed.

Lemma tag_eqb_refl a : tag_eqb a a = true.
Proof.
  destruct a. unfold tag_eqb. simpl. rewrite !Nat.eqb_refl. simpl.
  destruct t_kind. simpl. apply lN_eqb_refl.
Qed.

Fixpoint sends_to (j : nat) (l : list nact) : list tag :=
  match l with
  | [] => []
  | NSend j' t :: r => if j' =? j then t :: sends_to j r else sends_to j r
  | _ :: r => sends_to j r
  end.

Fixpoint recvs_from (i : nat) (l : list nact) : list tag :=
  match l with
  | [] => []
  | NRecv i' t :: r => if i' =? i then t :: recvs_from i r else recvs_from i r
  | _ :: r => recvs_from i r
  end.

(* peers with possibly unflushed data *)
Fixpoint pend (s : list nat) (l : list nact) : option (list nat) :=
  match l with
  | [] => Some s
  | NSend j _ :: r => pend (j :: s) r
  | NFlush j :: r => pend (remove Nat.eq_dec j s) r
  | NRecv _ _ :: r => match s with [] => pend [] r | _ => None end
  | NBad :: _ => None
  end.

Definition clean (l : list nact) : Prop := pend [] l = Some [].

Fixpoint okr (rk : tag -> nat) (l : list nact) : Prop :=
  match l with
  | [] => True
  | NRecv _ u :: r => (forall j t, In (NSend j t) r -> rk u < rk t) /\ okr rk r
  | _ :: r => okr rk r
  end.

Definition rest0 (n : nat) (progs : nat -> list nact) : nat -> list nact :=
  fun i => if i <? n then progs i else [].

Definition compatible (n : nat) (progs : nat -> list nact) : Prop :=
  forall i j, sends_to j (rest0 n progs i) = recvs_from i (rest0 n progs j).

Definition enabled (p : nat) (s : nstate) : bool :=
  match ns_rest s p with
  | [] => false
  | NRecv j _ :: _ => negb (is_nil (ns_chan s j p))
  | _ => true
  end.

Lemma sends_to_in p t l x : sends_to p l = t :: x -> In (NSend p t) l.
Proof.
  induction l as [|a l IH]; simpl; [discriminate|].
  destruct a; auto.
  destruct (to =? p) eqn:E; auto.
  apply Nat.eqb_eq in E. subst. intros [= <- _]. auto.
Qed.

Lemma upd2_same {A} (f : nat -> nat -> A) i j v : upd2 f i j v i j = v.
Proof. unfold upd2. now rewrite !Nat.eqb_refl. Qed.

Lemma upd2_other {A} (f : nat -> nat -> A) i j v x y : x <> i \/ y <> j -> upd2 f i j v x y = f x y.
Proof.
  unfold upd2. intros [H|H]; apply Nat.eqb_neq in H; rewrite H; simpl; auto.
  now rewrite andb_false_r.
Qed.

Lemma upd_same {A} (f : nat -> A) i v : upd f i v i = v.
Proof. unfold upd. now rewrite Nat.eqb_refl. Qed.

Lemma upd_other {A} (f : nat -> A) i v x : x <> i -> upd f i v x = f x.
Proof. unfold upd. intros H. apply Nat.eqb_neq in H. now rewrite H. Qed.

Section Generic.
  Variable n : nat.
  Variable rk : tag -> nat.

  Record inv (s : nstate) : Prop := mkInv {
    i_bad : ns_bad s = false;
    i_fifo : forall i j, ns_chan s i j ++ ns_buf s i j ++ sends_to j (ns_rest s i) = recvs_from i (ns_rest s j);
    i_flush : forall i, exists d, (forall j, ns_buf s i j <> [] -> In j d) /\ pend d (ns_rest s i) = Some [];
    i_rank : forall i, okr rk (ns_rest s i);
    i_out : forall i, n <= i -> ns_rest s i = [] }.

  Lemma inv_init progs :
    compatible n progs -> (forall i, i < n -> clean (progs i)) -> (forall i, i < n -> okr rk (progs i)) ->
    inv (ninit n progs).
  Proof.
    intros C Cl Ok. constructor; simpl; auto.
    - intros i. exists []. split; [intros j H; congruence|].
      destruct (i <? n) eqn:E; [apply Nat.ltb_lt in E; now apply Cl | reflexivity].
    - intros i. destruct (i <? n) eqn:E; [apply Nat.ltb_lt in E; now apply Ok | exact I].
    - intros i H. apply Nat.ltb_ge in H. now rewrite H.
  Qed.

  Lemma head_expected s p j t r c cs :
    inv s -> ns_rest s p = NRecv j t :: r -> ns_chan s j p = c :: cs -> c = t.
  Proof.
    intros I R Ch. pose proof (i_fifo s I j p) as F. rewrite R, Ch in F. simpl in F.
    rewrite Nat.eqb_refl in F. now injection F.
  Qed.

  Lemma head_not_bad s p r : inv s -> ns_rest s p <> NBad :: r.
  Proof. intros I R. destruct (i_flush s I p) as [d [_ D]]. rewrite R in D. discriminate. Qed.

  (* is (i, j') the buffer / channel between the moving party p and its peer j?  [x] is
     the end of (i, j') that is compared with j: j' when p sends, i when p receives.  The
     lookups in upd / upd2 are resolved in each case. *)
  Ltac split_ij i j' p x j :=
    destruct (Nat.eq_dec i p) as [?|?]; destruct (Nat.eq_dec j' p) as [?|?];
    destruct (Nat.eq_dec x j) as [?|?]; subst;
    rewrite ?upd_same, ?upd2_same; rewrite ?upd_other by auto; rewrite ?upd2_other by tauto.

  Ltac neqb :=
    repeat match goal with
           | H : ?a <> ?b |- _ =>
               let E := fresh "E" in
               assert (E : (a =? b) = false) by (now apply Nat.eqb_neq);
               let E' := fresh "E" in
               assert (E' : (b =? a) = false) by (apply Nat.eqb_neq; congruence);
               clear H
           end.

  (* a Send, whether the item stays in the buffer or goes out with it *)
  Lemma fifo_send s p j t r (auto : bool) :
    inv s -> ns_rest s p = NSend j t :: r ->
    forall i j',
      (if auto then upd2 (ns_chan s) p j (ns_chan s p j ++ ns_buf s p j ++ [t]) else ns_chan s) i j'
      ++ upd2 (ns_buf s) p j (if auto then [] else ns_buf s p j ++ [t]) i j'
      ++ sends_to j' (upd (ns_rest s) p r i)
      = recvs_from i (upd (ns_rest s) p r j').
  Proof.
    intros I R i j'. pose proof (i_fifo s I i j') as F.
    destruct auto; split_ij i j' p j' j; rewrite ?R in F; simpl in F; rewrite ?Nat.eqb_refl in F; neqb;
      rewrite ?E, ?E0, ?E1, ?E2 in F; rewrite <- ?app_assoc; simpl; auto.
  Qed.

  Lemma fifo_flush s p j r :
    inv s -> ns_rest s p = NFlush j :: r ->
    forall i j', upd2 (ns_chan s) p j (ns_chan s p j ++ ns_buf s p j) i j' ++ upd2 (ns_buf s) p j [] i j'
                 ++ sends_to j' (upd (ns_rest s) p r i)
                 = recvs_from i (upd (ns_rest s) p r j').
  Proof.
    intros I R i j'. pose proof (i_fifo s I i j') as F.
    split_ij i j' p j' j; rewrite ?R in F; simpl in F; rewrite <- ?app_assoc; simpl; auto.
  Qed.

  Lemma fifo_recv s p j t r cs :
    inv s -> ns_rest s p = NRecv j t :: r -> ns_chan s j p = t :: cs ->
    forall i j', upd2 (ns_chan s) j p cs i j' ++ ns_buf s i j' ++ sends_to j' (upd (ns_rest s) p r i)
                 = recvs_from i (upd (ns_rest s) p r j').
  Proof.
    intros I R Ch i j'. pose proof (i_fifo s I i j') as F.
    split_ij i j' p i j; rewrite ?R, ?Ch in F; simpl in F; rewrite ?Nat.eqb_refl in F; neqb;
      rewrite ?E, ?E0, ?E1, ?E2 in F; simpl in F; try (injection F as F); auto.
  Qed.

  Lemma rest_tail_rank s p a r : inv s -> ns_rest s p = a :: r -> forall i, okr rk (upd (ns_rest s) p r i).
  Proof.
    intros I R i. pose proof (i_rank s I i) as K. unfold upd. destruct (i =? p) eqn:E; auto.
    apply Nat.eqb_eq in E. subst. rewrite R in K. destruct a; simpl in K; tauto.
  Qed.

  Lemma rest_tail_out s p a r : inv s -> ns_rest s p = a :: r -> forall i, n <= i -> upd (ns_rest s) p r i = [].
  Proof.
    intros I R i H. unfold upd. destruct (i =? p) eqn:E; [|now apply (i_out s I)].
    apply Nat.eqb_eq in E. subst. rewrite (i_out s I p H) in R. discriminate.
  Qed.

  (* who may hold unflushed data after p's step; [b] is what the step leaves in
     p's buffer towards j *)
  Lemma flush_send s p j t r b : inv s -> ns_rest s p = NSend j t :: r ->
    forall i, exists d, (forall j', upd2 (ns_buf s) p j b i j' <> [] -> In j' d)
                        /\ pend d (upd (ns_rest s) p r i) = Some [].
  Proof.
    intros I R i. destruct (i_flush s I i) as [d [D1 D2]]. destruct (Nat.eq_dec i p) as [->|Ne].
    - rewrite upd_same. rewrite R in D2. exists (j :: d). split; [|exact D2].
      intros j' H. destruct (Nat.eq_dec j' j) as [->|Ne2]; [now left|right].
      apply D1. rewrite upd2_other in H by tauto. exact H.
    - rewrite upd_other by auto. exists d. split; auto.
      intros j' H. apply D1. rewrite upd2_other in H by tauto. exact H.
  Qed.

  Lemma flush_flush s p j r : inv s -> ns_rest s p = NFlush j :: r ->
    forall i, exists d, (forall j', upd2 (ns_buf s) p j [] i j' <> [] -> In j' d)
                        /\ pend d (upd (ns_rest s) p r i) = Some [].
  Proof.
    intros I R i. destruct (i_flush s I i) as [d [D1 D2]]. destruct (Nat.eq_dec i p) as [->|Ne].
    - rewrite upd_same. rewrite R in D2. exists (remove Nat.eq_dec j d). split; [|exact D2].
      intros j' H. destruct (Nat.eq_dec j' j) as [->|Ne2].
      + rewrite upd2_same in H. congruence.
      + rewrite upd2_other in H by tauto. apply in_in_remove; auto.
    - rewrite upd_other by auto. exists d. split; auto.
      intros j' H. apply D1. rewrite upd2_other in H by tauto. exact H.
  Qed.

  Lemma flush_recv s p j t r : inv s -> ns_rest s p = NRecv j t :: r ->
    forall i, exists d, (forall j', ns_buf s i j' <> [] -> In j' d) /\ pend d (upd (ns_rest s) p r i) = Some [].
  Proof.
    intros I R i. destruct (i_flush s I i) as [d [D1 D2]]. destruct (Nat.eq_dec i p) as [->|Ne].
    - rewrite upd_same. rewrite R in D2. simpl in D2. destruct d; [|discriminate]. exists []. auto.
    - rewrite upd_other by auto. exists d. auto.
  Qed.

  Lemma inv_step p a s : inv s -> inv (nstep p a s).
  Proof.
    intros I. unfold nstep. rewrite (i_bad s I).
    destruct (ns_rest s p) as [|[j t|j|j t|] r] eqn:R; auto.
    - destruct a; constructor; simpl; auto.
      + exact (fifo_send s p j t r true I R).
      + exact (flush_send s p j t r [] I R).
      + eapply rest_tail_rank; eauto.
      + eapply rest_tail_out; eauto.
      + exact (fifo_send s p j t r false I R).
      + exact (flush_send s p j t r _ I R).
      + eapply rest_tail_rank; eauto.
      + eapply rest_tail_out; eauto.
    - constructor; simpl; auto.
      + exact (fifo_flush s p j r I R).
      + exact (flush_flush s p j r I R).
      + eapply rest_tail_rank; eauto.
      + eapply rest_tail_out; eauto.
    - destruct (ns_chan s j p) as [|c cs] eqn:Ch; auto.
      pose proof (head_expected s p j t r c cs I R Ch) as ->. rewrite tag_eqb_refl.
      constructor; simpl; auto.
      + exact (fifo_recv s p j t r cs I R Ch).
      + exact (flush_recv s p j t r I R).
      + eapply rest_tail_rank; eauto.
      + eapply rest_tail_out; eauto.
    - destruct (head_not_bad s p r I R).
  Qed.

  Lemma inv_run sched : forall s, inv s -> inv (nrun sched s).
  Proof. induction sched as [|c r IH]; simpl; auto. intros s I. apply IH. now apply inv_step. Qed.

  Lemma rest_lt s p : inv s -> ns_rest s p <> [] -> p < n.
  Proof.
    intros I H. destruct (le_lt_dec n p) as [L|L]; auto. elim H. now apply (i_out s I).
  Qed.

  Lemma enabled_lt s p : inv s -> enabled p s = true -> p < n.
  Proof.
    intros I E. apply (rest_lt s p I). unfold enabled in E. destruct (ns_rest s p); [discriminate|congruence].
  Qed.

  (* a party blocked in a receive waits for a party that can move, or that is
     itself blocked in a receive of smaller rank *)
  Lemma blocked_chain s : inv s ->
    forall k p j t r, ns_rest s p = NRecv j t :: r -> rk t < k -> exists q, enabled q s = true.
  Proof.
    intros I. induction k as [|k IH]; intros p j t r R K; [lia|].
    destruct (ns_chan s j p) as [|c cs] eqn:Ch.
    2:{ exists p. unfold enabled. now rewrite R, Ch. }
    pose proof (i_fifo s I j p) as F. rewrite R, Ch in F. simpl in F. rewrite Nat.eqb_refl in F.
    destruct (i_flush s I j) as [d [D1 D2]].
    destruct (ns_rest s j) as [|[j2 t2|j2|j2 u|] r2] eqn:Rj.
    - simpl in D2. injection D2 as ->. simpl in F.
      destruct (ns_buf s j p) eqn:B; [simpl in F; discriminate|]. elim (D1 p). congruence.
    - exists j. unfold enabled. now rewrite Rj.
    - exists j. unfold enabled. now rewrite Rj.
    - simpl in D2. destruct d; [|discriminate].
      destruct (ns_buf s j p) eqn:B; [|elim (D1 p); congruence].
      simpl in F. apply sends_to_in in F.
      pose proof (i_rank s I j) as Kj. rewrite Rj in Kj. simpl in Kj. destruct Kj as [Kj _].
      specialize (Kj _ _ F). apply (IH j j2 u r2 Rj). lia.
    - simpl in D2. discriminate.
  Qed.

  Lemma all_rest_nil_done s : inv s -> (forall i, i < n -> ns_rest s i = []) -> ndone n s = true.
  Proof.
    intros I H. unfold ndone. rewrite (i_bad s I). simpl.
    assert (A : forall i, ns_rest s i = []).
    { intros i. destruct (le_lt_dec n i); [now apply (i_out s I)|auto]. }
    apply forallb_forall. intros i _. rewrite (A i). simpl.
    apply forallb_forall. intros j _.
    pose proof (i_fifo s I i j) as F. rewrite (A i), (A j) in F. simpl in F.
    apply app_eq_nil in F. destruct F as [F1 F2]. apply app_eq_nil in F2. destruct F2 as [F2 _].
    now rewrite F1, F2.
  Qed.

  Lemma progress s : inv s -> ndone n s = false -> exists p, p < n /\ enabled p s = true.
  Proof.
    intros I D.
    assert (X : exists i, i < n /\ ns_rest s i <> []).
    { clear - I D.
      assert (G : forall m, (forall i, i < m -> ns_rest s i = []) \/ exists i, i < m /\ ns_rest s i <> []).
      { induction m as [|m [IH|[i [L H]]]].
        - left. intros i H. lia.
        - destruct (ns_rest s m) eqn:E.
          + left. intros i H. destruct (Nat.eq_dec i m); [now subst|apply IH; lia].
          + right. exists m. split; [lia|congruence].
        - right. exists i. split; [lia|auto]. }
      destruct (G n) as [G1|G1]; auto.
      rewrite (all_rest_nil_done s I G1) in D. discriminate. }
    destruct X as [i [L H]].
    assert (E : exists q, enabled q s = true).
    { destruct (ns_rest s i) as [|[j t|j|j t|] r] eqn:R; [congruence| | | |].
      - exists i. unfold enabled. now rewrite R.
      - exists i. unfold enabled. now rewrite R.
      - eapply (blocked_chain s I (S (rk t))); eauto.
      - destruct (head_not_bad s i r I R). }
    destruct E as [q E]. exists q. split; auto. now apply (enabled_lt s q I).
  Qed.

  Lemma step_enabled s p au : inv s -> enabled p s = true ->
    exists a r, ns_rest s p = a :: r /\ ns_rest (nstep p au s) = upd (ns_rest s) p r.
  Proof.
    intros I E. unfold enabled in E. unfold nstep. rewrite (i_bad s I).
    destruct (ns_rest s p) as [|[j t|j|j t|] r] eqn:R; [discriminate| | | |].
    - exists (NSend j t), r. split; auto. destruct au; reflexivity.
    - exists (NFlush j), r. split; auto.
    - destruct (ns_chan s j p) as [|c cs] eqn:Ch; [discriminate|].
      pose proof (head_expected s p j t r c cs I R Ch) as ->. rewrite tag_eqb_refl.
      exists (NRecv j t), r. split; auto.
    - destruct (head_not_bad s p r I R).
  Qed.

  Lemma step_disabled s p au : inv s -> enabled p s = false -> nstep p au s = s.
  Proof.
    intros I E. unfold enabled in E. unfold nstep. rewrite (i_bad s I).
    destruct (ns_rest s p) as [|[j t|j|j t|] r] eqn:R; auto; try discriminate.
    destruct (ns_chan s j p); [auto|discriminate].
  Qed.

  Lemma enabled_persist s p q au : inv s -> enabled p s = true -> q <> p -> enabled p (nstep q au s) = true.
  Proof.
    intros I E Ne. unfold enabled in *. unfold nstep. rewrite (i_bad s I).
    destruct (ns_rest s q) as [|[j t|j|j t|] r] eqn:R; auto.
    - destruct au; simpl; rewrite upd_other by auto;
        destruct (ns_rest s p) as [|[j2 t2|j2|j2 t2|] r2]; auto.
      destruct (Nat.eq_dec j2 q) as [->|N1]; destruct (Nat.eq_dec p j) as [->|N2];
        rewrite ?upd2_same; rewrite ?upd2_other by tauto; auto.
      destruct (ns_chan s q j); destruct (ns_buf s q j); reflexivity.
    - simpl. rewrite upd_other by auto.
      destruct (ns_rest s p) as [|[j2 t2|j2|j2 t2|] r2]; auto.
      destruct (Nat.eq_dec j2 q) as [->|N1]; destruct (Nat.eq_dec p j) as [->|N2];
        rewrite ?upd2_same; rewrite ?upd2_other by tauto; auto.
      destruct (ns_chan s q j); [discriminate|reflexivity].
    - destruct (ns_chan s j q) as [|c cs] eqn:Ch; auto.
      pose proof (head_expected s q j t r c cs I R Ch) as ->. rewrite tag_eqb_refl. simpl.
      rewrite upd_other by auto.
      destruct (ns_rest s p) as [|[j2 t2|j2|j2 t2|] r2]; auto.
      rewrite upd2_other by (right; congruence). auto.
  Qed.

  Definition mu (s : nstate) : nat := total_len n (ns_rest s).

  Lemma sum_upd_out (f : nat -> list nact) p r l : ~ In p l ->
    fold_right (fun i acc => length (upd f p r i) + acc) 0 l = fold_right (fun i acc => length (f i) + acc) 0 l.
  Proof.
    induction l as [|x l IH]; simpl; auto. intros H.
    rewrite upd_other by (intros ->; apply H; now left). rewrite IH; auto.
  Qed.

  Lemma sum_upd_in (f : nat -> list nact) p r l : NoDup l -> In p l ->
    fold_right (fun i acc => length (upd f p r i) + acc) 0 l + length (f p)
    = fold_right (fun i acc => length (f i) + acc) 0 l + length r.
  Proof.
    induction l as [|x l IH]; simpl; [tauto|]. intros ND [->|H]; inversion ND; subst.
    - rewrite upd_same, sum_upd_out by auto. lia.
    - rewrite upd_other by (intros ->; tauto). specialize (IH H3 H). lia.
  Qed.

  Lemma mu_step_enabled s p au : inv s -> enabled p s = true -> S (mu (nstep p au s)) = mu s.
  Proof.
    intros I E. destruct (step_enabled s p au I E) as [a [r [R R']]].
    unfold mu, total_len. rewrite R'.
    pose proof (sum_upd_in (ns_rest s) p r (seq 0 n) (seq_NoDup n 0)) as H.
    assert (L : In p (seq 0 n)). { apply in_seq. pose proof (enabled_lt s p I E). lia. }
    specialize (H L). rewrite R in H. simpl in H. lia.
  Qed.

  Lemma mu_step_le s p au : inv s -> mu (nstep p au s) <= mu s.
  Proof.
    intros I. destruct (enabled p s) eqn:E.
    - pose proof (mu_step_enabled s p au I E). lia.
    - rewrite step_disabled; auto.
  Qed.

  Lemma done_step s p au : ndone n s = true -> inv s -> nstep p au s = s.
  Proof.
    intros D I. apply step_disabled; auto. unfold enabled.
    destruct (le_lt_dec n p) as [L|L]; [now rewrite (i_out s I p L)|].
    unfold ndone in D. apply andb_prop in D. destruct D as [_ D].
    rewrite forallb_forall in D. specialize (D p). rewrite in_seq in D.
    assert (X : 0 <= p < 0 + n) by lia. apply D in X. apply andb_prop in X. destruct X as [X _].
    destruct (ns_rest s p); [auto|discriminate].
  Qed.

  Lemma enabled_pos s p : inv s -> enabled p s = true -> 0 < mu s.
  Proof. intros I E. pose proof (mu_step_enabled s p false I E). lia. Qed.

  Lemma covers_in seen p : covers n seen = true -> p < n -> In p seen.
  Proof.
    unfold covers. rewrite forallb_forall. intros H L.
    assert (X : In p (seq 0 n)) by (apply in_seq; lia).
    apply H in X. apply existsb_exists in X. destruct X as [x [X1 X2]]. apply Nat.eqb_eq in X2. now subst.
  Qed.

  (* every complete round of the schedule runs an enabled party, so [mu] drops at least once per round *)
  Lemma fair_done sched : forall s seen, inv s ->
    (ndone n s = true \/ mu s + 1 <= count_rounds n seen sched
     \/ (mu s <= count_rounds n seen sched /\ exists p, p < n /\ enabled p s = true /\ ~ In p seen)) ->
    ndone n (nrun sched s) = true.
  Proof.
    induction sched as [|[q au] rest IH]; intros s seen I H.
    - simpl in *. destruct H as [H|[H|[H [p [L [E _]]]]]]; auto; [lia|].
      pose proof (enabled_pos s p I E). lia.
    - simpl nrun. simpl fst. simpl snd.
      pose proof (inv_step q au s I) as I'.
      destruct H as [H|H].
      { rewrite (done_step s q au H I). apply (IH s (q :: seen) I). now left. }
      simpl count_rounds in H. simpl fst in H.
      pose proof (mu_step_le s q au I) as Le.
      assert (NewRound : mu (nstep q au s) <= count_rounds n [] rest ->
                         ndone n (nrun rest (nstep q au s)) = true).
      { intros B. apply (IH _ [] I').
        destruct (ndone n (nstep q au s)) eqn:D; [now left|right; right].
        split; auto. destruct (progress _ I' D) as [p [L E]]. exists p. split; auto. }
      destruct (covers n (q :: seen)) eqn:Cv.
      + destruct H as [H|[H [p [L [E Ni]]]]].
        * apply NewRound. lia.
        * pose proof (covers_in _ p Cv L) as X. destruct X as [X|X]; [|tauto]. subst q.
          pose proof (mu_step_enabled s p au I E). apply NewRound. lia.
      + destruct H as [H|[H [p [L [E Ni]]]]].
        * apply (IH _ (q :: seen) I'). right. left. lia.
        * destruct (Nat.eq_dec q p) as [->|Ne].
          -- pose proof (mu_step_enabled s p au I E). apply (IH _ (p :: seen) I'). right. left. lia.
          -- apply (IH _ (q :: seen) I'). right. right. split; [lia|].
             exists p. split; auto. split; [now apply enabled_persist|].
             simpl. intros [X|X]; [congruence|tauto].
  Qed.
End Generic.

(* C10_net_live_generic *)
Theorem net_live_generic n progs rk :
  compatible n progs -> (forall i, i < n -> clean (progs i)) -> (forall i, i < n -> okr rk (progs i)) ->
  forall sched, nfair n progs sched -> ndone n (nrun sched (ninit n progs)) = true.
Proof.
  intros C Cl Ok sched F.
  pose proof (inv_init n rk progs C Cl Ok) as I.
  apply (fair_done n rk sched _ [] I).
  assert (M : mu n (ninit n progs) = total_len n progs).
  { unfold mu, total_len. simpl.
    assert (G : forall l, (forall i, In i l -> i < n) ->
                fold_right (fun i acc => length (if i <? n then progs i else []) + acc) 0 l
                = fold_right (fun i acc => length (progs i) + acc) 0 l).
    { induction l as [|a l IHl]; simpl; auto. intros H.
      rewrite IHl by (intros; apply H; now right).
      assert (L : a < n) by (apply H; now left). apply Nat.ltb_lt in L. now rewrite L. }
    apply G. intros i H. apply in_seq in H. lia. }
  destruct (ndone n (ninit n progs)) eqn:D; [now left|right; right].
  split; [unfold nfair in F; lia|].
  destruct (progress n rk _ I D) as [p [L E]]. exists p. auto.
Qed.

(* safety under EVERY schedule (fair or not): no receive ever meets an item it does not expect *)
Theorem net_safe_generic n progs rk :
  compatible n progs -> (forall i, i < n -> clean (progs i)) -> (forall i, i < n -> okr rk (progs i)) ->
  forall sched, ns_bad (nrun sched (ninit n progs)) = false.
Proof.
  intros C Cl Ok sched. apply (i_bad n rk). apply inv_run. now apply inv_init.
Qed.

(* sends_to (snd = true) and recvs_from (snd = false) in one: the items of l
   exchanged with [peer] in the given direction *)
Definition item (snd : bool) (peer : nat) (a : nact) : list tag :=
  match a, snd with
  | NSend j t, true | NRecv j t, false => if j =? peer then [t] else []
  | _, _ => []
  end.

Definition items (snd : bool) (peer : nat) (l : list nact) : list tag := flat_map (item snd peer) l.

Lemma sends_to_items j l : sends_to j l = items true j l.
Proof. induction l as [|[j' t|j'|j' t|] l IH]; simpl; auto. destruct (j' =? j); simpl; now rewrite IH. Qed.

Lemma recvs_from_items i l : recvs_from i l = items false i l.
Proof. induction l as [|[j' t|j'|j' t|] l IH]; simpl; auto. destruct (j' =? i); simpl; now rewrite IH. Qed.

Lemma items_app snd j l1 l2 : items snd j (l1 ++ l2) = items snd j l1 ++ items snd j l2.
Proof. apply flat_map_app. Qed.

(* a projection that distributes over ++ picks, from a flat_map over seq, the one contributing index *)
Lemma pick_flat_map {B} (g : list nact -> list B) (f : nat -> list nact) j :
  (forall x y, g (x ++ y) = g x ++ g y) -> g [] = [] ->
  (forall j', j' <> j -> g (f j') = []) ->
  forall m a, g (flat_map f (seq a m)) = if (a <=? j) && (j <? a + m) then g (f j) else [].
Proof.
  intros Gapp Gnil Gother. induction m as [|m IH]; intros a.
  - cbn [seq flat_map]. rewrite Gnil. destruct (a <=? j) eqn:E1; cbn [andb]; auto.
    destruct (j <? a + 0) eqn:E2; auto. apply Nat.leb_le in E1. apply Nat.ltb_lt in E2. lia.
  - cbn [seq flat_map]. rewrite Gapp, IH. destruct (Nat.eq_dec a j) as [->|Ne].
    + assert (X1 : (S j <=? j) = false) by (apply Nat.leb_gt; lia).
      assert (X2 : (j <=? j) = true) by (apply Nat.leb_le; lia).
      assert (X3 : (j <? j + S m) = true) by (apply Nat.ltb_lt; lia).
      rewrite X1, X2, X3. cbn [andb]. now rewrite app_nil_r.
    + rewrite (Gother a Ne). cbn [app].
      assert (X1 : (S a <=? j) = (a <=? j)).
      { destruct (Nat.leb_spec (S a) j); destruct (Nat.leb_spec a j); auto; lia. }
      assert (X2 : (j <? S a + m) = (j <? a + S m)) by (f_equal; lia).
      now rewrite X1, X2.
Qed.

(* the tag of the item that travels from i to j when snd, from j to i otherwise *)
Definition dtag (snd : bool) (ph lvl i j : nat) (k : name) : tag :=
  if snd then mkTag ph lvl i j k else mkTag ph lvl j i k.

Lemma items_sends snd ph lvl i j ks j' :
  items snd j' (sends ph lvl i j ks) = if snd && (j =? j') then map (mkTag ph lvl i j) ks else [].
Proof.
  unfold sends, items. induction ks as [|k ks IH]; simpl; [now destruct (snd && (j =? j'))|].
  rewrite IH. destruct snd, (j =? j'); reflexivity.
Qed.

Lemma items_recvs snd ph lvl i j ks j' :
  items snd j' (recvs ph lvl i j ks) = if negb snd && (j =? j') then map (mkTag ph lvl j i) ks else [].
Proof.
  unfold recvs, items. induction ks as [|k ks IH]; simpl; [now destruct (negb snd && (j =? j'))|].
  rewrite IH. destruct snd, (j =? j'); reflexivity.
Qed.

Lemma items_exch snd ph lvl i ks j j' :
  items snd j' (exch ph lvl i ks j) = if (j =? j') && negb (j =? i) then map (dtag snd ph lvl i j) ks else [].
Proof.
  unfold exch. destruct (j =? i); [simpl; now rewrite andb_false_r|].
  rewrite andb_true_r.
  destruct (i <? j); rewrite !items_app, items_sends, items_recvs;
    destruct snd, (j =? j'); simpl; now rewrite ?app_nil_r.
Qed.

Lemma items_round snd n ph lvl i ks j :
  items snd j (round n ph lvl i ks) = if (j <? n) && negb (j =? i) then map (dtag snd ph lvl i j) ks else [].
Proof.
  unfold round.
  rewrite (pick_flat_map (items snd j) (exch ph lvl i ks) j (items_app snd j) eq_refl).
  - simpl. rewrite items_exch, Nat.eqb_refl. simpl. destruct (j <? n); simpl; auto; now destruct (j =? i).
  - intros j' Ne. rewrite items_exch. apply Nat.eqb_neq in Ne. now rewrite Ne.
Qed.

Definition level_msgs (snd : bool) (i j : nat) (il : nat * level) : list tag :=
  let '(l, (c, len)) := il in if c =? 0 then [] else map (dtag snd 1 l i j) (kinds_bv2 len).

(* what i exchanges with peer j over the whole run, in one direction *)
Definition msgs (snd : bool) (n : nat) (levels : list level) (i j : nat) : list tag :=
  if (j <? n) && negb (j =? i) then
    map (dtag snd 0 0 i j) kinds_data
    ++ flat_map (level_msgs snd i j) (combine (seq 0 (length levels)) levels)
    ++ map (dtag snd 2 0 i j) kinds_data
  else [].

Lemma items_party snd n levels i j : items snd j (party_prog n levels i) = msgs snd n levels i j.
Proof.
  unfold party_prog, msgs. rewrite !items_app, !items_round.
  assert (X : forall ils, items snd j (flat_map (level_round n i) ils)
              = if (j <? n) && negb (j =? i) then flat_map (level_msgs snd i j) ils else []).
  { induction ils as [|[l [c len]] ils IH]; simpl; [now destruct ((j <? n) && negb (j =? i))|].
    rewrite items_app, IH. destruct (c =? 0); simpl; auto.
    rewrite items_round. destruct ((j <? n) && negb (j =? i)); auto. }
  rewrite X. destruct ((j <? n) && negb (j =? i)); auto.
Qed.

Lemma msgs_sym n levels i j : i < n -> j < n -> msgs true n levels i j = msgs false n levels j i.
Proof.
  intros Li Lj. unfold msgs. apply Nat.ltb_lt in Li, Lj. rewrite Li, Lj, (Nat.eqb_sym i j).
  destruct (negb (j =? i)); reflexivity.
Qed.

Lemma msgs_out snd n levels i j : n <= j -> msgs snd n levels i j = [].
Proof. intros H. unfold msgs. apply Nat.ltb_ge in H. now rewrite H. Qed.

Lemma party_compatible n levels : compatible n (party_prog n levels).
Proof.
  intros i j. unfold rest0. rewrite sends_to_items, recvs_from_items.
  destruct (Nat.ltb_spec i n) as [Ei|Ei]; destruct (Nat.ltb_spec j n) as [Ej|Ej]; rewrite ?items_party.
  - now apply msgs_sym.
  - now apply msgs_out.
  - symmetry. now apply msgs_out.
  - reflexivity.
Qed.

Lemma pend_app d l1 l2 : pend d (l1 ++ l2) = match pend d l1 with Some d' => pend d' l2 | None => None end.
Proof.
  revert d. induction l1 as [|a l1 IH]; intros d; simpl; auto.
  destruct a; auto. destruct d; auto.
Qed.

Lemma clean_app l1 l2 : clean l1 -> clean l2 -> clean (l1 ++ l2).
Proof. unfold clean. intros H1 H2. now rewrite pend_app, H1. Qed.

Lemma clean_flat_map {A} (f : A -> list nact) l : (forall x, clean (f x)) -> clean (flat_map f l).
Proof. intros H. induction l; simpl; [reflexivity|]. apply clean_app; auto. Qed.

Lemma pend_sends ph lvl i j ks d r : pend d (sends ph lvl i j ks ++ r) = pend (repeat j (length ks) ++ d) r.
Proof.
  unfold sends. revert d. induction ks as [|k ks IH]; intros d; simpl; auto.
  rewrite IH. f_equal. change (j :: d) with ([j] ++ d). rewrite app_assoc. f_equal.
  change (j :: repeat j (length ks)) with (repeat j (S (length ks))).
  rewrite <- repeat_cons. reflexivity.
Qed.

Lemma pend_recvs ph lvl i j ks r : pend [] (recvs ph lvl i j ks ++ r) = pend [] r.
Proof. unfold recvs. induction ks; simpl; auto. Qed.

Lemma remove_repeat j k : remove Nat.eq_dec j (repeat j k) = [].
Proof. induction k; simpl; auto. destruct (Nat.eq_dec j j); [auto|congruence]. Qed.

Lemma clean_exch ph lvl i ks j : clean (exch ph lvl i ks j).
Proof.
  unfold exch, clean. destruct (j =? i); [reflexivity|].
  destruct (i <? j).
  - rewrite pend_sends. simpl. rewrite app_nil_r, remove_repeat.
    rewrite <- (app_nil_r (recvs _ _ _ _ _)). now rewrite pend_recvs.
  - rewrite pend_recvs, pend_sends. simpl. now rewrite app_nil_r, remove_repeat.
Qed.

Lemma clean_round n ph lvl i ks : clean (round n ph lvl i ks).
Proof. apply clean_flat_map. intros j. apply clean_exch. Qed.

Lemma party_clean n levels i : clean (party_prog n levels i).
Proof.
  unfold party_prog. repeat apply clean_app; try apply clean_round.
  apply clean_flat_map. intros [l [c len]]. simpl. destruct (c =? 0); [reflexivity|apply clean_round].
Qed.

(* ranked: exchanges are globally ordered by (round, lower id, higher id) *)
Definition rho (nl ph lvl : nat) : nat := match ph with 0 => 0 | 1 => S lvl | _ => S nl end.
Definition exi (n r i j : nat) : nat := r * (n * n) + Nat.min i j * n + Nat.max i j.
Definition rkg (n nl : nat) (t : tag) : nat :=
  2 * exi n (rho nl (t_ph t) (t_lvl t)) (t_src t) (t_dst t) + (if t_src t <? t_dst t then 0 else 1).

Section Rank.
  Variable rk : tag -> nat.

  Definition in_rng (a b : nat) (x : nact) : Prop :=
    match x with NSend _ u | NRecv _ u => a <= rk u < b | _ => True end.

  Definition seg (a b : nat) (l : list nact) : Prop := okr rk l /\ Forall (in_rng a b) l.

  Lemma okr_app l1 l2 :
    okr rk l1 -> okr rk l2 ->
    (forall j u j' t, In (NRecv j u) l1 -> In (NSend j' t) l2 -> rk u < rk t) -> okr rk (l1 ++ l2).
  Proof.
    induction l1 as [|a l1 IH]; simpl; auto. intros O1 O2 X.
    destruct a; try (apply IH; auto; intros; eapply X; eauto).
    destruct O1 as [O1a O1b]. split.
    - intros j t0 H. apply in_app_or in H. destruct H as [H|H]; [eauto|].
      eapply X; eauto.
    - apply IH; auto. intros; eapply X; eauto.
  Qed.

  Lemma seg_nil a b : seg a b [].
  Proof. split; [exact I|constructor]. Qed.

  Lemma seg_flush a b j : seg a b [NFlush j].
  Proof. split; [exact I|repeat constructor]. Qed.

  Lemma seg_weak a b a' b' l : seg a b l -> a' <= a -> b <= b' -> seg a' b' l.
  Proof.
    intros [O B] H1 H2. split; [exact O|]. revert B. apply Forall_impl.
    intros [j u|j|j u|]; simpl; intros; try lia; auto.
  Qed.

  Lemma seg_app a b c l1 l2 : a <= b -> b <= c -> seg a b l1 -> seg b c l2 -> seg a c (l1 ++ l2).
  Proof.
    intros Hab Hbc S1 S2. split.
    - destruct S1 as [O1 B1], S2 as [O2 B2]. apply okr_app; auto. intros j u j' t H1 H2.
      rewrite Forall_forall in B1, B2. specialize (B1 _ H1). specialize (B2 _ H2). simpl in *. lia.
    - apply Forall_app. split; [apply (seg_weak a b a c l1)|apply (seg_weak b c a c l2)]; auto.
  Qed.

  Lemma seg_sends a b j (f : name -> tag) ks :
    (forall k, a <= rk (f k) < b) -> seg a b (map (fun k => NSend j (f k)) ks).
  Proof.
    intro H. induction ks as [|k ks [O B]]; [apply seg_nil|].
    split; [exact O|constructor; [apply H|exact B]].
  Qed.

  Lemma seg_recvs a b j (f : name -> tag) ks :
    (forall k, a <= rk (f k) < b) -> seg a b (map (fun k => NRecv j (f k)) ks).
  Proof.
    intro H. induction ks as [|k ks [O B]]; [apply seg_nil|].
    split; [split; [|exact O]|constructor; [apply H|exact B]].
    intros j' t Hin. apply in_map_iff in Hin. destruct Hin as (k' & E & _). discriminate.
  Qed.

  Lemma seg_flat_seq (f : nat -> list nact) (B : nat -> nat) :
    (forall j, seg (B j) (B (S j)) (f j)) -> (forall j, B j <= B (S j)) ->
    forall m a, seg (B a) (B (a + m)) (flat_map f (seq a m)).
  Proof.
    intros Sg Mo.
    assert (Mono : forall k x, B x <= B (x + k)).
    { induction k as [|k IH]; intros x; [rewrite Nat.add_0_r; lia|].
      rewrite Nat.add_succ_r. specialize (IH x). specialize (Mo (x + k)). lia. }
    induction m as [|m IH]; intros a; cbn [seq flat_map].
    - apply seg_nil.
    - rewrite Nat.add_succ_r, <- Nat.add_succ_l. apply (seg_app _ (B (S a))); auto.
  Qed.
End Rank.

Lemma exi_comm n r i j : exi n r i j = exi n r j i.
Proof. unfold exi. now rewrite Nat.min_comm, Nat.max_comm. Qed.

Lemma exi_step n r i j : i < n -> exi n r i j + 1 <= exi n r i (S j).
Proof.
  intros L. unfold exi. destruct (le_lt_dec (S j) i) as [H|H].
  - rewrite (Nat.min_r i j), (Nat.max_l i j), (Nat.min_r i (S j)), (Nat.max_l i (S j)) by lia. nia.
  - rewrite (Nat.min_l i j), (Nat.max_r i j), (Nat.min_l i (S j)), (Nat.max_r i (S j)) by lia. lia.
Qed.

Lemma rkg_lo_hi n nl ph lvl i j k : i < j ->
  rkg n nl (mkTag ph lvl i j k) = 2 * exi n (rho nl ph lvl) i j /\
  rkg n nl (mkTag ph lvl j i k) = 2 * exi n (rho nl ph lvl) i j + 1.
Proof.
  intros L. unfold rkg. simpl.
  assert (X1 : (i <? j) = true) by (apply Nat.ltb_lt; lia).
  assert (X2 : (j <? i) = false) by (apply Nat.ltb_ge; lia).
  rewrite X1, X2, (exi_comm n _ j i). lia.
Qed.

Section GmwRank.
  Variables n nl : nat.
  Let rk := rkg n nl.

  (* within an exchange the item of the lower id has the even rank 2e, the
     higher id's answer 2e + 1; either party receives after it has sent, or
     receives the even item before it sends the odd one *)
  Lemma exch_seg ph lvl i ks j :
    seg rk (2 * exi n (rho nl ph lvl) i j) (2 * exi n (rho nl ph lvl) i j + 2) (exch ph lvl i ks j).
  Proof.
    unfold exch, sends, recvs. destruct (Nat.eqb_spec j i) as [_|Ne]; [apply seg_nil|].
    set (e := exi n (rho nl ph lvl) i j).
    destruct (Nat.ltb_spec i j) as [L|L].
    - apply (seg_app rk _ (2 * e + 1)); [lia|lia| |apply (seg_app rk _ (2 * e + 1)); [lia|lia|apply seg_flush|]].
      + apply seg_sends. intro k. destruct (rkg_lo_hi n nl ph lvl i j k L) as [X _]. unfold rk. rewrite X. fold e. lia.
      + apply seg_recvs. intro k. destruct (rkg_lo_hi n nl ph lvl i j k L) as [_ X]. unfold rk. rewrite X. fold e. lia.
    - assert (L' : j < i) by lia.
      apply (seg_app rk _ (2 * e + 1)); [lia|lia| |apply (seg_app rk _ (2 * e + 2)); [lia|lia| |apply seg_flush]].
      + apply seg_recvs. intro k. destruct (rkg_lo_hi n nl ph lvl j i k L') as [X _].
        unfold rk. rewrite X, (exi_comm n _ j i). fold e. lia.
      + apply seg_sends. intro k. destruct (rkg_lo_hi n nl ph lvl j i k L') as [_ X].
        unfold rk. rewrite X, (exi_comm n _ j i). fold e. lia.
  Qed.

  Lemma round_seg ph lvl i ks : i < n ->
    seg rk (2 * rho nl ph lvl * (n * n)) (2 * S (rho nl ph lvl) * (n * n)) (round n ph lvl i ks).
  Proof.
    intros L. unfold round. generalize (rho nl ph lvl) (exch_seg ph lvl i ks). intros r Ex.
    eapply seg_weak; [apply (seg_flat_seq rk (exch ph lvl i ks) (fun j => 2 * exi n r i j)) with (m := n) (a := 0)| |].
    - intros j. eapply seg_weak; [apply Ex|lia|]. pose proof (exi_step n r i j L). lia.
    - intros j. pose proof (exi_step n r i j L). lia.
    - unfold exi. nia.
    - unfold exi. simpl. rewrite (Nat.min_l i n), (Nat.max_r i n) by lia. nia.
  Qed.

  Lemma levels_seg i : i < n -> forall ls a, a + length ls <= nl ->
    seg rk (2 * S a * (n * n)) (2 * S (a + length ls) * (n * n))
        (flat_map (level_round n i) (combine (seq a (length ls)) ls)).
  Proof.
    intros L. induction ls as [|[c len] ls IH]; intros a H.
    - apply seg_nil.
    - cbn [length seq combine flat_map]. simpl in H. rewrite Nat.add_succ_r, <- Nat.add_succ_l.
      apply (seg_app rk _ (2 * S (S a) * (n * n))); [nia|nia| |apply IH; lia].
      simpl. destruct (c =? 0); [apply seg_nil|apply (round_seg 1 a i (kinds_bv2 len) L)].
  Qed.
End GmwRank.

Lemma party_ranked n levels i : i < n -> okr (rkg n (length levels)) (party_prog n levels i).
Proof.
  intros L. unfold party_prog. set (nl := length levels).
  pose proof (round_seg n nl 0 0 i kinds_data L) as S0.
  pose proof (levels_seg n nl i L levels 0 (le_n _)) as S1.
  pose proof (round_seg n nl 2 0 i kinds_data L) as S2.
  cbn [rho Nat.add] in S0, S1, S2.
  eapply proj1. eapply seg_app; [| |exact S0|eapply seg_app; [| |exact S1|exact S2]]; nia.
Qed.

(* the three conditions, for every family that is pointwise the GMW program *)
Lemma gmw_conditions n levels progs : (forall i, progs i = party_prog n levels i) ->
  compatible n progs /\ (forall i, i < n -> clean (progs i)) /\
  (forall i, i < n -> okr (rkg n (length levels)) (progs i)).
Proof.
  intro E. split; [|split].
  - intros i j. unfold rest0. rewrite !E. apply (party_compatible n levels i j).
  - intros i _. rewrite E. apply party_clean.
  - intros i L. rewrite E. now apply party_ranked.
Qed.

Theorem party_live n levels sched :
  nfair n (party_prog n levels) sched ->
  ndone n (nrun sched (ninit n (party_prog n levels))) = true.
Proof.
  destruct (gmw_conditions n levels _ (fun _ => eq_refl)) as [C [Cl Ok]].
  now apply (net_live_generic n _ (rkg n (length levels))).
Qed.

Theorem party_safe n levels sched : ns_bad (nrun sched (ninit n (party_prog n levels))) = false.
Proof.
  destruct (gmw_conditions n levels _ (fun _ => eq_refl)) as [C [Cl Ok]].
  now apply (net_safe_generic n _ (rkg n (length levels))).
Qed.

Lemma flat_map_const {A} (x : A) m a : flat_map (fun _ : nat => [x]) (seq a m) = repeat x m.
Proof. revert a. induction m as [|m IH]; intros a; simpl; auto. now rewrite IH. Qed.

Lemma map_repeat' {A B} (f : A -> B) x m : map f (repeat x m) = repeat (f x) m.
Proof. induction m; simpl; auto. now rewrite IHm. Qed.

Definition body_of (ks kr : list (prog -> prog)) : prog :=
  mk [PBranch lbl_is_self (mk []) (mk [PBranch lbl_lower (exch_lo ks kr) (exch_hi ks kr)])].

Lemma body_data n self levels ph lvl batch j :
  gflat n self levels ph lvl (Some j) batch (body_of data_s data_r) = exch ph lvl self kinds_data j.
Proof.
  unfold exch. cbn -[Nat.ltb Nat.eqb]. destruct (j =? self); [reflexivity|]. destruct (self <? j); reflexivity.
Qed.

Lemma body_bv2 n self levels ph lvl c len j :
  gflat n self levels ph lvl (Some j) (Some (c, len)) (body_of bv2_s bv2_r) = exch ph lvl self (kinds_bv2 len) j.
Proof.
  unfold exch, kinds_bv2, sends, recvs. cbn -[Nat.ltb Nat.eqb pair_count].
  rewrite !flat_map_const, !map_app, !map_repeat'.
  destruct (j =? self); [reflexivity|]. destruct (self <? j); cbn -[pair_count]; rewrite ?app_nil_r, <- ?app_assoc; reflexivity.
Qed.

Lemma peers_flat n self levels ph lvl batch ks kr kinds r :
  (forall j, gflat n self levels ph lvl (Some j) batch (body_of ks kr) = exch ph lvl self kinds j) ->
  gflat n self levels ph lvl None batch (peers_loop ks kr r)
  = round n ph lvl self kinds ++ gflat n self levels ph lvl None batch r.
Proof.
  intro Body. change (peers_loop ks kr r) with (PLoop lbl_peers (body_of ks kr) r).
  cbn [gflat]. change (name_eqb lbl_peers lbl_peers) with true. cbv iota. f_equal.
  unfold round. apply flat_map_ext. exact Body.
Qed.

Lemma level_body n self levels il :
  gflat n self levels 1 (fst il) None (Some (snd il)) (mk [PBranch lbl_empty (mk []) (mk [peers_loop bv2_s bv2_r])])
  = level_round n self il.
Proof.
  destruct il as [i [c len]]. cbn [fst snd mk fold_right].
  cbn [gflat]. change (name_eqb lbl_empty lbl_is_self) with false.
  change (name_eqb lbl_empty lbl_lower) with false. change (name_eqb lbl_empty lbl_empty) with true.
  cbv iota. unfold level_round. destruct (c =? 0); [reflexivity|].
  rewrite (peers_flat _ _ _ _ _ _ _ _ _ _ (body_bv2 n self levels 1 i c len)). cbn [gflat]. now rewrite !app_nil_r.
Qed.

(* C10_net_flat_is_program *)
Theorem gflat_ref n levels self : party_acts ref_run n levels self = party_prog n levels self.
Proof.
  unfold party_acts, ref_run, party_prog. cbn [mk fold_right].
  rewrite (peers_flat _ _ _ _ _ _ _ _ _ _ (body_data n self levels 0 0 None)). f_equal.
  cbn [gflat]. change (name_eqb lbl_levels lbl_peers) with false. change (name_eqb lbl_levels lbl_levels) with true.
  cbv iota. f_equal.
  - apply flat_map_ext. intros il. apply level_body.
  - rewrite (peers_flat _ _ _ _ _ _ _ _ _ _ (body_data n self levels 2 0 None)). cbn [gflat]. now rewrite app_nil_r.
Qed.

(* C10_net_skeleton_from_source: the translator (harness/gen_skel_gmw.go) extracted exactly the reference skeleton
   from the current gmw/network.go + gmw/peer.go, and reported nothing it did not understand *)
Lemma skel_matches_source : skel_gmw_run = ref_run /\ skel_gmw_errors = [].
Proof. split; reflexivity. Qed.

(* C10_net_online_live: for EVERY number of parties, EVERY list of levels (AND count, vector length) and EVERY
   fair schedule the online phase extracted from the source ends with every party finished
   and every write buffer and channel empty, no receive having met an unexpected item *)
Theorem gmw_online_live n levels sched :
  nfair n (party_acts skel_gmw_run n levels) sched ->
  ndone n (nrun sched (ninit n (party_acts skel_gmw_run n levels))) = true.
Proof.
  destruct skel_matches_source as [-> _].
  destruct (gmw_conditions n levels _ (gflat_ref n levels)) as [C [Cl Ok]].
  now apply (net_live_generic n _ (rkg n (length levels))).
Qed.

(* C10_net_online_no_mixup: under EVERY schedule, fair or not, with or without automatic flushes *)
Theorem gmw_online_safe n levels sched :
  ns_bad (nrun sched (ninit n (party_acts skel_gmw_run n levels))) = false.
Proof.
  destruct skel_matches_source as [-> _].
  destruct (gmw_conditions n levels _ (gflat_ref n levels)) as [C [Cl Ok]].
  now apply (net_safe_generic n _ (rkg n (length levels))).
Qed.

Lemma covers_seq n seen : (forall i, i < n -> In i seen) -> covers n seen = true.
Proof.
  intros H. unfold covers. apply forallb_forall. intros i Hi. apply in_seq in Hi.
  apply existsb_exists. exists i. split; [apply H; lia|apply Nat.eqb_refl].
Qed.

Lemma covers_missing n seen p : p < n -> ~ In p seen -> covers n seen = false.
Proof. intros L H. destruct (covers n seen) eqn:E; auto. elim H. now apply (covers_in n seen p). Qed.

Lemma count_rounds_sweep n rest : forall d m seen,
  m + S d = n -> (forall i, i < m -> In i seen) -> (forall i, In i seen -> i < m) ->
  count_rounds n seen (map (fun p => (p, false)) (seq m (S d)) ++ rest) = S (count_rounds n [] rest).
Proof.
  induction d as [|d IH]; intros m seen E H1 H2.
  - cbn [seq map app count_rounds fst].
    rewrite covers_seq; auto. intros i L. destruct (Nat.eq_dec i m) as [->|Ne]; [now left|right; apply H1; lia].
  - change (seq m (S (S d))) with (m :: seq (S m) (S d)). cbn [map app count_rounds fst].
    rewrite (covers_missing n (m :: seen) (S m)); [|lia|].
    + apply IH; [lia| |].
      * intros i L. destruct (Nat.eq_dec i m) as [->|Ne]; [now left|right; apply H1; lia].
      * intros i [<-|Hi]; [lia|]. apply H2 in Hi. lia.
    + intros [X|X]; [lia|]. apply H2 in X. lia.
Qed.

Lemma rr_rounds n k : 0 < n -> count_rounds n [] (rr_sched n k) = k.
Proof.
  intros L. unfold rr_sched. induction k as [|k IH]; [reflexivity|].
  cbn [repeat concat]. destruct n as [|d]; [lia|].
  rewrite (count_rounds_sweep (S d) _ d 0 []); [now rewrite IH|lia|intros i Hi; lia|intros i []].
Qed.

(* C10_net_fair_schedules_exist (non-vacuity): the round-robin schedule of total_len rounds is fair,
   for every n >= 1 and every program family *)
Lemma rr_is_fair n progs : 0 < n -> nfair n progs (rr_sched n (total_len n progs)).
Proof. intros L. unfold nfair. now rewrite rr_rounds. Qed.

Example ex_fair_rr :
  let levels := with_lens 0 [70; 0; 1] in
  let progs := party_acts skel_gmw_run 3 levels in
  nfair 3 progs (rr_sched 3 (total_len 3 progs))
  /\ ndone 3 (nrun (rr_sched 3 (total_len 3 progs)) (ninit 3 progs)) = true.
Proof.
  intros levels progs.
  assert (F : nfair 3 progs (rr_sched 3 (total_len 3 progs))) by (apply rr_is_fair; repeat constructor).
  split; [exact F|exact (gmw_online_live 3 levels _ F)].
Qed.

(* C10_net_recv_before_flush_refuted: the lower party of an exchange receives before it flushes.
   Two parties, no AND level, round robin (fair): party 0 blocks in its first receive
   with its input share still in its write buffer, party 1 in the receive of that share. *)
Lemma rbf_refuted :
  exists n levels sched,
    2 <= n /\ nfair n (party_acts rbf_run n levels) sched /\
    ndone n (nrun sched (ninit n (party_acts rbf_run n levels))) = false /\
    ns_bad (nrun sched (ninit n (party_acts rbf_run n levels))) = false.
Proof.
  exists 2, [], (rr_sched 2 12). split; [lia|]. split; [unfold nfair; vm_compute; repeat constructor|].
  split; vm_compute; reflexivity.
Qed.
