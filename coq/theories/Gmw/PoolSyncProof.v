(* PoolSyncProof.v — the triple pool's condition-variable protocol loses no
   wake-up (PoolSync.v), and the variant with the Signal hoisted out of the
   chunk loop does. *)
From Coq Require Import List Arith Lia.
From Mpc Require Import Gmw.PoolSync.
Import ListNotations.
Local Open Scope nat_scope.

Definition need_of (c : cstate) : nat :=
  match c with CIdle => 0 | CReady n | CWaiting n | CWoken n => n end.

Section Faithful.
  Variable lwm : nat.
  Variable bsz : nat -> nat.

  Notation get_loop' := (get_loop lwm false).
  Notation step' := (step lwm bsz false).
  Notation reachable' := (reachable lwm bsz false).

  (* closed form of the critical section of Get *)
  Lemma get_loop_spec n w g : 0 < n ->
    get_loop' (S n) n w g =
    if w =? 0 then (CWaiting n, 0, g)
    else if n <=? w then (CIdle, w - n, if w - n <=? lwm then wake_g g else g)
    else (CWaiting (n - w), 0, wake_g g).
  Proof.
    intro Hn. destruct n as [|n]; [lia|]. cbn [get_loop].
    destruct (Nat.eqb_spec w 0) as [->|Hw]; [reflexivity|].
    cbn [negb andb]. destruct (Nat.leb_spec (S n) w) as [Hle|Hgt].
    - rewrite Nat.min_l by lia. rewrite Nat.sub_diag. destruct n; reflexivity.
    - rewrite Nat.min_r by lia. rewrite Nat.sub_diag.
      assert (E : S n - w = S (n - w)) by lia. rewrite E.
      destruct n as [|n]; [lia|]. cbn [get_loop Nat.eqb Nat.leb]. reflexivity.
  Qed.

  Lemma cons_runnable s n : (cst s = CReady n \/ cst s = CWoken n) -> 0 < n ->
    cons_step lwm false s =
    Some (if words s =? 0 then mkS 0 (nbatch s) (CWaiting n) (gst s)
          else if n <=? words s then mkS (words s - n) (nbatch s) CIdle
                                         (if words s - n <=? lwm then wake_g (gst s) else gst s)
          else mkS 0 (nbatch s) (CWaiting (n - words s)) (wake_g (gst s))).
  Proof.
    intros Hc Hn. unfold cons_step.
    destruct Hc as [-> | ->]; rewrite (get_loop_spec n _ _ Hn);
      destruct (words s =? 0); [reflexivity| |reflexivity|]; destruct (n <=? words s); reflexivity.
  Qed.

  Lemma gen_check s : gst s = GCheck \/ gst s = GWoken ->
    gen_step lwm bsz s = Some (mkS (words s) (nbatch s) (cst s) (if lwm <? words s then GWaiting else GProduce)).
  Proof. intro G. unfold gen_step. destruct G as [-> | ->]; reflexivity. Qed.

  Lemma gen_produce s : gst s = GProduce ->
    gen_step lwm bsz s = Some (mkS (words s + bsz (nbatch s)) (S (nbatch s)) (wake_c (cst s)) GCheck).
  Proof. intro G. unfold gen_step. rewrite G. reflexivity. Qed.

  (* I1: a parked generator saw Words > lowWaterMark and nobody took words
         below the mark since without signalling;
     I2: a parked consumer found the pool empty (every Append of the
         generator signals);
     I3: a request in progress is unsatisfied *)
  Definition inv (s : pst) : Prop :=
    (gst s = GWaiting -> lwm < words s) /\
    (forall n, cst s = CWaiting n -> words s = 0) /\
    (cst s <> CIdle -> 0 < need_of (cst s)).

  Lemma wake_g_not_waiting g : wake_g g <> GWaiting.
  Proof. destruct g; discriminate. Qed.

  Lemma inv_step l s s' : inv s -> step' l s = Some s' -> inv s'.
  Proof.
    intros (I1 & I2 & I3) H. destruct l as [| |n]; simpl in H.
    - (* consumer *)
      assert (Hc : exists n, (cst s = CReady n \/ cst s = CWoken n)).
      { unfold cons_step in H. destruct (cst s) eqn:E; try discriminate; eexists; eauto. }
      destruct Hc as (n & Hc).
      assert (Hn : 0 < n) by (destruct Hc as [E|E]; rewrite E in I3; apply I3; discriminate).
      rewrite (cons_runnable s n Hc Hn) in H. injection H as <-.
      destruct (Nat.eqb_spec (words s) 0) as [Hw|Hw]; [|destruct (Nat.leb_spec n (words s)) as [Hle|Hgt]];
        (split; [|split]); cbn [gst words cst need_of].
      + intro G. specialize (I1 G). lia.
      + reflexivity.
      + intros _. assumption.
      + destruct (Nat.leb_spec (words s - n) lwm) as [Hl|Hl]; intro G; [|assumption].
        exfalso. exact (wake_g_not_waiting _ G).
      + discriminate.
      + congruence.
      + intro G. exfalso. exact (wake_g_not_waiting _ G).
      + reflexivity.
      + intros _. lia.
    - (* generator *)
      unfold gen_step in H. destruct (gst s) eqn:G; try discriminate H;
        injection H as <-; (split; [|split]); cbn [gst words cst]; try assumption.
      1, 2: destruct (Nat.ltb_spec lwm (words s)); [intros; assumption|discriminate].
      + discriminate.
      + intros m Hm. destruct (cst s); discriminate.
      + intros Hne. destruct (cst s) eqn:C; cbn [wake_c need_of] in *; try (apply I3; discriminate). contradiction.
    - (* a new Get *)
      unfold get_step in H. destruct (cst s) eqn:C; try discriminate.
      injection H as <-. (split; [|split]); cbn [gst words cst]; [assumption| |].
      + intros m Hm. destruct n; discriminate.
      + destruct n; [contradiction|]. intros _. cbn [need_of]. lia.
  Qed.

  Lemma inv_reachable s : reachable' s -> inv s.
  Proof.
    induction 1 as [|l s s' R IH H].
    - split; [discriminate|]. split; [intros n H; discriminate|intro H; contradiction].
    - eapply inv_step; eassumption.
  Qed.

  (* C10_pool_no_lost_wakeup: whenever the consumer is blocked in Get on an
     unsatisfied request, the generator is not parked without a pending
     Signal — for every request size, in particular larger than the pool *)
  Theorem no_lost_wakeup s : reachable' s ->
    forall n, cst s = CWaiting n -> 0 < n /\ gst s <> GWaiting.
  Proof.
    intros R n Hc. destruct (inv_reachable s R) as (I1 & I2 & I3).
    split; [rewrite Hc in I3; apply I3; discriminate|].
    intro G. specialize (I1 G). rewrite (I2 n Hc) in I1. lia.
  Qed.

  Corollary never_lost s : reachable' s -> lost_wakeup s = false.
  Proof.
    intro R. unfold lost_wakeup. destruct (cst s) eqn:C; try reflexivity.
    destruct (gst s) eqn:G; try reflexivity.
    destruct (no_lost_wakeup s R need C) as [_ H]. contradiction.
  Qed.

  (* C10_pool_deadlock_free: so some goroutine can always run while a request is outstanding *)
  Theorem deadlock_free s : reachable' s -> cst s <> CIdle ->
    exists s', cons_step lwm false s = Some s' \/ gen_step lwm bsz s = Some s'.
  Proof.
    intros R NI. destruct (inv_reachable s R) as (_ & _ & I3). specialize (I3 NI).
    destruct (cst s) eqn:C; [contradiction| | |]; cbn [need_of] in I3.
    - eexists. left. apply (cons_runnable s need); [rewrite C; auto|assumption].
    - destruct (no_lost_wakeup s R need C) as [_ G].
      unfold gen_step. destruct (gst s); try contradiction; eexists; right; reflexivity.
    - eexists. left. apply (cons_runnable s need); [rewrite C; auto|assumption].
  Qed.
End Faithful.

Lemma exec_reachable lwm bsz h : forall ls s, reachable lwm bsz h s -> reachable lwm bsz h (exec lwm bsz h ls s).
Proof.
  induction ls as [|l ls IH]; intros s R; [assumption|]. simpl.
  destruct (step lwm bsz h l s) eqn:E; [|apply IH; assumption].
  apply IH. eapply r_step; eassumption.
Qed.

(* C10_pool_no_lost_wakeup_hoisted_refuted: with the Signal hoisted out of the chunk loop (issued
   once after the whole request is satisfied) and the constants of the Go
   code, the generator fills the pool (64 + 32*128 = 4160 words >
   lowWaterMark) and parks; a Get of 4219 words (270000 triples, one AND
   level wider than the pool) drains the pool and waits: lost wake-up. *)
Definition wide_schedule : list label := repeat LGen 67 ++ [LGet 4219; LCons].

Lemma pool_no_lost_wakeup_hoisted_refuted :
  exists s, reachable go_lwm go_bsz true s /\ lost_wakeup s = true /\
            cst s = CWaiting 59 /\ gst s = GWaiting /\ words s = 0.
Proof.
  (* the schedule is run once; the conjuncts are read off the resulting state *)
  assert (E : exec go_lwm go_bsz true wide_schedule init = mkS 0 33 (CWaiting 59) GWaiting)
    by (vm_compute; reflexivity).
  exists (exec go_lwm go_bsz true wide_schedule init).
  split; [apply exec_reachable; constructor|]. rewrite E. repeat split.
Qed.

(* the same schedule with the code as it is: the generator has been
   signalled, and a fair schedule completes the request *)
Example wide_schedule_faithful :
  let s := exec go_lwm go_bsz false wide_schedule init in
  cst s = CWaiting 59 /\ gst s = GWoken /\ cst (run_rr go_lwm go_bsz false 3 s) = CIdle.
Proof.
  intro s.
  assert (E : s = mkS 0 33 (CWaiting 59) GWoken) by (vm_compute; reflexivity).
  rewrite E. repeat split.
Qed.

Section Live.
  Variable lwm : nat.
  Variable bsz : nat -> nat.
  Hypothesis bsz_pos : forall k, 1 <= bsz k.

  Notation inv' := (inv lwm).
  Notation exec' := (exec lwm bsz false).
  Notation rr := (run_rr lwm bsz false).

  Lemma run_rr_add a : forall b s, rr (a + b) s = rr b (rr a s).
  Proof. induction a as [|a IH]; intros b s; [reflexivity|]. cbn [Nat.add run_rr]. apply IH. Qed.

  Lemma inv_exec ls : forall s, inv' s -> inv' (exec' ls s).
  Proof.
    induction ls as [|l ls IH]; intros s I; [assumption|]. simpl.
    destruct (step lwm bsz false l s) eqn:E; [|apply IH; assumption].
    apply IH. eapply inv_step; eassumption.
  Qed.

  Lemma inv_rr k : forall s, inv' s -> inv' (rr k s).
  Proof. induction k as [|k IH]; intros s I; [assumption|]. cbn [run_rr]. apply IH. apply (inv_exec [LGen; LCons]). assumption. Qed.

  Lemma cons_progress s n : (cst s = CReady n \/ cst s = CWoken n) -> 0 < n -> 0 < words s ->
    need_of (cst (exec' [LCons] s)) < n.
  Proof.
    intros Hc Hn Hw. simpl. rewrite (cons_runnable lwm s n Hc Hn).
    destruct (Nat.eqb_spec (words s) 0); [lia|].
    destruct (Nat.leb_spec n (words s)); simpl; lia.
  Qed.

  Lemma cons_empty s n : (cst s = CReady n \/ cst s = CWoken n) -> 0 < n -> words s = 0 ->
    exec' [LCons] s = mkS 0 (nbatch s) (CWaiting n) (gst s).
  Proof. intros Hc Hn Hw. simpl. rewrite (cons_runnable lwm s n Hc Hn), Hw. reflexivity. Qed.

  Lemma gen_keeps_runnable s n : (cst s = CReady n \/ cst s = CWoken n) -> cst (exec' [LGen] s) = cst s.
  Proof. intro Hc. simpl. unfold gen_step. destruct (gst s); cbn [cst]; destruct Hc as [-> | ->]; reflexivity. Qed.

  Lemma waiting_progress s n : inv' s -> cst s = CWaiting n ->
    exists k, k <= 2 /\ need_of (cst (rr k s)) < n.
  Proof.
    intros (I1 & I2 & I3) Hc. pose proof (I2 n Hc) as Hw.
    assert (Hn : 0 < n) by (rewrite Hc in I3; apply I3; discriminate).
    assert (NG : gst s <> GWaiting) by (intro G; specialize (I1 G); lia).
    (* a producing generator appends a batch and wakes the consumer *)
    assert (Hprod : forall t, cst t = CWaiting n -> gst t = GProduce -> words t = 0 ->
              need_of (cst (rr 1 t)) < n).
    { intros t Ct Gt Wt. change (rr 1 t) with (exec' [LCons] (exec' [LGen] t)).
      simpl exec at 2. rewrite (gen_produce lwm bsz t Gt).
      apply cons_progress; cbn [cst words]; [rewrite Ct; right; reflexivity|assumption|].
      pose proof (bsz_pos (nbatch t)). lia. }
    (* a checking generator finds the pool empty and starts producing *)
    assert (Hcheck : gst s = GCheck \/ gst s = GWoken -> rr 1 s = mkS (words s) (nbatch s) (cst s) GProduce).
    { intro G. change (rr 1 s) with (exec' [LCons] (exec' [LGen] s)).
      simpl exec at 2. rewrite (gen_check lwm bsz s G), Hw. simpl. unfold cons_step. cbn [cst]. rewrite Hc. reflexivity. }
    destruct (gst s) eqn:G; try contradiction.
    1, 2: exists 2; split; [lia|]; change 2 with (1 + 1); rewrite run_rr_add, Hcheck by auto;
          apply Hprod; cbn [cst gst words]; first [assumption|reflexivity].
    exists 1. split; [lia|]. apply Hprod; assumption.
  Qed.

  Lemma runnable_progress s n : inv' s -> (cst s = CReady n \/ cst s = CWoken n) -> 0 < n ->
    exists k, k <= 3 /\ need_of (cst (rr k s)) < n.
  Proof.
    intros I Hc Hn. set (s1 := exec' [LGen] s).
    assert (I1 : inv' s1) by (apply inv_exec; assumption).
    assert (C1 : cst s1 = CReady n \/ cst s1 = CWoken n) by (unfold s1; rewrite (gen_keeps_runnable s n Hc); exact Hc).
    assert (R1 : rr 1 s = exec' [LCons] s1) by reflexivity.
    destruct (Nat.eq_dec (words s1) 0) as [Hw|Hw].
    - rewrite (cons_empty s1 n C1 Hn Hw) in R1.
      set (s2 := mkS 0 (nbatch s1) (CWaiting n) (gst s1)) in *.
      assert (I2 : inv' s2) by (rewrite <- R1; apply inv_rr; assumption).
      destruct (waiting_progress s2 n I2 eq_refl) as (k & Hk & P).
      exists (1 + k). split; [lia|]. rewrite run_rr_add, R1. assumption.
    - exists 1. split; [lia|]. rewrite R1. apply cons_progress; [assumption|assumption|lia].
  Qed.

  Lemma progress s : inv' s -> 0 < need_of (cst s) ->
    exists k, k <= 3 /\ need_of (cst (rr k s)) < need_of (cst s).
  Proof.
    intros I Hn. destruct (cst s) eqn:C; cbn [need_of] in *; [lia| | |].
    - apply runnable_progress; auto.
    - destruct (waiting_progress s need I C) as (k & Hk & P). exists k. split; [lia|assumption].
    - apply runnable_progress; auto.
  Qed.

  Lemma rr_completes_inv : forall n s, inv' s -> need_of (cst s) <= n ->
    exists k, k <= 3 * n /\ cst (rr k s) = CIdle.
  Proof.
    induction n as [|n IH]; intros s I Hn.
    - exists 0. split; [lia|]. simpl. destruct I as (_ & _ & I3).
      destruct (cst s); [reflexivity| | |]; specialize (I3 ltac:(discriminate)); lia.
    - destruct (Nat.eq_dec (need_of (cst s)) 0) as [Z|NZ].
      + destruct (IH s I ltac:(lia)) as (k & Hk & E). exists k. split; [lia|assumption].
      + destruct (progress s I ltac:(lia)) as (k1 & Hk1 & P).
        destruct (IH (rr k1 s) (inv_rr k1 s I) ltac:(lia)) as (k2 & Hk2 & E).
        exists (k1 + k2). split; [lia|]. rewrite run_rr_add. assumption.
  Qed.

  (* C10_pool_get_completes: every Get(count), for every count (also larger than the pool can hold),
     returns within 3 * ceil(count/64) rounds of the round-robin schedule *)
  Theorem get_completes s : reachable lwm bsz false s ->
    exists k, k <= 3 * need_of (cst s) /\ cst (run_rr lwm bsz false k s) = CIdle.
  Proof. intro R. apply rr_completes_inv; [apply (inv_reachable lwm bsz); assumption|lia]. Qed.
End Live.
