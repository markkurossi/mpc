(* GmwProof.v — C10 for the GMW model (Gmw.v, Pool.v): the triples dealt from pairwise
   correlated OT are valid (1), the online phase outputs the plain evaluation at every
   party (2), the level schedule respects dependencies (3), TriplePool.Get does not depend
   on the arrival schedule (4).  The online proof carries, wire by wire and level by level,
   "the parties' shares xor to the plain value" ([okw]). *)
From Coq Require Import NArith List Bool Arith Lia.
From Mpc Require Import Base.ListFacts Base.Codec Circuit.Circuit Circuit.GarbleProof Circuit.ComputeIOProof Gmw.Gmw Gmw.Pool.
Import ListNotations.
Local Open Scope nat_scope.

Ltac bitwise :=
  apply N.bits_inj; let k := fresh "k" in intro k;
  repeat (rewrite ?N.lxor_spec, ?N.land_spec, ?N.bits_0);
  repeat match goal with |- context [N.testbit ?x k] => destruct (N.testbit x k) end; reflexivity.

(* Beaver's identity on words *)
Lemma beaver_word x y a b :
  N.lxor (N.lxor (N.lxor (N.land a b) (N.land (N.lxor x a) b)) (N.land (N.lxor y b) a))
         (N.land (N.lxor x a) (N.lxor y b)) = N.land x y.
Proof. bitwise. Qed.

Definition minus_p (L : list nat) (p : nat) : list nat := filter (fun q => negb (q =? p)) L.

Lemma minus_p_notin L p : ~ In p L -> minus_p L p = L.
Proof.
  induction L as [|x L IH]; intro H; simpl; [reflexivity|].
  destruct (x =? p) eqn:E; simpl.
  - apply Nat.eqb_eq in E. exfalso. apply H. left. assumption.
  - f_equal. apply IH. intro. apply H. right. assumption.
Qed.

Lemma in_minus_p L p q : In q (minus_p L p) <-> In q L /\ q <> p.
Proof. unfold minus_p. rewrite filter_In, negb_true_iff, Nat.eqb_neq. reflexivity. Qed.

(* folding a commutative monoid over a list: what xorb_all (bool, xorb) and
   xorN (N, lxor) share *)
Section Fold.
  Context {T : Type} (op : T -> T -> T) (e : T).
  Hypothesis op_assoc : forall a b c, op (op a b) c = op a (op b c).
  Hypothesis op_comm : forall a b, op a b = op b a.
  Hypothesis op_unit : forall a, op e a = a.
  Local Notation big := (fold_right op e).

  Lemma op_swap_l a b c : op a (op b c) = op b (op a c).
  Proof. rewrite <- !op_assoc, (op_comm a b). reflexivity. Qed.

  Lemma op_swap4 a b c d : op (op a b) (op c d) = op (op a c) (op b d).
  Proof. rewrite !op_assoc, (op_swap_l b). reflexivity. Qed.

  Lemma big_app l1 l2 : big (l1 ++ l2) = op (big l1) (big l2).
  Proof. induction l1 as [|x l1 IH]; simpl; [symmetry; apply op_unit|]. rewrite IH. symmetry. apply op_assoc. Qed.

  Lemma big_map2 {A} (f g : A -> T) l :
    big (map (fun x => op (f x) (g x)) l) = op (big (map f l)) (big (map g l)).
  Proof. induction l as [|x l IH]; simpl; [symmetry; apply op_unit|]. rewrite IH. apply op_swap4. Qed.

  Lemma big_remove_nth {A} (f : A -> T) (d : A) : forall l p, p < length l ->
    op (f (nth p l d)) (big (map f (remove_nth p l))) = big (map f l).
  Proof.
    induction l as [|x l IH]; intros [|p] H; simpl in *; try lia; [reflexivity|].
    rewrite <- (IH p) by lia. apply op_swap_l.
  Qed.

  Lemma big_split_at (h : nat -> T) : forall L p, NoDup L -> In p L ->
    big (map h L) = op (h p) (big (map h (minus_p L p))).
  Proof.
    induction L as [|x L IH]; intros p ND Hin; [contradiction|].
    inversion ND as [|? ? Hx ND']; subst. cbn [minus_p filter map fold_right].
    destruct (Nat.eqb_spec x p) as [->|Hne]; cbn [negb map fold_right].
    - fold (minus_p L p). rewrite minus_p_notin by assumption. reflexivity.
    - destruct Hin as [->|Hin]; [contradiction|].
      fold (minus_p L p). rewrite (IH p ND' Hin). apply op_swap_l.
  Qed.
End Fold.

Definition xorb_all (l : list bool) : bool := fold_right xorb false l.

Lemma xorb_all_app a b : xorb_all (a ++ b) = xorb (xorb_all a) (xorb_all b).
Proof. apply (big_app xorb false xorb_assoc xorb_false_l). Qed.

Lemma xorb_all_map2 {A} (f g : A -> bool) l :
  xorb_all (map (fun x => xorb (f x) (g x)) l) = xorb (xorb_all (map f l)) (xorb_all (map g l)).
Proof. apply (big_map2 xorb false xorb_assoc xorb_comm xorb_false_l). Qed.

Lemma xorb_remove_nth {A} (f : A -> bool) (d : A) l p : p < length l ->
  xorb (f (nth p l d)) (xorb_all (map f (remove_nth p l))) = xorb_all (map f l).
Proof. apply (big_remove_nth xorb false xorb_assoc xorb_comm). Qed.

Lemma xorb_split_at (h : nat -> bool) L p : NoDup L -> In p L ->
  xorb_all (map h L) = xorb (h p) (xorb_all (map h (minus_p L p))).
Proof. apply (big_split_at xorb false xorb_assoc xorb_comm). Qed.

Lemma xorN_app a b : xorN (a ++ b) = N.lxor (xorN a) (xorN b).
Proof. apply (big_app N.lxor 0%N N.lxor_assoc N.lxor_0_l). Qed.

Lemma xorN_map2 {A} (f g : A -> N) l :
  xorN (map (fun x => N.lxor (f x) (g x)) l) = N.lxor (xorN (map f l)) (xorN (map g l)).
Proof. apply (big_map2 N.lxor 0%N N.lxor_assoc N.lxor_comm N.lxor_0_l). Qed.

Lemma xorN_remove_nth {A} (f : A -> N) (d : A) l p : p < length l ->
  N.lxor (f (nth p l d)) (xorN (map f (remove_nth p l))) = xorN (map f l).
Proof. apply (big_remove_nth N.lxor 0%N N.lxor_assoc N.lxor_comm). Qed.

Lemma xorN_split_at (h : nat -> N) L p : NoDup L -> In p L ->
  xorN (map h L) = N.lxor (h p) (xorN (map h (minus_p L p))).
Proof. apply (big_split_at N.lxor 0%N N.lxor_assoc N.lxor_comm). Qed.

Lemma lxor_swap4 a b c d : N.lxor (N.lxor a b) (N.lxor c d) = N.lxor (N.lxor a c) (N.lxor b d).
Proof. apply (op_swap4 N.lxor N.lxor_assoc N.lxor_comm). Qed.

Lemma testbit_xorN l k : N.testbit (xorN l) k = xorb_all (map (fun x => N.testbit x k) l).
Proof. induction l as [|x l IH]; [destruct k; reflexivity|]. simpl. rewrite N.lxor_spec, IH. reflexivity. Qed.

Lemma fold_left_lxor l a : fold_left N.lxor l a = N.lxor a (xorN l).
Proof.
  revert a; induction l as [|x l IH]; intro a; simpl; [rewrite N.lxor_0_r; reflexivity|].
  rewrite IH, N.lxor_assoc. reflexivity.
Qed.

Lemma xorN_land_const {A} (d : N) (f : A -> N) l :
  xorN (map (fun x => N.land d (f x)) l) = N.land d (xorN (map f l)).
Proof.
  induction l as [|x l IH]; simpl; [rewrite N.land_0_r; reflexivity|]. rewrite IH.
  set (a := f x); set (c := xorN (map f l)). bitwise.
Qed.

Lemma xorN_ext_in {A} (f g : A -> N) l : (forall x, In x l -> f x = g x) -> xorN (map f l) = xorN (map g l).
Proof. intro H. f_equal. apply map_ext_in. assumption. Qed.

Lemma xorN_cons {A} (f : A -> N) x l : xorN (map f (x :: l)) = N.lxor (f x) (xorN (map f l)).
Proof. reflexivity. Qed.

Lemma xorN_land_const_r {A} (d : N) (f : A -> N) l :
  xorN (map (fun x => N.land (f x) d) l) = N.land (xorN (map f l)) d.
Proof.
  rewrite (N.land_comm _ d), <- xorN_land_const. f_equal. apply map_ext. intro. apply N.land_comm.
Qed.

(* xor over the ordered pairs (p, q) of distinct elements of L *)
Definition psum (L : list nat) (f : nat -> nat -> N) : N :=
  xorN (map (fun p => xorN (map (f p) (minus_p L p))) L).

Lemma psum_ext L f g : (forall p q, In p L -> In q L -> p <> q -> f p q = g p q) -> psum L f = psum L g.
Proof.
  intro H. apply xorN_ext_in. intros p Hp. apply xorN_ext_in. intros q Hq.
  apply in_minus_p in Hq. destruct Hq as [Hq Hne]. apply H; auto.
Qed.

Lemma psum_lxor L f g : psum L (fun p q => N.lxor (f p q) (g p q)) = N.lxor (psum L f) (psum L g).
Proof. unfold psum. rewrite <- xorN_map2. apply xorN_ext_in. intros p _. apply xorN_map2. Qed.

Lemma psum_cons x L f : ~ In x L ->
  psum (x :: L) f = N.lxor (N.lxor (xorN (map (f x) L)) (xorN (map (fun p => f p x) L))) (psum L f).
Proof.
  intro Hx. unfold psum at 1. rewrite xorN_cons.
  assert (Hhead : minus_p (x :: L) x = L).
  { unfold minus_p. cbn [filter]. rewrite Nat.eqb_refl. apply minus_p_notin. assumption. }
  assert (Htail : forall p, In p L -> minus_p (x :: L) p = x :: minus_p L p).
  { intros p Hp. unfold minus_p. cbn [filter]. destruct (Nat.eqb_spec x p) as [->|_]; [contradiction|reflexivity]. }
  rewrite Hhead, (xorN_ext_in (fun p => xorN (map (f p) (minus_p (x :: L) p)))
                              (fun p => N.lxor (f p x) (xorN (map (f p) (minus_p L p)))) L).
  - rewrite xorN_map2. symmetry. apply N.lxor_assoc.
  - intros p Hp. rewrite Htail by assumption. reflexivity.
Qed.

Lemma psum_swap L f : NoDup L -> psum L f = psum L (fun p q => f q p).
Proof.
  induction 1 as [|x L Hx ND IH]; [reflexivity|].
  rewrite !psum_cons, IH by assumption. f_equal. apply N.lxor_comm.
Qed.

Lemma psum_diag L f : NoDup L ->
  N.lxor (xorN (map (fun p => f p p) L)) (psum L f) = xorN (map (fun p => xorN (map (f p) L)) L).
Proof.
  intro ND. unfold psum. rewrite <- xorN_map2. apply xorN_ext_in. intros p Hp.
  symmetry. apply (xorN_split_at (f p)); assumption.
Qed.

Section TriplesValid.
  Variable words : nat.
  Variable a b : nat -> list N.
  Variable sb : nat -> nat -> list N.
  Variable dl : nat -> nat -> bool.
  Variable rb : nat -> nat -> list N.

  Lemma cross_fold p w : forall l c,
    fold_left (cross a b sb dl rb p w) l c =
    N.lxor c (xorN (map (fun q => N.lxor (term_send a b sb dl p q w) (term_recv rb p q w)) l)).
  Proof.
    induction l as [|q l IH]; intro c; simpl; [rewrite N.lxor_0_r; reflexivity|].
    rewrite IH. unfold cross. destruct (p <? q);
    set (s := term_send a b sb dl p q w); set (r := term_recv rb p q w); set (X := xorN _); bitwise.
  Qed.

  (* over an arbitrary duplicate-free list of party ids: every party's c is
     a_p & b_p plus, for every other q, what it adds as sender towards q and
     as receiver from q; regrouped by ordered pair (sender, receiver) the COT
     relation turns the two contributions of a pair into a_p & b_q *)
  Lemma triples_valid_list (L : list nat) (w : nat) :
    NoDup L ->
    (forall p q, In p L -> In q L -> p <> q ->
       nth w (rb p q) 0%N = N.lxor (nth w (sb p q) 0%N) (N.land (nth w (b q) 0%N) (dmask (dl p q)))) ->
    xorN (map (fun p => fold_left (cross a b sb dl rb p w) (minus_p L p)
                                  (N.land (nth w (a p) 0%N) (nth w (b p) 0%N))) L)
    = N.land (xorN (map (fun p => nth w (a p) 0%N) L)) (xorN (map (fun p => nth w (b p) 0%N) L)).
  Proof.
    intros ND COT.
    set (av := fun p => nth w (a p) 0%N). set (bv := fun p => nth w (b p) 0%N).
    transitivity (N.lxor (xorN (map (fun p => N.land (av p) (bv p)) L))
                         (psum L (fun p q => N.lxor (term_send a b sb dl p q w) (nth w (rb q p) 0%N)))).
    { unfold psum. rewrite <- xorN_map2. apply xorN_ext_in. intros p _. apply cross_fold. }
    rewrite psum_lxor, (psum_swap L (fun p q => nth w (rb q p) 0%N) ND), <- psum_lxor.
    rewrite (psum_ext L _ (fun p q => N.land (av p) (bv q))).
    2:{ intros p q Hp Hq Hne. rewrite COT by assumption. unfold term_send, u_word. fold (av p). fold (bv q).
        set (s := nth w (sb p q) 0%N). set (m := dmask (dl p q)). set (x := av p). set (y := bv q). bitwise. }
    rewrite (psum_diag L (fun p q => N.land (av p) (bv q)) ND).
    rewrite (xorN_ext_in _ (fun p => N.land (av p) (xorN (map bv L))) L) by (intros; apply xorN_land_const).
    apply xorN_land_const_r.
  Qed.
End TriplesValid.

Lemma others_minus n p : others n p = minus_p (seq 0 n) p.
Proof. reflexivity. Qed.

(* C10 (1): the triples dealt by tripleBatch are valid, for any number of parties *)
Theorem triples_valid n words a b sb dl rb :
  cot_relation n words b sb dl rb ->
  forall w, w < words ->
    xorN (map (fun p => tC (nth w (triple_batch n words a b sb dl rb p) t0)) (seq 0 n))
    = N.land (xorN (map (fun p => tA (nth w (triple_batch n words a b sb dl rb p) t0)) (seq 0 n)))
             (xorN (map (fun p => tB (nth w (triple_batch n words a b sb dl rb p) t0)) (seq 0 n))).
Proof.
  intros COT w Hw. unfold triple_batch.
  rewrite !(xorN_ext_in (fun p => _ (nth w (map _ (seq 0 words)) t0)) _ (seq 0 n))
    by (intros p _; rewrite nth_map_seq by assumption; reflexivity).
  cbn [tA tB tC]. unfold c_word.
  rewrite (xorN_ext_in _ (fun p => fold_left (cross a b sb dl rb p w) (minus_p (seq 0 n) p)
                                  (N.land (nth w (a p) 0%N) (nth w (b p) 0%N))) (seq 0 n))
    by (intros; reflexivity).
  apply triples_valid_list; [apply seq_NoDup|].
  intros p q Hp Hq Hne. apply in_seq in Hp, Hq. apply COT; lia.
Qed.

Ltac div64 a :=
  let q := fresh "q" in let r := fresh "r" in
  pose proof (Nat.div_mod a 64 ltac:(lia)); pose proof (Nat.mod_upper_bound a 64 ltac:(lia));
  set (q := a / 64) in *; set (r := a mod 64) in *; clearbody q r.
Ltac divlia := unfold words_for in *;
  repeat match goal with
         | |- context [?a / 64] => div64 a
         | H : context [?a / 64] |- _ => div64 a
         end; lia.

Lemma words_for_64 k : words_for (64 * k) = k.
Proof. divlia. Qed.

Lemma words_for_0 : words_for 0 = 0.
Proof. reflexivity. Qed.

Lemma words_for_pos n : 0 < n -> 0 < words_for n.
Proof. intro; divlia. Qed.

Lemma words_for_le n : words_for n <= n.
Proof. divlia. Qed.

Lemma words_for_sub n k : words_for (n - 64 * k) = words_for n - k.
Proof. divlia. Qed.

Lemma append_batch pool b : fst (fst (triples_append pool b (64 * length b))) = pool ++ b.
Proof.
  unfold triples_append. rewrite words_for_64, Nat.min_id. simpl. rewrite firstn_all. reflexivity.
Qed.

Lemma arrive_stream : forall k pool pend,
  stream (fst (arrive k pool pend)) (snd (arrive k pool pend)) = stream pool pend.
Proof.
  induction k as [|k IH]; intros pool pend; [reflexivity|].
  destruct pend as [|b rest]; [reflexivity|].
  change (arrive (S k) pool (b :: rest)) with (arrive k (fst (fst (triples_append pool b (64 * length b)))) rest).
  rewrite IH, append_batch.
  unfold stream. simpl. rewrite app_assoc. reflexivity.
Qed.

Lemma wait_stream : forall pend pool,
  stream pool pend <> [] ->
  exists pool' pend', wait_nonempty pool pend = Some (pool', pend') /\
                      stream pool' pend' = stream pool pend /\ pool' <> [].
Proof.
  induction pend as [|b rest IH]; intros pool H.
  - destruct pool as [|t pool]; [exfalso; apply H; reflexivity|].
    exists (t :: pool), []. simpl. repeat split. discriminate.
  - destruct pool as [|t pool].
    + change (wait_nonempty [] (b :: rest)) with (wait_nonempty (fst (fst (triples_append [] b (64 * length b)))) rest).
      rewrite append_batch. simpl app.
      destruct (IH b) as (pool' & pend' & E & S & NE).
      { unfold stream in *. simpl in H. exact H. }
      exists pool', pend'. repeat split; try assumption.
    + exists (t :: pool), (b :: rest). simpl. repeat split. discriminate.
Qed.

Lemma firstn_app_le {A} k (u v : list A) : k <= length u -> firstn k (u ++ v) = firstn k u.
Proof. intro H. rewrite firstn_app. replace (k - length u) with 0 by lia. apply app_nil_r. Qed.

Lemma skipn_app_le {A} k (u v : list A) : k <= length u -> skipn k (u ++ v) = skipn k u ++ v.
Proof. intro H. rewrite skipn_app. replace (k - length u) with 0 by lia. reflexivity. Qed.

Lemma pool_get_loop_ok : forall fuel count ofs dst pool pend sched,
  words_for (count - ofs) <= fuel ->
  words_for (count - ofs) <= length (stream pool pend) ->
  exists pool' pend' sched',
    pool_get_loop fuel count ofs dst pool pend sched
    = Some (dst ++ firstn (words_for (count - ofs)) (stream pool pend), pool', pend', sched') /\
    stream pool' pend' = skipn (words_for (count - ofs)) (stream pool pend).
Proof.
  induction fuel as [|f IH]; intros count ofs dst pool pend sched Hf Hs; cbn [pool_get_loop];
    destruct (Nat.leb_spec count ofs) as [Hle|Hlt].
  1, 3: replace (count - ofs) with 0 by lia; rewrite words_for_0, app_nil_r;
        exists pool, pend, sched; split; reflexivity.
  - pose proof (words_for_pos (count - ofs)). lia.
  - set (need := count - ofs) in *.
    assert (Hpos : 0 < words_for need) by (apply words_for_pos; unfold need; lia).
    pose proof (arrive_stream (hd 0 sched) pool pend) as HA.
    destruct (arrive (hd 0 sched) pool pend) as [pool1 pend1]. cbn [fst snd] in HA.
    destruct (wait_stream pend1 pool1) as (pool2 & pend2 & EW & SW & NE).
    { rewrite HA. intro E. rewrite E in Hs. simpl in Hs. lia. }
    rewrite EW. unfold triples_append.
    (* this iteration moves the first k words of the stream *)
    set (k := Nat.min (words_for need) (length pool2)).
    assert (Hk : 1 <= k <= length pool2 /\ k <= words_for need).
    { unfold k. destruct pool2; [contradiction|]. simpl length. lia. }
    assert (Hst : stream pool pend = pool2 ++ concat pend2) by (rewrite <- HA, <- SW; reflexivity).
    assert (Hfk : firstn k pool2 = firstn k (stream pool pend)) by (rewrite Hst, firstn_app_le by lia; reflexivity).
    assert (Hsk : stream (skipn k pool2) pend2 = skipn k (stream pool pend))
      by (rewrite Hst, skipn_app_le by lia; reflexivity).
    assert (Hrest : words_for (count - (ofs + k * 64)) = words_for need - k).
    { replace (count - (ofs + k * 64)) with (need - 64 * k) by (unfold need; lia). apply words_for_sub. }
    assert (Hcut : words_for need = k + (words_for need - k)) by lia.
    destruct (IH count (ofs + k * 64) (dst ++ firstn k pool2) (skipn k pool2) pend2 (tl sched))
      as (pool' & pend' & sched' & E & S).
    { rewrite Hrest. lia. }
    { rewrite Hrest, Hsk, skipn_length. lia. }
    exists pool', pend', sched'.
    rewrite E, S, Hrest, Hfk, Hsk, <- app_assoc, <- firstn_add, <- skipn_add, <- Hcut. split; reflexivity.
Qed.

(* Get(count) returns the next ceil(count/64) words of the stream whatever
   the arrival schedule and the batch boundaries are *)
Lemma pool_get_ok count pool pend sched :
  words_for count <= length (stream pool pend) ->
  exists pool' pend' sched',
    pool_get count [] pool pend sched
    = Some (firstn (words_for count) (stream pool pend), pool', pend', sched') /\
    stream pool' pend' = skipn (words_for count) (stream pool pend).
Proof.
  intro H. unfold pool_get.
  destruct (pool_get_loop_ok count count 0 [] pool pend sched) as (pool' & pend' & sched' & E & S).
  - rewrite Nat.sub_0_r. apply words_for_le.
  - rewrite Nat.sub_0_r. assumption.
  - rewrite Nat.sub_0_r in *. exists pool', pend', sched'. split; assumption.
Qed.

Definition total_words (counts : list nat) : nat := fold_right (fun k acc => words_for k + acc) 0 counts.

(* C10 (4): a sequence of Gets cuts the stream into consecutive ranges that depend
   on the counts only *)
Theorem pool_same_order : forall counts pool pend sched,
  total_words counts <= length (stream pool pend) ->
  get_all counts pool pend sched = Some (chunks (map words_for counts) (stream pool pend)).
Proof.
  induction counts as [|k rest IH]; intros pool pend sched H; [reflexivity|].
  simpl in H. simpl get_all.
  destruct (pool_get_ok k pool pend sched) as (pool' & pend' & sched' & E & S); [lia|].
  rewrite E. rewrite (IH pool' pend' sched').
  - simpl. rewrite S. reflexivity.
  - rewrite S, skipn_length. lia.
Qed.

(* wire u is available to a gate of level L that comes after the gates [pre]:
   it is a circuit input, or the output of an earlier gate g' whose level L'
   satisfies L' + 1 <= L when g' is an AND gate (its output is opened one
   round later) and L' <= L otherwise *)
Definition dep_ok (ni : nat) (pre : list (gate * nat)) (L u : nat) : Prop :=
  u < ni \/ exists g' L', In (g', L') pre /\ gout g' = u /\ (if is_and g' then S L' else L') <= L.

Definition gate_deps_ok (ni : nat) (pre : list (gate * nat)) (g : gate) (L : nat) : Prop :=
  dep_ok ni pre L (gin0 g) /\ (gop g <> INV -> dep_ok ni pre L (gin1 g)).

Definition levelled (ni : nat) (gl : list (gate * nat)) : Prop :=
  forall pre g L post, gl = pre ++ (g, L) :: post -> gate_deps_ok ni pre g L.

Definition lv_inv (ni : nat) (asg : list bool) (levels : list nat) (pre : list (gate * nat)) : Prop :=
  forall u, nth u asg false = true ->
    u < ni \/ exists g' L', In (g', L') pre /\ gout g' = u /\
                            (if is_and g' then S L' else L') = nth u levels 0.

Lemma assign_levels_loop_sound n ni : forall gs asg levels mx pre ls mx' fl,
  wf_gates n ni asg gs = true -> length asg = n -> length levels = n ->
  lv_inv ni asg levels pre ->
  assign_levels_loop gs levels mx = (ls, mx', fl) ->
  length ls = length gs /\ mx <= mx' /\
  (forall pre2 g L post, combine gs ls = pre2 ++ (g, L) :: post -> gate_deps_ok ni (pre ++ pre2) g L) /\
  (forall g L, In (g, L) (combine gs ls) -> L <= mx').
Proof.
  induction gs as [|g t IH]; intros asg levels mx pre ls mx' fl WF La Ll INV E.
  - simpl in E. inversion E; subst. split; [reflexivity|]. split; [lia|]. split.
    + intros pre2 g L post H. simpl in H. destruct pre2; discriminate.
    + intros g L [].
  - simpl in WF. apply andb_prop in WF. destruct WF as [GO WF].
    apply gate_ok_spec in GO as ((H0 & Ho & Hni) & A0 & H1).
    simpl in E.
    set (l0 := nth (gin0 g) levels 0) in *.
    set (level := match gop g with INV => l0 | _ => Nat.max l0 (nth (gin1 g) levels 0) end) in *.
    set (out := if is_and g then S level else level) in *.
    destruct (assign_levels_loop t (upd levels (gout g) out) (Nat.max mx out)) as [[ls1 mx1] fl1] eqn:E1.
    inversion E; subst ls mx' fl. clear E.
    assert (INV' : lv_inv ni (upd asg (gout g) true) (upd levels (gout g) out) (pre ++ [(g, level)])).
    { intros u Hu. destruct (Nat.eq_dec u (gout g)) as [->|Hne].
      - right. exists g, level. split; [apply in_or_app; right; left; reflexivity|].
        split; [reflexivity|]. rewrite nth_upd_eq by lia. reflexivity.
      - rewrite nth_upd_neq in Hu by congruence. destruct (INV u Hu) as [?|(g' & L' & I & O & Q)]; [left; assumption|].
        right. exists g', L'. split; [apply in_or_app; left; assumption|]. split; [assumption|].
        rewrite nth_upd_neq by congruence. assumption. }
    assert (La' : length (upd asg (gout g) true) = n) by (rewrite upd_length; assumption).
    assert (Ll' : length (upd levels (gout g) out) = n) by (rewrite upd_length; assumption).
    destruct (IH _ _ _ _ _ _ _ WF La' Ll' INV' E1) as (Hlen & Hmx & Hdeps & Hbound).
    assert (Hl0 : l0 <= level) by (unfold level; destruct (gop g); lia).
    assert (Hlo : level <= out) by (unfold out; destruct (is_and g); lia).
    split; [|split; [|split]].
    + simpl. lia.
    + lia.
    + intros pre2 g2 L post H. simpl in H. destruct pre2 as [|x pre2].
      * simpl in H. inversion H; subst g2 L post. rewrite app_nil_r.
        split.
        -- destruct (INV _ A0) as [?|(g' & L' & I & O & Q)]; [left; assumption|].
           right. exists g', L'. repeat split; try assumption. fold l0 in Q. lia.
        -- intro Hop. destruct H1 as [?|[_ A1]]; [congruence|].
           destruct (INV _ A1) as [?|(g' & L' & I & O & Q)]; [left; assumption|].
           right. exists g', L'. repeat split; try assumption.
           assert (nth (gin1 g) levels 0 <= level) by (unfold level; destruct (gop g); try lia; congruence).
           lia.
      * simpl in H. inversion H; subst x. 
        replace (pre ++ (g, level) :: pre2) with ((pre ++ [(g, level)]) ++ pre2) by (rewrite <- app_assoc; reflexivity).
        eapply Hdeps. eassumption.
    + intros g2 L [H|H].
      * inversion H; subst. lia.
      * eapply Hbound. eassumption.
Qed.

(* C10 (3): AssignLevels(TargetGMW) *)
Theorem levels_sound c : wf c = true ->
  let gl := combine (gates c) (gate_levels c) in
  length (gate_levels c) = length (gates c) /\
  levelled (ninputs c) gl /\
  (forall g L, In (g, L) gl -> L <= num_levels c).
Proof.
  intro WF. apply wf_spec in WF as (Hni & Hno & WG & _).
  unfold gate_levels, num_levels, assign_levels.
  destruct (assign_levels_loop (gates c) (repeat 0 (nwires c)) 0) as [[ls mx] fl] eqn:E. simpl.
  destruct (assign_levels_loop_sound (nwires c) (ninputs c) (gates c) (init_asg c) (repeat 0 (nwires c)) 0 [] ls mx fl)
    as (Hlen & _ & Hdeps & Hbound); try assumption.
  - apply init_asg_length; assumption.
  - apply repeat_length.
  - intros u Hu. left. exact (nth_init_asg_true _ _ _ Hu).
  - split; [assumption|]. split; [|assumption].
    intros pre g L post H. apply (Hdeps pre g L post H).
Qed.

Lemma plain_fix n ni : forall gs asg v,
  wf_gates n ni asg gs = true -> ssa_gates asg gs = true -> length asg = n -> length v = n ->
  let v' := fold_left eval_gate gs v in
  (forall w, nth w asg false = true -> nth w v' false = nth w v false) /\
  (forall g, In g gs ->
     nth (gout g) v' false = gate_fn (gop g) (nth (gin0 g) v' false) (nth (gin1 g) v' false)).
Proof.
  induction gs as [|g t IH]; intros asg v WF SSA La Lv; simpl.
  - split; [reflexivity|intros g []].
  - simpl in WF, SSA. apply andb_prop in WF. destruct WF as [GO WF].
    apply andb_prop in SSA. destruct SSA as [NA SSA]. apply negb_true_iff in NA.
    apply gate_ok_spec in GO as ((H0 & Ho & Hni) & A0 & H1).
    assert (La' : length (upd asg (gout g) true) = n) by (rewrite upd_length; assumption).
    assert (Lv' : length (eval_gate v g) = n) by (rewrite eval_gate_length; assumption).
    destruct (IH (upd asg (gout g) true) (eval_gate v g) WF SSA La' Lv') as [KEEP EQS].
    assert (KEEP0 : forall w, nth w asg false = true ->
              nth w (fold_left eval_gate t (eval_gate v g)) false = nth w v false).
    { intros w Hw. assert (w <> gout g) by (intro; subst; congruence).
      rewrite KEEP by (rewrite nth_upd_neq by congruence; assumption).
      unfold eval_gate. rewrite nth_upd_neq by congruence. reflexivity. }
    split; [exact KEEP0|].
    intros g' [<-|Hin]; [|apply EQS; assumption].
    rewrite KEEP by (rewrite nth_upd_eq by lia; reflexivity).
    unfold eval_gate at 1. rewrite nth_upd_eq by lia.
    rewrite (KEEP0 _ A0).
    destruct (gop g) eqn:Eop; try (destruct H1 as [?|[_ A1]]; [congruence|]; rewrite (KEEP0 _ A1); reflexivity).
    reflexivity.
Qed.

Lemma init_wires_length c x : ninputs c <= nwires c -> length x = ninputs c -> length (init_wires c x) = nwires c.
Proof. intros. unfold init_wires. rewrite app_length, firstn_length, repeat_length. lia. Qed.

Lemma plain_eqs c x : wf c = true -> ssa c = true -> length x = ninputs c ->
  let v := eval_plain_wires c x in
  (forall w, w < ninputs c -> nth w v false = nth w x false) /\
  (forall g, In g (gates c) ->
     nth (gout g) v false = gate_fn (gop g) (nth (gin0 g) v false) (nth (gin1 g) v false)).
Proof.
  intros WF SSA Lx. apply wf_spec in WF as (Hni & Hno & WG & _).
  destruct (plain_fix (nwires c) (ninputs c) (gates c) (init_asg c) (init_wires c x) WG SSA
              (init_asg_length c Hni) (init_wires_length c x Hni Lx)) as [KEEP EQS].
  split; [|exact EQS].
  intros w Hw. unfold eval_plain_wires. rewrite KEEP.
  - unfold init_wires. rewrite app_nth1 by (rewrite firstn_length; lia).
    rewrite <- (firstn_skipn (ninputs c) x) at 2. rewrite app_nth1 by (rewrite firstn_length; lia). reflexivity.
  - unfold init_asg. rewrite app_nth1 by (rewrite repeat_length; lia).
    rewrite (nth_indep _ false true) by (rewrite repeat_length; lia). apply nth_repeat.
Qed.

Lemma mapi_from_length {A B} (f : nat -> A -> B) : forall l k, length (mapi_from k f l) = length l.
Proof. induction l; intro k; simpl; [reflexivity|]. rewrite IHl. reflexivity. Qed.

Lemma mapi_from_ext {A B} (f g : nat -> A -> B) : forall l k,
  (forall i x, k <= i < k + length l -> f i x = g i x) -> mapi_from k f l = mapi_from k g l.
Proof.
  induction l as [|x l IH]; intros k H; simpl; [reflexivity|]. f_equal.
  - apply H. simpl. lia.
  - apply IH. intros i y Hi. apply H. simpl. lia.
Qed.

Lemma mapi_from_noidx {A B} (f : A -> B) : forall l k, mapi_from k (fun _ x => f x) l = map f l.
Proof. induction l; intro k; simpl; [reflexivity|]. rewrite IHl. reflexivity. Qed.

Lemma mapi_is0 {A B} (F : bool -> A -> B) x0 l :
  mapi (fun p x => F (p =? 0) x) (x0 :: l) = F true x0 :: map (F false) l.
Proof.
  unfold mapi. simpl. f_equal. rewrite <- (mapi_from_noidx (F false) l 1).
  apply mapi_from_ext. intros i x Hi. destruct i; [lia|reflexivity].
Qed.

Lemma map_mapi_from {A B C} (g : B -> C) (f : nat -> A -> B) : forall l k,
  map g (mapi_from k f l) = mapi_from k (fun i x => g (f i x)) l.
Proof. induction l; intro k; simpl; [reflexivity|]. rewrite IHl. reflexivity. Qed.

Lemma mapi_from_map {A B C} (f : nat -> B -> C) (g : A -> B) : forall l k,
  mapi_from k f (map g l) = mapi_from k (fun i x => f i (g x)) l.
Proof. induction l; intro k; simpl; [reflexivity|]. rewrite IHl. reflexivity. Qed.

Lemma mapi_from_seq {A B} (f : nat -> B) : forall (l : list A) k,
  mapi_from k (fun i _ => f i) l = map f (seq k (length l)).
Proof. induction l; intro k; simpl; [reflexivity|]. rewrite IHl. reflexivity. Qed.

Lemma nth_mapi_from {A B} (f : nat -> A -> B) d d' : forall l k p, p < length l ->
  nth p (mapi_from k f l) d' = f (k + p) (nth p l d).
Proof.
  induction l as [|x l IH]; intros k [|p] H; simpl in *; try lia.
  - f_equal. lia.
  - rewrite IH by lia. f_equal. lia.
Qed.

Lemma map_combine_map {A B C} (f : A * B -> C) (g : A -> B) l :
  map f (combine l (map g l)) = map (fun x => f (x, g x)) l.
Proof. induction l; simpl; [reflexivity|]. rewrite IHl. reflexivity. Qed.

Lemma testbit_bits_to_N : forall bs j, N.testbit (bits_to_N bs) (N.of_nat j) = nth j bs false.
Proof.
  induction bs as [|b bs IH]; intro j.
  - destruct j; [reflexivity|]. simpl. destruct j; reflexivity.
  - cbn [bits_to_N]. destruct j as [|j].
    + simpl N.of_nat. rewrite N.add_comm. 
      destruct b.
      * rewrite N.testbit_odd_0. reflexivity.
      * rewrite N.add_0_r. rewrite N.testbit_even_0. reflexivity.
    + rewrite Nat2N.inj_succ. destruct b.
      * rewrite N.add_comm. rewrite N.testbit_odd_succ by apply N.le_0_l. apply IH.
      * rewrite N.add_0_l. rewrite N.testbit_even_succ by apply N.le_0_l. apply IH.
Qed.

Lemma pack_length : forall words bs, length (pack bs words) = words.
Proof. induction words as [|k IH]; intro bs; simpl; [reflexivity|]. rewrite IH. reflexivity. Qed.

Lemma pack_nth : forall words bs w, w < words ->
  nth w (pack bs words) 0%N = bits_to_N (firstn 64 (skipn (64 * w) bs)).
Proof.
  induction words as [|k IH]; intros bs w H; [lia|].
  destruct w as [|w]; cbn [pack nth]; [rewrite Nat.mul_0_r; reflexivity|].
  rewrite IH by lia. rewrite skipn_skipn. do 3 f_equal. lia.
Qed.

Lemma bit_pack words bs i : i < 64 * words -> bit (pack bs words) i = nth i bs false.
Proof.
  intro H. pose proof (Nat.div_mod i 64 ltac:(lia)). pose proof (Nat.mod_upper_bound i 64 ltac:(lia)).
  unfold bit. rewrite pack_nth by (apply Nat.div_lt_upper_bound; lia).
  rewrite testbit_bits_to_N, nth_firstn_lt, nth_skipn by assumption. f_equal. lia.
Qed.

(* the wire-share matrix: one row per party, party 0 first *)
Definition xor_col (m : list (list bool)) (w : nat) : bool :=
  xorb_all (map (fun ws => nth w ws false) m).

Definition rows_len (nw : nat) (m : list (list bool)) : Prop := forall ws, In ws m -> length ws = nw.

Lemma xor_col_map {R} (f : R -> list bool) rows w :
  xor_col (map f rows) w = xorb_all (map (fun r => nth w (f r) false) rows).
Proof. unfold xor_col. rewrite map_map. reflexivity. Qed.

Lemma xor_col_upd {R} (f : R -> list bool) (val : R -> bool) rows o w :
  (forall r, In r rows -> o < length (f r)) ->
  xor_col (map (fun r => upd (f r) o (val r)) rows) w =
  if w =? o then xorb_all (map val rows) else xor_col (map f rows) w.
Proof.
  intro H. rewrite !xor_col_map.
  destruct (Nat.eqb_spec w o) as [->|Hne]; f_equal; apply map_ext_in; intros r Hr.
  - apply nth_upd_eq, H, Hr.
  - apply nth_upd_neq. congruence.
Qed.

Definition lval (is0 : bool) (ws : list bool) (g : gate) : bool :=
  let a := nth (gin0 g) ws false in
  let b := nth (gin1 g) ws false in
  match gop g with
  | XOR => xorb a b
  | XNOR => if is0 then negb (xorb a b) else xorb a b
  | INV => if is0 then negb a else a
  | _ => false
  end.

Definition is_local (g : gate) : bool := match gop g with XOR | XNOR | INV => true | _ => false end.

Lemma local_gate_upd is0 ws g : is_local g = true -> local_gate is0 ws g = upd ws (gout g) (lval is0 ws g).
Proof. unfold local_gate, lval, is_local. destruct (gop g); try discriminate; reflexivity. Qed.

Lemma local_gate_length is0 ws g : length (local_gate is0 ws g) = length ws.
Proof. unfold local_gate. destruct (gop g); rewrite ?upd_length; reflexivity. Qed.

Definition mstep (g : gate) (m : list (list bool)) : list (list bool) :=
  match m with
  | [] => []
  | h :: t => local_gate true h g :: map (fun ws => local_gate false ws g) t
  end.

Lemma mstep_rows nw g m : rows_len nw m -> rows_len nw (mstep g m).
Proof.
  intros H ws Hin. destruct m as [|h t]; [contradiction|]. simpl in Hin. destruct Hin as [<-|Hin].
  - rewrite local_gate_length. apply H. left. reflexivity.
  - apply in_map_iff in Hin. destruct Hin as (ws0 & <- & Hin). rewrite local_gate_length. apply H. right. assumption.
Qed.

Lemma xorb_all_negb_head a l : xorb (negb a) l = negb (xorb a l).
Proof. destruct a, l; reflexivity. Qed.

(* the constants of XNOR and INV are folded in by party 0 only, so the column
   of the output wire is the gate function of the operand columns *)
Lemma mstep_col nw g h t w : rows_len nw (h :: t) -> is_local g = true -> gout g < nw ->
  xor_col (mstep g (h :: t)) w =
  if w =? gout g then gate_fn (gop g) (xor_col (h :: t) (gin0 g)) (xor_col (h :: t) (gin1 g))
  else xor_col (h :: t) w.
Proof.
  intros RL Hl Ho. cbn [mstep]. rewrite local_gate_upd by assumption.
  rewrite (map_ext _ (fun ws => upd ws (gout g) (lval false ws g))) by (intro; apply local_gate_upd; assumption).
  change (xor_col (?a :: ?m) ?u) with (xorb (nth u a false) (xor_col m u)).
  rewrite (xor_col_upd (fun ws => ws) (fun ws => lval false ws g)), map_id
    by (intros ws Hin; rewrite (RL ws) by (right; assumption); assumption).
  destruct (Nat.eqb_spec w (gout g)) as [->|Hne]; [|rewrite nth_upd_neq by congruence; reflexivity].
  rewrite nth_upd_eq by (rewrite (RL h) by (left; reflexivity); assumption).
  unfold lval, is_local, xor_col in *.
  destruct (gop g); try discriminate; cbn [gate_fn]; rewrite ?xorb_all_map2;
    repeat match goal with |- context [nth ?i h false] => destruct (nth i h false) end;
    repeat match goal with |- context [xorb_all ?l] => destruct (xorb_all l) end; reflexivity.
Qed.

Lemma mstep_fold : forall gs h t,
  fold_left (fun m g => mstep g m) gs (h :: t) =
  fold_left (local_gate true) gs h :: map (fun ws => fold_left (local_gate false) gs ws) t.
Proof.
  induction gs as [|g gs IH]; intros h t; simpl.
  - rewrite map_id. reflexivity.
  - rewrite IH. f_equal. rewrite map_map. reflexivity.
Qed.

(* writing a batch of opened AND results: rows are (z vector, wires) *)
Definition wr_all (jgs : list (nat * gate)) (r : list N * list bool) : list bool :=
  fold_left (fun ws jg => upd ws (gout (snd jg)) (bit (fst r) (fst jg))) jgs (snd r).

Lemma wr_all_cons j g jgs r :
  wr_all ((j, g) :: jgs) r = wr_all jgs (fst r, upd (snd r) (gout g) (bit (fst r) j)).
Proof. reflexivity. Qed.

Lemma wr_all_length jgs : forall r, length (wr_all jgs r) = length (snd r).
Proof.
  induction jgs as [|[j g] jgs IH]; intro r; [reflexivity|].
  rewrite wr_all_cons, IH. apply upd_length.
Qed.

Section Cols.
  Variable v : list bool.
  Variable nw : nat.

  Definition okw (m : list (list bool)) (w : nat) : Prop := xor_col m w = nth w v false.

  Lemma wr_all_ok : forall jgs rows,
    (forall r, In r rows -> length (snd r) = nw) ->
    (forall j g, In (j, g) jgs -> gout g < nw /\
        xorb_all (map (fun r => bit (fst r) j) rows) = nth (gout g) v false) ->
    forall w, (okw (map snd rows) w \/ exists j g, In (j, g) jgs /\ gout g = w) ->
      okw (map (wr_all jgs) rows) w.
  Proof.
    induction jgs as [|[j g] jgs IH]; intros rows RL HZ w Hw.
    - destruct Hw as [Hw|(j & g & [] & _)]. exact Hw.
    - set (rows' := map (fun r => (fst r, upd (snd r) (gout g) (bit (fst r) j))) rows).
      assert (E : map (wr_all ((j, g) :: jgs)) rows = map (wr_all jgs) rows').
      { unfold rows'. rewrite map_map. apply map_ext. intro r. apply wr_all_cons. }
      destruct (HZ j g (or_introl eq_refl)) as [Ho Hz].
      assert (Hcol : forall u, xor_col (map snd rows') u =
                if u =? gout g then nth (gout g) v false else xor_col (map snd rows) u).
      { intro u. unfold rows'. rewrite map_map. cbn [snd]. rewrite <- Hz.
        apply xor_col_upd. intros r Hin. rewrite RL; assumption. }
      rewrite E. apply IH.
      + intros r Hin. unfold rows' in Hin. apply in_map_iff in Hin. destruct Hin as (r0 & <- & Hin).
        cbn [snd]. rewrite upd_length. apply RL. assumption.
      + intros j' g' Hin. destruct (HZ j' g' (or_intror Hin)) as [Ho' Hz']. split; [assumption|].
        rewrite <- Hz'. unfold rows'. rewrite map_map. reflexivity.
      + unfold okw. rewrite Hcol. destruct (Nat.eqb_spec w (gout g)) as [->|Hne]; [left; reflexivity|].
        destruct Hw as [Hw|(j' & g' & [Hin|Hin] & Hg)].
        * left. assumption.
        * inversion Hin; subst. contradiction.
        * right. exists j', g'. split; assumption.
  Qed.
End Cols.

Lemma xorN_and_local_tail d e (ts : list triple) :
  xorN (map (fun t => and_local false t d e) ts) =
  N.lxor (N.lxor (xorN (map tC ts)) (N.land d (xorN (map tB ts)))) (N.land e (xorN (map tA ts))).
Proof.
  unfold and_local.
  rewrite (xorN_map2 (fun t => N.lxor (tC t) (N.land d (tB t))) (fun t => N.land e (tA t))),
          (xorN_map2 tC (fun t => N.land d (tB t))), !xorN_land_const.
  reflexivity.
Qed.

Lemma xorN_and_local d e t (ts : list triple) :
  N.lxor (and_local true t d e) (xorN (map (fun t => and_local false t d e) ts)) =
  N.lxor (N.lxor (N.lxor (xorN (map tC (t :: ts))) (N.land d (xorN (map tB (t :: ts)))))
                 (N.land e (xorN (map tA (t :: ts))))) (N.land d e).
Proof.
  rewrite <- (xorN_and_local_tail d e (t :: ts)), xorN_cons.
  change (and_local true t d e) with (N.lxor (and_local false t d e) (N.land d e)).
  rewrite !N.lxor_assoc. f_equal. apply N.lxor_comm.
Qed.

Lemma beaver_open t ts d e x y :
  triple_valid (t :: ts) = true ->
  d = N.lxor x (xorN (map tA (t :: ts))) -> e = N.lxor y (xorN (map tB (t :: ts))) ->
  N.lxor (and_local true t d e) (xorN (map (fun t => and_local false t d e) ts)) = N.land x y.
Proof. intros HV -> ->. apply N.eqb_eq in HV. rewrite xorN_and_local, HV. apply beaver_word. Qed.

Lemma bxor_eq self all words : self < length all ->
  bxor self all words = map (fun w => xorN (map (fun v => nth w v 0%N) all)) (seq 0 words).
Proof.
  intro H. unfold bxor. apply map_ext. intro w.
  rewrite fold_left_lxor. apply (xorN_remove_nth (fun v => nth w v 0%N) []). assumption.
Qed.

(* every party obtains the same opened vector *)
Lemma bxor_open self all words w : self < length all -> w < words ->
  nth w (bxor self all words) 0%N = xorN (map (fun v => nth w v 0%N) all).
Proof.
  intros Hs Hw. rewrite bxor_eq by assumption.
  apply (nth_map_seq (fun w => xorN (map (fun v => nth w v 0%N) all))). assumption.
Qed.

Lemma in_combine_seq {A} (l : list A) d : forall k j g,
  In (j, g) (combine (seq k (length l)) l) -> k <= j < k + length l /\ nth (j - k) l d = g.
Proof.
  induction l as [|x l IH]; intros k j g H; simpl in H; [contradiction|].
  destruct H as [H|H].
  - inversion H; subst. split; [simpl; lia|]. rewrite Nat.sub_diag. reflexivity.
  - destruct (IH (S k) j g H) as [Hb Hn]. split; [simpl; lia|].
    replace (j - k) with (S (j - S k)) by lia. simpl. assumption.
Qed.

Lemma in_combine_seq_nth {A} (l : list A) d : forall s j, j < length l ->
  In (s + j, nth j l d) (combine (seq s (length l)) l).
Proof.
  induction l as [|x l IH]; intros s j Hj; simpl in *; [lia|].
  destruct j as [|j]; [left; f_equal; lia|]. right. replace (s + S j) with (S s + j) by lia. apply IH. lia.
Qed.

Lemma nth_map_in {A B} (f : A -> B) l j d d' : j < length l -> nth j (map f l) d' = f (nth j l d).
Proof. intro H. rewrite (nth_indep _ d' (f d)) by (rewrite map_length; assumption). apply map_nth. Qed.

Lemma words_for_idx j k : j < k -> j / 64 < words_for k /\ j < 64 * words_for k.
Proof. intro H. split; divlia. Qed.

Definition zvec (is0 : bool) (words : nat) (tr : triples) (dO eO : list N) : list N :=
  map (fun w => and_local is0 (nth w tr t0) (nth w dO 0%N) (nth w eO 0%N)) (seq 0 words).

Lemma and_finish_wr is0 batch ws tr dO eO :
  and_finish is0 batch ws tr dO eO =
  wr_all (combine (seq 0 (length batch)) batch) (zvec is0 (words_for (length batch)) tr dO eO, ws).
Proof. reflexivity. Qed.

Section AndBatch.
  Variable v : list bool.
  Variable nw : nat.
  Variable batch : list gate.
  Let k := length batch.
  Let Wd := words_for k.

  (* rows are (wires, triples of this batch) *)
  Definition masked_d (r : list bool * triples) : list N := fst (and_masked batch (fst r) (snd r)).
  Definition masked_e (r : list bool * triples) : list N := snd (and_masked batch (fst r) (snd r)).

  Definition and_rows (wt : list (list bool * triples)) : list (list bool) :=
    mapi (fun p r => and_finish (p =? 0) batch (fst r) (snd r)
                                (bxor p (map masked_d wt) Wd) (bxor p (map masked_e wt) Wd)) wt.

  Definition packed_in (pick : gate -> nat) (r : list bool * triples) : list N :=
    pack (map (fun g => nth (pick g) (fst r) false) batch) Wd.

  (* what bxor delivers: the word-wise xor of all parties' masked vectors *)
  Definition opened (msk : list bool * triples -> list N) (wt : list (list bool * triples)) : list N :=
    map (fun w => xorN (map (fun vv => nth w vv 0%N) (map msk wt))) (seq 0 Wd).

  Lemma open_word (pick : gate -> nat) (sel : triple -> N) (wt : list (list bool * triples)) wj :
    wj < Wd ->
    nth wj (opened (fun r => map (fun w => N.lxor (nth w (packed_in pick r) 0%N) (sel (nth w (snd r) t0))) (seq 0 Wd)) wt) 0%N
    = N.lxor (xorN (map (fun r => nth wj (packed_in pick r) 0%N) wt))
             (xorN (map sel (map (fun r => nth wj (snd r) t0) wt))).
  Proof.
    intro H. unfold opened. rewrite nth_map_seq by assumption. rewrite !map_map.
    rewrite <- (xorN_map2 (fun r => nth wj (packed_in pick r) 0%N) (fun r => sel (nth wj (snd r) t0))).
    apply xorN_ext_in. intros r _. rewrite nth_map_seq by assumption. reflexivity.
  Qed.

  Lemma packed_bit (pick : gate -> nat) (wt : list (list bool * triples)) j g :
    j < k -> nth j batch g = g ->
    N.testbit (xorN (map (fun r => nth (j / 64) (packed_in pick r) 0%N) wt)) (N.of_nat (j mod 64))
    = xor_col (map fst wt) (pick g).
  Proof.
    intros Hj Hg. rewrite testbit_xorN, map_map, xor_col_map. f_equal.
    apply map_ext. intro r.
    change (N.testbit (nth (j / 64) ?bv 0%N) (N.of_nat (j mod 64))) with (bit bv j).
    unfold packed_in. rewrite bit_pack by (apply words_for_idx; assumption).
    rewrite (nth_map_in _ batch j g) by assumption. rewrite Hg. reflexivity.
  Qed.

  Lemma z_bit r0 rt j g :
    let wt := r0 :: rt in
    let dO := opened masked_d wt in
    let eO := opened masked_e wt in
    j < k -> nth j batch g = g ->
    triple_valid (map (fun r => nth (j / 64) (snd r) t0) wt) = true ->
    xorb (bit (zvec true Wd (snd r0) dO eO) j) (xorb_all (map (fun r => bit (zvec false Wd (snd r) dO eO) j) rt))
    = xor_col (map fst wt) (gin0 g) && xor_col (map fst wt) (gin1 g).
  Proof.
    intros wt dO eO Hj Hg HV.
    destruct (words_for_idx j k Hj) as [Hwj _]. fold Wd in Hwj.
    rewrite <- (packed_bit gin0 wt j g Hj Hg), <- (packed_bit gin1 wt j g Hj Hg), <- N.land_spec.
    set (wj := j / 64) in *. set (bj := N.of_nat (j mod 64)).
    assert (Hbit : forall is0 tr, bit (zvec is0 Wd tr dO eO) j =
              N.testbit (and_local is0 (nth wj tr t0) (nth wj dO 0%N) (nth wj eO 0%N)) bj).
    { intros is0 tr. unfold bit, zvec. fold wj. fold bj. rewrite nth_map_seq by assumption. reflexivity. }
    rewrite Hbit, (map_ext _ _ (fun r => Hbit false (snd r))).
    rewrite <- (map_map (fun r => and_local false (nth wj (snd r) t0) (nth wj dO 0%N) (nth wj eO 0%N))
                        (fun z => N.testbit z bj)).
    rewrite <- testbit_xorN, <- N.lxor_spec.
    rewrite <- (map_map (fun r => nth wj (snd r) t0) (fun t => and_local false t (nth wj dO 0%N) (nth wj eO 0%N))).
    f_equal. apply beaver_open.
    - exact HV.
    - apply (open_word gin0 tA wt wj Hwj).
    - apply (open_word gin1 tB wt wj Hwj).
  Qed.

  Lemma and_cols (wt : list (list bool * triples)) :
    wt <> [] -> rows_len nw (map fst wt) ->
    (forall g, In g batch -> gout g < nw /\ okw v (map fst wt) (gin0 g) /\ okw v (map fst wt) (gin1 g) /\
                             nth (gout g) v false = nth (gin0 g) v false && nth (gin1 g) v false) ->
    (forall w, w < Wd -> triple_valid (map (fun r => nth w (snd r) t0) wt) = true) ->
    rows_len nw (and_rows wt) /\
    forall w, (okw v (map fst wt) w \/ In w (map gout batch)) -> okw v (and_rows wt) w.
  Proof.
    intros NE RL HG HV. destruct wt as [|r0 rt]; [contradiction|]. set (wt := r0 :: rt) in *.
    set (dO := opened masked_d wt). set (eO := opened masked_e wt).
    set (jgs := combine (seq 0 k) batch).
    set (rows := (zvec true Wd (snd r0) dO eO, fst r0) :: map (fun r => (zvec false Wd (snd r) dO eO, fst r)) rt).
    assert (E : and_rows wt = map (wr_all jgs) rows).
    { unfold and_rows, mapi.
      rewrite (mapi_from_ext _ (fun p r => and_finish (p =? 0) batch (fst r) (snd r) dO eO) wt 0).
      2:{ intros i r Hi. rewrite !bxor_eq by (rewrite map_length; lia). reflexivity. }
      change (mapi_from 0 ?f wt) with (mapi f wt). unfold wt.
      rewrite (mapi_is0 (fun b r => and_finish b batch (fst r) (snd r) dO eO)).
      unfold rows. simpl map. rewrite map_map. reflexivity. }
    assert (Hsnd : map snd rows = map fst wt).
    { unfold rows, wt. simpl. rewrite map_map. reflexivity. }
    assert (RL' : forall r, In r rows -> length (snd r) = nw).
    { intros r Hin. apply RL. rewrite <- Hsnd. apply in_map. assumption. }
    rewrite E. split.
    - intros ws Hin. apply in_map_iff in Hin. destruct Hin as (r & <- & Hin).
      rewrite wr_all_length. apply RL'. assumption.
    - intros w Hw. apply (wr_all_ok v nw); [exact RL'| |].
      + intros j g Hin. unfold jgs, k in Hin. apply (in_combine_seq batch g) in Hin.
        destruct Hin as [Hj Hg]. rewrite Nat.sub_0_r in Hg. simpl in Hj.
        assert (Hgin : In g batch) by (rewrite <- Hg; apply nth_In; lia).
        destruct (HG g Hgin) as (Ho & Ok0 & Ok1 & Heq). split; [assumption|].
        unfold rows. cbn [map xorb_all fold_right fst]. rewrite map_map. cbn [fst].
        change (fold_right xorb false ?l) with (xorb_all l).
        rewrite Heq, <- Ok0, <- Ok1.
        apply (z_bit r0 rt j g); [lia|assumption|]. apply HV, words_for_idx. lia.
      + rewrite Hsnd. destruct Hw as [Hw|Hw]; [left; assumption|]. right.
        apply in_map_iff in Hw. destruct Hw as (g & Hg & Hin).
        destruct (In_nth _ _ g Hin) as (j & Hj & Hn).
        exists j, g. split; [|assumption].
        unfold jgs, k. rewrite <- Hn. apply (in_combine_seq_nth batch g 0 j Hj).
  Qed.
End AndBatch.

Definition sstream (st : pstate) : triples := stream (ps_pool st) (ps_pend st).

Lemma rewire_streams (F : nat -> pstate -> list bool) sts k :
  map sstream (mapi_from k (fun p st => mkP (F p st) (ps_pool st) (ps_pend st) (ps_sched st)) sts) = map sstream sts.
Proof. rewrite map_mapi_from. apply (mapi_from_noidx sstream). Qed.

Lemma flush_aux k : forall sts,
  Forall (fun s => words_for k <= length s) (map sstream sts) ->
  exists gets,
    all_some (map (fun st => pool_get k [] (ps_pool st) (ps_pend st) (ps_sched st)) sts) = Some gets /\
    map (fun r => fst (fst (fst r))) gets = map (fun st => firstn (words_for k) (sstream st)) sts /\
    forall (F : nat -> pstate -> triples -> list bool) k0,
      let sts' := mapi_from k0 (fun p sr =>
                    let st := fst sr in
                    let '(tr, pool', pend', sched') := snd sr in
                    mkP (F p st tr) pool' pend' sched') (combine sts gets) in
      map sstream sts' = map (fun st => skipn (words_for k) (sstream st)) sts /\
      map ps_wires sts' = mapi_from k0 (fun p st => F p st (firstn (words_for k) (sstream st))) sts.
Proof.
  induction sts as [|st sts IH]; intro H.
  - exists []. repeat split; reflexivity.
  - cbn [map] in H. apply Forall_cons_iff in H. destruct H as [H0 H].
    destruct (pool_get_ok k (ps_pool st) (ps_pend st) (ps_sched st) H0) as (pool' & pend' & sched' & E & HS).
    destruct (IH H) as (gets & EA & ET & EF).
    exists ((firstn (words_for k) (sstream st), pool', pend', sched') :: gets).
    split; [|split].
    + cbn [map all_some]. rewrite E, EA. reflexivity.
    + cbn [map fst]. rewrite ET. reflexivity.
    + intros F k0. cbn [combine mapi_from map fst snd ps_wires].
      destruct (EF F (S k0)) as [E1 E2]. split.
      * f_equal; [|exact E1]. unfold sstream at 1. cbn [ps_pool ps_pend]. exact HS.
      * f_equal. exact E2.
Qed.

Definition and_wt (Wd : nat) (sts : list pstate) : list (list bool * triples) :=
  map (fun st => (ps_wires st, firstn Wd (sstream st))) sts.

Lemma and_wt_fst Wd sts : map fst (and_wt Wd sts) = map ps_wires sts.
Proof. unfold and_wt. rewrite map_map. reflexivity. Qed.

Lemma flush_spec batch sts :
  Forall (fun s => words_for (length batch) <= length s) (map sstream sts) ->
  exists sts', and_batch_flush batch sts = Some sts' /\
    map sstream sts' = map (skipn (words_for (length batch))) (map sstream sts) /\
    map ps_wires sts' = and_rows batch (and_wt (words_for (length batch)) sts).
Proof.
  intro H. rewrite map_map. destruct batch as [|g0 b0] eqn:EB.
  - (* no AND gate on this level: nothing is fetched, and_rows writes nothing *)
    exists sts. split; [reflexivity|]. split; [reflexivity|].
    unfold and_rows, mapi, and_wt. rewrite mapi_from_map. symmetry. apply (mapi_from_noidx ps_wires).
  - unfold and_batch_flush. rewrite <- EB in *.
    destruct (flush_aux (length batch) sts H) as (gets & EA & ET & EF).
    rewrite EA. eexists. split; [reflexivity|].
    rewrite ET. rewrite !map_combine_map.
    set (Wd := words_for (length batch)).
    set (ds := map fst _). set (es := map snd _).
    specialize (EF (fun p st tr => and_finish (p =? 0) batch (ps_wires st) tr (bxor p ds Wd) (bxor p es Wd)) 0).
    destruct EF as [E1 E2]. split; [exact E1|].
    unfold mapi. etransitivity; [exact E2|].
    unfold and_rows, mapi, and_wt. rewrite mapi_from_map. apply mapi_from_ext. intros i st _. cbn [fst snd].
    fold Wd.
    assert (Hd : map (masked_d batch) (map (fun st0 => (ps_wires st0, firstn Wd (sstream st0))) sts) = ds).
    { unfold ds. rewrite !map_map. reflexivity. }
    assert (He : map (masked_e batch) (map (fun st0 => (ps_wires st0, firstn Wd (sstream st0))) sts) = es).
    { unfold es. rewrite !map_map. reflexivity. }
    rewrite Hd, He. reflexivity.
Qed.

Definition valid_streams (ss : list triples) : Prop := forall j, triple_valid (col j ss) = true.

Lemma valid_skipn Wd ss : valid_streams ss -> valid_streams (map (skipn Wd) ss).
Proof.
  intros H j. specialize (H (Wd + j)). unfold col in *. rewrite map_map.
  rewrite <- H. f_equal. apply map_ext. intro s. apply nth_skipn.
Qed.

(* one level of Network.run, and the loop over the levels *)
Section Levels.
  Variable v : list bool.          (* the plain wire values *)
  Variable nw ni : nat.
  Variable gl : list (gate * nat).
  Hypothesis H_out : forall g L, In (g, L) gl -> gout g < nw.
  Hypothesis H_sup : forall g L, In (g, L) gl -> gop g <> OR.
  Hypothesis H_lev : levelled ni gl.
  Hypothesis H_eq : forall g L, In (g, L) gl ->
    nth (gout g) v false = gate_fn (gop g) (nth (gin0 g) v false) (nth (gin1 g) v false).

  (* inside level i, after the gates [pre] of the rest[i] loop: the shares of
     the circuit inputs, of every gate of a lower level and of the non-AND
     gates of level i among [pre] xor to the plain values *)
  Definition ready (pre : list (gate * nat)) (i : nat) (m : list (list bool)) : Prop :=
    (forall w, w < ni -> okw v m w) /\
    (forall g L, In (g, L) gl -> L < i -> okw v m (gout g)) /\
    (forall g, In (g, i) pre -> is_and g = false -> okw v m (gout g)).

  Lemma ready_dep pre pre' i m : incl pre pre' -> incl pre' gl -> ready pre' i m ->
    forall u, dep_ok ni pre i u -> okw v m u.
  Proof.
    intros Sub Sub' (PI & PL & PS) u [Hu|(g & L & Hin & <- & Hle)]; [apply PI; assumption|].
    destruct (is_and g) eqn:EA; [apply (PL g L); [apply Sub', Sub; assumption|lia]|].
    destruct (Nat.eq_dec L i) as [->|Hne]; [apply PS; [apply Sub|]; assumption|].
    apply (PL g L); [apply Sub', Sub; assumption|lia].
  Qed.

  Lemma ready_keep pre i m m' : (forall w, okw v m w -> okw v m' w) -> ready pre i m -> ready pre i m'.
  Proof. intros K (PI & PL & PS). repeat split; intros; apply K; eauto. Qed.

  Lemma ready_snoc pre i m g L :
    ready pre i m -> (is_and g = false -> L = i -> okw v m (gout g)) -> ready (pre ++ [(g, L)]) i m.
  Proof.
    intros (PI & PL & PS) H. split; [assumption|]. split; [assumption|].
    intros g0 Hin0 NA0. apply in_app_or in Hin0. destruct Hin0 as [Hin0|[Hin0|[]]]; [apply PS; assumption|].
    inversion Hin0; subst. apply H; auto.
  Qed.

  (* the rest[i] loop, gate by gate *)
  Lemma rest_ok i : forall post pre m,
    gl = pre ++ post -> rows_len nw m -> m <> [] -> ready pre i m ->
    ready gl i (fold_left (fun m g => mstep g m) (rest_at post i) m).
  Proof.
    induction post as [|[g L] post IH]; intros pre m Egl RL NE RD.
    - rewrite app_nil_r in Egl. subst pre. exact RD.
    - assert (Egl' : gl = (pre ++ [(g, L)]) ++ post) by (rewrite <- app_assoc; exact Egl).
      assert (Hin : In (g, L) gl) by (rewrite Egl; apply in_elt).
      assert (Sub : incl pre gl) by (rewrite Egl; apply incl_appl, incl_refl).
      unfold rest_at. cbn [filter fst snd].
      destruct (negb (is_and g) && (L =? i)) eqn:Sel; cbn [map fst fold_left]; fold (rest_at post i).
      + apply andb_prop in Sel. destruct Sel as [NA EL]. apply negb_true_iff in NA. apply Nat.eqb_eq in EL. subst L.
        destruct m as [|h t]; [contradiction|].
        assert (Loc : is_local g = true).
        { unfold is_local, is_and in *. pose proof (H_sup g i Hin). destruct (gop g); congruence. }
        destruct (H_lev pre g i post Egl) as [D0 D1].
        pose proof (ready_dep pre pre i (h :: t) (incl_refl _) Sub RD) as Dep.
        assert (Hcol : forall w, xor_col (mstep g (h :: t)) w =
                  if w =? gout g then nth (gout g) v false else xor_col (h :: t) w).
        { intro w. rewrite (mstep_col nw) by (try assumption; apply (H_out g i Hin)).
          destruct (w =? gout g); [|reflexivity].
          rewrite (H_eq g i Hin), (Dep _ D0).
          destruct (gop g) eqn:Eop; try reflexivity; rewrite (Dep (gin1 g)) by (apply D1; congruence); reflexivity. }
        apply (IH (pre ++ [(g, i)]) (mstep g (h :: t)) Egl'); [apply mstep_rows; assumption|discriminate|].
        apply ready_snoc.
        * revert RD. apply ready_keep. intros w Hw. unfold okw in *. rewrite Hcol.
          destruct (Nat.eqb_spec w (gout g)) as [->|_]; [reflexivity|assumption].
        * intros _ _. unfold okw. rewrite Hcol, Nat.eqb_refl. reflexivity.
      + apply (IH (pre ++ [(g, L)]) m Egl' RL NE). apply ready_snoc; [assumption|].
        intros NA EL. rewrite NA, EL, Nat.eqb_refl in Sel. discriminate.
  Qed.

  Lemma msteps_rows gs : forall m, rows_len nw m -> rows_len nw (fold_left (fun m g => mstep g m) gs m).
  Proof. induction gs as [|g gs IH]; intros m H; [assumption|]. apply IH, mstep_rows, H. Qed.

  Definition rest_states (i : nat) (sts : list pstate) : list pstate :=
    mapi (fun p st => mkP (fold_left (local_gate (p =? 0)) (rest_at gl i) (ps_wires st))
                          (ps_pool st) (ps_pend st) (ps_sched st)) sts.

  Lemma rest_states_wires i st0 sts :
    map ps_wires (rest_states i (st0 :: sts)) =
    fold_left (fun m g => mstep g m) (rest_at gl i) (map ps_wires (st0 :: sts)).
  Proof.
    unfold rest_states.
    rewrite (mapi_is0 (fun b st => mkP (fold_left (local_gate b) (rest_at gl i) (ps_wires st))
                                       (ps_pool st) (ps_pend st) (ps_sched st))).
    cbn [map ps_wires]. rewrite mstep_fold, !map_map. reflexivity.
  Qed.

  Lemma in_ands_at g i : In g (ands_at gl i) <-> In (g, i) gl /\ is_and g = true.
  Proof.
    unfold ands_at. rewrite in_map_iff. split.
    - intros ([g' L] & E & Hin). simpl in E. subst g'. apply filter_In in Hin. destruct Hin as [Hin Sel].
      simpl in Sel. apply andb_prop in Sel. destruct Sel as [A B]. apply Nat.eqb_eq in B. subst. split; assumption.
    - intros [Hin A]. exists (g, i). split; [reflexivity|]. apply filter_In. split; [assumption|].
      simpl. rewrite A, Nat.eqb_refl. reflexivity.
  Qed.

  (* the parties' states before level i, with R words to spare *)
  Definition good (R i : nat) (sts : list pstate) : Prop :=
    sts <> [] /\ rows_len nw (map ps_wires sts) /\ valid_streams (map sstream sts) /\
    Forall (fun s => R <= length s) (map sstream sts) /\ ready [] i (map ps_wires sts).

  Lemma level_step_ok i R sts :
    good (words_for (length (ands_at gl i)) + R) i sts ->
    exists sts', level_step gl sts i = Some sts' /\ length sts' = length sts /\ good R (S i) sts'.
  Proof.
    intros (NE & RL & VS & EN & RD).
    unfold level_step. fold (rest_states i sts).
    set (batch := ands_at gl i) in *. set (Wd := words_for (length batch)) in *.
    set (sts1 := rest_states i sts).
    assert (S1 : map sstream sts1 = map sstream sts) by apply rewire_streams.
    assert (Len1 : length sts1 = length sts) by apply mapi_from_length.
    assert (W1 : map ps_wires sts1 = fold_left (fun m g => mstep g m) (rest_at gl i) (map ps_wires sts)).
    { destruct sts; [contradiction|]. apply rest_states_wires. }
    assert (RL1 : rows_len nw (map ps_wires sts1)) by (rewrite W1; apply msteps_rows; assumption).
    assert (RD1 : ready gl i (map ps_wires sts1)).
    { rewrite W1. apply (rest_ok i gl []); [reflexivity|assumption| |assumption].
      destruct sts; [contradiction|discriminate]. }
    destruct (flush_spec batch sts1) as (sts2 & E2 & S2 & W2).
    { rewrite S1. revert EN. apply Forall_impl. intros s Hs. fold Wd. lia. }
    fold Wd in S2, W2. rewrite S1 in S2.
    assert (Len2 : length sts2 = length sts).
    { rewrite <- (map_length sstream sts2), S2, !map_length. reflexivity. }
    destruct (and_cols v nw batch (and_wt Wd sts1)) as [C1 C2].
    - intro Z. apply map_eq_nil in Z. rewrite Z in Len1. destruct sts; [contradiction|discriminate].
    - rewrite and_wt_fst. assumption.
    - rewrite and_wt_fst. intros g Hg. apply in_ands_at in Hg. destruct Hg as [Hin EA].
      destruct (in_split _ _ Hin) as (pre & post & Egl).
      destruct (H_lev pre g i post Egl) as [D0 D1].
      assert (Dep : forall u, dep_ok ni pre i u -> okw v (map ps_wires sts1) u).
      { apply (ready_dep pre gl); [rewrite Egl; apply incl_appl, incl_refl|apply incl_refl|assumption]. }
      assert (Eop : gop g = AND) by (unfold is_and in EA; destruct (gop g); congruence).
      split; [apply (H_out g i Hin)|]. split; [apply Dep, D0|]. split; [apply Dep, D1; congruence|].
      rewrite (H_eq g i Hin), Eop. reflexivity.
    - intros w Hw. unfold and_wt. rewrite map_map. cbn [snd].
      specialize (VS w). rewrite <- S1 in VS. unfold col in VS. rewrite map_map in VS. rewrite <- VS. f_equal.
      apply map_ext. intro st. apply nth_firstn_lt. assumption.
    - rewrite <- W2 in C1, C2. rewrite and_wt_fst in C2.
      exists sts2. split; [exact E2|]. split; [exact Len2|].
      split; [exact (nonnil_of_length _ _ Len2 NE)|].
      split; [assumption|]. split; [rewrite S2; apply valid_skipn; assumption|]. split.
      + rewrite S2. apply Forall_map. revert EN. apply Forall_impl. intros s Hs. rewrite skipn_length. lia.
      + destruct RD1 as (PI & PL & PS). split; [|split].
        * intros w Hw. apply C2. left. apply PI. assumption.
        * intros g L Hin HL. destruct (Nat.eq_dec L i) as [->|Hne]; [|apply C2; left; apply (PL g L); [assumption|lia]].
          destruct (is_and g) eqn:EA; apply C2.
          -- right. apply in_map, in_ands_at. split; assumption.
          -- left. apply PS; assumption.
        * intros g [].
  Qed.

  Lemma levels_loop_ok : forall is i0 R sts,
    is = seq i0 (length is) -> good (need_from gl is + R) i0 sts ->
    exists sts', levels_loop gl is sts = Some sts' /\ length sts' = length sts /\ good R (i0 + length is) sts'.
  Proof.
    induction is as [|i is IH]; intros i0 R sts Eseq G.
    - exists sts. rewrite Nat.add_0_r. split; [reflexivity|]. split; [reflexivity|exact G].
    - cbn [length seq] in Eseq. injection Eseq as -> Eis.
      change (need_from gl (i0 :: is)) with (words_for (length (ands_at gl i0)) + need_from gl is) in G.
      rewrite <- Nat.add_assoc in G.
      destruct (level_step_ok i0 (need_from gl is + R) sts G) as (sts1 & E1 & L1 & G1).
      destruct (IH (S i0) R sts1 Eis G1) as (sts2 & E2 & L2 & G2).
      exists sts2. cbn [levels_loop length]. rewrite E1, Nat.add_succ_r.
      split; [exact E2|]. split; [rewrite L2; exact L1|exact G2].
  Qed.
End Levels.

Fixpoint locate (szs : list nat) (w : nat) : nat * nat :=
  match szs with
  | [] => (0, w)
  | s :: r => if w <? s then (0, w) else let (p, i) := locate r (w - s) in (S p, i)
  end.

Lemma nth_concat_locate {A} (d : A) : forall (Ls : list (list A)) w, w < length (concat Ls) ->
  fst (locate (map (@length A) Ls) w) < length Ls /\
  snd (locate (map (@length A) Ls) w) < length (nth (fst (locate (map (@length A) Ls) w)) Ls []) /\
  nth w (concat Ls) d = nth (snd (locate (map (@length A) Ls) w)) (nth (fst (locate (map (@length A) Ls) w)) Ls []) d.
Proof.
  induction Ls as [|l Ls IH]; intros w H; simpl in *; [lia|].
  rewrite app_length in H. destruct (Nat.ltb_spec w (length l)) as [Hlt|Hge]; simpl.
  - split; [lia|]. split; [assumption|]. apply app_nth1. assumption.
  - destruct (IH (w - length l) ltac:(lia)) as (A1 & A2 & A3).
    destruct (locate (map (@length A) Ls) (w - length l)) as [p i]. simpl in *.
    split; [lia|]. split; [assumption|]. rewrite app_nth2 by lia. assumption.
Qed.

Lemma vxor_length a b : length (vxor a b) = length a.
Proof. unfold vxor. rewrite map_length, seq_length. reflexivity. Qed.

Lemma vxor_nth a b i : i < length a -> nth i (vxor a b) false = xorb (nth i a false) (nth i b false).
Proof. intro H. unfold vxor. apply (nth_map_seq (fun i => xorb (nth i a false) (nth i b false))). assumption. Qed.

Lemma fold_vxor_length : forall l z, length (fold_left vxor l z) = length z.
Proof. induction l as [|r l IH]; intro z; simpl; [reflexivity|]. rewrite IH. apply vxor_length. Qed.

Lemma fold_vxor_nth : forall l z i, i < length z ->
  nth i (fold_left vxor l z) false = xorb (nth i z false) (xorb_all (map (fun r => nth i r false) l)).
Proof.
  induction l as [|r l IH]; intros z i H; simpl; [symmetry; apply xorb_false_r|].
  rewrite IH, vxor_nth by (rewrite ?vxor_length; assumption). apply xorb_assoc.
Qed.

Lemma take_pad_length n bs : length (take_pad n bs) = n.
Proof. unfold take_pad. rewrite map_length, seq_length. reflexivity. Qed.

Lemma take_pad_nth n bs i : i < n -> nth i (take_pad n bs) false = nth i bs false.
Proof. intro H. unfold take_pad. apply (nth_map_seq (fun i => nth i bs false)). assumption. Qed.

Definition region (n : nat) (inputs : list (list bool)) (rnd : nat -> nat -> list bool) (q p sz : nat) : list bool :=
  if p =? q then own_share n p sz (nth p inputs []) rnd else take_pad sz (rnd p q).

Lemma region_length n inputs rnd q p sz : length (region n inputs rnd q p sz) = sz.
Proof.
  unfold region, own_share. destruct (p =? q); [|apply take_pad_length].
  rewrite vxor_length, fold_vxor_length. apply repeat_length.
Qed.

Lemma region_col n inputs rnd p sz i : p < n -> i < sz ->
  xorb_all (map (fun q => nth i (region n inputs rnd q p sz) false) (seq 0 n)) = nth i (nth p inputs []) false.
Proof.
  intros Hp Hi.
  rewrite (xorb_split_at _ (seq 0 n) p (seq_NoDup n 0)) by (apply in_seq; lia).
  unfold region at 1. rewrite Nat.eqb_refl. unfold own_share.
  rewrite vxor_nth, fold_vxor_nth by (rewrite ?fold_vxor_length, repeat_length; assumption).
  rewrite map_map, take_pad_nth, nth_repeat by assumption.
  rewrite (map_ext_in (fun q => nth i (region n inputs rnd q p sz) false) (fun q => nth i (take_pad sz (rnd p q)) false)).
  2:{ intros q Hq. apply in_minus_p in Hq. destruct Hq as [_ Hne].
      unfold region. destruct (Nat.eqb_spec p q); [congruence|reflexivity]. }
  rewrite <- others_minus.
  destruct (xorb_all (map (fun x => nth i (take_pad sz (rnd p x)) false) (others n p))), (nth i (nth p inputs []) false); reflexivity.
Qed.

Lemma sum_concat_length {A} (Ls : list (list A)) : length (concat Ls) = fold_right Nat.add 0 (map (@length A) Ls).
Proof. induction Ls; simpl; [reflexivity|]. rewrite app_length, IHLs. reflexivity. Qed.

Lemma init_party_regions c isz inputs rnd q :
  init_party c isz inputs rnd q =
  concat (mapi (region (length isz) inputs rnd q) isz) ++ repeat false (nwires c - ninputs c).
Proof. reflexivity. Qed.

Lemma regions_lengths n inputs rnd q : forall isz k,
  map (@length bool) (mapi_from k (region n inputs rnd q) isz) = isz.
Proof. induction isz as [|s r IH]; intro k; simpl; [reflexivity|]. rewrite region_length, IH. reflexivity. Qed.

Lemma regions_length n inputs rnd q isz :
  length (concat (mapi (region n inputs rnd q) isz)) = fold_right Nat.add 0 isz.
Proof. rewrite sum_concat_length. unfold mapi. rewrite regions_lengths. reflexivity. Qed.

Lemma input_cols c isz inputs rnd :
  map (@length bool) inputs = isz -> fold_right Nat.add 0 isz = ninputs c -> ninputs c <= nwires c ->
  let m0 := map (init_party c isz inputs rnd) (seq 0 (length isz)) in
  rows_len (nwires c) m0 /\
  forall w, w < ninputs c -> xor_col m0 w = nth w (concat inputs) false.
Proof.
  intros HL HS Hni m0. set (n := length isz).
  split.
  - intros ws Hin. unfold m0 in Hin. apply in_map_iff in Hin. destruct Hin as (q & <- & _).
    rewrite init_party_regions, app_length, repeat_length, regions_length. lia.
  - intros w Hw.
    assert (HLi : w < length (concat inputs)) by (rewrite sum_concat_length, HL, HS; assumption).
    destruct (nth_concat_locate false inputs w HLi) as (A1 & A2 & A3). rewrite HL in *.
    set (p := fst (locate isz w)) in *. set (i := snd (locate isz w)) in *.
    assert (Hpn : p < n) by (unfold n; rewrite <- HL, map_length; assumption).
    assert (Hsz : length (nth p inputs []) = nth p isz 0).
    { rewrite <- HL. rewrite (nth_map_in (@length bool) inputs p []) by assumption. reflexivity. }
    rewrite A3. rewrite <- (region_col n inputs rnd p (nth p isz 0) i Hpn ltac:(lia)).
    unfold m0. rewrite xor_col_map. f_equal. apply map_ext. intro q.
    rewrite init_party_regions. fold n. rewrite app_nth1 by (rewrite regions_length, HS; assumption).
    destruct (nth_concat_locate false (mapi (region n inputs rnd q) isz) w ltac:(rewrite regions_length, HS; assumption)) as (B1 & B2 & B3).
    unfold mapi in B1, B2, B3. rewrite regions_lengths in *. fold p in B1, B2, B3. fold i in B2, B3.
    unfold mapi. rewrite B3.
    rewrite (nth_mapi_from (region n inputs rnd q) 0 [] isz 0 p) by (fold n; assumption). reflexivity.
Qed.

Lemma in_remove_nth {A} (x : A) : forall l p, In x (remove_nth p l) -> In x l.
Proof.
  induction l as [|y l IH]; intros [|p] H; simpl in *; try contradiction; auto.
  destruct H as [H|H]; [left; assumption|right; eapply IH; eassumption].
Qed.

Lemma bxor_bits_eq (rows : list (list bool)) L p :
  (forall r, In r rows -> length r = L) -> p < length rows ->
  bxor_bits p rows = map (fun i => xorb_all (map (fun r => nth i r false) rows)) (seq 0 L).
Proof.
  intros RL Hp. unfold bxor_bits.
  assert (Lp : length (nth p rows []) = L) by (apply RL, nth_In; assumption).
  apply (nth_ext _ _ false false); rewrite fold_vxor_length, Lp; [rewrite map_length, seq_length; reflexivity|].
  intros i Hi. rewrite fold_vxor_nth, nth_map_seq by lia.
  apply (xorb_remove_nth (fun r => nth i r false) []). assumption.
Qed.

Lemma final_asg_src : forall gs asg w, nth w (final_asg asg gs) false = true ->
  nth w asg false = true \/ exists g, In g gs /\ gout g = w.
Proof.
  induction gs as [|g gs IH]; intros asg w H; simpl in *; [left; assumption|].
  unfold final_asg in *. simpl in H. destruct (IH _ _ H) as [H1|(g' & I & O)].
  - destruct (Nat.eq_dec w (gout g)) as [->|Hne]; [right; exists g; split; [left; reflexivity|reflexivity]|].
    rewrite nth_upd_neq in H1 by congruence. left. assumption.
  - right. exists g'. split; [right; assumption|assumption].
Qed.

Lemma in_combine_exists {A B} (l : list A) (l' : list B) x : length l = length l' -> In x l -> exists y, In (x, y) (combine l l').
Proof.
  revert l'; induction l as [|a l IH]; intros [|b l'] HL Hin; simpl in *; try contradiction; try discriminate.
  destruct Hin as [<-|Hin]; [exists b; left; reflexivity|].
  destruct (IH l' ltac:(lia) Hin) as (y & Hy). exists y. right. assumption.
Qed.

(* Lw and R are free for GmwReuseProof.run_on_correct: a later run on a reused network
   finds wire vectors longer than NumWires and must leave triple words for the runs after it *)
Lemma run_core c x Lw R sts0 :
  wf c = true -> ssa c = true -> gmw_supported c = true -> length x = ninputs c ->
  nwires c <= Lw -> sts0 <> [] -> rows_len Lw (map ps_wires sts0) ->
  (forall w, w < ninputs c -> xor_col (map ps_wires sts0) w = nth w x false) ->
  valid_streams (map sstream sts0) ->
  Forall (fun s => words_needed c + R <= length s) (map sstream sts0) ->
  exists sts', levels_loop (combine (gates c) (gate_levels c)) (seq 0 (S (num_levels c))) sts0 = Some sts' /\
    length sts' = length sts0 /\ rows_len Lw (map ps_wires sts') /\
    valid_streams (map sstream sts') /\ Forall (fun s => R <= length s) (map sstream sts') /\
    forall w, In w (output_wires c) -> xor_col (map ps_wires sts') w = nth w (eval_plain_wires c x) false.
Proof.
  intros WF SSA SUP Lx HLw NE RL0 IC VS EN.
  destruct (proj1 (wf_spec c) WF) as (Hni & Hno & WG & WO).
  destruct (plain_eqs c x WF SSA Lx) as [VI VE].
  set (v := eval_plain_wires c x) in *.
  destruct (levels_sound c WF) as (LL & LEV & LB).
  set (gl := combine (gates c) (gate_levels c)) in *.
  destruct (levels_loop_ok v Lw (ninputs c) gl) with (is := seq 0 (S (num_levels c))) (i0 := 0) (R := R) (sts := sts0)
    as (sts' & EL & LA & _ & RLA & VSA & ENA & PI & PL & _).
  - intros g L Hin. apply in_combine_l in Hin. pose proof (wf_gates_gout _ _ _ _ _ WG Hin). lia.
  - intros g L Hin. apply in_combine_l in Hin. unfold gmw_supported in SUP. rewrite forallb_forall in SUP.
    specialize (SUP g Hin). destruct (gop g); congruence.
  - exact LEV.
  - intros g L Hin. apply in_combine_l in Hin. apply VE. assumption.
  - rewrite seq_length. reflexivity.
  - split; [assumption|]. split; [assumption|]. split; [assumption|]. split; [assumption|].
    split; [|split; [intros g L _ HL0; lia|intros g []]].
    intros w Hw. unfold okw. rewrite IC by assumption. symmetry. apply VI. assumption.
  - exists sts'. rewrite seq_length in PL. cbn [Nat.add] in PL.
    split; [exact EL|]. split; [exact LA|]. split; [exact RLA|]. split; [exact VSA|]. split; [exact ENA|].
    intros w Hw. specialize (WO w Hw).
    destruct (final_asg_src _ _ _ WO) as [Hi|(g & Hg & Ho)].
    + apply PI. exact (nth_init_asg_true _ _ _ Hi).
    + destruct (in_combine_exists (gates c) (gate_levels c) g (eq_sym LL) Hg) as (L & HinL).
      rewrite <- Ho. apply (PL g L HinL). specialize (LB g L HinL). lia.
Qed.

Lemma in_mapi_idx {A B} (f : nat -> B) (l : list A) o :
  In o (mapi (fun p _ => f p) l) -> exists p, p < length l /\ o = f p.
Proof.
  unfold mapi. rewrite (mapi_from_seq f l 0). intro H. apply in_map_iff in H as (p & <- & Hp).
  apply in_seq in Hp. exists p. split; [lia|reflexivity].
Qed.

Lemma take_pad_all l : take_pad (length l) l = l.
Proof. unfold take_pad. rewrite <- (map_nth_seq (fun b => b)). apply map_id. Qed.

(* [sh] and Lo are free: Gmw.out_share here, GmwReuse.out_go (the opened value before
   Split) in GmwReuseProof *)
Lemma read_out c x sts (sh : list bool -> list bool) Lo p :
  (forall w, In w (output_wires c) -> xor_col (map ps_wires sts) w = nth w (eval_plain_wires c x) false) ->
  noutputs c <= Lo -> (forall st, In st sts -> length (sh (ps_wires st)) = Lo) ->
  (forall ws i, i < noutputs c -> nth i (sh ws) false = nth (nth i (output_wires c) 0) ws false) ->
  let outs := map (fun st => sh (ps_wires st)) sts in
  p < length outs ->
  length (bxor_bits p outs) = Lo /\ take_pad (noutputs c) (bxor_bits p outs) = eval_plain c x.
Proof.
  intros Ok_out HLo RL Hsh outs Hp.
  assert (Low : length (output_wires c) = noutputs c) by apply seq_length.
  rewrite (bxor_bits_eq outs Lo p) by (try assumption; intros r Hr; apply in_map_iff in Hr as (st & <- & Hst); auto).
  split; [rewrite map_length; apply seq_length|].
  unfold eval_plain, take_pad.
  rewrite (map_nth_seq (fun w => nth w (eval_plain_wires c x) false) 0 (output_wires c)), Low.
  apply map_ext_in. intros i Hi. apply in_seq in Hi.
  rewrite (nth_map_seq (fun i0 => xorb_all (map (fun r => nth i0 r false) outs)) Lo i false) by lia.
  rewrite <- (Ok_out (nth i (output_wires c) 0)) by (apply nth_In; lia).
  unfold outs. rewrite map_map, xor_col_map. f_equal. apply map_ext. intro st. apply Hsh. lia.
Qed.

Definition pool_stream (pl : triples * list triples * list nat) : triples := stream (fst (fst pl)) (snd (fst pl)).

(* C10 (2): the online phase computes the plain evaluation at every party *)
Theorem online_correct c isz inputs rnd pools :
  wf c = true -> ssa c = true -> gmw_supported c = true ->
  map (@length bool) inputs = isz -> fold_right Nat.add 0 isz = ninputs c ->
  length pools = length isz -> pools <> [] ->
  valid_streams (map pool_stream pools) ->
  (forall pl, In pl pools -> words_needed c <= length (pool_stream pl)) ->
  exists outs, run_gmw c isz inputs rnd pools = Some outs /\ length outs = length pools /\
               forall o, In o outs -> o = eval_plain c (concat inputs).
Proof.
  intros WF SSA SUP HL HS HN NE VS EN.
  destruct (proj1 (wf_spec c) WF) as (Hni & _).
  set (x := concat inputs).
  assert (Lx : length x = ninputs c) by (unfold x; rewrite sum_concat_length, HL; assumption).
  destruct (input_cols c isz inputs rnd HL HS Hni) as [RL0 IC].
  unfold run_gmw. rewrite SUP. cbn [negb].
  set (sts0 := mapi _ pools).
  assert (W0 : map ps_wires sts0 = map (init_party c isz inputs rnd) (seq 0 (length isz))).
  { unfold sts0, mapi. rewrite map_mapi_from. cbn [ps_wires]. rewrite (mapi_from_seq (init_party c isz inputs rnd) pools 0), HN. reflexivity. }
  assert (S0 : map sstream sts0 = map pool_stream pools).
  { unfold sts0, mapi. rewrite map_mapi_from. apply (mapi_from_noidx pool_stream). }
  assert (L0 : length sts0 = length pools) by apply mapi_from_length.
  destruct (run_core c x (nwires c) 0 sts0 WF SSA SUP Lx (le_n _)) as (sts' & EL & LA & _ & _ & _ & Ok_out).
  - exact (nonnil_of_length _ _ L0 NE).
  - rewrite W0. assumption.
  - rewrite W0. exact IC.
  - rewrite S0. assumption.
  - rewrite S0. apply Forall_map, Forall_forall. intros pl Hpl. rewrite Nat.add_0_r. apply EN. assumption.
  - rewrite EL. eexists. split; [reflexivity|]. split; [unfold mapi; now rewrite mapi_from_length, map_length, LA|].
    intros o Ho. apply in_mapi_idx in Ho as (p & Hp & ->).
    destruct (read_out c x sts' (out_share c) (noutputs c) p Ok_out (le_n _)) as (Lo & <-); [| |exact Hp|].
    + intros st _. unfold out_share. rewrite map_length. apply seq_length.
    + intros ws i Hi. unfold out_share. apply (nth_map_in (fun w => nth w ws false)). unfold output_wires. now rewrite seq_length.
    + rewrite <- Lo at 1. symmetry. apply take_pad_all.
Qed.

Lemma xorN_zero {A} (l : list A) : xorN (map (fun _ => 0%N) l) = 0%N.
Proof. induction l; simpl; [reflexivity|]. rewrite IHl. reflexivity. Qed.

Lemma deal_valid n words a b sb dl : valid_streams (deal n words a b sb dl).
Proof.
  intro j. unfold deal, col. rewrite map_map. unfold triple_valid. apply N.eqb_eq. rewrite !map_map.
  set (rb := fun p q => cot_recv (sb p q) (dl p q) (b q) words).
  destruct (lt_dec j words) as [Hj|Hj].
  - apply (triples_valid n words a b sb dl rb); [|assumption].
    intros p q w Hp Hq Hne Hw. unfold rb, cot_recv.
    rewrite (nth_map_seq (fun w => N.lxor (nth w (sb p q) 0%N) (N.land (nth w (b q) 0%N) (dmask (dl p q))))) by assumption.
    reflexivity.
  - assert (E : forall p, nth j (triple_batch n words a b sb dl rb p) t0 = t0).
    { intro p. apply nth_overflow. unfold triple_batch. rewrite map_length, seq_length. lia. }
    rewrite (map_ext (fun p => tC (nth j (triple_batch n words a b sb dl rb p) t0)) (fun _ => 0%N)) by (intro p; rewrite E; reflexivity).
    rewrite (map_ext (fun p => tA (nth j (triple_batch n words a b sb dl rb p) t0)) (fun _ => 0%N)) by (intro p; rewrite E; reflexivity).
    rewrite (map_ext (fun p => tB (nth j (triple_batch n words a b sb dl rb p) t0)) (fun _ => 0%N)) by (intro p; rewrite E; reflexivity).
    rewrite !xorN_zero. reflexivity.
Qed.

(* C10_dealt_run_correct, offline + online: a batch dealt by tripleBatch feeds a correct run *)
Theorem dealt_run_correct c isz inputs rnd words a b sb dl (sched : nat -> list nat) :
  wf c = true -> ssa c = true -> gmw_supported c = true ->
  map (@length bool) inputs = isz -> fold_right Nat.add 0 isz = ninputs c -> isz <> [] ->
  words_needed c <= words ->
  let n := length isz in
  let pools := map (fun p => ([], [nth p (deal n words a b sb dl) []], sched p)) (seq 0 n) in
  exists outs, run_gmw c isz inputs rnd pools = Some outs /\ length outs = n /\
               forall o, In o outs -> o = eval_plain c (concat inputs).
Proof.
  intros WF SSA SUP HL HS NE HW n pools.
  assert (Ln : length pools = n) by (unfold pools; rewrite map_length, seq_length; reflexivity).
  assert (PS : map pool_stream pools = deal n words a b sb dl).
  { unfold pools. rewrite map_map. unfold pool_stream, stream. cbn [fst snd concat app].
    rewrite (map_ext _ (fun p => nth p (deal n words a b sb dl) [])) by (intro; rewrite app_nil_r; reflexivity).
    transitivity (map (fun x : triples => x) (deal n words a b sb dl)); [|apply map_id].
    rewrite (map_nth_seq (fun x : triples => x) [] (deal n words a b sb dl)).
    unfold deal at 3. rewrite map_length, seq_length. reflexivity. }
  rewrite <- Ln. apply (online_correct c isz inputs rnd pools WF SSA SUP HL HS Ln).
  - exact (nonnil_of_length _ _ Ln NE).
  - rewrite PS. apply deal_valid.
  - apply Forall_forall. apply (Forall_map pool_stream (fun s => words_needed c <= length s)). rewrite PS. apply Forall_forall. intros s Hs.
    unfold deal in Hs. apply in_map_iff in Hs. destruct Hs as (p & <- & _).
    unfold triple_batch. rewrite map_length, seq_length. assumption.
Qed.

(* non-vacuity: the hypotheses of the theorems are satisfiable and the
   model computes *)
Definition ex_circuit : circuit :=
  mkCircuit 7 3 2 [ mkGate 0 1 3 AND; mkGate 3 2 4 XNOR; mkGate 4 0 5 AND; mkGate 5 0 6 INV ].

Example ex_hyps : wf ex_circuit = true /\ ssa ex_circuit = true /\ gmw_supported ex_circuit = true /\
                  gate_levels ex_circuit = [0; 1; 1; 2] /\ num_levels ex_circuit = 2 /\ words_needed ex_circuit = 2.
Proof. vm_compute. repeat split. Qed.

Definition ex_a (p : nat) : list N := [N.of_nat (5 + 11 * p); 77%N].
Definition ex_b (p : nat) : list N := [N.of_nat (9 + 7 * p); 1234567%N].
Definition ex_sb (p q : nat) : list N := [N.of_nat (p * 31 + q * 17 + 3); N.of_nat (p + q)].
Definition ex_dl (p q : nat) : bool := Nat.odd (p + 2 * q).
Definition ex_rnd (p q : nat) : list bool := [Nat.even (p + q)].

(* three parties, inputs 1,0,1: dealt triples (two words), pools that receive
   the batch late; every party outputs eval_plain *)
Example ex_run :
  run_gmw ex_circuit [1; 1; 1] [[true]; [false]; [true]] ex_rnd
          (map (fun p => ([], [nth p (deal 3 2 ex_a ex_b ex_sb ex_dl) []], [p])) (seq 0 3))
  = Some (repeat (eval_plain ex_circuit [true; false; true]) 3).
Proof. vm_compute. reflexivity. Qed.

Example ex_deal_valid :
  forallb (fun j => triple_valid (col j (deal 3 2 ex_a ex_b ex_sb ex_dl))) [0; 1] = true.
Proof. vm_compute. reflexivity. Qed.

(* a Get that crosses a batch boundary: 70 triples = 2 words from batches of 1 word *)
Example ex_get :
  get_all [70; 1] [] [[mkT 1 2 3]; [mkT 4 5 6]; [mkT 7 8 9]] [0; 0; 5]
  = Some [[mkT 1 2 3; mkT 4 5 6]; [mkT 7 8 9]].
Proof. vm_compute. reflexivity. Qed.

Lemma word_gate_count (bs : list bool) w : w < words_for (length bs) ->
  length (firstn 64 (skipn (64 * w) bs)) =
  if S w =? words_for (length bs) then length bs - 64 * w else 64.
Proof.
  intro H. rewrite firstn_length, skipn_length.
  destruct (Nat.eqb_spec (S w) (words_for (length bs))) as [E|NE]; divlia.
Qed.

Lemma last_word_count n : 0 < n ->
  let cnt := n - 64 * (words_for n - 1) in
  1 <= cnt <= 64 /\ (n mod 64 = 0 -> cnt = 64).
Proof.
  intros Hn cnt. unfold cnt. pose proof (Nat.div_mod n 64 ltac:(lia)) as DM.
  pose proof (Nat.mod_upper_bound n 64 ltac:(lia)) as MB.
  split; [divlia|]. intro Z. rewrite Z in DM.
  assert (E : words_for n = n / 64).
  { unfold words_for. rewrite DM at 1. replace (64 * (n / 64) + 0 + 63) with (63 + (n / 64) * 64) by lia.
    rewrite Nat.div_add by lia. reflexivity. }
  rewrite E. lia.
Qed.

(* the literal transcription of the Go loop computes the same words *)
Lemma pack_go_eq bs words : pack_go bs words = pack bs words.
Proof.
  apply (nth_ext _ _ 0%N 0%N).
  - unfold pack_go. rewrite map_length, seq_length, pack_length. reflexivity.
  - intros w Hw. unfold pack_go in *. rewrite map_length, seq_length in Hw.
    rewrite (nth_map_seq _ words w 0%N Hw), pack_nth by assumption.
    apply N.bits_inj. intro k. rewrite <- (N2Nat.id k). rewrite !testbit_bits_to_N.
    set (j := N.to_nat k).
    destruct (lt_dec j 64) as [Hj|Hj].
    + rewrite (nth_map_seq (fun ofs => (64 * w + ofs <? length bs) && nth (64 * w + ofs) bs false) 64 j false Hj).
      rewrite nth_firstn_lt by assumption. rewrite nth_skipn.
      destruct (Nat.ltb_spec (64 * w + j) (length bs)) as [Hl|Hl]; [reflexivity|].
      rewrite nth_overflow by lia. reflexivity.
    + rewrite !nth_overflow; [reflexivity| |].
      * rewrite firstn_length. lia.
      * rewrite map_length, seq_length. lia.
Qed.

(* C10_pack_unpack_id: packing the n share bits of a batch into ceil(n/64) words and reading the
   n positions back with bit() is the identity, for every n *)
Theorem pack_unpack_id (bs : list bool) :
  unpack (length bs) (pack bs (words_for (length bs))) = bs /\
  unpack (length bs) (pack_go bs (words_for (length bs))) = bs /\
  length (pack bs (words_for (length bs))) = words_for (length bs).
Proof.
  assert (E : unpack (length bs) (pack bs (words_for (length bs))) = bs).
  { apply (nth_ext _ _ false false); unfold unpack.
    - rewrite map_length, seq_length. reflexivity.
    - intros i Hi. rewrite map_length, seq_length in Hi.
      rewrite (nth_map_seq _ (length bs) i false Hi).
      apply bit_pack. apply (words_for_idx i (length bs) Hi). }
  split; [exact E|]. split; [rewrite pack_go_eq; exact E|apply pack_length].
Qed.

Lemma assign_levels_loop_w_id : forall gs levels mx,
  assign_levels_loop_w (fun l => l) gs levels mx = assign_levels_loop gs levels mx.
Proof.
  induction gs as [|g t IH]; intros levels mx; [reflexivity|].
  cbn [assign_levels_loop_w assign_levels_loop]. rewrite IH. reflexivity.
Qed.

(* C10_level_wrap16_refuted.  Wire 0 is the output of an AND chain of depth 65535
   (every level up to 65535 is stored exactly, also modulo 2^16); gate 0 is
   one more AND (level 65535, its output has AND depth 65536), gate 1 consumes
   it.  With the per-wire level stored modulo 2^16 the consumer gets level 0,
   below its producer's, so the level-wise schedule evaluates it 65535 rounds
   before its operand exists; with unbounded levels it gets 65536. *)
Definition wrap_witness : list gate := [ mkGate 0 0 1 AND; mkGate 1 1 2 XOR ].

Lemma wrap_witness_levels wrap d :
  fst (fst (assign_levels_loop_w wrap wrap_witness [d; 0; 0] 0)) = [d; wrap (S d)].
Proof. cbn. rewrite !Nat.max_id. reflexivity. Qed.

Lemma level_wrap16_refuted :
  let d := N.to_nat 65535 in
  fst (fst (assign_levels_loop_w wrap16 wrap_witness [d; 0; 0] 0)) = [d; 0] /\
  fst (fst (assign_levels_loop wrap_witness [d; 0; 0] 0)) = [d; S d] /\
  ~ gate_deps_ok 0 [(mkGate 0 0 1 AND, d)] (mkGate 1 1 2 XOR) 0.
Proof.
  intro d. split; [|split].
  - rewrite wrap_witness_levels.
    assert (E : wrap16 (S d) = 0) by (unfold wrap16, d; rewrite Nat2N.inj_succ, N2Nat.id; reflexivity).
    rewrite E. reflexivity.
  - rewrite <- assign_levels_loop_w_id. apply wrap_witness_levels.
  - intros [[H|(g & L & Hin & Ho & Hle)] _]; [exact (Nat.nlt_0_r _ H)|].
    destruct Hin as [Hin|[]]. inversion Hin; subst g L.
    change (S d <= 0) in Hle. exact (Nat.nle_succ_0 _ Hle).
Qed.
