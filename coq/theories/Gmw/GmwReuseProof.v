(* GmwReuseProof.v — every run of a sequence of Network.Run calls on one
   connected network outputs the plain evaluation of ITS circuit, whatever
   wire shares the earlier runs left behind (GmwReuse.v). *)
From Coq Require Import List Arith Lia.
From Mpc Require Import Base.ListFacts Circuit.Circuit Circuit.GarbleProof Gmw.Gmw Gmw.GmwProof Gmw.GmwReuse.
Import ListNotations.
Local Open Scope nat_scope.

Lemma extend_length n l : length (extend n l) = Nat.max n (length l).
Proof. unfold extend. rewrite app_length, repeat_length. lia. Qed.

Lemma init_on_regions c isz inputs rnd q prev :
  init_on c isz inputs rnd q prev =
  concat (mapi (region (length isz) inputs rnd q) isz) ++ skipn (ninputs c) (extend (nwires c) prev).
Proof. reflexivity. Qed.

Lemma run_on_correct c isz inputs rnd sts Lp R :
  wf c = true -> ssa c = true -> gmw_supported c = true ->
  map (@length bool) inputs = isz -> fold_right Nat.add 0 isz = ninputs c ->
  length isz = length sts -> sts <> [] ->
  (forall st, In st sts -> length (ps_wires st) = Lp) ->
  valid_streams (map sstream sts) ->
  (forall st, In st sts -> words_needed c + R <= length (sstream st)) ->
  exists sts' outs, run_on c isz inputs rnd sts = Some (sts', outs) /\
    length sts' = length sts /\
    (forall st, In st sts' -> length (ps_wires st) = Nat.max (nwires c) Lp) /\
    valid_streams (map sstream sts') /\
    (forall st, In st sts' -> R <= length (sstream st)) /\
    length outs = length sts /\
    forall o, In o outs -> o = eval_plain c (concat inputs).
Proof.
  intros WF SSA SUP HL HS HN NE LP VS EN.
  destruct (proj1 (wf_spec c) WF) as (Hni & Hno & _).
  set (x := concat inputs).
  assert (Lx : length x = ninputs c) by (unfold x; rewrite sum_concat_length, HL; assumption).
  destruct (input_cols c isz inputs rnd HL HS Hni) as [_ IC].
  set (Lw := Nat.max (nwires c) Lp).
  unfold run_on. rewrite SUP. cbn [negb]. rewrite HN, Nat.eqb_refl. cbn [negb].
  set (sts0 := mapi _ sts).
  assert (RLen : forall q, length (concat (mapi (region (length isz) inputs rnd q) isz)) = ninputs c).
  { intro q. rewrite regions_length. assumption. }
  assert (W0len : rows_len Lw (map ps_wires sts0)).
  { intros ws Hin. unfold sts0, mapi in Hin. rewrite map_mapi_from in Hin. cbn [ps_wires] in Hin.
    destruct (In_nth _ _ [] Hin) as (k & Hk & Hn). rewrite mapi_from_length in Hk.
    rewrite (nth_mapi_from _ (mkP [] [] [] []) [] sts 0 k Hk) in Hn. rewrite <- Hn.
    rewrite init_on_regions, app_length, RLen, skipn_length, extend_length.
    rewrite (LP (nth k sts (mkP [] [] [] []))) by (apply nth_In; assumption). unfold Lw. lia. }
  assert (W0col : forall w, w < ninputs c -> xor_col (map ps_wires sts0) w = nth w x false).
  { intros w Hw. unfold x. rewrite <- (IC w Hw). unfold xor_col. f_equal.
    unfold sts0, mapi. rewrite !map_mapi_from. cbn [ps_wires]. rewrite map_map.
    rewrite HN. rewrite <- (mapi_from_seq (fun q => nth w (init_party c isz inputs rnd q) false) sts 0).
    apply mapi_from_ext. intros q st _.
    rewrite init_on_regions, init_party_regions, !app_nth1 by (rewrite RLen; assumption). reflexivity. }
  assert (S0 : map sstream sts0 = map sstream sts) by apply rewire_streams.
  assert (L0 : length sts0 = length sts) by apply mapi_from_length.
  destruct (run_core c x Lw R sts0 WF SSA SUP Lx (Nat.le_max_l _ _)) as (sts' & EL & LA & RLA & VSA & ENA & Ok_out).
  - exact (nonnil_of_length _ _ L0 NE).
  - exact W0len.
  - exact W0col.
  - rewrite S0. assumption.
  - rewrite S0. apply Forall_map, Forall_forall. exact EN.
  - rewrite EL. eexists. eexists. split; [reflexivity|].
    split; [rewrite LA; assumption|].
    split; [intros st Hin; apply RLA; apply in_map; assumption|].
    split; [assumption|]. split; [intros st Hin; apply (proj1 (Forall_forall _ _) ENA), in_map, Hin|]. split.
    + unfold mapi. now rewrite mapi_from_length, map_length, LA.
    + (* Split reads the noutputs low bits of the opened value *)
      intros o Ho. apply in_mapi_idx in Ho as (p & Hp & ->).
      apply (read_out c x sts' (out_go c) (Lw - (nwires c - noutputs c)) p Ok_out); [unfold Lw; lia| | |exact Hp].
      * intros st Hst. unfold out_go. rewrite skipn_length, (RLA (ps_wires st)) by (apply in_map; assumption). reflexivity.
      * intros ws i Hi. unfold out_go, output_wires. now rewrite nth_skipn, seq_nth.
Qed.

Definition job_ok (n : nat) (j : job) : Prop :=
  wf (jc j) = true /\ ssa (jc j) = true /\ gmw_supported (jc j) = true /\
  map (@length bool) (jinputs j) = jisz j /\ fold_right Nat.add 0 (jisz j) = ninputs (jc j) /\
  length (jisz j) = n.

(* C10_reuse_independent: every run of the sequence computes its own circuit on its own inputs,
   from ANY surviving wire state of equal length at all parties *)
Theorem reuse_independent : forall jobs sts Lp,
  sts <> [] ->
  (forall st, In st sts -> length (ps_wires st) = Lp) ->
  valid_streams (map sstream sts) ->
  (forall st, In st sts -> total_need jobs <= length (sstream st)) ->
  Forall (job_ok (length sts)) jobs ->
  exists outs, run_seq jobs sts = Some outs /\
    Forall2 (fun j o => length o = length sts /\
                        forall r, In r o -> r = eval_plain (jc j) (concat (jinputs j))) jobs outs.
Proof.
  induction jobs as [|j rest IH]; intros sts Lp NE LP VS EN OK.
  - exists []. split; [reflexivity|constructor].
  - inversion OK as [|? ? (WF & SSA & SUP & HL & HS & HN) OKr]; subst.
    destruct (run_on_correct (jc j) (jisz j) (jinputs j) (jrnd j) sts Lp (total_need rest)
                WF SSA SUP HL HS HN NE LP VS) as (sts' & o & E & L' & LP' & VS' & EN' & Lo & Oo).
    { intros st Hin. specialize (EN st Hin). cbn [total_need fold_right] in EN. fold (total_need rest) in EN. exact EN. }
    assert (NE' : sts' <> []) by exact (nonnil_of_length _ _ L' NE).
    destruct (IH sts' (Nat.max (nwires (jc j)) Lp) NE' LP' VS' EN') as (os & Eo & F).
    { rewrite L'. assumption. }
    exists (o :: os). cbn [run_seq]. rewrite E, Eo. split; [reflexivity|].
    constructor; [split; assumption|]. rewrite L' in F. exact F.
Qed.

Corollary reuse_independent_fresh jobs pools :
  pools <> [] ->
  valid_streams (map pool_stream pools) ->
  (forall pl, In pl pools -> total_need jobs <= length (pool_stream pl)) ->
  Forall (job_ok (length pools)) jobs ->
  exists outs, run_seq jobs (fresh pools) = Some outs /\
    Forall2 (fun j o => length o = length pools /\
                        forall r, In r o -> r = eval_plain (jc j) (concat (jinputs j))) jobs outs.
Proof.
  intros NE VS EN OK.
  assert (Lf : length (fresh pools) = length pools) by (unfold fresh; apply map_length).
  assert (Sf : map sstream (fresh pools) = map pool_stream pools).
  { unfold fresh. rewrite map_map. reflexivity. }
  destruct (reuse_independent jobs (fresh pools) 0) as (outs & E & F).
  - exact (nonnil_of_length _ _ Lf NE).
  - intros st Hin. unfold fresh in Hin. apply in_map_iff in Hin. destruct Hin as (pl & <- & _). reflexivity.
  - rewrite Sf. assumption.
  - apply Forall_forall, (Forall_map sstream (fun s => total_need jobs <= length s)). rewrite Sf.
    apply Forall_map, Forall_forall. exact EN.
  - rewrite Lf. assumption.
  - exists outs. rewrite Lf in F. split; assumption.
Qed.

(* C10_reuse_untruncated_output_refuted: without the truncation of Split (the opened value
   returned as it is) a small circuit after a bigger one returns the bigger
   circuit's stale wire values above bit nout. *)
Definition ex_big : circuit := mkCircuit 6 2 1 [ mkGate 0 1 2 XNOR; mkGate 0 1 3 XNOR; mkGate 2 3 4 XOR; mkGate 2 3 5 XNOR ].
Definition ex_small : circuit := mkCircuit 3 2 1 [ mkGate 0 1 2 XOR ].
Definition ex_jobs : list job :=
  [ mkJob ex_big [1; 1] [[true]; [true]] (fun _ _ => [true]);
    mkJob ex_small [1; 1] [[true]; [false]] (fun _ _ => [false]) ].

Example ex_reuse :
  run_seq ex_jobs (fresh [([], [], []); ([], [], [])]) = Some [[[true]; [true]]; [[true]; [true]]].
Proof. vm_compute. reflexivity. Qed.

(* the opened output of the second run, before Split: bit 0 is the result,
   bits 1.. are stale wires 3..5 of the first circuit *)
Example ex_reuse_stale_without_split :
  match run_on ex_big [1; 1] [[true]; [true]] (fun _ _ => [true]) (fresh [([], [], []); ([], [], [])]) with
  | Some (sts1, _) =>
      match run_on ex_small [1; 1] [[true]; [false]] (fun _ _ => [false]) sts1 with
      | Some (sts2, _) => bxor_bits 0 (map (fun st => out_go ex_small (ps_wires st)) sts2)
      | None => []
      end
  | None => []
  end = [true; true; false; true].
Proof. vm_compute. reflexivity. Qed.
