(* Nested folds across a cast (C12).  An operand that was itself folded at another
   width and then cast keeps its mpa.Int (Fold.cast changes only the type): a 64-bit
   fold result with bit 63 set is a small Int with a NEGATIVE value (i64 < 0, values
   == nil), a big-path result keeps its container.  [held] is what
   Generator.Constant guarantees of every mpa.Int it leaves behind; the theorems
   hold for every held operand. *)
From Coq Require Import ZArith List Bool Lia.
From Mpc Require Import Lang.Fold Lang.FoldProof Lang.FoldClassProof.
Import ListNotations.
Open Scope Z_scope.

Definition held (m : mint) : Prop :=
  (mbits m <= 64 -> BitLen m <= mbits m) /\
  (64 < mbits m -> 0 <= mval m < 2 ^ mbits m).

Definition mint_of (c : cval) : mint := match c with CI _ m => m | CB _ => mkM 1 0 end.

(* Generator.Constant leaves a held mpa.Int behind, for every small Int (any
   int64 value, negative ones included) and every non-negative big Int. *)
Lemma constant_held v t : (isSmall v = true \/ 0 <= mval v) -> held (mint_of (constant v t)).
Proof.
  intros Hv. unfold constant. simpl mint_of. fold (contb (BitLen v)).
  set (L := BitLen v). destruct (contb_ge L) as [Hg Hg32].
  destruct (isSmall v) eqn:Es.
  - (* small: the same value, re-sized to the container of its bit length *)
    pose proof (BitLen_small_le64 v Es) as HL. fold L in HL.
    pose proof (contb_small L ltac:(lia)) as Hc.
    split; simpl mbits; simpl mval; [|lia]. intros _.
    assert (Es' : isSmall (mkM (contb L) (mval v)) = true) by (apply Z.leb_le; simpl; lia).
    assert (HLeq : BitLen (mkM (contb L) (mval v)) = L)
      by (rewrite (BitLen_small _ Es'); unfold L; rewrite (BitLen_small _ Es); reflexivity).
    rewrite HLeq. exact Hg.
  - (* big and non-negative: the value fits its bit length, hence its new container *)
    destruct Hv as [Hv|Hv]; [discriminate|]. destruct v as [mb V]. simpl mval in *.
    assert (Hmb : mb <= 64 -> V < 2 ^ 64) by (intros H; apply Z.leb_gt in Es; simpl in Es; lia).
    destruct (BitLen_fits mb V Hv Hmb) as [HL0 HVL]. fold L in HL0, HVL.
    pose proof (pow2_le L (contb L) ltac:(lia)) as Hp.
    split; simpl mbits; simpl mval; [|lia]. intros Hc.
    pose proof (pow2_le (contb L) 64 ltac:(lia)). apply BitLen_le; lia.
Qed.

(* the container of a held small Int holds exactly its 64-bit pattern *)
Lemma held_small_inval m : held m -> isSmall m = true -> inval m = u64 (small m).
Proof.
  intros [Hs _] Es. assert (H64 : mbits m <= 64) by (apply Z.leb_le; exact Es).
  specialize (Hs H64). rewrite (BitLen_small _ Es) in Hs.
  pose proof (u64_range (small m)) as HU.
  destruct (bl_bounds _ 64 HU ltac:(lia)) as [B1 B2].
  pose proof (pow2_le (bl (u64 (small m))) (mbits m) ltac:(lia)).
  unfold inval, big. rewrite <- (mod_mod_pow2 (mval m) (mbits m) 64) by lia.
  fold (u64 (mval m)). rewrite <- (u64_wrap (mval m)). apply Z.mod_small. unfold small in *. lia.
Qed.

(* What the program sees of a held constant whose type is at least as wide as
   its container: the container's bits, i.e. the value mpa.Int.bin feeds into the
   circuits of the big path. *)
Lemma held_wires k n mn m : held m -> 0 < mbits m <= n ->
  const_wires (CI (mkT k n mn) m) = inval m.
Proof.
  intros Hm Hn. destruct (isSmall m) eqn:Es.
  - rewrite (held_small_inval m Hm Es). destruct Hm as [Hs _].
    assert (H64 : mbits m <= 64) by (apply Z.leb_le; exact Es).
    specialize (Hs H64). rewrite (BitLen_small _ Es) in Hs.
    apply (cw_small k n mn m _ H64 eq_refl). lia.
  - destruct Hm as [_ Hb]. assert (H64 : 64 < mbits m) by (apply Z.leb_gt; exact Es).
    specialize (Hb H64). destruct m as [mb V]. simpl mbits in *. simpl mval in *.
    unfold inval, big. simpl mbits. simpl mval. rewrite (Z.mod_small V) by lia.
    apply cw_nonneg; [lia|lia|]. apply Z.le_trans with mb; [apply BitLen_le|]; lia.
Qed.

Definition wide_arith (op : binop) : bool :=
  match op with OMul | OAdd | OSub => true | _ => false end.

(* * + - at a declared width n > 64 on ANY two held operands of that type (results
   of earlier folds at any width brought here by casts, literals, negative small
   values included): the folder answers and the folded constant is the circuit's
   result on exactly the wires the program sees of the two operands.  (+ and -
   panic when both containers are more than one bit shorter than n: finding F6f.) *)
Theorem nested_wide_arith op k n ml mr x y :
  wide_arith op = true -> 64 < n -> held x -> held y ->
  0 < mbits x <= n -> 0 < mbits y <= n ->
  (match op with OAdd | OSub => n - 1 <= Z.max (mbits x) (mbits y) | _ => True end) ->
  exists c, evalConst op (CI (mkT k n ml) x) (CI (mkT k n mr) y) = Ok c /\
    good c k n (snd (circuit_sem op k n (const_wires (CI (mkT k n ml) x)) (const_wires (CI (mkT k n mr) y)))).
Proof.
  intros Hop Hn Hx Hy Hbx Hby Hpan.
  rewrite (held_wires k n ml x Hx Hbx), (held_wires k n mr y Hy Hby).
  apply fold_big_binop; try assumption; destruct op; try discriminate Hop; trivial.
Qed.

(* The operand of the seeded-defect class: T2(uint64(0) - uint64(a)), 0 < a <= 2^63,
   is a held constant with a NEGATIVE value in a 64-bit container; its wires are
   2^64 - a. *)
Example nested_operand_negative_small :
  exists t m, (do l <- operand KUint 64 0; do r <- operand KUint 64 5; do c <- evalConst OSub l r; cast KUint 128 c)
              = Ok (CI t m) /\ mval m = -5 /\ mbits m = 64 /\ tbits t = 128 /\ const_wires (CI t m) = 2 ^ 64 - 5.
Proof. exists (mkT KUint 128 64), (mkM 64 (-5)). do 4 (split; [vm_compute; reflexivity|]). vm_compute; reflexivity. Qed.

Example nested_mul_witness :
  run_program KUint 128
    (EBin OMul (ECast KUint 128 (EBin OSub (ECast KUint 64 (ELit 0)) (ECast KUint 64 (ELit 5)))) (ECast KUint 128 (ELit 3)))
  = Ok (3 * 2 ^ 64 - 15).
Proof. vm_compute. reflexivity. Qed.

Definition inrange (m : mint) : Prop := mbits m <= 64 -> - 2 ^ 63 <= mval m < 2 ^ 64.

(* mpint.go ubig(): the big path of & | ^ &^ << >> reads its operands as the
   non-negative number their bits spell (finding F6m). *)
Lemma ubig_inval m : held m -> inrange m -> ubig m = inval m.
Proof.
  intros Hm Hr. unfold ubig. destruct (isSmall m) eqn:Es.
  - rewrite (held_small_inval m Hm Es). unfold small. rewrite u64_wrap. unfold u64.
    specialize (Hr ltac:(apply Z.leb_le; exact Es)). simpl andb.
    destruct (mval m <? 0) eqn:En; [reflexivity|].
    apply Z.ltb_ge in En. symmetry. apply Z.mod_small. lia.
  - destruct Hm as [_ Hb]. specialize (Hb ltac:(apply Z.leb_gt; exact Es)).
    simpl andb. unfold inval, big. symmetry. apply Z.mod_small. lia.
Qed.

Definition wide_bitop (op : binop) : bool :=
  match op with OBand | OBor | OBxor | OBclr => true | _ => false end.

(* & | ^ &^ at a declared width n > 64 on ANY two held operands (folded 64-bit
   constants with bit 63 set included): the folded constant is the circuit's result
   on exactly the wires the program sees of the operands. *)
Theorem nested_wide_bitops op k n ml mr x y :
  wide_bitop op = true -> 64 < n -> held x -> held y -> inrange x -> inrange y ->
  0 < mbits x <= n -> 0 < mbits y <= n ->
  exists c, evalConst op (CI (mkT k n ml) x) (CI (mkT k n mr) y) = Ok c /\
    good c k n (snd (circuit_sem op k n (const_wires (CI (mkT k n ml) x)) (const_wires (CI (mkT k n mr) y)))).
Proof.
  intros Hop Hn Hx Hy Rx Ry Hbx Hby.
  rewrite (held_wires k n ml x Hx Hbx), (held_wires k n mr y Hy Hby).
  pose proof (ubig_inval x Hx Rx). pose proof (ubig_inval y Hy Ry).
  apply fold_big_binop; try assumption; destruct op; try discriminate Hop; auto.
Qed.

(* the F6m witnesses: constant variant = run-time variant *)
Definition f6m_const : expr :=
  EBin OLsh (ECast KUint 128 (ENeg (ECast KUint 64 (ELit 5)))) (ELit 64).
Definition f6m_runtime : expr :=
  EBin OLsh (ECast KUint 128 (ENeg (EIn KUint 64 5))) (ELit 64).

Theorem nested_wide_shift_repaired :
  run_program KUint 128 f6m_const = Ok ((2 ^ 64 - 5) * 2 ^ 64) /\
  run_program KUint 128 f6m_runtime = Ok ((2 ^ 64 - 5) * 2 ^ 64) /\
  run_program KUint 128 (EBin ORsh (ECast KUint 128 (ENeg (ECast KUint 64 (ELit 1)))) (ELit 63)) = Ok 1.
Proof. do 2 (split; [vm_compute; reflexivity|]). vm_compute; reflexivity. Qed.
