(* CircGenDivProof.v — NewUDivider as circuitgen.go calls it: udiv passes nil for
   the remainder, umod passes nil for the quotient (Builders/Div.v models nil
   as []), operands of any two widths (ZeroPad), and NO assumption on the
   divisor: the restoring long division of NewUDividerLong yields the all-ones
   quotient and the dividend as remainder for a zero divisor — the values
   Mini.arith fixes for x / 0 and x % 0.  Destinations may be narrower than the
   operands (ssagen types a division by the left operand: "x / 5" with
   x : uint24 has a 24-wire result while the literal sits in a 32-bit
   container).  All of it is read off Builders/DivProof.v
   (okm_udivider_long_any, okm_new_idivider_any). *)
From Coq Require Import NArith List Arith Lia.
From Mpc Require Import Builders.Emit Builders.EmitProof Builders.Div Builders.DivProof Builders.StructProof
  Builders.StructAdder Builders.StructArith Builders.StructDiv.
Import ListNotations.
Open Scope N_scope.

Definition dq (A B : N) (m : nat) : N := if B =? 0 then 2 ^ N.of_nat m - 1 else A / B.
Definition dr (A B : N) : N := if B =? 0 then A else A mod B.

Corollary okm_new_udivider_q_le a b q :
  (1 <= Nat.max (length a) (length b))%nat -> (length q <= Nat.max (length a) (length b))%nat ->
  okm false (new_udivider a b q [])
      (fun _ e => valN e q = dq (valN e a) (valN e b) (Nat.max (length a) (length b))
                             mod 2 ^ N.of_nat (length q)).
Proof.
  intros Hn Lq. eapply okm_weaken; [apply okm_new_udivider_long, okm_udivider_long_any; exact Hn|].
  cbv beta zeta. intros _ e [HQ _]. rewrite firstn_all2 in HQ by exact Lq. exact HQ.
Qed.

Corollary okm_new_udivider_r_le a b r :
  (1 <= Nat.max (length a) (length b))%nat -> (length r <= Nat.max (length a) (length b))%nat ->
  okm false (new_udivider a b [] r)
      (fun _ e => valN e r = dr (valN e a) (valN e b) mod 2 ^ N.of_nat (length r)).
Proof.
  intros Hn Lr. eapply okm_weaken; [apply okm_new_udivider_long, okm_udivider_long_any; exact Hn|].
  cbv beta zeta. intros _ e [_ HR]. rewrite firstn_all2 in HR by exact Lr. exact HR.
Qed.

(* signed: imod is NewIDivider(cc, a, b, nil, r), idiv is NewIDivider(cc, a, b, q, nil) *)
Theorem okm_new_idivider_r_le a b r :
  (1 <= Nat.max (length a) (length b))%nat -> (length r <= Nat.max (length a) (length b))%nat ->
  okm false (new_idivider a b [] r)
      (fun _ e =>
         let n := Nat.max (length a) (length b) in
         let sa := N.testbit (valN e a) (N.of_nat (n - 1)) in
         let sb := N.testbit (valN e b) (N.of_nat (n - 1)) in
         let A := if sa then negN n (valN e a) else valN e a in
         let B := if sb then negN n (valN e b) else valN e b in
         valN e r = dr A B mod 2 ^ N.of_nat (length r)).
Proof.
  intros Hn Lr. eapply okm_weaken; [apply okm_new_idivider_any; [exact Hn|apply Nat.le_0_l]|].
  cbv beta zeta. intros _ e [HR _]. rewrite firstn_all2 in HR by exact Lr. exact HR.
Qed.

Theorem okm_new_idivider_q_le a b q :
  (1 <= Nat.max (length a) (length b))%nat -> (length q <= Nat.max (length a) (length b))%nat ->
  okm false (new_idivider a b q [])
      (fun _ e =>
         let n := Nat.max (length a) (length b) in
         let sa := N.testbit (valN e a) (N.of_nat (n - 1)) in
         let sb := N.testbit (valN e b) (N.of_nat (n - 1)) in
         let A := if sa then negN n (valN e a) else valN e a in
         let B := if sb then negN n (valN e b) else valN e b in
         valN e q = (if xorb sa sb then negN n (dq A B n) else dq A B n) mod 2 ^ N.of_nat (length q)).
Proof.
  intros Hn Lq. eapply okm_weaken; [apply okm_new_idivider_any; assumption|].
  cbv beta zeta. intros _ e [_ HQ]. exact HQ.
Qed.

(* full-width destinations: the magnitudes are below 2^n, so nothing is cut off *)
Lemma mag_lt (e : env) (x : list wire) n (s : bool) : (length x <= n)%nat ->
  (if s then negN n (valN e x) else valN e x) < 2 ^ N.of_nat n.
Proof.
  intros L. destruct s; [apply negN_lt|]. eapply N.lt_le_trans; [apply valN_lt|].
  apply N.pow_le_mono_r; [discriminate|lia].
Qed.

Theorem okm_new_idivider_r a b r :
  (1 <= Nat.max (length a) (length b))%nat -> length r = Nat.max (length a) (length b) ->
  okm false (new_idivider a b [] r)
      (fun _ e =>
         let n := Nat.max (length a) (length b) in
         let sa := N.testbit (valN e a) (N.of_nat (n - 1)) in
         let sb := N.testbit (valN e b) (N.of_nat (n - 1)) in
         let A := if sa then negN n (valN e a) else valN e a in
         let B := if sb then negN n (valN e b) else valN e b in
         valN e r = dr A B).
Proof.
  intros Hn Lr. eapply okm_weaken; [apply okm_new_idivider_r_le; [exact Hn|rewrite Lr; apply le_n]|].
  cbv beta zeta. intros _ e ->. rewrite Lr. apply N.mod_small, dr_bound, mag_lt, Nat.le_max_l.
Qed.

Theorem okm_new_idivider_q a b q :
  (1 <= Nat.max (length a) (length b))%nat -> length q = Nat.max (length a) (length b) ->
  okm false (new_idivider a b q [])
      (fun _ e =>
         let n := Nat.max (length a) (length b) in
         let sa := N.testbit (valN e a) (N.of_nat (n - 1)) in
         let sb := N.testbit (valN e b) (N.of_nat (n - 1)) in
         let A := if sa then negN n (valN e a) else valN e a in
         let B := if sb then negN n (valN e b) else valN e b in
         valN e q = if xorb sa sb then negN n (dq A B n) else dq A B n).
Proof.
  intros Hn Lq.
  eapply okm_weaken; [apply okm_new_idivider_q_le; [exact Hn|rewrite Lq; apply le_n]|].
  cbv beta zeta. intros _ e ->. rewrite Lq. apply N.mod_small.
  destruct (xorb _ _); [apply negN_lt|]. apply (dq_bound _ _ _ (mag_lt _ _ _ _ (Nat.le_max_l _ _))).
Qed.

Section IS.
Variable ninp : N.
Notation defd := (defd ninp). Notation pend := (pend ninp). Notation wfst := (wfst ninp).
Notation step := (step ninp). Notation oks := (@oks ninp _).

Lemma new_idivider_r_s s a b r :
  gmw s = false -> wfst s -> Forall (defd s) a -> Forall (defd s) b ->
  Forall (pend s) r -> NoDup r ->
  (1 <= Nat.max (length a) (length b))%nat -> (length r <= Nat.max (length a) (length b))%nat ->
  oks (new_idivider a b [] r) s (fun _ s' => step s s' r /\ Forall (defd s') r).
Proof.
  intros G W Fa Fb Pr ND Hn Lr. eapply oks_ext; [apply idiv_split|].
  eapply oks_bind; [apply (idiv_prefix_s ninp s a b _ G W Fa Fb eq_refl Hn)|].
  intros [[[a2 b2] neg4] z0] s1 W1 (S1 & Fa2 & Fb2 & Dn & Dz & La2 & Lb2). cbv beta.
  unfold idiv_suffix. cbn [length Nat.eqb].
  eapply oks_conseq;
    [apply (new_udivider_yao_s ninp s1 a2 b2 [] r); cbn [app]; auto;
     [rewrite (step_gmw _ _ _ _ S1); exact G | eapply Forall_pend_step0; eauto | lia]|].
  cbv beta. intros u s2 W2 (S2 & _ & Fr). cbn [app] in S2. split.
  - exact (step_trans _ _ _ _ _ _ S1 S2).
  - rewrite firstn_all2 in Fr by lia. exact Fr.
Qed.

Lemma new_idivider_q_s s a b q :
  gmw s = false -> wfst s -> Forall (defd s) a -> Forall (defd s) b ->
  Forall (pend s) q -> NoDup q ->
  (1 <= Nat.max (length a) (length b))%nat -> (1 <= length q)%nat ->
  (length q <= Nat.max (length a) (length b))%nat ->
  oks (new_idivider a b q []) s (fun _ s' => step s s' q /\ Forall (defd s') q).
Proof.
  intros G W Fa Fb Pq ND Hn Hq1 Lq. eapply oks_ext; [apply idiv_split|].
  eapply oks_bind; [apply (idiv_prefix_s ninp s a b _ G W Fa Fb eq_refl Hn)|].
  intros [[[a2 b2] neg4] z0] s1 W1 (S1 & Fa2 & Fb2 & Dn & Dz & La2 & Lb2). cbv beta.
  unfold idiv_suffix.
  replace (Nat.eqb (length q) 0) with false by (symmetry; apply Nat.eqb_neq; lia).
  (* q0 = |a| / |b| *)
  sbind fresh_n_s. intros q0 s2 W2 (S2 & ND2 & L2 & P2). cbv beta.
  pose proof (step_trans _ _ _ _ _ _ S1 S2) as S02. cbn [app] in S02.
  eapply oks_bind; [apply (new_udivider_yao_s ninp s2 a2 b2 q0 []); rewrite ?app_nil_r; auto|].
  { rewrite (step_gmw _ _ _ _ S02). exact G. }
  { sfd. }
  { sfd. }
  { eapply Forall_pend_of; eauto. }
  { lia. }
  intros u3 s3 W3 (S3 & Fq0 & _). cbv beta. rewrite app_nil_r in S3.
  rewrite firstn_all2 in Fq0 by lia.
  assert (S03 : step s s3 []).
  { pose proof (step_next _ _ _ _ S1).
    eapply step_weaken_fresh; [eapply step_trans; [exact S02|exact S3]|]. cbn [app].
    intros w Hw. right. apply P2 in Hw. destruct Hw. unfold wire in *. lia. }
  (* q1 = 0 - q0 *)
  sbind fresh_n_s. intros q10 s4 W4 (S4 & ND4 & L4 & P4). cbv beta.
  pose proof (step_trans _ _ _ _ _ _ S03 S4) as S04. cbn [app] in S04.
  eapply oks_bind; [apply new_subtractor_yao_s; auto|].
  { rewrite (step_gmw _ _ _ _ S04). exact G. }
  { constructor; [sdb|constructor]. }
  { sfd. }
  { eapply Forall_pend_of; eauto. }
  { lia. }
  { cbn [length]. lia. }
  intros q1 s5 W5 (S5 & F5 & L5). cbv beta.
  assert (S05 : step s s5 []).
  { pose proof (step_next _ _ _ _ S03).
    eapply step_weaken_fresh; [eapply step_trans; [exact S04|exact S5]|]. cbn [app].
    intros w Hw. right. apply P4 in Hw. destruct Hw. unfold wire in *. lia. }
  eapply oks_conseq; [apply new_mux_s; auto|].
  { sdb. }
  { sfd. }
  { eapply Forall_pend_step0; eauto. }
  { lia. }
  cbv beta. intros _ s6 W6 (S6 & Fq). split; [|exact Fq].
  exact (step_trans _ _ _ _ _ _ S05 S6).
Qed.
End IS.
