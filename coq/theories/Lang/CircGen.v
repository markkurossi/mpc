(* CircGen.v — Gallina model of the SSA -> circuit step of /repo/compiler:
     compiler/ssa/circuitgen.go   Program.CompileCircuit (up to and including
                                  prog.Circuit(cc)), Program.Circuit
     compiler/ssa/program.go      NewProgram (input wires), DefineConstants
     compiler/ssa/wire_allocator.go  Wires / SetWires (value -> wires)
   on top of the gate-emitting monad Builders/Emit.v (circuits.Compiler) and the
   builder transcriptions Builders/*.v (reused, not duplicated).

   SSA programs are the terms of Lang/Ssa.v (the compiler's listing with values
   numbered: inputs 0..k-1, the j-th value-defining instruction defines value
   k+j).  The wire allocator maps a value to its wires by Value.Equal / HashCode;
   here the map is the list [vals] indexed by value number:
     walloc.Wires(v, bits) of a known value      -> nth i vals []
     walloc.Wires( *instr.Out, bits) (new value)  -> fresh_n bits (calloc.Wires)
     walloc.SetWires( *instr.Out, o)              -> the list o itself
   either way the wires registered for instr.Out are appended to [vals].  Go
   builders write into the destination slice they are given and may replace
   elements of it (z[i] = cc.ZeroWire()); alloc.wires shares that slice, so the
   value is registered with the list the builder returns.
   Constants (Program.DefineConstants): cw wires, bit b = OneWire if the bit is
   set else ZeroWire; the operand loop of Program.Circuit then casts every
   operand to the width of its declared type (cut, or padded with the top wire
   for types.TInt, with ZeroWire otherwise).

   A wire is its allocation number (Emit.v): program input wires are 0..n-1 in
   declaration order (NewProgram), every later wire is numbered in allocation
   order; Go's *Wire has no number before Compiler.Compile, the correspondence
   check renumbers both gate lists canonically (first appearance).

   Modelled opcodes: all of Lang/Ssa.v — iadd uadd isub usub imult umult idiv
   udiv imod umod band bor bxor bclr, the 8 ordered comparisons, eq neq and or
   not mov smov lshift rshift srshift slice amov index phi concat bts btc,
   builtin (circuits.Hamming, the only builtin ast/builtin.go emits), circ (the
   embedding of a parsed native circuit: Lang/CircEmbed.v), and ret.
   NOT modelled: the floating point opcodes (no case in Program.Circuit
   either); gc is a no-op of Program.Circuit ([Ounsupported] registers no wires
   and emits nothing).
   Errors/panics of the Go code (slice bounds from >= to, NewMUX width
   mismatch, a destination shorter than a copied range ...) have no
   counterpart: the monad is total; the executable predicate [cg_wf] below
   lists the side conditions under which the instruction is compiled without
   error AND its gates compute the instruction's meaning (CircGenProof.v).

   No proofs in this file. *)
From Coq Require Import ZArith NArith List Bool Arith.
From Mpc Require Import Gen.Thresholds Lang.Mini Lang.Ssa Builders.Emit Builders.Adder Builders.Sub
  Builders.Mult Builders.Div Builders.Cmp Builders.Mux Builders.Index Builders.Bitwise Builders.Hamming
  Lang.CircEmbed.
Import ListNotations.
Open Scope monad_scope.
Local Open Scope nat_scope.

Fixpoint mapM {A B} (f : A -> M B) (l : list A) : M (list B) :=
  match l with
  | [] => ret []
  | a :: r => b <- f a;; bs <- mapM f r;; ret (b :: bs)
  end.

(* consecutive wire numbers from .. from+n-1 *)
Definition wrng (from : N) (n : nat) : list wire := map (fun i => (from + N.of_nat i)%N) (seq 0 n).

(* Program.DefineConstants: "if c.Bit(bit) { w = one } else { w = zero }" *)
Definition const_wires (zw ow : wire) (cw : nat) (cv : N) : list wire :=
  map (fun b => if N.testbit cv (N.of_nat b) then ow else zw) (seq 0 cw).

(* Program.Circuit, loop over instr.In: "if len(w) != int(in.Type.Bits) { ... }" *)
Definition cg_resize (w : list wire) (t : sty) : M (list wire) :=
  let n := s_bits t in
  if Nat.eqb (length w) n then ret w
  else
    pad <- (if s_signed t && Nat.ltb 0 (length w) then ret (last w 0%N) else zero_wire);;
    (* "if bit < len(w) { cw[bit] = w[bit] } else { cw[bit] = pad }" *)
    ret (map (fun bit => nth bit w pad) (seq 0 n)).

(* prog.walloc.Wires(in, in.Type.Bits) + the cast above.  A constant's wires
   were registered by DefineConstants from cc.ZeroWire()/cc.OneWire(), which
   exist since CompileCircuit (zero_wire/one_wire return the same wires). *)
Definition cg_opnd (vals : list (list wire)) (o : opnd) : M (list wire) :=
  match o with
  | OVar i t => cg_resize (nth i vals []) t
  | OConst cw cv t =>
      zw <- zero_wire;; ow <- one_wire;;
      cg_resize (const_wires zw ow cw cv) t
  end.

(* "for i := 0; i < int(instr.Out.Type.Bits); i++ { cc.INV(wires[0][i], o[i]) }" *)
Fixpoint inv_loop (x o : list wire) : M unit :=
  match x, o with
  | xi :: x', oi :: o' => cc_inv xi oi;; inv_loop x' o'
  | _, _ => ret tt
  end.

Section CG.
(* circuits.multiplierArrayTresholds (Gen/Thresholds.v), Params.CircMultArrayTreshold *)
Variable tbl : list (nat * nat).
Variable thr : nat.

(* the switch of Program.Circuit on instr.Op; ws = the operand wires ("wires");
   result = wires registered for instr.Out *)
Definition cg_body (i : instr) (ws : list (list wire)) : M (list wire) :=
  let w0 := nth 0 ws [] in
  let w1 := nth 1 ws [] in
  let w2 := nth 2 ws [] in
  let ob := s_bits (i_out i) in
  let cst := fun k => opnd_const (arg k (i_args i)) in
  (* builders writing into freshly allocated output wires *)
  let bld := fun (b : list wire -> M (list wire)) => o <- fresh_n ob;; b o in
  let bldu := fun (b : list wire -> M unit) => o <- fresh_n ob;; b o;; ret o in
  (* outputs wired by SetWires: bit -> wire *)
  let wired := fun (f : nat -> wire) => ret (map f (seq 0 ob)) in
  match i_op i with
  | Oiadd | Ouadd => bld (new_adder w0 w1)
  | Oisub | Ousub => bld (new_subtractor w0 w1)
  | Oimult | Oumult => bld (new_multiplier tbl thr w0 w1)
  | Oidiv => bldu (fun o => new_idivider w0 w1 o [])
  | Oudiv => bldu (fun o => new_udivider w0 w1 o [])
  | Oimod => bldu (fun o => new_idivider w0 w1 [] o)
  | Oumod => bldu (fun o => new_udivider w0 w1 [] o)
  | Oband => bldu (binary_and w0 w1)
  | Obclr => bldu (binary_clear w0 w1)
  | Obor => bldu (binary_or w0 w1)
  | Obxor => bldu (binary_xor w0 w1)
  | Oilt => bldu (int_lt w0 w1)
  | Oult => bldu (uint_lt w0 w1)
  | Oile => bldu (int_le w0 w1)
  | Oule => bldu (uint_le w0 w1)
  | Oigt => bldu (int_gt w0 w1)
  | Ougt => bldu (uint_gt w0 w1)
  | Oige => bldu (int_ge w0 w1)
  | Ouge => bldu (uint_ge w0 w1)
  | Oeq => bldu (eq_comparator w0 w1)
  | Oneq => bldu (neq_comparator w0 w1)
  | Oand => bldu (logical_and w0 w1)
  | Oor => bldu (logical_or w0 w1)
  | Onot => bldu (inv_loop w0)
  | Omov => z <- zero_wire;; wired (fun b => nth b w0 z)
  | Osmov => let sg := last w0 0%N in wired (fun b => nth b w0 sg)
  | Olshift =>
      z <- zero_wire;;
      let c := cst 1 in
      wired (fun b => if Nat.leb c b then nth (b - c) w0 z else z)
  | Orshift => z <- zero_wire;; let c := cst 1 in wired (fun b => nth (b + c) w0 z)
  | Osrshift => let sg := last w0 0%N in let c := cst 1 in wired (fun b => nth (b + c) w0 sg)
  | Oslice =>
      z <- zero_wire;;
      let from := cst 1 in let to := cst 2 in
      wired (fun b => if Nat.ltb b (to - from) then nth (from + b) w0 z else z)
  | Oamov =>
      z <- zero_wire;;
      let from := cst 2 in let to := cst 3 in
      wired (fun b => if Nat.ltb b from || Nat.leb to b then nth b w1 z else nth (b - from) w0 z)
  | Oindex => bld (new_index (i_aux i) (skipn (cst 1) w0) w2)
  | Ophi => bldu (new_mux w0 w1 w2)
  | Oconcat => ret (w0 ++ w1)        (* copy(o, wires[0]); o[len(wires[0])+i] = wires[1][i] *)
  | Obts => bld (bit_set_test w0 (cst 1))
  | Obtc => bld (bit_clr_test w0 (cst 1))
  | Ohamming => bld (hamming w0 w1)  (* instr.Builtin(cc, wires[0], wires[1], o) *)
  | Ounsupported => ret []
  | Ocirc ins c => embed_circ ins ob c ws   (* case Circ: Lang/CircEmbed.v *)
  end.

(* one step: operand wires, then the switch *)
Definition cg_instr (vals : list (list wire)) (i : instr) : M (list wire) :=
  ws <- mapM (cg_opnd vals) (i_args i);;
  cg_body i ws.

(* the loop over prog.Steps *)
Fixpoint cg_code (code : list instr) (vals : list (list wire)) : M (list (list wire)) :=
  match code with
  | [] => ret vals
  | i :: r => o <- cg_instr vals i;; cg_code r (vals ++ [o])
  end.

(* case Ret: "o := cc.Calloc.Wire(); cc.ID(w, o); cc.OutputWires = append(...)" *)
Definition cg_ret_wire (w : wire) : M wire := o <- fresh;; cc_id w o;; ret o.

(* NewProgram: one walloc.Wires per input argument, in order *)
Fixpoint input_wires (from : N) (ws : list nat) : list (list wire) :=
  match ws with
  | [] => []
  | w :: r => wrng from w :: input_wires (from + N.of_nat w)%N r
  end.

Definition total_bits (ws : list nat) : nat := fold_right Nat.add 0 ws.

(* CompileCircuit: DefineConstants(cc.ZeroWire(), cc.OneWire()); prog.Circuit(cc).
   Result: the output wires, one list per operand of ret. *)
Definition cg_prog (p : sprog) : M (list (list wire)) :=
  _ <- zero_wire;; _ <- one_wire;;
  vals <- cg_code (sp_code p) (input_wires 0 (sp_inputs p));;
  rws <- mapM (cg_opnd vals) (sp_rets p);;
  mapM (mapM cg_ret_wire) rws.

Record ccirc : Type := mkCC {
  cc_ninp : nat;                 (* number of input wires (0..ninp-1) *)
  cc_gates : list gate;          (* Compiler.Gates after prog.Circuit, newest first *)
  cc_outs : list (list wire) }.  (* Compiler.OutputWires, per returned value *)

Definition circuit_of_ssa_gen (tg : bool) (p : sprog) : ccirc :=
  let n := total_bits (sp_inputs p) in
  let '(outs, s) := cg_prog p (st0 (N.of_nat n) tg) in
  mkCC n (gates s) outs.

(* ---- side conditions (executable) ----
   Per instruction: the operand count of the opcode and the width relations
   under which (a) the Go code reports no error / does not index out of range
   and (b) the builder computes the opcode's meaning in Lang/Ssa.v (e.g. a
   result wider than the operands of an adder would see the carry, which
   [arith] drops).  An operand naming an undefined value has no wires and the
   value 0 on both sides, so no definedness condition is needed.
   Division: the divider statements of C07 assume a non-zero divisor and quotient
   and remainder destinations of full width; circuitgen passes nil for one of
   them.  Builders/DivProof.v proves NewUDivider / NewIDivider (and
   Lang/CircGenDivProof.v instantiates them) for that
   calling convention, for a zero divisor, for operands of any two widths (the
   narrower one is zero padded, also by NewIDivider) and for a destination
   narrower than the operands (ssagen types x / 5 by x, the literal sits in a
   32-bit container).
   circ: the sub-circuit meets [circ_ok] (Circuit.wf, single assignment, inputs
   and outputs disjoint), its input widths add up to its number of input wires,
   the result has its number of output wires, no argument is wider than its input.
   NOT covered (cg_wf_instr = false): the opcodes Lang/Ssa.v does not model. *)
Definition is_const (o : opnd) : bool := match o with OConst _ _ _ => true | _ => false end.

(* circ: one argument per input of the sub-circuit, none wider than that input
   (ast/builtin.go nativeCircuit rejects a wider argument; a narrower one must
   be a constant there — the padding itself does not care) *)
Fixpoint args_fit (a : list opnd) (ins : list nat) : bool :=
  match a, ins with
  | [], [] => true
  | x :: ar, n :: nr => Nat.leb (opnd_bits x) n && args_fit ar nr
  | _, _ => false
  end.

Definition cg_wf_instr (i : instr) : bool :=
  let a := i_args i in
  let b0 := opnd_bits (arg 0 a) in
  let b1 := opnd_bits (arg 1 a) in
  let b2 := opnd_bits (arg 2 a) in
  let ob := s_bits (i_out i) in
  let mx := Nat.max b0 b1 in
  let nargs := fun n => Nat.eqb (length a) n in
  let cst := fun k => opnd_const (arg k a) in
  match i_op i with
  | Oiadd | Ouadd | Oimult | Oumult | Oisub | Ousub =>
      nargs 2 && Nat.leb 1 ob && Nat.leb ob mx
  | Oband | Obor | Obxor | Obclr => nargs 2 && Nat.leb 1 mx && Nat.leb ob mx
  | Oudiv | Oumod => nargs 2 && Nat.leb 1 mx && Nat.leb ob mx
  | Oidiv | Oimod => nargs 2 && Nat.leb 1 mx && Nat.leb 1 ob && Nat.leb ob mx
  | Oult | Oule | Ougt | Ouge | Oeq | Oneq => nargs 2 && Nat.leb 1 mx && Nat.eqb ob 1
  | Oilt | Oile | Oigt | Oige => nargs 2 && Nat.leb 1 mx && Nat.eqb ob 1
  | Oand | Oor => nargs 2 && Nat.eqb b0 1 && Nat.eqb b1 1 && Nat.eqb ob 1
  | Onot => nargs 1 && Nat.leb ob b0
  | Omov => nargs 1
  | Osmov => nargs 1 && Nat.leb 1 b0
  | Olshift | Orshift => nargs 2 && is_const (arg 1 a)
  | Osrshift => nargs 2 && is_const (arg 1 a) && Nat.leb 1 b0
  | Oslice =>
      nargs 3 && is_const (arg 1 a) && is_const (arg 2 a) &&
      Nat.ltb (cst 1) (cst 2) && Nat.leb (cst 2 - cst 1) ob
  | Oamov =>
      nargs 4 && is_const (arg 2 a) && is_const (arg 3 a) && Nat.ltb (cst 2) (cst 3)
  | Oindex =>
      nargs 3 && is_const (arg 1 a) && Nat.leb 1 (i_aux i) && Nat.eqb ob (i_aux i) &&
      Nat.leb (cst 1) b0 && Nat.leb 1 ((b0 - cst 1) / i_aux i) &&
      Nat.eqb ((b0 - cst 1) mod i_aux i) 0 && Nat.leb 1 b2
  | Ophi => nargs 3 && Nat.eqb b0 1 && Nat.eqb ob (Nat.max b1 b2)
  | Oconcat => nargs 2 && Nat.eqb ob (b0 + b1)
  | Obts | Obtc => nargs 2 && is_const (arg 1 a) && Nat.eqb ob 1
  | Ohamming => nargs 2 && Nat.leb 2 mx && Nat.leb 1 ob
  | Ounsupported => false
  | Ocirc ins c =>
      args_fit a ins && Nat.eqb (tot ins) (Circuit.ninputs c) && Nat.eqb ob (Circuit.noutputs c) && circ_ok c
  end.

(* GMW target: NewUDivider dispatches to the Goldschmidt divider, which is not
   exact (C07: F31-F33) — division is excluded there *)
Definition is_div (o : opcode) : bool :=
  match o with Oidiv | Oudiv | Oimod | Oumod => true | _ => false end.
Definition ok_tg (tg : bool) (i : instr) : bool := negb tg || negb (is_div (i_op i)).

(* at least one input wire (circuits.NewCompiler: "no inputs defined");
   InputWires[0] is wire 0 *)
Definition cg_wf (p : sprog) : bool :=
  Nat.leb 1 (total_bits (sp_inputs p)) && forallb cg_wf_instr (sp_code p).

(* per target: tg = false Yao, tg = true GMW (no division) *)
Definition cg_wf_tg (tg : bool) (p : sprog) : bool :=
  cg_wf p && forallb (ok_tg tg) (sp_code p).

End CG.

(* the configuration of utils.NewParams() (what compiler.New(params).Compile uses by
   default): Yao target, CircMultArrayTreshold = 0, the shipped threshold table *)
Definition circuit_of_ssa (p : sprog) : ccirc :=
  circuit_of_ssa_gen multiplierArrayTresholds 0 false p.

(* ---- evaluation of the generated circuit ---- *)
Definition env_of_bits (bs : list bool) : Emit.env := fun w => nth (N.to_nat w) bs false.

Definition bits_of_N (w : nat) (v : N) : list bool :=
  map (fun i => N.testbit v (N.of_nat i)) (seq 0 w).

(* the bits on the input wires: argument k occupies the next (width k) wires,
   least significant bit first (circuit.Circuit.Compute / IO layout) *)
Fixpoint input_bits (ws : list nat) (inp : list N) : list bool :=
  match ws with
  | [] => []
  | w :: r => match inp with
              | v :: vr => bits_of_N w v ++ input_bits r vr
              | [] => repeat false w ++ input_bits r []
              end
  end.

(* gate-by-gate evaluation in emission order, outputs as numbers (LSB first) *)
Definition eval_circuit (c : ccirc) (bs : list bool) : list N :=
  map (valN (eval_rev (cc_gates c) (env_of_bits bs))) (cc_outs c).
