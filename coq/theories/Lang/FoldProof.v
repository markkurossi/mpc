(* Theorems about the constant-folding model Lang/Fold.v (C12).  The full
   statement "folded result as seen by the program = circuit" is false of the
   faithful model, and so is totality: one concrete witness per failing class, each
   replayed on the implementation by the harness.  The positive theorems hold for
   all widths 1..64 and all values of the classes they name; [smallc] is the
   invariant under which folding never panics. *)
From Coq Require Import ZArith Znumtheory List Bool Lia.
From Mpc Require Import Lang.Fold.
Import ListNotations.
Open Scope Z_scope.

Lemma pow2_pos n : 0 <= n -> 0 < 2 ^ n.
Proof. intros; apply Z.pow_pos_nonneg; lia. Qed.

Lemma pow2_le a b : 0 <= a <= b -> 2 ^ a <= 2 ^ b.
Proof. intros; apply Z.pow_le_mono_r; lia. Qed.

Lemma mod_mod_pow2 x j m : 0 <= j <= m -> (x mod 2 ^ m) mod 2 ^ j = x mod 2 ^ j.
Proof.
  intros H. symmetry. apply Zmod_div_mod; try (apply pow2_pos; lia).
  exists (2 ^ (m - j)). rewrite <- Z.pow_add_r by lia. f_equal; lia.
Qed.

Lemma u64_wrap x : u64 (wrap_s64 x) = u64 x.
Proof.
  unfold u64, wrap_s64.
  rewrite Zminus_mod, Zmod_mod, <- Zminus_mod. f_equal; lia.
Qed.

Lemma wrap_mod j y : 0 <= j <= 64 -> (wrap_s64 y) mod 2 ^ j = y mod 2 ^ j.
Proof.
  intros H. rewrite <- (mod_mod_pow2 (wrap_s64 y) j 64 H), <- (mod_mod_pow2 y j 64 H).
  f_equal. apply u64_wrap.
Qed.

Lemma wrap_id x : - 2 ^ 63 <= x < 2 ^ 63 -> wrap_s64 x = x.
Proof. intros H; unfold wrap_s64. rewrite Z.mod_small; lia. Qed.

Lemma wrap_range x : - 2 ^ 63 <= wrap_s64 x < 2 ^ 63.
Proof.
  unfold wrap_s64. pose proof (Z.mod_pos_bound (x + 2 ^ 63) (2 ^ 64) ltac:(lia)). lia.
Qed.

Lemma u64_range x : 0 <= u64 x < 2 ^ 64.
Proof. unfold u64; apply Z.mod_pos_bound; lia. Qed.

(* bit length on the small path: 1 for 0, where bitlen_abs gives 0 *)
Definition bl (v : Z) : Z := Z.max 1 (Z.log2 v + 1).

Lemma bl_bounds v j : 0 <= v < 2 ^ j -> 1 <= j -> 1 <= bl v <= j /\ v < 2 ^ bl v.
Proof.
  intros Hv Hj. unfold bl.
  destruct (Z.eq_dec v 0) as [->|Hn].
  - change (Z.max 1 (Z.log2 0 + 1)) with 1. change (2 ^ 1) with 2. lia.
  - assert (0 < v) by lia.
    assert (Z.log2 v < j) by (apply Z.log2_lt_pow2; lia).
    pose proof (Z.log2_spec v H) as [_ Hs]. pose proof (Z.log2_nonneg v).
    rewrite Z.max_r by lia. replace (Z.succ (Z.log2 v)) with (Z.log2 v + 1) in Hs by lia. lia.
Qed.

Lemma bitlen_abs_spec a : 0 < a -> 1 <= bitlen_abs a /\ 2 ^ (bitlen_abs a - 1) <= a < 2 ^ bitlen_abs a.
Proof.
  intros H. unfold bitlen_abs. destruct (a =? 0) eqn:E; [apply Z.eqb_eq in E; lia|].
  rewrite Z.abs_eq by lia. pose proof (Z.log2_spec a H) as [H1 H2]. pose proof (Z.log2_nonneg a).
  replace (Z.log2 a + 1 - 1) with (Z.log2 a) by lia.
  replace (Z.succ (Z.log2 a)) with (Z.log2 a + 1) in H2 by lia. lia.
Qed.

Lemma bitlen_abs_le a n : 0 < a -> 0 <= n -> bitlen_abs a <= n <-> a < 2 ^ n.
Proof.
  intros Ha Hn. destruct (bitlen_abs_spec a Ha) as [B1 [B2 B3]]. split; intros H.
  - pose proof (pow2_le (bitlen_abs a) n ltac:(lia)). lia.
  - destruct (Z_lt_le_dec n (bitlen_abs a)) as [Hc|Hc]; [|lia].
    pose proof (pow2_le n (bitlen_abs a - 1) ltac:(lia)). lia.
Qed.

Lemma bitlen_abs_unique v j : 1 <= j -> 2 ^ (j - 1) <= v < 2 ^ j -> bitlen_abs v = j.
Proof.
  intros Hj Hv. assert (0 < 2 ^ (j - 1)) by (apply pow2_pos; lia).
  pose proof (proj2 (bitlen_abs_le v j ltac:(lia) ltac:(lia)) ltac:(lia)).
  pose proof (bitlen_abs_le v (j - 1) ltac:(lia) ltac:(lia)). lia.
Qed.

Lemma bl_pos v : 0 < v -> bl v = bitlen_abs v.
Proof.
  intros H. unfold bl, bitlen_abs. rewrite (proj2 (Z.eqb_neq v 0)), Z.abs_eq by lia.
  pose proof (Z.log2_nonneg v). lia.
Qed.

Lemma bl_unique v j : 1 <= j -> 2 ^ (j - 1) <= v < 2 ^ j -> bl v = j.
Proof.
  intros Hj Hv. assert (0 < 2 ^ (j - 1)) by (apply pow2_pos; lia).
  rewrite bl_pos by lia. apply bitlen_abs_unique; assumption.
Qed.

Lemma contb_cases mb :
  (mb <= 32 /\ contb mb = 32) \/ (32 < mb <= 64 /\ contb mb = 64) \/ (64 < mb /\ contb mb = mb).
Proof.
  unfold contb.
  destruct (64 <? mb) eqn:E1; [apply Z.ltb_lt in E1; lia|apply Z.ltb_ge in E1].
  destruct (32 <? mb) eqn:E2; [apply Z.ltb_lt in E2|apply Z.ltb_ge in E2]; lia.
Qed.

Lemma contb_ge L : L <= contb L /\ 32 <= contb L.
Proof.
  unfold contb. destruct (64 <? L) eqn:E1; [apply Z.ltb_lt in E1; lia|apply Z.ltb_ge in E1].
  destruct (32 <? L) eqn:E2; [lia|apply Z.ltb_ge in E2; lia].
Qed.

Lemma contb_small L : L <= 64 -> contb L <= 64.
Proof.
  intros H. unfold contb. destruct (64 <? L) eqn:E1; [apply Z.ltb_lt in E1; lia|].
  destruct (32 <? L); lia.
Qed.

Lemma contb_bl v : 0 <= v -> contb (bl v) = contb (bitlen_abs v).
Proof.
  intros H. destruct (Z.eq_dec v 0) as [->|Hn]; [reflexivity|]. rewrite bl_pos by lia. reflexivity.
Qed.

Lemma BitLen_small m : isSmall m = true -> BitLen m = bl (u64 (small m)).
Proof. intros H; unfold BitLen; rewrite H; reflexivity. Qed.

Lemma BitLen_small_le64 m : isSmall m = true -> 1 <= BitLen m <= 64.
Proof.
  intros H. rewrite BitLen_small by assumption.
  pose proof (u64_range (small m)). apply (bl_bounds _ 64); lia.
Qed.

Lemma BitLen_val mb V : 0 <= V -> (mb <= 64 -> V < 2 ^ 64) ->
  BitLen (mkM mb V) = if mb <=? 64 then bl V else bitlen_abs V.
Proof.
  intros HV Hmb. unfold BitLen, isSmall, small, big. simpl mbits. simpl mval.
  destruct (mb <=? 64) eqn:E; [apply Z.leb_le in E|reflexivity].
  rewrite u64_wrap. unfold u64. rewrite Z.mod_small by lia. reflexivity.
Qed.

Lemma BitLen_fits mb V : 0 <= V -> (mb <= 64 -> V < 2 ^ 64) ->
  0 <= BitLen (mkM mb V) /\ V < 2 ^ BitLen (mkM mb V).
Proof.
  intros HV Hmb. rewrite BitLen_val by assumption.
  destruct (mb <=? 64) eqn:E; [apply Z.leb_le in E|].
  - pose proof (bl_bounds V 64 ltac:(lia) ltac:(lia)). lia.
  - destruct (Z.eq_dec V 0) as [->|Hn]; [change (bitlen_abs 0) with 0; change (2 ^ 0) with 1; lia|].
    pose proof (bitlen_abs_spec V ltac:(lia)). lia.
Qed.

Lemma BitLen_le mb V n : 0 <= V < 2 ^ n -> 1 <= n -> (mb <= 64 -> V < 2 ^ 64) -> BitLen (mkM mb V) <= n.
Proof.
  intros HV Hn Hmb. rewrite BitLen_val by (assumption || lia).
  destruct (mb <=? 64).
  - pose proof (bl_bounds V n HV Hn). lia.
  - destruct (Z.eq_dec V 0) as [->|Hn0]; [change (bitlen_abs 0) with 0; lia|].
    apply bitlen_abs_le; lia.
Qed.

Definition smallc (c : cval) : Prop :=
  match c with
  | CI t m => 0 < tbits t <= 64 /\ mbits m <= 64
  | CB _ => True
  end.

Lemma blen_spec a : 0 <= a -> 1 <= blen a /\ a < 2 ^ blen a /\ (forall j, 1 <= j -> a < 2 ^ j -> blen a <= j).
Proof.
  intros Ha. unfold blen. destruct (a <? 2 ^ 64) eqn:E; [apply Z.ltb_lt in E|apply Z.ltb_ge in E].
  - fold (bl a). destruct (bl_bounds a 64 ltac:(lia) ltac:(lia)) as [H1 H2].
    split; [lia|]. split; [assumption|]. intros j Hj Hlt.
    destruct (bl_bounds a j ltac:(lia) Hj). lia.
  - destruct (bitlen_abs_spec a ltac:(lia)) as [H1 [H2 H3]].
    split; [lia|]. split; [assumption|]. intros j Hj Hlt. apply bitlen_abs_le; lia.
Qed.

Lemma cont_spec a : 0 <= a ->
  blen a <= cont a /\ a < 2 ^ cont a /\ 32 <= cont a /\
  (a < 2 ^ 64 -> cont a = 32 \/ cont a = 64) /\
  (forall n, 64 < n -> a < 2 ^ n -> cont a <= n).
Proof.
  intros Ha. destruct (blen_spec a Ha) as [H1 [H2 H3]]. unfold cont.
  destruct (contb_cases (blen a)) as [[Hc ->]|[[Hc ->]|[Hc ->]]].
  - repeat split; try lia. pose proof (pow2_le (blen a) 32 ltac:(lia)). lia.
  - repeat split; try lia. pose proof (pow2_le (blen a) 64 ltac:(lia)). lia.
  - repeat split; try lia.
    + intros Hlt. specialize (H3 64 ltac:(lia) Hlt). lia.
    + intros n Hn Hlt. apply H3; lia.
Qed.

(* the wires of a constant whose type is at least as wide as the bit length of
   its mpa.Int spell the value: any small Int read as uint64, ... *)
Lemma cw_small k W mn m V :
  mbits m <= 64 -> u64 (small m) = V -> bl V <= W ->
  const_wires (CI (mkT k W mn) m) = V /\ BitLen m = bl V.
Proof.
  intros Hcb Hu HW.
  assert (Hsm : isSmall m = true) by (apply Z.leb_le; lia).
  assert (HBL : BitLen m = bl V) by (rewrite (BitLen_small _ Hsm), Hu; reflexivity).
  split; [|assumption].
  unfold const_wires. rewrite Hsm, HBL. simpl tbits.
  pose proof (u64_range (small m)) as Hr. rewrite Hu in Hr.
  destruct (bl_bounds V 64 Hr ltac:(lia)) as [Hb1 Hb2].
  rewrite Z.min_r by lia.
  rewrite <- (mod_mod_pow2 (small m) (bl V) 64) by lia. fold (u64 (small m)). rewrite Hu.
  apply Z.mod_small; lia.
Qed.

(* ... and any Int that holds a non-negative value *)
Lemma cw_nonneg k W mn mb V : 0 <= V -> (mb <= 64 -> V < 2 ^ 64) -> BitLen (mkM mb V) <= W ->
  const_wires (CI (mkT k W mn) (mkM mb V)) = V.
Proof.
  intros HV Hmb HW. destruct (BitLen_fits mb V HV Hmb) as [HL0 Hfit].
  unfold const_wires. simpl tbits. rewrite Z.min_r by assumption.
  destruct (isSmall (mkM mb V)) eqn:E.
  - pose proof (BitLen_small_le64 _ E). unfold small; simpl mval.
    rewrite wrap_mod by lia. apply Z.mod_small; lia.
  - apply Z.mod_small. unfold big; simpl mval. lia.
Qed.

(* the constant Generator.Constant makes of the small-path value V for a
   declared type of N bits *)
Definition mkres (k : kind) (N V : Z) : cval :=
  CI (mkT k (Z.max N (contb (bl V))) (bl V)) (mkM (contb (bl V)) (wrap_s64 V)).

Lemma constant_small k N mn M V : M <= 64 -> 0 <= V < 2 ^ 64 ->
  constant (mkM M (wrap_s64 V)) (mkT k N mn) = mkres k N V.
Proof.
  intros HM HV. unfold constant.
  assert (Hsm : isSmall (mkM M (wrap_s64 V)) = true) by (apply Z.leb_le; assumption).
  rewrite (BitLen_small _ Hsm). unfold small; simpl mval.
  rewrite !u64_wrap. unfold u64. rewrite (Z.mod_small V) by lia. reflexivity.
Qed.

Lemma setSmall_le64 M x : M <= 64 -> setSmall M x = Ok (mkM M (wrap_s64 (u64 x mod 2 ^ M))).
Proof. intros H. unfold setSmall. rewrite (proj2 (Z.ltb_ge 64 M)) by lia. reflexivity. Qed.

Lemma setSmall_constant k N mn M x : 1 <= M <= 64 ->
  (do v <- setSmall M x; Ok (constant v (mkT k N mn))) = Ok (mkres k N (x mod 2 ^ M)).
Proof.
  intros HM. rewrite setSmall_le64 by lia. unfold u64. rewrite mod_mod_pow2 by lia. cbn [bind].
  pose proof (Z.mod_pos_bound x (2 ^ M) (pow2_pos M ltac:(lia))). pose proof (pow2_le M 64 ltac:(lia)).
  rewrite constant_small by lia. reflexivity.
Qed.

Lemma small_result_facts k N V :
  1 <= N <= 64 -> 0 <= V < 2 ^ N ->
  let c := mkres k N V in
  const_wires c = V /\ tk (ctype c) = k /\ tmin (ctype c) <= N /\ N <= tbits (ctype c) <= 64 /\
  (N = 32 -> tbits (ctype c) = 32) /\ smallc c.
Proof.
  intros HN HV c.
  assert (HV64 : 0 <= V < 2 ^ 64) by (pose proof (pow2_le N 64 ltac:(lia)); lia).
  destruct (bl_bounds V N HV ltac:(lia)) as [Hb1 Hb2].
  pose proof (contb_small (bl V) ltac:(lia)) as Hc64. pose proof (contb_ge (bl V)) as Hcge.
  assert (Hc32 : N = 32 -> contb (bl V) = 32)
    by (destruct (contb_cases (bl V)) as [[? ?]|[[? ?]|[? ?]]]; lia).
  assert (Hcw : const_wires c = V).
  { apply cw_small; simpl mbits; [lia| |lia].
    unfold small; simpl mval. rewrite !u64_wrap. unfold u64. apply Z.mod_small; lia. }
  unfold c, mkres in *. simpl ctype. simpl tk. simpl tmin. simpl tbits. simpl smallc.
  split; [exact Hcw|]. repeat split; lia.
Qed.

Lemma small_fold_sound k N V (r : res cval) : 1 <= N <= 64 -> 0 <= V < 2 ^ N -> r = Ok (mkres k N V) ->
  exists c, r = Ok c /\
    const_wires c = V /\ tk (ctype c) = k /\ tmin (ctype c) <= N /\ N <= tbits (ctype c) <= 64 /\
    (N = 32 -> tbits (ctype c) = 32) /\ smallc c.
Proof. intros HN HV ->. eexists; split; [reflexivity|]. apply small_result_facts; assumption. Qed.

Lemma constant_smallc v t : 0 < tbits t <= 64 -> isSmall v = true -> smallc (constant v t).
Proof.
  intros Ht Hs. unfold constant. fold (contb (BitLen v)). simpl.
  pose proof (BitLen_small_le64 v Hs). pose proof (contb_small (BitLen v)). lia.
Qed.

Lemma literal_repr a : 0 <= a ->
  literal a = Ok (CI (mkT KInt (cont a) (blen a)) (mkM (cont a) a)).
Proof.
  intros Ha. unfold literal, setBig, cont, blen.
  destruct (Z.ltb_spec a (2 ^ 63)) as [H63|H63].
  - rewrite (proj2 (Z.leb_le (- 2 ^ 63) a)), (proj2 (Z.ltb_lt a (2 ^ 64))) by lia. cbn [andb].
    change tUndefInt with (mkT KInt 0 0). rewrite setSmall_constant by lia.
    rewrite Z.mod_small by lia. unfold mkres. rewrite wrap_id by lia.
    pose proof (contb_ge (bl a)). rewrite Z.max_r by lia. reflexivity.
  - rewrite andb_false_r, (proj2 (Z.ltb_lt 0 a)) by lia. cbn [bind].
    assert (H64 : 64 <= bitlen_abs a) by (apply Z.lt_pred_le, Z.nle_gt; intros Hc; apply bitlen_abs_le in Hc; lia).
    unfold constant. rewrite BitLen_val by lia. rewrite (proj2 (Z.leb_gt (bitlen_abs a + 1) 64)) by lia.
    assert (Hb : (if a <? 2 ^ 64 then Z.max 1 (Z.log2 a + 1) else bitlen_abs a) = bitlen_abs a)
      by (destruct (a <? 2 ^ 64); [apply bl_pos; lia|reflexivity]).
    rewrite Hb. fold (contb (bitlen_abs a)). pose proof (contb_ge (bitlen_abs a)).
    simpl tbits. rewrite Z.max_r by lia. reflexivity.
Qed.

Definition tminc (n a : Z) : Z := if n <? blen a then n else blen a.

Lemma operand_repr k n a : 0 <= a ->
  operand k n a = Ok (CI (mkT k n (tminc n a)) (mkM (cont a) a)).
Proof. intros Ha. unfold operand. rewrite (literal_repr a Ha). reflexivity. Qed.

Lemma mNew_ok N : 0 < N -> mNew N = Ok (mkM N 0).
Proof. intros H. unfold mNew. destruct (N =? 0) eqn:E; [apply Z.eqb_eq in E; lia|reflexivity]. Qed.

Lemma kind_eqb_refl k : kind_eqb k k = true.
Proof. destruct k; reflexivity. Qed.

Lemma intlike_true k : k <> KBool -> intlike k = true.
Proof. destruct k; (reflexivity || congruence). Qed.

(* Binary.evalConst on two integer constants: the mpa operation of the operator
   on a fresh receiver of the left type's width, then Generator.Constant *)
Definition arith_op (op : binop) : option (mint -> mint -> mint -> res mint) :=
  match op with
  | OAdd => Some mAdd | OSub => Some mSub | OMul => Some mMul | ODiv => Some mDiv | OMod => Some mMod
  | OBand => Some mAnd | OBor => Some mOr | OBxor => Some mXor | OBclr => Some mAndNot
  | _ => None
  end.
Definition shift_op (op : binop) : option (mint -> mint -> Z -> res mint) :=
  match op with OLsh => Some mLsh | ORsh => Some mRsh | _ => None end.

Lemma evalConst_arith op f tl tr x y : arith_op op = Some f -> 0 < tbits tl ->
  evalConst op (CI tl x) (CI tr y) =
  if kind_eqb (tk tl) (tk tr) then do v <- f (mkM (tbits tl) 0) x y; Ok (constant v tl) else Err E_TYPES.
Proof.
  intros Hf HN. unfold evalConst, resultTypeCC.
  destruct op; try discriminate Hf; injection Hf as <-; simpl;
    (destruct (kind_eqb (tk tl) (tk tr)); [|reflexivity]); simpl; rewrite (mNew_ok _ HN); reflexivity.
Qed.

Lemma evalConst_shift op f tl tr x y : shift_op op = Some f -> 0 < tbits tl ->
  evalConst op (CI tl x) (CI tr y) =
  if intlike (tk tl) && intlike (tk tr)
  then do v <- f (mkM (tbits tl) 0) x (u64 (Int64 y)); Ok (constant v tl) else Err E_TYPES.
Proof.
  intros Hf HN. unfold evalConst, resultTypeCC.
  destruct op; try discriminate Hf; injection Hf as <-; simpl;
    (destruct (intlike (tk tl) && intlike (tk tr)); [|reflexivity]); simpl; rewrite (mNew_ok _ HN); reflexivity.
Qed.

(* On a receiver of at most 64 bits every mpa operation is setSmall of an int64
   expression of small() of its operands (for the shifts, of the count): [sval];
   Add alone masks to the wider operand instead of the receiver. *)
Definition sval (op : binop) (sx sy : Z) : Z :=
  match op with
  | OAdd => wrap_s64 (sx + sy) | OSub => wrap_s64 (sx - sy) | OMul => wrap_s64 (sx * sy)
  | OBand => Z.land sx sy | OBor => Z.lor sx sy | OBxor => Z.lxor sx sy | OBclr => Z.ldiff sx sy
  | ODiv => if sy =? 0 then -1 else wrap_s64 (Z.quot sx sy)
  | OMod => if sy =? 0 then sx else Z.rem sx sy
  | OLsh => if 64 <=? sy then 0 else wrap_s64 (sx * 2 ^ sy)
  | ORsh => Z.shiftr sx sy
  | _ => 0
  end.
Definition swidth (op : binop) (N : Z) (x y : mint) : Z :=
  match op with OAdd => Z.max (mbits x) (mbits y) | _ => N end.

Lemma arith_small op f z x y : arith_op op = Some f -> mbits z <= 64 ->
  f z x y = setSmall (swidth op (mbits z) x y) (sval op (small x) (small y)).
Proof.
  intros Hf Hz. assert (Hs : isSmall z = true) by (apply Z.leb_le; assumption).
  destruct op; try discriminate Hf; injection Hf as <-;
    unfold mAdd, mSub, mMul, mAnd, mOr, mXor, mAndNot, mDiv, mMod, sval, swidth; rewrite Hs;
    try reflexivity; destruct (small y =? 0); reflexivity.
Qed.

Lemma shift_small op f z x n : shift_op op = Some f -> mbits z <= 64 ->
  f z x n = setSmall (mbits z) (sval op (small x) n).
Proof.
  intros Hf Hz. assert (Hs : isSmall z = true) by (apply Z.leb_le; assumption).
  destruct op; try discriminate Hf; injection Hf as <-; unfold mLsh, mRsh, sval; rewrite Hs; reflexivity.
Qed.

Lemma evalConst_small op f k N ml mr x y : arith_op op = Some f ->
  1 <= N <= 64 -> 1 <= swidth op N x y <= 64 ->
  evalConst op (CI (mkT k N ml) x) (CI (mkT k N mr) y) =
  Ok (mkres k N (sval op (small x) (small y) mod 2 ^ swidth op N x y)).
Proof.
  intros Hf HN HW. rewrite (evalConst_arith op f) by (assumption || simpl; lia).
  simpl tk. rewrite kind_eqb_refl. simpl tbits.
  rewrite (arith_small op f) by (assumption || simpl; lia). simpl mbits.
  apply setSmall_constant; assumption.
Qed.

Lemma evalConst_small_shift op f k N ml tr x y : shift_op op = Some f ->
  1 <= N <= 64 -> k <> KBool -> tk tr <> KBool ->
  evalConst op (CI (mkT k N ml) x) (CI tr y) =
  Ok (mkres k N (sval op (small x) (u64 (Int64 y)) mod 2 ^ N)).
Proof.
  intros Hf HN Hk Hkr. rewrite (evalConst_shift op f) by (assumption || simpl; lia).
  simpl tk. rewrite !intlike_true by assumption. simpl tbits. cbn [andb].
  rewrite (shift_small op f) by (assumption || simpl; lia). simpl mbits.
  apply setSmall_constant; assumption.
Qed.

Lemma unaryMinus_small_eq k N ml x : 1 <= N <= 64 ->
  unaryMinus (CI (mkT k N ml) x) = Ok (mkres k N ((- small x) mod 2 ^ N)).
Proof.
  intros HN. unfold unaryMinus. simpl tbits.
  rewrite (arith_small OSub mSub) by (reflexivity || simpl; lia).
  unfold swidth, sval. simpl mbits. change (small (mkM N 0)) with 0.
  rewrite setSmall_constant by assumption.
  rewrite wrap_mod by lia. reflexivity.
Qed.

(* C12_fold_total_partial.  Folding two constants of at most 64 bits never
   panics, and the result is again such a constant (so nested folds never panic
   either). *)
Theorem evalConst_small_total op l r :
  smallc l -> smallc r ->
  match evalConst op l r with
  | Ok c => smallc c
  | Err _ => True
  | Panic _ => False
  end.
Proof.
  intros Hl Hr. destruct l as [tl x|a], r as [tr y|b]; simpl in Hl, Hr.
  - destruct Hl as [Htl Hx], Hr as [Htr Hy].
    destruct (arith_op op) as [f|] eqn:Ea; [|destruct (shift_op op) as [f|] eqn:Es].
    + rewrite (evalConst_arith op f) by (assumption || lia).
      destruct (kind_eqb (tk tl) (tk tr)); [|exact I].
      rewrite (arith_small op f) by (assumption || simpl; lia). simpl mbits.
      assert (HW : swidth op (tbits tl) x y <= 64) by (unfold swidth; destruct op; lia).
      rewrite setSmall_le64 by exact HW. cbn [bind]. apply constant_smallc; [lia|apply Z.leb_le; exact HW].
    + rewrite (evalConst_shift op f) by (assumption || lia).
      destruct (intlike (tk tl) && intlike (tk tr)); [|exact I].
      rewrite (shift_small op f), setSmall_le64 by (assumption || simpl; lia). cbn [bind].
      apply constant_smallc; [lia|apply Z.leb_le; simpl; lia].
    + destruct op; try discriminate Ea; try discriminate Es; simpl; exact I.
  - unfold evalConst, resultTypeCC. destruct op; simpl; try exact I; destruct (tk tl); simpl; exact I.
  - unfold evalConst, resultTypeCC. destruct op; simpl; try exact I; destruct (tk tr); simpl; exact I.
  - unfold evalConst, resultTypeCC. destruct op; simpl; exact I.
Qed.

Lemma operand_smallc k n a : 0 < n <= 64 -> 0 <= a < 2 ^ 64 ->
  exists c, operand k n a = Ok c /\ smallc c.
Proof.
  intros Hn Ha. rewrite operand_repr by lia. eexists; split; [reflexivity|].
  destruct (cont_spec a ltac:(lia)) as (_ & _ & _ & H64 & _). specialize (H64 ltac:(lia)).
  simpl. lia.
Qed.

Lemma unaryMinus_small c : smallc c ->
  match unaryMinus c with Ok c' => smallc c' | Err _ => True | Panic _ => False end.
Proof.
  destruct c as [[k N ml] m|b]; simpl smallc; [|trivial]. intros [Ht _].
  rewrite unaryMinus_small_eq by lia.
  apply small_result_facts; [lia|apply Z.mod_pos_bound, pow2_pos; lia].
Qed.

(* operands as the folder holds them: a constant of declared type k/N whose
   container holds sx with sx = a (mod 2^N), a the N-bit wire value the
   run-time variant receives.  Covers T(a) for every N, and the canonical
   two's complement negatives of int32 / int64. *)
Definition holds (c : cval) (k : kind) (N a : Z) : Prop :=
  exists t m, c = CI t m /\ tk t = k /\ tbits t = N /\ mbits m <= 64 /\ (small m) mod 2 ^ N = a.

Definition ring_like (op : binop) : bool :=
  match op with OSub | OMul | OBand | OBor | OBxor | OBclr => true | _ => false end.

Lemma bitop_mod (f : Z -> Z -> Z) (g : bool -> bool -> bool) x y N :
  0 <= N ->
  (forall a b i, 0 <= i -> Z.testbit (f a b) i = g (Z.testbit a i) (Z.testbit b i)) ->
  (f x y) mod 2 ^ N = (f (x mod 2 ^ N) (y mod 2 ^ N)) mod 2 ^ N.
Proof.
  intros HN Hf. rewrite <- !Z.land_ones by assumption.
  apply Z.bits_inj'; intros i Hi.
  rewrite !Z.land_spec, !Hf, !Z.land_spec by assumption.
  destruct (Z.testbit (Z.ones N) i); rewrite ?andb_true_r, ?andb_false_r; reflexivity.
Qed.

(* - * & | ^ &^ : the wires of the folded constant are exactly the circuit's
   output, the constant has the operands' kind and is assignable to the
   declared type (MinBits <= N), for every width 1..64 and all values. *)
Theorem fold_ring_small op k N l r a b :
  ring_like op = true -> 1 <= N <= 64 -> holds l k N a -> holds r k N b ->
  exists c, evalConst op l r = Ok c /\
    const_wires c = snd (circuit_sem op k N a b) /\
    tk (ctype c) = k /\ tmin (ctype c) <= N /\ N <= tbits (ctype c) <= 64 /\
    (N = 32 -> tbits (ctype c) = 32) /\ smallc c.
Proof.
  intros Hop HN (tl & x & -> & Hk1 & Hb1 & Hx & Ha) (tr & y & -> & Hk2 & Hb2 & Hy & Hb).
  destruct tl as [kl bl' ml]; destruct tr as [kr br mr]; simpl in *; subst kl kr bl' br.
  assert (Hv : sval op (small x) (small y) mod 2 ^ N = snd (circuit_sem op k N a b)).
  { unfold circuit_sem, instr_sem. assert (Hmin : Z.min N (Z.max N N + 1) = N) by lia.
    destruct op; try discriminate Hop; simpl; rewrite ?Hmin.
    - rewrite wrap_mod by lia. rewrite Zminus_mod, Ha, Hb. reflexivity.
    - rewrite wrap_mod by lia. rewrite Zmult_mod, Ha, Hb. reflexivity.
    - rewrite (bitop_mod Z.land andb) by (try lia; intros; apply Z.land_spec).
      rewrite Ha, Hb; reflexivity.
    - rewrite (bitop_mod Z.lor orb) by (try lia; intros; apply Z.lor_spec).
      rewrite Ha, Hb; reflexivity.
    - rewrite (bitop_mod Z.lxor xorb) by (try lia; intros; apply Z.lxor_spec).
      rewrite Ha, Hb; reflexivity.
    - rewrite (bitop_mod Z.ldiff (fun p q => p && negb q)) by (try lia; intros; apply Z.ldiff_spec).
      rewrite Ha, Hb; reflexivity. }
  assert (Hw : swidth op N x y = N) by (destruct op; try discriminate Hop; reflexivity).
  rewrite <- Hv. apply small_fold_sound; [assumption|apply Z.mod_pos_bound, pow2_pos; lia|].
  destruct (arith_op op) as [f|] eqn:Ef; [|destruct op; discriminate].
  rewrite (evalConst_small op f), Hw by (rewrite ?Hw; assumption). reflexivity.
Qed.

(* + : same conclusion when the wider of the two containers has the declared
   width (always the case for N = 32, and for N = 64 as soon as one operand is
   at least 2^32; otherwise Add truncates the sum to 32 bits — finding F6b). *)
Theorem fold_add_small k N ml mr x y a b :
  1 <= N <= 64 -> Z.max (mbits x) (mbits y) = N ->
  (small x) mod 2 ^ N = a -> (small y) mod 2 ^ N = b ->
  exists c, evalConst OAdd (CI (mkT k N ml) x) (CI (mkT k N mr) y) = Ok c /\
    const_wires c = snd (circuit_sem OAdd k N a b) /\
    tk (ctype c) = k /\ tmin (ctype c) <= N /\ N <= tbits (ctype c) <= 64 /\
    (N = 32 -> tbits (ctype c) = 32) /\ smallc c.
Proof.
  intros HN Hmax Ha Hb.
  assert (Hv : sval OAdd (small x) (small y) mod 2 ^ N = snd (circuit_sem OAdd k N a b)).
  { unfold circuit_sem, instr_sem. simpl. rewrite wrap_mod by lia. rewrite Zplus_mod, Ha, Hb. reflexivity. }
  rewrite <- Hv. apply small_fold_sound; [assumption|apply Z.mod_pos_bound, pow2_pos; lia|].
  rewrite (evalConst_small OAdd mAdd) by (reflexivity || simpl; lia). simpl swidth. rewrite Hmax. reflexivity.
Qed.

Definition nonneg_bound (k : kind) (N : Z) : Z := match k with KInt => 2 ^ (N - 1) | _ => 2 ^ N end.

Lemma m1_mod N : 1 <= N -> (-1) mod 2 ^ N = 2 ^ N - 1.
Proof.
  intros H. pose proof (pow2_pos N ltac:(lia)). pose proof (pow2_le 1 N ltac:(lia)).
  change (2 ^ 1) with 2 in *.
  symmetry. apply Z.mod_unique with (q := -1); lia.
Qed.

Lemma small_nonneg x a : mval x = a -> 0 <= a < 2 ^ 63 -> small x = a.
Proof. intros <- H. apply wrap_id; lia. Qed.

(* / and % on operands that are non-negative both as intN/uintN values and as
   int64 (the whole of uintN for N <= 63, the non-negative half of intN, and
   uint64 values below 2^63), division by zero included: the folded wires are
   the circuit's output for every width 1..64. *)
Theorem fold_divmod_nonneg op k N ml mr x y a b :
  (op = ODiv \/ op = OMod) -> k <> KBool -> 1 <= N <= 64 ->
  mval x = a -> mval y = b -> 0 <= a < 2 ^ 63 -> 0 <= b < 2 ^ 63 ->
  a < nonneg_bound k N -> b < nonneg_bound k N ->
  exists c, evalConst op (CI (mkT k N ml) x) (CI (mkT k N mr) y) = Ok c /\
    const_wires c = snd (circuit_sem op k N a b) /\
    tk (ctype c) = k /\ tmin (ctype c) <= N /\ N <= tbits (ctype c) <= 64 /\
    (N = 32 -> tbits (ctype c) = 32) /\ smallc c.
Proof.
  intros Hop Hk HN Hx Hy Ha Hb Hab Hbb.
  assert (HpN : 0 < 2 ^ N) by (apply pow2_pos; lia).
  (* both sides are this, modulo 2^N *)
  set (d := if b =? 0 then (if match op with ODiv => true | _ => false end then -1 else a)
            else (if match op with ODiv => true | _ => false end then a / b else a mod b)).
  assert (Hcirc : snd (circuit_sem op k N a b) = d mod 2 ^ N).
  { unfold d, circuit_sem, instr_sem, idiv_q, idiv_r, udiv_q, udiv_r, absn. rewrite Z.max_id.
    assert (Hm1 : (2 ^ N - 1) mod 2 ^ N = (-1) mod 2 ^ N) by (rewrite m1_mod by lia; apply Z.mod_small; lia).
    destruct Hop as [-> | ->]; destruct k; try congruence; simpl in Hab, Hbb |- *;
      try (assert (Ea : (a <? 2 ^ (N - 1)) = true) by (apply Z.ltb_lt; lia); rewrite Ea);
      try (assert (Eb : (b <? 2 ^ (N - 1)) = true) by (apply Z.ltb_lt; lia); rewrite Eb);
      simpl; destruct (b =? 0); try rewrite Hm1; reflexivity. }
  assert (Hfold : sval op (small x) (small y) mod 2 ^ N = d mod 2 ^ N).
  { rewrite (small_nonneg x a), (small_nonneg y b) by assumption. unfold d.
    destruct Hop as [-> | ->]; simpl; destruct (Z.eqb_spec b 0) as [_|Hb0]; try reflexivity.
    - rewrite wrap_mod, Z.quot_div_nonneg by lia. reflexivity.
    - rewrite Z.rem_mod_nonneg by lia. reflexivity. }
  rewrite Hcirc, <- Hfold. apply small_fold_sound; [assumption|apply Z.mod_pos_bound; lia|].
  destruct Hop as [-> | ->].
  - apply (evalConst_small ODiv mDiv); [reflexivity|assumption|simpl; lia].
  - apply (evalConst_small OMod mMod); [reflexivity|assumption|simpl; lia].
Qed.

(* >> of such a non-negative operand by a literal count cnt >= 0 *)
Theorem fold_rsh_nonneg k N ml tr x y a cnt :
  k <> KBool -> tk tr <> KBool -> 1 <= N <= 64 -> mval x = a -> 0 <= a < 2 ^ 63 -> a < nonneg_bound k N ->
  u64 (Int64 y) = cnt -> 0 <= cnt ->
  exists c, evalConst ORsh (CI (mkT k N ml) x) (CI tr y) = Ok c /\
    const_wires c = snd (circuit_sem ORsh k N a cnt) /\
    tk (ctype c) = k /\ tmin (ctype c) <= N /\ N <= tbits (ctype c) <= 64 /\
    (N = 32 -> tbits (ctype c) = 32) /\ smallc c.
Proof.
  intros Hk Hkr HN Hx Ha Hab Hcnt Hc0.
  assert (Hv : sval ORsh (small x) (u64 (Int64 y)) mod 2 ^ N = snd (circuit_sem ORsh k N a cnt)).
  { rewrite (small_nonneg x a), Hcnt by assumption. unfold circuit_sem, instr_sem. simpl.
    destruct k; try congruence; simpl in Hab |- *; try reflexivity.
    unfold sgn_at. rewrite (proj2 (Z.ltb_lt a (2 ^ (N - 1)))) by lia. reflexivity. }
  rewrite <- Hv. apply small_fold_sound; [assumption|apply Z.mod_pos_bound, pow2_pos; lia|].
  apply (evalConst_small_shift ORsh mRsh); (reflexivity || assumption).
Qed.

Definition representable (k : kind) (n a : Z) : Prop :=
  match k with
  | KUint => 0 <= a < 2 ^ n
  | KInt => - 2 ^ (n - 1) <= a < 2 ^ (n - 1)
  | KBool => a = 0 \/ a = 1
  end.

(* a typed constant of value a as the program writes it: T(a), or -T(|a|) *)
Definition typed (k : kind) (n a : Z) : res cval :=
  if 0 <=? a then operand k n a else neg_operand n (- a).

(* (what the program sees of the folded constant, what the circuit computes);
   for shifts b is the literal shift count *)
Definition fold_at (op : binop) (k : kind) (n a b : Z) : res ((kind * Z * Z) * (kind * Z * Z)) :=
  do l <- typed k n a;
  do r <- (if is_shift op then literal b else typed k n b);
  do s <- fold op l r;
  Ok (s, circuit_sem op k n (a mod 2 ^ n) (if is_shift op then b else b mod 2 ^ n)).

Definition seen_eqb (x y : kind * Z * Z) : bool :=
  let '(k1, w1, v1) := x in let '(k2, w2, v2) := y in kind_eqb k1 k2 && (w1 =? w2) && (v1 =? v2).

(* the property as stated: for every operator, type and representable operands
   the folder answers, and its answer is what the circuit computes *)
Definition C12_claim : Prop :=
  forall op k n a b, 0 < n -> representable k n a -> (is_shift op = true \/ representable k n b) ->
    (is_shift op = true -> 0 <= b) ->
    exists s, fold_at op k n a b = Ok (s, s).

(* one witness per failing class: (op, kind, width, a, b).  [differs] = the
   folder's answer is not the circuit's (or the folder errs / panics). *)
Definition differs (w : binop * kind * Z * Z * Z) : bool :=
  let '(op, k, n, a, b) := w in
  match fold_at op k n a b with
  | Ok (s, c) => negb (seen_eqb s c)
  | _ => true
  end.

Definition witnesses : list (binop * kind * Z * Z * Z) :=
  [ (ODiv, KInt, 32, -6, 3);               (* F6a  small Div on raw int64: 1431655763, circuit -2 *)
    (OMod, KInt, 32, -7, 3);               (* F6a  0, circuit 1 *)
    (ORsh, KInt, 32, -8, 1);               (* F6a  2147483644, circuit -4 *)
    (ODiv, KUint, 64, 2 ^ 63, 2);          (* F6a  uint64 top bit divides as a negative int64 *)
    (ORsh, KUint, 64, 2 ^ 63, 1);          (* F6a  0xC000000000000000, circuit 0x4000000000000000 *)
    (OAdd, KUint, 8, 200, 100);            (* F6b  uint32 constant 300, circuit uint8 44 *)
    (OAdd, KUint, 64, 2 ^ 32 - 1, 1);      (* F6b  0, circuit 2^32 *)
    (OSub, KInt, 8, 1, 7);                 (* F6c  int32 constant 250, circuit int8 -6 *)
    (OMul, KInt, 8, -6, 2);                (* F6c  -int8(6) is the int32 constant 250: 500 *)
    (OAdd, KInt, 8, 1, 2);                 (* F6c  value 3 but 32 wires wide (Type.Bits widened) *)
    (OLt, KInt, 8, -6, 1);                 (* F6c  false, circuit true *)
    (OLt, KUint, 32, 2 ^ 31, 1);           (* F6e  true, circuit false *)
    (OLt, KInt, 64, 2 ^ 31, 1);            (* F6e  true, circuit false *)
    (OAdd, KUint, 128, 1, 2);              (* F6f  panic "Output already assigned" *)
    (OSub, KUint, 65, 2, 1);               (* F6f  panic *)
    (ODiv, KUint, 128, 3 * 2 ^ 99, 3);     (* F6g  big Div through the signed divider *)
    (OMod, KUint, 128, 2 ^ 100 + 5, 7);    (* F6g  4, circuit 0 *)
    (ODiv, KUint, 65, 3800051367, 0);      (* F6g  division by zero folds to 1 *)
    (OLt, KUint, 128, 2 ^ 100, 5);         (* F6h  true, circuit false *)
    (OLt, KInt, 128, -6, -5);              (* F6h  false, circuit true *)
    (ORsh, KInt, 128, -8, 1) ].            (* F6i  2^127-4, circuit -4 *)

Lemma witnesses_differ : forallb differs witnesses = true.
Proof. vm_compute. reflexivity. Qed.

Example w_div : fold_at ODiv KInt 32 (-6) 3 = Ok ((KInt, 32, 1431655763), (KInt, 32, 4294967294)).
Proof. vm_compute. reflexivity. Qed.

Theorem fold_eq_circuit_refuted : ~ C12_claim.
Proof.
  intros H. destruct (H ODiv KInt 32 (-6) 3) as [s Hs].
  - lia.
  - simpl; lia.
  - right; simpl; lia.
  - discriminate.
  - rewrite w_div in Hs. congruence.
Qed.

Example w_mod : fold_at OMod KInt 32 (-7) 3 = Ok ((KInt, 32, 0), (KInt, 32, 1)).
Proof. vm_compute. reflexivity. Qed.
Example w_rsh : fold_at ORsh KInt 32 (-8) 1 = Ok ((KInt, 32, 2147483644), (KInt, 32, 4294967292)).
Proof. vm_compute. reflexivity. Qed.
Example w_add8 : fold_at OAdd KUint 8 200 100 = Ok ((KUint, 32, 300), (KUint, 8, 44)).
Proof. vm_compute. reflexivity. Qed.
Example w_add64 : fold_at OAdd KUint 64 (2 ^ 32 - 1) 1 = Ok ((KUint, 64, 0), (KUint, 64, 2 ^ 32)).
Proof. vm_compute. reflexivity. Qed.
Example w_panic : fold_at OAdd KUint 128 1 2 = Panic P_OUTPUT.
Proof. vm_compute. reflexivity. Qed.
(* the widened Type.Bits is visible to a consumer: b / (int8(1)+int8(2)) with
   b = -6 at run time gives 83; with the 8-bit constant the circuit gives -2 *)
Example w_widen_consumer :
  run_program KInt 8 (EBin ODiv (EIn KInt 8 250) (EBin OAdd (ECast KInt 8 (ELit 1)) (ECast KInt 8 (ELit 2)))) = Ok 83 /\
  run_program KInt 8 (EBin ODiv (EIn KInt 8 250) (ECast KInt 8 (ELit 3))) = Ok 254.
Proof. split; vm_compute; reflexivity. Qed.
(* intN(-x) keeps the 32-bit container: int40(-6) = 4294967290 *)
Example w_cast : run_program KInt 40 (ECast KInt 40 (ENeg (ELit 6))) = Ok 4294967290.
Proof. vm_compute. reflexivity. Qed.

(* totality fails: representable operands on which the folder panics *)
Theorem fold_total_refuted :
  exists op k n a b l r, 0 < n /\ representable k n a /\ representable k n b /\
    typed k n a = Ok l /\ typed k n b = Ok r /\ is_panic (evalConst op l r) = true.
Proof.
  exists OAdd, KUint, 128, 1, 2. do 2 eexists.
  split; [lia|]. split; [simpl; lia|]. split; [simpl; lia|].
  split; [vm_compute; reflexivity|]. split; [vm_compute; reflexivity|].
  vm_compute. reflexivity.
Qed.
(* operands of different widths (each representable in its own type) reach
   setSmall with bits > 64 *)
Example w_panic_mixed :
  (do l <- typed KUint 8 255; do r <- typed KUint 128 (2 ^ 128 - 1); evalConst OAdd l r) = Panic P_SETSMALL.
Proof. vm_compute. reflexivity. Qed.

(* non-vacuity of [holds]: the forms the programs use *)
Example holds_cast : exists c, operand KUint 8 200 = Ok c /\ holds c KUint 8 200.
Proof. eexists; split; [vm_compute; reflexivity|]. do 2 eexists. repeat split; vm_compute; congruence. Qed.
Example holds_neg32 : exists c, neg_operand 32 6 = Ok c /\ holds c KInt 32 (2 ^ 32 - 6).
Proof. eexists; split; [vm_compute; reflexivity|]. do 2 eexists. repeat split; vm_compute; congruence. Qed.
Example holds_neg64 : exists c, neg_operand 64 6 = Ok c /\ holds c KInt 64 (2 ^ 64 - 6).
Proof. eexists; split; [vm_compute; reflexivity|]. do 2 eexists. repeat split; vm_compute; congruence. Qed.
