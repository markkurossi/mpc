(* C03, the SSA -> circuit step (compiler/ssa/circuitgen.go): the gates
   Lang/CircGen.v emits for an SSA program compute the program's meaning in
   Lang/Ssa.v (eval_ssa), for every program satisfying the executable side
   conditions cg_wf, every width, every input.

   Two invariants carried along the instruction list:
   * semantic (okm, Builders/EmitProof.v): in every wire valuation consistent
     with the gates emitted so far, the wires registered for each SSA value have
     the value's width and carry the value ([inv]); per opcode this is the
     builder theorem of C07 plus an arithmetic lemma relating the builder's
     function on N to Mini.arith / the bit-vector operations of Ssa.eval_instr;
   * structural (oks, Builders/StructProof.v): the emitted list is single
     assignment and defined-before-use and every registered wire is defined, so
     gate-by-gate evaluation IS such a consistent valuation (run_st0). *)
From Coq Require Import ZArith NArith List Bool Lia.
From Mpc Require Import Gen.Thresholds Lang.Mini Lang.Ssa Lang.MiniFacts Lang.CircGen Builders.Emit
  Builders.EmitProof Builders.StructProof Builders.Adder Builders.Sub Builders.Mult Builders.Div Builders.Cmp
  Builders.Bitwise Builders.SubProof Builders.KaratsubaProof Builders.CmpProof Builders.MuxProof
  Builders.IndexProof Builders.BitwiseProof Builders.HammingProof Builders.KsProof Builders.WallaceProof
  Builders.StructWallace Builders.StructAdder Builders.StructArith Builders.StructHamming Builders.StructMult
  Builders.StructCmp Builders.StructIndex Builders.StructDiv Builders.DivProof Lang.CircGenDivProof
  Lang.CircEmbed Lang.CircEmbedProof.
Import ListNotations.
Open Scope N_scope.

Lemma valN_testbit e ws d : forall k,
  N.testbit (valN e ws) (N.of_nat k) = if Nat.ltb k (length ws) then e (nth k ws d) else false.
Proof.
  induction ws as [|w ws IH]; intros k.
  - rewrite valN_nil. cbn [length]. destruct k; reflexivity.
  - rewrite valN_cons, N.add_comm. destruct k as [|k].
    + rewrite N.testbit_0_r. reflexivity.
    + rewrite Nat2N.inj_succ, N.testbit_succ_r, IH. cbn [length nth].
      change (Nat.ltb (S k) (S (length ws))) with (Nat.ltb k (length ws)). reflexivity.
Qed.

Lemma valN_map_seq e (f : nat -> wire) n k :
  N.testbit (valN e (map f (seq 0 n))) (N.of_nat k) = Nat.ltb k n && e (f k).
Proof.
  rewrite (valN_testbit e _ (f 0%nat)), map_length, seq_length.
  destruct (Nat.ltb k n) eqn:E; [|reflexivity]. apply Nat.ltb_lt in E.
  rewrite (map_nth f (seq 0 n) 0%nat k), seq_nth by exact E. reflexivity.
Qed.

Lemma valN_single e w : valN e [w] = N.b2n (e w).
Proof. rewrite valN_cons, valN_nil. lia. Qed.

Lemma e_nth (e : Emit.env) w d k :
  e (nth k w d) = if Nat.ltb k (length w) then N.testbit (valN e w) (N.of_nat k) else e d.
Proof.
  rewrite (valN_testbit e w d). destruct (Nat.ltb k (length w)) eqn:E; [reflexivity|].
  apply Nat.ltb_ge in E. rewrite nth_overflow by exact E. reflexivity.
Qed.

Lemma last_is_nth (w : list wire) d : last w d = nth (length w - 1) w d.
Proof.
  induction w as [|a w IH]; [reflexivity|]. destruct w as [|b w]; [reflexivity|].
  change (last (a :: b :: w) d) with (last (b :: w) d). rewrite IH.
  cbn [length]. replace (S (S (length w)) - 1)%nat with (S (S (length w) - 1)) by lia.
  reflexivity.
Qed.

Lemma e_last (e : Emit.env) (w : list wire) : (1 <= length w)%nat ->
  e (last w 0) = N.testbit (valN e w) (N.of_nat (length w - 1)).
Proof.
  intros H. rewrite last_is_nth, e_nth.
  replace (Nat.ltb (length w - 1) (length w)) with true by (symmetry; apply Nat.ltb_lt; lia).
  reflexivity.
Qed.

Lemma wired_val (e : Emit.env) (f : nat -> wire) ob X :
  (forall k, (k < ob)%nat -> e (f k) = N.testbit X (N.of_nat k)) ->
  valN e (map f (seq 0 ob)) = norm ob X.
Proof.
  intros H. apply bits_inj_nat. intros k. rewrite valN_map_seq, norm_testbit.
  destruct (Nat.ltb k ob) eqn:E; [|reflexivity]. apply Nat.ltb_lt in E. rewrite H by exact E. reflexivity.
Qed.

Lemma valN_high (e : Emit.env) (w : list wire) k : (length w <= k)%nat ->
  N.testbit (valN e w) (N.of_nat k) = false.
Proof.
  intros H. rewrite (valN_testbit e w 0).
  replace (Nat.ltb k (length w)) with false by (symmetry; apply Nat.ltb_ge; lia). reflexivity.
Qed.

Lemma e_nth_zero (e : Emit.env) (w : list wire) z k : e z = false ->
  e (nth k w z) = N.testbit (valN e w) (N.of_nat k).
Proof.
  intros Hz. rewrite e_nth. destruct (Nat.ltb k (length w)) eqn:E; [reflexivity|].
  apply Nat.ltb_ge in E. rewrite valN_high by exact E. exact Hz.
Qed.

Lemma e_nth_sign (e : Emit.env) (w : list wire) k : (1 <= length w)%nat ->
  e (nth k w (last w 0)) = xbit true (length w) (valN e w) k.
Proof.
  intros H. rewrite e_nth, e_last by exact H. unfold xbit.
  replace (Nat.ltb 0 (length w)) with true by (symmetry; apply Nat.ltb_lt; lia). reflexivity.
Qed.

Lemma xbit_false_val (e : Emit.env) (w : list wire) k :
  xbit false (length w) (valN e w) k = N.testbit (valN e w) (N.of_nat k).
Proof.
  unfold xbit. destruct (Nat.ltb k (length w)) eqn:E; [reflexivity|].
  apply Nat.ltb_ge in E. cbn [andb]. symmetry. apply valN_high. exact E.
Qed.

Lemma okp_cg_resize tg w t :
  okp tg (cg_resize w t) (fun w' => length w' = s_bits t)
      (fun w' e => valN e w' = resize (length w) (valN e w) t).
Proof.
  unfold cg_resize. destruct (Nat.eqb (length w) (s_bits t)) eqn:E.
  - apply Nat.eqb_eq in E. apply okp_ret; [exact E|]. intros e.
    apply bits_inj_nat. intros k. rewrite resize_testbit. unfold xbit. rewrite <- E.
    destruct (Nat.ltb k (length w)) eqn:K; [reflexivity|].
    rewrite (valN_testbit e w 0), K. reflexivity.
  - eapply okp_bind with
      (R := fun _ => True)
      (P := fun pad e => e pad = s_signed t && Nat.ltb 0 (length w)
                                 && N.testbit (valN e w) (N.of_nat (length w - 1))).
    + destruct (s_signed t && Nat.ltb 0 (length w)) eqn:C.
      * apply andb_true_iff in C. destruct C as [C1 C2]. apply Nat.ltb_lt in C2.
        apply okp_ret; [exact I|]. intros e. rewrite e_last by lia. reflexivity.
      * eapply okp_weaken; [apply okp_of_okm, okm_zero| auto |].
        cbv beta. intros z e _ Hz. rewrite Hz. reflexivity.
    + intros pad _. cbv beta. apply okp_ret.
      * rewrite map_length, seq_length. reflexivity.
      * intros e Hp. apply bits_inj_nat. intros k.
        rewrite valN_map_seq, resize_testbit, e_nth, Hp. unfold xbit. reflexivity.
Qed.

Lemma valN_const_wires (e : Emit.env) zw ow cw cv : e zw = false -> e ow = true ->
  valN e (const_wires zw ow cw cv) = norm cw cv.
Proof.
  intros Hz Ho. apply bits_inj_nat. intros k. unfold const_wires.
  rewrite valN_map_seq, norm_testbit. destruct (N.testbit cv (N.of_nat k)); rewrite ?Hz, ?Ho; reflexivity.
Qed.

Definition inv (e : Emit.env) (vals : list (list wire)) (vs : list Ssa.sval) : Prop :=
  Forall2 (fun ws sv => length ws = fst sv /\ valN e ws = snd sv) vals vs.

Lemma inv_nth e vals vs i : inv e vals vs ->
  length (nth i vals []) = fst (nth i vs (0%nat, 0)) /\
  valN e (nth i vals []) = snd (nth i vs (0%nat, 0)).
Proof.
  intros H. revert i. induction H as [|ws sv vals vs H0 H IH]; intros i.
  - destruct i; split; reflexivity.
  - destruct i; [exact H0 | apply IH].
Qed.

Lemma okp_cg_opnd tg vals vs o :
  okp tg (cg_opnd vals o) (fun w => length w = opnd_bits o)
      (fun w e => inv e vals vs -> valN e w = opnd_val vs o).
Proof.
  destruct o as [i t|cw cv t]; cbn [cg_opnd opnd_bits opnd_ty opnd_val].
  - eapply okp_weaken; [apply okp_cg_resize|auto|]. cbv beta. intros w e _ H I.
    destruct (inv_nth e vals vs i I) as [L V]. rewrite H, L, V.
    destruct (nth i vs (0%nat, 0)). reflexivity.
  - eapply okp_bind; [apply okp_of_okm, okm_zero|]. intros zw _. cbv beta.
    eapply okp_bind; [apply okp_of_okm, okm_one|]. intros ow _. cbv beta.
    eapply okp_weaken; [apply okp_cg_resize|auto|]. cbv beta. intros w e _ H Ho Hz _.
    rewrite H, valN_const_wires by assumption. unfold const_wires.
    rewrite map_length, seq_length. apply resize_norm.
Qed.

Lemma okp_mapM tg {A B} (f : A -> M B) (R : A -> B -> Prop) (P : A -> B -> Emit.env -> Prop) l :
  (forall a, okp tg (f a) (R a) (P a)) ->
  okp tg (mapM f l) (fun bs => Forall2 R l bs) (fun bs e => Forall2 (fun a b => P a b e) l bs).
Proof.
  intros H. induction l as [|a l IH]; cbn [mapM].
  - apply okp_ret; constructor.
  - eapply okp_bind; [apply H|]. intros b Rb. cbv beta.
    eapply okp_bind; [apply IH|]. intros bs Rbs. cbv beta.
    apply okp_ret; [constructor; assumption|]. intros e Hbs Hb. constructor; assumption.
Qed.

Theorem okm_int_comparator_pad t cin x y r0 k :
  Nat.max (length x) (length y) = S k ->
  okm t (int_comparator cin x y [r0])
      (fun _ e => e r0 = if (CmpProof.sval (S k) (valN e x) =? sval (S k) (valN e y))%Z then e cin
                         else (CmpProof.sval (S k) (valN e y) <? sval (S k) (valN e x))%Z).
Proof.
  intros Lm. unfold int_comparator.
  pstep okp_zero_pad. destruct a as [x' y']. cbn [fst snd] in *. destruct H as [Sx Sy].
  pose proof (pad_shape_len _ _ _ Sx) as Lx. pose proof (pad_shape_len _ _ _ Sy) as Ly.
  assert (Lx' : length x' = S k) by lia. assert (Ly' : length y' = S k) by lia.
  replace (length y' - 1)%nat with k by lia.
  mstepn (okm_cmp_loop t x' y' cin None ltac:(lia)) cout.
  mstepn okm_fresh cond. mstepn okm_emit u.
  eapply okm_weaken; [apply okm_new_mux_bits; reflexivity|].
  cbn. intros _ e H H2 _ H1 [Zx Zy].
  assert (H0 : e r0 = if e cond then e (nth k y' 0) else e cout)
    by (destruct (e cond); injection H; auto).
  rewrite H0, H2, H1. clear H H0 H1 H2.
  rewrite <- (pad_val e x' x _ Sx Zx), <- (pad_val e y' y _ Sy Zy).
  destruct (sign_split e x' k Lx') as (xl & Hxl & ->).
  destruct (sign_split e y' k Ly') as (yl & Hyl & ->).
  apply signed_cmp; assumption.
Qed.

Lemma testbit_top v n : (1 <= n)%nat -> v < 2 ^ N.of_nat n ->
  N.testbit v (N.of_nat (n - 1)) = (2 ^ N.of_nat (n - 1) <=? v).
Proof.
  intros Hn Hv. rewrite N.testbit_eqb. set (P := 2 ^ N.of_nat (n - 1)).
  assert (HP : 2 ^ N.of_nat n = 2 * P).
  { unfold P. replace n with (S (n - 1)) at 1 by lia. apply pow2_S. }
  assert (P0 : 0 < P) by apply pow2_pos.
  assert (Q : v / P < 2) by (apply N.div_lt_upper_bound; lia).
  destruct (N.leb_spec P v).
  - assert (1 <= v / P) by (apply N.div_le_lower_bound; lia).
    replace (v / P) with 1 by lia. reflexivity.
  - rewrite N.div_small by lia. reflexivity.
Qed.

Lemma sval_to_Z n v : (1 <= n)%nat -> v < 2 ^ N.of_nat n -> CmpProof.sval n v = to_Z true n v.
Proof.
  intros Hn Hv. unfold CmpProof.sval, to_Z. rewrite norm_small by exact Hv.
  rewrite testbit_top by assumption. rewrite Zpow2. cbn [andb].
  replace (Nat.eqb n 0) with false by (symmetry; apply Nat.eqb_neq; lia). cbn [negb]. rewrite andb_true_r.
  destruct (N.ltb_spec v (2 ^ N.of_nat (n - 1))), (N.leb_spec (2 ^ N.of_nat (n - 1)) v); try reflexivity; lia.
Qed.

Lemma okm_int_cmp_pad t x y r0 n : Nat.max (length x) (length y) = n -> (1 <= n)%nat ->
  okm t (int_gt x y [r0]) (fun _ e => e r0 = (to_Z true n (valN e y) <? to_Z true n (valN e x))%Z) /\
  okm t (int_ge x y [r0]) (fun _ e => e r0 = (to_Z true n (valN e y) <=? to_Z true n (valN e x))%Z) /\
  okm t (int_lt x y [r0]) (fun _ e => e r0 = (to_Z true n (valN e x) <? to_Z true n (valN e y))%Z) /\
  okm t (int_le x y [r0]) (fun _ e => e r0 = (to_Z true n (valN e x) <=? to_Z true n (valN e y))%Z).
Proof.
  intros Lm Ln. destruct n as [|k]; [lia|].
  assert (Bx : forall e : Emit.env, valN e x < 2 ^ N.of_nat (S k)).
  { intros e. eapply N.lt_le_trans; [apply valN_lt|]. apply N.pow_le_mono_r; lia. }
  assert (By : forall e : Emit.env, valN e y < 2 ^ N.of_nat (S k)).
  { intros e. eapply N.lt_le_trans; [apply valN_lt|]. apply N.pow_le_mono_r; lia. }
  assert (Lm' : Nat.max (length y) (length x) = S k) by lia.
  repeat split.
  - unfold int_gt. mstepn okm_zero c.
    eapply okm_weaken; [apply (okm_int_comparator_pad t c x y r0 k Lm)|].
    cbn. intros _ e H Hc. rewrite H, Hc, cmpZ_gt_form, !sval_to_Z by (auto; lia). reflexivity.
  - unfold int_ge. mstepn okm_one c.
    eapply okm_weaken; [apply (okm_int_comparator_pad t c x y r0 k Lm)|].
    cbn. intros _ e H Hc. rewrite H, Hc, cmpZ_ge_form, !sval_to_Z by (auto; lia). reflexivity.
  - unfold int_lt. mstepn okm_zero c.
    eapply okm_weaken; [apply (okm_int_comparator_pad t c y x r0 k Lm')|].
    cbn. intros _ e H Hc. rewrite H, Hc, cmpZ_gt_form, !sval_to_Z by (auto; lia). reflexivity.
  - unfold int_le. mstepn okm_one c.
    eapply okm_weaken; [apply (okm_int_comparator_pad t c y x r0 k Lm')|].
    cbn. intros _ e H Hc. rewrite H, Hc, cmpZ_ge_form, !sval_to_Z by (auto; lia). reflexivity.
Qed.

Lemma okm_inv_loop t : forall x o, (length o <= length x)%nat ->
  okm t (inv_loop x o)
      (fun _ e => forall k, (k < length o)%nat -> e (nth k o 0) = negb (e (nth k x 0))).
Proof.
  induction x as [|xi x IH]; intros o L.
  - destruct o; [|cbn in L; lia]. cbn. apply okm_ret. intros e k Hk. cbn in Hk. lia.
  - destruct o as [|oi o].
    + cbn. apply okm_ret. intros e k Hk. cbn in Hk. lia.
    + cbn [inv_loop]. eapply okm_bind; [apply okm_cc_inv|]. intros u. cbv beta.
      eapply okm_weaken; [apply IH; cbn in L; lia|]. cbv beta.
      intros _ e H H0 k Hk. destruct k; cbn [nth]; [exact H0|]. apply H. cbn in Hk. lia.
Qed.

Lemma not_val (e : Emit.env) (x o : list wire) wo a : length o = wo -> valN e x = a ->
  (forall k, (k < length o)%nat -> e (nth k o 0) = negb (e (nth k x 0))) ->
  (wo <= length x)%nat ->
  valN e o = N.lxor (pow2 wo - 1) (norm wo a).
Proof.
  intros Lo Va H Lx. apply bits_inj_nat. intros k.
  rewrite N.lxor_spec, norm_testbit, (valN_testbit e o 0), Lo.
  replace (pow2 wo - 1) with (N.ones (N.of_nat wo)) by (rewrite N.ones_equiv, N.sub_1_r; reflexivity).
  destruct (Nat.ltb k wo) eqn:E.
  - apply Nat.ltb_lt in E. rewrite N.ones_spec_low by lia. rewrite H by lia.
    rewrite e_nth. replace (Nat.ltb k (length x)) with true by (symmetry; apply Nat.ltb_lt; lia).
    rewrite Va. reflexivity.
  - apply Nat.ltb_ge in E. rewrite N.ones_spec_high by lia. reflexivity.
Qed.

Lemma okm_bld t ob (b : list wire -> M (list wire)) (Q : list wire -> Emit.env -> Prop) :
  (forall o, length o = ob -> okm t (b o) Q) -> okm t (o <- fresh_n ob;; b o) Q.
Proof.
  intros H. eapply okm_bind_p; [apply okp_fresh_n|]. intros o Lo. cbv beta.
  eapply okm_weaken; [apply H, Lo|]. auto.
Qed.

Lemma okm_bldu t ob (b : list wire -> M unit) (Q : list wire -> Emit.env -> Prop) :
  (forall o, length o = ob -> okm t (b o) (fun _ e => Q o e)) ->
  okm t (o <- fresh_n ob;; b o;; ret o) Q.
Proof.
  intros H. eapply okm_bind_p; [apply okp_fresh_n|]. intros o Lo. cbv beta.
  eapply okm_bind; [apply H, Lo|]. intros u. cbv beta. apply okm_ret. auto.
Qed.

Lemma len1 (o : list wire) : length o = 1%nat -> exists r0, o = [r0].
Proof. destruct o as [|r0 [|]]; try discriminate. eauto. Qed.

Lemma odd_b2n b : N.odd (N.b2n b) = b. Proof. destruct b; reflexivity. Qed.

Lemma of_Z_lt w z : of_Z w z < pow2 w.
Proof. exact (MiniFacts.of_Z_lt w z). Qed.

Lemma ltb_true a b : (a < b)%nat -> Nat.ltb a b = true.
Proof. intros. apply Nat.ltb_lt. assumption. Qed.

Lemma index_bits_eq_gen : forall fuel bits len n,
  fst (Index.index_bits fuel bits len n) = Mini.index_bits_from len bits fuel n.
Proof.
  induction fuel as [|f IH]; intros bits len n; cbn [Index.index_bits Mini.index_bits_from]; [reflexivity|].
  destruct (Nat.ltb len n); [apply IH|reflexivity].
Qed.

Lemma index_nbits_eq n : index_nbits n = Mini.index_bits n.
Proof. unfold index_nbits, Mini.index_bits. apply index_bits_eq_gen. Qed.

Lemma valN_skipn (e : Emit.env) : forall off (w : list wire), valN e (skipn off w) = valN e w / pow2 off.
Proof.
  induction off as [|off IH]; intros w.
  - cbn [skipn]. unfold pow2. cbn. rewrite N.div_1_r. reflexivity.
  - destruct w as [|x w]; cbn [skipn].
    + rewrite valN_nil. symmetry. apply N.div_0_l, pow2_nz.
    + rewrite IH, valN_cons. unfold pow2. rewrite pow2_S.
      rewrite <- N.div_div by (try apply N.pow_nonzero; discriminate).
      f_equal. rewrite N.add_comm, N.mul_comm, N.div_add_l by discriminate.
      rewrite (N.div_small (N.b2n (e x)) 2) by (destruct (e x); cbn; lia). lia.
Qed.

Lemma valN_elem (e : Emit.env) size (arr : list wire) k :
  valN e (elem size arr k) = norm size (valN e arr / pow2 (k * size)).
Proof. unfold elem. rewrite valN_firstn, valN_skipn. reflexivity. Qed.

Lemma arith_eq_any sg w a b : a < pow2 w -> b < pow2 w ->
  arith Eq sg w a b = N.b2n (a =? b) /\ arith Ne sg w a b = N.b2n (negb (a =? b)).
Proof. intros Ha Hb. cbn [arith]. rewrite !norm_small, !ofb_b2n by assumption. split; reflexivity. Qed.

Lemma arith_udiv w a b : a < pow2 w -> b < pow2 w ->
  norm w (arith Div false w a b) = dq a b w.
Proof.
  intros Ha Hb. cbn [arith]. rewrite !to_Z_unsigned by assumption. unfold dq.
  destruct (N.eqb_spec b 0) as [E|E].
  - subst b. cbn [Z.of_N Z.eqb]. replace (Z.of_N a <? 0)%Z with false by (symmetry; apply Z.ltb_ge; lia).
    rewrite of_Z_m1. apply norm_small. pose proof (pow2_nz w). unfold pow2 in *. lia.
  - replace (Z.of_N b =? 0)%Z with false by (symmetry; apply Z.eqb_neq; lia).
    rewrite Z.quot_div_nonneg by lia. rewrite <- N2Z.inj_div, of_Z_ofN.
    rewrite norm_norm_le by lia. apply norm_small.
    eapply N.le_lt_trans; [|exact Ha]. apply N.div_le_upper_bound; [exact E|]. nia.
Qed.

Lemma arith_umod w a b : a < pow2 w -> b < pow2 w ->
  norm w (arith Mod false w a b) = dr a b.
Proof.
  intros Ha Hb. cbn [arith]. rewrite !to_Z_unsigned by assumption. unfold dr.
  destruct (N.eqb_spec b 0) as [E|E].
  - subst b. cbn [Z.of_N Z.eqb]. rewrite Z.abs_eq by lia. rewrite of_Z_ofN.
    rewrite norm_norm_le by lia. apply norm_small, Ha.
  - replace (Z.of_N b =? 0)%Z with false by (symmetry; apply Z.eqb_neq; lia).
    rewrite !Z.abs_eq by lia. rewrite Z.rem_mod_nonneg by lia. rewrite <- N2Z.inj_mod, of_Z_ofN.
    rewrite norm_norm_le by lia. apply norm_small.
    eapply N.lt_trans; [apply N.mod_lt; exact E|exact Hb].
Qed.

Definition magN (n : nat) (a : N) : N :=
  if N.testbit a (N.of_nat (n - 1)) then negN n a else a.

Lemma magN_lt n a : a < pow2 n -> magN n a < pow2 n.
Proof. intros H. unfold magN. destruct (N.testbit a (N.of_nat (n - 1))); [apply negN_lt|exact H]. Qed.

Lemma to_Z_sign n a : (1 <= n)%nat -> a < pow2 n ->
  (to_Z true n a <? 0)%Z = N.testbit a (N.of_nat (n - 1)) /\
  Z.abs (to_Z true n a) = Z.of_N (magN n a).
Proof.
  intros Hn Ha. unfold to_Z, magN. rewrite norm_small by exact Ha. cbn [andb].
  replace (Nat.eqb n 0) with false by (symmetry; apply Nat.eqb_neq; lia). cbn [negb]. rewrite andb_true_r.
  destruct (N.testbit a (N.of_nat (n - 1))) eqn:T.
  - assert (A0 : a <> 0) by (intros ->; rewrite N.bits_0 in T; discriminate).
    unfold negN. fold (pow2 n). rewrite N.mod_small by lia.
    split; [apply Z.ltb_lt; lia | lia].
  - split; [apply Z.ltb_ge; lia | lia].
Qed.

Lemma to_Z_zero n a : a < pow2 n -> (to_Z true n a = 0)%Z <-> a = 0.
Proof.
  intros Ha. unfold to_Z. rewrite norm_small by exact Ha. cbn [andb].
  destruct (N.testbit a (N.of_nat (n - 1))) eqn:T; cbn [andb].
  - assert (A0 : a <> 0) by (intros ->; rewrite N.bits_0 in T; discriminate).
    destruct (negb (Nat.eqb n 0)); lia.
  - lia.
Qed.

Lemma magN_zero n a : a < pow2 n -> magN n a = 0 <-> a = 0.
Proof.
  intros Ha. unfold magN. destruct (N.testbit a (N.of_nat (n - 1))) eqn:T.
  - assert (A0 : a <> 0) by (intros ->; rewrite N.bits_0 in T; discriminate).
    unfold negN. fold (pow2 n). rewrite N.mod_small by lia. lia.
  - tauto.
Qed.

Lemma Zquot_signs (x y : Z) : y <> 0%Z ->
  Z.quot x y = if xorb (x <? 0)%Z (y <? 0)%Z then (- (Z.abs x / Z.abs y))%Z else (Z.abs x / Z.abs y)%Z.
Proof.
  intros Hy.
  destruct (Z.ltb_spec x 0), (Z.ltb_spec y 0); cbn [xorb].
  - rewrite <- (Z.opp_involutive x) at 1. rewrite <- (Z.opp_involutive y) at 1.
    rewrite Z.quot_opp_opp by lia. rewrite Z.quot_div_nonneg by lia.
    rewrite !Z.abs_neq by lia. reflexivity.
  - rewrite <- (Z.opp_involutive x) at 1. rewrite Z.quot_opp_l by lia.
    rewrite Z.quot_div_nonneg by lia. rewrite (Z.abs_neq x), (Z.abs_eq y) by lia. reflexivity.
  - rewrite <- (Z.opp_involutive y) at 1. rewrite Z.quot_opp_r by lia.
    rewrite Z.quot_div_nonneg by lia. rewrite (Z.abs_neq y), (Z.abs_eq x) by lia. reflexivity.
  - rewrite Z.quot_div_nonneg by lia. rewrite !Z.abs_eq by lia. reflexivity.
Qed.

Lemma of_Z_neg n m : m <= pow2 n -> of_Z n (- Z.of_N m) = negN n m.
Proof.
  intros H. unfold of_Z, negN. fold (pow2 n). apply N2Z.inj.
  pose proof (pow2_nz n) as NZ.
  rewrite Z2N.id by (apply Z.mod_pos_bound; lia).
  rewrite N2Z.inj_mod, N2Z.inj_sub by exact H.
  replace (Z.of_N (pow2 n) - Z.of_N m)%Z with (- Z.of_N m + 1 * Z.of_N (pow2 n))%Z by lia.
  rewrite Z_mod_plus_full. reflexivity.
Qed.

Lemma arith_idiv n a b : (1 <= n)%nat -> a < pow2 n -> b < pow2 n ->
  norm n (arith Div true n a b) =
  let sa := N.testbit a (N.of_nat (n - 1)) in
  let sb := N.testbit b (N.of_nat (n - 1)) in
  let q := dq (magN n a) (magN n b) n in
  if xorb sa sb then negN n q else q.
Proof.
  intros Hn Ha Hb. cbv zeta. cbn [arith].
  destruct (to_Z_sign n a Hn Ha) as [Sa Aa]. destruct (to_Z_sign n b Hn Hb) as [Sb Ab].
  pose proof (magN_lt n a Ha) as MA. pose proof (magN_lt n b Hb) as MB.
  assert (P2 : 2 <= pow2 n).
  { unfold pow2. replace n with (S (n - 1)) by lia. rewrite pow2_S. pose proof (pow2_pos (n - 1)). lia. }
  unfold dq. destruct (Z.eqb_spec (to_Z true n b) 0) as [E|E].
  - apply (to_Z_zero n b Hb) in E. subst b.
    assert (M0 : magN n 0 = 0) by (apply magN_zero; [lia|reflexivity]).
    rewrite M0. cbn [N.eqb]. rewrite N.bits_0, xorb_false_r. rewrite Sa.
    destruct (N.testbit a (N.of_nat (n - 1))).
    + change 1%Z with (Z.of_N 1). rewrite of_Z_ofN, norm_norm_le by lia.
      unfold negN. fold (pow2 n). replace (pow2 n - (pow2 n - 1)) with 1 by lia. reflexivity.
    + rewrite of_Z_m1. change (2 ^ N.of_nat n) with (pow2 n). apply norm_small. lia.
  - assert (B0 : magN n b <> 0).
    { intros H. apply (magN_zero n b Hb) in H. apply E. apply (to_Z_zero n b Hb). exact H. }
    replace (magN n b =? 0) with false by (symmetry; apply N.eqb_neq; exact B0).
    rewrite Zquot_signs by exact E. rewrite Sa, Sb, Aa, Ab, <- N2Z.inj_div.
    assert (Q : magN n a / magN n b < pow2 n).
    { eapply N.le_lt_trans; [|exact MA]. apply N.div_le_upper_bound; [exact B0|]. nia. }
    destruct (xorb (N.testbit a (N.of_nat (n - 1))) (N.testbit b (N.of_nat (n - 1)))).
    + rewrite of_Z_neg by lia. apply norm_small, negN_lt.
    + rewrite of_Z_ofN, norm_norm_le by lia. apply norm_small, Q.
Qed.

Lemma arith_imod n a b : (1 <= n)%nat -> a < pow2 n -> b < pow2 n ->
  norm n (arith Mod true n a b) = dr (magN n a) (magN n b).
Proof.
  intros Hn Ha Hb. cbn [arith].
  destruct (to_Z_sign n a Hn Ha) as [Sa Aa]. destruct (to_Z_sign n b Hn Hb) as [Sb Ab].
  pose proof (magN_lt n a Ha) as MA. pose proof (magN_lt n b Hb) as MB.
  unfold dr. destruct (Z.eqb_spec (to_Z true n b) 0) as [E|E].
  - apply (to_Z_zero n b Hb) in E. subst b.
    assert (M0 : magN n 0 = 0) by (apply magN_zero; [unfold pow2; pose proof (pow2_pos n); lia|reflexivity]).
    rewrite M0. cbn [N.eqb]. rewrite Aa, of_Z_ofN, norm_norm_le by lia. apply norm_small, MA.
  - assert (B0 : magN n b <> 0).
    { intros H. apply (magN_zero n b Hb) in H. apply E. apply (to_Z_zero n b Hb). exact H. }
    replace (magN n b =? 0) with false by (symmetry; apply N.eqb_neq; exact B0).
    rewrite Aa, Ab. rewrite Z.rem_mod_nonneg by lia. rewrite <- N2Z.inj_mod, of_Z_ofN.
    rewrite norm_norm_le by lia. apply norm_small.
    eapply N.lt_trans; [apply N.mod_lt; exact B0|exact MB].
Qed.

Lemma okm_new_subtractor_any t x y z :
  (1 <= length z)%nat -> (1 <= Nat.max (length x) (length y))%nat ->
  (length z <= Nat.max (length x) (length y))%nat ->
  okm t (new_subtractor x y z)
      (fun z' e => length z' = length z /\
         valN e z' = (valN e x + 2 ^ N.of_nat (length z)
                      - valN e y mod 2 ^ N.of_nat (length z)) mod 2 ^ N.of_nat (length z)).
Proof.
  intros Hz Hm Hw. destruct t.
  - eapply okm_weaken; [apply okm_new_subtractor_gmw; assumption|]. cbv beta.
    intros z' e [L V]. split; [exact L|]. cbv zeta in V.
    replace (Nat.min (S (Nat.max (length x) (length y))) (length z)) with (length z) in V by lia.
    rewrite V. apply sub_forms. apply N.pow_nonzero. discriminate.
  - apply okm_new_subtractor_yao; lia.
Qed.

Lemma okm_new_multiplier_any t thr x y z :
  (1 <= Nat.max (length x) (length y))%nat -> (1 <= length z)%nat ->
  okm t (new_multiplier multiplierArrayTresholds thr x y z)
      (fun z' e => length z' = length z /\
                   valN e z' = (valN e x * valN e y) mod 2 ^ N.of_nat (length z)).
Proof.
  intros Hm Hz. destruct t; [apply okm_new_multiplier_gmw; exact Hz | apply okm_new_multiplier_yao_shipped; assumption].
Qed.

Lemma to_N_bits_val l : to_N l = bits_val l.
Proof. induction l as [|b l IH]; [reflexivity|]. cbn [to_N bits_val]. rewrite IH. reflexivity. Qed.

Lemma nbits_length w v : length (nbits w v) = w.
Proof. unfold nbits. rewrite map_length, seq_length. reflexivity. Qed.

Lemma nbits_nth w v k : (k < w)%nat -> nth k (nbits w v) false = N.testbit v (N.of_nat k).
Proof.
  intros H. unfold nbits.
  rewrite (nth_indep _ false (N.testbit v (N.of_nat 0))) by (rewrite map_length, seq_length; exact H).
  rewrite (map_nth (fun i => N.testbit v (N.of_nat i)) (seq 0 w) 0%nat k), seq_nth by exact H. reflexivity.
Qed.

Lemma nbits_valN (e : Emit.env) (w : list wire) n : (length w <= n)%nat ->
  nbits n (valN e w) = map e w ++ repeat false (n - length w).
Proof.
  intros L. apply (nth_ext _ _ false false).
  - rewrite nbits_length, app_length, map_length, repeat_length. lia.
  - rewrite nbits_length. intros k Hk. rewrite nbits_nth by exact Hk.
    rewrite (valN_testbit e w 0). destruct (Nat.ltb k (length w)) eqn:E.
    + apply Nat.ltb_lt in E. rewrite app_nth1 by (rewrite map_length; exact E).
      rewrite (nth_indep _ false (e 0)) by (rewrite map_length; exact E).
      rewrite map_nth. reflexivity.
    + apply Nat.ltb_ge in E. rewrite app_nth2 by (rewrite map_length; exact E).
      symmetry. apply nth_repeat.
Qed.

Lemma args_fit_F2 : forall args ins (ws : list (list wire)), args_fit args ins = true ->
  Forall2 (fun a w => length w = opnd_bits a) args ws ->
  Forall2 (fun w n => (length w <= n)%nat) ws ins.
Proof.
  induction args as [|a ar IH]; intros ins ws AF F; inversion F; subst.
  - destruct ins; [constructor|discriminate AF].
  - destruct ins as [|n nr]; [discriminate AF|]. cbn [args_fit] in AF.
    apply andb_true_iff in AF. destruct AF as [A1 A2]. apply Nat.leb_le in A1.
    constructor; [lia|]. apply IH; assumption.
Qed.

Lemma flat_bits_circ_input (e : Emit.env) vs : forall args ins (ws : list (list wire)),
  args_fit args ins = true ->
  Forall2 (fun a w => length w = opnd_bits a) args ws ->
  Forall2 (fun a w => valN e w = opnd_val vs a) args ws ->
  flat_bits e ws ins = circ_input vs args ins.
Proof.
  induction args as [|a ar IH]; intros ins ws AF F V; inversion F; subst; inversion V; subst.
  - reflexivity.
  - destruct ins as [|n nr]; [discriminate AF|]. cbn [args_fit] in AF.
    apply andb_true_iff in AF. destruct AF as [A1 A2]. apply Nat.leb_le in A1.
    cbn [flat_bits circ_input hd tl]. f_equal; [|apply IH; assumption].
    match goal with H : valN e _ = opnd_val vs a |- _ => rewrite <- H end.
    symmetry. apply nbits_valN. lia.
Qed.

Definition opnds_len (args : list opnd) (ws : list (list wire)) : Prop :=
  Forall2 (fun a w => length w = opnd_bits a) args ws.
Definition opnds_val (vs : list Ssa.sval) (e : Emit.env) (args : list opnd) (ws : list (list wire)) : Prop :=
  Forall2 (fun a w => valN e w = opnd_val vs a) args ws.

Lemma Forall2_arg (R : opnd -> list wire -> Prop) : forall args ws k,
  Forall2 R args ws -> (k < length args)%nat -> R (arg k args) (nth k ws []).
Proof.
  intros args ws k F. revert k. induction F as [|a w args ws H F IH]; intros k Hk; [cbn in Hk; lia|].
  destruct k; [exact H|]. apply IH. cbn in Hk. lia.
Qed.

(* what cg_wf_instr says, opcode by opcode, as far as the proofs use it *)
Definition cg_shape (i : instr) : Prop :=
  let a := i_args i in
  let b0 := opnd_bits (arg 0 a) in
  let b1 := opnd_bits (arg 1 a) in
  let b2 := opnd_bits (arg 2 a) in
  let ob := s_bits (i_out i) in
  let mx := Nat.max b0 b1 in
  let cst := fun k => opnd_const (arg k a) in
  (match i_op i with
   | Oiadd | Ouadd | Oimult | Oumult | Oisub | Ousub => length a = 2 /\ 1 <= ob /\ ob <= mx
   | Oband | Obor | Obxor | Obclr | Oudiv | Oumod => length a = 2 /\ 1 <= mx /\ ob <= mx
   | Oidiv | Oimod => length a = 2 /\ 1 <= mx /\ 1 <= ob /\ ob <= mx
   | Oult | Oule | Ougt | Ouge | Oeq | Oneq | Oilt | Oile | Oigt | Oige => length a = 2 /\ 1 <= mx /\ ob = 1
   | Oand | Oor => length a = 2 /\ b0 = 1 /\ b1 = 1 /\ ob = 1
   | Onot => length a = 1 /\ ob <= b0
   | Omov => length a = 1
   | Osmov => length a = 1 /\ 1 <= b0
   | Olshift | Orshift => length a = 2
   | Osrshift => length a = 2 /\ 1 <= b0
   | Oslice => length a = 3 /\ cst 1 < cst 2 /\ cst 2 - cst 1 <= ob
   | Oamov => length a = 4 /\ cst 2 < cst 3
   | Oindex =>
       length a = 3 /\ 1 <= i_aux i /\ ob = i_aux i /\ cst 1 <= b0 /\ 1 <= (b0 - cst 1) / i_aux i /\
       (b0 - cst 1) mod i_aux i = 0 /\ 1 <= b2
   | Ophi => length a = 3 /\ b0 = 1 /\ ob = Nat.max b1 b2
   | Oconcat => length a = 2 /\ ob = b0 + b1
   | Obts | Obtc => length a = 2 /\ ob = 1
   | Ohamming => length a = 2 /\ 2 <= mx /\ 1 <= ob
   | Ounsupported => False
   | Ocirc ins c =>
       args_fit a ins = true /\ tot ins = Circuit.ninputs c /\ ob = Circuit.noutputs c /\ circ_ok c = true
   end)%nat.

Ltac split_wf H :=
  repeat match type of H with
         | (_ && _ = true) => let H2 := fresh "W" in apply andb_true_iff in H; destruct H as [H H2]
         end.

Ltac natb :=
  repeat match goal with
         | H : Nat.eqb _ _ = true |- _ => apply Nat.eqb_eq in H
         | H : Nat.leb _ _ = true |- _ => apply Nat.leb_le in H
         | H : Nat.ltb _ _ = true |- _ => apply Nat.ltb_lt in H
         end.

Lemma cg_wf_instr_inv i : cg_wf_instr i = true -> cg_shape i.
Proof.
  unfold cg_wf_instr, cg_shape. intros H.
  destruct (i_op i); try discriminate H; split_wf H; natb; tauto.
Qed.

Section Instr.
Variable tg : bool.
Variable thr : nat.
Variable vs : list Ssa.sval.

Definition carries (ob : nat) (X : N) (o : list wire) (e : Emit.env) : Prop :=
  length o = ob /\ valN e o = norm ob X.

Definition post (i : instr) : list wire -> Emit.env -> Prop :=
  carries (s_bits (i_out i)) (eval_instr vs i).

(* One lemma per class of opcodes: the builder theorem of the class and the
   arithmetic fact relating the builder's function on N to the meaning of the
   opcode are parameters. *)
Section Classes.
Variable args : list opnd.
Variable ws : list (list wire).
Variable ob : nat.
Hypothesis FR : opnds_len args ws.
Local Notation a0 := (arg 0 args).
Local Notation a1 := (arg 1 args).
Local Notation w0 := (nth 0 ws []).
Local Notation w1 := (nth 1 ws []).
Local Notation mx := (Nat.max (opnd_bits a0) (opnd_bits a1)).

Lemma arg_len k : (k < length args)%nat -> length (nth k ws []) = opnd_bits (arg k args).
Proof. exact (Forall2_arg _ args ws k FR). Qed.

Lemma arg_val e k : opnds_val vs e args ws -> (k < length args)%nat ->
  valN e (nth k ws []) = opnd_val vs (arg k args).
Proof. intros HV. exact (Forall2_arg _ args ws k HV). Qed.

(* add sub mul: result no wider than the operands, computed modulo 2^ob *)
Lemma modarith_case bop sg (b : list wire -> list wire -> list wire -> M (list wire)) (F : nat -> N -> N -> N) :
  (forall x y z, (1 <= length z)%nat -> (1 <= Nat.max (length x) (length y))%nat ->
     (length z <= Nat.max (length x) (length y))%nat ->
     okm tg (b x y z) (fun z' e => length z' = length z /\ valN e z' = F (length z) (valN e x) (valN e y))) ->
  (forall w wo x y, (wo <= w)%nat -> norm wo (arith bop sg w x y) = F wo x y) ->
  (length args = 2 /\ 1 <= ob /\ ob <= mx)%nat ->
  okm tg (o <- fresh_n ob;; b w0 w1 o)
      (fun o e => opnds_val vs e args ws ->
                  carries ob (arith bop sg mx (opnd_val vs a0) (opnd_val vs a1)) o e).
Proof.
  intros Hb Ha (LA & H1 & H2). apply okm_bld. intros o Lo.
  eapply okm_weaken; [apply Hb; rewrite ?Lo, ?arg_len by lia; lia|]. cbv beta.
  intros z' e [Lz Vz] HV. split; [lia|].
  rewrite Vz, Lo, !(arg_val e) by (assumption || lia). symmetry. apply Ha, H2.
Qed.

Lemma bitwise_case bop (f : list wire -> list wire -> list wire -> M unit) :
  match bop with BAnd | BOr | BXor | BAndNot => True | _ => False end ->
  (forall x y r, (length r <= Nat.max (length x) (length y))%nat ->
     okm tg (f x y r) (fun _ e => valN e r = bitop bop (valN e x) (valN e y) mod 2 ^ N.of_nat (length r))) ->
  (length args = 2 /\ 1 <= mx /\ ob <= mx)%nat ->
  okm tg (o <- fresh_n ob;; f w0 w1 o;; ret o)
      (fun o e => opnds_val vs e args ws ->
                  carries ob (arith bop false mx (opnd_val vs a0) (opnd_val vs a1)) o e).
Proof.
  intros Hop Hf (LA & _ & H2). apply okm_bldu. intros o Lo.
  eapply okm_weaken; [apply Hf; rewrite Lo, !arg_len by lia; exact H2|]. cbv beta.
  intros _ e Vz HV. split; [exact Lo|].
  rewrite Vz, Lo, !(arg_val e) by (assumption || lia). symmetry. apply arith_bitwise; assumption.
Qed.

(* the four divisions (Yao only): D n is the builder's function at operand width n *)
Lemma div_case bop sg (f : list wire -> list wire -> list wire -> M unit) (D : nat -> N -> N -> N) :
  (forall x y o, (1 <= Nat.max (length x) (length y))%nat -> (length o <= Nat.max (length x) (length y))%nat ->
     okm false (f x y o)
         (fun _ e => valN e o = D (Nat.max (length x) (length y)) (valN e x) (valN e y)
                                mod 2 ^ N.of_nat (length o))) ->
  (forall n x y, (1 <= n)%nat -> x < pow2 n -> y < pow2 n -> norm n (arith bop sg n x y) = D n x y) ->
  tg = false -> length args = 2%nat -> (1 <= mx)%nat -> (ob <= mx)%nat ->
  okm tg (o <- fresh_n ob;; f w0 w1 o;; ret o)
      (fun o e => opnds_val vs e args ws ->
                  carries ob (arith bop sg mx (opnd_val vs a0) (opnd_val vs a1)) o e).
Proof.
  intros Hf Ha -> LA H1 H2. apply okm_bldu. intros o Lo.
  eapply okm_weaken; [apply Hf; rewrite ?Lo, ?arg_len by lia; assumption|]. cbv beta.
  intros _ e Vz HV. split; [exact Lo|].
  rewrite Vz, Lo, !arg_len, !(arg_val e) by (assumption || lia).
  rewrite <- (norm_norm_le ob mx) by exact H2.
  rewrite Ha by (try apply opnd_val_lt_le; lia). reflexivity.
Qed.

(* the ten comparisons: c n is the builder's predicate at operand width n *)
Lemma cmp_case bop sg (f : list wire -> list wire -> list wire -> M unit) (c : nat -> N -> N -> bool) :
  (forall x y r0, (1 <= Nat.max (length x) (length y))%nat ->
     okm tg (f x y [r0]) (fun _ e => e r0 = c (Nat.max (length x) (length y)) (valN e x) (valN e y))) ->
  (forall n x y, x < pow2 n -> y < pow2 n -> arith bop sg n x y = N.b2n (c n x y)) ->
  (length args = 2 /\ 1 <= mx /\ ob = 1)%nat ->
  okm tg (o <- fresh_n ob;; f w0 w1 o;; ret o)
      (fun o e => opnds_val vs e args ws ->
                  carries ob (arith bop sg mx (opnd_val vs a0) (opnd_val vs a1)) o e).
Proof.
  intros Hf Ha (LA & H1 & ->). apply okm_bldu. intros o Lo. destruct (len1 o Lo) as [r0 ->].
  eapply okm_weaken; [apply Hf; rewrite !arg_len by lia; exact H1|]. cbv beta.
  intros _ e Hr HV. split; [reflexivity|].
  rewrite valN_single, Hr, !arg_len, !(arg_val e) by (assumption || lia).
  rewrite Ha by (apply opnd_val_lt_le; lia). symmetry. apply b2n_norm1.
Qed.

Lemma logic_case bop (f : list wire -> list wire -> list wire -> M unit) (c : bool -> bool -> bool) :
  (forall x0 y0 r0, okm tg (f [x0] [y0] [r0]) (fun _ e => e r0 = c (e x0) (e y0))) ->
  (forall w x y, arith bop false w (N.b2n x) (N.b2n y) = N.b2n (c x y)) ->
  (length args = 2 /\ opnd_bits a0 = 1 /\ opnd_bits a1 = 1 /\ ob = 1)%nat ->
  okm tg (o <- fresh_n ob;; f w0 w1 o;; ret o)
      (fun o e => opnds_val vs e args ws ->
                  carries ob (arith bop false mx (opnd_val vs a0) (opnd_val vs a1)) o e).
Proof.
  intros Hf Ha (LA & B0 & B1 & ->). apply okm_bldu. intros o Lo. destruct (len1 o Lo) as [r0 ->].
  pose proof (arg_len 0 ltac:(lia)) as L0. pose proof (arg_len 1 ltac:(lia)) as L1.
  rewrite B0 in L0. rewrite B1 in L1.
  destruct (len1 _ L0) as [x0 E0]. destruct (len1 _ L1) as [x1 E1]. rewrite E0, E1.
  eapply okm_weaken; [apply Hf|]. cbv beta. intros _ e Hr HV. split; [reflexivity|].
  rewrite <- !(arg_val e) by (assumption || lia). rewrite E0, E1, !valN_single, Ha, Hr.
  symmetry. apply b2n_norm1.
Qed.

Lemma bt_case (f : list wire -> nat -> list wire -> M (list wire)) (c : bool -> bool) k :
  (forall x r0, okm tg (f x k [r0]) (fun r' e => map e r' = [c (N.testbit (valN e x) (N.of_nat k))])) ->
  (length args = 2 /\ ob = 1)%nat ->
  okm tg (o <- fresh_n ob;; f w0 k o)
      (fun o e => opnds_val vs e args ws ->
                  carries ob (ofb (c (N.testbit (opnd_val vs a0) (N.of_nat k)))) o e).
Proof.
  intros Hf (LA & ->). apply okm_bld. intros o Lo. destruct (len1 o Lo) as [r0 ->].
  eapply okm_weaken; [apply Hf|]. cbv beta. intros r' e Hr HV.
  destruct r' as [|w [|w' r']]; try discriminate Hr. inversion Hr as [Hw].
  split; [reflexivity|]. rewrite valN_single, Hw, (arg_val e _ HV) by lia.
  generalize (c (N.testbit (opnd_val vs a0) (N.of_nat k))). intros [|]; reflexivity.
Qed.

(* outputs wired to operand wires, to the sign wire or to the zero wire *)
Lemma wired_case (f : nat -> wire) X (H : Emit.env -> Prop) :
  (forall e k, H e -> (k < ob)%nat -> e (f k) = N.testbit X (N.of_nat k)) ->
  okm tg (ret (map f (seq 0 ob))) (fun o e => H e -> carries ob X o e).
Proof.
  intros Hf. apply okm_ret. intros e He. split; [rewrite map_length, seq_length; reflexivity|].
  apply wired_val. intros k Hk. apply Hf; assumption.
Qed.

Lemma wired0_case (f : wire -> nat -> wire) X (H : Emit.env -> Prop) :
  (forall e z k, e z = false -> H e -> (k < ob)%nat -> e (f z k) = N.testbit X (N.of_nat k)) ->
  okm tg (z <- zero_wire;; ret (map (f z) (seq 0 ob))) (fun o e => H e -> carries ob X o e).
Proof.
  intros Hf. eapply okm_bind; [apply okm_zero|]. intros z. cbv beta.
  eapply okm_weaken; [apply (wired_case (f z) X (fun e => e z = false /\ H e))|]; cbv beta.
  - intros e k [Hz He]. apply Hf; assumption.
  - intros o e K Hz He. apply K. split; assumption.
Qed.
End Classes.

Lemma okm_cg_body i ws :
  cg_wf_instr i = true -> ok_tg tg i = true -> opnds_len (i_args i) ws ->
  okm tg (cg_body multiplierArrayTresholds thr i ws)
      (fun o e => opnds_val vs e (i_args i) ws -> post i o e).
Proof.
  (* S: the side conditions of the opcode; AL k, AV e k: width and value of the
     wires of operand k.  One case per constructor of [opcode], in their order. *)
  intros WF HD FR. pose proof (cg_wf_instr_inv i WF) as S. clear WF.
  pose proof (arg_len (i_args i) ws FR) as AL. pose proof (arg_val (i_args i) ws) as AV.
  destruct i as [op args out aux]. unfold cg_shape in S. unfold ok_tg in HD.
  unfold post, cg_body, eval_instr, bin. cbn [i_op i_args i_out i_aux] in *.
  destruct op; cbv beta iota zeta in S |- *.
  (* iadd uadd isub usub imult umult *)
  1-2: apply (modarith_case args ws _ FR Add _ new_adder (fun wo x y => (x + y) mod 2 ^ N.of_nat wo));
       [intros x y z Hz Hm _; apply okm_new_adder; assumption | intros; apply arith_add; assumption
       | exact S].
  1-2: apply (modarith_case args ws _ FR Sub _ new_subtractor
                (fun wo x y => (x + 2 ^ N.of_nat wo - y mod 2 ^ N.of_nat wo) mod 2 ^ N.of_nat wo));
       [apply okm_new_subtractor_any | intros; apply arith_sub; assumption | exact S].
  1-2: apply (modarith_case args ws _ FR Mul _ (new_multiplier multiplierArrayTresholds thr)
                (fun wo x y => (x * y) mod 2 ^ N.of_nat wo));
       [intros x y z Hz Hm _; apply okm_new_multiplier_any; assumption | intros; apply arith_mul; assumption
       | exact S].
  (* idiv udiv imod umod *)
  - apply (div_case args ws _ FR Div true (fun x y o => new_idivider x y o [])
             (fun n x y => let sa := N.testbit x (N.of_nat (n - 1)) in
                           let sb := N.testbit y (N.of_nat (n - 1)) in
                           let q := dq (magN n x) (magN n y) n in
                           if xorb sa sb then negN n q else q));
      [apply okm_new_idivider_q_le | apply arith_idiv
      | destruct tg; [discriminate HD | reflexivity] | apply S | apply S | apply S].
  - apply (div_case args ws _ FR Div false (fun x y o => new_udivider x y o []) (fun n x y => dq x y n));
      [apply okm_new_udivider_q_le | intros n x y _; apply arith_udiv
      | destruct tg; [discriminate HD | reflexivity] | apply S | apply S | apply S].
  - apply (div_case args ws _ FR Mod true (fun x y o => new_idivider x y [] o)
             (fun n x y => dr (magN n x) (magN n y)));
      [apply okm_new_idivider_r_le | apply arith_imod
      | destruct tg; [discriminate HD | reflexivity] | apply S | apply S | apply S].
  - apply (div_case args ws _ FR Mod false (fun x y o => new_udivider x y [] o) (fun _ x y => dr x y));
      [apply okm_new_udivider_r_le | intros n x y _; apply arith_umod
      | destruct tg; [discriminate HD | reflexivity] | apply S | apply S | apply S].
  (* band bor bxor bclr *)
  - apply (bitwise_case args ws _ FR BAnd binary_and I); [apply okm_binary_and_trunc | exact S].
  - apply (bitwise_case args ws _ FR BOr binary_or I); [apply okm_binary_or_trunc | exact S].
  - apply (bitwise_case args ws _ FR BXor binary_xor I); [apply okm_binary_xor_trunc | exact S].
  - apply (bitwise_case args ws _ FR BAndNot binary_clear I); [apply okm_binary_clear_trunc | exact S].
  (* ilt ult ile ule igt ugt ige uge eq neq *)
  - apply (cmp_case args ws _ FR Lt true int_lt (fun n x y => (to_Z true n x <? to_Z true n y)%Z));
      [intros x y r0 H; apply (okm_int_cmp_pad tg x y r0 _ eq_refl H) | intros; apply ofb_b2n | exact S].
  - apply (cmp_case args ws _ FR Lt false uint_lt (fun _ x y => x <? y));
      [apply okm_uint_lt | exact (fun n x y => arith_ucmp Lt n x y I) | exact S].
  - apply (cmp_case args ws _ FR Le true int_le (fun n x y => (to_Z true n x <=? to_Z true n y)%Z));
      [intros x y r0 H; apply (okm_int_cmp_pad tg x y r0 _ eq_refl H) | intros; apply ofb_b2n | exact S].
  - apply (cmp_case args ws _ FR Le false uint_le (fun _ x y => x <=? y));
      [apply okm_uint_le | exact (fun n x y => arith_ucmp Le n x y I) | exact S].
  - apply (cmp_case args ws _ FR Gt true int_gt (fun n x y => (to_Z true n y <? to_Z true n x)%Z));
      [intros x y r0 H; apply (okm_int_cmp_pad tg x y r0 _ eq_refl H) | intros; apply ofb_b2n | exact S].
  - apply (cmp_case args ws _ FR Gt false uint_gt (fun _ x y => y <? x));
      [apply okm_uint_gt | exact (fun n x y => arith_ucmp Gt n x y I) | exact S].
  - apply (cmp_case args ws _ FR Ge true int_ge (fun n x y => (to_Z true n y <=? to_Z true n x)%Z));
      [intros x y r0 H; apply (okm_int_cmp_pad tg x y r0 _ eq_refl H) | intros; apply ofb_b2n | exact S].
  - apply (cmp_case args ws _ FR Ge false uint_ge (fun _ x y => y <=? x));
      [apply okm_uint_ge | exact (fun n x y => arith_ucmp Ge n x y I) | exact S].
  - apply (cmp_case args ws _ FR Eq false eq_comparator (fun _ x y => x =? y));
      [apply okm_eq_comparator | exact (fun n x y => arith_ucmp Eq n x y I) | exact S].
  - apply (cmp_case args ws _ FR Ne false neq_comparator (fun _ x y => negb (x =? y)));
      [apply okm_neq_comparator | exact (fun n x y => arith_ucmp Ne n x y I) | exact S].
  (* and or *)
  - apply (logic_case args ws _ FR LAnd logical_and andb);
      [apply okm_logical_and | intros w [|] [|]; reflexivity | exact S].
  - apply (logic_case args ws _ FR LOr logical_or orb);
      [apply okm_logical_or | intros w [|] [|]; reflexivity | exact S].
  (* not *)
  - destruct S as [LA H1]. apply okm_bldu. intros o Lo.
    eapply okm_weaken; [apply okm_inv_loop; rewrite Lo, AL by lia; exact H1|]. cbv beta.
    intros _ e HL HV. split; [exact Lo|].
    rewrite <- (not_val e _ o (s_bits out) _ Lo (AV e 0%nat HV ltac:(lia)) HL) by (rewrite AL by lia; exact H1).
    symmetry. apply norm_small. rewrite <- Lo. apply valN_lt.
  (* mov smov lshift rshift srshift slice amov: bit k of the result *)
  - apply wired0_case. intros e z k Hz HV Hk.
    rewrite e_nth_zero, (AV e 0%nat), norm_testbit, (ltb_true _ _ Hk) by (assumption || lia). reflexivity.
  - destruct S as [LA H1]. apply wired_case. intros e k HV Hk.
    rewrite e_nth_sign, of_Z_testbit, to_Z_testbit, (ltb_true _ _ Hk), AL, (AV e 0%nat)
      by (assumption || rewrite ?AL by lia; lia).
    reflexivity.
  - apply wired0_case. intros e z k Hz HV Hk.
    rewrite norm_testbit, (ltb_true _ _ Hk), shl_testbit, (norm_small (opnd_bits (arg 0 args))) by apply opnd_val_lt.
    destruct (Nat.leb (opnd_const (arg 1 args)) k); [|exact Hz].
    rewrite e_nth_zero, (AV e 0%nat) by (assumption || lia). reflexivity.
  - apply wired0_case. intros e z k Hz HV Hk.
    rewrite shr_testbit, (ltb_true _ _ Hk), e_nth_zero, <- (AV e 0%nat HV), <- (AL 0%nat) by (assumption || lia).
    symmetry. apply xbit_false_val.
  - destruct S as [LA H1]. apply wired_case. intros e k HV Hk.
    rewrite shr_testbit, (ltb_true _ _ Hk), e_nth_sign, <- (AV e 0%nat HV), <- (AL 0%nat)
      by (rewrite ?AL by lia; lia).
    reflexivity.
  - destruct S as (LA & H1 & H2).
    rewrite <- (norm_small (s_bits out) (slice_sem _ _ _))
      by (eapply N.lt_le_trans; [apply norm_lt | apply pow2_le_mono; exact H2]).
    apply wired0_case. intros e z k Hz HV Hk.
    rewrite norm_testbit, (ltb_true _ _ Hk), slice_sem_testbit.
    destruct (Nat.ltb k (opnd_const (arg 2 args) - opnd_const (arg 1 args))); [|exact Hz].
    rewrite e_nth_zero, (AV e 0%nat), Nat.add_comm by (assumption || lia). reflexivity.
  - destruct S as (LA & H1).
    apply wired0_case. intros e z k Hz HV Hk.
    rewrite store_sem_testbit, (ltb_true _ _ Hk).
    replace (opnd_const (arg 2 args) + (opnd_const (arg 3 args) - opnd_const (arg 2 args)))%nat
      with (opnd_const (arg 3 args)) by lia.
    destruct (Nat.ltb k (opnd_const (arg 2 args)) || Nat.leb (opnd_const (arg 3 args)) k);
      rewrite e_nth_zero, (AV e) by (assumption || lia); reflexivity.
  (* index *)
  - destruct S as (LA & H1 & H2 & H3 & H4 & H5 & H6). apply okm_bld. intros o Lo.
    set (off := opnd_const (arg 1 args)) in *. set (n := ((opnd_bits (arg 0 args) - off) / aux)%nat) in *.
    assert (La : length (skipn off (nth 0 ws [])) = (n * aux)%nat).
    { rewrite skipn_length, AL by lia. pose proof (Nat.div_mod (opnd_bits (arg 0 args) - off) aux ltac:(lia)) as D.
      rewrite H5 in D. unfold n. lia. }
    eapply okm_weaken; [apply (okm_new_index tg aux (skipn off (nth 0 ws [])) (nth 2 ws []) o n); rewrite ?AL by lia; lia|].
    cbv beta. intros o' e [-> Hv] HV. split; [exact Lo|]. rewrite Hv.
    unfold index_sem. rewrite index_nbits_eq, <- !(AV e) by (assumption || lia).
    change (valN e (nth 2 ws []) mod 2 ^ N.of_nat (Mini.index_bits n))
      with (norm (Mini.index_bits n) (valN e (nth 2 ws []))).
    destruct (N.ltb (norm (Mini.index_bits n) (valN e (nth 2 ws []))) (N.of_nat n)).
    + rewrite valN_elem, valN_skipn, norm_norm_le, H2 by lia. reflexivity.
    + symmetry. apply N.mod_0_l, pow2_nz.
  (* phi *)
  - destruct S as (LA & H1 & H2). apply okm_bldu. intros o Lo.
    pose proof (AL 0%nat ltac:(lia)) as L0. rewrite H1 in L0. destruct (len1 _ L0) as [c Ec]. rewrite Ec.
    eapply okm_weaken; [apply okm_new_mux; rewrite !AL by lia; lia|]. cbv beta. intros _ e Hm HV.
    split; [exact Lo|]. rewrite Hm, <- (AV e 0%nat HV), Ec, valN_single, odd_b2n by lia.
    destruct (e c); rewrite (AV e) by (assumption || lia); symmetry; apply norm_small, opnd_val_lt_le; lia.
  (* concat *)
  - destruct S as (LA & H1). apply okm_ret. intros e HV. split; [rewrite app_length, !AL by lia; lia|].
    rewrite valN_app, AL, !(AV e), H1 by (assumption || lia).
    symmetry. rewrite (N.mul_comm (opnd_val vs (arg 1 args))). apply norm_small.
    pose proof (opnd_val_lt vs (arg 0 args)). pose proof (opnd_val_lt vs (arg 1 args)).
    rewrite pow2_add. unfold pow2 in *. nia.
  (* bts btc *)
  - apply (bt_case args ws _ bit_set_test (fun b => b)); [intros x r0; apply okm_bit_set_test | exact S].
  - apply (bt_case args ws _ bit_clr_test negb); [intros x r0; apply okm_bit_clr_test | exact S].
  (* builtin: hamming *)
  - destruct S as (LA & H1 & H2). apply okm_bld. intros o Lo.
    eapply okm_weaken; [apply okm_hamming; rewrite ?AL by lia; lia|]. cbv beta.
    intros z' e [Lz Vz] HV. split; [lia|]. rewrite Vz, Lo, !(AV e) by (assumption || lia). reflexivity.
  - destruct S.
  (* circ *)
  - destruct S as (AF & TI & OB & OK).
    eapply okm_weaken; [apply okm_of_okp, (okp_embed_circ tg ins (s_bits out) c ws OK (args_fit_F2 _ _ _ AF FR) TI OB)|].
    cbv beta. intros o e [Lo Ho] HV. split; [exact Lo|].
    assert (EQ : bits_val (Circuit.eval_plain c (circ_input vs args ins)) = valN e o).
    { unfold valN. rewrite Ho, (flat_bits_circ_input e vs args ins ws AF FR HV). symmetry. apply to_N_bits_val. }
    rewrite EQ. symmetry. apply norm_small. rewrite pow2_eq, <- Lo. apply valN_lt.
Qed.
End Instr.

Lemma Forall2_imp {A B} (R1 R2 : A -> B -> Prop) l1 l2 :
  (forall a b, R1 a b -> R2 a b) -> Forall2 R1 l1 l2 -> Forall2 R2 l1 l2.
Proof. intros H F. induction F; constructor; auto. Qed.

Lemma okm_cg_instr tg thr vals vs i : cg_wf_instr i = true -> ok_tg tg i = true ->
  okm tg (cg_instr multiplierArrayTresholds thr vals i) (fun o e => inv e vals vs -> post vs i o e).
Proof.
  intros WF HD. unfold cg_instr.
  eapply okm_bind_p;
    [apply (okp_mapM tg (cg_opnd vals) (fun a w => length w = opnd_bits a)
                     (fun a w e => inv e vals vs -> valN e w = opnd_val vs a));
     intros a; apply okp_cg_opnd|].
  intros ws FR. cbv beta. eapply okm_weaken; [apply (okm_cg_body tg thr vs i ws WF HD FR)|].
  cbv beta. intros o e H HF I. apply H. eapply Forall2_imp; [|exact HF]. cbv beta. intros a w K. exact (K I).
Qed.

Lemma okm_cg_code tg thr : forall code vals vs, forallb cg_wf_instr code = true ->
  forallb (ok_tg tg) code = true ->
  okm tg (cg_code multiplierArrayTresholds thr code vals)
      (fun vals' e => inv e vals vs -> inv e vals' (run_code code vs)).
Proof.
  induction code as [|i r IH]; intros vals vs WF WD; cbn [cg_code].
  - apply okm_ret. auto.
  - cbn [forallb] in WF, WD. apply andb_true_iff in WF. destruct WF as [Wi Wr].
    apply andb_true_iff in WD. destruct WD as [Di Dr].
    eapply okm_bind; [apply (okm_cg_instr tg thr vals vs i Wi Di)|]. intros o. cbv beta.
    eapply okm_weaken; [apply (IH (vals ++ [o]) (Ssa.step vs i) Wr Dr)|]. cbv beta.
    intros vals' e H Hp I. unfold run_code. cbn [fold_left]. apply H.
    destruct (Hp I) as [L V]. unfold Ssa.step. apply Forall2_app; [exact I|].
    constructor; [|constructor]. cbn [fst snd]. split; assumption.
Qed.

Lemma okp_cg_ret_wire tg w : okp tg (cg_ret_wire w) (fun _ => True) (fun o e => e o = e w).
Proof.
  unfold cg_ret_wire. eapply okp_bind; [apply okp_of_okm, okm_fresh|]. intros o _. cbv beta.
  eapply okp_bind; [apply okp_of_okm, okm_cc_id|]. intros u _. cbv beta.
  apply okp_ret; [exact I|]. intros e H _. exact H.
Qed.

Lemma okp_ret_wires tg ws :
  okp tg (mapM cg_ret_wire ws) (fun _ => True) (fun os e => valN e os = valN e ws).
Proof.
  eapply okp_weaken;
    [apply (okp_mapM tg cg_ret_wire (fun _ _ => True) (fun w o e => e o = e w)); intros w; apply okp_cg_ret_wire
    | auto |].
  cbv beta. intros os e _ H. unfold valN. f_equal.
  induction H as [|w o ws' os' H0 H IH]; [reflexivity|]. cbn [map]. rewrite H0, IH. reflexivity.
Qed.

Lemma cg_wf_tg_parts tg p : cg_wf_tg tg p = true ->
  (1 <= total_bits (sp_inputs p))%nat /\ forallb cg_wf_instr (sp_code p) = true /\
  forallb (ok_tg tg) (sp_code p) = true.
Proof. unfold cg_wf_tg, cg_wf. rewrite !andb_true_iff, Nat.leb_le. tauto. Qed.

Lemma okm_cg_prog tg thr p inp : cg_wf_tg tg p = true ->
  okm tg (cg_prog multiplierArrayTresholds thr p)
      (fun outs e => inv e (input_wires 0 (sp_inputs p)) (init_vals (sp_inputs p) inp) ->
                     map (valN e) outs = eval_ssa p inp).
Proof.
  intros WF. destruct (cg_wf_tg_parts tg p WF) as (_ & WC & WD).
  unfold cg_prog.
  eapply okm_bind; [apply okm_zero|]. intros z. cbv beta.
  eapply okm_bind; [apply okm_one|]. intros o1. cbv beta.
  eapply okm_bind; [apply (okm_cg_code tg thr (sp_code p) _ (init_vals (sp_inputs p) inp) WC WD)|].
  intros vals. cbv beta.
  set (vs' := run_code (sp_code p) (init_vals (sp_inputs p) inp)).
  eapply okm_bind_p;
    [apply (okp_mapM tg (cg_opnd vals) (fun a w => length w = opnd_bits a)
                     (fun a w e => inv e vals vs' -> valN e w = opnd_val vs' a));
     intros a; apply okp_cg_opnd|].
  intros rws _. cbv beta.
  eapply okm_weaken;
    [apply okm_of_okp, (okp_mapM tg (mapM cg_ret_wire) (fun _ _ => True) (fun ws os e => valN e os = valN e ws));
     intros ws; apply okp_ret_wires|].
  cbv beta. intros outs e [_ HO] HR HC _ _ I0. unfold eval_ssa. fold vs'.
  specialize (HC I0).
  revert outs HO. induction HR as [|a w rets rws' H0 HR IH]; intros outs HO; inversion HO; subst; [reflexivity|].
  cbn [map]. f_equal; [|apply IH; assumption].
  match goal with V : valN e _ = valN e w |- _ => rewrite V end. apply H0, HC.
Qed.

Section S.
Variable ninp : N.
Notation defd := (defd ninp). Notation pend := (pend ninp). Notation wfst := (wfst ninp).
Notation step := (StructProof.step ninp). Notation oks := (@oks ninp _).

Notation after := (after ninp).

Lemma Forall_map_all (P : wire -> Prop) (f : nat -> wire) l : (forall b, P (f b)) -> Forall P (map f l).
Proof. intros H. apply Forall_forall. intros x Hin. apply in_map_iff in Hin. destruct Hin as (b & <- & _). apply H. Qed.

Lemma nth_P {A} (P : A -> Prop) (w : list A) d k : Forall P w -> P d -> P (nth k w d).
Proof.
  intros F D. destruct (nth_in_or_default k w d) as [H|H]; [|rewrite H; exact D].
  rewrite Forall_forall in F. apply F, H.
Qed.

Lemma defd_last s (l : list wire) : wfst s -> Forall (defd s) l -> defd s (last l 0).
Proof. intros W F. rewrite last_is_nth. apply defd_nth; assumption. Qed.

Lemma cg_resize_s s w t : wfst s -> Forall (defd s) w ->
  oks (cg_resize w t) s (fun w' s' => after s s' /\ Forall (defd s') w' /\ length w' = s_bits t).
Proof.
  intros W F. unfold cg_resize. destruct (Nat.eqb (length w) (s_bits t)) eqn:E.
  - apply Nat.eqb_eq in E. apply oks_ret; auto using after_refl.
  - eapply oks_bind with (P := fun pad s1 => after s s1 /\ defd s1 pad).
    + destruct (s_signed t && Nat.ltb 0 (length w)).
      * apply oks_ret; auto. split; [apply after_refl|]. apply defd_last; assumption.
      * eapply oks_conseq; [apply zero_s; exact W|]. cbv beta. intros z s1 W1 (S1 & D1).
        split; [eapply step_after; eauto|exact D1].
    + intros pad s1 W1 [A D]. cbv beta. apply oks_ret; auto. split; [exact A|]. split.
      * apply Forall_map_all. intros b. apply nth_P; [eapply after_F; eauto|exact D].
      * rewrite map_length, seq_length. reflexivity.
Qed.

Lemma cg_opnd_s vals o s : wfst s -> Forall (Forall (defd s)) vals ->
  oks (cg_opnd vals o) s (fun w s' => after s s' /\ Forall (defd s') w /\ length w = opnd_bits o).
Proof.
  intros W FF. destruct o as [i t|cw cv t]; cbn [cg_opnd opnd_bits opnd_ty].
  - apply cg_resize_s; [exact W|]. apply nth_P; [exact FF|constructor].
  - sbind zero_s. intros zw s1 W1 (S1 & D1). cbv beta.
    sbind one_s. intros ow s2 W2 (S2 & D2). cbv beta.
    eapply oks_conseq; [apply cg_resize_s; [exact W2|]|].
    + unfold const_wires. apply Forall_map_all. intros b.
      destruct (N.testbit cv (N.of_nat b)); [exact D2|]. eapply step_defd; eauto.
    + cbv beta. intros w s3 W3 (A3 & F3 & L3). split; [|auto].
      eapply after_trans; [eapply step_after; eauto|]. eapply after_trans; [eapply step_after; eauto|exact A3].
Qed.

Lemma mapM_opnd_s vals : forall args s, wfst s -> Forall (Forall (defd s)) vals ->
  oks (mapM (cg_opnd vals) args) s
      (fun ws s' => after s s' /\ Forall2 (fun a w => Forall (defd s') w /\ length w = opnd_bits a) args ws).
Proof.
  induction args as [|a args IH]; intros s W FF; cbn [mapM].
  - apply oks_ret; auto. split; [apply after_refl|constructor].
  - eapply oks_bind; [apply cg_opnd_s; eauto|]. intros w s1 W1 (A1 & F1 & L1). cbv beta.
    eapply oks_bind; [apply IH; [exact W1|eapply after_FF; eauto]|]. intros ws s2 W2 (A2 & F2). cbv beta.
    apply oks_ret; auto. split; [eapply after_trans; eauto|]. constructor; [|exact F2].
    split; [eapply after_F; eauto|exact L1].
Qed.

Lemma bld_s ob (b : list wire -> M (list wire)) s : wfst s ->
  (forall o s1, wfst s1 -> step s s1 [] -> Forall (pend s1) o -> NoDup o -> length o = ob ->
     oks (b o) s1 (fun z' s' => step s1 s' o /\ Forall (defd s') z' /\ length z' = length o)) ->
  oks (o <- fresh_n ob;; b o) s (fun z' s' => after s s' /\ Forall (defd s') z').
Proof.
  intros W H. sbind fresh_n_s. intros o s1 W1 (S1 & ND & L & P). cbv beta.
  eapply oks_conseq; [apply H; auto|].
  - apply Forall_forall. intros w Hin. apply P, Hin.
  - cbv beta. intros z' s2 W2 (S2 & F2 & _). split; [|exact F2].
    eapply after_trans; eapply step_after; eauto.
Qed.

Lemma bldu_s ob (b : list wire -> M unit) s : wfst s ->
  (forall o s1, wfst s1 -> step s s1 [] -> Forall (pend s1) o -> NoDup o -> length o = ob ->
     oks (b o) s1 (fun _ s' => step s1 s' o /\ Forall (defd s') o)) ->
  oks (o <- fresh_n ob;; b o;; ret o) s (fun z' s' => after s s' /\ Forall (defd s') z').
Proof.
  intros W H. sbind fresh_n_s. intros o s1 W1 (S1 & ND & L & P). cbv beta.
  eapply oks_bind; [apply H; auto|].
  - apply Forall_forall. intros w Hin. apply P, Hin.
  - cbv beta. intros u s2 W2 (S2 & F2). apply oks_ret; auto. split; [|exact F2].
    eapply after_trans; eapply step_after; eauto.
Qed.

Lemma inv_loop_s : forall x o s, wfst s -> Forall (defd s) x -> Forall (pend s) o -> NoDup o ->
  (length o <= length x)%nat ->
  oks (inv_loop x o) s (fun _ s' => step s s' o /\ Forall (defd s') o).
Proof.
  induction x as [|xi x IH]; intros o s W Fx Po ND L.
  - destruct o; [|cbn in L; lia]. cbn. apply oks_ret; auto. split; [apply step_refl|constructor].
  - destruct o as [|oi o].
    + cbn. apply oks_ret; auto. split; [apply step_refl|constructor].
    + cbn [inv_loop]. inversion Fx; subst. inversion Po; subst. inversion ND; subst.
      eapply oks_bind; [apply cc_inv_s; eauto|]. intros u s1 W1 (S1 & D1). cbv beta.
      eapply oks_conseq; [apply IH; [exact W1| eapply Forall_defd_step; eauto | | assumption | cbn in L; lia]|].
      * apply Forall_forall. intros w Hin. eapply step_pend; [exact S1| |].
        -- match goal with F : Forall (pend s) o |- _ => rewrite Forall_forall in F; apply F, Hin end.
        -- cbn. intros [E|[]]. subst. contradiction.
      * cbv beta. intros _ s2 W2 (S2 & F2). split.
        -- apply (step_trans ninp s s1 s2 [oi] o S1 S2).
        -- constructor; [eapply step_defd; eauto|exact F2].
Qed.

Lemma nth_after s s1 (w : list wire) z k : after s s1 -> Forall (defd s) w -> defd s1 z -> defd s1 (nth k w z).
Proof. intros A F D. apply nth_P; [eapply after_F; eauto|exact D]. Qed.

Lemma bin_s ob (b : list wire -> list wire -> list wire -> M (list wire)) x y s :
  wfst s -> Forall (defd s) x -> Forall (defd s) y ->
  (forall o s1, wfst s1 -> gmw s1 = gmw s -> Forall (defd s1) x -> Forall (defd s1) y ->
     Forall (pend s1) o -> NoDup o -> length o = ob ->
     oks (b x y o) s1 (fun z' s' => step s1 s' o /\ Forall (defd s') z' /\ length z' = length o)) ->
  oks (o <- fresh_n ob;; b x y o) s (fun z' s' => after s s' /\ Forall (defd s') z').
Proof.
  intros W Fx Fy H. apply bld_s; [exact W|]. intros o s1 W1 S1 P ND L.
  apply H; auto; try (eapply Forall_defd_step; eauto). eapply step_gmw; eauto.
Qed.

Lemma binu_s ob (b : list wire -> list wire -> list wire -> M unit) x y s :
  wfst s -> Forall (defd s) x -> Forall (defd s) y ->
  (forall o s1, wfst s1 -> gmw s1 = gmw s -> Forall (defd s1) x -> Forall (defd s1) y ->
     Forall (pend s1) o -> NoDup o -> length o = ob ->
     oks (b x y o) s1 (fun _ s' => step s1 s' o /\ Forall (defd s') o)) ->
  oks (o <- fresh_n ob;; b x y o;; ret o) s (fun z' s' => after s s' /\ Forall (defd s') z').
Proof.
  intros W Fx Fy H. apply bldu_s; [exact W|]. intros o s1 W1 S1 P ND L.
  apply H; auto; try (eapply Forall_defd_step; eauto). eapply step_gmw; eauto.
Qed.

Lemma cmp_s (b : list wire -> list wire -> list wire -> M unit) x y s :
  wfst s -> Forall (defd s) x -> Forall (defd s) y ->
  (forall r0 s1, wfst s1 -> Forall (defd s1) x -> Forall (defd s1) y -> pend s1 r0 ->
     oks (b x y [r0]) s1 (fun _ s' => step s1 s' [r0] /\ defd s' r0)) ->
  oks (o <- fresh_n 1;; b x y o;; ret o) s (fun z' s' => after s s' /\ Forall (defd s') z').
Proof.
  intros W Fx Fy H. apply binu_s; auto. intros o s1 W1 _ Fx1 Fy1 P ND L.
  destruct (len1 o L) as [r0 ->]. inversion P; subst.
  eapply oks_conseq; [apply H; auto|]. cbv beta. intros u s2 W2 (S2 & D2). split; [exact S2|].
  constructor; [exact D2|constructor].
Qed.

Lemma wired_s (f : nat -> wire) l s : wfst s -> (forall b, defd s (f b)) ->
  oks (ret (map f l)) s (fun o s' => after s s' /\ Forall (defd s') o).
Proof. intros W H. apply oks_ret; auto. split; [apply after_refl|]. apply Forall_map_all, H. Qed.

Lemma wired0_s (f : wire -> nat -> wire) l s : wfst s ->
  (forall s1 z b, after s s1 -> defd s1 z -> defd s1 (f z b)) ->
  oks (z <- zero_wire;; ret (map (f z) l)) s (fun o s' => after s s' /\ Forall (defd s') o).
Proof.
  intros W H. sbind zero_s. intros z s1 W1 (S1 & Dz). cbv beta. apply oks_ret; auto.
  split; [eapply step_after; eauto|]. apply Forall_map_all. intros b. apply H; [eapply step_after; eauto|exact Dz].
Qed.

Lemma cg_body_s tg thr i ws s : wfst s -> gmw s = tg -> cg_wf_instr i = true -> ok_tg tg i = true ->
  Forall2 (fun a w => Forall (defd s) w /\ length w = opnd_bits a) (i_args i) ws ->
  oks (cg_body multiplierArrayTresholds thr i ws) s (fun o s' => after s s' /\ Forall (defd s') o).
Proof.
  (* AD k, AL k: the wires of operand k are defined and have its width *)
  intros W G WF HD FR. pose proof (cg_wf_instr_inv i WF) as S. clear WF.
  assert (AD : forall k, (k < length (i_args i))%nat -> Forall (defd s) (nth k ws []))
    by (intros k Hk; apply (Forall2_arg _ _ _ k FR Hk)).
  assert (AL : forall k, (k < length (i_args i))%nat -> length (nth k ws []) = opnd_bits (arg k (i_args i)))
    by (intros k Hk; apply (Forall2_arg _ _ _ k FR Hk)).
  destruct i as [op args out aux]. unfold cg_shape in S. unfold ok_tg in HD. unfold cg_body.
  cbn [i_op i_args i_out i_aux] in *.
  destruct op; cbv beta iota zeta in S |- *.
  (* iadd uadd isub usub imult umult *)
  1-6: (apply bin_s; [exact W | apply AD; lia | apply AD; lia |]; intros o s1 W1 G1 F0 F1 P ND L).
  1-2: (apply new_adder_s; auto; rewrite ?L, ?AL by lia; lia).
  1-2: (apply new_subtractor_s; auto; rewrite ?L, ?AL by lia; lia).
  1-2: (destruct (gmw s);
        [apply new_multiplier_gmw_s | apply new_multiplier_yao_s; [apply thresholds_ge_3|..]]; auto;
        rewrite ?L, ?AL by lia; lia).
  (* idiv udiv imod umod *)
  1-4: (destruct tg; [discriminate HD|]).
  5-8: (apply binu_s; [exact W | apply AD; lia | apply AD; lia |]; intros o s1 W1 G1 F0 F1 P ND L).
  9-20: (replace (s_bits out) with 1%nat by (symmetry; apply S);
         apply cmp_s; [exact W | apply AD; lia | apply AD; lia |]; intros r0 s1 W1 F0 F1 P).
  - apply (binu_s _ (fun x y o => new_idivider x y o [])); [exact W | apply AD; lia | apply AD; lia |].
    intros o s1 W1 G1 F0 F1 P ND L. rewrite G in G1.
    apply (new_idivider_q_s ninp s1 _ _ o); auto; rewrite ?L, ?AL by lia; lia.
  - apply (binu_s _ (fun x y o => new_udivider x y o [])); [exact W | apply AD; lia | apply AD; lia |].
    intros o s1 W1 G1 F0 F1 P ND L. rewrite G in G1.
    eapply oks_conseq;
      [apply (new_udivider_yao_s ninp s1 _ _ o []); rewrite ?app_nil_r; auto; rewrite ?AL by lia; lia|].
    cbv beta. intros u s2 W2 (S2 & Fq & _). rewrite app_nil_r in S2. split; [exact S2|].
    rewrite firstn_all2 in Fq by (rewrite L, !AL by lia; lia). exact Fq.
  - apply (binu_s _ (fun x y o => new_idivider x y [] o)); [exact W | apply AD; lia | apply AD; lia |].
    intros o s1 W1 G1 F0 F1 P ND L. rewrite G in G1.
    apply (new_idivider_r_s ninp s1 _ _ o); auto; rewrite ?L, ?AL by lia; lia.
  - apply (binu_s _ (fun x y o => new_udivider x y [] o)); [exact W | apply AD; lia | apply AD; lia |].
    intros o s1 W1 G1 F0 F1 P ND L. rewrite G in G1.
    eapply oks_conseq;
      [apply (new_udivider_yao_s ninp s1 _ _ [] o); cbn [app]; auto; rewrite ?AL by lia; lia|].
    cbv beta. intros u s2 W2 (S2 & _ & Fr). cbn [app] in S2. split; [exact S2|].
    rewrite firstn_all2 in Fr by (rewrite L, !AL by lia; lia). exact Fr.
  (* band bor bxor bclr *)
  - apply binary_and_s; auto; rewrite L, !AL by lia; lia.
  - apply binary_or_s; auto; rewrite L, !AL by lia; lia.
  - apply binary_xor_s; auto; rewrite L, !AL by lia; lia.
  - apply binary_clear_s; auto; rewrite L, !AL by lia; lia.
  (* ilt ult ile ule igt ugt ige uge eq neq and or *)
  - apply int_lt_s; auto.
  - apply uint_lt_s; auto; rewrite !AL by lia; lia.
  - apply int_le_s; auto.
  - apply uint_le_s; auto; rewrite !AL by lia; lia.
  - apply int_gt_s; auto.
  - apply uint_gt_s; auto; rewrite !AL by lia; lia.
  - apply int_ge_s; auto.
  - apply uint_ge_s; auto; rewrite !AL by lia; lia.
  - apply eq_comparator_s; auto.
  - apply neq_comparator_s; auto.
  - apply logical_and_s; auto.
  - apply logical_or_s; auto.
  (* not *)
  - apply bldu_s; [exact W|]. intros o s1 W1 S1 P ND L.
    apply inv_loop_s; auto; [eapply Forall_defd_step; eauto; apply AD; lia | rewrite L, AL by lia; lia].
  (* mov smov lshift rshift srshift slice amov *)
  - apply wired0_s; [exact W|]. intros s1 z b A1 Dz. apply (nth_after s); auto. apply AD; lia.
  - apply wired_s; [exact W|]. intros b. apply nth_P; [|apply defd_last; [exact W|]]; apply AD; lia.
  - apply wired0_s; [exact W|]. intros s1 z b A1 Dz.
    destruct (Nat.leb _ _); [apply (nth_after s); auto; apply AD; lia | exact Dz].
  - apply wired0_s; [exact W|]. intros s1 z b A1 Dz. apply (nth_after s); auto. apply AD; lia.
  - apply wired_s; [exact W|]. intros b. apply nth_P; [|apply defd_last; [exact W|]]; apply AD; lia.
  - apply wired0_s; [exact W|]. intros s1 z b A1 Dz.
    destruct (Nat.ltb _ _); [apply (nth_after s); auto; apply AD; lia | exact Dz].
  - apply wired0_s; [exact W|]. intros s1 z b A1 Dz.
    destruct (Nat.ltb b (opnd_const (arg 2 args)) || Nat.leb (opnd_const (arg 3 args)) b);
      apply (nth_after s); auto; apply AD; lia.
  (* index *)
  - destruct S as (LA & H1 & H2 & H3 & H4 & H5 & H6). apply bld_s; [exact W|]. intros o s1 W1 S1 P ND L.
    set (off := opnd_const (arg 1 args)) in *. set (n := ((opnd_bits (arg 0 args) - off) / aux)%nat) in *.
    assert (La : length (skipn off (nth 0 ws [])) = (n * aux)%nat).
    { rewrite skipn_length, AL by lia. pose proof (Nat.div_mod (opnd_bits (arg 0 args) - off) aux ltac:(lia)) as D.
      rewrite H5 in D. unfold n. lia. }
    eapply oks_conseq;
      [apply (new_index_s ninp s1 aux (skipn off (nth 0 ws [])) (nth 2 ws []) o n); auto; rewrite ?AL by lia; try lia;
       [apply Forall_skipn_ix|]; eapply Forall_defd_step; eauto; apply AD; lia|].
    cbv beta. intros o' s2 W2 (-> & S2 & F2). auto.
  (* phi *)
  - destruct S as (LA & H1 & H2).
    pose proof (AL 0%nat ltac:(lia)) as L0. rewrite H1 in L0. destruct (len1 _ L0) as [c Ec].
    pose proof (AD 0%nat ltac:(lia)) as D0. rewrite Ec in *. inversion D0; subst.
    apply bldu_s; [exact W|]. intros o s1 W1 S1 P ND L.
    apply new_mux_s; auto; try (eapply Forall_defd_step; eauto; apply AD; lia);
      [eapply step_defd; eauto | rewrite L, !AL by lia; lia].
  (* concat bts btc hamming *)
  - apply oks_ret; auto. split; [apply after_refl|]. apply Forall_app. split; apply AD; lia.
  - replace (s_bits out) with 1%nat by (symmetry; apply S).
    apply bld_s; [exact W|]. intros o s1 W1 S1 P ND L. destruct (len1 o L) as [r0 ->]. inversion P; subst.
    apply bit_set_test_s; auto. eapply Forall_defd_step; eauto. apply AD; lia.
  - replace (s_bits out) with 1%nat by (symmetry; apply S).
    apply bld_s; [exact W|]. intros o s1 W1 S1 P ND L. destruct (len1 o L) as [r0 ->]. inversion P; subst.
    apply bit_clr_test_s; auto. eapply Forall_defd_step; eauto. apply AD; lia.
  - apply bin_s; [exact W | apply AD; lia | apply AD; lia |]. intros o s1 W1 G1 F0 F1 P ND L.
    apply hamming_s; auto; rewrite ?L, ?AL by lia; lia.
  - destruct S.
  (* circ *)
  - destruct S as (AF & TI & OB & OK).
    apply (embed_circ_s ninp ins (s_bits out) c ws s W OK); [|exact TI|exact OB].
    assert (F2 : Forall2 (fun w n => (length w <= n)%nat) ws ins).
    { apply (args_fit_F2 _ _ _ AF). eapply Forall2_imp; [|exact FR]. cbv beta. tauto. }
    clear - FR F2. revert ins F2. induction FR as [|a w l l' [H _] _ IH]; intros ins F2; inversion F2; subst; constructor; auto.
Qed.

Lemma cg_instr_s tg thr vals i s : wfst s -> gmw s = tg -> cg_wf_instr i = true -> ok_tg tg i = true ->
  Forall (Forall (defd s)) vals ->
  oks (cg_instr multiplierArrayTresholds thr vals i) s (fun o s' => after s s' /\ Forall (defd s') o).
Proof.
  intros W G WF HD FF. unfold cg_instr.
  eapply oks_bind; [apply mapM_opnd_s; eauto|]. intros ws s1 W1 (A1 & F2). cbv beta.
  eapply oks_conseq; [apply (cg_body_s tg); [exact W1 | destruct A1; congruence | exact WF | exact HD | exact F2]|].
  cbv beta. intros o s2 W2 (A2 & F). split; [eapply after_trans; eauto|exact F].
Qed.

Lemma cg_code_s tg thr : forall code vals s, wfst s -> gmw s = tg ->
  forallb cg_wf_instr code = true -> forallb (ok_tg tg) code = true -> Forall (Forall (defd s)) vals ->
  oks (cg_code multiplierArrayTresholds thr code vals) s
      (fun vals' s' => after s s' /\ Forall (Forall (defd s')) vals').
Proof.
  induction code as [|i r IH]; intros vals s W G WF WD FF; cbn [cg_code].
  - apply oks_ret; auto. split; [apply after_refl|exact FF].
  - cbn [forallb] in WF, WD. apply andb_true_iff in WF. destruct WF as [Wi Wr].
    apply andb_true_iff in WD. destruct WD as [Di Dr].
    eapply oks_bind; [apply (cg_instr_s tg); eauto|]. intros o s1 W1 (A1 & F1). cbv beta.
    eapply oks_conseq; [apply IH; auto; [destruct A1; congruence|]|].
    + apply Forall_app. split; [eapply after_FF; eauto|constructor; [exact F1|constructor]].
    + cbv beta. intros vals' s2 W2 (A2 & F2). split; [eapply after_trans; eauto|exact F2].
Qed.

Lemma cg_ret_wire_s w s : wfst s -> defd s w ->
  oks (cg_ret_wire w) s (fun o s' => after s s' /\ defd s' o).
Proof.
  intros W D. unfold cg_ret_wire.
  sbind fresh_s. intros o s1 W1 (E1 & P1 & S1 & N1). cbv beta.
  eapply oks_bind; [apply cc_id_s; [exact W1|eapply step_defd; eauto|exact P1]|].
  intros u s2 W2 (S2 & D2). cbv beta. apply oks_ret; auto. split; [|exact D2].
  eapply after_trans; eapply step_after; eauto.
Qed.

Lemma ret_wires_s : forall ws s, wfst s -> Forall (defd s) ws ->
  oks (mapM cg_ret_wire ws) s (fun _ s' => after s s').
Proof.
  induction ws as [|w ws IH]; intros s W F; cbn [mapM].
  - apply oks_ret; auto. apply after_refl.
  - inversion F; subst.
    eapply oks_bind; [apply cg_ret_wire_s; eauto|]. intros o s1 W1 (A1 & D1). cbv beta.
    eapply oks_bind; [apply IH; [exact W1|eapply after_F; eauto]|]. intros os s2 W2 A2. cbv beta.
    apply oks_ret; auto. eapply after_trans; eauto.
Qed.

Lemma ret_all_s : forall rws s, wfst s -> Forall (Forall (defd s)) rws ->
  oks (mapM (mapM cg_ret_wire) rws) s (fun _ s' => after s s').
Proof.
  induction rws as [|ws rws IH]; intros s W F; cbn [mapM].
  - apply oks_ret; auto. apply after_refl.
  - inversion F; subst.
    eapply oks_bind; [apply ret_wires_s; eauto|]. intros o s1 W1 A1. cbv beta.
    eapply oks_bind; [apply IH; [exact W1|eapply after_FF; [exact A1|assumption]]|]. intros os s2 W2 A2. cbv beta.
    apply oks_ret; auto. eapply after_trans; [exact A1|exact A2].
Qed.

Lemma cg_prog_s tg thr p s : wfst s -> gmw s = tg -> cg_wf_tg tg p = true ->
  Forall (Forall (defd s)) (input_wires 0 (sp_inputs p)) ->
  oks (cg_prog multiplierArrayTresholds thr p) s (fun _ _ => True).
Proof.
  intros W G WF FF. destruct (cg_wf_tg_parts tg p WF) as (_ & WC & WD).
  unfold cg_prog.
  sbind zero_s. intros z s1 W1 (S1 & D1). cbv beta.
  sbind one_s. intros o1 s2 W2 (S2 & D2). cbv beta.
  assert (A2 : after s s2) by (eapply after_trans; eapply step_after; eauto).
  eapply oks_bind; [apply (cg_code_s tg thr (sp_code p) _ s2 W2); [destruct A2; congruence|exact WC|exact WD|eapply after_FF; eauto]|].
  intros vals s3 W3 (A3 & F3). cbv beta.
  eapply oks_bind; [apply mapM_opnd_s; eauto|]. intros rws s4 W4 (A4 & F4). cbv beta.
  eapply oks_conseq; [apply ret_all_s; [exact W4|]|auto].
  clear - F4. induction F4 as [|a w l l' [H _] _ IH]; constructor; auto.
Qed.
End S.

Lemma wrng_In from n w : In w (wrng from n) -> from <= w /\ w < from + N.of_nat n.
Proof.
  unfold wrng. rewrite in_map_iff. intros (i & E & Hi). apply in_seq in Hi. lia.
Qed.

Lemma input_wires_lt : forall ws from l w,
  In l (input_wires from ws) -> In w l -> w < from + N.of_nat (total_bits ws).
Proof.
  induction ws as [|x ws IH]; intros from l w Hl Hw; cbn [input_wires total_bits fold_right] in *; [contradiction|].
  destruct Hl as [<-|Hl].
  - apply wrng_In in Hw. lia.
  - specialize (IH _ _ _ Hl Hw). unfold total_bits in IH. lia.
Qed.

(* CircGen.bits_of_N is Ssa.nbits *)
Lemma bits_of_N_length w v : length (bits_of_N w v) = w.
Proof. exact (nbits_length w v). Qed.

Lemma bits_of_N_nth w v k : (k < w)%nat -> nth k (bits_of_N w v) false = N.testbit v (N.of_nat k).
Proof. exact (nbits_nth w v k). Qed.

Lemma bits_of_N_0 w : bits_of_N w 0 = repeat false w.
Proof.
  apply (nth_ext _ _ false false).
  - rewrite bits_of_N_length, repeat_length. reflexivity.
  - rewrite bits_of_N_length. intros k Hk. rewrite bits_of_N_nth by exact Hk.
    rewrite N.bits_0. symmetry. apply nth_repeat.
Qed.

Lemma input_bits_length : forall ws inp, length (input_bits ws inp) = total_bits ws.
Proof.
  induction ws as [|w ws IH]; intros inp; cbn [input_bits total_bits fold_right]; [reflexivity|].
  destruct inp as [|v vr]; rewrite app_length, IH; [rewrite repeat_length|rewrite bits_of_N_length]; reflexivity.
Qed.

(* the first input, given or missing (a missing input reads as 0) *)
Lemma inputs_cons w ws inp : exists v vr,
  input_bits (w :: ws) inp = bits_of_N w v ++ input_bits ws vr /\
  init_vals (w :: ws) inp = (w, norm w v) :: init_vals ws vr.
Proof.
  destruct inp as [|v vr]; [exists 0, []|exists v, vr]; cbn [input_bits init_vals]; [|split; reflexivity].
  rewrite bits_of_N_0, norm_0. split; reflexivity.
Qed.

Lemma inv_inputs (e : Emit.env) : forall ws inp from,
  (forall k, (k < total_bits ws)%nat ->
             e (from + N.of_nat k) = nth k (input_bits ws inp) false) ->
  inv e (input_wires from ws) (init_vals ws inp).
Proof.
  induction ws as [|w ws IH]; intros inp from H; [constructor|].
  destruct (inputs_cons w ws inp) as (v & vr & EB & EV). rewrite EV. rewrite EB in H.
  cbn [total_bits fold_right] in H. fold (total_bits ws) in H. cbn [input_wires].
  constructor.
  - cbn [fst snd]. split; [unfold wrng; rewrite map_length, seq_length; reflexivity|].
    apply bits_inj_nat. intros k. unfold wrng. rewrite valN_map_seq, norm_testbit.
    destruct (Nat.ltb k w) eqn:E; [|reflexivity]. apply Nat.ltb_lt in E. cbn [andb].
    rewrite H by lia. rewrite app_nth1 by (rewrite bits_of_N_length; exact E).
    apply bits_of_N_nth, E.
  - apply IH. intros k Hk. replace (from + N.of_nat w + N.of_nat k) with (from + N.of_nat (w + k)) by lia.
    rewrite H by lia. rewrite app_nth2 by (rewrite bits_of_N_length; lia).
    rewrite bits_of_N_length. f_equal. lia.
Qed.

(* running the generator from the initial state: the gate list is single
   assignment and defined before use, and gate-by-gate evaluation from any input
   valuation e0 is a valuation in which the semantic invariant applies *)
Lemma cg_run tg thr p inp (e0 : Emit.env) : cg_wf_tg tg p = true ->
  let n := N.of_nat (total_bits (sp_inputs p)) in
  exists outs s', cg_prog multiplierArrayTresholds thr p (st0 n tg) = (outs, s') /\
    wfc_b n (gates s') = true /\ dbu n (gates s') /\
    (inv (eval_rev (gates s') e0) (input_wires 0 (sp_inputs p)) (init_vals (sp_inputs p) inp) ->
     map (valN (eval_rev (gates s') e0)) outs = eval_ssa p inp) /\
    (forall w, w < n -> eval_rev (gates s') e0 w = e0 w).
Proof.
  intros WF n. destruct (cg_wf_tg_parts tg p WF) as (Hn & _ & _).
  assert (WS : wfst n (st0 n tg)) by (apply wfst_st0; lia).
  assert (SK : @oks n _ (cg_prog multiplierArrayTresholds thr p) (st0 n tg) (fun _ _ => True)).
  { apply (cg_prog_s n tg); auto. apply Forall_forall. intros l Hl. apply Forall_forall. intros w Hw.
    apply defd_input. pose proof (input_wires_lt _ _ _ _ Hl Hw). lia. }
  destruct (run_st0 n n tg _ _ _ (okm_cg_prog tg thr p inp WF) SK e0) as (outs & s' & E & C & D & _ & HP & HI).
  exists outs, s'. auto.
Qed.

Theorem circuitgen_correct_tg tg thr p inp : cg_wf_tg tg p = true ->
  eval_circuit (circuit_of_ssa_gen multiplierArrayTresholds thr tg p) (input_bits (sp_inputs p) inp)
  = eval_ssa p inp.
Proof.
  intros WF. unfold circuit_of_ssa_gen, eval_circuit.
  destruct (cg_run tg thr p inp (env_of_bits (input_bits (sp_inputs p) inp)) WF) as (outs & s' & E & _ & _ & HP & HI).
  rewrite E. cbn [cc_gates cc_outs]. apply HP.
  apply inv_inputs. intros k Hk. rewrite N.add_0_l, HI by lia.
  unfold env_of_bits. rewrite Nat2N.id. reflexivity.
Qed.

(* the generated gate list itself: single assignment and defined before use
   (no hypothesis beyond cg_wf_tg: both are proved along with the semantics) *)
Theorem circuitgen_structure tg thr p : cg_wf_tg tg p = true ->
  let c := circuit_of_ssa_gen multiplierArrayTresholds thr tg p in
  wfc_b (N.of_nat (cc_ninp c)) (cc_gates c) = true /\ dbu (N.of_nat (cc_ninp c)) (cc_gates c).
Proof.
  intros WF. cbv zeta. unfold circuit_of_ssa_gen.
  destruct (cg_run tg thr p [] (fun _ => false) WF) as (outs & s' & E & C & D & _).
  rewrite E. cbn [cc_ninp cc_gates]. split; assumption.
Qed.

Lemma cg_wf_tg_false p : cg_wf_tg false p = cg_wf p.
Proof.
  unfold cg_wf_tg. replace (forallb (ok_tg false) (sp_code p)) with true; [apply andb_true_r|].
  symmetry. apply forallb_forall. intros i _. reflexivity.
Qed.

(* Yao target (utils.NewParams), every value of Params.CircMultArrayTreshold *)
Theorem circuitgen_correct_gen thr p inp : cg_wf p = true ->
  eval_circuit (circuit_of_ssa_gen multiplierArrayTresholds thr false p) (input_bits (sp_inputs p) inp)
  = eval_ssa p inp.
Proof. intros WF. apply circuitgen_correct_tg. rewrite cg_wf_tg_false. exact WF. Qed.

Theorem circuitgen_correct p inp : cg_wf p = true ->
  eval_circuit (circuit_of_ssa p) (input_bits (sp_inputs p) inp) = eval_ssa p inp.
Proof. apply circuitgen_correct_gen. Qed.

(* GMW target (Params.Target = utils.TargetGMW): everything but division *)
Theorem circuitgen_correct_gmw thr p inp : cg_wf_tg true p = true ->
  eval_circuit (circuit_of_ssa_gen multiplierArrayTresholds thr true p) (input_bits (sp_inputs p) inp)
  = eval_ssa p inp.
Proof. apply circuitgen_correct_tg. Qed.
