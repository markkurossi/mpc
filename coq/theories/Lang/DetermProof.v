(* C08: permutation invariance of the three insensitive loop classes, and
   determinism of the model of Lang/Determ.v when no site is order-sensitive.
   The refutations for the source as it was before F5 (Package.Init and
   Compiler.parse ranged over the Imports map; repaired in 0752aff) and F14 (a
   reused Compiler kept its package cache; 8ae24d4) stay as regression records. *)
From Coq Require Import List NArith Bool String Arith Lia Permutation Sorted.
From Mpc Require Import Gen.MapSites Lang.Determ Lang.DetermSites.
Import ListNotations.
Open Scope list_scope.

Definition oracle_ok (o : oracle) : Prop := forall A s ctx (l : list A), Permutation (o A s ctx l) l.

Lemma oracle_perm : forall o1 o2, oracle_ok o1 -> oracle_ok o2 ->
    forall A s ctx (l : list A), Permutation (o1 A s ctx l) (o2 A s ctx l).
Proof. intros o1 o2 H1 H2 A s ctx l. eapply perm_trans; [apply H1 | apply Permutation_sym, H2]. Qed.

Lemma o_id_ok : oracle_ok o_id.
Proof. intros A s ctx l. apply Permutation_refl. Qed.

Lemma o_rev_ok : oracle_ok o_rev.
Proof. intros A s ctx l. apply Permutation_sym, Permutation_rev. Qed.

Lemma NoDup_map_inj : forall (A B : Type) (k : A -> B) (l : list A),
    NoDup (map k l) -> forall a b, In a l -> In b l -> k a = k b -> a = b.
Proof.
  intros A B k. induction l as [|x t IH]; intros Hnd a b Ha Hb Hk; [destruct Ha|].
  simpl in Hnd. inversion Hnd as [|? ? Hnotin Hnd']; subst.
  destruct Ha as [Ha|Ha], Hb as [Hb|Hb]; subst.
  - reflexivity.
  - exfalso. apply Hnotin. rewrite Hk. apply in_map; exact Hb.
  - exfalso. apply Hnotin. rewrite <- Hk. apply in_map; exact Ha.
  - apply IH; assumption.
Qed.

Section SortBy.
  Context {A : Type} (k : A -> N).

  Definition le_k (a b : A) : Prop := (k a <= k b)%N.

  Lemma insert_by_perm : forall x l, Permutation (insert_by k x l) (x :: l).
  Proof.
    intros x l. induction l as [|y t IH]; simpl.
    - apply Permutation_refl.
    - destruct (N.leb (k x) (k y)).
      + apply Permutation_refl.
      + eapply perm_trans. { apply perm_skip, IH. } apply perm_swap.
  Qed.

  Lemma sort_by_perm : forall l, Permutation (sort_by k l) l.
  Proof.
    induction l as [|x t IH]; simpl.
    - apply perm_nil.
    - eapply perm_trans. { apply insert_by_perm. } apply perm_skip, IH.
  Qed.

  Lemma insert_by_sorted : forall x l, StronglySorted le_k l -> StronglySorted le_k (insert_by k x l).
  Proof.
    intros x l Hs. induction Hs as [|y t Hs IH Hall]; simpl.
    - constructor; constructor.
    - destruct (N.leb (k x) (k y)) eqn:E.
      + apply N.leb_le in E. constructor.
        * constructor; assumption.
        * constructor; [exact E|].
          eapply Forall_impl; [|exact Hall]. intros a Ha. unfold le_k in *. lia.
      + apply N.leb_gt in E. constructor; [exact IH|].
        apply Forall_forall. intros z Hz.
        apply (Permutation_in z (insert_by_perm x t)) in Hz.
        destruct Hz as [Hz|Hz]; [subst z; unfold le_k; lia|].
        rewrite Forall_forall in Hall. apply Hall; exact Hz.
  Qed.

  Lemma sort_by_sorted : forall l, StronglySorted le_k (sort_by k l).
  Proof.
    induction l as [|x t IH]; simpl.
    - constructor.
    - apply insert_by_sorted, IH.
  Qed.

  Lemma sorted_perm_unique : forall l1 l2,
      StronglySorted le_k l1 -> StronglySorted le_k l2 -> Permutation l1 l2 ->
      (forall a b, In a l1 -> In b l1 -> k a = k b -> a = b) ->
      l1 = l2.
  Proof.
    induction l1 as [|a t1 IH]; intros l2 H1 H2 Hp Hinj.
    - apply Permutation_nil in Hp. symmetry; exact Hp.
    - destruct l2 as [|b t2].
      { apply Permutation_sym, Permutation_nil in Hp. discriminate. }
      assert (Hab : a = b).
      { inversion H1 as [|? ? Hs1 Hall1]; subst. inversion H2 as [|? ? Hs2 Hall2]; subst.
        assert (Ha2 : In a (b :: t2)) by (eapply Permutation_in; [exact Hp | left; reflexivity]).
        assert (Hb1 : In b (a :: t1)) by (eapply Permutation_in; [apply Permutation_sym; exact Hp | left; reflexivity]).
        destruct Ha2 as [Hba|Ha2]; [symmetry; exact Hba|].
        destruct Hb1 as [Hab|Hb1]; [exact Hab|].
        rewrite Forall_forall in Hall1, Hall2.
        pose proof (Hall1 b Hb1) as L1. pose proof (Hall2 a Ha2) as L2. unfold le_k in *.
        apply Hinj; [left; reflexivity | right; exact Hb1 | lia]. }
      subst b. f_equal.
      inversion H1; subst. inversion H2; subst.
      apply IH; try assumption.
      + eapply Permutation_cons_inv; exact Hp.
      + intros x y Hx Hy. apply Hinj; right; assumption.
  Qed.

  Theorem sort_by_perm_inj : forall l1 l2,
      Permutation l1 l2 -> (forall a b, In a l1 -> In b l1 -> k a = k b -> a = b) ->
      sort_by k l1 = sort_by k l2.
  Proof.
    intros l1 l2 Hp Hinj.
    apply (sorted_perm_unique).
    - apply sort_by_sorted.
    - apply sort_by_sorted.
    - eapply perm_trans; [apply sort_by_perm|]. eapply perm_trans; [exact Hp|]. apply Permutation_sym, sort_by_perm.
    - intros a b Ha Hb. apply Hinj.
      + eapply Permutation_in; [apply sort_by_perm | exact Ha].
      + eapply Permutation_in; [apply sort_by_perm | exact Hb].
  Qed.
End SortBy.

(* keys themselves (sort.Strings of the aliases): no side condition *)
Lemma sort_keys_perm_invariant : forall l1 l2 : list N,
    Permutation l1 l2 -> sort_by (fun x => x) l1 = sort_by (fun x => x) l2.
Proof. intros l1 l2 Hp. apply sort_by_perm_inj; [exact Hp|auto]. Qed.

(* Program.DefineConstants: the wire assignment does not depend on the order in
   which the Constants map is ranged *)
Theorem define_constants_perm : forall l1 l2 : list (N * nat),
    Permutation l1 l2 -> NoDup (map fst l1) -> define_constants l1 = define_constants l2.
Proof.
  intros l1 l2 Hp Hnd. unfold define_constants. f_equal.
  apply sort_by_perm_inj; [exact Hp | apply NoDup_map_inj; exact Hnd].
Qed.

(* REFUTED without the uniqueness hypothesis: two entries of one name and
   different widths (the same numeric constant used at 32 and at 64 bits,
   a constant table keyed by name AND width): the map order decides which
   width is wired. *)
Theorem define_constants_ties_refuted :
  exists l1 l2 : list (N * nat), Permutation l1 l2 /\ define_constants l1 <> define_constants l2.
Proof.
  exists [(5%N, 32); (5%N, 64)], [(5%N, 64); (5%N, 32)]. split; [apply perm_swap|].
  vm_compute. intros Heq; discriminate Heq.
Qed.

Example define_constants_ties_first_wins :
  define_constants [(5%N, 32); (7%N, 8); (5%N, 64)] = [IConst 5 0 32; IConst 7 32 8]
  /\ define_constants [(5%N, 64); (7%N, 8); (5%N, 32)] = [IConst 5 0 64; IConst 7 64 8].
Proof. split; vm_compute; reflexivity. Qed.

Theorem find_unique_perm : forall (A : Type) (p : A -> bool) (l1 l2 : list A),
    Permutation l1 l2 ->
    (forall a b, In a l1 -> In b l1 -> p a = true -> p b = true -> a = b) ->
    find p l1 = find p l2.
Proof.
  intros A p l1 l2 Hp Huniq.
  destruct (find p l1) as [a|] eqn:E1; destruct (find p l2) as [b|] eqn:E2.
  - apply find_some in E1. apply find_some in E2. destruct E1 as [Ia Pa], E2 as [Ib Pb].
    f_equal. apply Huniq; try assumption.
    eapply Permutation_in; [apply Permutation_sym; exact Hp | exact Ib].
  - apply find_some in E1. destruct E1 as [Ia Pa].
    pose proof (find_none _ _ E2 a (Permutation_in _ Hp Ia)) as C. congruence.
  - apply find_some in E2. destruct E2 as [Ib Pb].
    pose proof (find_none _ _ E1 b (Permutation_in _ (Permutation_sym Hp) Ib)) as C. congruence.
  - reflexivity.
Qed.

Theorem fold_comm_perm : forall (A S : Type) (f : S -> A -> S),
    (forall s a b, f (f s a) b = f (f s b) a) ->
    forall l1 l2, Permutation l1 l2 -> forall s, fold_left f l1 s = fold_left f l2 s.
Proof.
  intros A S f Hc l1 l2 Hp. induction Hp; intros s; simpl.
  - reflexivity.
  - apply IHHp.
  - rewrite Hc. reflexivity.
  - rewrite IHHp1. apply IHHp2.
Qed.

Lemma fold_left_ext_in : forall (A B : Type) (f g : B -> A -> B) (l : list A) (b : B),
    (forall b a, In a l -> f b a = g b a) -> fold_left f l b = fold_left g l b.
Proof.
  intros A B f g l. induction l as [|x t IH]; intros b H; simpl; [reflexivity|].
  rewrite H by (left; reflexivity). apply IH. intros b' a Ha. apply H. right; exact Ha.
Qed.

Lemma parse_ext : forall fuel rk1 rk2 fs pkgs p,
    (forall ctx l, rk1 MS_parse ctx l = rk2 MS_parse ctx l) ->
    parse fuel rk1 fs pkgs p = parse fuel rk2 fs pkgs p.
Proof.
  induction fuel as [|f IH]; intros rk1 rk2 fs pkgs p H; simpl; [reflexivity|].
  rewrite H. apply fold_left_ext_in. intros acc alias _.
  destruct acc as [pk|e]; [|reflexivity].
  destruct (assoc_get alias pk); [reflexivity|].
  destruct (find_pkg fs (import_path p alias)); [|reflexivity].
  apply IH. exact H.
Qed.

(* pkg_init only consults the key-order function on (path, imports) of the
   packages it visits *)
Lemma pkg_init_ext_on : forall fuel rk1 rk2 pkgs st p,
    (forall q, q = p \/ In q (map snd pkgs) -> rk1 MS_init (p_path q) (p_imports q) = rk2 MS_init (p_path q) (p_imports q)) ->
    pkg_init fuel rk1 pkgs st p = pkg_init fuel rk2 pkgs st p.
Proof.
  induction fuel as [|f IH]; intros rk1 rk2 pkgs st p H; simpl; [reflexivity|].
  destruct (memN (p_name p) (g_init st)); [reflexivity|].
  rewrite (H p) by (left; reflexivity).
  (* the loop over the imports is the same fold: every package it reaches is in pkgs *)
  erewrite fold_left_ext_in; [reflexivity|]. intros acc alias _.
  destruct acc as [s|e]; [|reflexivity].
  destruct (assoc_get alias pkgs) as [q|] eqn:G; [|reflexivity].
  apply IH. intros q' [->|Hq']; apply H; right; [|exact Hq'].
  unfold assoc_get in G. destruct (find (fun kv => N.eqb (fst kv) alias) pkgs) as [kv|] eqn:F; [|discriminate].
  inversion G; subst. apply find_some in F. apply in_map. apply F.
Qed.

Lemma add_constant_nodup : forall cs c, NoDup (map fst cs) -> NoDup (map fst (add_constant cs c)).
Proof.
  intros cs c Hnd. unfold add_constant.
  destruct (existsb (fun x => N.eqb (fst x) (fst c)) cs) eqn:E; [exact Hnd|].
  rewrite map_app. simpl.
  apply (Permutation_NoDup (l := fst c :: map fst cs)).
  { apply Permutation_cons_append. }
  constructor; [|exact Hnd].
  intros Hx. apply in_map_iff in Hx. destruct Hx as [y [Hy Iy]].
  assert (existsb (fun x => N.eqb (fst x) (fst c)) cs = true) as C.
  { apply existsb_exists. exists y. split; [exact Iy|]. rewrite Hy. apply N.eqb_refl. }
  congruence.
Qed.

Lemma fold_left_sum_inr : forall (A S E : Type) (f : S -> A -> S + E) (l : list A) (e : E),
    fold_left (fun acc a => match acc with inl s => f s a | inr e => inr e end) l (inr e) = inr e.
Proof. intros A S E f l e. induction l as [|x t IH]; simpl; [reflexivity | exact IH]. Qed.

Lemma fold_left_sum_inv : forall (A S E : Type) (P : S -> Prop) (f : S -> A -> S + E) (l : list A),
    (forall s a s', P s -> f s a = inl s' -> P s') ->
    forall s r, P s ->
      fold_left (fun acc a => match acc with inl s => f s a | inr e => inr e end) l (inl s) = inl r -> P r.
Proof.
  intros A S E P f l Hstep. induction l as [|x t IH]; intros s r Ps H; simpl in H.
  - inversion H; subst; exact Ps.
  - destruct (f s x) as [s1|e] eqn:Efx.
    + eapply IH; [eapply Hstep; eassumption | exact H].
    + rewrite fold_left_sum_inr in H. discriminate.
Qed.

Definition consts_ok (st : gen) : Prop := NoDup (map fst (g_consts st)).

Lemma fold_define_constant_ok : forall cs st, consts_ok st -> consts_ok (fold_left define_constant cs st).
Proof.
  induction cs as [|c t IH]; intros st H; simpl; [exact H|].
  apply IH. unfold consts_ok, define_constant; simpl. apply add_constant_nodup; exact H.
Qed.

Lemma fold_define_type_consts : forall p ts st, g_consts (fold_left (define_type p) ts st) = g_consts st.
Proof. intros p ts. induction ts as [|t r IH]; intros st; simpl; [reflexivity|]. rewrite IH. reflexivity. Qed.

Lemma pkg_init_consts_ok : forall fuel rk pkgs st p st',
    consts_ok st -> pkg_init fuel rk pkgs st p = inl st' -> consts_ok st'.
Proof.
  induction fuel as [|f IH]; intros rk pkgs st p st' Hok H; simpl in H; [discriminate|].
  destruct (memN (p_name p) (g_init st)).
  { inversion H; subst; exact Hok. }
  match type of H with match ?F with _ => _ end = _ => destruct F as [st2|e] eqn:EF end; [|discriminate].
  inversion H; subst; clear H.
  assert (Hok2 : consts_ok st2).
  { eapply (fold_left_sum_inv _ _ _ consts_ok
              (fun s alias => match assoc_get alias pkgs with
                              | Some q => pkg_init f rk pkgs s q
                              | None => inr (err_imported_not_used, alias)
                              end)); [| |exact EF].
    - intros s a s' Ps Hs. destruct (assoc_get a pkgs) as [q|]; [|discriminate].
      eapply IH; eassumption.
    - exact Hok. }
  unfold consts_ok, emit_vars; simpl. rewrite fold_define_type_consts.
  apply fold_define_constant_ok. exact Hok2.
Qed.

Lemma text_eqb_eq : forall a b : text, text_eqb a b = true <-> a = b.
Proof.
  induction a as [|x s IH]; destruct b as [|y t]; simpl; split; intros H; try reflexivity; try discriminate.
  - apply andb_true_iff in H. destruct H as [H1 H2]. apply N.eqb_eq in H1. apply IH in H2. subst; reflexivity.
  - inversion H; subst. rewrite N.eqb_refl. simpl. apply IH. reflexivity.
Qed.

Fixpoint nodup_text (l : list text) : bool :=
  match l with
  | [] => true
  | x :: t => negb (existsb (text_eqb x) t) && nodup_text t
  end.

Lemma nodup_text_ok : forall l, nodup_text l = true -> NoDup l.
Proof.
  induction l as [|x t IH]; simpl; intros H; [constructor|].
  apply andb_true_iff in H. destruct H as [H1 H2]. constructor; [|apply IH; exact H2].
  intros Hin. apply negb_true_iff in H1.
  assert (existsb (text_eqb x) t = true) as C.
  { apply existsb_exists. exists x. split; [exact Hin | apply text_eqb_eq; reflexivity]. }
  congruence.
Qed.

(* the regenerated types.Types is injective on the compared component *)
Lemma types_table_values_nodup : NoDup (map snd table_types_Types).
Proof. apply nodup_text_ok. vm_compute. reflexivity. Qed.

(* Type.String does not depend on the iteration order of an injective table *)
Theorem type_string_in_perm : forall tbl1 tbl2 t,
    Permutation tbl1 tbl2 -> NoDup (map snd tbl1) -> type_string_in tbl1 t = type_string_in tbl2 t.
Proof.
  intros tbl1 tbl2 t Hp Hnd. unfold type_string_in.
  rewrite (find_unique_perm _ (fun kv => text_eqb (snd kv) t) tbl1 tbl2 Hp); [reflexivity|].
  intros a b Ia Ib Pa Pb. apply text_eqb_eq in Pa. apply text_eqb_eq in Pb.
  apply (NoDup_map_inj _ _ snd tbl1 Hnd); [assumption | assumption | congruence].
Qed.

Lemma type_string_det : forall o1 o2 t, oracle_ok o1 -> oracle_ok o2 -> type_string o1 t = type_string o2 t.
Proof.
  intros o1 o2 t H1 H2. unfold type_string. apply type_string_in_perm.
  - apply oracle_perm; assumption.
  - eapply Permutation_NoDup; [apply Permutation_map, Permutation_sym, H1|]. exact types_table_values_nodup.
Qed.

Lemma max_len_perm : forall l1 l2, Permutation l1 l2 -> max_len l1 = max_len l2.
Proof.
  intros l1 l2 Hp. unfold max_len. apply fold_comm_perm; [|exact Hp].
  intros s a b. lia.
Qed.

Lemma range_keys_sorted_det : forall cls o1 o2 s, cls s = SortedAfter -> oracle_ok o1 -> oracle_ok o2 ->
    forall ctx l, range_keys cls o1 s ctx l = range_keys cls o2 s ctx l.
Proof.
  intros cls o1 o2 s Hc H1 H2 ctx l. unfold range_keys. rewrite Hc.
  apply sort_keys_perm_invariant, oracle_perm; assumption.
Qed.

Lemma compile_in_gen_ext : forall r cls1 o1 cls2 o2,
    (forall ctx l, range_keys cls1 o1 MS_parse ctx l = range_keys cls2 o2 MS_parse ctx l) ->
    (forall ctx l, range_keys cls1 o1 MS_init ctx l = range_keys cls2 o2 MS_init ctx l) ->
    (forall t, type_string o1 t = type_string o2 t) ->
    (forall l, NoDup (map fst l) ->
       define_constants (o1 _ MS_consts 0%N l) = define_constants (o2 _ MS_consts 0%N l)) ->
    max_operand_length o1 = max_operand_length o2 ->
    forall cs fs main, compile_in_gen r cls1 o1 cs fs main = compile_in_gen r cls2 o2 cs fs main.
Proof.
  intros r cls1 o1 cls2 o2 Hp Hi Hts Hdc Hmax cs fs main. unfold compile_in_gen.
  generalize (if r then cs0 else cs). clear cs. intros cs. cbv zeta.
  rewrite (parse_ext _ (range_keys cls1 o1) (range_keys cls2 o2)) by exact Hp.
  destruct (parse _ (range_keys cls2 o2) fs (cs_packages cs) main) as [pkgs|[code arg]]; [|reflexivity].
  rewrite (pkg_init_ext_on _ (range_keys cls1 o1) (range_keys cls2 o2)) by (intros q _; apply Hi).
  destruct (pkg_init _ (range_keys cls2 o2) pkgs _ main) as [st|[code arg]] eqn:EI; [|reflexivity].
  destruct (instantiate (p_calls main) _) as [calls inst].
  assert (Hok : consts_ok st).
  { eapply pkg_init_consts_ok; [|exact EI]. unfold consts_ok; simpl. constructor. }
  rewrite (map_ext _ _ (fun t => f_equal ITypeStr (Hts t))), (Hdc _ Hok), Hmax. reflexivity.
Qed.

Theorem compile_in_gen_deterministic_cls : forall r cls,
    cls MS_parse = SortedAfter -> cls MS_init = SortedAfter ->
    forall o1 o2, oracle_ok o1 -> oracle_ok o2 ->
    forall cs fs main, compile_in_gen r cls o1 cs fs main = compile_in_gen r cls o2 cs fs main.
Proof.
  intros r cls Hp Hi o1 o2 H1 H2. apply compile_in_gen_ext.
  - apply range_keys_sorted_det; assumption.
  - apply range_keys_sorted_det; assumption.
  - intros t. apply type_string_det; assumption.
  - intros l Hnd. apply define_constants_perm; [apply oracle_perm; assumption|].
    eapply Permutation_NoDup; [apply Permutation_map, Permutation_sym, H1 | exact Hnd].
  - apply max_len_perm, oracle_perm; assumption.
Qed.

(* C08_deterministic_when_sorted: ANY class assignment that has both import
   loops (Compiler.parse, Package.Init) sorted *)
Theorem compile_in_deterministic_cls : forall cls,
    cls MS_parse = SortedAfter -> cls MS_init = SortedAfter ->
    forall o1 o2, oracle_ok o1 -> oracle_ok o2 ->
    forall cs fs main, compile_in cls o1 cs fs main = compile_in cls o2 cs fs main.
Proof. exact (compile_in_gen_deterministic_cls true). Qed.

Lemma class_at_order_sensitive : forall inv loc,
    class_at inv loc = OrderSensitive -> present_at inv loc = true ->
    exists s, In s inv /\ s_class s = OrderSensitive.
Proof.
  intros inv loc Hc Hp. unfold class_at in Hc.
  destruct (existsb (fun s => site_at loc s && is_order_sensitive s) inv) eqn:E.
  - apply existsb_exists in E. destruct E as [s [Is Hs]]. apply andb_true_iff in Hs. destruct Hs as [_ Hs].
    exists s. split; [exact Is|]. unfold is_order_sensitive in Hs. destruct (s_class s); try discriminate; reflexivity.
  - destruct (find (site_at loc) inv) as [s|] eqn:F.
    + apply find_some in F. exists s. split; [apply F | exact Hc].
    + unfold present_at in Hp. apply existsb_exists in Hp. destruct Hp as [s [Is Hs]].
      pose proof (find_none _ _ F s Is) as C. congruence.
Qed.

Lemma model_matches_inventory_ok : model_matches_inventory = true.
Proof. vm_compute. reflexivity. Qed.

Lemma cur_import_loops_sorted : (forall s, In s MapSites.sites -> s_class s <> OrderSensitive) ->
    forall m, In m [MS_parse; MS_init] -> cur m = SortedAfter.
Proof.
  intros H m Hm.
  pose proof model_matches_inventory_ok as M. unfold model_matches_inventory in M.
  rewrite forallb_forall in M.
  assert (Im : In m model_sites) by (destruct Hm as [<-|[<-|[]]]; simpl; auto).
  specialize (M m Im). apply andb_true_iff in M. destruct M as [Mp Ma].
  destruct (cur m) eqn:E.
  - reflexivity.
  - destruct Hm as [<-|[<-|[]]]; discriminate.
  - destruct Hm as [<-|[<-|[]]]; discriminate.
  - exfalso. destruct (class_at_order_sensitive _ _ E Mp) as [s [Is Cs]]. exact (H s Is Cs).
Qed.

(* C08: when the regenerated inventory has no order-sensitive site, the model of
   the current source yields one listing (and one Compiler state) whatever the
   runtime's map iteration orders are, for every program, package directory and
   Compiler history. *)
Theorem compile_deterministic :
    (forall s, In s MapSites.sites -> s_class s <> OrderSensitive) ->
    forall o1 o2, oracle_ok o1 -> oracle_ok o2 ->
    forall cs fs main, compile_in cur o1 cs fs main = compile_in cur o2 cs fs main.
Proof.
  intros H o1 o2 H1 H2 cs fs main.
  apply compile_in_deterministic_cls; try assumption; apply cur_import_loops_sorted; simpl; auto.
Qed.

Corollary compile_fresh_deterministic :
    (forall s, In s MapSites.sites -> s_class s <> OrderSensitive) ->
    forall o1 o2, oracle_ok o1 -> oracle_ok o2 -> forall p, compile cur o1 p = compile cur o2 p.
Proof. intros H o1 o2 H1 H2 p. unfold compile. rewrite (compile_deterministic H o1 o2 H1 H2). reflexivity. Qed.

(* non-vacuity of compile_in_deterministic_cls: the class assignment of the
   repaired source (both import loops sorted) *)
Definition cls_fixed (m : msite) : site_class :=
  match m with
  | MS_parse | MS_init | MS_consts => SortedAfter
  | MS_typestring => LookupOnly
  | MS_maxop => CommutativeAccumulate
  end.

(* witness program: main imports two packages that define one variable each *)
Definition w_p2 : pkg := mkPkg 2 2 [] [] [(7%N, 8)] [] [mkV 1 0] [] [].
Definition w_p3 : pkg := mkPkg 3 3 [] [] [(5%N, 4)] [9%N] [mkV 1 1] [] [].
Definition w_main : pkg := mkPkg 1 1 [2; 3]%N [] [] [] [] [[49]%N; [51]%N] [(2, 1); (3, 1); (2, 1)]%N.
Definition w_prog : prog := (w_main, [w_p2; w_p3]).

Example fixed_model_same_listing : compile cls_fixed o_id w_prog = compile cls_fixed o_rev w_prog.
Proof. vm_compute. reflexivity. Qed.

Example fixed_model_listing_nontrivial :
  compile cls_fixed o_rev w_prog =
  [IBlock 2 1 0; ITypeId 3 9 2147483648; IBlock 3 1 1; IMain 1 1; ICall 2 1 0; ICall 3 1 0; ICall 2 1 1;
   ITypeStr (Some [98; 111; 111; 108]%N); ITypeStr (Some [117; 105; 110; 116]%N);
   IConst 5 0 4; IConst 7 4 8; IPad 7]%N.
Proof. vm_compute. reflexivity. Qed.

(* only "sorted or not" matters of the classes of the two import loops *)
Definition sortedb (c : site_class) : bool := match c with SortedAfter => true | _ => false end.

Lemma range_keys_cls_ext : forall cls1 cls2 o s, sortedb (cls1 s) = sortedb (cls2 s) ->
    forall ctx l, range_keys cls1 o s ctx l = range_keys cls2 o s ctx l.
Proof. intros cls1 cls2 o s H ctx l. unfold range_keys. destruct (cls1 s), (cls2 s); try discriminate; reflexivity. Qed.

Lemma compile_in_cls_ext : forall r cls1 cls2 o cs fs main,
    sortedb (cls1 MS_parse) = sortedb (cls2 MS_parse) -> sortedb (cls1 MS_init) = sortedb (cls2 MS_init) ->
    compile_in_gen r cls1 o cs fs main = compile_in_gen r cls2 o cs fs main.
Proof.
  intros r cls1 cls2 o cs fs main Hp Hi.
  apply compile_in_gen_ext; try reflexivity; apply range_keys_cls_ext; assumption.
Qed.

Definition cls_b (bp bi : bool) (m : msite) : site_class :=
  match m with
  | MS_parse => if bp then SortedAfter else OrderSensitive
  | MS_init => if bi then SortedAfter else OrderSensitive
  | _ => cls_fixed m
  end.

Lemma compile_in_cls_b : forall r cls o cs fs main,
    compile_in_gen r cls o cs fs main
    = compile_in_gen r (cls_b (sortedb (cls MS_parse)) (sortedb (cls MS_init))) o cs fs main.
Proof.
  intros. apply compile_in_cls_ext; simpl.
  - destruct (sortedb (cls MS_parse)); reflexivity.
  - destruct (sortedb (cls MS_init)); reflexivity.
Qed.

(* regression record of F5: a loop that emits in raw map order is
   order-dependent, whichever class assignment leaves Package.Init unsorted *)
Lemma init_raw_order_refuted : forall cls, cls MS_init <> SortedAfter ->
    compile cls o_id w_prog <> compile cls o_rev w_prog.
Proof.
  intros cls Hc. unfold compile, compile_in. rewrite !(compile_in_cls_b true cls).
  assert (E : sortedb (cls MS_init) = false) by (destruct (cls MS_init); try reflexivity; congruence).
  rewrite E. destruct (sortedb (cls MS_parse)); vm_compute; intros Heq; discriminate Heq.
Qed.

(* histories: a compilation does not depend on what the Compiler compiled before
   (compiler.go drops the package cache when a compilation starts) *)
Theorem compile_in_history_independent : forall cls o cs cs' fs main,
    snd (compile_in cls o cs fs main) = snd (compile_in cls o cs' fs main).
Proof. intros. reflexivity. Qed.

Theorem reuse_same : forall cls o1 o2 p, compile_again cls o1 o2 p = compile cls o2 p.
Proof. intros. reflexivity. Qed.

(* regression record of F14: a Compiler that keeps its package cache
   (reset = false) skips the initialisation of the cached packages at the second
   compilation and carries the function instance counters over: for every class
   assignment the second listing differs from the first. *)
Definition compile_again_noreset (cls : msite -> site_class) (o1 o2 : oracle) (p : prog) : listing :=
  snd (compile_in_gen false cls o2 (fst (compile_in_gen false cls o1 cs0 (snd p) (fst p))) (snd p) (fst p)).

Theorem reuse_refuted_without_reset : forall cls,
    exists (p : prog) (o : oracle), oracle_ok o /\
      compile_again_noreset cls o o p <> snd (compile_in_gen false cls o cs0 (snd p) (fst p)).
Proof.
  intros cls. exists w_prog, o_id. split; [exact o_id_ok|].
  unfold compile_again_noreset. rewrite !(compile_in_cls_b false cls).
  destruct (sortedb (cls MS_init)); destruct (sortedb (cls MS_parse)); vm_compute; intros Heq; discriminate Heq.
Qed.

(* the function instance counters alone (a program without package variables):
   labels f#0 g#0 f#1 at the first compilation, f#2 g#1 f#3 at the second *)
Definition w_calls : prog :=
  (mkPkg 1 1 [2]%N [] [] [] [] [] [(2, 1); (2, 2); (2, 1)]%N, [mkPkg 2 2 [] [] [] [] [] [] []]).

Example func_instances_first :
  compile cls_fixed o_id w_calls = [IMain 0 0; ICall 2 1 0; ICall 2 2 0; ICall 2 1 1; IPad 7]%N.
Proof. vm_compute. reflexivity. Qed.

Example func_instances_regression :
  compile_again_noreset cls_fixed o_id o_id w_calls = [IMain 0 0; ICall 2 1 2; ICall 2 2 1; ICall 2 1 3; IPad 7]%N.
Proof. vm_compute. reflexivity. Qed.

(* Alias clashes: the package table is keyed by alias.
   main (path 1) imports lib/codec (alias 2, path 20) and proto (alias 3, path 3);
   proto imports legacy/codec (alias 2, path 21).  The two codec packages differ
   in the size of their init block (1 resp. 2 instructions). *)
Definition c_lib : pkg := mkPkg 2 20 [] [] [] [] [mkV 1 0] [] [].
Definition c_legacy : pkg := mkPkg 2 21 [] [] [] [] [mkV 2 0] [] [].
Definition c_proto : pkg := mkPkg 3 3 [2]%N [(2, 21)]%N [] [] [mkV 1 0] [] [].
Definition c_main : pkg := mkPkg 1 1 [2; 3]%N [(2, 20); (3, 3)]%N [] [] [] [] [].
Definition c_prog : prog := (c_main, [c_lib; c_legacy; c_proto]).

(* current source (imports parsed in sorted alias order): lib/codec is parsed
   first and owns the alias; legacy/codec is never parsed - for every oracle *)
Example alias_clash_sorted_winner : forall o, oracle_ok o ->
  compile cls_fixed o c_prog = compile cls_fixed o_id c_prog.
Proof. intros o Ho. unfold compile. apply f_equal. apply compile_in_deterministic_cls; try reflexivity; [exact Ho | exact o_id_ok]. Qed.

Example alias_clash_sorted_listing :
  compile cls_fixed o_id c_prog = [IBlock 2 1 0; IBlock 3 1 0; IMain 0 0; IPad 7]%N.
Proof. vm_compute. reflexivity. Qed.

(* regression record (seeded defect: Compiler.parse ranging over the Imports map
   again): with raw-order parsing the other path can win the alias and the
   program is compiled against a different package *)
Example alias_clash_parse_order_refuted :
  compile (cls_b false true) o_rev c_prog = [IBlock 2 2 0; IBlock 3 1 0; IMain 0 0; IPad 7]%N
  /\ compile (cls_b false true) o_id c_prog <> compile (cls_b false true) o_rev c_prog.
Proof. split; [vm_compute; reflexivity | vm_compute; intros Heq; discriminate Heq]. Qed.

(* sort.SliceStable of the GMW target: equal keys keep their order *)
Example gmw_order_stable :
  gmw_order (fun g : nat * bool * nat => fst g)
            [(1, false, 10); (0, false, 11); (1, true, 12); (0, false, 13); (1, false, 14); (0, true, 15)]
  = [(0, true, 15); (0, false, 11); (0, false, 13); (1, true, 12); (1, false, 10); (1, false, 14)].
Proof. vm_compute. reflexivity. Qed.

Lemma no_goroutines : MapSites.go_sites = [].
Proof. reflexivity. Qed.

Lemma lookup_tables_injective : forallb table_injective MapSites.lookup_tables = true.
Proof. vm_compute. reflexivity. Qed.

Lemma tables_consistent :
  table_named "Types" = table_types_Types /\ table_named "operands" = table_compiler_ssa_operands.
Proof. split; vm_compute; reflexivity. Qed.

Lemma insert_all_perm : forall (A : Type) (x : A) (l l' : list A), In l' (insert_all x l) -> Permutation l' (x :: l).
Proof.
  intros A x. induction l as [|y t IH]; intros l' H; simpl in H.
  - destruct H as [<-|[]]. apply Permutation_refl.
  - destruct H as [<-|H]; [apply Permutation_refl|].
    apply in_map_iff in H. destruct H as [r [<- Ir]].
    eapply perm_trans; [apply perm_skip, IH, Ir | apply perm_swap].
Qed.

Lemma perms_perm : forall (A : Type) (l l' : list A), In l' (perms l) -> Permutation l' l.
Proof.
  intros A. induction l as [|x t IH]; intros l' H; simpl in H.
  - destruct H as [<-|[]]. apply perm_nil.
  - apply in_flat_map in H. destruct H as [r [Ir Il]].
    eapply perm_trans; [apply insert_all_perm; exact Il | apply perm_skip, IH, Ir].
Qed.

Lemma oracle_of_table_ok : forall t, oracle_ok (oracle_of_table t).
Proof.
  intros t A s ctx l. unfold oracle_of_table.
  destruct s; try apply Permutation_refl.
  destruct (assoc_get ctx t) as [i|]; [|apply Permutation_refl].
  destruct (nth_in_or_default i (perms l) l) as [Hin|Heq].
  - apply perms_perm; exact Hin.
  - rewrite Heq. apply Permutation_refl.
Qed.

Lemma insert_all_in : forall (A : Type) (x : A) (a b : list A), In (a ++ x :: b) (insert_all x (a ++ b)).
Proof.
  intros A x. induction a as [|y a IH]; intros b; simpl.
  - destruct b; simpl; left; reflexivity.
  - right. apply in_map. apply IH.
Qed.

Lemma perms_complete : forall (A : Type) (l l' : list A), Permutation l' l -> In l' (perms l).
Proof.
  intros A. induction l as [|x t IH]; intros l' Hp.
  - apply Permutation_sym, Permutation_nil in Hp. subst. left; reflexivity.
  - assert (Hin : In x l') by (eapply Permutation_in; [apply Permutation_sym; exact Hp | left; reflexivity]).
    apply in_split in Hin. destruct Hin as [a [b ->]].
    simpl. apply in_flat_map. exists (a ++ b). split.
    + apply IH. apply Permutation_sym. eapply Permutation_cons_app_inv. apply Permutation_sym. exact Hp.
    + apply insert_all_in.
Qed.

Lemma insert_all_length : forall (A : Type) (x : A) (l : list A), List.length (insert_all x l) = S (List.length l).
Proof. intros A x. induction l as [|y t IH]; simpl; [reflexivity|]. rewrite List.map_length, IH. reflexivity. Qed.

Lemma flat_map_length_const : forall (A B : Type) (f : A -> list B) (c : nat) (L : list A),
    (forall r, In r L -> List.length (f r) = c) -> List.length (flat_map f L) = List.length L * c.
Proof.
  intros A B f c. induction L as [|r t IH]; intros H; simpl; [reflexivity|].
  rewrite app_length, H by (left; reflexivity). rewrite IH by (intros; apply H; right; assumption). reflexivity.
Qed.

Lemma perms_length : forall (A : Type) (l : list A), List.length (perms l) = fact (List.length l).
Proof.
  intros A. induction l as [|x t IH]; [reflexivity|].
  change (perms (x :: t)) with (flat_map (insert_all x) (perms t)).
  rewrite (flat_map_length_const _ _ _ (S (List.length t))).
  - rewrite IH. simpl. lia.
  - intros r Hr. rewrite insert_all_length. f_equal. apply Permutation_length. apply perms_perm. exact Hr.
Qed.

Lemma perm_index : forall (A : Type) (l l' : list A), Permutation l' l ->
    exists i, i < fact (List.length l) /\ nth i (perms l) l = l'.
Proof.
  intros A l l' Hp. destruct (In_nth _ _ l (perms_complete _ _ _ Hp)) as [i [Hi Hn]].
  exists i. split; [rewrite <- perms_length; exact Hi | exact Hn].
Qed.

Lemma assoc_get_cons_other : forall (B : Type) k k' (v : B) t, k <> k' -> assoc_get k ((k', v) :: t) = assoc_get k t.
Proof.
  intros B k k' v t Hne. unfold assoc_get. simpl.
  destruct (N.eqb k' k) eqn:E; [apply N.eqb_eq in E; congruence | reflexivity].
Qed.

Lemma assoc_get_cons_same : forall (B : Type) k (v : B) t, assoc_get k ((k, v) :: t) = Some v.
Proof. intros. unfold assoc_get. simpl. rewrite N.eqb_refl. reflexivity. Qed.

(* Every permutation oracle coincides, on the key lists the model hands to it at
   the Package.Init site for the packages of a program, with one of the
   enumerated table oracles. *)
Theorem enumerated_oracles_complete : forall (o : oracle) (ps : list pkg),
    oracle_ok o -> NoDup (map p_path ps) ->
    exists t, In t (all_tables ps) /\
      forall p, In p ps ->
        oracle_of_table t N MS_init (p_path p) (p_imports p) = o N MS_init (p_path p) (p_imports p).
Proof.
  intros o ps Hok. induction ps as [|q ps IH]; intros Hnd.
  - exists []. split; [left; reflexivity | intros p []].
  - simpl in Hnd. inversion Hnd as [|? ? Hnotin Hnd']; subst.
    destruct (IH Hnd') as [t [It Ht]].
    destruct (perm_index _ (p_imports q) (o N MS_init (p_path q) (p_imports q)) (Hok _ _ _ _)) as [i [Hi Hn]].
    exists ((p_path q, i) :: t). split.
    + simpl. apply in_flat_map. exists i. split; [apply in_seq; lia | apply in_map; exact It].
    + intros p [<-|Hp].
      * unfold oracle_of_table. rewrite assoc_get_cons_same. exact Hn.
      * assert (Hne : p_path p <> p_path q).
        { intros E. apply Hnotin. rewrite <- E. apply in_map. exact Hp. }
        specialize (Ht p Hp). unfold oracle_of_table in *.
        rewrite assoc_get_cons_other by exact Hne. exact Ht.
Qed.

(* consequently: for every class assignment, the package initialisation (hence
   the sequence of init blocks the correspondence check compares) under any
   permutation oracle is the one under some enumerated table *)
Theorem pkg_init_enumerated : forall (cls : msite -> site_class) (o : oracle) (ps : list pkg),
    oracle_ok o -> NoDup (map p_path ps) ->
    exists t, In t (all_tables ps) /\
      forall fuel pkgs st p, In p ps -> (forall q, In q (map snd pkgs) -> In q ps) ->
        pkg_init fuel (range_keys cls o) pkgs st p = pkg_init fuel (range_keys cls (oracle_of_table t)) pkgs st p.
Proof.
  intros cls o ps Hok Hnd. destruct (enumerated_oracles_complete o ps Hok Hnd) as [t [It Ht]].
  exists t. split; [exact It|]. intros fuel pkgs st p Hp Hsub.
  apply pkg_init_ext_on. intros q Hq.
  assert (Iq : In q ps) by (destruct Hq as [->|Hq]; [exact Hp | apply Hsub; exact Hq]).
  unfold range_keys. rewrite (Ht q Iq). reflexivity.
Qed.
