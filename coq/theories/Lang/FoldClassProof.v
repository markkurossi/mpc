(* Soundness of the executable classifier Fold.fold_ok_class (C12): on every
   (operator, type, operand values) it accepts, for every width and value, the
   folder answers and the folded constant is what the circuit computes.  Then the
   constant table shared by name: same name = same mpa.Int, what a consumer reads
   from a shared entry (finding F6k), and that a fold depends on the declared types
   of its operands, not on their mpa.Int objects alone. *)
From Coq Require Import ZArith List Bool Lia.
From Mpc Require Import Lang.Fold Lang.FoldProof.
Import ListNotations.
Open Scope Z_scope.

(* boolean hypotheses of the classifier as propositions (conjunctions of
   disjunctions and disjunctions of conjunctions of comparisons) *)
Ltac b2p H :=
  rewrite ?andb_true_iff, ?orb_true_iff, ?andb_true_iff, ?Z.leb_le, ?Z.ltb_lt, ?Z.eqb_eq in H.

Lemma pow2_half n : 0 < n -> 2 ^ n = 2 * 2 ^ (n - 1).
Proof. intros; rewrite <- Z.pow_succ_r by lia; f_equal; lia. Qed.

(* unary minus at a declared width n > 64: the subtractor circuit on (0, x) *)
Lemma unaryMinus_big_eq k n ml x : 64 < n -> mbits x <= n ->
  unaryMinus (CI (mkT k n ml) x) = Ok (constant (mkM n ((- inval x) mod 2 ^ n)) (mkT k n ml)).
Proof.
  intros Hn Hx. unfold unaryMinus, mSub, bigAddSub, isSmall. simpl tbits. simpl mbits.
  rewrite (proj2 (Z.leb_gt n 64)) by lia.
  rewrite (Z.max_l n (mbits x)), Z.max_id, (proj2 (Z.ltb_ge (n + 1) n)) by lia.
  assert (H0 : inval (mkM n 0) = 0) by (unfold inval, big; simpl; apply Z.mod_0_l; pose proof (pow2_pos n ltac:(lia)); lia).
  rewrite H0. reflexivity.
Qed.

Lemma neg_mod n x : 0 < x <= 2 ^ n -> (- x) mod 2 ^ n = 2 ^ n - x.
Proof. intros Hx. symmetry. apply Z.mod_unique with (q := -1); lia. Qed.

Lemma neg_operand_small n x : (n = 32 \/ n = 64) -> 0 < x <= 2 ^ (n - 1) ->
  neg_operand n x = Ok (CI (mkT KInt n n) (mkM n (wrap_s64 (2 ^ n - x)))).
Proof.
  intros Hn Hx. pose proof (pow2_half n ltac:(lia)) as Hh. pose proof (pow2_le (n - 1) 63 ltac:(lia)) as Hp.
  unfold neg_operand. rewrite (operand_repr KInt n x ltac:(lia)). cbn [bind].
  rewrite unaryMinus_small_eq by lia. unfold small; simpl mval.
  assert (Hm : (- wrap_s64 x) mod 2 ^ n = 2 ^ n - x).
  { rewrite <- (neg_mod n x), <- !Z.sub_0_l by lia. rewrite Zminus_mod, wrap_mod, <- Zminus_mod by lia. reflexivity. }
  rewrite Hm. unfold mkres.
  rewrite (bl_unique (2 ^ n - x) n) by lia.
  assert (Hcb : contb n = n) by (destruct Hn; subst; reflexivity).
  rewrite Hcb, Z.max_id. reflexivity.
Qed.

Lemma neg_operand_big n x : 64 < n -> 0 < x <= 2 ^ (n - 1) ->
  neg_operand n x = Ok (CI (mkT KInt n n) (mkM n (2 ^ n - x))).
Proof.
  intros Hn Hx. pose proof (pow2_half n ltac:(lia)) as Hh. assert (Hp0 : 0 < 2 ^ (n - 1)) by (apply pow2_pos; lia).
  destruct (cont_spec x ltac:(lia)) as [_ [Hc2 [Hc3 [_ Hc5]]]]. specialize (Hc5 n Hn ltac:(lia)).
  unfold neg_operand. rewrite (operand_repr KInt n x ltac:(lia)). cbn [bind].
  rewrite unaryMinus_big_eq by (simpl; lia).
  unfold inval, big; simpl mval; simpl mbits. rewrite (Z.mod_small x), neg_mod by lia.
  unfold constant. rewrite BitLen_val, (proj2 (Z.leb_gt n 64)), (bitlen_abs_unique (2 ^ n - x) n) by lia.
  fold (contb n). unfold contb. rewrite (proj2 (Z.ltb_lt 64 n)) by lia.
  simpl tk. simpl tbits. simpl mval. rewrite Z.max_id. reflexivity.
Qed.

(* MinBits and mpa.Int of the typed operand T(a) / -T(|a|): typed_repr below *)
Definition tmv (n a : Z) : Z := if 0 <=? a then tminc n a else n.
Definition rep_val (n a : Z) : Z :=
  if 0 <=? a then a else if n <=? 64 then wrap_s64 (2 ^ n + a) else 2 ^ n + a.
Definition rep (n a : Z) : mint := mkM (contv n a) (rep_val n a).

Lemma reprb_spec k n a : reprb k n a = true -> k <> KBool ->
  (k = KUint /\ 0 <= a < 2 ^ n) \/ (k = KInt /\ - 2 ^ (n - 1) <= a < 2 ^ (n - 1)).
Proof.
  intros H Hk. destruct k; simpl in H; try congruence;
    apply andb_true_iff in H; destruct H as [H1 H2];
    apply Z.leb_le in H1; apply Z.ltb_lt in H2; [right|left]; split; (reflexivity || lia).
Qed.

Lemma rep_nonneg n a : 0 <= a -> rep n a = mkM (cont a) a.
Proof.
  intros H. unfold rep, contv, rep_val.
  rewrite (proj2 (Z.ltb_ge a 0) H), (proj2 (Z.leb_le 0 a) H). reflexivity.
Qed.

Lemma rep_neg n a : a < 0 ->
  rep n a = mkM n (if n <=? 64 then wrap_s64 (2 ^ n + a) else 2 ^ n + a).
Proof.
  intros H. unfold rep, contv, rep_val.
  rewrite (proj2 (Z.ltb_lt a 0) H), (proj2 (Z.leb_gt 0 a) H). reflexivity.
Qed.

Lemma rep_mval n a : 0 <= a -> mval (rep n a) = a.
Proof. intros Ha. rewrite rep_nonneg by assumption. reflexivity. Qed.

Lemma neg_canon_small n a : canon n a = true -> a < 0 -> n <= 64 -> n = 32 \/ n = 64.
Proof.
  intros Hc Ha Hn. unfold canon in Hc. rewrite (proj2 (Z.leb_gt 0 a) Ha) in Hc. simpl in Hc.
  apply orb_true_iff in Hc. destruct Hc as [Hc|Hc]; [|apply Z.ltb_lt in Hc; lia].
  apply orb_true_iff in Hc. destruct Hc as [Hc|Hc]; apply Z.eqb_eq in Hc; lia.
Qed.

Lemma typed_repr k n a : k <> KBool -> reprb k n a = true -> canon n a = true ->
  typed k n a = Ok (CI (mkT k n (tmv n a)) (rep n a)).
Proof.
  intros Hk Hr Hc. unfold typed, tmv.
  destruct (0 <=? a) eqn:E; [apply Z.leb_le in E|apply Z.leb_gt in E].
  - rewrite rep_nonneg by assumption. apply operand_repr; assumption.
  - rewrite rep_neg by assumption.
    destruct (reprb_spec k n a Hr Hk) as [[-> Hb]|[-> Hb]]; [lia|].
    destruct (n <=? 64) eqn:E4; [apply Z.leb_le in E4|apply Z.leb_gt in E4].
    + rewrite (neg_operand_small n (- a) (neg_canon_small n a Hc E E4) ltac:(lia)).
      replace (2 ^ n - - a) with (2 ^ n + a) by lia. reflexivity.
    + rewrite (neg_operand_big n (- a) ltac:(lia) ltac:(lia)).
      replace (2 ^ n - - a) with (2 ^ n + a) by lia. reflexivity.
Qed.

Lemma rep_small k n a : k <> KBool -> 0 < n <= 64 -> reprb k n a = true ->
  mbits (rep n a) <= 64 /\ (small (rep n a)) mod 2 ^ n = a mod 2 ^ n.
Proof.
  intros Hk Hn Hr. pose proof (pow2_le n 64 ltac:(lia)) as Hp.
  destruct (Z_lt_le_dec a 0) as [Ha|Ha].
  - rewrite rep_neg, (proj2 (Z.leb_le n 64)) by lia. unfold small. simpl mbits. simpl mval.
    split; [lia|]. rewrite !wrap_mod by lia.
    rewrite Z.add_comm. replace (a + 2 ^ n) with (a + 1 * 2 ^ n) by lia. apply Z_mod_plus_full.
  - rewrite rep_nonneg by assumption. unfold small. simpl mbits. simpl mval.
    assert (a < 2 ^ 64).
    { destruct (reprb_spec k n a Hr Hk) as [[-> Hb]|[-> Hb]]; [lia|].
      pose proof (pow2_le (n - 1) 64 ltac:(lia)). lia. }
    destruct (cont_spec a Ha) as [_ [_ [_ [H64 _]]]]. specialize (H64 ltac:(lia)).
    split; [lia|]. apply wrap_mod; lia.
Qed.

Lemma rep_big k n a : k <> KBool -> 64 < n -> reprb k n a = true ->
  32 <= mbits (rep n a) <= n /\ big (rep n a) = a mod 2 ^ n /\
  0 <= a mod 2 ^ n < 2 ^ mbits (rep n a) /\ inval (rep n a) = a mod 2 ^ n.
Proof.
  intros Hk Hn Hr.
  pose proof (pow2_half n ltac:(lia)) as Hh. assert (0 < 2 ^ (n - 1)) by (apply pow2_pos; lia).
  assert (Hcase : - 2 ^ (n - 1) <= a < 2 ^ n)
    by (destruct (reprb_spec k n a Hr Hk) as [[-> Hb]|[-> Hb]]; lia).
  destruct (Z_lt_le_dec a 0) as [Ha|Ha].
  - rewrite rep_neg, (proj2 (Z.leb_gt n 64)) by lia. unfold inval, big. simpl mbits. simpl mval.
    assert (Hm : a mod 2 ^ n = 2 ^ n + a) by (symmetry; apply Z.mod_unique with (q := -1); lia).
    rewrite Hm. rewrite (Z.mod_small (2 ^ n + a)) by lia. lia.
  - rewrite rep_nonneg by assumption. unfold inval, big. simpl mbits. simpl mval.
    destruct (cont_spec a Ha) as [_ [Hc2 [Hc3 [_ Hc5]]]]. specialize (Hc5 n Hn ltac:(lia)).
    rewrite (Z.mod_small a (2 ^ n)) by lia. rewrite (Z.mod_small a) by lia. lia.
Qed.

Lemma land_pow2 v j : 0 <= j -> Z.land v (2 ^ j) = if Z.testbit v j then 2 ^ j else 0.
Proof.
  intros Hj. apply Z.bits_inj'; intros i Hi.
  rewrite Z.land_spec, Z.pow2_bits_eqb by lia.
  destruct (Z.eqb_spec j i) as [->|Hne].
  - destruct (Z.testbit v i); [rewrite Z.pow2_bits_true by lia; reflexivity|rewrite Z.bits_0; reflexivity].
  - rewrite andb_false_r. destruct (Z.testbit v j); [rewrite Z.pow2_bits_false by lia|rewrite Z.bits_0]; reflexivity.
Qed.

Lemma testbit_top v j : 0 <= j -> 0 <= v < 2 ^ (j + 1) -> Z.testbit v j = (2 ^ j <=? v).
Proof.
  intros Hj Hv. assert (Hp : 0 < 2 ^ j) by (apply pow2_pos; lia).
  assert (Hs : 2 ^ (j + 1) = 2 * 2 ^ j) by (rewrite Z.pow_add_r by lia; lia).
  pose proof (Z.testbit_spec' v j Hj) as Hb.
  destruct (2 ^ j <=? v) eqn:E; [apply Z.leb_le in E|apply Z.leb_gt in E].
  - assert (v / 2 ^ j = 1) by (symmetry; apply Z.div_unique with (r := v - 2 ^ j); lia).
    rewrite H in Hb. destruct (Z.testbit v j); simpl in Hb; [reflexivity|discriminate].
  - rewrite Z.div_small in Hb by lia. destruct (Z.testbit v j); simpl in Hb; [discriminate|reflexivity].
Qed.

Lemma cont_32 a : 0 <= a < 2 ^ 32 -> cont a = 32.
Proof.
  intros Ha. destruct (blen_spec a ltac:(lia)) as [B1 [_ B3]]. specialize (B3 32 ltac:(lia) ltac:(lia)).
  unfold cont. destruct (contb_cases (blen a)) as [[? ->]|[[? ?]|[? ?]]]; lia.
Qed.

Lemma cont_64 a : 2 ^ 32 <= a < 2 ^ 64 -> cont a = 64.
Proof.
  intros Ha. destruct (blen_spec a ltac:(lia)) as [B1 [B2 B3]]. specialize (B3 64 ltac:(lia) ltac:(lia)).
  assert (32 < blen a) by (apply Z.nle_gt; intros Hc; pose proof (pow2_le (blen a) 32 ltac:(lia)); lia).
  unfold cont. destruct (contb_cases (blen a)) as [[? ?]|[[? ->]|[? ?]]]; lia.
Qed.

Lemma Int64_container w v : (w = 32 \/ w = 64) -> 0 <= v < 2 ^ w ->
  Int64 (mkM w (wrap_s64 v)) = sgn_at w v.
Proof.
  intros Hw Hv. unfold Int64, isSmall, small, sgn_at. simpl mbits. simpl mval. cbv zeta.
  rewrite (wrap_id (wrap_s64 v)) by apply wrap_range.
  destruct Hw as [-> | ->].
  - change (32 <=? 64) with true. change (32 =? 64) with false. change (32 - 1) with 31. cbn [orb].
    rewrite (wrap_id v), land_pow2, (testbit_top v 31) by lia.
    destruct (Z.leb_spec (2 ^ 31) v) as [H|H].
    + rewrite (proj2 (Z.ltb_ge v (2 ^ 31))) by lia. change (2 ^ 31 =? 0) with false. cbn iota.
      rewrite wrap_id by lia. lia.
    + rewrite (proj2 (Z.ltb_lt v (2 ^ 31))) by lia. reflexivity.
  - change (64 <=? 64) with true. change (64 =? 64) with true. change (64 - 1) with 63. cbn [orb]. cbn iota.
    unfold wrap_s64. destruct (Z.ltb_spec v (2 ^ 63)) as [H|H].
    + rewrite Z.mod_small; lia.
    + replace (v + 2 ^ 63) with (v - 2 ^ 63 + 1 * 2 ^ 64) by lia. rewrite Z_mod_plus_full, Z.mod_small; lia.
Qed.

Lemma Int64_nonneg w a : (w = 32 \/ w = 64) -> 0 <= a < 2 ^ (w - 1) -> Int64 (mkM w a) = a.
Proof.
  intros Hw Ha. pose proof (pow2_half w ltac:(lia)). pose proof (pow2_le (w - 1) 63 ltac:(lia)).
  rewrite <- (wrap_id a) at 1 by lia. rewrite Int64_container by lia.
  unfold sgn_at. rewrite (proj2 (Z.ltb_lt a (2 ^ (w - 1)))) by lia. reflexivity.
Qed.

(* Int64() reads the operand's value exactly on cmp_exact *)
Lemma rep_int64 k n a : k <> KBool -> 0 < n -> reprb k n a = true -> canon n a = true ->
  cmp_exact n a = true -> isSmall (rep n a) = true /\ Int64 (rep n a) = a.
Proof.
  intros Hk Hn Hr Hc Hx. unfold cmp_exact in Hx.
  assert (Hcases : (a < 0 /\ n <= 64) \/ (0 <= a < 2 ^ 31) \/ (2 ^ 32 <= a < 2 ^ 63)) by (b2p Hx; lia).
  destruct Hcases as [[Ha Hn64]|[Ha|Ha]].
  - rewrite rep_neg, (proj2 (Z.leb_le n 64)) by lia. split; [apply Z.leb_le; assumption|].
    assert (Hb : - 2 ^ (n - 1) <= a) by (destruct (reprb_spec k n a Hr Hk) as [[-> Hb]|[-> Hb]]; lia).
    pose proof (pow2_half n Hn). assert (0 < 2 ^ (n - 1)) by (apply pow2_pos; lia).
    rewrite Int64_container by (apply (neg_canon_small n a) || lia; assumption).
    unfold sgn_at. rewrite (proj2 (Z.ltb_ge (2 ^ n + a) (2 ^ (n - 1)))) by lia. lia.
  - rewrite rep_nonneg, cont_32 by lia. split; [reflexivity|]. apply Int64_nonneg; [left; reflexivity|lia].
  - rewrite rep_nonneg, cont_64 by lia. split; [reflexivity|]. apply Int64_nonneg; [right; reflexivity|lia].
Qed.

(* the folded constant c has kind k, its wires spell v, it is assignable to a
   declared type of n bits, and when n is a container width (32, or >= 64) the
   constant is exactly n bits wide *)
Definition good (c : cval) (k : kind) (n v : Z) : Prop :=
  tk (ctype c) = k /\ const_wires c = v /\ tmin (ctype c) <= n /\
  ((n = 32 \/ 64 <= n) -> tbits (ctype c) = n).

Lemma good_of_small c k N v :
  const_wires c = v -> tk (ctype c) = k -> tmin (ctype c) <= N -> N <= tbits (ctype c) <= 64 ->
  (N = 32 -> tbits (ctype c) = 32) -> good c k N v.
Proof. intros; unfold good; repeat split; try assumption. intros [->|?]; [auto|lia]. Qed.

Lemma ex_good_of_small (P : cval -> Prop) k N v :
  (exists c, P c /\ const_wires c = v /\ tk (ctype c) = k /\ tmin (ctype c) <= N /\
     N <= tbits (ctype c) <= 64 /\ (N = 32 -> tbits (ctype c) = 32) /\ smallc c) ->
  exists c, P c /\ good c k N v.
Proof.
  intros (c & HP & H1 & H2 & H3 & H4 & H5 & _). exists c. split; [exact HP|]. apply good_of_small; assumption.
Qed.


(* Generator.Constant of a big-path result V (container mb) for a declared
   type of n > 64 bits *)
Lemma good_result_big k n mn mb V :
  64 < n -> 0 <= V < 2 ^ n -> (mb <= 64 -> V < 2 ^ 64) ->
  good (constant (mkM mb V) (mkT k n mn)) k n V.
Proof.
  intros Hn HV Hmb. unfold constant. fold (contb (BitLen (mkM mb V))). simpl tk. simpl tbits. simpl mval.
  set (L := BitLen (mkM mb V)).
  assert (HLn : L <= n) by (apply BitLen_le; (assumption || lia)).
  destruct (BitLen_fits mb V ltac:(lia) Hmb) as [HL0 HVL]. fold L in HL0, HVL.
  destruct (contb_ge L) as [Hge _].
  assert (Hcn : contb L <= n) by (unfold contb; destruct (64 <? L); [lia|destruct (32 <? L); lia]).
  (* the new container is small only if the old bit length was *)
  assert (Hc64 : contb L <= 64 -> V < 2 ^ 64) by (intros H; pose proof (pow2_le L 64 ltac:(lia)); lia).
  unfold good. simpl ctype. simpl tk. simpl tmin. simpl tbits. rewrite Z.max_l by lia.
  split; [reflexivity|]. split; [|lia].
  apply cw_nonneg; [lia|exact Hc64|]. apply BitLen_le; (assumption || lia).
Qed.

(* << by a literal count, small path, all values *)
Theorem fold_lsh_small k N ml tr x y A cnt :
  k <> KBool -> tk tr <> KBool -> 1 <= N <= 64 -> (small x) mod 2 ^ N = A ->
  u64 (Int64 y) = cnt ->
  exists c, evalConst OLsh (CI (mkT k N ml) x) (CI tr y) = Ok c /\
    good c k N (snd (circuit_sem OLsh k N A cnt)).
Proof.
  intros Hk Hkr HN HA Hcnt. pose proof (pow2_pos N ltac:(lia)) as HpN.
  assert (Hv : sval OLsh (small x) (u64 (Int64 y)) mod 2 ^ N = snd (circuit_sem OLsh k N A cnt)).
  { rewrite Hcnt. unfold circuit_sem, instr_sem. simpl.
    destruct (64 <=? cnt) eqn:E; [apply Z.leb_le in E|apply Z.leb_gt in E].
    - rewrite Z.mod_0_l by lia. symmetry. apply Z.mod_divide; [lia|].
      apply Z.divide_mul_r. exists (2 ^ (cnt - N)). rewrite <- Z.pow_add_r by lia. f_equal; lia.
    - rewrite wrap_mod by lia. rewrite <- HA, Zmult_mod_idemp_l. reflexivity. }
  rewrite <- Hv. apply ex_good_of_small, small_fold_sound; [assumption|apply Z.mod_pos_bound; lia|].
  apply (evalConst_small_shift OLsh mLsh); (reflexivity || assumption).
Qed.

(* + without overflow of the narrower of (container, declared type) *)
Theorem fold_add_nooverflow k N ml mr x y a b :
  1 <= N <= 64 -> 32 <= mbits x <= 64 -> 32 <= mbits y <= 64 ->
  mval x = a -> mval y = b -> 0 <= a < 2 ^ 63 -> 0 <= b < 2 ^ 63 ->
  a + b < 2 ^ (Z.min (Z.max (mbits x) (mbits y)) N) ->
  exists c, evalConst OAdd (CI (mkT k N ml) x) (CI (mkT k N mr) y) = Ok c /\
    good c k N (snd (circuit_sem OAdd k N a b)).
Proof.
  intros HN Hx Hy Ha Hb Har Hbr Hsum.
  set (M := Z.max (mbits x) (mbits y)) in *.
  assert (HlM : a + b < 2 ^ M) by (pose proof (pow2_le (Z.min M N) M ltac:(lia)); lia).
  assert (HlN : a + b < 2 ^ N) by (pose proof (pow2_le (Z.min M N) N ltac:(lia)); lia).
  assert (Hv : sval OAdd (small x) (small y) mod 2 ^ M = a + b).
  { rewrite (small_nonneg x a), (small_nonneg y b) by assumption. simpl.
    rewrite wrap_mod by lia. apply Z.mod_small; lia. }
  assert (Hc : snd (circuit_sem OAdd k N a b) = a + b) by (apply Z.mod_small; lia).
  rewrite Hc. apply ex_good_of_small, small_fold_sound; [assumption|lia|].
  rewrite (evalConst_small OAdd mAdd) by (reflexivity || simpl; lia). simpl swidth. fold M. rewrite Hv. reflexivity.
Qed.

(* representable values are read back from their wires *)
Lemma sg_repr k n a : k <> KBool -> 0 < n -> reprb k n a = true ->
  (match k with KInt => sgn_at n (a mod 2 ^ n) | _ => a mod 2 ^ n end) = a.
Proof.
  intros Hk Hn Hr. pose proof (pow2_half n Hn) as Hh. assert (0 < 2 ^ (n - 1)) by (apply pow2_pos; lia).
  destruct (reprb_spec k n a Hr Hk) as [[-> Hb]|[-> Hb]].
  - apply Z.mod_small; lia.
  - unfold sgn_at. destruct (Z_lt_le_dec a 0) as [Hneg|Hpos].
    + assert (Hm : a mod 2 ^ n = 2 ^ n + a) by (symmetry; apply Z.mod_unique with (q := -1); lia).
      rewrite Hm. assert (E : (2 ^ n + a <? 2 ^ (n - 1)) = false) by (apply Z.ltb_ge; lia). rewrite E. lia.
    + rewrite Z.mod_small by lia. assert (E : (a <? 2 ^ (n - 1)) = true) by (apply Z.ltb_lt; lia).
      rewrite E. reflexivity.
Qed.

Lemma cmpZ_lt a b : (cmpZ a b =? -1) = (a <? b).
Proof. unfold cmpZ. destruct (Z.ltb_spec a b), (Z.ltb_spec b a); reflexivity. Qed.
Lemma cmpZ_gt a b : (cmpZ a b =? 1) = (b <? a).
Proof. unfold cmpZ. destruct (Z.ltb_spec a b), (Z.ltb_spec b a); try reflexivity; lia. Qed.
Lemma cmpZ_eq a b : (cmpZ a b =? 0) = (a =? b).
Proof. unfold cmpZ. destruct (Z.ltb_spec a b), (Z.ltb_spec b a), (Z.eqb_spec a b); try reflexivity; lia. Qed.

(* comparisons: both containers at most 64 bits wide and read exactly by Int64 *)
Theorem fold_cmp_exact op k n tl tr x y a b :
  is_cmp op = true -> k <> KBool -> 0 < n -> reprb k n a = true -> reprb k n b = true ->
  isSmall x = true -> isSmall y = true -> Int64 x = a -> Int64 y = b ->
  exists c, evalConst op (CI tl x) (CI tr y) = Ok c /\
    good c KBool 1 (snd (circuit_sem op k n (a mod 2 ^ n) (b mod 2 ^ n))).
Proof.
  intros Hop Hk Hn Hra Hrb Hsx Hsy Hia Hib.
  pose proof (sg_repr k n a Hk Hn Hra) as Sa. pose proof (sg_repr k n b Hk Hn Hrb) as Sb.
  assert (Hcmp : Cmp x y = cmpZ a b) by (unfold Cmp; rewrite Hsx, Hsy, Hia, Hib; reflexivity).
  assert (Hmx : Z.max n n = n) by lia.
  assert (Heq : (a mod 2 ^ n =? b mod 2 ^ n) = (a =? b)).
  { destruct (Z.eqb_spec a b) as [->|Hne]; [apply Z.eqb_refl|].
    apply Z.eqb_neq. intros Hc. apply Hne. rewrite <- Sa, <- Sb. rewrite Hc. reflexivity. }
  unfold evalConst, resultTypeCC. rewrite Hop. simpl.
  unfold circuit_sem. rewrite Hop. simpl. unfold instr_sem. rewrite Hmx.
  destruct op; try discriminate Hop; simpl; eexists; (split; [reflexivity|]);
    unfold good; simpl;
    rewrite Hcmp, ?cmpZ_lt, ?cmpZ_gt, ?cmpZ_eq, ?Heq, ?Sa, ?Sb, ?Z.leb_antisym;
    (split; [reflexivity|]); (split; [reflexivity|]); (split; lia).
Qed.

Lemma bitop_range (f : Z -> Z -> Z) (g : bool -> bool -> bool) A B n :
  0 <= n -> g false false = false ->
  (forall a b i, 0 <= i -> Z.testbit (f a b) i = g (Z.testbit a i) (Z.testbit b i)) ->
  0 <= A < 2 ^ n -> 0 <= B < 2 ^ n -> 0 <= f A B < 2 ^ n.
Proof.
  intros Hn Hg Hf HA HB.
  assert (He : f A B = (f A B) mod 2 ^ n).
  { apply Z.bits_inj'; intros i Hi. destruct (Z_lt_le_dec i n) as [Hlt|Hge].
    - rewrite Z.mod_pow2_bits_low by lia. reflexivity.
    - rewrite Z.mod_pow2_bits_high by lia. rewrite Hf by lia.
      rewrite <- (Z.mod_small A (2 ^ n)) by lia. rewrite <- (Z.mod_small B (2 ^ n)) by lia.
      rewrite !Z.mod_pow2_bits_high by lia. exact Hg. }
  rewrite He. apply Z.mod_pos_bound, pow2_pos; lia.
Qed.

Lemma ubig_nonneg x : 0 <= big x -> ubig x = big x.
Proof.
  unfold ubig, big. intros H. assert (E : (mval x <? 0) = false) by (apply Z.ltb_ge; lia).
  rewrite E, andb_false_r. reflexivity.
Qed.

Lemma inval_range m : 0 < mbits m -> 0 <= inval m < 2 ^ mbits m.
Proof. intros H. unfold inval. apply Z.mod_pos_bound, pow2_pos; lia. Qed.

Lemma good_bitop (f : Z -> Z -> Z) (g : bool -> bool -> bool) k n mn A B :
  64 < n -> g false false = false ->
  (forall a b i, 0 <= i -> Z.testbit (f a b) i = g (Z.testbit a i) (Z.testbit b i)) ->
  0 <= A < 2 ^ n -> 0 <= B < 2 ^ n ->
  good (constant (mkM n (f A B)) (mkT k n mn)) k n ((f A B) mod 2 ^ n).
Proof.
  intros Hn Hg Hf HA HB. pose proof (bitop_range f g A B n ltac:(lia) Hg Hf HA HB).
  rewrite Z.mod_small by lia. apply good_result_big; lia.
Qed.

Definition big_binop (op : binop) : bool :=
  match op with OBand | OBor | OBxor | OBclr | OMul | OAdd | OSub => true | _ => false end.

(* The big path reads its operands through inval (the adder, subtractor and
   multiplier circuits) or ubig() (the bit operators); the circuit reads inval. *)
Theorem fold_big_binop op k n ml mr x y :
  big_binop op = true -> 64 < n -> 0 < mbits x <= n -> 0 < mbits y <= n ->
  (match op with
   | OAdd | OSub => n - 1 <= Z.max (mbits x) (mbits y)
   | OMul => True
   | _ => ubig x = inval x /\ ubig y = inval y
   end) ->
  exists c, evalConst op (CI (mkT k n ml) x) (CI (mkT k n mr) y) = Ok c /\
    good c k n (snd (circuit_sem op k n (inval x) (inval y))).
Proof.
  intros Hop Hn Hx Hy Hside.
  pose proof (inval_range x ltac:(lia)) as HA. pose proof (inval_range y ltac:(lia)) as HB.
  pose proof (pow2_le (mbits x) n ltac:(lia)) as Hpx. pose proof (pow2_le (mbits y) n ltac:(lia)) as Hpy.
  assert (Hs : isSmall (mkM n 0) = false) by (apply Z.leb_gt; simpl; lia).
  assert (Hmx : Z.max n n = n) by lia.
  assert (Hmin : Z.min n (n + 1) = n) by lia.
  assert (Hp : 0 < 2 ^ n) by (apply pow2_pos; lia).
  assert (Hw : Z.max (Z.max (mbits x) (mbits y)) n = n) by lia.
  destruct op; try discriminate Hop; erewrite evalConst_arith by (reflexivity || simpl; lia);
    simpl tk; rewrite kind_eqb_refl; simpl tbits;
    unfold mAdd, mSub, mMul, mAnd, mOr, mXor, mAndNot, bigAddSub, bigMul; rewrite Hs; simpl mbits; rewrite ?Hw;
    try (assert (E : (Z.max (mbits x) (mbits y) + 1 <? n) = false) by (apply Z.ltb_ge; lia); rewrite E);
    try rewrite (proj1 Hside), (proj2 Hside);
    simpl; (eexists; split; [reflexivity|]);
    unfold circuit_sem, instr_sem; simpl snd; rewrite ?Hmx, ?Hmin.
  (* * + - : the circuit's result is reduced mod 2^n *)
  1-3: apply good_result_big; [lia|apply Z.mod_pos_bound; lia|lia].
  - apply good_bitop with (g := andb); try reflexivity; try lia; intros; apply Z.land_spec.
  - apply good_bitop with (g := orb); try reflexivity; try lia; intros; apply Z.lor_spec.
  - apply good_bitop with (g := xorb); try reflexivity; try lia; intros; apply Z.lxor_spec.
  - apply good_bitop with (g := fun p q => p && negb q); try reflexivity; try lia; intros; apply Z.ldiff_spec.
Qed.

(* the clearing loop of the big-path Lsh is "mod 2^w" on non-negative values *)
Lemma lsh_clear_nonneg w v : 0 <= w -> 0 <= v -> lsh_clear w v = v mod 2 ^ w.
Proof.
  intros Hw Hv. unfold lsh_clear, bitlen_abs.
  destruct (v =? 0) eqn:E0.
  - apply Z.eqb_eq in E0. subst v.
    assert (E : (0 <=? w) = true) by (apply Z.leb_le; lia). rewrite E.
    rewrite Z.mod_0_l; [reflexivity|]. pose proof (pow2_pos w Hw). lia.
  - apply Z.eqb_neq in E0. assert (Hpos : 0 < v) by lia.
    rewrite Z.abs_eq by lia.
    pose proof (Z.log2_spec v Hpos) as [_ Hlt]. pose proof (Z.log2_nonneg v) as Hl0.
    replace (Z.succ (Z.log2 v)) with (Z.log2 v + 1) in Hlt by lia.
    destruct (Z.log2 v + 1 <=? w) eqn:E; [apply Z.leb_le in E|apply Z.leb_gt in E].
    + symmetry. apply Z.mod_small. pose proof (pow2_le (Z.log2 v + 1) w ltac:(lia)). lia.
    + rewrite (Z.mod_small v (2 ^ (Z.log2 v + 1))) by lia. lia.
Qed.

Theorem fold_big_lsh k n ml tr x y A cnt :
  k <> KBool -> tk tr <> KBool -> 64 < n -> big x = A -> 0 <= A -> u64 (Int64 y) = cnt -> 0 <= cnt ->
  exists c, evalConst OLsh (CI (mkT k n ml) x) (CI tr y) = Ok c /\
    good c k n (snd (circuit_sem OLsh k n A cnt)).
Proof.
  intros Hk Hkr Hn HbA HA0 Hcnt Hc0.
  assert (HuA : ubig x = A) by (rewrite ubig_nonneg; lia).
  assert (Hs : isSmall (mkM n 0) = false) by (apply Z.leb_gt; simpl; lia).
  assert (Hp : 0 < 2 ^ n) by (apply pow2_pos; lia).
  assert (Hpc : 0 < 2 ^ cnt) by (apply pow2_pos; lia).
  rewrite (evalConst_shift OLsh mLsh) by (reflexivity || simpl; lia).
  simpl tk. rewrite !intlike_true by assumption. simpl tbits. cbn [andb].
  unfold mLsh. rewrite Hs, Hcnt, HuA. simpl mbits.
  rewrite lsh_clear_nonneg by nia. simpl.
  eexists; split; [reflexivity|]. unfold circuit_sem, instr_sem. simpl snd.
  apply good_result_big; [lia|apply Z.mod_pos_bound; lia|lia].
Qed.

Theorem fold_big_rsh k n ml tr x y A cnt :
  k <> KBool -> tk tr <> KBool -> 64 < n -> big x = A -> 0 <= A < 2 ^ mbits x -> 32 <= mbits x <= n ->
  A < nonneg_bound k n -> u64 (Int64 y) = cnt ->
  exists c, evalConst ORsh (CI (mkT k n ml) x) (CI tr y) = Ok c /\
    good c k n (snd (circuit_sem ORsh k n A cnt)).
Proof.
  intros Hk Hkr Hn HbA HA Hxb Hnb Hcnt.
  assert (Hc0 : 0 <= cnt) by (rewrite <- Hcnt; apply u64_range).
  assert (HuA : ubig x = A) by (rewrite ubig_nonneg; lia).
  assert (Hs : isSmall (mkM n 0) = false) by (apply Z.leb_gt; simpl; lia).
  assert (Hp : 0 < 2 ^ n) by (apply pow2_pos; lia).
  assert (Hpc : 0 < 2 ^ cnt) by (apply pow2_pos; lia).
  assert (HAn : A < 2 ^ n) by (pose proof (pow2_le (mbits x) n ltac:(lia)); lia).
  assert (Hsh : Z.shiftr A cnt = A / 2 ^ cnt) by (apply Z.shiftr_div_pow2; lia).
  assert (Hq : 0 <= A / 2 ^ cnt <= A) by (split; [apply Z.div_pos; lia|apply Z.div_le_upper_bound; nia]).
  rewrite (evalConst_shift ORsh mRsh) by (reflexivity || simpl; lia).
  simpl tk. rewrite !intlike_true by assumption. simpl tbits. cbn [andb].
  unfold mRsh. rewrite Hs, Hcnt, HuA. simpl.
  eexists; split; [reflexivity|]. unfold circuit_sem, instr_sem. simpl snd.
  assert (Hsg : (match k with KInt => sgn_at n A | _ => A end) = A).
  { destruct k; try congruence. simpl in Hnb. unfold sgn_at.
    assert (E : (A <? 2 ^ (n - 1)) = true) by (apply Z.ltb_lt; lia). rewrite E. reflexivity. }
  rewrite Hsg, Hsh. rewrite Z.mod_small by lia.
  apply good_result_big; [lia|lia|]. intros Hm. pose proof (pow2_le (mbits x) 64 ltac:(lia)). lia.
Qed.

Theorem fold_neg_small k N ml x A :
  1 <= N <= 64 -> (small x) mod 2 ^ N = A ->
  exists c, unaryMinus (CI (mkT k N ml) x) = Ok c /\ good c k N (snd (circuit_neg k N A)).
Proof.
  intros HN HA.
  assert (Hv : (- small x) mod 2 ^ N = snd (circuit_neg k N A)).
  { unfold circuit_neg, instr_sem. simpl snd. rewrite (Z.min_l N) by lia.
    rewrite <- HA, <- !Z.sub_0_l, (Zminus_mod 0 (small x)), (Zminus_mod 0 (small x mod 2 ^ N)), Zmod_mod. reflexivity. }
  rewrite <- Hv. apply ex_good_of_small, small_fold_sound; [assumption|apply Z.mod_pos_bound, pow2_pos; lia|].
  apply unaryMinus_small_eq; assumption.
Qed.

Theorem fold_neg_big k n ml x A :
  64 < n -> mbits x <= n -> inval x = A ->
  exists c, unaryMinus (CI (mkT k n ml) x) = Ok c /\ good c k n (snd (circuit_neg k n A)).
Proof.
  intros Hn Hxb HiA. rewrite unaryMinus_big_eq, HiA by assumption.
  eexists; split; [reflexivity|].
  unfold circuit_neg, instr_sem. simpl snd. rewrite (Z.min_l n) by lia.
  apply good_result_big; [lia|apply Z.mod_pos_bound, pow2_pos; lia|lia].
Qed.

Definition typedv (k : kind) (n a : Z) : res cval :=
  match k with KBool => Ok (CB (negb (a =? 0))) | _ => typed k n a end.
Definition rhs (op : binop) (k : kind) (n b : Z) : res cval :=
  if is_shift op then literal b else typedv k n b.
Definition target (op : binop) (k : kind) (n a b : Z) : kind * Z * Z :=
  circuit_sem op k n (a mod 2 ^ n) (if is_shift op then b else b mod 2 ^ n).
Definition goodt (c : cval) (s : kind * Z * Z) : Prop := good c (fst (fst s)) (snd (fst s)) (snd s).

Lemma count_int64 b : count_ok b = true ->
  0 <= b /\ literal b = Ok (CI (mkT KInt (cont b) (blen b)) (mkM (cont b) b)) /\
  u64 (Int64 (mkM (cont b) b)) = b.
Proof.
  intros H. unfold count_ok in H. b2p H. destruct H as [H H0].
  split; [assumption|]. split; [apply literal_repr; assumption|].
  rewrite cont_32, Int64_nonneg by (lia || left; reflexivity). apply Z.mod_small; lia.
Qed.

Lemma contv_bounds k n a : k <> KBool -> 0 < n <= 64 -> reprb k n a = true -> canon n a = true ->
  32 <= contv n a <= 64.
Proof.
  intros Hk Hn Hr Hc. unfold contv. destruct (a <? 0) eqn:E; [apply Z.ltb_lt in E|apply Z.ltb_ge in E].
  - destruct (neg_canon_small n a Hc E ltac:(lia)); lia.
  - pose proof (pow2_le n 64 ltac:(lia)).
    assert (a < 2 ^ 64).
    { destruct (reprb_spec k n a Hr Hk) as [[-> Hb]|[-> Hb]]; [lia|].
      pose proof (pow2_le (n - 1) 64 ltac:(lia)). lia. }
    destruct (cont_spec a E) as [_ [_ [? [H64 _]]]]. specialize (H64 H0). lia.
Qed.

Lemma reprb_nonneg k n v : k <> KBool -> 0 < n -> reprb k n v = true -> 0 <= v ->
  v mod 2 ^ n = v /\ v < nonneg_bound k n.
Proof.
  intros Hk Hn Hr Hv. pose proof (pow2_half n Hn).
  destruct (reprb_spec k n v Hr Hk) as [[-> Hb]|[-> Hb]]; simpl; (split; [apply Z.mod_small|]); lia.
Qed.

Lemma typedv_int k n a : k <> KBool -> typedv k n a = typed k n a.
Proof. destruct k; try congruence; reflexivity. Qed.

Lemma circuit_sem_shape op k n A B :
  circuit_sem op k n A B =
  (if is_cmp op || is_logic op then (KBool, 1) else (k, n), snd (circuit_sem op k n A B)).
Proof. unfold circuit_sem. destruct (is_cmp op || is_logic op), (is_shift op); reflexivity. Qed.

(* what the classifier demands of every non-boolean input; the last conjunct is
   its operator-specific part *)
Lemma fold_ok_class_inv op k n a b : k <> KBool -> fold_ok_class op k n a b = true ->
  0 < n /\ reprb k n a = true /\ canon n a = true /\
  (if is_shift op then count_ok b else reprb k n b && canon n b) = true /\
  (if n <=? 64 then
     match op with
     | OSub | OMul | OBand | OBor | OBxor | OBclr | OLsh => true
     | OAdd =>
         let M := Z.max (contv n a) (contv n b) in
         (M =? n) || ((0 <=? a) && (0 <=? b) && (a <? 2 ^ 63) && (b <? 2 ^ 63) &&
                      (a + b <? 2 ^ (Z.min M n)))
     | ODiv | OMod => (0 <=? a) && (0 <=? b) && (a <? 2 ^ 63) && (b <? 2 ^ 63)
     | ORsh => (0 <=? a) && (a <? 2 ^ 63)
     | OLt | OLe | OGt | OGe | OEq | ONeq => cmp_exact n a && cmp_exact n b
     | OLand | OLor => false
     end
   else
     match op with
     | OBand | OBor | OBxor | OBclr | OMul | OLsh => true
     | OAdd | OSub => n - 1 <=? Z.max (contv n a) (contv n b)
     | ORsh => 0 <=? a
     | OLt | OLe | OGt | OGe | OEq | ONeq => cmp_exact n a && cmp_exact n b
     | ODiv | OMod | OLand | OLor => false
     end) = true.
Proof.
  intros Hk H. unfold fold_ok_class in H.
  destruct k; try congruence;
    apply andb_true_iff in H; destruct H as [H H5];
    apply andb_true_iff in H; destruct H as [H H4];
    apply andb_true_iff in H; destruct H as [H H3];
    apply andb_true_iff in H; destruct H as [H1 H2];
    apply Z.ltb_lt in H1; exact (conj H1 (conj H2 (conj H3 (conj H4 H5)))).
Qed.

Lemma class_operands op k n a b : k <> KBool -> fold_ok_class op k n a b = true ->
  typedv k n a = Ok (CI (mkT k n (tmv n a)) (rep n a)) /\
  rhs op k n b = Ok (if is_shift op then CI (mkT KInt (cont b) (blen b)) (mkM (cont b) b)
                     else CI (mkT k n (tmv n b)) (rep n b)).
Proof.
  intros Hk H. destruct (fold_ok_class_inv op k n a b Hk H) as (Hn0 & Hra & Hca & H4 & _).
  unfold rhs. rewrite !typedv_int by assumption. split; [apply typed_repr; assumption|].
  destruct (is_shift op).
  - apply count_int64; assumption.
  - b2p H4. apply typed_repr; tauto.
Qed.

Lemma sound_intro op k n a b : k <> KBool -> fold_ok_class op k n a b = true ->
  (exists c,
     evalConst op (CI (mkT k n (tmv n a)) (rep n a))
       (if is_shift op then CI (mkT KInt (cont b) (blen b)) (mkM (cont b) b)
        else CI (mkT k n (tmv n b)) (rep n b)) = Ok c /\
     good c (if is_cmp op || is_logic op then KBool else k) (if is_cmp op || is_logic op then 1 else n)
       (snd (circuit_sem op k n (a mod 2 ^ n) (if is_shift op then b else b mod 2 ^ n)))) ->
  exists l r c, typedv k n a = Ok l /\ rhs op k n b = Ok r /\ evalConst op l r = Ok c /\
    goodt c (target op k n a b).
Proof.
  intros Hk H [c [Hc Hg]]. destruct (class_operands op k n a b Hk H) as [Hl Hr].
  do 3 eexists. split; [exact Hl|]. split; [exact Hr|]. split; [exact Hc|].
  unfold goodt, target. rewrite circuit_sem_shape. destruct (is_cmp op || is_logic op); exact Hg.
Qed.

Theorem sound_cmp op k n a b :
  is_cmp op = true -> k <> KBool -> fold_ok_class op k n a b = true ->
  exists l r c, typedv k n a = Ok l /\ rhs op k n b = Ok r /\ evalConst op l r = Ok c /\
    goodt c (target op k n a b).
Proof.
  intros Hop Hk H. apply sound_intro; [assumption..|].
  destruct (fold_ok_class_inv op k n a b Hk H) as (Hn0 & Hra & Hca & H4 & H5).
  assert (Esh : is_shift op = false) by (destruct op; try discriminate Hop; reflexivity).
  assert (Hx : cmp_exact n a && cmp_exact n b = true)
    by (destruct (n <=? 64), op; try discriminate Hop; exact H5).
  rewrite Esh in *. rewrite Hop. cbn [orb]. b2p H4. b2p Hx. destruct H4 as [Hrb Hcb], Hx as [Hea Heb].
  destruct (rep_int64 k n a Hk Hn0 Hra Hca Hea) as [Sa Ia], (rep_int64 k n b Hk Hn0 Hrb Hcb Heb) as [Sb Ib].
  apply fold_cmp_exact; assumption.
Qed.

Theorem sound_small op k n a b :
  is_cmp op = false -> k <> KBool -> n <= 64 -> fold_ok_class op k n a b = true ->
  exists l r c, typedv k n a = Ok l /\ rhs op k n b = Ok r /\ evalConst op l r = Ok c /\
    goodt c (target op k n a b).
Proof.
  intros Hop Hk Hn64 H. apply sound_intro; [assumption..|].
  destruct (fold_ok_class_inv op k n a b Hk H) as (Hn0 & Hra & Hca & H4 & H5).
  rewrite (proj2 (Z.leb_le n 64) Hn64) in H5.
  assert (Ecl : is_cmp op || is_logic op = false)
    by (destruct op; try discriminate Hop; try discriminate H5; reflexivity).
  rewrite Ecl. assert (HN : 1 <= n <= 64) by lia.
  destruct (rep_small k n a Hk ltac:(lia) Hra) as [Hxa Hsa].
  pose proof (contv_bounds k n a Hk ltac:(lia) Hra Hca) as Hcva.
  destruct (is_shift op) eqn:Esh.
  - destruct (count_int64 b H4) as [Hb0 [_ Hcnt]].
    destruct op; try discriminate Esh.
    + apply fold_lsh_small; try assumption; simpl; congruence.
    + b2p H5. destruct (reprb_nonneg k n a Hk Hn0 Hra ltac:(lia)) as [-> Hbound].
      apply ex_good_of_small, fold_rsh_nonneg; try assumption; try lia; [simpl; congruence|].
      apply rep_mval; lia.
  - b2p H4. destruct H4 as [Hrb Hcb].
    destruct (rep_small k n b Hk ltac:(lia) Hrb) as [Hxb Hsb].
    pose proof (contv_bounds k n b Hk ltac:(lia) Hrb Hcb) as Hcvb.
    destruct (ring_like op) eqn:Er.
    + apply ex_good_of_small, fold_ring_small; try assumption;
        do 2 eexists; repeat split; try reflexivity; assumption.
    + destruct op; try discriminate Esh; try discriminate Er; try discriminate Hop; try discriminate H5; b2p H5.
      { (* + *)
        destruct H5 as [HM|Hno].
        - apply ex_good_of_small, fold_add_small; assumption.
        - destruct (reprb_nonneg k n a Hk Hn0 Hra ltac:(lia)) as [-> _].
          destruct (reprb_nonneg k n b Hk Hn0 Hrb ltac:(lia)) as [-> _].
          apply (fold_add_nooverflow k n _ _ (rep n a) (rep n b) a b HN Hcva Hcvb
                   (rep_mval n a ltac:(lia)) (rep_mval n b ltac:(lia)) ltac:(lia) ltac:(lia) (proj2 Hno)). }
      (* / and % *)
      all: destruct (reprb_nonneg k n a Hk Hn0 Hra ltac:(lia)) as [-> Ba].
      all: destruct (reprb_nonneg k n b Hk Hn0 Hrb ltac:(lia)) as [-> Bb].
      all: apply ex_good_of_small, fold_divmod_nonneg; auto; try lia; apply rep_mval; lia.
Qed.

Theorem sound_big op k n a b :
  is_cmp op = false -> k <> KBool -> 64 < n -> fold_ok_class op k n a b = true ->
  exists l r c, typedv k n a = Ok l /\ rhs op k n b = Ok r /\ evalConst op l r = Ok c /\
    goodt c (target op k n a b).
Proof.
  intros Hop Hk Hn64 H. apply sound_intro; [assumption..|].
  destruct (fold_ok_class_inv op k n a b Hk H) as (Hn0 & Hra & Hca & H4 & H5).
  rewrite (proj2 (Z.leb_gt n 64) Hn64) in H5.
  assert (Ecl : is_cmp op || is_logic op = false)
    by (destruct op; try discriminate Hop; try discriminate H5; reflexivity).
  rewrite Ecl.
  destruct (rep_big k n a Hk Hn64 Hra) as [Hxa [Hba [HAa Hia]]].
  assert (HpA : 0 <= a mod 2 ^ n < 2 ^ n) by (apply Z.mod_pos_bound, pow2_pos; lia).
  destruct (is_shift op) eqn:Esh.
  - destruct (count_int64 b H4) as [Hb0 [_ Hcnt]].
    destruct op; try discriminate Esh.
    + apply fold_big_lsh; try assumption; try lia; simpl; congruence.
    + b2p H5. apply fold_big_rsh; try assumption; try (simpl; congruence).
      destruct (reprb_nonneg k n a Hk Hn0 Hra H5) as [-> Hbound]. exact Hbound.
  - b2p H4. destruct H4 as [Hrb Hcb].
    destruct (rep_big k n b Hk Hn64 Hrb) as [Hxb [Hbb [HAb Hib]]].
    assert (HpB : 0 <= b mod 2 ^ n < 2 ^ n) by (apply Z.mod_pos_bound, pow2_pos; lia).
    assert (Hbo : big_binop op = true)
      by (destruct op; try discriminate Esh; try discriminate Hop; try discriminate H5; reflexivity).
    rewrite <- Hia, <- Hib. apply fold_big_binop; try assumption; try lia.
    destruct op; try discriminate Hbo; try exact I; try (apply Z.leb_le; exact H5);
      rewrite !ubig_nonneg by lia; rewrite Hia, Hib, Hba, Hbb; split; reflexivity.
Qed.

Theorem sound_bool op a b : fold_ok_class op KBool 1 a b = true ->
  exists l r c, typedv KBool 1 a = Ok l /\ rhs op KBool 1 b = Ok r /\ evalConst op l r = Ok c /\
    goodt c (target op KBool 1 a b).
Proof.
  intros H. unfold fold_ok_class in H.
  assert (Hab : (a = 0 \/ a = 1) /\ (b = 0 \/ b = 1) /\ (op = OEq \/ op = ONeq \/ op = OLand \/ op = OLor)).
  { destruct op; try discriminate H; simpl in H; b2p H; tauto. }
  destruct Hab as [[-> | ->] [[-> | ->] [-> | [-> | [-> | ->]]]]];
    do 3 eexists; (split; [reflexivity|]); (split; [reflexivity|]); (split; [reflexivity|]);
    vm_compute; repeat split; discriminate.
Qed.

(* C12_fold_ok_class_sound.  On every input the classifier accepts — every
   operator, both signednesses and bool, every width, every value — the operands
   T(a) / -T(|a|) exist, the folder answers, and the folded constant has the
   circuit's result kind, exactly the circuit's output bits as wires, is
   assignable to the declared type, and (declared width 32 or >= 64) has exactly
   the declared width. *)
Theorem fold_ok_class_sound op k n a b : fold_ok_class op k n a b = true ->
  exists l r c, typedv k n a = Ok l /\ rhs op k n b = Ok r /\ evalConst op l r = Ok c /\
    goodt c (target op k n a b).
Proof.
  intros H. destruct (kind_eqb k KBool) eqn:E.
  - assert (k = KBool) by (destruct k; try discriminate; reflexivity). subst k.
    assert (n = 1).
    { unfold fold_ok_class in H. destruct op; try discriminate H; b2p H; lia. }
    subst n. apply sound_bool; assumption.
  - assert (Hk : k <> KBool) by (intros ->; discriminate).
    destruct (is_cmp op) eqn:Ec; [apply sound_cmp; assumption|].
    destruct (Z_le_gt_dec n 64); [apply sound_small|apply sound_big]; try assumption; lia.
Qed.

Lemma evalConst_bool op l r c : is_cmp op || is_logic op = true -> evalConst op l r = Ok c ->
  exists b, c = CB b.
Proof.
  intros E. unfold evalConst, resultTypeCC. rewrite E. simpl.
  destruct l, r, op; try discriminate E; simpl; intros H; try discriminate H;
    injection H as <-; eexists; reflexivity.
Qed.

(* exact class: the program-visible triple (kind, Type.Bits, wires) IS the circuit's *)
Theorem fold_exact_class_sound op k n a b : fold_exact_class op k n a b = true ->
  exists l r c, typedv k n a = Ok l /\ rhs op k n b = Ok r /\ evalConst op l r = Ok c /\
    seen c = target op k n a b /\ tmin (ctype c) <= snd (fst (target op k n a b)).
Proof.
  intros H. unfold fold_exact_class in H. apply andb_true_iff in H. destruct H as [Hok Hex].
  destruct (fold_ok_class_sound op k n a b Hok) as (l & r & c & Hl & Hr & Hc & G1 & G2 & G3 & G4).
  exists l, r, c. split; [exact Hl|]. split; [exact Hr|]. split; [exact Hc|]. split; [|exact G3].
  unfold seen. unfold target in *. rewrite circuit_sem_shape in *.
  destruct (is_cmp op || is_logic op) eqn:Ecl; simpl fst in *; simpl snd in *.
  - destruct (evalConst_bool op l r c Ecl Hc) as [bb ->]. simpl in *. rewrite <- G2. reflexivity.
  - assert (Hw : n = 32 \/ 64 <= n) by (simpl in Hex; b2p Hex; lia).
    rewrite (G4 Hw), G1, G2. reflexivity.
Qed.

Theorem neg_ok_class_sound k n a : neg_ok_class k n a = true ->
  exists l c, typed k n a = Ok l /\ unaryMinus l = Ok c /\
    good c k n (snd (circuit_neg k n (a mod 2 ^ n))).
Proof.
  intros H. unfold neg_ok_class in H.
  apply andb_true_iff in H; destruct H as [H Hca].
  apply andb_true_iff in H; destruct H as [H Hra].
  apply andb_true_iff in H; destruct H as [Hk Hn0].
  assert (Hk' : k <> KBool) by (intros ->; discriminate). apply Z.ltb_lt in Hn0.
  rewrite (typed_repr k n a Hk' Hra Hca).
  destruct (Z_le_gt_dec n 64).
  - destruct (rep_small k n a Hk' ltac:(lia) Hra) as [_ Hs].
    destruct (fold_neg_small k n (tmv n a) (rep n a) (a mod 2 ^ n) ltac:(lia) Hs) as [c [Hc Hg]].
    do 2 eexists. split; [reflexivity|]. split; [exact Hc|exact Hg].
  - destruct (rep_big k n a Hk' ltac:(lia) Hra) as [Hxa [_ [_ Hia]]].
    destruct (fold_neg_big k n (tmv n a) (rep n a) (a mod 2 ^ n) ltac:(lia) ltac:(lia) Hia) as [c [Hc Hg]].
    do 2 eexists. split; [reflexivity|]. split; [exact Hc|exact Hg].
Qed.

Theorem not_sound b : exists c, unaryNot (CB b) = Ok c /\
  seen c = (KBool, 1, 1 - (if b then 1 else 0)).
Proof. eexists; split; [reflexivity|]. destruct b; reflexivity. Qed.

(* Same name = same printed value [mval].  For constants produced by
   Generator.Constant the container is a function of that value, so two constants
   of one name carry the same mpa.Int.  (A small mpa.Int holds a 64-bit value; a
   big one is never negative — both are invariants of mpint.go.) *)
Definition fits (v : mint) : Prop :=
  (isSmall v = true -> - 2 ^ 63 <= mval v < 2 ^ 64) /\ (isSmall v = false -> 0 <= mval v).

Lemma BitLen_container v1 v2 : fits v1 -> fits v2 -> mval v1 = mval v2 ->
  contb (BitLen v1) = contb (BitLen v2).
Proof.
  intros [F1 G1] [F2 G2] He. unfold BitLen, small, big.
  destruct (isSmall v1) eqn:E1, (isSmall v2) eqn:E2; rewrite <- ?He; try reflexivity.
  - specialize (F1 eq_refl). specialize (G2 eq_refl). rewrite <- He in G2.
    rewrite u64_wrap. unfold u64. rewrite Z.mod_small by lia. apply contb_bl; assumption.
  - specialize (F2 eq_refl). specialize (G1 eq_refl). rewrite <- He in F2.
    rewrite u64_wrap. unfold u64. rewrite Z.mod_small by lia. symmetry. apply contb_bl; assumption.
Qed.

Theorem same_name_same_mint v1 v2 t1 t2 : fits v1 -> fits v2 -> mval v1 = mval v2 ->
  exists m t1' t2', constant v1 t1 = CI t1' m /\ constant v2 t2 = CI t2' m /\
    cname (constant v1 t1) = cname (constant v2 t2).
Proof.
  intros F1 F2 He. pose proof (BitLen_container v1 v2 F1 F2 He) as Hc. unfold contb in Hc.
  unfold constant. rewrite Hc, He. do 3 eexists. repeat split.
Qed.

Lemma BitLen_nonneg m : 0 <= BitLen m.
Proof.
  unfold BitLen. destruct (isSmall m); [lia|].
  unfold bitlen_abs. destruct (big m =? 0); [lia|]. pose proof (Z.log2_nonneg (Z.abs (big m))). lia.
Qed.

(* What a consumer receives from the shared entry.  c1 = CI t1 m is the constant
   registered first under the name, CI t2 m a later constant of the same name;
   Generator.Constant guarantees BitLen m <= Type.Bits of the entry.  Unless the
   consumer's constant is a WIDER intN and the entry's top wire is 1 (then the
   shared wires are sign-extended: finding F6k), the consumer receives exactly
   the wires its own constant denotes. *)
Theorem shared_wires_partial tbl t1 t2 m :
  tlookup (mval m) tbl = Some (CI t1 m) -> 0 <= tbits t2 -> BitLen m <= tbits t1 ->
  ~ (tk t2 = KInt /\ tbits t1 < tbits t2 /\ Z.testbit (const_wires (CI t1 m)) (tbits t1 - 1) = true) ->
  lookup_wires tbl (CI t2 m) = const_wires (CI t2 m).
Proof.
  intros Hl Hw2 HL Hno. unfold lookup_wires. rewrite Hl. unfold extend_wires.
  pose proof (BitLen_nonneg m) as HL0.
  set (X := if isSmall m then small m else big m).
  assert (C1 : const_wires (CI t1 m) = X mod 2 ^ BitLen m)
    by (unfold const_wires; fold X; rewrite Z.min_r by lia; reflexivity).
  assert (C2 : const_wires (CI t2 m) = X mod 2 ^ Z.min (tbits t2) (BitLen m)) by reflexivity.
  simpl ctype. rewrite C2.
  destruct (tbits t1 =? tbits t2) eqn:E1; [apply Z.eqb_eq in E1|apply Z.eqb_neq in E1].
  - rewrite C1. rewrite Z.min_r by lia. reflexivity.
  - destruct (tbits t2 <? tbits t1) eqn:E2; [apply Z.ltb_lt in E2|apply Z.ltb_ge in E2].
    + rewrite C1. destruct (Z_le_gt_dec (BitLen m) (tbits t2)) as [Hc|Hc].
      * rewrite Z.min_r by lia.
        pose proof (Z.mod_pos_bound X (2 ^ BitLen m) ltac:(apply pow2_pos; lia)).
        pose proof (pow2_le (BitLen m) (tbits t2) ltac:(lia)).
        apply Z.mod_small; lia.
      * rewrite Z.min_l by lia. apply mod_mod_pow2; lia.
    + destruct (kind_eqb (tk t2) KInt && (0 <? tbits t1) && Z.testbit (const_wires (CI t1 m)) (tbits t1 - 1)) eqn:E3.
      * exfalso. apply Hno. apply andb_true_iff in E3. destruct E3 as [E3 E5].
        apply andb_true_iff in E3. destruct E3 as [E3 E4].
        split; [destruct (tk t2); try discriminate; reflexivity|]. split; [lia|exact E5].
      * rewrite C1. rewrite Z.min_r by lia. reflexivity.
Qed.

(* ... and the exception is real: uint32(0x40000000)+uint32(0x40000000) registered
   first, int64(0x40000000)+int64(0x40000000) consumed later: both folds are in the
   exact class, both constants are named 2147483648, and the second one is seen as
   0xffffffff80000000. *)
Theorem shared_constant_refuted :
  exists c1 c2,
    fold_exact_class OAdd KUint 32 (2 ^ 30) (2 ^ 30) = true /\
    fold_exact_class OAdd KInt 64 (2 ^ 30) (2 ^ 30) = true /\
    (do l <- typed KUint 32 (2 ^ 30); evalConst OAdd l l) = Ok c1 /\
    (do l <- typed KInt 64 (2 ^ 30); evalConst OAdd l l) = Ok c2 /\
    cname c1 = cname c2 /\
    const_wires c2 = 2 ^ 31 /\
    lookup_wires (intern (intern [] c1) c2) c2 = 2 ^ 64 - 2 ^ 31.
Proof.
  (* not [repeat split]: it would also split the equations, comparing their sides
     by unification before vm_compute gets to them *)
  do 2 eexists. do 6 (split; [vm_compute; reflexivity|]). vm_compute; reflexivity.
Qed.

Example multi_f6k :
  run_multi [ mkItem KUint 32 (EBin OAdd (ECast KUint 32 (ELit (2 ^ 30))) (ECast KUint 32 (ELit (2 ^ 30)))) 1 0;
              mkItem KInt 64 (EBin OAdd (ECast KInt 64 (ELit (2 ^ 30))) (ECast KInt 64 (ELit (2 ^ 30)))) 1 0 ]
  = Ok ([2 ^ 31; 2 ^ 31; 2 ^ 31; 2 ^ 31], [2 ^ 31; 2 ^ 64 - 2 ^ 31]).
Proof. vm_compute. reflexivity. Qed.


(* T(A) for every T carries the same mpa.Int (a cast copies the ssa.Value and
   shares the *mpa.Int): uint32(A) and uint64(A) differ in the declared type only *)
Theorem casts_share_the_mint k1 n1 k2 n2 a : 0 <= a ->
  exists t1 t2 m, operand k1 n1 a = Ok (CI t1 m) /\ operand k2 n2 a = Ok (CI t2 m).
Proof. intros Ha. rewrite !operand_repr by assumption. do 3 eexists. split; reflexivity. Qed.

(* ... and the fold of those operands depends on the declared type: A = B = 100000,
   a * b is 1410065408 at uint32 and 10000000000 at uint64.  Hence no function of
   the operator and the operand mpa.Int objects alone (a memo keyed by them) can
   agree with the folder: Binary.Eval is a function of the TYPED operands. *)
Example mul_at_two_types :
  exists m t32 t64,
    operand KUint 32 100000 = Ok (CI t32 m) /\ operand KUint 64 100000 = Ok (CI t64 m) /\
    (do c <- evalConst OMul (CI t32 m) (CI t32 m); Ok (const_wires c)) = Ok 1410065408 /\
    (do c <- evalConst OMul (CI t64 m) (CI t64 m); Ok (const_wires c)) = Ok 10000000000.
Proof. do 3 eexists. do 3 (split; [vm_compute; reflexivity|]). vm_compute; reflexivity. Qed.

Theorem fold_needs_the_operand_types :
  ~ exists memo : binop -> mint -> mint -> res cval,
      forall op t1 t2 m1 m2, evalConst op (CI t1 m1) (CI t2 m2) = memo op m1 m2.
Proof.
  intros [memo H].
  pose (m := mkM 32 100000).
  pose (t32 := mkT KUint 32 17). pose (t64 := mkT KUint 64 17).
  pose proof (H OMul t32 t32 m m) as H1. pose proof (H OMul t64 t64 m m) as H2.
  rewrite <- H2 in H1. vm_compute in H1. discriminate H1.
Qed.

(* In the model every call of the helper is folded on its own: the values the
   calls produce do not depend on the constant table, the names emitted so far
   or the calls before — only on each call's own typed operands. *)
Theorem calls_fold_independently calls : forall tbl names t n ps,
  reg_calls calls tbl names = Ok (t, n, ps) ->
  res_map (fun c => do v <- eval (cex c); consumer_prep (item_of_call c) v) calls = Ok ps.
Proof.
  induction calls as [|c rest IH]; intros tbl names t n ps H; simpl in H |- *.
  - inversion H. reflexivity.
  - destruct (res_map eval (cargs c)) as [avals| |]; simpl in H; try discriminate.
    destruct (eval (cex c)) as [v| |]; simpl in H |- *; try discriminate.
    destruct (consumer_prep (item_of_call c) v) as [p| |]; simpl in H |- *; try discriminate.
    destruct (reg_calls rest _ _) as [[[t' n'] ps']| |] eqn:E; simpl in H; try discriminate.
    inversion H; subst. rewrite (IH _ _ _ _ _ E). reflexivity.
Qed.
