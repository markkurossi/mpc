(* C03: the lowering scheme of Lang/Lower.v implements the reference semantics
   of Lang/Mini.v:  eval_ssa (lower p) inp = exec_mini p inp. *)
From Coq Require Import ZArith NArith List Bool Lia.
From Mpc Require Import Lang.Mini Lang.Ssa Lang.MiniFacts Lang.Lower.
Import ListNotations.
Local Open Scope nat_scope.

Lemma run_code_app a b vs : run_code (a ++ b) vs = run_code b (run_code a vs).
Proof. unfold run_code. apply fold_left_app. Qed.

Lemma run_code_extends c : forall vs,
  exists tail, run_code c vs = vs ++ tail /\ length tail = length c.
Proof.
  induction c as [|i c IH]; intro vs.
  - exists []. simpl. rewrite app_nil_r. auto.
  - simpl. destruct (IH (step vs i)) as [t [E L]].
    unfold run_code in *. rewrite E. unfold step. rewrite <- app_assoc.
    eexists. split; [reflexivity|]. simpl. rewrite L. reflexivity.
Qed.

Definition wfo (n : nat) (o : opnd) : Prop :=
  match o with OVar i _ => i < n | OConst _ _ _ => True end.

Definition ok (vs : list sval) (o : opnd) (v : N) : Prop :=
  opnd_val vs o = v /\ wfo (length vs) o.

Lemma opnd_val_app vs t o : wfo (length vs) o -> opnd_val (vs ++ t) o = opnd_val vs o.
Proof.
  destruct o as [i ty|cw cv ty]; simpl; intro H; [|reflexivity].
  rewrite app_nth1 by exact H. reflexivity.
Qed.

Lemma ok_app vs t o v : ok vs o v -> ok (vs ++ t) o v.
Proof.
  intros [H1 H2]. split.
  - rewrite opnd_val_app by exact H2. exact H1.
  - destruct o; simpl in *; [rewrite app_length; lia|exact I].
Qed.

Lemma Forall2_ok_app vs t os vals : Forall2 (ok vs) os vals -> Forall2 (ok (vs ++ t)) os vals.
Proof. induction 1; constructor; auto using ok_app. Qed.

Inductive env_ok (vs : list sval) : cenv -> env -> tenv -> Prop :=
| EO_nil : env_ok vs [] [] []
| EO_cons x o v w ce en G :
    ok vs o v -> opnd_bits o = w -> env_ok vs ce en G ->
    env_ok vs ((x, o) :: ce) ((x, v) :: en) ((x, w) :: G).

Lemma env_ok_app vs t ce en G : env_ok vs ce en G -> env_ok (vs ++ t) ce en G.
Proof. induction 1; constructor; auto using ok_app. Qed.

Lemma env_ok_lookup vs ce en G x w :
  env_ok vs ce en G -> tlookup x G = Some w ->
  ok vs (clookup x ce) (lookup x en) /\ opnd_bits (clookup x ce) = w.
Proof.
  induction 1; simpl; intro T; [discriminate|].
  destruct (Nat.eqb x x0); [inversion T; subst; auto|auto].
Qed.

Lemma env_ok_update vs ce en G x o v w :
  env_ok vs ce en G -> tlookup x G = Some w -> ok vs o v -> opnd_bits o = w ->
  env_ok vs (cupdate x o ce) (update x v en) G.
Proof.
  induction 1; simpl; intros T Ho Hb; [constructor|].
  destruct (Nat.eqb x x0) eqn:E.
  - inversion T; subst. constructor; auto.
  - constructor; auto.
Qed.

Lemma env_ok_length vs ce en G : env_ok vs ce en G -> length ce = length en /\ length ce = length G.
Proof. induction 1; simpl; [auto|]. destruct IHenv_ok. split; congruence. Qed.

Lemma env_ok_skipn vs k ce en G : env_ok vs ce en G -> env_ok vs (skipn k ce) (skipn k en) (skipn k G).
Proof.
  intro H. revert k. induction H; intro k; destruct k; simpl; try constructor; auto.
Qed.

Lemma opt_is_true o w : opt_is o w = true -> o = Some w.
Proof. destruct o; simpl; [|discriminate]. intro H. apply Nat.eqb_eq in H. congruence. Qed.

Lemma if_opt_is {A} o w (x y : A) : (if opt_is o w then Some x else None) = Some y -> o = Some w /\ x = y.
Proof. destruct (opt_is o w) eqn:E; [|discriminate]. intros H. split; [apply opt_is_true, E | congruence]. Qed.

Lemma opnd_const_kconst k : opnd_const (kconst k) = k.
Proof. unfold kconst, opnd_const. apply Nat2N.id. Qed.

Lemma s_bits_res_sty op t : s_bits (res_sty op t) = res_width op (width t).
Proof. unfold res_sty, res_width. destruct (is_cmp op || is_logical op); reflexivity. Qed.

Lemma eval_bin_instr op sg vs oa ob out aux :
  eval_instr vs (mkInstr (opcode_of op sg) [oa; ob] out aux)
  = arith op sg (Nat.max (opnd_bits oa) (opnd_bits ob)) (opnd_val vs oa) (opnd_val vs ob).
Proof. destruct op, sg; reflexivity. Qed.

Lemma eval_sub_instr (sg : bool) vs oa ob out aux :
  eval_instr vs (mkInstr (if sg then Oisub else Ousub) [oa; ob] out aux)
  = arith Sub sg (Nat.max (opnd_bits oa) (opnd_bits ob)) (opnd_val vs oa) (opnd_val vs ob).
Proof. exact (eval_bin_instr Sub sg vs oa ob out aux). Qed.

Lemma const0_val vs t : opnd_val vs (OConst (width t) 0 (sty_of t)) = 0%N.
Proof. unfold opnd_val, sty_of. rewrite resize_same. apply norm_0. Qed.
Lemma const0_bits t : opnd_bits (OConst (width t) 0 (sty_of t)) = width t.
Proof. reflexivity. Qed.

(* Everything a generator of Lower.v is given keeps holding after any further
   code, so the lowering lemmas are stated about [run_code c vs] itself, the
   next free value number being [length (run_code c vs)]. *)
Lemma run_code_len c vs : length (run_code c vs) = length vs + length c.
Proof. destruct (run_code_extends c vs) as [t [-> L]]. rewrite app_length. lia. Qed.

Lemma ok_run c vs o v : ok vs o v -> ok (run_code c vs) o v.
Proof. destruct (run_code_extends c vs) as [t [-> _]]. apply ok_app. Qed.

Lemma Forall2_ok_run c vs os vals : Forall2 (ok vs) os vals -> Forall2 (ok (run_code c vs)) os vals.
Proof. destruct (run_code_extends c vs) as [t [-> _]]. apply Forall2_ok_app. Qed.

Lemma env_ok_run c vs ce en G : env_ok vs ce en G -> env_ok (run_code c vs) ce en G.
Proof. destruct (run_code_extends c vs) as [t [-> _]]. apply env_ok_app. Qed.

Lemma emit1_ok vs op args out aux c o v :
  emit1 (length vs) op args out aux = (c, o) ->
  norm (s_bits out) (eval_instr vs (mkInstr op args out aux)) = v ->
  ok (run_code c vs) o v /\ opnd_bits o = s_bits out.
Proof.
  unfold emit1. intros E V. inversion E; subst; clear E. split; [|reflexivity].
  unfold run_code. cbn [fold_left]. unfold step. cbn [i_out]. split.
  - cbn [opnd_val]. rewrite nth_middle. destruct out as [sg w]. cbn [s_bits].
    rewrite resize_same. apply norm_norm.
  - cbn [wfo]. rewrite app_length. cbn [length]. lia.
Qed.

Opaque emit1.

(* an operator with one run-time operand: the code ca of the operand, then one
   instruction whose arguments mention the operand's value oa *)
Lemma unary_run (lsub : nat -> list instr * opnd) {va wa vs op} {args : opnd -> list opnd} {out aux c o v} :
  (forall ca oa, lsub (length vs) = (ca, oa) -> ok (run_code ca vs) oa va /\ opnd_bits oa = wa) ->
  (let '(ca, oa) := lsub (length vs) in
   let '(ci, o) := emit1 (length vs + length ca) op (args oa) out aux in (ca ++ ci, o)) = (c, o) ->
  (forall vs' oa, opnd_val vs' oa = va -> opnd_bits oa = wa ->
     norm (s_bits out) (eval_instr vs' (mkInstr op (args oa) out aux)) = v) ->
  ok (run_code c vs) o v /\ opnd_bits o = s_bits out.
Proof.
  intros IH HL V. destruct (lsub (length vs)) as [ca oa] eqn:La.
  destruct (IH _ _ eq_refl) as [[O1 _] B1].
  destruct (emit1 _ _ _ _ _) as [ci o'] eqn:Ei in HL. injection HL as <- <-.
  rewrite <- run_code_len in Ei. rewrite run_code_app.
  apply (emit1_ok _ _ _ _ _ _ _ _ Ei), V; assumption.
Qed.

Theorem lower_expr_run : forall e ce en G vs wd,
  env_ok vs ce en G -> wt_expr G e = Some wd ->
  forall c o, lower_expr ce e (length vs) = (c, o) ->
  ok (run_code c vs) o (eval e en) /\ opnd_bits o = wd.
Proof.
  induction e; intros ce en G vs wd HE HT c o HL; simpl in HT, HL.
  - (* EVar *)
    inversion HL; subst. exact (env_ok_lookup _ _ _ _ _ _ HE HT).
  - (* ELit *)
    inversion HL; subst. inversion HT; subst. split; [|reflexivity]. split; [|exact I].
    simpl. unfold sty_of. rewrite resize_same. apply norm_norm.
  - (* EBin *)
    destruct (opt_is (wt_expr G e1) (width t)) eqn:T1; [|discriminate].
    destruct (opt_is (wt_expr G e2) (width t)) eqn:T2; [|discriminate].
    simpl in HT.
    destruct (negb (is_logical op) || Nat.eqb (width t) 1); [|discriminate].
    inversion HT; subst; clear HT. apply opt_is_true in T1. apply opt_is_true in T2.
    destruct (lower_expr ce e1 (length vs)) as [ca oa] eqn:La.
    destruct (IHe1 _ _ _ _ _ HE T1 _ _ La) as [O1 B1].
    rewrite <- (run_code_len ca vs) in HL.
    destruct (lower_expr ce e2 (length (run_code ca vs))) as [cb ob] eqn:Lb.
    destruct (IHe2 _ _ _ _ _ (env_ok_run ca _ _ _ _ HE) T2 _ _ Lb) as [[O2 _] B2].
    destruct (ok_run cb _ _ _ O1) as [O1' _].
    rewrite <- run_code_len in HL.
    destruct (emit1 _ _ _ _ _) as [ci o'] eqn:Ei in HL. inversion HL; subst; clear HL.
    rewrite !run_code_app, <- s_bits_res_sty. apply (emit1_ok _ _ _ _ _ _ _ _ Ei).
    rewrite eval_bin_instr, B1, B2, Nat.max_id, s_bits_res_sty, O1', O2. apply arith_norm.
  - (* ENeg *)
    apply if_opt_is in HT as [T1 <-].
    apply (unary_run (lower_expr ce e) (IHe _ _ _ _ _ HE T1) HL). intros vs' oa O1 B1.
    rewrite eval_sub_instr, O1, B1, const0_val, const0_bits, Nat.max_id. apply (arith_norm Sub).
  - (* ENot *)
    apply if_opt_is in HT as [T1 <-].
    apply (unary_run (lower_expr ce e) (IHe _ _ _ _ _ HE T1) HL). intros vs' oa O1 B1.
    rewrite eval_not, O1. reflexivity.
  - (* EShl *)
    apply if_opt_is in HT as [T1 <-].
    apply (unary_run (lower_expr ce e) (IHe _ _ _ _ _ HE T1) HL). intros vs' oa O1 B1.
    rewrite eval_lshift, O1, B1, opnd_const_kconst. apply norm_norm.
  - (* EShr *)
    apply if_opt_is in HT as [T1 <-].
    apply (unary_run (lower_expr ce e) (IHe _ _ _ _ _ HE T1) HL). intros vs' oa O1 B1.
    rewrite eval_rshift, O1, B1, opnd_const_kconst. apply norm_of_Z.
  - (* ECast *)
    apply if_opt_is in HT as [T1 <-].
    apply (unary_run (lower_expr ce e) (IHe _ _ _ _ _ HE T1) HL). intros vs' oa O1 B1.
    cbn [eval]. unfold cast_sem. rewrite eval_cast, O1, B1.
    destruct (is_signed from && is_signed to); [apply norm_of_Z|apply norm_norm].
  - (* ESlice *)
    destruct (wt_expr G e) as [wa|] eqn:T1; [|discriminate].
    injection HT as HT; subst wd.
    apply (unary_run (lower_expr ce e) (IHe _ _ _ _ _ HE T1) HL). intros vs' oa O1 B1.
    rewrite eval_slice, O1, !opnd_const_kconst.
    replace (off + w - off) with w by lia. apply norm_norm.
  - (* EIndex *)
    destruct (wt_expr G e2) as [wi|] eqn:T2; [|discriminate].
    destruct (opt_is (wt_expr G e1) (n * width et)) eqn:T1; [|discriminate].
    simpl in HT. destruct (Nat.ltb 0 (width et)) eqn:Hw; [|discriminate].
    inversion HT; subst; clear HT. apply opt_is_true in T1. apply Nat.ltb_lt in Hw.
    destruct (lower_expr ce e1 (length vs)) as [ca oa] eqn:La.
    destruct (IHe1 _ _ _ _ _ HE T1 _ _ La) as [O1 B1].
    rewrite <- (run_code_len ca vs) in HL.
    destruct (lower_expr ce e2 (length (run_code ca vs))) as [cb ob] eqn:Lb.
    destruct (IHe2 _ _ _ _ _ (env_ok_run ca _ _ _ _ HE) T2 _ _ Lb) as [[O2 _] B2].
    destruct (ok_run cb _ _ _ O1) as [O1' _].
    rewrite <- run_code_len in HL.
    destruct (emit1 _ _ _ _ _) as [ci o'] eqn:Ei in HL. inversion HL; subst; clear HL.
    rewrite !run_code_app. apply (emit1_ok _ _ _ _ _ _ _ _ Ei).
    rewrite eval_index, opnd_const_kconst, B1, Nat.sub_0_r, Nat.div_mul, O1', O2 by lia.
    change (pow2 0) with 1%N. rewrite N.div_1_r. cbn [eval].
    unfold index_sem. destruct (N.ltb _ _); [apply norm_norm|apply norm_0].
Qed.

(* the form in which Props/C03.v states it: the new values named *)
Theorem lower_expr_ok : forall e ce en G vs wd c o,
  env_ok vs ce en G -> wt_expr G e = Some wd ->
  lower_expr ce e (length vs) = (c, o) ->
  exists tail, run_code c vs = vs ++ tail /\ length tail = length c /\
     ok (vs ++ tail) o (eval e en) /\ opnd_bits o = wd.
Proof.
  intros e ce en G vs wd c o HE HT HL. destruct (run_code_extends c vs) as [tail [R L]].
  exists tail. rewrite <- R. split; [reflexivity|]. split; [exact L|]. exact (lower_expr_run _ _ _ _ _ _ HE HT _ _ HL).
Qed.

(* Soundness of the equality test by which Bindings.Merge / returnBinding skip
   a phi: values judged equal ARE equal (same value number and type, or same
   constant).  This is the model's counterpart of Select.Equal / Value.Equal;
   see the comment above [merge] in Lower.v. *)
Lemma opnd_eqb_eq a b : opnd_eqb a b = true -> a = b.
Proof.
  destruct a as [i [s1 b1]|cw cv [s1 b1]], b as [j [s2 b2]|dw dv [s2 b2]]; simpl; try discriminate;
    intro H; repeat (apply andb_prop in H; destruct H as [H ?]);
    repeat match goal with
           | H : Nat.eqb _ _ = true |- _ => apply Nat.eqb_eq in H
           | H : N.eqb _ _ = true |- _ => apply N.eqb_eq in H
           | H : Bool.eqb _ _ = true |- _ => apply Bool.eqb_prop in H
           end; subst; reflexivity.
Qed.

Lemma phi_ok vs c bc t f rt v ci o :
  ok vs c bc -> ok vs (if N.odd bc then t else f) v ->
  opnd_bits (if N.odd bc then t else f) = s_bits rt ->
  emit1 (length vs) Ophi [c; t; f] rt 0 = (ci, o) ->
  ok (run_code ci vs) o v /\ opnd_bits o = s_bits rt.
Proof.
  intros [Hc _] [Hv _] Hb E. apply (emit1_ok _ _ _ _ _ _ _ _ E).
  rewrite eval_phi, Hc.
  replace (if N.odd bc then opnd_val vs t else opnd_val vs f)
    with (opnd_val vs (if N.odd bc then t else f)) by (destruct (N.odd bc); reflexivity).
  rewrite Hv. apply norm_small. rewrite <- Hb, <- Hv. apply opnd_val_lt.
Qed.

Lemma taken_cons {A B} (b : bool) (ts fs : list A) (hd : list A -> B) s sr :
  (if b then ts else fs) = s :: sr ->
  (if b then hd ts else hd fs) = hd (s :: sr) /\ (if b then tl ts else tl fs) = sr.
Proof. intros E. destruct b; rewrite E; auto. Qed.

Lemma phis_ok : forall rts vs c bc ts fs vals code os,
  ok vs c bc ->
  Forall2 (ok vs) (if N.odd bc then ts else fs) vals ->
  map opnd_bits (if N.odd bc then ts else fs) = map s_bits rts ->
  phis c rts ts fs (length vs) = (code, os) ->
  Forall2 (ok (run_code code vs)) os vals /\ map opnd_bits os = map s_bits rts.
Proof.
  induction rts as [|rt rr IH]; intros vs c bc ts fs vals code os Hc HF HB HP; simpl in HP.
  - inversion HP; subst. destruct (if N.odd bc then ts else fs); [|discriminate].
    inversion HF; subst. split; [constructor|reflexivity].
  - destruct (if N.odd bc then ts else fs) as [|s sr] eqn:Es; [discriminate|].
    inversion HF as [|s' v sr' vr Os Fr]; subst. injection HB as Bs Br.
    destruct (taken_cons _ _ _ hd_o _ _ Es) as [Hs Hr]. simpl in Hs.
    rewrite <- Hr in Fr, Br. rewrite <- Hs in Os, Bs.
    destruct (opnd_eqb (hd_o ts) (hd_o fs)) eqn:Eq.
    + apply opnd_eqb_eq in Eq. rewrite <- Eq in Os, Bs.
      replace (if N.odd bc then hd_o ts else hd_o ts) with (hd_o ts) in Os, Bs by (destruct (N.odd bc); reflexivity).
      destruct (phis c rr (tl ts) (tl fs) (length vs)) as [c2 os2] eqn:P2.
      inversion HP; subst code os; clear HP.
      destruct (IH _ _ _ _ _ _ _ _ Hc Fr Br P2) as [F B].
      split; [constructor; [apply ok_run; exact Os|exact F]|simpl; congruence].
    + destruct (emit1 (length vs) Ophi [c; hd_o ts; hd_o fs] rt 0) as [c1 o1] eqn:E.
      destruct (phi_ok _ _ _ _ _ _ _ _ _ Hc Os Bs E) as [O1 B1].
      rewrite <- (run_code_len c1 vs) in HP.
      destruct (phis c rr (tl ts) (tl fs) (length (run_code c1 vs))) as [c2 os2] eqn:P2.
      inversion HP; subst code os; clear HP. rewrite run_code_app.
      destruct (IH _ _ _ _ _ _ _ _ (ok_run c1 _ _ _ Hc) (Forall2_ok_run c1 _ _ _ Fr) Br P2) as [F B].
      split; [constructor; [apply ok_run; exact O1|exact F]|simpl; congruence].
Qed.

Lemma merge_ok : forall ce en G vs c bc te fe en' code em,
  env_ok vs ce en G -> ok vs c bc ->
  env_ok vs (if N.odd bc then te else fe) en' G ->
  merge c ce te fe (length vs) = (code, em) ->
  env_ok (run_code code vs) em en' G.
Proof.
  induction ce as [|[x o0] cr IH]; intros en G vs c bc te fe en' code em HE Hc HT HM; simpl in HM.
  - inversion HM; subst. inversion HE; subst. inversion HT; subst. constructor.
  - inversion HE as [|x' o' v0 w ce' en0 G0 Ho0 Hb0 HE0]; subst.
    inversion HT as [|x' s v w' sr enr G0' Os Bs Fr Es]; subst. symmetry in Es.
    destruct (taken_cons _ _ _ hd_c _ _ Es) as [Hs Hr]. simpl in Hs.
    rewrite <- Hr in Fr. rewrite <- Hs in Os, Bs.
    destruct (opnd_eqb (hd_c te) (hd_c fe)) eqn:Eq.
    + apply opnd_eqb_eq in Eq. rewrite <- Eq in Os, Bs.
      replace (if N.odd bc then hd_c te else hd_c te) with (hd_c te) in Os, Bs by (destruct (N.odd bc); reflexivity).
      destruct (merge c cr (tl te) (tl fe) (length vs)) as [c2 r] eqn:M2.
      inversion HM; subst code em; clear HM.
      constructor; [apply ok_run; exact Os|exact Bs|exact (IH _ _ _ _ _ _ _ _ _ _ HE0 Hc Fr M2)].
    + destruct (emit1 (length vs) Ophi [c; hd_c te; hd_c fe] (opnd_ty o0) 0) as [c1 o1] eqn:E.
      destruct (phi_ok _ _ _ _ _ _ _ _ _ Hc Os Bs E) as [O1 B1].
      rewrite <- (run_code_len c1 vs) in HM.
      destruct (merge c cr (tl te) (tl fe) (length (run_code c1 vs))) as [c2 r] eqn:M2.
      inversion HM; subst code em; clear HM. rewrite run_code_app.
      constructor; [apply ok_run; exact O1|exact B1|].
      exact (IH _ _ _ _ _ _ _ _ _ _ (env_ok_run c1 _ _ _ _ HE0) (ok_run c1 _ _ _ Hc) (env_ok_run c1 _ _ _ _ Fr) M2).
Qed.

(* [path ws vs t r]: under the values vs, entering the tree t ends in a
   return of the values r (Some) or falls out of it (None); ws = the widths
   of the function's results *)
Inductive path (ws : list nat) (vs : list sval) : rtree -> option (list N) -> Prop :=
| P_fall : path ws vs RFall None
| P_ret os vals : Forall2 (ok vs) os vals -> map opnd_bits os = ws -> path ws vs (RRet os) (Some vals)
| P_if c bc t f r : ok vs c bc -> path ws vs (if N.odd bc then t else f) r -> path ws vs (RIf c t f) r
| P_then_fall a b r : path ws vs a None -> path ws vs b r -> path ws vs (RThen a b) r
| P_then_ret a b vals : path ws vs a (Some vals) -> path ws vs (RThen a b) (Some vals).

Lemma path_app ws vs tl0 t r : path ws vs t r -> path ws (vs ++ tl0) t r.
Proof.
  induction 1.
  - constructor.
  - constructor; [apply Forall2_ok_app; assumption|assumption].
  - econstructor; [apply ok_app; eassumption|assumption].
  - apply P_then_fall; assumption.
  - apply P_then_ret; assumption.
Qed.

Lemma path_run c ws vs t r : path ws vs t r -> path ws (run_code c vs) t r.
Proof. destruct (run_code_extends c vs) as [tl0 [-> _]]. apply path_app. Qed.

Lemma resolve_ok rts : forall t vs r k kvals code os,
  path (map s_bits rts) vs t r ->
  (r = None -> Forall2 (ok vs) k kvals /\ map opnd_bits k = map s_bits rts) ->
  resolve rts t k (length vs) = (code, os) ->
  Forall2 (ok (run_code code vs)) os (match r with Some v => v | None => kvals end) /\
  map opnd_bits os = map s_bits rts.
Proof.
  induction t as [|os0|c a IHa b IHb|a IHa b IHb]; intros vs r k kvals code os HP HK HR; simpl in HR.
  - inversion HR; subst. inversion HP; subst. exact (HK eq_refl).
  - inversion HR; subst. inversion HP; subst. auto.
  - (* the branch not taken is lowered all the same; only its length matters *)
    inversion HP as [| |c' bc t' f' r' Hc Hsub| |]; subst.
    destruct (resolve rts a k (length vs)) as [ca oa] eqn:Ra.
    rewrite <- (run_code_len ca vs) in HR.
    destruct (resolve rts b k (length (run_code ca vs))) as [cb ob] eqn:Rb.
    rewrite <- run_code_len in HR.
    destruct (phis c rts oa ob (length (run_code cb (run_code ca vs)))) as [cp os'] eqn:Pp.
    inversion HR; subst code os; clear HR. rewrite !run_code_app.
    assert (HT : Forall2 (ok (run_code cb (run_code ca vs))) (if N.odd bc then oa else ob)
                         (match r with Some v => v | None => kvals end) /\
                 map opnd_bits (if N.odd bc then oa else ob) = map s_bits rts).
    { destruct (N.odd bc).
      - destruct (IHa _ _ _ _ _ _ Hsub HK Ra) as [F B]. split; [apply Forall2_ok_run; exact F|exact B].
      - apply (IHb _ r k kvals cb ob (path_run ca _ _ _ _ Hsub)); [|exact Rb].
        intro E. destruct (HK E). split; [apply Forall2_ok_run|]; assumption. }
    exact (phis_ok _ _ _ _ _ _ _ _ _ (ok_run cb _ _ _ (ok_run ca _ _ _ Hc)) (proj1 HT) (proj2 HT) Pp).
  - destruct (resolve rts b k (length vs)) as [cb ob] eqn:Rb.
    rewrite <- (run_code_len cb vs) in HR.
    destruct (resolve rts a ob (length (run_code cb vs))) as [ca oa] eqn:Ra.
    inversion HR; subst code os; clear HR. rewrite run_code_app.
    inversion HP as [| | |a' b' r' Ha Hb|a' b' vals Ha]; subst.
    + (* a falls, b decides *)
      apply (IHa _ _ _ _ _ _ (path_run cb _ _ _ _ Ha) (fun _ => IHb _ _ _ _ _ _ Hb HK Rb) Ra).
    + (* a returns *)
      apply (IHa _ (Some vals) ob kvals ca oa (path_run cb _ _ _ _ Ha)); [discriminate|exact Ra].
Qed.

Lemma lower_exprs_ok : forall es ce en G vs ws c os,
  env_ok vs ce en G -> wt_exprs G es ws = true ->
  lower_exprs ce es (length vs) = (c, os) ->
  Forall2 (ok (run_code c vs)) os (map (fun e => eval e en) es) /\ map opnd_bits os = ws.
Proof.
  induction es as [|e er IH]; intros ce en G vs ws c os HE HT HL; simpl in HL, HT.
  - destruct ws; [|discriminate]. inversion HL; subst. split; [constructor|reflexivity].
  - destruct ws as [|w wr]; [discriminate|].
    apply andb_prop in HT. destruct HT as [T1 T2]. apply opt_is_true in T1.
    destruct (lower_expr ce e (length vs)) as [c1 o1] eqn:L1.
    destruct (lower_expr_run _ _ _ _ _ _ HE T1 _ _ L1) as [O1 B1].
    rewrite <- (run_code_len c1 vs) in HL.
    destruct (lower_exprs ce er (length (run_code c1 vs))) as [c2 os2] eqn:L2.
    inversion HL; subst c os; clear HL. rewrite run_code_app.
    destruct (IH _ _ _ _ _ _ _ (env_ok_run c1 _ _ _ _ HE) T2 L2) as [F2 B2].
    split; [constructor; [apply ok_run; exact O1|exact F2]|simpl; congruence].
Qed.

Lemma mov_ok vs o v t c o2 :
  ok vs o v -> mov_to o (sty_of t) (length vs) = (c, o2) ->
  ok (run_code c vs) o2 (norm (width t) v) /\ opnd_bits o2 = width t.
Proof.
  intros [Ho _] E. apply (emit1_ok _ _ _ _ _ _ _ _ E). rewrite eval_mov, Ho. apply norm_norm.
Qed.

Lemma movs_ok : forall (ts : list ty) os vals vs c os',
  Forall2 (ok vs) os vals -> length ts = length os ->
  movs_to os (map sty_of ts) (length vs) = (c, os') ->
  Forall2 (ok (run_code c vs)) os' (norm_all ts vals) /\ map opnd_bits os' = map width ts.
Proof.
  induction ts as [|t tr IH]; intros os vals vs c os' HF HL HM.
  - destruct os; [|discriminate]. simpl in HM. inversion HM; subst. split; [constructor|reflexivity].
  - destruct os as [|o orr]; [discriminate|]. inversion HF as [|o' v orr' vr Ho Hr]; subst.
    simpl in HM. destruct (mov_to o (sty_of t) (length vs)) as [c1 o1] eqn:E.
    destruct (mov_ok _ _ _ _ _ _ Ho E) as [O1 B1].
    rewrite <- (run_code_len c1 vs) in HM.
    destruct (movs_to orr (map sty_of tr) (length (run_code c1 vs))) as [c2 os2] eqn:M2.
    inversion HM; subst c os'; clear HM. rewrite run_code_app.
    assert (HL' : length tr = length orr) by (simpl in HL; lia).
    destruct (IH _ _ _ _ _ (Forall2_ok_run c1 _ _ _ Hr) HL' M2) as [F2 B2].
    split; [simpl; constructor; [apply ok_run; exact O1|exact F2]|simpl; rewrite B1, B2; reflexivity].
Qed.

Lemma tys_of_map xs : tys_of xs = map sty_of (map snd xs).
Proof. unfold tys_of. rewrite map_map. reflexivity. Qed.

Lemma bind_ok vs : forall xs os vals ce en G,
  env_ok vs ce en G ->
  Forall2 (ok vs) os (norm_all (map snd xs) vals) -> map opnd_bits os = map width (map snd xs) ->
  env_ok vs (cbind_all xs os ce) (bind_all xs vals en) (tbind_all xs G).
Proof.
  induction xs as [|[x t] xr IH]; intros os vals ce en G HE HF HB; simpl.
  - destruct os; exact HE.
  - simpl in HF, HB.
    destruct vals as [|v vr]; inversion HF as [|o v' orr vr' Ho Hr]; subst;
      simpl in HB; injection HB as HB1 HB2.
    all: apply IH; [constructor; [exact Ho|exact HB1|exact HE]|exact Hr|exact HB2].
Qed.

Lemma tbind_all_app xs : forall G, exists pre, tbind_all xs G = pre ++ G.
Proof.
  induction xs as [|[x t] xr IH]; intro G; simpl.
  - exists []. reflexivity.
  - destruct (IH ((x, width t) :: G)) as [pre E]. exists (pre ++ [(x, width t)]).
    rewrite E, <- app_assoc. reflexivity.
Qed.

Lemma wt_extends sigs rets : forall s G G', wt_stmt sigs rets G s = Some G' -> exists pre, G' = pre ++ G.
Proof.
  induction s; intros G G' H; simpl in H;
    try (exists []; simpl; congruence).
  - destruct (wt_stmt sigs rets G s1) as [G1|] eqn:E1; [|discriminate].
    destruct (IHs1 _ _ E1) as [p1 ->]. destruct (IHs2 _ _ H) as [p2 ->].
    exists (p2 ++ p1). rewrite app_assoc. reflexivity.
  - destruct (opt_is _ _); [|discriminate]. inversion H; subst. exists [(x, width t)]. reflexivity.
  - destruct (_ && _); [|discriminate]. exists []. simpl. congruence.
  - destruct (wt_expr G e); [|discriminate].
    destruct (_ && _); [|discriminate]. exists []. simpl. congruence.
  - destruct (opt_is _ _); [|discriminate].
    destruct (wt_stmt sigs rets G s1), (wt_stmt sigs rets G s2); try discriminate.
    exists []. simpl. congruence.
  - destruct (wt_stmt sigs rets _ s); [|discriminate]. exists []. simpl. congruence.
  - destruct (wt_exprs _ _ _); [|discriminate]. exists []. simpl. congruence.
  - destruct (sigs f) as [[ps rs]|]; [|discriminate].
    destruct (_ && _); [|discriminate]. inversion H; subst. apply tbind_all_app.
Qed.

Lemma skipn_pre {A} (pre l : list A) : skipn (length (pre ++ l) - length l) (pre ++ l) = l.
Proof.
  rewrite app_length. replace (length pre + length l - length l) with (length pre) by lia.
  rewrite skipn_app, skipn_all, Nat.sub_diag. reflexivity.
Qed.

Lemma restore_ok vs ce en G ce1 en1 pre :
  env_ok vs ce en G -> env_ok vs ce1 en1 (pre ++ G) ->
  env_ok vs (crestore (length ce) ce1) (restore (length en) en1) G.
Proof.
  intros HE H1. destruct (env_ok_length _ _ _ _ HE) as [A B].
  destruct (env_ok_length _ _ _ _ H1) as [A1 B1].
  unfold crestore, restore.
  pose proof (env_ok_skipn _ (length (pre ++ G) - length G) _ _ _ H1) as H.
  rewrite skipn_pre in H.
  replace (length ce1 - length ce) with (length (pre ++ G) - length G) by lia.
  replace (length en1 - length en) with (length (pre ++ G) - length G) by lia.
  exact H.
Qed.

Lemma returns_exec call : forall s en, returns s = true -> exists vals, exec call s en = ORet vals.
Proof.
  induction s; intros en H; simpl in H; try discriminate.
  - simpl. apply orb_prop in H.
    destruct (exec call s1 en) as [e1|vs] eqn:E1; [|eexists; reflexivity].
    destruct H as [H|H].
    + destruct (IHs1 en H) as [v Ev]. congruence.
    + apply IHs2. exact H.
  - simpl. apply andb_prop in H. destruct H as [H1 H2].
    destruct (N.odd (eval c en)).
    + destruct (IHs1 en H1) as [v ->]. eexists; reflexivity.
    + destruct (IHs2 en H2) as [v ->]. eexists; reflexivity.
  - simpl. eexists; reflexivity.
Qed.

Lemma join_ok vs oc bc ce en G ea eb ct e1 pre code oe :
  ok vs oc bc -> env_ok vs ce en G ->
  (if N.odd bc then ea else eb) = Some ct -> env_ok vs ct e1 (pre ++ G) ->
  join true oc ce ea eb (length vs) = (code, oe) ->
  exists ce', oe = Some ce' /\ env_ok (run_code code vs) ce' (restore (length en) e1) G.
Proof.
  intros Hc HE HT H1 HJ. unfold join, close_scope in HJ.
  destruct ea as [e1c|], eb as [e2c|].
  - destruct (merge oc ce (crestore (length ce) e1c) (crestore (length ce) e2c) (length vs))
      as [cm em] eqn:M. inversion HJ; subst code oe; clear HJ.
    exists em. split; [reflexivity|]. refine (merge_ok _ _ _ _ _ _ _ _ _ _ _ HE Hc _ M).
    destruct (N.odd bc); inversion HT; subst; eapply restore_ok; eassumption.
  - inversion HJ; subst code oe; clear HJ. destruct (N.odd bc); [|discriminate]. inversion HT; subst.
    eexists. split; [reflexivity|]. eapply restore_ok; eassumption.
  - inversion HJ; subst code oe; clear HJ. destruct (N.odd bc); [discriminate|]. inversion HT; subst.
    eexists. split; [reflexivity|]. eapply restore_ok; eassumption.
  - destruct (N.odd bc); discriminate.
Qed.

Lemma lower_for_S sc lc i it lo m body ce n :
  lower_stmt sc lc (SFor i it lo (S m) body) ce n =
  match lower_stmt sc lc body
          (declare sc i (OConst (width it) (norm (width it) (N.of_nat lo)) (sty_of it)) ce) n with
  | (c1, None, t1) => (c1, None, t1)
  | (c1, Some e1, t1) =>
      let '(c2, e2, t2) := lower_stmt sc lc (SFor i it (S lo) m body)
                                      (close_scope sc (length ce) e1) (n + length c1) in
      (c1 ++ c2, e2, RThen t1 t2)
  end.
Proof. reflexivity. Qed.

Lemma exec_for_S call i it lo m body en :
  exec call (SFor i it lo (S m) body) en =
  match exec call body ((i, norm (width it) (N.of_nat lo)) :: en) with
  | ONorm e1 => exec call (SFor i it (S lo) m body) (restore (length en) e1)
  | ORet vs => ORet vs
  end.
Proof. reflexivity. Qed.

Lemma widths_are_spec xs : forall rs, widths_are xs rs = true -> map width (map snd xs) = rs.
Proof.
  induction xs as [|[x t] xr IH]; intros [|r rr] H; simpl in H; try discriminate; [reflexivity|].
  apply andb_prop in H. destruct H as [H1 H2]. apply Nat.eqb_eq in H1. simpl.
  rewrite (IH _ H2), H1. reflexivity.
Qed.

Section StmtProof.
  Variable call : nat -> list N -> list N.
  Variable lcall : nat -> list opnd -> nat -> list instr * list opnd.
  Variable sigs : nat -> option (list nat * list nat).
  Variable rets : list nat.
  (* lcall inlines the earlier functions, call runs them *)
  Hypothesis lcall_ok : forall f ps rs os vals vs c ros,
    sigs f = Some (ps, rs) -> Forall2 (ok vs) os vals -> map opnd_bits os = ps ->
    lcall f os (length vs) = (c, ros) ->
    Forall2 (ok (run_code c vs)) ros (call f vals) /\ map opnd_bits ros = rs.

  Definition stmt_post (r : outcome) (G' : tenv) (vs' : list sval)
             (oe : option cenv) (t : rtree) : Prop :=
    match r with
    | ONorm en' => exists ce', oe = Some ce' /\ env_ok vs' ce' en' G' /\ path rets vs' t None
    | ORet vals => path rets vs' t (Some vals)
    end.

  Lemma stmt_post_run c r G' vs' oe t : stmt_post r G' vs' oe t -> stmt_post r G' (run_code c vs') oe t.
  Proof.
    destruct r as [en'|vals]; simpl; [|apply path_run].
    intros [ce' [-> [HE P]]]. exists ce'. split; [reflexivity|]. split; [apply env_ok_run|apply path_run]; assumption.
  Qed.

  (* a statement a followed by what stands after it (the second statement of a
     sequence, the remaining iterations of a loop), which is lowered only if a
     can fall through (oa = Some c1) and run only if it does *)
  Lemma seq_post ra (next : env -> outcome) G1 G' vs ca oa ta
        (lnext : cenv -> nat -> list instr * option cenv * rtree) c oe t :
    stmt_post ra G1 (run_code ca vs) oa ta ->
    (forall e1 c1 cb e2 tb, env_ok (run_code ca vs) c1 e1 G1 ->
       lnext c1 (length (run_code ca vs)) = (cb, e2, tb) ->
       stmt_post (next e1) G' (run_code cb (run_code ca vs)) e2 tb) ->
    match oa with
    | None => (ca, None, ta)
    | Some c1 => let '(cb, e2, tb) := lnext c1 (length vs + length ca) in (ca ++ cb, e2, RThen ta tb)
    end = (c, oe, t) ->
    stmt_post (match ra with ONorm e1 => next e1 | ORet vals => ORet vals end) G' (run_code c vs) oe t.
  Proof.
    intros P1 Hn HL. rewrite <- (run_code_len ca vs) in HL. destruct ra as [e1|vals].
    - destruct P1 as [c1 [-> [HE1 Pa]]].
      destruct (lnext c1 (length (run_code ca vs))) as [[cb e2] tb] eqn:Lb.
      inversion HL; subst c oe t; clear HL. rewrite run_code_app.
      pose proof (Hn _ _ _ _ _ HE1 Lb) as P2. destruct (next e1) as [e2'|vals]; simpl in *.
      + destruct P2 as [c2 [-> [HE2 Pb]]]. exists c2. split; [reflexivity|]. split; [exact HE2|].
        apply P_then_fall; [apply path_run; exact Pa|exact Pb].
      + apply P_then_fall; [apply path_run; exact Pa|exact P2].
    - destruct oa as [c1|].
      + destruct (lnext c1 (length (run_code ca vs))) as [[cb e2] tb] eqn:Lb.
        inversion HL; subst c oe t; clear HL. rewrite run_code_app.
        apply P_then_ret, path_run. exact P1.
      + inversion HL; subst c oe t; clear HL. exact P1.
  Qed.

  Lemma if_post vs oc bc ce en G prea preb ra rb ca ea ta cb eb tb cm oe :
    ok vs oc bc -> env_ok vs ce en G ->
    stmt_post ra (prea ++ G) (run_code ca vs) ea ta ->
    stmt_post rb (preb ++ G) (run_code cb (run_code ca vs)) eb tb ->
    join true oc ce ea eb (length (run_code cb (run_code ca vs))) = (cm, oe) ->
    stmt_post (match (if N.odd bc then ra else rb) with
               | ONorm e1 => ONorm (restore (length en) e1)
               | ORet vals => ORet vals
               end) G (run_code cm (run_code cb (run_code ca vs))) oe (RIf oc ta tb).
  Proof.
    intros Oc HE P1 P2 J. apply (stmt_post_run cb) in P1. set (vs2 := run_code cb (run_code ca vs)) in *.
    assert (Oc2 : ok vs2 oc bc) by (do 2 apply ok_run; exact Oc).
    assert (PT : exists pre, stmt_post (if N.odd bc then ra else rb) (pre ++ G) vs2
                               (if N.odd bc then ea else eb) (if N.odd bc then ta else tb))
      by (destruct (N.odd bc); eauto).
    destruct PT as [pre PT]. destruct (if N.odd bc then ra else rb) as [e1|vals]; simpl in *.
    - destruct PT as [ct [Ect [HEt Pt]]].
      destruct (join_ok vs2 oc bc ce en G ea eb ct e1 pre cm oe Oc2 (env_ok_run _ _ _ _ _ (env_ok_run _ _ _ _ _ HE)) Ect HEt J)
        as [ce' [-> HEr]].
      exists ce'. split; [reflexivity|]. split; [exact HEr|].
      apply P_if with (bc := bc); [apply ok_run, Oc2 | apply path_run, Pt].
    - apply P_if with (bc := bc); [apply ok_run, Oc2 | apply path_run, PT].
  Qed.

  Theorem lower_stmt_ok : forall s ce en G G' vs c oe t,
    env_ok vs ce en G -> wt_stmt sigs rets G s = Some G' ->
    lower_stmt true lcall s ce (length vs) = (c, oe, t) ->
    stmt_post (exec call s en) G' (run_code c vs) oe t.
  Proof.
    induction s; intros ce en G G' vs c0 oe t0 HE HT HL.
    - (* SSkip *)
      simpl in *. inversion HL; subst. inversion HT; subst.
      eexists. split; [reflexivity|]. split; [exact HE|constructor].
    - (* SSeq *)
      simpl in HT. destruct (wt_stmt sigs rets G s1) as [G1|] eqn:T1; [|discriminate].
      simpl in HL. destruct (lower_stmt true lcall s1 ce (length vs)) as [[ca oa] ta] eqn:La.
      refine (seq_post (exec call s1 en) (exec call s2) G1 G' vs ca oa ta (lower_stmt true lcall s2) _ _ _
                (IHs1 _ _ _ _ _ _ _ _ HE T1 La) _ HL).
      intros e1 c1 cb e2 tb HE1 Lb. exact (IHs2 _ _ _ _ _ _ _ _ HE1 HT Lb).
    - (* SDecl *)
      simpl in HT. apply if_opt_is in HT as [T1 <-]. simpl in HL.
      destruct (lower_expr ce e (length vs)) as [c1 o1] eqn:L1.
      destruct (lower_expr_run _ _ _ _ _ _ HE T1 _ _ L1) as [O1 B1].
      rewrite <- (run_code_len c1 vs) in HL.
      destruct (mov_to o1 (sty_of t) (length (run_code c1 vs))) as [c2 o2] eqn:M.
      inversion HL; subst c0 oe t0; clear HL. rewrite run_code_app.
      destruct (mov_ok _ _ _ _ _ _ O1 M) as [O2 B2]. simpl.
      eexists. split; [reflexivity|]. split; [|constructor].
      constructor; [exact O2|exact B2|]. do 2 apply env_ok_run. exact HE.
    - (* SAssign *)
      simpl in HT. destruct (opt_is (tlookup x G) (width t)) eqn:Tx; [|discriminate].
      destruct (opt_is (wt_expr G e) (width t)) eqn:T1; [|discriminate].
      inversion HT; subst G'; clear HT. apply opt_is_true in T1. apply opt_is_true in Tx.
      simpl in HL.
      destruct (lower_expr ce e (length vs)) as [c1 o1] eqn:L1.
      destruct (lower_expr_run _ _ _ _ _ _ HE T1 _ _ L1) as [O1 B1].
      rewrite <- (run_code_len c1 vs) in HL.
      destruct (mov_to o1 (sty_of t) (length (run_code c1 vs))) as [c2 o2] eqn:M.
      inversion HL; subst c0 oe t0; clear HL. rewrite run_code_app.
      destruct (mov_ok _ _ _ _ _ _ O1 M) as [O2 B2]. simpl.
      eexists. split; [reflexivity|]. split; [|constructor].
      apply env_ok_update with (w := width t); [|exact Tx|exact O2|exact B2].
      do 2 apply env_ok_run. exact HE.
    - (* SStore *)
      simpl in HT. destruct (wt_expr G e) as [we|] eqn:T1; [|discriminate].
      destruct (opt_is (tlookup x G) tw) eqn:Tx; [|discriminate].
      simpl in HT. destruct (Nat.leb (off + w) tw); [|discriminate].
      inversion HT; subst G'; clear HT. apply opt_is_true in Tx.
      simpl in HL.
      destruct (lower_expr ce e (length vs)) as [c1 o1] eqn:L1.
      destruct (lower_expr_run _ _ _ _ _ _ HE T1 _ _ L1) as [[O1 _] B1].
      rewrite <- (run_code_len c1 vs) in HL.
      destruct (emit1 _ _ _ _ _) as [c2 o2] eqn:Ei in HL.
      inversion HL; subst c0 oe t0; clear HL. rewrite run_code_app.
      destruct (env_ok_lookup _ _ _ _ _ _ (env_ok_run c1 _ _ _ _ HE) Tx) as [[Ox _] Bx].
      destruct (emit1_ok _ _ _ _ _ _ _ (store_sem tw off w (lookup x en) (eval e en)) Ei) as [Q3 Q4].
      { rewrite eval_amov, !opnd_const_kconst, O1, Ox.
        replace (off + w - off) with w by lia. unfold store_sem. apply norm_norm. }
      simpl. eexists. split; [reflexivity|]. split; [|constructor].
      apply env_ok_update with (w := tw); [do 2 apply env_ok_run; exact HE|exact Tx|exact Q3|exact Q4].
    - (* SIf *)
      simpl in HT. destruct (opt_is (wt_expr G c) 1) eqn:Tc; [|discriminate].
      destruct (wt_stmt sigs rets G s1) as [Ga|] eqn:Ta; [|discriminate].
      destruct (wt_stmt sigs rets G s2) as [Gb|] eqn:Tb; [|discriminate].
      inversion HT; subst G'; clear HT. apply opt_is_true in Tc.
      destruct (wt_extends _ _ _ _ _ Ta) as [prea Ea]. destruct (wt_extends _ _ _ _ _ Tb) as [preb Eb].
      subst Ga Gb. simpl in HL.
      destruct (lower_expr ce c (length vs)) as [cc oc] eqn:Lc.
      destruct (lower_expr_run _ _ _ _ _ _ HE Tc _ _ Lc) as [Oc _].
      rewrite <- (run_code_len cc vs) in HL.
      pose proof (env_ok_run cc _ _ _ _ HE) as HE0.
      destruct (lower_stmt true lcall s1 ce (length (run_code cc vs))) as [[ca ea] ta] eqn:La.
      pose proof (IHs1 _ _ _ _ _ _ _ _ HE0 Ta La) as P1.
      rewrite <- (run_code_len ca) in HL.
      destruct (lower_stmt true lcall s2 ce (length (run_code ca (run_code cc vs)))) as [[cb eb] tb] eqn:Lb.
      pose proof (IHs2 _ _ _ _ _ _ _ _ (env_ok_run ca _ _ _ _ HE0) Tb Lb) as P2.
      rewrite <- (run_code_len cb) in HL.
      destruct (join true oc ce ea eb _) as [cm oe'] eqn:J in HL.
      inversion HL; subst c0 oe t0; clear HL. rewrite !run_code_app. simpl.
      replace (exec call (if N.odd (eval c en) then s1 else s2) en)
        with (if N.odd (eval c en) then exec call s1 en else exec call s2 en) by (destruct (N.odd _); reflexivity).
      exact (if_post _ _ _ _ _ _ _ _ _ _ _ _ _ _ _ _ _ _ Oc HE0 P1 P2 J).
    - (* SFor *)
      simpl in HT. destruct (wt_stmt sigs rets ((i, width it) :: G) s) as [Gb|] eqn:Tb; [|discriminate].
      inversion HT; subst G'; clear HT.
      destruct (wt_extends _ _ _ _ _ Tb) as [pre Eb]. subst Gb.
      revert lo ce en vs c0 oe t0 HE HL.
      induction cnt as [|m IHm]; intros lo ce en vs c0 oe t0 HE HL.
      + simpl in HL. inversion HL; subst. simpl.
        eexists. split; [reflexivity|]. split; [exact HE|constructor].
      + rewrite lower_for_S in HL. rewrite exec_for_S.
        set (ki := OConst (width it) (norm (width it) (N.of_nat lo)) (sty_of it)) in *.
        assert (HEi : env_ok vs (declare true i ki ce)
                             ((i, norm (width it) (N.of_nat lo)) :: en) ((i, width it) :: G)).
        { unfold declare. constructor; [|reflexivity|exact HE].
          split; [|exact I]. unfold ki, opnd_val, sty_of. rewrite resize_same. apply norm_norm. }
        destruct (lower_stmt true lcall s (declare true i ki ce) (length vs)) as [[c1 o1] t1] eqn:Lb.
        pose proof (IHs _ _ _ _ _ _ _ _ HEi Tb Lb) as P1.
        refine (seq_post _ (fun e1 => exec call (SFor i it (S lo) m s) (restore (length en) e1)) _ G vs c1 o1 t1
                  (fun ce1 => lower_stmt true lcall (SFor i it (S lo) m s) (close_scope true (length ce) ce1))
                  _ _ _ P1 _ HL).
        intros e1 ce1 cb e2 tb HE1 L2. apply (IHm _ _ _ _ _ _ _) with (2 := L2).
        unfold close_scope.
        apply (restore_ok _ ce en G ce1 e1 (pre ++ [(i, width it)]) (env_ok_run c1 _ _ _ _ HE)).
        rewrite <- app_assoc. exact HE1.
    - (* SReturn *)
      simpl in HT. destruct (wt_exprs G es rets) eqn:T1; [|discriminate].
      inversion HT; subst G'; clear HT. simpl in HL.
      destruct (lower_exprs ce es (length vs)) as [c1 os] eqn:L1.
      inversion HL; subst c0 oe t0; clear HL.
      destruct (lower_exprs_ok _ _ _ _ _ _ _ _ HE T1 L1) as [F1 B1]. simpl. constructor; assumption.
    - (* SCall *)
      simpl in HT. destruct (sigs f) as [[ps rs]|] eqn:Sf; [|discriminate].
      destruct (wt_exprs G args ps) eqn:T1; [|discriminate].
      destruct (widths_are xs rs) eqn:T2; [|discriminate].
      inversion HT; subst G'; clear HT. simpl in HL.
      destruct (lower_exprs ce args (length vs)) as [c1 os] eqn:L1.
      destruct (lower_exprs_ok _ _ _ _ _ _ _ _ HE T1 L1) as [F1 B1].
      rewrite <- (run_code_len c1 vs) in HL.
      destruct (lcall f os (length (run_code c1 vs))) as [c2 rs'] eqn:L2.
      destruct (lcall_ok _ _ _ _ _ _ _ _ Sf F1 B1 L2) as [F2 B2].
      rewrite <- run_code_len, tys_of_map in HL.
      destruct (movs_to rs' (map sty_of (map snd xs)) (length (run_code c2 (run_code c1 vs)))) as [c3 vs3] eqn:M3.
      inversion HL; subst c0 oe t0; clear HL. rewrite !run_code_app.
      pose proof (widths_are_spec _ _ T2) as W.
      assert (Hlen : length (map snd xs) = length rs').
      { rewrite <- (map_length width), W, <- B2, map_length. reflexivity. }
      destruct (movs_ok _ _ _ _ _ _ F2 Hlen M3) as [F3 B3]. simpl.
      eexists. split; [reflexivity|]. split; [|constructor].
      apply bind_ok; [do 3 apply env_ok_run; exact HE|exact F3|exact B3].
  Qed.
End StmtProof.

Lemma map_s_bits_sty_of ts : map s_bits (map sty_of ts) = map width ts.
Proof. rewrite map_map. reflexivity. Qed.

Lemma Forall2_length_ok vs os vals : Forall2 (ok vs) os vals -> length os = length vals.
Proof. induction 1; simpl; congruence. Qed.

Section FuncProof.
  Variable call : nat -> list N -> list N.
  Variable lcall : nat -> list opnd -> nat -> list instr * list opnd.
  Variable sigs : nat -> option (list nat * list nat).
  Hypothesis lcall_ok : forall f ps rs os vals vs c ros,
    sigs f = Some (ps, rs) -> Forall2 (ok vs) os vals -> map opnd_bits os = ps ->
    lcall f os (length vs) = (c, ros) ->
    Forall2 (ok (run_code c vs)) ros (call f vals) /\ map opnd_bits ros = rs.

  Lemma lower_func_ok f args vals vs c outs :
    typed_func sigs f = true ->
    Forall2 (ok vs) args vals -> length args = length (f_params f) ->
    lower_func true lcall f args (length vs) = (c, outs) ->
    Forall2 (ok (run_code c vs)) outs (run_func call f vals) /\
    map opnd_bits outs = map width (f_rets f).
  Proof.
    intros HT HF HLn HL. unfold typed_func in HT.
    destruct (wt_stmt sigs (map width (f_rets f)) (tbind_all (f_params f) []) (f_body f))
      as [G'|] eqn:W; [|discriminate].
    unfold lower_func in HL. rewrite tys_of_map in HL.
    destruct (movs_to args (map sty_of (map snd (f_params f))) (length vs)) as [c1 ps] eqn:M1.
    assert (Hl0 : length (map snd (f_params f)) = length args) by (rewrite map_length; lia).
    destruct (movs_ok _ _ _ _ _ _ HF Hl0 M1) as [F1 B1].
    rewrite <- (run_code_len c1 vs) in HL.
    destruct (lower_stmt true lcall (f_body f) (cbind_all (f_params f) ps []) (length (run_code c1 vs)))
      as [[c2 oe] t] eqn:L2.
    assert (HE : env_ok (run_code c1 vs) (cbind_all (f_params f) ps []) (bind_all (f_params f) vals [])
                        (tbind_all (f_params f) [])).
    { apply bind_ok; [constructor|exact F1|exact B1]. }
    pose proof (lower_stmt_ok call lcall sigs (map width (f_rets f)) lcall_ok _ _ _ _ _ _ _ _ _ HE W L2) as P2.
    destruct (returns_exec call _ (bind_all (f_params f) vals []) HT) as [rv Erv].
    rewrite Erv in P2. simpl in P2.
    rewrite <- run_code_len in HL.
    destruct (resolve (map sty_of (f_rets f)) t [] (length (run_code c2 (run_code c1 vs)))) as [c3 rs] eqn:R3e.
    rewrite <- map_s_bits_sty_of in P2.
    destruct (resolve_ok _ _ _ (Some rv) [] [] _ _ P2 ltac:(discriminate) R3e) as [F3 B3].
    rewrite <- run_code_len in HL.
    destruct (movs_to rs (map sty_of (f_rets f)) (length (run_code c3 (run_code c2 (run_code c1 vs)))))
      as [c4 os4] eqn:M4.
    inversion HL; subst c outs; clear HL. rewrite !run_code_app.
    assert (Hlen : length (f_rets f) = length rs).
    { rewrite <- (map_length opnd_bits rs), B3, !map_length. reflexivity. }
    destruct (movs_ok _ _ _ _ _ _ F3 Hlen M4) as [F4 B4].
    split; [|exact B4]. unfold run_func. rewrite Erv. exact F4.
  Qed.
End FuncProof.

Lemma mk_lcall_ok : forall rfs, typed_funcs rfs = true ->
  forall f ps rs os vals vs c ros,
    sig_of rfs f = Some (ps, rs) -> Forall2 (ok vs) os vals -> map opnd_bits os = ps ->
    mk_lcall true rfs f os (length vs) = (c, ros) ->
    Forall2 (ok (run_code c vs)) ros (mk_call rfs f vals) /\ map opnd_bits ros = rs.
Proof.
  induction rfs as [|f0 rest IH]; intros HT f ps rs os vals vs c ros HS HF HB HL; simpl in *.
  - discriminate.
  - apply andb_prop in HT. destruct HT as [HT0 HTr].
    destruct (Nat.eqb f (length rest)).
    + unfold sig_of_func in HS. injection HS as HS1 HS2.
      assert (HLn : length os = length (f_params f0)).
      { rewrite <- (map_length opnd_bits os), HB, <- HS1, map_length. reflexivity. }
      rewrite <- HS2.
      exact (lower_func_ok (mk_call rest) (mk_lcall true rest) (sig_of rest) (IH HTr)
                           f0 os vals vs c ros HT0 HF HLn HL).
    + eapply IH; eassumption.
Qed.

Lemma init_vals_length ws : forall inp, length (init_vals ws inp) = length ws.
Proof. induction ws; intros [|v vr]; simpl; auto. Qed.

Fixpoint inputs_norm (ps : list (nat * ty)) (inp : list N) : list N :=
  match ps with
  | [] => []
  | (_, t) :: r => match inp with
                   | v :: vr => norm (width t) v :: inputs_norm r vr
                   | [] => 0%N :: inputs_norm r []
                   end
  end.

Lemma input_opnds_ok : forall ps inp pre,
  Forall2 (ok (pre ++ init_vals (map (fun q => width (snd q)) ps) inp))
          (input_opnds ps (length pre)) (inputs_norm ps inp).
Proof.
  induction ps as [|[x t] pr IH]; intros inp pre; simpl; [constructor|].
  assert (S1 : forall v rest, ok (pre ++ (width t, v) :: rest) (OVar (length pre) (sty_of t)) (norm (width t) v)).
  { intros v rest. split; [|simpl; rewrite app_length; simpl; lia].
    simpl. rewrite nth_middle. unfold sty_of. apply resize_same. }
  destruct inp as [|v vr].
  - constructor.
    + rewrite <- (norm_0 (width t)) at 2. apply S1.
    + specialize (IH [] (pre ++ [(width t, 0%N)])). rewrite <- app_assoc in IH.
      rewrite app_length in IH. simpl in IH. rewrite Nat.add_1_r in IH. exact IH.
  - constructor.
    + match goal with |- ok (pre ++ _ :: ?rest) _ _ =>
        pose proof (S1 (norm (width t) v) rest) as H1 end.
      rewrite norm_norm in H1. exact H1.
    + specialize (IH vr (pre ++ [(width t, norm (width t) v)])). rewrite <- app_assoc in IH.
      rewrite app_length in IH. simpl in IH. rewrite Nat.add_1_r in IH. exact IH.
Qed.

Lemma bind_all_norm : forall ps inp en, bind_all ps (inputs_norm ps inp) en = bind_all ps inp en.
Proof.
  induction ps as [|[x t] pr IH]; intros inp en; simpl; [destruct inp; reflexivity|].
  destruct inp as [|v vr]; simpl.
  - rewrite norm_0. apply IH.
  - rewrite norm_norm. apply IH.
Qed.

Lemma Forall2_ok_map vs os vals : Forall2 (ok vs) os vals -> map (opnd_val vs) os = vals.
Proof. induction 1 as [|o v orr vr [Ho _] _ IH]; simpl; [reflexivity|]. rewrite Ho, IH. reflexivity. Qed.

Lemma input_opnds_length ps : forall i, length (input_opnds ps i) = length ps.
Proof. induction ps as [|[x t] pr IH]; intro i; simpl; auto. Qed.

(* C03_lower_correct.  About the model [lower], not about the Go compiler: that
   the compiler agrees with exec_mini and with eval_ssa of its own listing is
   checked per run (RunC03.v). *)
Theorem lower_correct : forall p inp, typed p -> eval_ssa (lower p) inp = exec_mini p inp.
Proof.
  intros p inp [HT _]. unfold lower, lower_gen, exec_mini.
  destruct (rev p) as [|main rest]; [reflexivity|].
  simpl in HT. apply andb_prop in HT. destruct HT as [HT0 HTr].
  set (ws := map (fun q => width (snd q)) (f_params main)).
  set (vs0 := init_vals ws inp).
  assert (Hl : length ws = length vs0) by (unfold vs0; rewrite init_vals_length; reflexivity).
  rewrite Hl.
  destruct (lower_func true (mk_lcall true rest) main (input_opnds (f_params main) 0) (length vs0))
    as [code outs] eqn:LF.
  pose proof (input_opnds_ok (f_params main) inp []) as HI. simpl in HI. fold ws in HI. fold vs0 in HI.
  assert (HLn : length (input_opnds (f_params main) 0) = length (f_params main))
    by apply input_opnds_length.
  destruct (lower_func_ok (mk_call rest) (mk_lcall true rest) (sig_of rest) (mk_lcall_ok rest HTr)
                          main _ _ vs0 code outs HT0 HI HLn LF) as [F B].
  unfold eval_ssa. simpl. fold vs0.
  rewrite (Forall2_ok_map _ _ _ F). unfold run_func. rewrite bind_all_norm. reflexivity.
Qed.

(* Finding C03-F1.  The compiler's actual binding discipline — one flat scope
   per function (Codegen.Scope() is constant), nothing dropped at the end of a
   block (lower_flat) — does NOT implement the reference semantics: a
   declaration in a nested block that re-uses the name of an outer variable
   overwrites the outer variable.
     func main(a, b int8) int8 { x := a; if a < b { var x int8 = b }; return x }
   on a = 1, b = 5 gives 5 instead of 1. *)
Definition shadow_witness : prog :=
  [mkFunc [(0, TInt 8); (1, TInt 8)] [TInt 8]
     (SSeq (SDecl 2 (TInt 8) (EVar 0))
     (SSeq (SIf (EBin Lt (TInt 8) (EVar 0) (EVar 1))
                (SSeq (SDecl 2 (TInt 8) (EVar 1)) SSkip)
                SSkip)
     (SSeq (SReturn [EVar 2]) SSkip)))].

Lemma shadow_witness_typed : typed shadow_witness.
Proof. split; [vm_compute; reflexivity|discriminate]. Qed.

Lemma lower_flat_refuted :
  exists p inp, typed p /\ eval_ssa (lower_flat p) inp <> exec_mini p inp.
Proof.
  exists shadow_witness, [1%N; 5%N]. split; [exact shadow_witness_typed|].
  vm_compute. discriminate.
Qed.

(* non-vacuity: the scheme on the same program and input *)
Example lower_shadow_example :
  eval_ssa (lower shadow_witness) [1%N; 5%N] = [1%N] /\ exec_mini shadow_witness [1%N; 5%N] = [1%N]
  /\ eval_ssa (lower_flat shadow_witness) [1%N; 5%N] = [5%N].
Proof. vm_compute. auto. Qed.

(* Finding C03-F2 at the level of one instruction: the compiler leaves a
   literal operand in its 32-bit container, Program.Circuit zero-pads the
   narrower run-time operand: igt a{i8} $5{i32} on a = -1 answers true. *)
Example literal_container_witness :
  eval_ssa (mkSprog [8] [mkInstr Oigt [OVar 0 (mkSty true 8); OConst 32 5 (mkSty true 32)] (mkSty false 1) 0]
                    [OVar 1 (mkSty false 1)]) [255%N] = [1%N]
  /\ exec_mini [mkFunc [(0, TInt 8)] [TBool] (SReturn [EBin Gt (TInt 8) (EVar 0) (ELit (TInt 8) 5)])] [255%N] = [0%N].
Proof. vm_compute. auto. Qed.

(* A store (amov v arr $from $to: arr[from:to] = v) takes only the low
   to-from bits of the value, however many wires the value has (a literal in
   its 32/64-bit container, a longer source array of copy()), and leaves every
   bit of the array operand outside [from,to) as it was. *)
Lemma store_sem_frame tw off w a v i : off + w <= tw ->
  (i < N.of_nat off \/ N.of_nat (off + w) <= i)%N ->
  N.testbit (store_sem tw off w a v) i = N.testbit (norm tw a) i.
Proof.
  intros _ Hi. rewrite <- (N2Nat.id i) in *. set (k := N.to_nat i) in *.
  rewrite store_sem_testbit, norm_testbit.
  replace (Nat.ltb k off || Nat.leb (off + w) k) with true; [reflexivity|].
  symmetry. apply orb_true_iff. rewrite Nat.ltb_lt, Nat.leb_le. lia.
Qed.

Lemma store_sem_slot tw off w a v : off + w <= tw ->
  slice_sem off w (store_sem tw off w a v) = norm w v.
Proof.
  intros H. apply bits_inj_nat. intros k.
  rewrite slice_sem_testbit, store_sem_testbit, norm_testbit.
  destruct (Nat.ltb k w) eqn:E; [|reflexivity]. apply Nat.ltb_lt in E.
  replace (Nat.ltb (k + off) tw) with true by (symmetry; apply Nat.ltb_lt; lia).
  replace (Nat.ltb (k + off) off) with false by (symmetry; apply Nat.ltb_ge; lia).
  replace (Nat.leb (off + w) (k + off)) with false by (symmetry; apply Nat.leb_gt; lia).
  cbn. f_equal. f_equal. lia.
Qed.

Lemma amov_instr_frame vs ov oa from to out aux i :
  from <= to -> to <= s_bits out ->
  (i < N.of_nat from \/ N.of_nat to <= i)%N ->
  N.testbit (eval_instr vs (mkInstr Oamov [ov; oa; kconst from; kconst to] out aux)) i
  = N.testbit (norm (s_bits out) (opnd_val vs oa)) i.
Proof.
  intros H1 H2 Hi. rewrite eval_amov, !opnd_const_kconst.
  apply store_sem_frame; [lia|]. replace (from + (to - from)) with to by lia. exact Hi.
Qed.

Lemma amov_instr_slot vs ov oa from to out aux :
  from <= to -> to <= s_bits out ->
  slice_sem from (to - from) (eval_instr vs (mkInstr Oamov [ov; oa; kconst from; kconst to] out aux))
  = norm (to - from) (opnd_val vs ov).
Proof.
  intros H1 H2. rewrite eval_amov, !opnd_const_kconst.
  apply (store_sem_slot (s_bits out)). lia.
Qed.
