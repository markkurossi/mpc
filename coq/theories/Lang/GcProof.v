(* C05, about Lang/Gc.v: the rewiring functions commute with any map on what is
   rewired (the same code rewires wire ids and bits) and produce only the
   padding, elements of the operands and old content, as many as there were;
   Program.GC only inserts gc instructions; and when it frees a value, no value
   derived from it by alias instructions is an operand of a later step
   (gc_fixed_static). *)
From Coq Require Import ZArith List Bool Lia.
From Mpc Require Import Lang.Gc.
Import ListNotations.
Local Open Scope nat_scope.

Lemma lookup_set_key {A} k k' (a : A) l :
  lookup k' (set_key k a l) = if N.eqb k' k then Some a else lookup k' l.
Proof.
  induction l as [|[k2 a2] t IH]; simpl; [reflexivity|].
  destruct (N.eqb_spec k k2) as [<-|E]; simpl.
  - destruct (N.eqb k' k); reflexivity.
  - rewrite IH. destruct (N.eqb_spec k' k2), (N.eqb_spec k' k); try reflexivity. congruence.
Qed.

Lemma lookup_set_key_eq {A} k (a : A) l : lookup k (set_key k a l) = Some a.
Proof. rewrite lookup_set_key, N.eqb_refl. reflexivity. Qed.

Lemma lookup_set_key_neq {A} k k' (a : A) l : k <> k' -> lookup k' (set_key k a l) = lookup k' l.
Proof. intros H. rewrite lookup_set_key. destruct (N.eqb_spec k' k); [congruence | reflexivity]. Qed.

Lemma lookup_nat_set {A} k k' (a : A) l :
  lookup_nat k' (set_nat k a l) = if Nat.eqb k' k then Some a else lookup_nat k' l.
Proof.
  induction l as [|[k2 a2] t IH]; simpl; [reflexivity|].
  destruct (Nat.eqb_spec k k2) as [<-|E]; simpl.
  - destruct (Nat.eqb k' k); reflexivity.
  - rewrite IH. destruct (Nat.eqb_spec k' k2), (Nat.eqb_spec k' k); try reflexivity. congruence.
Qed.

Lemma keys_set_key {A} k (a : A) l : lookup k l <> None -> map fst (set_key k a l) = map fst l.
Proof.
  induction l as [|[k2 a2] t IH]; simpl; [congruence|].
  destruct (N.eqb_spec k k2) as [<-|E]; simpl; [reflexivity|]. intros H. rewrite IH by exact H. reflexivity.
Qed.

Lemma lookup_in {A} k (a : A) l : lookup k l = Some a -> In (k, a) l.
Proof.
  induction l as [|[k2 a2] t IH]; simpl; [discriminate|].
  destruct (N.eqb_spec k k2) as [<-|E]; [|auto]. intros H. inversion H. auto.
Qed.

Lemma lookup_none_notin {A} k (l : list (N * A)) : lookup k l = None -> ~ In k (map fst l).
Proof.
  induction l as [|[k2 a2] t IH]; simpl; [auto|].
  destruct (N.eqb_spec k k2) as [<-|E]; [discriminate|]. intros H [H1|H1]; [congruence | exact (IH H H1)].
Qed.

Lemma lookup_remove_key_neq {A} k k' (l : list (N * A)) : k <> k' -> lookup k' (remove_key k l) = lookup k' l.
Proof.
  intros H. induction l as [|[k2 a2] t IH]; simpl; [reflexivity|].
  destruct (N.eqb_spec k k2) as [<-|E]; simpl.
  - destruct (N.eqb_spec k' k); [congruence | reflexivity].
  - rewrite IH. reflexivity.
Qed.

(* remove_key drops the first binding of k: with distinct keys, the only one *)
Lemma lookup_remove_key_eq {A} k (l : list (N * A)) : NoDup (map fst l) -> lookup k (remove_key k l) = None.
Proof.
  induction l as [|[k2 a2] t IH]; simpl; [reflexivity|]. intros H. inversion H as [|? ? Hn Hd]; subst.
  destruct (N.eqb_spec k k2) as [<-|E].
  - destruct (lookup k t) eqn:L; [|reflexivity].
    exfalso. apply Hn, in_map_iff. exists (k, a). split; [reflexivity | apply lookup_in, L].
  - simpl. destruct (N.eqb_spec k k2); [contradiction | apply IH, Hd].
Qed.

Lemma keys_remove_key_incl {A} k (l : list (N * A)) x : In x (map fst (remove_key k l)) -> In x (map fst l).
Proof.
  induction l as [|[k2 a2] t IH]; simpl; [auto|].
  destruct (N.eqb k k2); simpl; [auto|]. intros [H|H]; auto.
Qed.

Lemma NoDup_remove_key {A} k (l : list (N * A)) : NoDup (map fst l) -> NoDup (map fst (remove_key k l)).
Proof.
  induction l as [|[k2 a2] t IH]; simpl; [auto|]. intros H. inversion H as [|? ? Hn Hd]; subst.
  destruct (N.eqb k k2); [exact Hd|]. simpl. constructor; [|apply IH, Hd].
  intros Hi. apply Hn. eapply keys_remove_key_incl; eauto.
Qed.

Section RewireMap.
  Variables (A B : Type) (f : A -> B) (z : A).

  Lemma lastd_map l : f (lastd A z l) = lastd B (f z) (map f l).
  Proof.
    unfold lastd. induction l as [|x t IH]; [reflexivity|].
    destruct t; [reflexivity|]. exact IH.
  Qed.

  Lemma nth_map k l : f (nth k l z) = nth k (map f l) (f z).
  Proof. symmetry. apply map_nth. Qed.

  Lemma nth_ins_map (ins : list (list A)) k : nth k (map (map f) ins) [] = map f (nth k ins []).
  Proof. change (@nil B) with (map f []). apply map_nth. Qed.

  Lemma pad_operand_map sg bits w :
    map f (pad_operand A z sg bits w) = pad_operand B (f z) sg bits (map f w).
  Proof.
    unfold pad_operand. rewrite map_length.
    destruct (Nat.eqb (length w) bits); [reflexivity|].
    rewrite map_map. apply map_ext. intros bit.
    destruct (bit <? length w); [apply nth_map|].
    destruct (sg && negb (Nat.eqb (length w) 0)); [apply lastd_map | reflexivity].
  Qed.

  Lemma skipn_map' n (l : list A) : map f (skipn n l) = skipn n (map f l).
  Proof. symmetry. apply skipn_map. Qed.

  Lemma alias_ids_map o ins cs old obits :
    option_map (map f) (alias_ids A z o ins cs old obits)
    = alias_ids B (f z) o (map (map f) ins) cs (map f old) obits.
  Proof.
    unfold alias_ids. destruct o; try reflexivity; rewrite !nth_ins_map, ?map_length.
    - (* Concat *)
      destruct (length old <=? length (nth 0 ins []) + length (nth 1 ins [])); [|reflexivity].
      simpl. f_equal. rewrite map_map. apply map_ext. intros bit.
      destruct (bit <? length (nth 0 ins [])); apply nth_map.
    - (* Lshift *)
      destruct (nth 1 cs 0%Z <? 0)%Z; [reflexivity|].
      simpl. f_equal. rewrite map_map. apply map_ext. intros bit.
      destruct (_ && _); [apply nth_map | reflexivity].
    - (* Rshift *)
      destruct (nth 1 cs 0%Z <? 0)%Z; [reflexivity|].
      simpl. f_equal. rewrite map_map. apply map_ext. intros bit.
      destruct (_ <? _); [apply nth_map | reflexivity].
    - (* Srshift *)
      destruct (nth 1 cs 0%Z <? 0)%Z; [reflexivity|].
      remember (nth 0 ins []) as w0 eqn:E. clear E.
      destruct w0 as [|x t]; [reflexivity|].
      cbn [map option_map]. f_equal. rewrite map_map. apply map_ext. intros bit.
      change (f x :: map f t) with (map f (x :: t)).
      destruct (_ <? _); [apply nth_map | apply lastd_map].
    - (* Slice *)
      destruct (_ || _); [reflexivity|].
      destruct (length old <? _); [reflexivity|].
      simpl. f_equal. rewrite map_app, map_map, skipn_map'. f_equal.
      apply map_ext. intros k. destruct (_ <? _); [apply nth_map | reflexivity].
    - (* Mov *)
      destruct (length old <? obits); [reflexivity|].
      simpl. f_equal. rewrite map_app, map_map, skipn_map'. f_equal.
      apply map_ext. intros bit. destruct (_ <? _); [apply nth_map | reflexivity].
    - (* Smov *)
      remember (nth 0 ins []) as w0 eqn:E. clear E.
      destruct w0 as [|x t]; [reflexivity|].
      cbn [map].
      destruct (length old <? obits); [reflexivity|].
      cbn [option_map]. f_equal. rewrite map_app, map_map, skipn_map'. f_equal.
      apply map_ext. intros bit.
      change (f x :: map f t) with (map f (x :: t)).
      destruct (_ <? _); [apply nth_map | apply lastd_map].
    - (* Amov *)
      destruct (_ || _); [reflexivity|].
      destruct (length old <? obits); [reflexivity|].
      simpl. f_equal. rewrite map_app, map_map, skipn_map'. f_equal.
      apply map_ext. intros bit.
      destruct (_ || _); destruct (_ <? _); try apply nth_map; reflexivity.
  Qed.
End RewireMap.

Lemma skipn_In {A} n : forall (l : list A) x, In x (skipn n l) -> In x l.
Proof.
  induction n as [|n IH]; intros l x H; [exact H|]. destruct l; [destruct H|]. right. apply IH, H.
Qed.

Section RewireIncl.
  Variables (A : Type) (z : A).

  Lemma lastd_in (l : list A) : l <> [] -> In (lastd A z l) l.
  Proof.
    unfold lastd. induction l as [|x t IH]; [congruence|]. intros _.
    destruct t; [left; reflexivity|]. right. apply IH. discriminate.
  Qed.

  Lemma in_nth_ins (ins : list (list A)) j x : In x (nth j ins []) -> exists w, In w ins /\ In x w.
  Proof.
    intros H. destruct (Nat.lt_ge_cases j (length ins)) as [L|L].
    - exists (nth j ins []). split; [apply nth_In, L | exact H].
    - rewrite nth_overflow in H by exact L. destruct H.
  Qed.

  Lemma pad_operand_incl sg bits w x : In x (pad_operand A z sg bits w) -> x = z \/ In x w.
  Proof.
    unfold pad_operand. destruct (Nat.eqb (length w) bits); [auto|].
    intros H. apply in_map_iff in H as (bit & <- & _).
    destruct (bit <? length w) eqn:E; [right; apply nth_In, Nat.ltb_lt, E|].
    destruct sg; simpl; [|auto]. destruct (Nat.eqb (length w) 0) eqn:E0; simpl; [auto|].
    right. apply lastd_in. intros ->. discriminate.
  Qed.

  Lemma pad_operand_length sg bits w : length (pad_operand A z sg bits w) = bits.
  Proof.
    unfold pad_operand. destruct (Nat.eqb (length w) bits) eqn:E; [apply Nat.eqb_eq, E|].
    rewrite map_length, seq_length. reflexivity.
  Qed.

  Lemma nth_ins_z (ins : list (list A)) j k :
    nth k (nth j ins []) z = z \/ exists w, In w ins /\ In (nth k (nth j ins []) z) w.
  Proof.
    destruct (nth_in_or_default k (nth j ins []) z) as [H|H]; [right; apply (in_nth_ins ins j), H | left; exact H].
  Qed.

  (* the new content: n elements, each the padding or an element of an operand,
     then the old content from n on *)
  Lemma alias_ids_shape o ins cs old obits r :
    alias_ids A z o ins cs old obits = Some r ->
    exists n (g : nat -> A), r = map g (seq 0 n) ++ skipn n old /\ n <= length old /\
      forall k, g k = z \/ exists w, In w ins /\ In (g k) w.
  Proof.
    unfold alias_ids. intros H.
    assert (All : forall g : nat -> A, map g (seq 0 (length old)) = map g (seq 0 (length old)) ++ skipn (length old) old)
      by (intros g; rewrite skipn_all, app_nil_r; reflexivity).
    destruct o; try discriminate.
    - (* Concat *)
      destruct (_ <=? _); [|discriminate]. injection H as <-.
      eexists _, _. split; [apply All|]. split; [apply le_n|]. intros k. cbv beta.
      destruct (_ <? _); apply nth_ins_z.
    - (* Lshift *)
      destruct (_ <? _)%Z; [discriminate|]. injection H as <-.
      eexists _, _. split; [apply All|]. split; [apply le_n|]. intros k. cbv beta.
      destruct (_ && _); [apply nth_ins_z | auto].
    - (* Rshift *)
      destruct (_ <? _)%Z; [discriminate|]. injection H as <-.
      eexists _, _. split; [apply All|]. split; [apply le_n|]. intros k. cbv beta.
      destruct (_ <? _); [apply nth_ins_z | auto].
    - (* Srshift *)
      destruct (_ <? _)%Z; [discriminate|].
      destruct (nth 0 ins []) as [|a t] eqn:E0; [discriminate|]. rewrite <- E0 in H. injection H as <-.
      eexists _, _. split; [apply All|]. split; [apply le_n|]. intros k. cbv beta.
      destruct (_ <? _); [apply nth_ins_z|]. right. apply (in_nth_ins ins 0), lastd_in. rewrite E0. discriminate.
    - (* Slice *)
      destruct (_ || _); [discriminate|]. destruct (length old <? _) eqn:E; [discriminate|]. injection H as <-.
      apply Nat.ltb_ge in E. eexists _, _. split; [reflexivity|]. split; [exact E|]. intros k. cbv beta.
      destruct (_ <? _); [apply nth_ins_z | auto].
    - (* Mov *)
      destruct (length old <? obits) eqn:E; [discriminate|]. injection H as <-.
      apply Nat.ltb_ge in E. eexists _, _. split; [reflexivity|]. split; [exact E|]. intros k. cbv beta.
      destruct (_ <? _); [apply nth_ins_z | auto].
    - (* Smov *)
      destruct (nth 0 ins []) as [|a t] eqn:E0; [discriminate|]. rewrite <- E0 in H.
      destruct (length old <? obits) eqn:E; [discriminate|]. injection H as <-.
      apply Nat.ltb_ge in E. eexists _, _. split; [reflexivity|]. split; [exact E|]. intros k. cbv beta.
      destruct (_ <? _); [apply nth_ins_z|]. right. apply (in_nth_ins ins 0), lastd_in. rewrite E0. discriminate.
    - (* Amov *)
      destruct (_ || _); [discriminate|]. destruct (length old <? obits) eqn:E; [discriminate|]. injection H as <-.
      apply Nat.ltb_ge in E. eexists _, _. split; [reflexivity|]. split; [exact E|]. intros k. cbv beta.
      destruct (_ || _); destruct (_ <? _); auto using nth_ins_z.
  Qed.

  Lemma alias_ids_incl o ins cs old obits r :
    alias_ids A z o ins cs old obits = Some r ->
    forall x, In x r -> x = z \/ In x old \/ exists w, In w ins /\ In x w.
  Proof.
    intros H x Hx. destruct (alias_ids_shape _ _ _ _ _ _ H) as (n & g & -> & _ & Hg).
    apply in_app_or in Hx as [Hx|Hx]; [|right; left; eapply skipn_In; eauto].
    apply in_map_iff in Hx as (k & <- & _). destruct (Hg k); auto.
  Qed.

  Lemma alias_ids_length o ins cs old obits r :
    alias_ids A z o ins cs old obits = Some r -> length r = length old.
  Proof.
    intros H. destruct (alias_ids_shape _ _ _ _ _ _ H) as (n & g & -> & Hn & _).
    rewrite app_length, map_length, seq_length, skipn_length. lia.
  Qed.
End RewireIncl.

Definition not_gc (s : instr) : bool := match iop s with OGC => false | _ => true end.

Lemma gc_ins_only_gc live ins : forall set gs set',
  gc_ins live ins set = (gs, set') -> filter not_gc gs = [].
Proof.
  induction ins as [|i rest IH]; intros set gs set' H; simpl in H.
  - inversion H. reflexivity.
  - destruct (vconst i); [eapply IH; eauto|].
    destruct (gc_ins live rest (vid i :: set)) as [gs1 set1] eqn:E.
    inversion H; subst. rewrite filter_app. rewrite (IH _ _ _ E), app_nil_r.
    destruct (mem (vid i) set); [reflexivity|]. destruct (live set (vid i)); reflexivity.
Qed.

Lemma gc_back_filter live : forall rsteps set,
  forallb not_gc rsteps = true ->
  filter not_gc (gc_back live rsteps set) = rsteps.
Proof.
  induction rsteps as [|s rest IH]; intros set H; simpl; [reflexivity|].
  simpl in H. apply andb_prop in H as [Hs Hr].
  destruct (gc_ins live (iin s) set) as [gs set1] eqn:E.
  rewrite filter_app, (gc_ins_only_gc _ _ _ _ _ E). simpl. rewrite Hs. f_equal. apply IH, Hr.
Qed.

Lemma filter_rev {A} (p : A -> bool) l : filter p (rev l) = rev (filter p l).
Proof.
  induction l as [|x t IH]; [reflexivity|]. simpl. rewrite filter_app, IH. simpl.
  destruct (p x); simpl; [reflexivity | apply app_nil_r].
Qed.

Lemma forallb_rev {A} (p : A -> bool) l : forallb p (rev l) = forallb p l.
Proof.
  induction l as [|x t IH]; [reflexivity|]. simpl. rewrite forallb_app, IH. simpl.
  rewrite andb_true_r. apply andb_comm.
Qed.

Theorem gc_only_inserts concat deep steps g :
  forallb not_gc steps = true -> gc_gen concat deep steps = Some g ->
  filter not_gc g = steps.
Proof.
  intros Hn H. unfold gc_gen in H.
  assert (Hr : forallb not_gc (rev steps) = true) by (rewrite forallb_rev; exact Hn).
  assert (Hinv : rev (rev steps) = steps) by apply rev_involutive.
  remember (rev steps) as rs eqn:E.
  destruct rs as [|last r]; [discriminate|].
  destruct (iop last); try discriminate.
  match type of H with Some (rev ?x) = _ => remember x as gb eqn:Egb end.
  injection H as <-.
  rewrite filter_rev. subst gb. rewrite gc_back_filter by exact Hr. exact Hinv.
Qed.

Lemma mem_In x l : mem x l = true <-> In x l.
Proof.
  unfold mem. rewrite existsb_exists. split.
  - intros (y & Hy & E). apply N.eqb_eq in E. subst. exact Hy.
  - intros H. exists x. split; [exact H | apply N.eqb_refl].
Qed.

Lemma mem_false x l : mem x l = false <-> ~ In x l.
Proof. rewrite <- mem_In. destruct (mem x l); split; congruence. Qed.

Lemma mem_remove x y l : mem x (remove y l) = mem x l && negb (N.eqb y x).
Proof.
  unfold remove, mem. induction l as [|h t IH]; [reflexivity|]. simpl.
  destruct (N.eqb y h) eqn:E; simpl.
  - apply N.eqb_eq in E. subst h. rewrite IH.
    destruct (N.eqb x y) eqn:E2; simpl.
    + apply N.eqb_eq in E2. subst. rewrite N.eqb_refl. simpl. rewrite andb_false_r. reflexivity.
    + reflexivity.
  - rewrite IH. destruct (N.eqb x h) eqn:E2; simpl; [|reflexivity].
    apply N.eqb_eq in E2. subst h. rewrite E. reflexivity.
Qed.

Definition fstep (D : list N) (s : instr) : list N :=
  if is_alias_op (iop s) && existsb (fun a => mem a D) (nc_ins s) then
    match iout s with Some o => vid o :: D | None => D end
  else D.

(* u and every value derived from u by alias instructions; one forward pass
   suffices: a value is defined before it is used *)
Definition fdesc (steps : list instr) (u : N) : list N := fold_left fstep steps [u].

Definition ncops_l (l : list instr) : list N := flat_map nc_ins l.
Definition outs_l (l : list instr) : list N := flat_map outs_of l.

Lemma fstep_mono D s x : In x D -> In x (fstep D s).
Proof. unfold fstep. destruct (_ && _); [|auto]. destruct (iout s); simpl; auto. Qed.

Lemma fold_fstep_mono l : forall D x, In x D -> In x (fold_left fstep l D).
Proof. induction l as [|s l IH]; intros D x H; simpl; [exact H|]. apply IH, fstep_mono, H. Qed.

Lemma fstep_in D s x : In x (fstep D s) -> In x D \/ In x (outs_of s).
Proof.
  unfold fstep. destruct (_ && _); [|auto]. destruct (iout s) as [o|] eqn:E; [|auto].
  intros [H|H]; [|auto]. right. unfold outs_of. rewrite E. left. exact H.
Qed.

Lemma fold_fstep_in l : forall D x, In x (fold_left fstep l D) -> In x D \/ In x (outs_l l).
Proof.
  induction l as [|s l IH]; intros D x H; simpl in *; [auto|].
  apply IH in H as [H|H].
  - apply fstep_in in H as [H|H]; [auto|]. right. unfold outs_l. simpl. apply in_or_app. auto.
  - right. unfold outs_l. simpl. apply in_or_app. auto.
Qed.

Lemma in_nc_ins s a : In a (nc_ins s) <-> exists i, In i (iin s) /\ vconst i = false /\ vid i = a.
Proof.
  unfold nc_ins. rewrite in_map_iff. split.
  - intros (i & E & H). apply filter_In in H as [H1 H2]. exists i. repeat split; auto.
    destruct (vconst i); [discriminate | reflexivity].
  - intros (i & H1 & H2 & H3). exists i. split; [exact H3|]. apply filter_In. rewrite H2. auto.
Qed.

Lemma gc_alias_op_true o : gc_alias_op true o = is_alias_op o.
Proof. destruct o; reflexivity. Qed.

Lemma in_aliases_of steps s o a :
  In s steps -> is_alias_op (iop s) = true -> iout s = Some o -> In a (nc_ins s) ->
  In (vid o) (aliases_of true steps a).
Proof.
  intros Hs Hop Ho Ha. unfold aliases_of. apply in_flat_map. exists s. split; [exact Hs|].
  rewrite gc_alias_op_true, Hop, Ho. apply in_flat_map.
  apply in_nc_ins in Ha as (i & Hi & Hc & Hv). exists i. split; [exact Hi|].
  rewrite Hc, Hv, N.eqb_refl. simpl. auto.
Qed.

Lemma ald_mono al set : forall f x, alias_live_deep f al set x = true -> alias_live_deep (S f) al set x = true.
Proof.
  induction f as [|f IH]; intros x H; [discriminate|].
  cbn [alias_live_deep] in *. apply existsb_exists in H as (a & Ha & H). apply existsb_exists.
  exists a. split; [exact Ha|]. apply orb_true_iff in H as [H|H]; apply orb_true_iff; [auto|].
  right. apply IH, H.
Qed.

Lemma ald_mono_k al set k : forall f x, alias_live_deep f al set x = true -> alias_live_deep (f + k) al set x = true.
Proof.
  induction k as [|k IH]; intros f x H; [rewrite Nat.add_0_r; exact H|].
  rewrite Nat.add_succ_r. apply ald_mono, IH, H.
Qed.

Lemma ald_step al set f a x :
  In x (al a) -> mem x set || alias_live_deep f al set x = true -> alias_live_deep (S f) al set a = true.
Proof. intros Hx H. cbn [alias_live_deep]. apply existsb_exists. exists x. auto. Qed.

(* a descendant of u that is in the live set makes the deep check succeed *)
Lemma fdesc_live steps0 set u : forall todo done D,
  steps0 = done ++ todo ->
  (forall x, In x D -> x <> u -> forall f,
      mem x set || alias_live_deep f (aliases_of true steps0) set x = true ->
      alias_live_deep (f + length done) (aliases_of true steps0) set u = true) ->
  forall x, In x (fold_left fstep todo D) -> x <> u -> forall f,
      mem x set || alias_live_deep f (aliases_of true steps0) set x = true ->
      alias_live_deep (f + length steps0) (aliases_of true steps0) set u = true.
Proof.
  induction todo as [|t todo IH]; intros done D E HD x Hx Hne f Hf.
  - simpl in Hx. rewrite app_nil_r in E. subst done. eapply HD; eauto.
  - simpl in Hx. refine (IH (done ++ [t]) (fstep D t) _ _ x Hx Hne f Hf).
    + rewrite <- app_assoc. exact E.
    + clear x Hx Hne f Hf. intros x Hx Hne f Hf. rewrite app_length. simpl.
      replace (f + (length done + 1)) with (S (f + length done)) by lia.
      assert (Old : In x D -> alias_live_deep (S (f + length done)) (aliases_of true steps0) set u = true)
        by (intros Hx'; apply ald_mono; eapply HD; eauto).
      unfold fstep in Hx.
      destruct (is_alias_op (iop t) && existsb (fun a => mem a D) (nc_ins t)) eqn:C; [|exact (Old Hx)].
      destruct (iout t) as [o|] eqn:Eo; [|exact (Old Hx)].
      destruct Hx as [Hx|Hx]; [|exact (Old Hx)].
      subst x. apply andb_prop in C as [Cop Cex]. apply existsb_exists in Cex as (a & Ha & HaD).
      apply mem_In in HaD.
      assert (Hal : In (vid o) (aliases_of true steps0 a)).
      { eapply in_aliases_of; eauto. rewrite E. apply in_or_app. right. left. reflexivity. }
      pose proof (ald_step _ set f a (vid o) Hal Hf) as Hs.
      change (S (f + length done)) with (S f + length done).
      destruct (N.eq_dec a u) as [->|Hau]; [apply ald_mono_k, Hs|].
      apply (HD a HaD Hau (S f)). rewrite Hs. apply orb_true_r.
Qed.

Lemma fdesc_not_live steps0 set u x :
  alias_live_deep (length steps0) (aliases_of true steps0) set u = false ->
  In x (fdesc steps0 u) -> x <> u -> mem x set = false.
Proof.
  intros Hd Hx Hne. destruct (mem x set) eqn:M; [|reflexivity].
  exfalso. unfold fdesc in Hx.
  assert (H : alias_live_deep (0 + length steps0) (aliases_of true steps0) set u = true).
  { apply (fdesc_live steps0 set u steps0 [] [u] eq_refl) with (x := x); auto.
    - intros y [Hy|[]] Hyu. subst y. contradiction.
    - rewrite M. reflexivity. }
  simpl in H. rewrite H in Hd. discriminate.
Qed.

Definition wfl (defd : list N) (steps : list instr) : Prop :=
  forall A t B, steps = A ++ t :: B ->
    (forall x, In x (nc_ins t) -> In x (outs_l A ++ defd)) /\
    (forall o, In o (outs_of t) -> ~ In o (outs_l A ++ defd)).

Lemma forallb_mem l defd : forallb (fun i => mem i defd) l = true -> forall x, In x l -> In x defd.
Proof. intros H x Hx. rewrite forallb_forall in H. apply mem_In, H, Hx. Qed.

Lemma forallb_nmem l defd : forallb (fun o => negb (mem o defd)) l = true -> forall x, In x l -> ~ In x defd.
Proof.
  intros H x Hx. rewrite forallb_forall in H. specialize (H x Hx).
  apply mem_false. destruct (mem x defd); [discriminate | reflexivity].
Qed.

(* what the proofs use of a well-formed step that is not the last; the list is
   split only after wf_steps has been unfolded once, so that the call on the
   rest stays folded *)
Lemma wf_steps_cons s rest d : rest <> [] -> wf_steps d (s :: rest) = true ->
  iop s <> OGC /\ forallb (fun i => mem i d) (nc_ins s) = true /\
  forallb (fun o => negb (mem o d)) (outs_of s) = true /\ wf_steps (outs_of s ++ d) rest = true.
Proof.
  assert (K : forall a b c n q w, a && b && c && n && q && w = true -> a = true /\ b = true /\ w = true).
  { intros a b c n q w H. destruct a, b, w; try (split; [|split]; reflexivity); destruct c, n, q; discriminate H. }
  intros NE H. cbn [wf_steps] in H. destruct rest as [|s2 r]; [congruence|]. cbv iota in H.
  destruct (iop s); try discriminate H; (split; [discriminate|]); exact (K _ _ _ _ _ _ H).
Qed.

Lemma in_app_swap {A} (l1 l2 d : list A) x : In x (l1 ++ l2 ++ d) <-> In x ((l2 ++ l1) ++ d).
Proof. split; intros H; repeat (apply in_app_or in H; destruct H as [H|H]); auto 6 using in_or_app. Qed.

Lemma wf_steps_wfl : forall steps defd, wf_steps defd steps = true -> wfl defd steps.
Proof.
  induction steps as [|s rest IH]; intros defd H A t B E.
  - destruct A; discriminate.
  - destruct rest as [|s2 rest'].
    + (* last step *)
      destruct A as [|a A]; [|destruct A; discriminate].
      injection E as <- <-. cbn [wf_steps] in H.
      destruct (iop s); try discriminate.
      apply andb_prop in H as [H Hr]. apply andb_prop in H as [Hi Ho].
      split.
      * intros x Hx. simpl. eapply forallb_mem; eauto.
      * intros o Ho'. unfold outs_of in Ho'. destruct (iout s); [discriminate|].
        destruct (iret s); [destruct Ho'| discriminate].
    + destruct (wf_steps_cons s (s2 :: rest') defd ltac:(discriminate) H) as (_ & Hi & Ho & Hw). remember (s2 :: rest') as rest eqn:Er.
      destruct A as [|a A].
      * injection E as <- <-. split.
        -- intros x Hx. simpl. eapply forallb_mem; eauto.
        -- intros o Ho'. simpl. eapply forallb_nmem; eauto.
      * injection E as <- E. specialize (IH _ Hw A t B E) as [I1 I2].
        unfold outs_l in *. simpl. split.
        -- intros x Hx. apply in_app_swap, I1, Hx.
        -- intros o Ho' Hin. apply (I2 o Ho'), in_app_swap, Hin.
Qed.

(* a value known before [later] starts is not defined inside [later] *)
Lemma wfl_not_later defd E s later x :
  wfl defd (E ++ s :: later) -> In x (outs_l (E ++ [s]) ++ defd) -> ~ In x (outs_l later).
Proof.
  intros W Hx Hl. unfold outs_l in Hl. apply in_flat_map in Hl as (t & Ht & Hxt).
  apply in_split in Ht as (L1 & L2 & ->).
  specialize (W (E ++ s :: L1) t L2). rewrite <- app_assoc in W. specialize (W eq_refl) as [_ W2].
  apply (W2 x Hxt). apply in_app_or in Hx as [Hx|Hx]; apply in_or_app; [left | auto].
  unfold outs_l in *. rewrite flat_map_app in *. apply in_app_or in Hx as [Hx|Hx]; apply in_or_app; [auto|].
  right. simpl in *. rewrite app_nil_r in Hx. apply in_or_app. auto.
Qed.

Definition needed_in (later : list instr) (set : list N) : Prop :=
  forall x, In x (ncops_l later) -> ~ In x (outs_l later) -> mem x set = true.

Lemma fold_fstep_later_noop later : forall D,
  (forall x, In x D -> ~ In x (ncops_l later)) -> fold_left fstep later D = D.
Proof.
  induction later as [|t later IH]; intros D H; [reflexivity|]. simpl.
  assert (E : fstep D t = D).
  { unfold fstep. destruct (is_alias_op (iop t)); [|reflexivity]. simpl.
    destruct (existsb (fun a => mem a D) (nc_ins t)) eqn:C; [|reflexivity].
    apply existsb_exists in C as (a & Ha & HaD). apply mem_In in HaD.
    exfalso. apply (H a HaD). unfold ncops_l. simpl. apply in_or_app. auto. }
  rewrite E. apply IH. intros x Hx Hl. apply (H x Hx). unfold ncops_l in *. simpl. apply in_or_app. auto.
Qed.

(* a value that dies with no live descendant has no descendant that is read
   later *)
Lemma no_live_desc defd steps0 E s later set u :
  wfl defd steps0 -> steps0 = E ++ s :: later ->
  In u (nc_ins s) -> needed_in later set -> mem u set = false ->
  alias_live_deep (length steps0) (aliases_of true steps0) set u = false ->
  forall w, In w (fdesc steps0 u) -> ~ In w (ncops_l later).
Proof.
  intros W E0 Hu Hn Hmu Hd.
  assert (Hu' : In u (outs_l E ++ defd)) by (apply (proj1 (W E s later E0)); exact Hu).
  (* everything collected up to and including s is known before [later] *)
  set (D1 := fold_left fstep (E ++ [s]) [u]).
  assert (HD1 : forall x, In x D1 -> In x (outs_l (E ++ [s]) ++ defd)).
  { intros x Hx. apply fold_fstep_in in Hx as [[Hx|[]]|Hx].
    - subst x. unfold outs_l in *. rewrite flat_map_app. apply in_app_or in Hu' as [H|H]; apply in_or_app; [left; apply in_or_app; auto | auto].
    - apply in_or_app. auto. }
  assert (Hfd : fdesc steps0 u = fold_left fstep later D1).
  { unfold fdesc, D1. rewrite E0. replace (E ++ s :: later) with ((E ++ [s]) ++ later) by (rewrite <- app_assoc; reflexivity).
    apply fold_left_app. }
  assert (Hin1 : forall x, In x D1 -> In x (fdesc steps0 u)).
  { intros x Hx. rewrite Hfd. apply fold_fstep_mono, Hx. }
  assert (HD1n : forall x, In x D1 -> ~ In x (ncops_l later)).
  { intros x Hx Hl.
    assert (Hno : ~ In x (outs_l later)).
    { apply (wfl_not_later defd E s later x); [rewrite <- E0; exact W | apply HD1, Hx]. }
    pose proof (Hn x Hl Hno) as Hm.
    destruct (N.eq_dec x u) as [->|Hne]; [congruence|].
    rewrite (fdesc_not_live steps0 set u x Hd (Hin1 x Hx) Hne) in Hm. discriminate. }
  intros w Hw. rewrite Hfd, (fold_fstep_later_noop later D1 HD1n) in Hw. apply HD1n, Hw.
Qed.

Definition gcid (g : instr) : N := match igc g with Some v => vid v | None => 0%N end.

Lemma gc_ins_spec live : forall ins set gs set',
  gc_ins live ins set = (gs, set') ->
  (forall x, In x set -> In x set') /\
  (forall i, In i ins -> vconst i = false -> In (vid i) set') /\
  Forall (fun g => exists i, In i ins /\ vconst i = false /\ g = gc_instr i /\
                   exists sx, (forall x, In x set -> In x sx) /\ mem (vid i) sx = false /\ live sx (vid i) = false) gs /\
  NoDup (map gcid gs) /\ (forall g, In g gs -> ~ In (gcid g) set).
Proof.
  induction ins as [|i rest IH]; intros set gs set' H; simpl in H.
  - inversion H; subst. repeat split; auto; try constructor. intros i [].
  - destruct (vconst i) eqn:Ci.
    + specialize (IH _ _ _ H) as (I1 & I2 & I3 & I4 & I5). repeat split; auto.
      * intros j [->|Hj] Hc; [congruence | auto].
      * eapply Forall_impl; [|exact I3]. intros g (j & Hj & R). exists j. split; [right; exact Hj | exact R].
    + destruct (gc_ins live rest (vid i :: set)) as [gs1 set1] eqn:E. inversion H; subst. clear H.
      specialize (IH _ _ _ E) as (I1 & I2 & I3 & I4 & I5).
      assert (I3' : Forall (fun g => exists i0, In i0 (i :: rest) /\ vconst i0 = false /\ g = gc_instr i0 /\
                     exists sx, (forall x, In x set -> In x sx) /\ mem (vid i0) sx = false /\ live sx (vid i0) = false) gs1).
      { eapply Forall_impl; [|exact I3]. intros g (j & Hj & Hc & Hg & sx & S1 & S2 & S3).
        exists j. repeat split; auto. right; exact Hj. exists sx. repeat split; auto. intros x Hx. apply S1. right. exact Hx. }
      split; [intros x Hx; apply I1; right; exact Hx|].
      split; [intros j [->|Hj] Hc; [apply I1; left; reflexivity | auto]|].
      destruct (mem (vid i) set) eqn:M; [|destruct (live set (vid i)) eqn:Lv].
      1, 2: simpl; repeat split; auto; intros g Hg Hin; apply (I5 g Hg); right; exact Hin.
      * cbn [app map]. split; [|split].
        -- constructor; [|exact I3']. exists i. repeat split; auto. left; reflexivity.
           exists set. repeat split; auto.
        -- constructor; [|exact I4]. cbn [gcid gc_instr igc]. intros Hin.
           apply in_map_iff in Hin as (g & Eg & Hg). apply (I5 g Hg). left. symmetry. exact Eg.
        -- intros g [<-|Hg] Hin.
           ++ cbn [gcid gc_instr igc] in Hin. apply mem_false in M. contradiction.
           ++ apply (I5 g Hg). right. exact Hin.
Qed.

Definition good_gcs (steps0 : list instr) (s : instr) (later G : list instr) : Prop :=
  Forall (fun g => exists i, g = gc_instr i /\ vconst i = false /\ In (vid i) (nc_ins s) /\
                   forall w, In w (fdesc steps0 (vid i)) -> ~ In w (ncops_l later)) G /\
  NoDup (map gcid G).

(* the original list with, after each step s, gc instructions for some
   non-constant operands of s, each at most once, such that no value derived
   from a freed value is an operand of a later step *)
Inductive gcform (steps0 : list instr) : list instr -> list instr -> Prop :=
| gcform_nil : gcform steps0 [] []
| gcform_cons s later G g :
    gcform steps0 later g -> good_gcs steps0 s later G -> gcform steps0 (s :: later) (s :: G ++ g).

Lemma rev_good_gcs steps0 s later G : good_gcs steps0 s later G -> good_gcs steps0 s later (rev G).
Proof.
  intros [H1 H2]. split.
  - apply Forall_rev, H1.
  - rewrite map_rev. apply NoDup_rev, H2.
Qed.

Lemma gc_back_form defd steps0 : wfl defd steps0 ->
  forall rsteps set later gl,
    steps0 = rev rsteps ++ later -> gcform steps0 later gl -> needed_in later set ->
    gcform steps0 steps0
      (rev (gc_back (alias_live_deep (length steps0) (aliases_of true steps0)) rsteps set) ++ gl).
Proof.
  intros W. induction rsteps as [|s rest IH]; intros set later gl E Hf Hn.
  - simpl in *. subst later. exact Hf.
  - cbn [gc_back].
    destruct (gc_ins (alias_live_deep (length steps0) (aliases_of true steps0)) (iin s) set) as [gs set1] eqn:Eg.
    pose proof (gc_ins_spec _ _ _ _ _ Eg) as (G1 & G2 & G3 & G4 & G5).
    simpl in E. rewrite <- app_assoc in E. simpl in E.
    rewrite rev_app_distr. cbn [rev app]. rewrite <- !app_assoc. cbn [app].
    apply (IH _ (s :: later) (s :: rev gs ++ gl) E).
    + constructor; [exact Hf|]. apply rev_good_gcs. split; [|exact G4].
      eapply Forall_impl; [|exact G3].
      intros g (i & Hi & Hc & Hg & sx & S1 & S2 & S3). exists i. repeat split; auto.
      * apply in_nc_ins. exists i. auto.
      * apply (no_live_desc defd steps0 (rev rest) s later sx (vid i) W E); auto.
        -- apply in_nc_ins. exists i. auto.
        -- intros x Hx Hno. apply mem_In, S1, mem_In, Hn; auto.
    + intros x Hx Hno. unfold ncops_l, outs_l in Hx, Hno. simpl in Hx, Hno.
      assert (Hx1 : In x set1).
      { apply in_app_or in Hx as [Hx|Hx].
        - apply in_nc_ins in Hx as (i & Hi & Hc & <-). apply G2; auto.
        - apply G1, mem_In, Hn; [exact Hx|]. intros Hl. apply Hno, in_or_app. auto. }
      destruct (iout s) as [o|] eqn:Eo; [|apply mem_In, Hx1].
      rewrite mem_remove. apply andb_true_intro. split; [apply mem_In, Hx1|].
      destruct (N.eqb (vid o) x) eqn:Eq; [|reflexivity]. apply N.eqb_eq in Eq. exfalso. apply Hno.
      apply in_or_app. left. unfold outs_of. rewrite Eo. left. exact Eq.
Qed.

Theorem gc_fixed_form args steps g :
  wf_ssa args steps = true -> gc_fixed steps = Some g -> gcform steps steps g.
Proof.
  intros Hwf H. apply wf_steps_wfl in Hwf. unfold gc_fixed, gc_gen in H.
  pose proof (gc_back_form args steps Hwf (rev steps)) as F.
  remember (rev steps) as rs eqn:E.
  destruct rs as [|last r]; [discriminate|].
  destruct (iop last); try discriminate.
  match type of H with Some (rev ?x) = _ => remember x as gb eqn:Egb end.
  injection H as <-. subst gb.
  rewrite <- (app_nil_r (rev _)).
  apply (F _ [] []).
  - rewrite E, rev_involutive, app_nil_r. reflexivity.
  - constructor.
  - intros x [].
Qed.

(* "derived by alias instructions": reflexive-transitive closure of the
   alias edges (operand -> result of concat/shift/slice/mov/smov/amov) *)
Definition alias_edge (steps : list instr) (a b : N) : Prop :=
  exists t o, In t steps /\ is_alias_op (iop t) = true /\ iout t = Some o /\ vid o = b /\ In a (nc_ins t).

Inductive derived (steps : list instr) (u : N) : N -> Prop :=
| derived_refl : derived steps u u
| derived_step a b : derived steps u a -> alias_edge steps a b -> derived steps u b.

Lemma fdesc_closed defd steps0 k a b :
  wfl defd steps0 -> In a (fdesc steps0 k) -> alias_edge steps0 a b -> In b (fdesc steps0 k).
Proof.
  intros W Ha (t & o & Ht & Hop & Ho & <- & Hat).
  apply in_split in Ht as (A & B & E).
  destruct (W A t B E) as [W1 W2]. specialize (W1 a Hat).
  unfold fdesc in *. rewrite E in *. rewrite fold_left_app in *. cbn [fold_left] in *.
  set (DA := fold_left fstep A [k]) in *.
  assert (HaDA : In a DA).
  { destruct (fold_fstep_in B _ _ Ha) as [H|H].
    - apply fstep_in in H as [H|H]; [exact H|].
      exfalso. apply (W2 a H). exact W1.
    - exfalso. unfold outs_l in H. apply in_flat_map in H as (t2 & Ht2 & Hx).
      apply in_split in Ht2 as (B1 & B2 & ->).
      pose proof (W (A ++ t :: B1) t2 B2) as W3. rewrite <- app_assoc in W3. specialize (W3 eq_refl) as [_ W3].
      apply (W3 a Hx). unfold outs_l. rewrite flat_map_app.
      apply in_app_or in W1 as [H|H]; apply in_or_app; [left; apply in_or_app; auto | auto]. }
  apply fold_fstep_mono. unfold fstep. rewrite Hop. simpl.
  replace (existsb (fun a0 => mem a0 DA) (nc_ins t)) with true.
  - rewrite Ho. left. reflexivity.
  - symmetry. apply existsb_exists. exists a. split; [exact Hat | apply mem_In, HaDA].
Qed.

Lemma derived_fdesc defd steps0 u w : wfl defd steps0 -> derived steps0 u w -> In w (fdesc steps0 u).
Proof.
  intros W H. induction H as [|a b _ IH He].
  - unfold fdesc. apply fold_fstep_mono. left. reflexivity.
  - eapply fdesc_closed; eauto.
Qed.

Lemma nc_ins_gc i : nc_ins (gc_instr i) = [].
Proof. reflexivity. Qed.

Lemma gcform_ncops steps0 later g : gcform steps0 later g -> ncops_l g = ncops_l later.
Proof.
  induction 1 as [|s later G g Hf IH [HG _]]; [reflexivity|].
  unfold ncops_l in *. cbn [flat_map]. rewrite flat_map_app, IH. f_equal.
  replace (flat_map nc_ins G) with (@nil N); [reflexivity|].
  induction HG as [|x G (i & -> & _) _ IHG]; [reflexivity|]. cbn [flat_map]. rewrite <- IHG. reflexivity.
Qed.

Lemma wf_not_gc : forall steps defd, wf_steps defd steps = true -> Forall (fun s => iop s <> OGC) steps.
Proof.
  induction steps as [|s rest IH]; intros defd H; [constructor|].
  destruct rest as [|s2 rest'].
  - cbn [wf_steps] in H. constructor; [|constructor]. destruct (iop s); discriminate.
  - destruct (wf_steps_cons s (s2 :: rest') defd ltac:(discriminate) H) as (Hc & _ & _ & Hw). constructor; [exact Hc | eapply IH; eauto].
Qed.

Lemma gcs_ncops steps0 s later G : good_gcs steps0 s later G -> forall l1 l2, G = l1 ++ l2 -> ncops_l l2 = [].
Proof.
  intros [HG _] l1 l2 ->. apply Forall_app in HG as [_ HG].
  induction HG as [|x l (i & -> & _) _ IHG]; [reflexivity|]. unfold ncops_l in *. cbn [flat_map]. exact IHG.
Qed.

Lemma gcform_static defd steps0 : wfl defd steps0 ->
  forall later g, gcform steps0 later g -> Forall (fun s => iop s <> OGC) later ->
  forall A i B, g = A ++ gc_instr i :: B ->
    forall w, derived steps0 (vid i) w -> ~ In w (ncops_l B).
Proof.
  intros W later g F. induction F as [|s later G g' Hf IH HG]; intros Hng A i B E w Hd.
  - destruct A; discriminate.
  - inversion Hng as [|? ? Hs Hl]; subst.
    destruct A as [|a A].
    + injection E as E _. subst s. exfalso. apply Hs. reflexivity.
    + injection E as _ E. apply app_eq_app in E as (l & [[E1 E2]|[E1 E2]]).
      * destruct l as [|x l'].
        -- simpl in E2. exact (IH Hl [] i B (eq_sym E2) w Hd).
        -- injection E2 as <- E2. subst B.
           unfold ncops_l. rewrite flat_map_app. fold (ncops_l l') (ncops_l g').
           rewrite (gcs_ncops _ _ _ _ HG (A ++ [gc_instr i]) l') by (rewrite <- app_assoc; exact E1).
           rewrite (gcform_ncops _ _ _ Hf). simpl.
           destruct HG as [HG _]. rewrite E1 in HG. apply Forall_app in HG as [_ HG].
           inversion HG as [|? ? (i' & Ei & _ & _ & Hno) _]; subst.
           assert (i = i') by (unfold gc_instr in Ei; congruence). subst i'.
           apply Hno. eapply derived_fdesc; eauto.
      * (* the gc instruction is in g' *)
        exact (IH Hl l i B E2 w Hd).
Qed.

(* C05_gc_sound_static, for Program.GC with Concat as an alias op and alias
   chains followed (program.go since d266b2f, f274b03): when a gc instruction
   frees u, no value derived from u by alias instructions — u itself included —
   is an operand of any later step. *)
Theorem gc_fixed_static args steps g :
  wf_ssa args steps = true -> gc_fixed steps = Some g ->
  forall A i B, g = A ++ gc_instr i :: B ->
    forall w, derived steps (vid i) w -> ~ In w (ncops_l B).
Proof.
  intros Hwf Hg. eapply gcform_static.
  - apply wf_steps_wfl, Hwf.
  - eapply gc_fixed_form; eauto.
  - eapply wf_not_gc, Hwf.
Qed.
