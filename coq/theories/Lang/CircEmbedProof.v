(* CircEmbedProof.v — the gates Lang/CircEmbed.v emits for an embedded native
   circuit compute Circuit.eval_plain of that circuit on the flattened, zero
   padded argument wires, for EVERY sub-circuit meeting [circ_ok], every number
   of arguments and every width; and they keep the enclosing gate list single
   assignment and defined before use.

   Semantic part (okm): induction over the sub-circuit's gate list with the
   invariant "in every valuation consistent with the gates emitted so far, the
   compiler wire standing for every ASSIGNED sub-circuit wire k carries the
   value wire k has in Circuit.Compute after the same prefix" ([agree]).
   Structural part (oks): assigned sub-circuit wires map to defined compiler
   wires, unassigned ones to pairwise distinct pending wires. *)
From Coq Require Import NArith List Bool Arith Lia.
From Mpc Require Import Base.ListFacts Builders.Emit Builders.EmitProof Builders.StructProof Lang.CircEmbed.
From Mpc Require Circuit.GarbleProof.
Import ListNotations.
Open Scope N_scope.

Lemma sel_suffix {A} (o : list A) d : forall pre,
  map (fun w => nth w (pre ++ o) d) (seq (length pre) (length o)) = o.
Proof.
  induction o as [|x o IH]; intros pre; [reflexivity|].
  cbn [length seq map]. rewrite nth_middle. f_equal.
  specialize (IH (pre ++ [x])). rewrite app_length in IH. cbn [length] in IH.
  rewrite Nat.add_1_r in IH. rewrite <- app_assoc in IH. cbn [app] in IH. exact IH.
Qed.

Lemma init_asg_false c k : nth k (Circuit.init_asg c) false = false -> (Circuit.ninputs c <= k)%nat.
Proof.
  intros H. destruct (Nat.lt_ge_cases k (Circuit.ninputs c)) as [L|L]; [|exact L].
  unfold Circuit.init_asg in H. rewrite GarbleProof.nth_init_asg_lt in H by exact L. discriminate H.
Qed.

Lemma nth_upd_true (asg : list bool) o k :
  nth k (Circuit.upd asg o true) false = true -> k = o \/ nth k asg false = true.
Proof.
  intros H. destruct (Nat.eq_dec o k) as [E|E]; [left; auto|right].
  rewrite Circuit.nth_upd_neq in H by exact E. exact H.
Qed.

Lemma nth_upd_false (asg : list bool) o k : (o < length asg)%nat ->
  nth k (Circuit.upd asg o true) false = false -> k <> o /\ nth k asg false = false.
Proof.
  intros L H. destruct (Nat.eq_dec o k) as [E|E].
  - subst k. rewrite Circuit.nth_upd_eq in H by exact L. discriminate H.
  - rewrite Circuit.nth_upd_neq in H by exact E. split; [congruence|exact H].
Qed.

Definition agree (e : env) (cw : list wire) (asg wsb : list bool) : Prop :=
  forall k, nth k asg false = true -> e (nth k cw 0) = nth k wsb false.

Lemma okm_embed_gate t cw g :
  okm t (embed_gate cw g)
      (fun _ e => e (nth (Circuit.gout g) cw 0) =
                  Circuit.gate_fn (Circuit.gop g) (e (nth (Circuit.gin0 g) cw 0)) (e (nth (Circuit.gin1 g) cw 0))).
Proof.
  unfold embed_gate. destruct (Circuit.gop g); cbn [Circuit.gate_fn].
  1-3: (eapply okm_weaken; [apply okm_emit|]; cbv beta; intros _ e H; exact H).
  - apply okm_cc_or.
  - apply okm_cc_inv.
Qed.

Lemma agree_step e cw n ni asg wsb g :
  length wsb = n -> Circuit.gate_ok n ni asg g = true ->
  agree e cw asg wsb ->
  e (nth (Circuit.gout g) cw 0) = Circuit.gate_fn (Circuit.gop g) (e (nth (Circuit.gin0 g) cw 0)) (e (nth (Circuit.gin1 g) cw 0)) ->
  agree e cw (Circuit.upd asg (Circuit.gout g) true) (Circuit.eval_gate wsb g).
Proof.
  intros Lw GO A H k Hk.
  apply GarbleProof.gate_ok_spec in GO. destruct GO as ((G1 & G2 & G3) & G4 & G5).
  unfold Circuit.eval_gate. destruct (Nat.eq_dec (Circuit.gout g) k) as [E|E].
  - subst k. rewrite Circuit.nth_upd_eq by lia. rewrite H, (A _ G4).
    destruct (Circuit.gop g) eqn:EO; cbn [Circuit.gate_fn]; try reflexivity;
      (destruct G5 as [G5|[_ G6]]; [discriminate G5|]; rewrite (A _ G6); reflexivity).
  - rewrite Circuit.nth_upd_neq in Hk by exact E. rewrite Circuit.nth_upd_neq by exact E. apply A, Hk.
Qed.

Lemma okm_embed_gates t cw n ni : forall gs asg,
  Circuit.wf_gates n ni asg gs = true ->
  okm t (embed_gates cw gs)
      (fun _ e => forall wsb, length wsb = n -> agree e cw asg wsb ->
                  agree e cw (Circuit.final_asg asg gs) (fold_left Circuit.eval_gate gs wsb)).
Proof.
  induction gs as [|g r IH]; intros asg WF; cbn [embed_gates].
  - apply okm_ret. intros e wsb _ A. exact A.
  - cbn [Circuit.wf_gates] in WF. apply andb_true_iff in WF. destruct WF as [GO WF].
    eapply okm_bind; [apply okm_embed_gate|]. intros u. cbv beta.
    eapply okm_weaken; [apply (IH (Circuit.upd asg (Circuit.gout g) true) WF)|].
    cbv beta. intros _ e H HG wsb Lw A. unfold Circuit.final_asg. cbn [fold_left].
    apply (H (Circuit.eval_gate wsb g)).
    + unfold Circuit.eval_gate. rewrite Circuit.upd_length. exact Lw.
    + eapply agree_step; eauto.
Qed.

Lemma agree_init e c cin rest : length cin = Circuit.ninputs c ->
  agree e (cin ++ rest) (Circuit.init_asg c) (Circuit.init_wires c (map e cin)).
Proof.
  intros L k Hk. apply GarbleProof.nth_init_asg_true in Hk. unfold Circuit.init_wires.
  rewrite app_nth1 by lia.
  rewrite firstn_all2 by (rewrite map_length; lia).
  rewrite app_nth1 by (rewrite map_length; lia).
  rewrite (nth_indep _ false (e 0)) by (rewrite map_length; lia).
  rewrite map_nth. reflexivity.
Qed.

Fixpoint flat_bits (e : env) (ws : list (list wire)) (ins : list nat) : list bool :=
  match ws with
  | [] => []
  | w :: wr => (map e w ++ repeat false (hd 0%nat ins - length w)) ++ flat_bits e wr (tl ins)
  end.

Lemma pad_bits e p x n : pad_shape p x n -> pad_zero e p x ->
  map e p = map e x ++ repeat false (n - length x).
Proof.
  intros (zw & ->) Z. rewrite map_app. f_equal. unfold pad_zero in Z.
  rewrite skipn_app, Nat.sub_diag, skipn_all in Z. cbn [app skipn] in Z.
  induction (n - length x)%nat as [|k IH]; [reflexivity|].
  cbn [repeat map]. rewrite (Z zw) by (left; reflexivity). f_equal.
  apply IH. intros w Hin. apply Z. right. exact Hin.
Qed.

Lemma okp_flatten t : forall ws ins,
  Forall2 (fun w n => (length w <= n)%nat) ws ins ->
  okp t (flatten_args ws ins) (fun cin => length cin = tot ins)
      (fun cin e => map e cin = flat_bits e ws ins).
Proof.
  induction ws as [|w wr IH]; intros ins F; inversion F; subst; cbn [flatten_args flat_bits].
  - apply okp_ret; [reflexivity|]. reflexivity.
  - cbn [hd tl]. eapply okp_bind; [apply okp_pad|]. intros p Sh. cbv beta.
    eapply okp_bind; [apply IH; eassumption|]. intros r Lr. cbv beta.
    apply okp_ret.
    + rewrite app_length, (pad_shape_len _ _ _ Sh), Lr. cbn [tot fold_right]. fold (tot l'). lia.
    + intros e Hr Hp. rewrite map_app, Hr. f_equal. apply pad_bits; assumption.
Qed.

Lemma circ_ok_spec c : circ_ok c = true ->
  (Circuit.ninputs c + Circuit.noutputs c <= Circuit.nwires c)%nat /\
  Circuit.wf_gates (Circuit.nwires c) (Circuit.ninputs c) (Circuit.init_asg c) (Circuit.gates c) = true /\
  sa_gates (Circuit.init_asg c) (Circuit.gates c) = true /\
  (forall w, In w (Circuit.output_wires c) ->
             nth w (Circuit.final_asg (Circuit.init_asg c) (Circuit.gates c)) false = true).
Proof.
  unfold circ_ok. rewrite !andb_true_iff, Nat.leb_le, GarbleProof.wf_spec. tauto.
Qed.

(* the result wires are the last wires of the embedded circuit *)
Lemma outs_sel c (cin ints o : list wire) :
  length (cin ++ ints ++ o) = Circuit.nwires c -> length o = Circuit.noutputs c ->
  o = map (fun w => nth w (cin ++ ints ++ o) 0) (Circuit.output_wires c).
Proof.
  intros L Lo. unfold Circuit.output_wires. rewrite app_assoc in *. rewrite app_length in L.
  replace (Circuit.nwires c - Circuit.noutputs c)%nat with (length (cin ++ ints)) by lia.
  rewrite <- Lo. symmetry. apply sel_suffix.
Qed.

Theorem okp_embed_circ t ins ob c ws :
  circ_ok c = true -> Forall2 (fun w n => (length w <= n)%nat) ws ins ->
  tot ins = Circuit.ninputs c -> ob = Circuit.noutputs c ->
  okp t (embed_circ ins ob c ws) (fun o => length o = ob)
      (fun o e => map e o = Circuit.eval_plain c (flat_bits e ws ins)).
Proof.
  intros OK F TI TO. destruct (circ_ok_spec c OK) as (LN & WG & _ & OA).
  unfold embed_circ.
  eapply okp_bind; [apply okp_flatten; exact F|]. intros cin Lc. cbv beta.
  eapply okp_bind; [apply okp_fresh_n|]. intros o Lo. cbv beta.
  eapply okp_bind; [apply okp_fresh_n|]. intros ints Li. cbv beta.
  cbv beta in Lc, Lo, Li.
  eapply okp_bind.
  - apply okp_of_okm.
    apply (okm_embed_gates t (cin ++ ints ++ o) (Circuit.nwires c) (Circuit.ninputs c) (Circuit.gates c) (Circuit.init_asg c) WG).
  - intros u _. cbv beta. apply okp_ret; [exact Lo|].
    intros e HG _ _ HC. cbv beta in Lc, Lo, Li.
    assert (Lcin : length cin = Circuit.ninputs c) by congruence.
    specialize (HG (Circuit.init_wires c (map e cin))).
    assert (LW : length (Circuit.init_wires c (map e cin)) = Circuit.nwires c).
    { unfold Circuit.init_wires. rewrite app_length, firstn_length, map_length, repeat_length. lia. }
    specialize (HG LW (agree_init e c cin (ints ++ o) Lcin)).
    rewrite <- HC. unfold Circuit.eval_plain, Circuit.eval_plain_wires.
    rewrite (outs_sel c cin ints o) at 1 by (rewrite ?app_length; lia). rewrite map_map. apply map_ext_in. intros w Hw. apply HG, OA, Hw.
Qed.

Section S.
Variable ninp : N.
Notation defd := (defd ninp). Notation pend := (pend ninp). Notation wfst := (wfst ninp).
Notation step := (StructProof.step ninp). Notation oks := (@oks ninp _).

Definition after (s s' : st) : Prop := gmw s' = gmw s /\ forall w, defd s w -> defd s' w.

Lemma after_refl s : after s s. Proof. split; auto. Qed.
Lemma after_trans a b c : after a b -> after b c -> after a c.
Proof. intros [G1 D1] [G2 D2]. split; [congruence|auto]. Qed.
Lemma step_after s s' wr : step s s' wr -> after s s'.
Proof. intros S. split; [eapply step_gmw; eauto | intros w; eapply step_defd; eauto]. Qed.
Lemma after_F s s' l : after s s' -> Forall (defd s) l -> Forall (defd s') l.
Proof. intros [_ D] F. eapply Forall_impl; [|exact F]. exact D. Qed.
Lemma after_FF s s' (vals : list (list wire)) :
  after s s' -> Forall (Forall (defd s)) vals -> Forall (Forall (defd s')) vals.
Proof. intros A F. eapply Forall_impl; [|exact F]. intros l. apply after_F, A. Qed.

Lemma embed_gate_s cw g s : wfst s ->
  defd s (nth (Circuit.gin0 g) cw 0) ->
  (Circuit.gop g <> Circuit.INV -> defd s (nth (Circuit.gin1 g) cw 0)) ->
  pend s (nth (Circuit.gout g) cw 0) ->
  oks (embed_gate cw g) s
      (fun _ s' => step s s' [nth (Circuit.gout g) cw 0] /\ defd s' (nth (Circuit.gout g) cw 0)).
Proof.
  intros W Da Db Po. unfold embed_gate. destruct (Circuit.gop g).
  (* XOR XNOR AND: one emitted gate *)
  1-3: (eapply oks_conseq; [apply emit_s; auto; apply Db; discriminate|]; cbv beta; intros _ s' _ (S & D & _); auto).
  - apply cc_or_s; auto. apply Db. discriminate.
  - apply cc_inv_s; auto.
Qed.

Lemma embed_gates_s cw n ni : forall gs asg s, wfst s ->
  length asg = n -> Circuit.wf_gates n ni asg gs = true -> sa_gates asg gs = true ->
  (forall k k', (k < n)%nat -> (k' < n)%nat -> nth k asg false = false -> nth k' asg false = false ->
                nth k cw 0 = nth k' cw 0 -> k = k') ->
  (forall k, (k < n)%nat -> nth k asg false = true -> defd s (nth k cw 0)) ->
  (forall k, (k < n)%nat -> nth k asg false = false -> pend s (nth k cw 0)) ->
  oks (embed_gates cw gs) s
      (fun _ s' => after s s' /\
                   forall k, (k < n)%nat -> nth k (Circuit.final_asg asg gs) false = true -> defd s' (nth k cw 0)).
Proof.
  induction gs as [|g r IH]; intros asg s W La WF SA INJ HD HP; cbn [embed_gates].
  - apply oks_ret; auto. split; [apply after_refl|exact HD].
  - cbn [Circuit.wf_gates] in WF. apply andb_true_iff in WF. destruct WF as [GO WF].
    cbn [sa_gates] in SA. apply andb_true_iff in SA. destruct SA as [SG SA].
    apply negb_true_iff in SG.
    apply GarbleProof.gate_ok_spec in GO. destruct GO as ((G1 & G2 & G3) & G4 & G5).
    eapply oks_bind.
    + apply embed_gate_s; [exact W | apply HD; assumption | | apply HP; assumption].
      intros NI. destruct G5 as [G5|[G6 G7]]; [contradiction|]. apply HD; assumption.
    + intros u s1 W1 (S1 & D1). cbv beta.
      eapply oks_conseq.
      * apply (IH (Circuit.upd asg (Circuit.gout g) true) s1 W1); [rewrite Circuit.upd_length; exact La | exact WF | exact SA | | |].
        -- intros k k' Hk Hk' A A'.
           apply nth_upd_false in A; [|lia]. apply nth_upd_false in A'; [|lia].
           destruct A as [_ A]. destruct A' as [_ A']. apply INJ; assumption.
        -- intros k Hk A. apply nth_upd_true in A. destruct A as [->|A]; [exact D1|].
           eapply step_defd; [exact S1|]. apply HD; assumption.
        -- intros k Hk A. apply nth_upd_false in A; [|lia]. destruct A as [NE A].
           eapply step_pend; [exact S1 | apply HP; assumption |].
           cbn. intros [E|[]]. apply NE. apply INJ; auto.
      * cbv beta. intros _ s2 W2 (A2 & F2). split; [|exact F2].
        eapply after_trans; [eapply step_after; exact S1|exact A2].
Qed.

Lemma flatten_s : forall ws ins s, wfst s ->
  Forall2 (fun w n => Forall (defd s) w /\ (length w <= n)%nat) ws ins ->
  oks (flatten_args ws ins) s
      (fun cin s' => step s s' [] /\ Forall (defd s') cin /\ length cin = tot ins).
Proof.
  induction ws as [|w wr IH]; intros ins s W F; inversion F; subst; cbn [flatten_args].
  - apply oks_ret; auto. split; [apply step_refl|]. split; [constructor|reflexivity].
  - cbn [hd tl]. match goal with H : _ /\ _ |- _ => destruct H as [Fw Lw] end.
    eapply oks_bind; [apply pad_s; eauto|]. intros p s1 W1 (S1 & Fp & Lp). cbv beta.
    eapply oks_bind.
    + apply IH; [exact W1|].
      match goal with H : Forall2 _ wr _ |- _ => clear - H S1; induction H as [|a b la lb [Fa La] _ IHF]; constructor; auto end.
      split; [eapply Forall_defd_step; eauto|exact La].
    + intros r s2 W2 (S2 & Fr & Lr). cbv beta. apply oks_ret; auto. split; [|split].
      * apply (step_trans ninp s s1 s2 [] [] S1 S2).
      * apply Forall_app. split; [eapply Forall_defd_step; eauto|exact Fr].
      * rewrite app_length, Lp, Lr. cbn [tot fold_right]. fold (tot l'). lia.
Qed.

Theorem embed_circ_s ins ob c ws s : wfst s -> circ_ok c = true ->
  Forall2 (fun w n => Forall (defd s) w /\ (length w <= n)%nat) ws ins ->
  tot ins = Circuit.ninputs c -> ob = Circuit.noutputs c ->
  oks (embed_circ ins ob c ws) s (fun o s' => after s s' /\ Forall (defd s') o).
Proof.
  intros W OK F TI TO. destruct (circ_ok_spec c OK) as (LN & WG & SA & OA).
  unfold embed_circ.
  eapply oks_bind; [apply flatten_s; eauto|]. intros cin s1 W1 (S1 & Fc & Lc). cbv beta.
  sbind fresh_n_s. intros o s2 W2 (S2 & NDo & Lo & Po). cbv beta.
  sbind fresh_n_s. intros ints s3 W3 (S3 & NDi & Li & Pi). cbv beta.
  assert (IL : length (Circuit.init_asg c) = Circuit.nwires c) by (apply GarbleProof.init_asg_length; lia).
  assert (Lcin : length cin = Circuit.ninputs c) by congruence.
  assert (ND : NoDup (ints ++ o)).
  { apply NoDup_app_iff. split; [exact NDi|]. split; [exact NDo|]. intros x Hi Ho. destruct (Pi _ Hi) as [_ Ge].
    destruct (Po _ Ho) as [Px _]. pose proof (pend_next _ _ _ Px). lia. }
  assert (PP : forall w, In w (ints ++ o) -> pend s3 w).
  { intros w Hin. apply in_app_or in Hin. destruct Hin as [H|H]; [apply Pi, H|].
    eapply step_pend; [exact S3|apply Po, H|intros []]. }
  assert (LT : length (ints ++ o) = (Circuit.nwires c - Circuit.ninputs c)%nat) by (rewrite app_length; lia).
  eapply oks_bind.
  - apply (embed_gates_s (cin ++ ints ++ o) (Circuit.nwires c) (Circuit.ninputs c) (Circuit.gates c) (Circuit.init_asg c) s3 W3 IL WG SA).
    + intros k k' Hk Hk' A A' E.
      apply init_asg_false in A, A'.
      rewrite (app_nth2 cin _ 0 (n:=k)), (app_nth2 cin _ 0 (n:=k')) in E by lia. rewrite Lcin in E.
      rewrite NoDup_nth in ND. specialize (ND (k - Circuit.ninputs c)%nat (k' - Circuit.ninputs c)%nat).
      assert ((k - Circuit.ninputs c)%nat = (k' - Circuit.ninputs c)%nat) by (apply ND; [lia|lia|exact E]). lia.
    + intros k Hk A. apply GarbleProof.nth_init_asg_true in A. rewrite app_nth1 by lia.
      assert (In (nth k cin 0) cin) by (apply nth_In; lia).
      rewrite Forall_forall in Fc.
      eapply step_defd; [exact S3|]. eapply step_defd; [exact S2|]. apply Fc. assumption.
    + intros k Hk A.
      apply init_asg_false in A. rewrite app_nth2 by lia. apply PP. apply nth_In. lia.
  - intros u s4 W4 (A4 & D4). cbv beta. apply oks_ret; auto. split.
    + eapply after_trans; [eapply step_after; exact S1|].
      eapply after_trans; [eapply step_after; exact S2|].
      eapply after_trans; [eapply step_after; exact S3|exact A4].
    + rewrite (outs_sel c cin ints o) by (rewrite ?app_length; lia). apply Forall_forall. intros x Hin. apply in_map_iff in Hin.
      destruct Hin as (w & <- & Hw). apply D4; [|apply OA, Hw].
      unfold Circuit.output_wires in Hw. apply in_seq in Hw. lia.
Qed.
End S.
