(* Arithmetic of the bit-vector operations of Lang/Mini.v and Lang/Ssa.v, mostly
   bit by bit, and what eval_instr gives each opcode, as an equation.  No wires,
   no generators. *)
From Coq Require Import ZArith NArith List Bool Lia.
From Mpc Require Import Lang.Mini Lang.Ssa.
Import ListNotations.
Local Open Scope N_scope.

Lemma bits_inj_nat a b :
  (forall k : nat, N.testbit a (N.of_nat k) = N.testbit b (N.of_nat k)) -> a = b.
Proof.
  intros H. apply N.bits_inj. intros n. rewrite <- (N2Nat.id n). apply H.
Qed.

Lemma pow2_eq w : pow2 w = 2 ^ N.of_nat w. Proof. reflexivity. Qed.

Lemma pow2_nz w : pow2 w <> 0. Proof. apply N.pow_nonzero. discriminate. Qed.

Lemma pow2_add a b : pow2 (a + b) = pow2 a * pow2 b.
Proof. unfold pow2. rewrite Nat2N.inj_add, N.pow_add_r. reflexivity. Qed.

Lemma pow2_le_mono a b : (a <= b)%nat -> pow2 a <= pow2 b.
Proof. intros H. unfold pow2. apply N.pow_le_mono_r; lia. Qed.

Lemma norm_testbit w n k :
  N.testbit (norm w n) (N.of_nat k) = Nat.ltb k w && N.testbit n (N.of_nat k).
Proof.
  unfold norm, pow2. destruct (Nat.ltb k w) eqn:E.
  - apply Nat.ltb_lt in E. rewrite N.mod_pow2_bits_low by lia. reflexivity.
  - apply Nat.ltb_ge in E. rewrite N.mod_pow2_bits_high by lia. reflexivity.
Qed.

Lemma norm_lt w n : norm w n < pow2 w.
Proof. unfold norm. apply N.mod_lt, pow2_nz. Qed.

Lemma norm_small w n : n < pow2 w -> norm w n = n.
Proof. intros H. unfold norm. apply N.mod_small, H. Qed.

Lemma norm_norm w n : norm w (norm w n) = norm w n.
Proof. apply norm_small. apply norm_lt. Qed.

Lemma norm_0 w : norm w 0 = 0%N.
Proof. unfold norm. apply N.mod_0_l. apply pow2_nz. Qed.

Lemma norm_norm_le a b n : (a <= b)%nat -> norm a (norm b n) = norm a n.
Proof.
  intros H. apply bits_inj_nat. intros k. rewrite !norm_testbit.
  destruct (Nat.ltb k a) eqn:E; [|reflexivity]. apply Nat.ltb_lt in E.
  replace (Nat.ltb k b) with true by (symmetry; apply Nat.ltb_lt; lia). reflexivity.
Qed.

Lemma Zpow2 w : Z.of_N (pow2 w) = (2 ^ Z.of_nat w)%Z.
Proof. unfold pow2. rewrite N2Z.inj_pow, nat_N_Z. reflexivity. Qed.

Lemma Ntestbit_toN z k : (0 <= z)%Z -> N.testbit (Z.to_N z) (N.of_nat k) = Z.testbit z (Z.of_nat k).
Proof.
  intros H. rewrite <- (Z2N.id z) at 2 by exact H. rewrite <- nat_N_Z, N2Z.inj_testbit. reflexivity.
Qed.

Lemma Zpow2_pos w : (0 < 2 ^ Z.of_nat w)%Z.
Proof. apply Z.pow_pos_nonneg; lia. Qed.

Lemma Zmod_pow2_testbit (z : Z) w k :
  Z.testbit (z mod 2 ^ Z.of_nat w) (Z.of_nat k) = Nat.ltb k w && Z.testbit z (Z.of_nat k).
Proof.
  destruct (Nat.ltb k w) eqn:E.
  - apply Nat.ltb_lt in E. rewrite Z.mod_pow2_bits_low by lia. reflexivity.
  - apply Nat.ltb_ge in E. rewrite Z.mod_pow2_bits_high by lia. reflexivity.
Qed.

Lemma of_Z_testbit w z k :
  N.testbit (of_Z w z) (N.of_nat k) = Nat.ltb k w && Z.testbit z (Z.of_nat k).
Proof.
  unfold of_Z. rewrite Zpow2.
  rewrite Ntestbit_toN by (apply Z.mod_pos_bound, Zpow2_pos).
  apply Zmod_pow2_testbit.
Qed.

Lemma of_Z_lt w z : of_Z w z < pow2 w.
Proof.
  unfold of_Z.
  assert (P : (0 < Z.of_N (pow2 w))%Z) by (pose proof (pow2_nz w); lia).
  pose proof (Z.mod_pos_bound z _ P) as B. lia.
Qed.

Lemma norm_of_Z w z : norm w (of_Z w z) = of_Z w z.
Proof. apply norm_small. apply of_Z_lt. Qed.

Lemma norm1_ofb b : norm 1 (ofb b) = ofb b.
Proof. destruct b; reflexivity. Qed.

Lemma arith_norm op sg w a b :
  norm (res_width op w) (arith op sg w a b) = arith op sg w a b.
Proof.
  destruct op; unfold res_width; simpl; unfold arith;
    try apply norm_of_Z; try apply norm_norm; try apply norm1_ofb.
  - destruct (_ =? 0)%Z; [destruct (_ <? 0)%Z|]; apply norm_of_Z.
  - destruct (_ =? 0)%Z; apply norm_of_Z.
Qed.

Definition xbit (sg : bool) (w : nat) (n : N) (k : nat) : bool :=
  if Nat.ltb k w then N.testbit n (N.of_nat k)
  else sg && Nat.ltb 0 w && N.testbit n (N.of_nat (w - 1)).

Lemma Ztestbit_split (a b : Z) w k : (0 <= a < 2 ^ Z.of_nat w)%Z ->
  Z.testbit (a + 2 ^ Z.of_nat w * b) (Z.of_nat k) =
  if Nat.ltb k w then Z.testbit a (Z.of_nat k) else Z.testbit b (Z.of_nat (k - w)).
Proof.
  intros Ha. pose proof (Zpow2_pos w) as P.
  destruct (Nat.ltb k w) eqn:E.
  - apply Nat.ltb_lt in E.
    rewrite <- (Z.mod_pow2_bits_low (a + 2 ^ Z.of_nat w * b) (Z.of_nat w)) by lia.
    rewrite Z.mul_comm, Z.mod_add by lia. rewrite Z.mod_small by exact Ha. reflexivity.
  - apply Nat.ltb_ge in E.
    replace (Z.of_nat k) with (Z.of_nat (k - w) + Z.of_nat w)%Z by lia.
    rewrite <- Z.div_pow2_bits by lia.
    rewrite Z.mul_comm, Z.div_add by lia. rewrite Z.div_small by exact Ha. reflexivity.
Qed.

Lemma to_Z_testbit sg w n k : Z.testbit (to_Z sg w n) (Z.of_nat k) = xbit sg w n k.
Proof.
  unfold to_Z, xbit.
  assert (B : (0 <= Z.of_N (norm w n) < 2 ^ Z.of_nat w)%Z).
  { rewrite <- Zpow2. pose proof (norm_lt w n). lia. }
  assert (T : forall j, N.testbit (norm w n) (N.of_nat j) = Nat.ltb j w && N.testbit n (N.of_nat j))
    by (intros; apply norm_testbit).
  destruct (sg && N.testbit (norm w n) (N.of_nat (w - 1)) && negb (Nat.eqb w 0)) eqn:C.
  - apply andb_true_iff in C. destruct C as [C C3]. apply andb_true_iff in C. destruct C as [C1 C2].
    apply negb_true_iff, Nat.eqb_neq in C3. subst sg.
    rewrite T in C2. apply andb_true_iff in C2. destruct C2 as [_ C2].
    rewrite Zpow2.
    replace (Z.of_N (norm w n) - 2 ^ Z.of_nat w)%Z with (Z.of_N (norm w n) + 2 ^ Z.of_nat w * (-1))%Z by lia.
    rewrite Ztestbit_split by exact B.
    destruct (Nat.ltb k w) eqn:E.
    + rewrite <- nat_N_Z, N2Z.inj_testbit, T, E. reflexivity.
    + rewrite Z.bits_m1 by lia. rewrite C2.
      replace (Nat.ltb 0 w) with true by (symmetry; apply Nat.ltb_lt; lia). reflexivity.
  - rewrite <- nat_N_Z, N2Z.inj_testbit, T.
    destruct (Nat.ltb k w) eqn:E; [reflexivity|]. cbn [andb]. symmetry.
    destruct sg; [|reflexivity]. cbn [andb] in *.
    destruct (Nat.eqb_spec w 0) as [W0|W0].
    + subst w. reflexivity.
    + cbn [negb] in C. rewrite andb_true_r in C. rewrite T in C.
      replace (Nat.ltb (w - 1) w) with true in C by (symmetry; apply Nat.ltb_lt; lia).
      cbn [andb] in C. rewrite C. apply andb_false_r.
Qed.

Lemma resize_testbit sw n t k :
  N.testbit (resize sw n t) (N.of_nat k) = Nat.ltb k (s_bits t) && xbit (s_signed t) sw n k.
Proof.
  unfold resize.
  destruct (s_signed t && Nat.ltb sw (s_bits t)) eqn:C.
  - apply andb_true_iff in C. destruct C as [C1 C2]. rewrite C1.
    rewrite of_Z_testbit, to_Z_testbit. reflexivity.
  - rewrite !norm_testbit. unfold xbit.
    destruct (Nat.ltb k (s_bits t)) eqn:E1; [|reflexivity].
    destruct (Nat.ltb k sw) eqn:E2; [reflexivity|]. cbn.
    apply Nat.ltb_lt in E1. apply Nat.ltb_ge in E2.
    destruct (s_signed t); [|reflexivity]. cbn in C. apply Nat.ltb_ge in C. lia.
Qed.

Lemma resize_lt sw n t : resize sw n t < pow2 (s_bits t).
Proof.
  unfold resize. destruct (s_signed t && Nat.ltb sw (s_bits t)); [apply of_Z_lt | apply norm_lt].
Qed.

Lemma resize_same sg w n : resize w n (mkSty sg w) = norm w n.
Proof.
  unfold resize. simpl. rewrite Nat.ltb_irrefl, andb_false_r. apply norm_norm.
Qed.

Lemma resize_norm cw cv t : resize cw (norm cw cv) t = resize cw cv t.
Proof.
  apply bits_inj_nat. intros k. rewrite !resize_testbit. f_equal. unfold xbit.
  destruct (Nat.ltb k cw) eqn:K.
  - rewrite norm_testbit, K. reflexivity.
  - destruct (Nat.ltb 0 cw) eqn:Z; [|rewrite !andb_false_r; reflexivity].
    apply Nat.ltb_lt in Z. rewrite norm_testbit.
    replace (Nat.ltb (cw - 1) cw) with true by (symmetry; apply Nat.ltb_lt; lia). reflexivity.
Qed.

Lemma opnd_val_lt vs o : opnd_val vs o < pow2 (opnd_bits o).
Proof.
  destruct o as [i t|cw cv t]; cbn [opnd_val opnd_bits opnd_ty].
  - destruct (nth i vs (0%nat, 0)). apply resize_lt.
  - apply resize_lt.
Qed.

Lemma opnd_val_lt_le vs o w : (opnd_bits o <= w)%nat -> opnd_val vs o < pow2 w.
Proof.
  intros H. eapply N.lt_le_trans; [apply opnd_val_lt | apply pow2_le_mono, H].
Qed.

Lemma Zbits_inj_nat (a b : Z) :
  (forall k : nat, Z.testbit a (Z.of_nat k) = Z.testbit b (Z.of_nat k)) -> a = b.
Proof.
  intros H. apply Z.bits_inj'. intros n Hn. rewrite <- (Z2Nat.id n) by exact Hn. apply H.
Qed.

Lemma to_Z_mod sg w wo a : (wo <= w)%nat ->
  (to_Z sg w a mod 2 ^ Z.of_nat wo)%Z = (Z.of_N a mod 2 ^ Z.of_nat wo)%Z.
Proof.
  intros H. apply Zbits_inj_nat. intros k. rewrite !Zmod_pow2_testbit, to_Z_testbit.
  destruct (Nat.ltb k wo) eqn:E; [|reflexivity]. apply Nat.ltb_lt in E. unfold xbit.
  replace (Nat.ltb k w) with true by (symmetry; apply Nat.ltb_lt; lia).
  rewrite <- nat_N_Z, N2Z.inj_testbit. reflexivity.
Qed.

Lemma ofZ_norm wo w z : (wo <= w)%nat -> Z.of_N (norm wo (of_Z w z)) = (z mod 2 ^ Z.of_nat wo)%Z.
Proof.
  intros H. replace (norm wo (of_Z w z)) with (of_Z wo z).
  - unfold of_Z. rewrite Zpow2, Z2N.id; [reflexivity|]. apply Z.mod_pos_bound, Zpow2_pos.
  - apply bits_inj_nat. intros k. rewrite norm_testbit, !of_Z_testbit.
    destruct (Nat.ltb k wo) eqn:E; [|reflexivity]. apply Nat.ltb_lt in E.
    replace (Nat.ltb k w) with true by (symmetry; apply Nat.ltb_lt; lia). reflexivity.
Qed.

Lemma ZofN_mod_pow2 x wo : Z.of_N (x mod 2 ^ N.of_nat wo) = (Z.of_N x mod 2 ^ Z.of_nat wo)%Z.
Proof.
  rewrite N2Z.inj_mod. rewrite N2Z.inj_pow, nat_N_Z. reflexivity.
Qed.

Lemma arith_add sg w wo a b : (wo <= w)%nat ->
  norm wo (arith Add sg w a b) = (a + b) mod 2 ^ N.of_nat wo.
Proof.
  intros H. apply N2Z.inj. cbn [arith]. rewrite ofZ_norm by exact H.
  rewrite ZofN_mod_pow2, N2Z.inj_add.
  rewrite Zplus_mod, !(to_Z_mod sg w wo) by exact H. rewrite <- Zplus_mod. reflexivity.
Qed.

Lemma arith_mul sg w wo a b : (wo <= w)%nat ->
  norm wo (arith Mul sg w a b) = (a * b) mod 2 ^ N.of_nat wo.
Proof.
  intros H. apply N2Z.inj. cbn [arith]. rewrite ofZ_norm by exact H.
  rewrite ZofN_mod_pow2, N2Z.inj_mul.
  rewrite Zmult_mod, !(to_Z_mod sg w wo) by exact H. rewrite <- Zmult_mod. reflexivity.
Qed.

Lemma arith_sub sg w wo a b : (wo <= w)%nat ->
  norm wo (arith Sub sg w a b) =
  (a + 2 ^ N.of_nat wo - b mod 2 ^ N.of_nat wo) mod 2 ^ N.of_nat wo.
Proof.
  intros H. apply N2Z.inj. cbn [arith]. rewrite ofZ_norm by exact H.
  assert (NZ : 2 ^ N.of_nat wo <> 0) by (apply N.pow_nonzero; discriminate).
  pose proof (N.mod_lt b _ NZ) as Bb.
  rewrite ZofN_mod_pow2, N2Z.inj_sub by lia. rewrite N2Z.inj_add, ZofN_mod_pow2.
  rewrite N2Z.inj_pow, nat_N_Z. change (Z.of_N 2) with 2%Z.
  set (M := (2 ^ Z.of_nat wo)%Z).
  replace (Z.of_N a + M - Z.of_N b mod M)%Z with (Z.of_N a - Z.of_N b mod M + 1 * M)%Z by lia.
  rewrite Z_mod_plus_full, Zminus_mod_idemp_r.
  rewrite Zminus_mod. unfold M. rewrite !(to_Z_mod sg w wo) by exact H. rewrite <- Zminus_mod. reflexivity.
Qed.

Definition bitop (op : binop) : N -> N -> N :=
  match op with BAnd => N.land | BOr => N.lor | BXor => N.lxor | _ => N.ldiff end.

Lemma arith_bitwise op sg w wo a b : (wo <= w)%nat ->
  match op with BAnd | BOr | BXor | BAndNot => True | _ => False end ->
  norm wo (arith op sg w a b) = bitop op a b mod 2 ^ N.of_nat wo.
Proof.
  intros H Hop. change (bitop op a b mod 2 ^ N.of_nat wo) with (norm wo (bitop op a b)).
  apply bits_inj_nat. intros k. rewrite !norm_testbit.
  destruct (Nat.ltb k wo) eqn:E; [|reflexivity]. apply Nat.ltb_lt in E. cbn [andb].
  assert (Ew : Nat.ltb k w = true) by (apply Nat.ltb_lt; lia).
  destruct op; try contradiction; cbn [arith bitop]; rewrite norm_testbit, Ew; cbn [andb];
    rewrite ?N.land_spec, ?N.lor_spec, ?N.lxor_spec, ?N.ldiff_spec, !norm_testbit, Ew; reflexivity.
Qed.

Lemma to_Z_unsigned w a : a < pow2 w -> to_Z false w a = Z.of_N a.
Proof. intros H. unfold to_Z. cbn [andb]. rewrite norm_small by exact H. reflexivity. Qed.

Lemma ofb_b2n b : ofb b = N.b2n b. Proof. destruct b; reflexivity. Qed.

Lemma arith_ucmp op w a b :
  match op with Lt | Le | Gt | Ge | Eq | Ne => True | _ => False end ->
  a < pow2 w -> b < pow2 w ->
  arith op false w a b =
  N.b2n (match op with
         | Lt => a <? b | Le => a <=? b | Gt => b <? a | Ge => b <=? a | Eq => a =? b | _ => negb (a =? b)
         end).
Proof.
  intros Hop Ha Hb. destruct op; try contradiction; cbn [arith];
    rewrite ?to_Z_unsigned, ?norm_small, ofb_b2n by assumption; try reflexivity;
    unfold Z.ltb, Z.leb, N.ltb, N.leb; rewrite N2Z.inj_compare; reflexivity.
Qed.

Lemma b2n_norm1 b : norm 1 (N.b2n b) = N.b2n b.
Proof. destruct b; reflexivity. Qed.

Lemma of_Z_ofN w x : of_Z w (Z.of_N x) = norm w x.
Proof. unfold of_Z, norm. rewrite <- N2Z.inj_mod, N2Z.id. reflexivity. Qed.

Lemma of_Z_m1 w : of_Z w (-1) = pow2 w - 1.
Proof.
  unfold of_Z. pose proof (pow2_nz w) as NZ.
  assert (E : ((-1) mod Z.of_N (pow2 w) = Z.of_N (pow2 w) - 1)%Z).
  { symmetry. apply Z.mod_unique with (q := (-1)%Z); lia. }
  rewrite E. lia.
Qed.

Lemma testbit_add_shift lo x k i : lo < pow2 k ->
  N.testbit (lo + x * pow2 k) (N.of_nat i) =
  if Nat.ltb i k then N.testbit lo (N.of_nat i) else N.testbit x (N.of_nat (i - k)).
Proof.
  intros H. unfold pow2 in *. destruct (Nat.ltb i k) eqn:E.
  - apply Nat.ltb_lt in E.
    rewrite <- (N.mod_pow2_bits_low (lo + x * 2 ^ N.of_nat k) (N.of_nat k)) by lia.
    rewrite N.mod_add by (apply N.pow_nonzero; discriminate). rewrite N.mod_small by exact H. reflexivity.
  - apply Nat.ltb_ge in E. replace (N.of_nat i) with (N.of_nat (i - k) + N.of_nat k) by lia.
    rewrite <- N.div_pow2_bits. rewrite N.div_add by (apply N.pow_nonzero; discriminate).
    rewrite N.div_small by exact H. reflexivity.
Qed.

Lemma div_pow2_testbit a off k :
  N.testbit (a / pow2 off) (N.of_nat k) = N.testbit a (N.of_nat (k + off)).
Proof. unfold pow2. rewrite N.div_pow2_bits. f_equal. lia. Qed.

Lemma store_sem_testbit tw off w a v i :
  N.testbit (store_sem tw off w a v) (N.of_nat i) =
  Nat.ltb i tw &&
  (if Nat.ltb i off || Nat.leb (off + w) i then N.testbit a (N.of_nat i)
   else N.testbit v (N.of_nat (i - off))).
Proof.
  unfold store_sem. rewrite norm_testbit.
  destruct (Nat.ltb i tw) eqn:Et; [|reflexivity]. cbn [andb].
  set (a' := norm tw a).
  replace (norm off a' + norm w v * pow2 off + a' / pow2 (off + w) * pow2 (off + w))
    with (norm off a' + (norm w v + a' / pow2 (off + w) * pow2 w) * pow2 off)
    by (rewrite pow2_add; ring).
  rewrite testbit_add_shift by apply norm_lt.
  destruct (Nat.ltb i off) eqn:Eo; cbn [orb].
  - unfold a'. rewrite !norm_testbit, Eo, Et. reflexivity.
  - apply Nat.ltb_ge in Eo. rewrite testbit_add_shift by apply norm_lt.
    destruct (Nat.leb (off + w) i) eqn:Ew.
    + apply Nat.leb_le in Ew. replace (Nat.ltb (i - off) w) with false by (symmetry; apply Nat.ltb_ge; lia).
      rewrite div_pow2_testbit. unfold a'. rewrite norm_testbit.
      replace (i - off - w + (off + w))%nat with i by lia. rewrite Et. reflexivity.
    + apply Nat.leb_gt in Ew. replace (Nat.ltb (i - off) w) with true by (symmetry; apply Nat.ltb_lt; lia).
      rewrite norm_testbit. replace (Nat.ltb (i - off) w) with true by (symmetry; apply Nat.ltb_lt; lia).
      reflexivity.
Qed.

Lemma slice_sem_testbit off w a k :
  N.testbit (slice_sem off w a) (N.of_nat k) = Nat.ltb k w && N.testbit a (N.of_nat (k + off)).
Proof. unfold slice_sem. rewrite norm_testbit, div_pow2_testbit. reflexivity. Qed.

Lemma shl_testbit x c k :
  N.testbit (x * pow2 c) (N.of_nat k) = Nat.leb c k && N.testbit x (N.of_nat (k - c)).
Proof.
  unfold pow2. destruct (Nat.leb c k) eqn:E.
  - apply Nat.leb_le in E. rewrite N.mul_pow2_bits_high by lia. cbn [andb]. f_equal. lia.
  - apply Nat.leb_gt in E. rewrite N.mul_pow2_bits_low by lia. reflexivity.
Qed.

Lemma shr_testbit sg b0 a c ob k :
  N.testbit (of_Z ob (Z.shiftr (to_Z sg b0 a) (Z.of_nat c))) (N.of_nat k) =
  Nat.ltb k ob && xbit sg b0 a (k + c).
Proof.
  rewrite of_Z_testbit, Z.shiftr_spec by lia. rewrite <- Nat2Z.inj_add, to_Z_testbit. reflexivity.
Qed.

Local Open Scope nat_scope.

Lemma eval_not vs oa out aux :
  eval_instr vs (mkInstr Onot [oa] out aux)
  = N.lxor (pow2 (s_bits out) - 1) (norm (s_bits out) (opnd_val vs oa)).
Proof. reflexivity. Qed.

Lemma eval_lshift vs oa ob out aux :
  eval_instr vs (mkInstr Olshift [oa; ob] out aux)
  = norm (s_bits out) (norm (opnd_bits oa) (opnd_val vs oa) * pow2 (opnd_const ob)).
Proof. reflexivity. Qed.

Lemma eval_rshift (sg : bool) vs oa ob out aux :
  eval_instr vs (mkInstr (if sg then Osrshift else Orshift) [oa; ob] out aux)
  = of_Z (s_bits out) (Z.shiftr (to_Z sg (opnd_bits oa) (opnd_val vs oa)) (Z.of_nat (opnd_const ob))).
Proof. destruct sg; reflexivity. Qed.

Lemma eval_cast (sg : bool) vs oa out aux :
  eval_instr vs (mkInstr (if sg then Osmov else Omov) [oa] out aux)
  = if sg then of_Z (s_bits out) (to_Z true (opnd_bits oa) (opnd_val vs oa))
    else norm (s_bits out) (opnd_val vs oa).
Proof. destruct sg; reflexivity. Qed.

Lemma eval_mov vs oa out aux :
  eval_instr vs (mkInstr Omov [oa] out aux) = norm (s_bits out) (opnd_val vs oa).
Proof. reflexivity. Qed.

Lemma eval_slice vs oa ob oc out aux :
  eval_instr vs (mkInstr Oslice [oa; ob; oc] out aux)
  = slice_sem (opnd_const ob) (opnd_const oc - opnd_const ob) (opnd_val vs oa).
Proof. reflexivity. Qed.

Lemma eval_index vs oa ob oc out aux :
  eval_instr vs (mkInstr Oindex [oa; ob; oc] out aux)
  = index_sem (Nat.div (opnd_bits oa - opnd_const ob) aux) aux
              (opnd_val vs oa / pow2 (opnd_const ob)) (opnd_val vs oc).
Proof. reflexivity. Qed.

Lemma eval_amov vs ov oa ob oc out aux :
  eval_instr vs (mkInstr Oamov [ov; oa; ob; oc] out aux)
  = store_sem (s_bits out) (opnd_const ob) (opnd_const oc - opnd_const ob)
              (opnd_val vs oa) (opnd_val vs ov).
Proof. reflexivity. Qed.

Lemma eval_phi vs oc ot of' out aux :
  eval_instr vs (mkInstr Ophi [oc; ot; of'] out aux)
  = if N.odd (opnd_val vs oc) then opnd_val vs ot else opnd_val vs of'.
Proof. reflexivity. Qed.
