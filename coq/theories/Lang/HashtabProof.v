(* C05: the chained hash table of WireAllocator (Lang/Hashtab.v) refines the
   finite map of Lang/Gc.v: for EVERY hash function (collisions arbitrary) and
   every sequence of lookup / allocate / assign / gc operations, the chained
   table — with the move-to-front rule of lookup and the unlinking remove —
   returns exactly what the finite map returns. *)
From Coq Require Import NArith List Arith Lia.
From Mpc Require Import Lang.Gc Lang.GcProof Lang.Hashtab.
Import ListNotations.

Section P.
  Variable V : Type.
  Variable hash : N -> nat.

  Notation chain := (chain V).
  Notation table := (table V).

  Lemma bucket_set_eq t b c : bucket V (set_bucket V t b c) b = c.
  Proof. unfold bucket, set_bucket. rewrite lookup_nat_set, Nat.eqb_refl. reflexivity. Qed.

  Lemma bucket_set_neq t b b' c : b <> b' -> bucket V (set_bucket V t b c) b' = bucket V t b'.
  Proof.
    intros H. unfold bucket, set_bucket. rewrite lookup_nat_set.
    destruct (Nat.eqb_spec b' b); [congruence | reflexivity].
  Qed.

  Lemma find_pos_lookup k : forall (c : chain) n,
    match find_pos V k c n with Some (p, v) => lookup k c = Some v /\ n < p | None => lookup k c = None end.
  Proof.
    induction c as [|[k' v] t IH]; intros n; simpl; [reflexivity|].
    destruct (N.eqb k k'); [split; [reflexivity | lia]|].
    specialize (IH (S n)). destruct (find_pos V k t (S n)) as [[p v']|]; [|exact IH].
    destruct IH as [H1 H2]. split; [exact H1 | lia].
  Qed.

  Lemma remove_first_remove_key k (m : list (N * V)) : remove_first V k m = remove_key k m.
  Proof. induction m as [|[k2 v2] t IH]; simpl; [reflexivity|]. destruct (N.eqb k k2); [reflexivity | rewrite IH; reflexivity]. Qed.

  Lemma chain_lookup_spec k (c : chain) : NoDup (map fst c) ->
    match chain_lookup V k c with
    | None => lookup k c = None
    | Some (v, c') => lookup k c = Some v /\ NoDup (map fst c') /\ forall k', lookup k' c' = lookup k' c
    end.
  Proof.
    intros Hnd. unfold chain_lookup. pose proof (find_pos_lookup k c 0) as H.
    destruct (find_pos V k c 0) as [[p v]|]; [|exact H]. destruct H as [H _].
    split; [exact H|]. destruct (2 <? p); [|split; [exact Hnd | reflexivity]].
    rewrite remove_first_remove_key. split.
    - simpl. constructor; [apply lookup_none_notin, lookup_remove_key_eq, Hnd | apply NoDup_remove_key, Hnd].
    - intros k'. simpl. destruct (N.eqb_spec k' k) as [->|E].
      + symmetry. exact H.
      + apply lookup_remove_key_neq. congruence.
  Qed.

  Lemma chain_update_set_key k v (c : chain) : lookup k c <> None -> chain_update V k v c = set_key k v c.
  Proof.
    induction c as [|[k2 v2] t IH]; simpl; [congruence|].
    destruct (N.eqb k k2); [reflexivity|]. intros H. rewrite IH by exact H. reflexivity.
  Qed.

  Definition ht_inv (t : table) (m : list (N * V)) : Prop :=
    (forall k, lookup k (bucket V t (hash k)) = lookup k m) /\
    (forall b, NoDup (map fst (bucket V t b))) /\ NoDup (map fst m).

  Lemma ht_inv_set_bucket t m m' k (c : chain) : ht_inv t m ->
    NoDup (map fst c) -> NoDup (map fst m') ->
    (forall k', hash k' = hash k -> lookup k' c = lookup k' m') ->
    (forall k', hash k' <> hash k -> lookup k' m' = lookup k' m) ->
    ht_inv (set_bucket V t (hash k) c) m'.
  Proof.
    intros (H1 & H2 & _) Nc Nm Hin Hout. split; [|split; [|exact Nm]].
    - intros k'. destruct (Nat.eq_dec (hash k) (hash k')) as [E|E].
      + rewrite <- E, bucket_set_eq. apply Hin. congruence.
      + rewrite bucket_set_neq, Hout by congruence. apply H1.
    - intros b. destruct (Nat.eq_dec (hash k) b) as [<-|E];
        [rewrite bucket_set_eq; exact Nc | rewrite bucket_set_neq by exact E; apply H2].
  Qed.

  Lemma t_lookup_spec k t m : ht_inv t m ->
    fst (t_lookup V hash k t) = lookup k m /\ ht_inv (snd (t_lookup V hash k t)) m.
  Proof.
    intros HI. pose proof HI as (H1 & H2 & H3). unfold t_lookup.
    pose proof (chain_lookup_spec k (bucket V t (hash k)) (H2 _)) as Hc.
    destruct (chain_lookup V k (bucket V t (hash k))) as [[v c']|]; simpl.
    - destruct Hc as (Hv & Hnd & Hsame). split; [rewrite <- H1; symmetry; exact Hv|].
      apply (ht_inv_set_bucket t m m k c' HI Hnd H3); [|reflexivity].
      intros k' E. rewrite Hsame, <- E. apply H1.
    - split; [rewrite <- H1; symmetry; exact Hc | exact HI].
  Qed.

  Lemma step_sim o t m : ht_inv t m ->
    fst (chain_step V hash o t) = fst (map_step V o m) /\
    ht_inv (snd (chain_step V hash o t)) (snd (map_step V o m)).
  Proof.
    intros HI. destruct o as [k|k v|k v|k]; cbn [chain_step map_step].
    - (* lookup *)
      exact (t_lookup_spec k t m HI).
    - (* alloc *)
      destruct (t_lookup_spec k t m HI) as [R I'].
      destruct (t_lookup V hash k t) as [r t']. cbn [fst snd] in R, I'. subst r.
      destruct (lookup k m) as [v0|] eqn:L; cbn [fst snd]; (split; [reflexivity|]); [exact I'|].
      pose proof I' as (H1 & H2 & H3). unfold t_insert.
      apply (ht_inv_set_bucket t' m _ k _ I'); cbn [map fst lookup].
      + constructor; [|apply H2]. apply lookup_none_notin. rewrite H1. exact L.
      + constructor; [apply lookup_none_notin, L | exact H3].
      + intros k' E. destruct (N.eqb k' k); [reflexivity|]. rewrite <- E. apply H1.
      + intros k' E. destruct (N.eqb k' k) eqn:E2; [apply N.eqb_eq in E2; congruence | reflexivity].
    - (* assign in place *)
      destruct (t_lookup_spec k t m HI) as [R I'].
      destruct (t_lookup V hash k t) as [r t']. cbn [fst snd] in R, I'. subst r.
      destruct (lookup k m) as [v0|] eqn:L; cbn [fst snd]; (split; [reflexivity|]); [|exact I'].
      pose proof I' as (H1 & H2 & H3).
      assert (Lc : lookup k (bucket V t' (hash k)) <> None) by (rewrite H1, L; discriminate).
      rewrite chain_update_set_key by exact Lc.
      apply (ht_inv_set_bucket t' m _ k _ I').
      + rewrite keys_set_key by exact Lc. apply H2.
      + rewrite keys_set_key by (rewrite L; discriminate). exact H3.
      + intros k' E. rewrite !lookup_set_key, <- E, H1. reflexivity.
      + intros k' E. apply lookup_set_key_neq. congruence.
    - (* gc *)
      pose proof HI as (H1 & H2 & H3). unfold t_remove.
      pose proof (find_pos_lookup k (bucket V t (hash k)) 0) as Hf.
      destruct (find_pos V k (bucket V t (hash k)) 0) as [[p v]|]; cbn [fst snd].
      + destruct Hf as [Hf _]. split; [rewrite <- H1; symmetry; exact Hf|].
        rewrite remove_first_remove_key.
        apply (ht_inv_set_bucket t m _ k _ HI); try (apply NoDup_remove_key; auto).
        * intros k' E. destruct (N.eq_dec k k') as [<-|Ek].
          -- rewrite !lookup_remove_key_eq by auto. reflexivity.
          -- rewrite !lookup_remove_key_neq by exact Ek. rewrite <- E. apply H1.
        * intros k' E. apply lookup_remove_key_neq. congruence.
      + split; [rewrite <- H1; symmetry; exact Hf|].
        assert (Hm : remove_key k m = m).
        { rewrite H1 in Hf. clear -Hf. induction m as [|[k2 v2] t0 IH]; [reflexivity|]. simpl in *.
          destruct (N.eqb k k2); [discriminate|]. rewrite IH by exact Hf. reflexivity. }
        rewrite Hm. exact HI.
  Qed.

  Theorem ht_refines : forall ops t m, ht_inv t m ->
    fst (chain_run V hash ops t) = fst (map_run V ops m) /\
    ht_inv (snd (chain_run V hash ops t)) (snd (map_run V ops m)).
  Proof.
    induction ops as [|o rest IH]; intros t m HI; [split; [reflexivity | exact HI]|].
    cbn [chain_run map_run]. destruct (step_sim o t m HI) as [R I'].
    destruct (chain_step V hash o t) as [r t1]. destruct (map_step V o m) as [r' m1]. cbn [fst snd] in R, I'. subst r'.
    destruct (IH t1 m1 I') as [R2 I2].
    destruct (chain_run V hash rest t1) as [rs t2]. destruct (map_run V rest m1) as [rs' m2]. cbn [fst snd] in *.
    split; [rewrite R2; reflexivity | exact I2].
  Qed.

  Lemma ht_inv_empty : ht_inv [] [].
  Proof. split; [intros k; reflexivity|]. split; [intros b; unfold bucket; simpl; constructor | constructor]. Qed.
End P.

(* C05_walloc_hashtab_refines: from the empty table *)
Theorem hashtab_refines_map (V : Type) (hash : N -> nat) (ops : list (hop V)) :
  fst (chain_run V hash ops []) = fst (map_run V ops []) /\
  forall k, lookup k (bucket V (snd (chain_run V hash ops [])) (hash k)) = lookup k (snd (map_run V ops [])).
Proof.
  destruct (ht_refines V hash ops [] [] (ht_inv_empty V hash)) as [R (H1 & _)]. split; [exact R | exact H1].
Qed.
