(* HistProof.v — C08, histories: a compilation step that leaves the params object
   unchanged and whose output does not depend on the Compiler state gives, after
   ANY history, the output of a fresh compilation; the multiplier-threshold
   selection of the current source is such a step; a getter that stores its
   default into the params object is not (regression record, seeded C08-4). *)
From Coq Require Import List.
From Mpc Require Import Gen.Thresholds Gen.MapSites Lang.Determ Lang.Hist.
Import ListNotations.

Section Generic.
  Variables (P S X O : Type).
  Variable step : P -> S -> X -> P * S * O.

  Lemma run_params_readonly : params_readonly P S X O step ->
    forall hist p s, fst (run P S X O step hist p s) = p.
  Proof.
    intros Hro. induction hist as [|x t IH]; intros p s; simpl; [reflexivity|].
    rewrite IH. apply Hro.
  Qed.

  (* the general statement: all histories, shared params object, same or new Compiler *)
  Theorem history_independent :
    params_readonly P S X O step -> state_irrelevant P S X O step ->
    forall (same_compiler : bool) (s0 : S) (hist : list X) (p : P) (x : X),
      after P S X O step same_compiler s0 hist p x = fresh P S X O step s0 p x.
  Proof.
    intros Hro Hst same s0 hist p x. unfold after, fresh.
    rewrite (run_params_readonly Hro). apply Hst.
  Qed.
End Generic.

(* the model of Lang/Determ.v as a step: the configuration (class assignment,
   oracle) is a function argument that compile_in does not return *)
Definition step_compile (cfg : (msite -> site_class) * oracle) (cs : cstate) (x : prog)
  : ((msite -> site_class) * oracle) * cstate * listing :=
  let r := compile_in (fst cfg) (snd cfg) cs (snd x) (fst x) in (cfg, fst r, snd r).

Lemma step_compile_params_readonly : params_readonly _ _ _ _ step_compile.
Proof. intros p s x. reflexivity. Qed.

Lemma step_compile_state_irrelevant : state_irrelevant _ _ _ _ step_compile.
Proof. intros p s s' x. reflexivity. Qed.

Theorem compile_history_independent : forall same_compiler hist cfg x,
    after _ _ _ _ step_compile same_compiler cs0 hist cfg x = compile (fst cfg) (snd cfg) x.
Proof.
  intros. apply (history_independent _ _ _ _ step_compile); [exact step_compile_params_readonly | exact step_compile_state_irrelevant].
Qed.

Lemma step_mult_params_readonly : params_readonly _ _ _ _ step_mult.
Proof. intros p s x. reflexivity. Qed.

Lemma step_mult_state_irrelevant : state_irrelevant _ _ _ _ step_mult.
Proof. intros p s s' x. reflexivity. Qed.

Theorem mult_history_independent : forall same_compiler hist p x,
    after _ _ _ _ step_mult same_compiler tt hist p x = fresh _ _ _ _ step_mult tt p x.
Proof. intros. apply history_independent; [exact step_mult_params_readonly | exact step_mult_state_irrelevant]. Qed.

(* non-vacuity on the regenerated table: uint16 is tuned, uint8 is not *)
Example thresholds_16_8 :
  fresh _ _ _ _ step_mult tt (mkParams 0) [16; 8] = [9; 21].
Proof. vm_compute. reflexivity. Qed.

(* REFUTED for a storing getter: after compiling a multiplication of an untuned
   width (8) with the same params object, a multiplication of a tuned width (16)
   is built with threshold 21 instead of its table value *)
Theorem storing_getter_history_refuted :
  exists (hist : list (list nat)) (p : params) (x : list nat),
    after _ _ _ _ step_mult_storing false tt hist p x <> fresh _ _ _ _ step_mult_storing tt p x.
Proof.
  exists [[8]], (mkParams 0), [16]. vm_compute. intros Heq; discriminate Heq.
Qed.

Lemma storing_getter_not_readonly : ~ params_readonly _ _ _ _ step_mult_storing.
Proof.
  intros H. specialize (H (mkParams 0) tt [8]). vm_compute in H. discriminate H.
Qed.
