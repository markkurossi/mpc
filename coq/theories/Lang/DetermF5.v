(* DetermF5.v — C08: obligations on the regenerated inventory; no finding open
   (F5, F14 and F15 repaired in /repo). *)
From Coq Require Import List Bool String.
From Mpc Require Import Gen.MapSites Lang.Determ Lang.DetermSites Lang.DetermProof.
Import ListNotations.
Open Scope string_scope.
Open Scope list_scope.

Definition known_sites : list (string * string) := [].

Definition known_site (s : site) : bool :=
  existsb (fun k => String.eqb (s_pkg s) (fst k) && String.eqb (s_func s) (snd k)) known_sites.

(* THE obligation that breaks when an order-sensitive map-range site appears on the compile path *)
Lemma sites_insensitive :
  forallb (fun s => negb (is_order_sensitive s)) MapSites.sites = true.
Proof. vm_compute. reflexivity. Qed.

Lemma sites_insensitive_prop : forall s, In s MapSites.sites -> s_class s <> OrderSensitive.
Proof.
  intros s Hs Hc. pose proof sites_insensitive as H. rewrite forallb_forall in H.
  specialize (H s Hs). unfold is_order_sensitive in H. rewrite Hc in H. discriminate.
Qed.

(* the model of the current source is deterministic, unconditionally *)
Theorem compile_deterministic_now :
    forall o1 o2, oracle_ok o1 -> oracle_ok o2 ->
    forall cs fs main, compile_in cur o1 cs fs main = compile_in cur o2 cs fs main.
Proof. exact (compile_deterministic sites_insensitive_prop). Qed.

(* no directory listing is used in directory order (F15: Compiler.tryParsePkg
   sorts what Readdirnames returns) *)
Lemma readdir_sites_insensitive :
  forallb (fun s => negb (is_order_sensitive s)) MapSites.readdir_sites = true.
Proof. vm_compute. reflexivity. Qed.

(* THE obligation that breaks when a compilation writes its configuration: no
   assignment to a field of utils.Params is reachable from the compile roots
   (except the symbol table of intern()) - hypothesis params_readonly of
   Lang/HistProof.v history_independent, on the regenerated inventory *)
Lemma params_readonly_inventory :
  forallb param_write_allowed MapSites.param_writes = true.
Proof. vm_compute. reflexivity. Qed.
