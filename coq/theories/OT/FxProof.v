(* bmr.FxSend/FxReceive and bmr.FxkSend/FxkReceive (bmr/fx.go, model Fx.v;
   C20): for every OT that delivers the chosen label, every random label and
   all operands, the two returned values are XOR shares of a*b, resp. of b*s;
   ToOT/FromOT round trip for k = 32. *)
From Coq Require Import ZArith NArith List Bool Lia.
From Mpc Require OT.Gf128Proof.
From Mpc Require Import Gen.Consts Base.Codec Base.CodecProof Base.Label OT.Fx.
Import ListNotations.
Open Scope Z_scope.

Definition is_byte (x : N) : Prop := (x < 256)%N.

Lemma bmr_k_is_32 : bmr_k = 32.
Proof. reflexivity. Qed.
Lemma klen_is_4 : klen = 4%nat.
Proof. reflexivity. Qed.

Lemma length4 {A} (l : list A) : length l = 4%nat -> exists a b c d, l = [a; b; c; d].
Proof.
  destruct l as [|a [|b [|c [|d [|e l]]]]]; cbn; intros H; try discriminate.
  exists a, b, c, d. reflexivity.
Qed.

Lemma be4_of_be a b c d : is_byte a -> is_byte b -> is_byte c -> is_byte d ->
  be 4 (of_be [a; b; c; d]) = [a; b; c; d].
Proof.
  unfold is_byte. intros Ha Hb Hc Hd. cbn [be app of_be fold_left].
  repeat f_equal.
  all: zify; Z.div_mod_to_equations; lia.
Qed.

Lemma of_be4_bound a b c d : is_byte a -> is_byte b -> is_byte c -> is_byte d ->
  (of_be [a; b; c; d] < 2 ^ 32)%N.
Proof. unfold is_byte. intros. cbn [of_be fold_left]. change (2 ^ 32)%N with 4294967296%N. lia. Qed.

(* k = 32: all four bytes travel in the low half of D0 *)
Lemma from_ot_to_ot l0 l : length l0 = klen -> length l = klen -> Forall is_byte l ->
  from_ot l0 (to_ot l) = l.
Proof.
  rewrite klen_is_4. intros H0 Hl Hb.
  destruct (length4 l Hl) as (a & b & c & d & ->).
  destruct (length4 l0 H0) as (a0 & b0 & c0 & d0 & ->).
  inversion Hb as [|? ? Ha Hb1]; subst. inversion Hb1 as [|? ? Hb' Hb2]; subst.
  inversion Hb2 as [|? ? Hc Hb3]; subst. inversion Hb3 as [|? ? Hd _]; subst.
  unfold from_ot, to_ot. cbn [firstn skipn].
  rewrite N.div_mul by (apply N.pow_nonzero; lia).
  rewrite N.mod_small by (apply of_be4_bound; assumption).
  rewrite be4_of_be by assumption. apply app_nil_r.
Qed.

Lemma lxor_byte a b : is_byte a -> is_byte b -> is_byte (N.lxor a b).
Proof. exact (Gf128Proof.lxor_lt_pow2 a b 8). Qed.

Lemma lxor_twice a b : N.lxor a (N.lxor a b) = b.
Proof. rewrite <- N.lxor_assoc, N.lxor_nilpotent. apply N.lxor_0_l. Qed.

Lemma land1 x : N.land x 1 = (x mod 2)%N.
Proof. change 1%N with (N.ones 1). rewrite N.land_ones. reflexivity. Qed.

Lemma low_bit_lxor x y : (N.lxor x y mod 2 = (x mod 2 + y mod 2) mod 2)%N.
Proof.
  rewrite <- !N.bit0_mod. rewrite N.lxor_spec.
  destruct (N.testbit x 0), (N.testbit y 0); reflexivity.
Qed.

(* Go: byte(a) for a uint a *)
Lemma byte_of_uint a : 0 <= a -> is_byte (Z.to_N (a mod 256)) /\ (Z.to_N (a mod 256) mod 2)%N = Z.to_N (a mod 2).
Proof. intros Ha. unfold is_byte. zify. Z.div_mod_to_equations. lia. Qed.

Lemma bit_shares (x : N) (y : Z) : (x < 2)%N -> 0 <= y < 2 ->
  0 <= Z.of_N x < 2 /\ 0 <= Z.of_N ((x + Z.to_N y) mod 2) < 2 /\
  Z.lxor (Z.of_N x) (Z.of_N ((x + Z.to_N y) mod 2)) = y.
Proof.
  intros Hx Hy. assert (Hx' : x = 0%N \/ x = 1%N) by lia. assert (Hy' : y = 0 \/ y = 1) by lia.
  destruct Hx' as [-> | ->], Hy' as [-> | ->]; repeat split; reflexivity || lia.
Qed.

Section WithOT.
  Variable ot : wire -> bool -> N.
  Hypothesis ot_spec : forall w c, ot w c = pick w c.

  Lemma fx_general : forall rl a b,
    length rl = klen -> Forall is_byte rl -> 0 <= a ->
    let '(_, _, r, xb) := fx ot rl a b in
    0 <= r < 2 /\ 0 <= xb < 2 /\
    Z.lxor r xb = if b =? 1 then a mod 2 else 0.
  Proof.
    intros rl a b Hl Hb Ha. unfold fx, fx_send. rewrite ot_spec.
    pose proof Hl as Hl4. rewrite klen_is_4 in Hl4.
    destruct (length4 rl Hl4) as (r0 & r1 & r2 & r3 & ->). clear Hl4.
    destruct (byte_of_uint a Ha) as [Hav Hpar]. revert Hav Hpar.
    generalize (Z.to_N (a mod 256)). intros av Hav Hpar.
    assert (Hx1 : bxor [r0; r1; r2; r3] (set0 bzero av) = [N.lxor r0 av; r1; r2; r3]).
    { unfold bzero. rewrite klen_is_4. cbn. rewrite !N.lxor_0_r. reflexivity. }
    rewrite Hx1. clear Hx1.
    assert (Hbx : Forall is_byte [N.lxor r0 av; r1; r2; r3]).
    { inversion Hb; subst. constructor; [apply lxor_byte|]; assumption. }
    unfold fx_receive, fx_flag, pick. cbn [L0 L1].
    assert (Hz : length bzero = klen) by (unfold bzero; apply repeat_length).
    pose proof (N.mod_upper_bound r0 2 ltac:(discriminate)) as Hr.
    unfold low_bit0. destruct (b =? 1).
    - rewrite (from_ot_to_ot bzero [N.lxor r0 av; r1; r2; r3] Hz Hl Hbx). cbn [hd].
      rewrite !land1, low_bit_lxor, Hpar.
      apply bit_shares; [exact Hr | apply Z.mod_pos_bound; reflexivity].
    - rewrite (from_ot_to_ot bzero _ Hz Hl Hb). cbn [hd].
      rewrite !land1. rewrite Z.lxor_nilpotent. clear -Hr. lia.
  Qed.

  (* FxSend(a) against FxReceive(b) *)
  Theorem fx_correct : forall rl a b,
    length rl = klen -> Forall is_byte rl -> 0 <= a < 2 -> 0 <= b < 2 ->
    let '(_, _, r, xb) := fx ot rl a b in
    0 <= r < 2 /\ 0 <= xb < 2 /\ Z.lxor r xb = a * b.
  Proof.
    intros rl a b Hl Hb Ha Hbb.
    pose proof (fx_general rl a b Hl Hb ltac:(lia)) as H.
    destruct (fx ot rl a b) as [[[w got] r] xb].
    destruct H as (Hr & Hx & Hrel). split; [exact Hr|]. split; [exact Hx|].
    rewrite Hrel.
    assert (Ha' : a = 0 \/ a = 1) by lia. assert (Hb' : b = 0 \/ b = 1) by lia.
    destruct Ha' as [-> | ->], Hb' as [-> | ->]; reflexivity.
  Qed.

  Lemma bxor_self_l : forall r s, length r = length s -> bxor r (bxor r s) = s.
  Proof.
    induction r as [|x r IH]; intros [|y s] H; cbn in *; try lia; [reflexivity|].
    unfold bxor in *. cbn. rewrite lxor_twice. f_equal. apply IH. lia.
  Qed.

  Lemma bxor_self : forall r, bxor r r = repeat 0%N (length r).
  Proof.
    induction r as [|x r IH]; [reflexivity|]. unfold bxor in *. cbn.
    rewrite N.lxor_nilpotent, IH. reflexivity.
  Qed.

  Lemma bxor_bytes : forall r s, Forall is_byte r -> Forall is_byte s -> Forall is_byte (bxor r s).
  Proof.
    induction r as [|x r IH]; intros [|y s] Hr Hs; unfold bxor; cbn; try constructor.
    - inversion Hr; inversion Hs; subst. apply lxor_byte; assumption.
    - inversion Hr; inversion Hs; subst. apply IH; assumption.
  Qed.

  Lemma bxor_length : forall r s, length r = length s -> length (bxor r s) = length r.
  Proof. intros. unfold bxor. rewrite map_length, combine_length. lia. Qed.

  (* FxkSend(s) against FxkReceive(b), b any uint *)
  Theorem fxk_correct : forall rl s b,
    length rl = klen -> length s = klen -> Forall is_byte rl -> Forall is_byte s ->
    let '(_, _, r, xb) := fxk ot rl s b in
    r = rl /\ length xb = klen /\ Forall is_byte xb /\
    bxor r xb = if b =? 1 then s else bzero.
  Proof.
    intros rl s b Hl Hs Hbr Hbs. unfold fxk, fxk_send, fxk_receive. rewrite ot_spec.
    unfold fx_flag, pick. cbn [L0 L1].
    assert (Hz : length bzero = klen) by (unfold bzero; apply repeat_length).
    split; [reflexivity|].
    destruct (b =? 1).
    - rewrite (from_ot_to_ot bzero _ Hz).
      + split; [rewrite bxor_length; lia|]. split; [apply bxor_bytes; assumption|].
        apply bxor_self_l. lia.
      + rewrite bxor_length; lia.
      + apply bxor_bytes; assumption.
    - rewrite (from_ot_to_ot bzero _ Hz Hl Hbr).
      split; [exact Hl|]. split; [exact Hbr|].
      rewrite bxor_self, Hl. reflexivity.
  Qed.
End WithOT.

(* Label.Mul is what the Go tests compute b*s with *)
Lemma bmul_bit : forall s b, Forall is_byte s -> length s = klen -> 0 <= b < 2 ->
  bmul s b = if b =? 1 then s else bzero.
Proof.
  intros s b Hs Hl Hb. assert (Hb' : b = 0 \/ b = 1) by lia. destruct Hb' as [-> | ->]; cbn [Z.eqb].
  - unfold bmul, bzero. rewrite <- Hl. clear Hl. induction s as [|x s IH]; [reflexivity|].
    inversion Hs; subst. cbn. rewrite N.mul_0_r. cbn. f_equal. apply IH; assumption.
  - unfold bmul. clear Hl. induction Hs as [|x s Hx _ IH]; [reflexivity|].
    cbn. change (Z.to_N (1 mod 256)) with 1%N. rewrite N.mul_1_r, N.mod_small by exact Hx.
    f_equal. exact IH.
Qed.

(* the ideal OT used for execution satisfies the hypothesis *)
Lemma ot_ideal_spec : forall w c, ot_ideal w c = pick w c.
Proof. reflexivity. Qed.

Example fx_example : fx ot_ideal [0xfe; 0x10; 0x20; 0x31]%N 1 1
                     = (mkWire 0x00000000fe102031_0000000000000000 0x00000000ff102031_0000000000000000,
                        0x00000000ff102031_0000000000000000%N, 0, 1).
Proof. vm_compute. reflexivity. Qed.

(* operands outside {0,1}: byte(a) keeps only a mod 2 and every b <> 1 selects
   x0, so the result is that of fx_general, not a*b *)
Example fx_a2 : let '(_, _, r, xb) := fx ot_ideal [1; 2; 3; 4]%N 2 1 in Z.lxor r xb = 0.
Proof. vm_compute. reflexivity. Qed.
