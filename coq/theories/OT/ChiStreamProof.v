(* The chi coefficient stream of the malicious IKNP check (C15; model in
   ChiStream.v, Go: the block loops of IKNPSender.Send / IKNPReceiver.Receive
   in ot/iknp.go): for every keystream, every array size > 0 and content, every
   stream position and every batch size n, the in-place block loop pairs
   payload row i with the label drawn at byte position pos + 16*i and with
   nothing else, and check row r with the label at pos + 16*(n+r). *)
From Coq Require Import NArith List Bool Arith Lia.
From Mpc Require Import Base.ListFacts OT.Gf128 OT.Kos OT.ChiStream.
Import ListNotations.

Section Stream.
Variable blk : nat -> list N.

Notation lab := (lab_at blk).

Lemma map_seq_shift : forall (A : Type) (f : nat -> A) s c,
  map f (seq (S s) c) = map (fun j => f (S j)) (seq s c).
Proof. intros. rewrite <- seq_shift, map_map. reflexivity. Qed.

Lemma prg_labels_spec : forall count arr pos,
  count <= length arr ->
  prg_labels blk pos count arr =
    (map (fun j => lab (pos + 16 * j)) (seq 0 count) ++ skipn count arr, pos + 16 * count).
Proof.
  induction count as [|c IH]; intros arr pos Hl.
  - simpl. destruct arr; simpl; f_equal; lia.
  - destruct arr as [|a r]; [simpl in Hl; lia|].
    simpl in Hl. cbn [prg_labels prg_read]. rewrite IH by lia.
    cbn [seq map app skipn]. rewrite map_seq_shift.
    f_equal; [|lia]. f_equal.
    + replace (pos + 16 * 0) with pos by lia. reflexivity.
    + f_equal. apply map_ext. intros j. f_equal. lia.
Qed.

Lemma pairs_from_map : forall c f i,
  pairs_from i (map f (seq 0 c)) = map (fun k => (f (k - i), k)) (seq i c).
Proof.
  induction c as [|c IH]; intros f i; [reflexivity|].
  cbn [seq map pairs_from]. rewrite map_seq_shift, IH. f_equal.
  - f_equal. f_equal. lia.
  - apply map_ext_in. intros k Hk. apply in_seq in Hk. do 2 f_equal. lia.
Qed.

Lemma skipn_app_exact : forall (A : Type) (l r : list A) c, length l = c -> skipn c (l ++ r) = r.
Proof. intros A. exact ListFacts.skipn_app_exact. Qed.

Lemma chi_loop_spec : forall fuel i pos arr n,
  0 < length arr -> n - i <= fuel ->
  exists arr',
    chi_loop blk fuel pos arr i n =
      (map (fun k => (lab (pos + 16 * (k - i)), k)) (seq i (n - i)), arr', pos + 16 * (n - i))
    /\ length arr' = length arr.
Proof.
  induction fuel as [|f IH]; intros i pos arr n HL Hf.
  - replace (n - i) with 0 by lia. simpl. exists arr. split; [f_equal; lia|reflexivity].
  - cbn [chi_loop]. destruct (n <=? i) eqn:Hle.
    + apply Nat.leb_le in Hle. replace (n - i) with 0 by lia. simpl. exists arr. split; [f_equal; lia|reflexivity].
    + apply Nat.leb_gt in Hle.
      set (L := length arr) in *. set (count := min (n - i) L).
      assert (Hc : count <= L) by (unfold count; lia).
      rewrite prg_labels_spec by exact Hc.
      set (fresh := map (fun j => lab (pos + 16 * j)) (seq 0 count)).
      assert (Hfl : length fresh = count) by (unfold fresh; rewrite map_length, seq_length; reflexivity).
      assert (Hlen1 : length (fresh ++ skipn count arr) = L).
      { rewrite app_length, skipn_length, Hfl. fold L. lia. }
      destruct (IH (i + L) (pos + 16 * count) (fresh ++ skipn count arr) n) as [arr' [E Hl']];
        [rewrite Hlen1; exact HL | lia |].
      rewrite E. exists arr'. split; [|rewrite Hl'; exact Hlen1].
      rewrite firstn_app_exact by exact Hfl.
      unfold fresh. rewrite pairs_from_map.
      f_equal; [f_equal|].
      * destruct (le_lt_dec L (n - i)) as [Hge|Hlt].
        -- assert (count = L) by (unfold count; lia).
           assert (Hs : seq i (n - i) = seq i L ++ seq (i + L) (n - (i + L)))
             by (rewrite <- seq_app; f_equal; lia).
           rewrite Hs, map_app. f_equal.
           ++ rewrite H. reflexivity.
           ++ apply map_ext_in. intros k Hk. apply in_seq in Hk. do 2 f_equal. lia.
        -- assert (count = n - i) by (unfold count; lia).
           replace (n - (i + L)) with 0 by lia. rewrite H. simpl. apply app_nil_r.
      * destruct (le_lt_dec L (n - i)); unfold count; lia.
Qed.

Theorem chi_schedule_spec : forall pos arr n,
  checkRows <= length arr ->
  chi_schedule blk pos arr n =
    (map (fun i => (lab (pos + 16 * i), i)) (seq 0 n),
     map (fun r => (lab (pos + 16 * (n + r)), r)) (seq 0 checkRows),
     pos + 16 * (n + checkRows)).
Proof.
  intros pos arr n HL. unfold chi_schedule.
  assert (H0 : 0 < length arr) by (unfold checkRows in HL; lia).
  destruct (chi_loop_spec (S n) 0 pos arr n H0 ltac:(lia)) as [arr' [E Hl]].
  rewrite E, prg_labels_spec by (rewrite Hl; exact HL).
  rewrite firstn_app_exact by (rewrite map_length, seq_length; reflexivity).
  rewrite pairs_from_map, Nat.sub_0_r.
  f_equal; [f_equal|lia].
  - apply map_ext. intros k. f_equal. f_equal. lia.
  - apply map_ext. intros k. f_equal. f_equal. lia.
Qed.

Theorem chi_rows_covered_once : forall pos arr n,
  checkRows <= length arr ->
  let '(ps, cs, _) := chi_schedule blk pos arr n in
  map snd ps = seq 0 n /\ map snd cs = seq 0 checkRows /\
  (forall i, i < n -> count_occ Nat.eq_dec (map snd ps) i = 1) /\
  (forall i, n <= i -> count_occ Nat.eq_dec (map snd ps) i = 0).
Proof.
  intros pos arr n HL. rewrite chi_schedule_spec by exact HL.
  rewrite !map_map. cbn [snd]. rewrite !map_id.
  split; [reflexivity|]. split; [reflexivity|]. split; intros i Hi.
  - apply NoDup_count_occ'; [apply seq_NoDup | apply in_seq; lia].
  - apply count_occ_not_In. intros H. apply in_seq in H. lia.
Qed.

Lemma seq_add_map : forall m s b, map (fun t => b + t) (seq s m) = seq (b + s) m.
Proof. induction m as [|m IH]; intros s b; [reflexivity|]. simpl. rewrite IH. f_equal. f_equal. lia. Qed.

Theorem lab_at_block : forall c, lab (16 * c) = lab_block blk c.
Proof.
  intros c. unfold lab_at, lab_block. f_equal.
  replace (seq (16 * c) 16) with (map (fun t => 16 * c + t) (seq 0 16)).
  2:{ rewrite seq_add_map. f_equal. lia. }
  rewrite map_map. apply map_ext_in. intros t Ht. apply in_seq in Ht.
  unfold ks_byte. f_equal.
  - rewrite Nat.mul_comm, Nat.add_comm, Nat.mod_add by lia. apply Nat.mod_small. lia.
  - f_equal. rewrite Nat.mul_comm, Nat.add_comm, Nat.div_add by lia. rewrite Nat.div_small by lia. reflexivity.
Qed.

End Stream.

(* non-vacuity: the Go array (1024 zero labels) satisfies the hypothesis, and
   the loop really crosses a block boundary in place (n = 1030, identity-like
   keystream: block c is 16 bytes equal to c mod 256) *)
Example chi_array0_ok : checkRows <= length chi_array0.
Proof. vm_compute. lia. Qed.

Example chi_schedule_run :
  let blk := fun c => repeat (N.of_nat (c mod 256)) 16 in
  let '(ps, cs, pos) := chi_schedule blk 0 chi_array0 1030 in
  (length ps, length cs, pos, nth 1027 (map snd ps) 0, N.eqb (fst (nth 1027 ps (0%N, 0))) (lab_block blk 1027)) =
  (1030, 256, 16 * 1286, 1027, true).
Proof.
  intros blk.
  rewrite (chi_schedule_spec blk 0 chi_array0 1030) by exact chi_array0_ok.
  repeat apply f_equal2.
  - rewrite map_length. apply seq_length.
  - rewrite map_length. apply seq_length.
  - reflexivity.
  - rewrite map_map. apply (nth_map_seq (fun i => i)). lia.
  - rewrite (nth_map_seq (fun i => (lab_at blk (0 + 16 * i), i))) by lia. apply N.eqb_eq, (lab_at_block blk 1027).
Qed.
