(* The two-word ot.Label operations of ot/label.go (model LabelWire.v) against
   the 128-bit number view of Base/Label.v (and Iknp.lbit), the LabelData
   codecs, and round trips of the wire format of ot/co.go (C06). *)
From Coq Require Import NArith List Bool Arith Lia ZifyN ZifyNat.
From Mpc Require OT.Gf128Proof.
From Mpc Require Import Base.ListFacts Base.Codec Base.CodecProof Base.Label OT.Iknp OT.LabelWire.
Import ListNotations.
Open Scope N_scope.

Lemma bits_hi a m : a < M64 -> 64 <= m -> N.testbit a m = false.
Proof. intros H Hm. exact (proj1 (Gf128Proof.lt_pow2_bits a 64) H m Hm). Qed.
Lemma lt_M64 a : (forall m, 64 <= m -> N.testbit a m = false) -> a < M64.
Proof. intros H. exact (proj2 (Gf128Proof.lt_pow2_bits a 64) H). Qed.

Lemma Forall_firstn' {A} (P : A -> Prop) n : forall l, Forall P l -> Forall P (firstn n l).
Proof. induction n as [|n IH]; intros [|a l] H; cbn; try constructor; inversion H; subst; auto. Qed.
Lemma Forall_skipn' {A} (P : A -> Prop) n : forall l, Forall P l -> Forall P (skipn n l).
Proof. induction n as [|n IH]; intros [|a l] H; cbn; try assumption; inversion H; subst; auto. Qed.

Lemma land_pow2 a k : N.land a (2 ^ k) = if N.testbit a k then 2 ^ k else 0.
Proof.
  apply N.bits_inj. intro m. rewrite N.land_spec, N.pow2_bits_eqb.
  destruct (N.eqb_spec k m) as [->|Hne].
  - destruct (N.testbit a m) eqn:E; [rewrite N.pow2_bits_true|rewrite N.bits_0]; reflexivity.
  - rewrite andb_false_r. destruct (N.testbit a k).
    + rewrite N.pow2_bits_false by exact Hne. reflexivity.
    + rewrite N.bits_0. reflexivity.
Qed.

Lemma M64_pow : M64 = 2 ^ 64. Proof. reflexivity. Qed.
Lemma M64_256 : M64 = 256 ^ N.of_nat 8. Proof. reflexivity. Qed.

Lemma val_div l : wf l -> val l / M64 = D0 l.
Proof. intros [_ H1]. symmetry. apply N.div_unique with (r := D1 l); [exact H1|unfold val; lia]. Qed.
Lemma val_mod l : wf l -> val l mod M64 = D1 l.
Proof. intros [_ H1]. symmetry. apply N.mod_unique with (q := D0 l); [exact H1|unfold val; lia]. Qed.
Lemma val_lt l : wf l -> val l < 2 ^ 128.
Proof. intros [H0 H1]. unfold val, M64 in *. change (2 ^ 128) with (2 ^ 64 * 2 ^ 64). nia. Qed.

Lemma val_inj a b : wf a -> wf b -> val a = val b -> a = b.
Proof.
  intros Ha Hb E. destruct a as [a0 a1], b as [b0 b1].
  pose proof (val_div _ Ha) as D. pose proof (val_mod _ Ha) as M.
  rewrite E, (val_div _ Hb) in D. rewrite E, (val_mod _ Hb) in M. simpl in *. congruence.
Qed.

Lemma val_lor l : wf l -> val l = N.lor (N.shiftl (D0 l) 64) (D1 l).
Proof.
  intros [_ H1]. unfold val.
  assert (Hdisj : N.land (N.shiftl (D0 l) 64) (D1 l) = 0).
  { apply N.bits_inj. intro m. rewrite N.land_spec, N.bits_0.
    destruct (N.lt_ge_cases m 64) as [Hm|Hm].
    - rewrite N.shiftl_spec_low by exact Hm. reflexivity.
    - rewrite (bits_hi _ m H1 Hm). apply andb_false_r. }
  rewrite <- N.lxor_lor, <- N.add_nocarry_lxor, N.shiftl_mul_pow2 by exact Hdisj. reflexivity.
Qed.

Lemma val_bit l n : wf l ->
  N.testbit (val l) n = if n <? 64 then N.testbit (D1 l) n else N.testbit (D0 l) (n - 64).
Proof.
  intros H. rewrite (val_lor _ H), N.lor_spec. destruct H as [_ H1].
  destruct (N.ltb_spec n 64) as [Hn|Hn].
  - rewrite N.shiftl_spec_low by exact Hn. reflexivity.
  - rewrite N.shiftl_spec_high' by exact Hn.
    rewrite (bits_hi (D1 l) n H1 Hn). apply orb_false_r.
Qed.

Lemma Equal_eq a b : Equal a b = true <-> a = b.
Proof.
  destruct a as [a0 a1], b as [b0 b1]. unfold Equal. simpl.
  rewrite andb_true_iff, !N.eqb_eq. split.
  - intros [-> ->]. reflexivity.
  - intros E. inversion E. auto.
Qed.

Lemma Equal_val a b : wf a -> wf b -> Equal a b = (val a =? val b).
Proof.
  intros Ha Hb. destruct (Equal a b) eqn:E.
  - apply Equal_eq in E. subst. symmetry. apply N.eqb_refl.
  - symmetry. apply N.eqb_neq. intro V. apply (val_inj _ _ Ha Hb) in V.
    apply Equal_eq in V. congruence.
Qed.

Lemma wf_Xor a b : wf a -> wf b -> wf (Xor a b).
Proof.
  intros [A0 A1] [B0 B1]. split; apply lt_M64; intros m Hm; cbn [Xor D0 D1];
    rewrite N.lxor_spec, !bits_hi by assumption; reflexivity.
Qed.

Lemma val_Xor a b : wf a -> wf b -> val (Xor a b) = lxor (val a) (val b).
Proof.
  intros Ha Hb. unfold lxor. apply N.bits_inj. intro n.
  rewrite (val_bit _ n (wf_Xor _ _ Ha Hb)), N.lxor_spec, (val_bit _ n Ha), (val_bit _ n Hb).
  destruct (n <? 64); cbn [Xor D0 D1]; apply N.lxor_spec.
Qed.

Lemma wf_And a b : wf a -> wf b -> wf (And a b).
Proof.
  intros [A0 A1] [B0 B1]. split; apply lt_M64; intros m Hm; cbn [And D0 D1];
    rewrite N.land_spec, !bits_hi by assumption; reflexivity.
Qed.

Lemma val_And a b : wf a -> wf b -> val (And a b) = N.land (val a) (val b).
Proof.
  intros Ha Hb. apply N.bits_inj. intro n.
  rewrite (val_bit _ n (wf_And _ _ Ha Hb)), N.land_spec, (val_bit _ n Ha), (val_bit _ n Hb).
  destruct (n <? 64); cbn [And D0 D1]; apply N.land_spec.
Qed.

(* common form of Mul2 (k = 1) and Mul4 (k = 2): the k top bits of D1 move
   into D0 *)
Definition Mulk (k : N) (l : Label) : Label :=
  mkLabel (N.lor (u64 (N.shiftl (D0 l) k)) (N.shiftr (D1 l) (64 - k))) (u64 (N.shiftl (D1 l) k)).

Lemma u64_bit x m : N.testbit (u64 x) m = (m <? 64) && N.testbit x m.
Proof.
  unfold u64, M64. destruct (N.ltb_spec m 64).
  - apply N.mod_pow2_bits_low. assumption.
  - apply N.mod_pow2_bits_high. assumption.
Qed.

Lemma shiftl_bit x k m : N.testbit (N.shiftl x k) m = negb (m <? k) && N.testbit x (m - k).
Proof.
  destruct (N.ltb_spec m k).
  - apply N.shiftl_spec_low. assumption.
  - apply N.shiftl_spec_high'. assumption.
Qed.

Lemma Mulk_spec k l : 0 < k < 64 -> wf l ->
  wf (Mulk k l) /\ val (Mulk k l) = (val l * 2 ^ k) mod 2 ^ 128.
Proof.
  intros Hk H. pose proof H as [H0 H1].
  assert (W : wf (Mulk k l)).
  { split; cbn [Mulk D0 D1]; [|apply N.mod_lt; discriminate].
    apply lt_M64. intros m Hm.
    rewrite N.lor_spec, u64_bit, N.shiftr_spec', (bits_hi (D1 l)) by (assumption || lia).
    destruct (N.ltb_spec m 64); [lia|reflexivity]. }
  split; [exact W|].
  (* bit n of both sides, by the position of n and n - k relative to the word boundary *)
  apply N.bits_inj. intro n.
  rewrite (val_bit _ n W). cbn [Mulk D0 D1].
  rewrite N.lor_spec, !u64_bit, !shiftl_bit, N.shiftr_spec'.
  destruct (N.ltb_spec n 128) as [Hn|Hn].
  - rewrite N.mod_pow2_bits_low, <- N.shiftl_mul_pow2, shiftl_bit, (val_bit _ (n - k) H) by assumption.
    destruct (N.ltb_spec n 64), (N.ltb_spec n k), (N.ltb_spec (n - 64) 64), (N.ltb_spec (n - 64) k),
      (N.ltb_spec (n - k) 64); try lia; cbn [negb andb orb]; try reflexivity.
    + replace (n - 64 + (64 - k)) with (n - k) by lia. reflexivity.
    + rewrite (bits_hi (D1 l)) by (assumption || lia). rewrite orb_false_r. f_equal. lia.
  - rewrite N.mod_pow2_bits_high by assumption.
    destruct (N.ltb_spec n 64), (N.ltb_spec (n - 64) 64); try lia. cbn [andb orb].
    apply bits_hi; [assumption|lia].
Qed.

Lemma Mul2_spec l : wf l -> wf (Mul2 l) /\ val (Mul2 l) = mul2 (val l).
Proof. apply (Mulk_spec 1). lia. Qed.

Lemma Mul4_spec l : wf l -> wf (Mul4 l) /\ val (Mul4 l) = mul4 (val l).
Proof. apply (Mulk_spec 2). lia. Qed.

Lemma GetS_bit l : GetS l = N.testbit (D0 l) 63.
Proof.
  unfold GetS. change 0x8000000000000000 with (2 ^ 63). rewrite land_pow2.
  destruct (N.testbit (D0 l) 63); reflexivity.
Qed.

Lemma GetS_sbit l : wf l -> GetS l = sbit (val l).
Proof. intros H. unfold sbit. rewrite (val_bit _ 127 H), GetS_bit. reflexivity. Qed.

Lemma wf_SetS l b : wf l -> wf (SetS l b).
Proof.
  intros [H0 H1]. unfold SetS. destruct b; (split; [|exact H1]); cbn [D0];
    apply lt_M64; intros m Hm.
  - rewrite N.lor_spec, bits_hi by assumption.
    change 0x8000000000000000 with (2 ^ 63). rewrite N.pow2_bits_false by lia. reflexivity.
  - rewrite N.land_spec, bits_hi by assumption. reflexivity.
Qed.

Lemma GetS_SetS l b : GetS (SetS l b) = b.
Proof.
  rewrite GetS_bit. unfold SetS. destruct b; cbn [D0].
  - rewrite N.lor_spec. change 0x8000000000000000 with (2 ^ 63).
    rewrite N.pow2_bits_true. apply orb_true_r.
  - rewrite N.land_spec. change 0x7fffffffffffffff with (N.ones 63).
    rewrite N.ones_spec_high by lia. apply andb_false_r.
Qed.

Lemma val_SetS_true l : wf l -> val (SetS l true) = setS (val l).
Proof.
  intros H. unfold setS. apply N.bits_inj. intro n.
  rewrite (val_bit _ n (wf_SetS l true H)), N.lor_spec, (val_bit _ n H), N.pow2_bits_eqb.
  unfold SetS. cbn [D0 D1]. change 0x8000000000000000 with (2 ^ 63).
  destruct (N.ltb_spec n 64) as [Hn|Hn].
  - destruct (N.eqb_spec 127 n); [lia|]. rewrite orb_false_r. reflexivity.
  - rewrite N.lor_spec, N.pow2_bits_eqb. f_equal.
    destruct (N.eqb_spec 63 (n - 64)), (N.eqb_spec 127 n); try reflexivity; lia.
Qed.

Lemma NewTweak_spec t : wf (NewTweak t) /\ val (NewTweak t) = tweak t.
Proof.
  unfold wf, NewTweak, val, tweak. cbn [D0 D1].
  pose proof (N.mod_lt t (2 ^ 32) ltac:(lia)) as H. unfold M64. split; [split|]; lia.
Qed.

Lemma be_add_high k : forall c x, be k (c * 256 ^ N.of_nat k + x) = be k x.
Proof.
  induction k as [|k IH]; intros c x; [reflexivity|].
  cbn [be].
  replace (c * 256 ^ N.of_nat (S k) + x) with (x + (c * 256 ^ N.of_nat k) * 256)
    by (rewrite Nat2N.inj_succ, N.pow_succ_r'; lia).
  rewrite N.div_add by lia. rewrite N.mod_add by lia.
  rewrite (N.add_comm (x / 256)). rewrite IH. reflexivity.
Qed.

Lemma be_app a b : forall x, be (a + b) x = be a (x / 256 ^ N.of_nat b) ++ be b x.
Proof.
  induction b as [|b IH]; intros x.
  - rewrite Nat.add_0_r. cbn. rewrite N.div_1_r, app_nil_r. reflexivity.
  - rewrite Nat.add_succ_r. cbn [be]. rewrite IH, app_assoc. f_equal. f_equal.
    rewrite Nat2N.inj_succ, N.pow_succ_r', N.div_div by (try apply N.pow_nonzero; lia).
    reflexivity.
Qed.

Lemma be_of_be : forall l, Forall (fun b => b < 256) l -> be (length l) (of_be l) = l.
Proof.
  induction l as [|b l IH] using rev_ind; intros HF; [reflexivity|].
  apply Forall_app in HF as [HF1 HF2]. inversion HF2 as [|? ? Hb _]; subst.
  rewrite app_length. simpl length. rewrite Nat.add_1_r. cbn [be]. rewrite of_be_app.
  rewrite N.div_add_l by lia. rewrite N.div_small by exact Hb. rewrite N.add_0_r.
  rewrite IH by exact HF1. f_equal. f_equal.
  rewrite N.add_comm, N.mod_add by lia. apply N.mod_small. exact Hb.
Qed.

Lemma GetData_be16 l : wf l -> GetData l = be 16 (val l).
Proof.
  intros H. unfold GetData. change 16%nat with (8 + 8)%nat. rewrite be_app.
  rewrite <- M64_256, (val_div _ H). f_equal.
  unfold val. rewrite M64_256. apply eq_sym, be_add_high.
Qed.

Lemma GetData_length l : length (GetData l) = 16%nat.
Proof. unfold GetData. rewrite app_length, !be_length. reflexivity. Qed.

Lemma of_be_GetData l : wf l -> of_be (GetData l) = val l.
Proof.
  intros H. rewrite (GetData_be16 _ H), of_be_be. apply N.mod_small.
  change (256 ^ N.of_nat 16) with (2 ^ 128). apply val_lt. exact H.
Qed.

Lemma SetData_GetData l : wf l -> SetData (GetData l) = l.
Proof.
  intros [H0 H1]. destruct l as [d0 d1]. unfold SetData, GetData, wf in *. cbn [D0 D1] in *.
  rewrite firstn_app_exact by apply be_length. rewrite skipn_app_exact by apply be_length.
  rewrite firstn_all2 by (rewrite be_length; lia).
  rewrite !of_be_be, <- M64_256, !N.mod_small by assumption. reflexivity.
Qed.

Lemma of_be_bound : forall l, Forall (fun b => b < 256) l -> of_be l < 256 ^ N.of_nat (length l).
Proof.
  induction l as [|b l IH] using rev_ind; intros HF; [cbn; lia|].
  apply Forall_app in HF as [HF1 HF2]. inversion HF2 as [|? ? Hb _]; subst.
  rewrite of_be_app, app_length. simpl length. rewrite Nat.add_1_r, Nat2N.inj_succ, N.pow_succ_r'.
  specialize (IH HF1). lia.
Qed.

Lemma wf_SetData d : Forall (fun b => b < 256) d -> wf (SetData d).
Proof.
  intros HF. unfold wf, SetData. cbn [D0 D1]. rewrite M64_256. split.
  - eapply N.lt_le_trans; [apply of_be_bound, Forall_firstn'; exact HF|].
    apply N.pow_le_mono_r; [lia|]. rewrite firstn_length. lia.
  - eapply N.lt_le_trans; [apply of_be_bound, Forall_firstn', Forall_skipn'; exact HF|].
    apply N.pow_le_mono_r; [lia|]. rewrite firstn_length. lia.
Qed.

Lemma GetData_SetData d : length d = 16%nat -> Forall (fun b => b < 256) d -> GetData (SetData d) = d.
Proof.
  intros HL HF. unfold GetData, SetData. cbn [D0 D1].
  assert (L1 : length (firstn 8 d) = 8%nat) by (rewrite firstn_length; lia).
  assert (L2 : length (firstn 8 (skipn 8 d)) = 8%nat) by (rewrite firstn_length, skipn_length; lia).
  assert (X : forall l, length l = 8%nat -> Forall (fun b => b < 256) l -> be 8 (of_be l) = l)
    by (intros l0 <- HF0; apply be_of_be; exact HF0).
  rewrite (X _ L1 (Forall_firstn' _ _ _ HF)).
  rewrite (X _ L2 (Forall_firstn' _ _ _ (Forall_skipn' _ _ _ HF))).
  rewrite (firstn_all2 (skipn 8 d)) by (rewrite skipn_length; lia).
  apply firstn_skipn.
Qed.

Lemma NewLabel_bytes s : (16 <= length s)%nat -> Forall (fun b => b < 256) s ->
  wf (NewLabel s) /\ GetData (NewLabel s) = firstn 16 s.
Proof.
  intros HL HF. unfold NewLabel. split.
  - apply wf_SetData, Forall_firstn'. exact HF.
  - apply GetData_SetData; [rewrite firstn_length; lia|apply Forall_firstn'; exact HF].
Qed.

Lemma Bit_lbit l i : wf l -> (i < 128)%nat -> Bit l i = Some (lbit (val l) i).
Proof.
  intros H Hi. unfold Bit, lbit, colbit.
  destruct (Nat.ltb_spec 127 i); [lia|]. f_equal.
  rewrite (val_bit _ _ H).
  destruct (Nat.ltb_spec 63 i), (Nat.ltb_spec i 64); try lia.
  - destruct (N.ltb_spec (N.of_nat (i - 64)) 64); [reflexivity|lia].
  - destruct (N.ltb_spec (N.of_nat (64 + i)) 64); [lia|]. f_equal. lia.
Qed.

Lemma payloads_app d a b : payloads d (a ++ b) = payloads d a ++ payloads d b.
Proof. unfold payloads. rewrite filter_app, map_app. reflexivity. Qed.

Lemma payloads_pairs {A} (d d' : bool) (f g : A -> list N) l :
  payloads d (flat_map (fun a => [(d', f a); (d', g a)]) l)
  = if Bool.eqb d' d then flat_map (fun a => [f a; g a]) l else [].
Proof.
  unfold payloads. induction l as [|a l IH]; [destruct (Bool.eqb d' d); reflexivity|].
  cbn [flat_map app filter fst]. destruct (Bool.eqb d' d); cbn [map snd]; rewrite IH; reflexivity.
Qed.

Lemma decode_points_roundtrip ps :
  co_decode_points (length ps) (flat_map (fun p => [big_bytes (fst p); big_bytes (snd p)]) ps) = Some ps.
Proof.
  induction ps as [|[x y] ps IH]; [reflexivity|]. cbn [length flat_map app co_decode_points fst snd].
  rewrite IH, !big_bytes_roundtrip. reflexivity.
Qed.

Lemma copy16_GetData l : copy16 (GetData l) = GetData l.
Proof. unfold copy16. apply firstn_app_exact, GetData_length. Qed.

Lemma decode_cts_roundtrip cts : Forall (fun c => wf (fst c) /\ wf (snd c)) cts ->
  co_decode_cts (length cts) (flat_map (fun c => [GetData (fst c); GetData (snd c)]) cts) = Some cts.
Proof.
  induction 1 as [|[z o] cts [Hz Ho] _ IH]; [reflexivity|].
  cbn [length flat_map app co_decode_cts fst snd] in *.
  rewrite IH, !copy16_GetData, !SetData_GetData by assumption. reflexivity.
Qed.

Lemma flat_map_pair_length {A B} (f g : A -> B) l : length (flat_map (fun a => [f a; g a]) l) = (2 * length l)%nat.
Proof. induction l; cbn; lia. Qed.

(* s: what the CO sender writes (curve name, A, ciphertexts), r: what the
   receiver writes (points); the peer's decoder reads each back unchanged,
   whatever the size of the coordinates *)
Theorem co_wire_roundtrip (name : list N) (A : N * N) (pts : list (N * N)) (cts : list (Label * Label)) :
  Forall (fun c => wf (fst c) /\ wf (snd c)) cts ->
  let s := payloads false (co_session_msgs name A pts cts) in
  let r := payloads true (co_session_msgs name A pts cts) in
  hd [] s = name /\
  co_decode_A (firstn 2 (skipn 1 s)) = Some A /\
  co_decode_points (length pts) r = Some pts /\
  co_decode_cts (length cts) (skipn 3 s) = Some cts /\
  length s = (3 + 2 * length cts)%nat /\ length r = (2 * length pts)%nat /\
  Forall (fun m => length m = 16%nat) (skipn 3 s).
Proof.
  intros HW s r. subst s r. unfold co_session_msgs.
  unfold co_point_msgs, co_ct_msgs. rewrite !payloads_app, !payloads_pairs. cbn [Bool.eqb].
  destruct A as [ax ay]. cbn [co_init_msgs co_A_msgs payloads filter map fst snd Bool.eqb app hd skipn firstn].
  rewrite app_nil_r. cbn [co_decode_A]. rewrite !big_bytes_roundtrip.
  repeat split.
  - apply decode_points_roundtrip.
  - apply decode_cts_roundtrip. exact HW.
  - cbn [length]. rewrite flat_map_pair_length. lia.
  - apply flat_map_pair_length.
  - clear HW. induction cts as [|c cts IH]; cbn; [constructor|].
    constructor; [apply GetData_length|]. constructor; [apply GetData_length|]. exact IH.
Qed.

Example co_wire_roundtrip_nonvacuous :
  Forall (fun c => wf (fst c) /\ wf (snd c)) [(mkLabel 1 2, mkLabel (M64 - 1) 0)].
Proof. repeat constructor; cbn; unfold M64; lia. Qed.

(* deriveMask: the index is recoverable from the hash input *)
Lemma preimage_index_spec x y id : id < 2 ^ 64 -> preimage_index (mask_preimage x y id) = id.
Proof.
  intros H. unfold preimage_index, mask_preimage. rewrite app_assoc.
  rewrite app_length, be_length, Nat.add_sub.
  rewrite skipn_app_exact by reflexivity. rewrite of_be_be. apply N.mod_small. exact H.
Qed.

Theorem mask_preimage_separates x y x' y' id id' :
  id < 2 ^ 64 -> id' < 2 ^ 64 -> id <> id' -> mask_preimage x y id <> mask_preimage x' y' id'.
Proof.
  intros H H' Hne E. apply Hne.
  rewrite <- (preimage_index_spec x y id H), <- (preimage_index_spec x' y' id' H'), E. reflexivity.
Qed.

Theorem label_ops_spec (a b : Label) (t : N) (s : bool) : wf a -> wf b ->
  (wf (Xor a b) /\ val (Xor a b) = N.lxor (val a) (val b)) /\
  (wf (And a b) /\ val (And a b) = N.land (val a) (val b)) /\
  (wf (Mul2 a) /\ val (Mul2 a) = (val a * 2) mod 2 ^ 128) /\
  (wf (Mul4 a) /\ val (Mul4 a) = (val a * 4) mod 2 ^ 128) /\
  GetS a = N.testbit (val a) 127 /\
  (wf (SetS a s) /\ GetS (SetS a s) = s) /\ val (SetS a true) = N.lor (val a) (2 ^ 127) /\
  Equal a b = (val a =? val b) /\ (Equal a b = true <-> a = b) /\
  (wf (NewTweak t) /\ val (NewTweak t) = t mod 2 ^ 32) /\
  val a < 2 ^ 128.
Proof.
  intros Ha Hb.
  split; [split; [apply wf_Xor; assumption|apply val_Xor; assumption]|].
  split; [split; [apply wf_And; assumption|apply val_And; assumption]|].
  split; [exact (Mul2_spec a Ha)|]. split; [exact (Mul4_spec a Ha)|].
  split; [exact (GetS_sbit a Ha)|].
  split; [split; [apply wf_SetS; assumption|apply GetS_SetS]|].
  split; [exact (val_SetS_true a Ha)|].
  split; [apply Equal_val; assumption|]. split; [apply Equal_eq|].
  split; [exact (NewTweak_spec t)|]. apply val_lt. exact Ha.
Qed.

Theorem label_data_spec (l : Label) : wf l ->
  length (GetData l) = 16%nat /\ GetData l = be 16 (val l) /\ of_be (GetData l) = val l /\
  SetData (GetData l) = l /\ SetBytes (Bytes l) = l.
Proof.
  intros H. split; [apply GetData_length|]. split; [apply GetData_be16; exact H|].
  split; [apply of_be_GetData; exact H|]. split; [apply SetData_GetData; exact H|].
  unfold SetBytes, Bytes. rewrite firstn_all2 by (rewrite GetData_length; lia).
  apply SetData_GetData. exact H.
Qed.

Theorem label_data_inv (d s : list N) :
  (length d = 16%nat -> Forall (fun b => b < 256) d -> wf (SetData d) /\ GetData (SetData d) = d) /\
  ((16 <= length s)%nat -> Forall (fun b => b < 256) s -> wf (NewLabel s) /\ GetData (NewLabel s) = firstn 16 s).
Proof.
  split.
  - intros HL HF. split; [apply wf_SetData; exact HF|apply GetData_SetData; assumption].
  - apply NewLabel_bytes.
Qed.

Example label_ops_nonvacuous : wf (mkLabel (M64 - 1) (M64 - 1)) /\ wf (mkLabel 0 0).
Proof. unfold wf, M64. cbn [D0 D1]. lia. Qed.
Example Mul2_carry : Mul2 (mkLabel 0x8000000000000001 0x8000000000000000) = mkLabel 3 0.
Proof. vm_compute. reflexivity. Qed.
