(* COT and ROT (ot/cot.go, ot/rot.go; model Cot.v) deliver the chosen label
   (C06), given the IKNP relation between the sender's and the receiver's
   extension outputs; composed with IknpProof.v for the end-to-end statements.
   What matters is which tweak hashes which pad entry: a batch that starts at
   row i renews the keys to the tweaks i .. i+7 on both sides (Hash_fresh), the
   sender hashes pad[2(q-i)+b] and the receiver pad[q-i] with cipher q-i, so
   row q is always hashed under tweak q (send_hash, recv_hash).  The four
   loops of Cot.v are one batch_loop with four steps; each step is shown to
   output its rows of a function of the global position (step_ok). *)
From Coq Require Import NArith ZArith List Bool Arith Lia ZifyNat ZifyN.
From Mpc Require Import Gen.Consts Base.ListFacts Base.Label OT.Iknp OT.IknpProof OT.Cot.
Import ListNotations.
Local Open Scope nat_scope.

Lemma bs_eq : otBatchSize = 8. Proof. reflexivity. Qed.
Global Opaque otBatchSize.

Section CotProofs.
  Variable E : N -> N -> N.
  Variable Delta : N.

  (* MITCCRH: H_k(x) = E_k(x) xor x *)
  Definition hsh (k x : N) : N := N.lxor x (E k x).

  Lemma Hash_fresh g cs blks h :
    0 < h -> length blks = otBatchSize * h ->
    Hash E (mkM otBatchSize g cs otBatchSize) blks otBatchSize h
    = Some (mkM otBatchSize (g + N.of_nat otBatchSize)
                (map (fun i => (g + N.of_nat i)%N) (seq 0 otBatchSize)) otBatchSize,
            map (fun idx => hsh (g + N.of_nat (idx / h)) (nth idx blks 0%N)) (seq 0 (otBatchSize * h))).
  Proof.
    intros Hh Hlen. pose proof bs_eq as Hbs. unfold Hash. cbn [m_batch m_keyUsed m_gid m_ciphers].
    rewrite Nat.ltb_irrefl, Nat.mod_same, Hlen, !Nat.eqb_refl by lia.
    cbn [negb orb]. cbv zeta. unfold renewKeys. cbn [m_batch m_keyUsed m_gid m_ciphers].
    f_equal. f_equal.
    apply map_ext_in. intros idx Hin. apply in_seq in Hin.
    assert (idx / h < otBatchSize) by (apply Nat.div_lt_upper_bound; lia).
    rewrite Nat.add_0_l, nth_map_seq by assumption. reflexivity.
  Qed.

  Lemma firstn_map_nth {A} (f : nat -> A) d l c :
    c <= length l -> (forall j, j < c -> nth j l d = f j) -> firstn c l = map f (seq 0 c).
  Proof.
    intros Hc H. apply nth_ext with (d := d) (d' := d).
    - rewrite firstn_length, map_length, seq_length. lia.
    - intros j Hj. rewrite firstn_length in Hj.
      rewrite nth_firstn_lt, nth_map_seq by lia. apply H. lia.
  Qed.

  Fixpoint batch_loop {A} (step : mitccrh -> list N -> nat -> option (list A * mitccrh * list N))
           (n fuel : nat) (m : mitccrh) (pad : list N) (i : nat) : option (list A) :=
    if n <=? i then Some [] else
    match fuel with
    | O => None
    | S f =>
        match step m pad i with
        | None => None
        | Some (out, m', pad') =>
            match batch_loop step n f m' pad' (i + otBatchSize) with
            | None => None
            | Some rest => Some (out ++ rest)
            end
        end
    end.

  (* in the state mkM _ (N.of_nat i) cs otBatchSize all keys are used, so the
     Hash of the step renews them to the tweaks i .. i+7 whatever cs is *)
  Definition step_ok {A} (step : mitccrh -> list N -> nat -> option (list A * mitccrh * list N))
             (f : nat -> A) (k n L : nat) : Prop :=
    forall i cs pad, i < n -> length pad = L ->
      exists cs' pad',
        step (mkM otBatchSize (N.of_nat i) cs otBatchSize) pad i
        = Some (map f (seq (k * i) (k * Nat.min otBatchSize (n - i))),
                mkM otBatchSize (N.of_nat (i + otBatchSize)) cs' otBatchSize, pad') /\
        length pad' = L.

  Lemma batch_loop_spec {A} step (f : nat -> A) k n L :
    step_ok step f k n L ->
    forall fuel i cs pad, length pad = L -> n - i <= fuel ->
      batch_loop step n fuel (mkM otBatchSize (N.of_nat i) cs otBatchSize) pad i
      = Some (map f (seq (k * i) (k * (n - i)))).
  Proof.
    intros Hstep. pose proof bs_eq as Hbs.
    induction fuel as [|fuel IH]; intros i cs pad Hpad Hfuel; cbn [batch_loop];
      destruct (Nat.leb_spec n i) as [Hle|Hlt]; try lia.
    1, 2: replace (n - i) with 0 by lia; rewrite Nat.mul_0_r; reflexivity.
    destruct (Hstep i cs pad Hlt Hpad) as (cs' & pad' & -> & Hpad').
    rewrite (IH _ cs' pad' Hpad') by lia. rewrite <- map_app. do 2 f_equal.
    destruct (Nat.le_gt_cases (n - i) otBatchSize).
    - replace (n - (i + otBatchSize)) with 0 by lia.
      rewrite Nat.min_r, Nat.mul_0_r, app_nil_r by lia. reflexivity.
    - rewrite Nat.min_l, Nat.mul_add_distr_l, <- seq_app, <- Nat.mul_add_distr_l by lia.
      do 2 f_equal. lia.
  Qed.

  Lemma batch_loop_all {A} step (f : nat -> A) k n L pad :
    step_ok step f k n L -> length pad = L ->
    batch_loop step n n (NewMITCCRH otBatchSize) pad 0 = Some (map f (seq 0 (k * n))).
  Proof.
    intros Hstep Hpad.
    pose proof (batch_loop_spec step f k n L Hstep n 0 (repeat 0%N otBatchSize) pad Hpad (Nat.le_sub_l n 0)) as H.
    rewrite Nat.mul_0_r, Nat.sub_0_r in H. exact H.
  Qed.

  Definition at2 {A} (g : nat -> bool -> A) (p : nat) : A := g (p / 2) (p mod 2 =? 0).

  Lemma at2_shift {A} (g : nat -> bool -> A) i idx : at2 g (2 * i + idx) = at2 (fun q => g (i + q)) idx.
  Proof.
    unfold at2. replace ((2 * i + idx) / 2) with (i + idx / 2) by lia.
    replace ((2 * i + idx) mod 2) with (idx mod 2) by lia. reflexivity.
  Qed.

  Lemma at2_even {A} (g : nat -> bool -> A) q : at2 g (2 * q) = g q true.
  Proof. unfold at2. replace (2 * q / 2) with q by lia. replace (2 * q mod 2) with 0 by lia. reflexivity. Qed.

  Lemma at2_odd {A} (g : nat -> bool -> A) q : at2 g (2 * q + 1) = g q false.
  Proof.
    unfold at2. replace ((2 * q + 1) / 2) with q by lia. replace ((2 * q + 1) mod 2) with 1 by lia. reflexivity.
  Qed.

  (* both senders hash the pad  d_i, d_i xor Delta, d_(i+1), ...  of batch i *)
  Definition hashed (data : list N) (q : nat) (even : bool) : N :=
    hsh (N.of_nat q) (if even then nth q data 0%N else N.lxor (nth q data 0%N) Delta).

  Lemma send_hash data cs pad i cnt :
    length pad = 2 * otBatchSize -> cnt <= otBatchSize ->
    exists cs' pad2,
      Hash E (mkM otBatchSize (N.of_nat i) cs otBatchSize)
           (map (fun idx => if idx <? 2 * cnt
                            then if idx mod 2 =? 0 then nth (i + idx / 2) data 0%N
                                 else N.lxor (nth (i + idx / 2) data 0%N) Delta
                            else nth idx pad 0%N) (seq 0 (length pad))) otBatchSize 2
      = Some (mkM otBatchSize (N.of_nat (i + otBatchSize)) cs' otBatchSize, pad2) /\
      length pad2 = 2 * otBatchSize /\
      forall idx, idx < 2 * cnt -> nth idx pad2 0%N = at2 (hashed data) (2 * i + idx).
  Proof.
    intros Hpad Hcnt. pose proof bs_eq as Hbs.
    rewrite Hash_fresh, <- Nat2N.inj_add by (try lia; rewrite map_length, seq_length; lia).
    eexists _, _. split; [reflexivity|]. split; [rewrite map_length, seq_length; reflexivity|].
    intros idx Hidx. rewrite nth_map_seq, Hpad, nth_map_seq by lia.
    destruct (Nat.ltb_spec idx (2 * cnt)); [|lia].
    rewrite at2_shift, <- Nat2N.inj_add. reflexivity.
  Qed.

  Lemma recv_hash rcvd cs pad i :
    length pad = otBatchSize ->
    exists cs' pad2,
      Hash E (mkM otBatchSize (N.of_nat i) cs otBatchSize)
           (map (fun idx => if idx <? Nat.min (length pad) (length rcvd - i)
                            then nth (i + idx) rcvd 0%N else nth idx pad 0%N) (seq 0 (length pad))) otBatchSize 1
      = Some (mkM otBatchSize (N.of_nat (i + otBatchSize)) cs' otBatchSize, pad2) /\
      length pad2 = otBatchSize /\
      forall j, j < Nat.min otBatchSize (length rcvd - i) ->
        nth j pad2 0%N = hsh (N.of_nat (i + j)) (nth (i + j) rcvd 0%N).
  Proof.
    intros Hpad. pose proof bs_eq as Hbs.
    rewrite Hash_fresh, <- Nat2N.inj_add by (try lia; rewrite map_length, seq_length; lia).
    eexists _, _. split; [reflexivity|]. split; [rewrite map_length, seq_length; lia|].
    intros j Hj. rewrite nth_map_seq, Hpad, nth_map_seq, Nat.div_1_r by lia.
    destruct (Nat.ltb_spec j (Nat.min otBatchSize (length rcvd - i))); [|lia].
    rewrite Nat2N.inj_add. reflexivity.
  Qed.

  Definition cot_msg (data : list N) (wires : list wire) : nat -> N :=
    at2 (fun q even => N.lxor (hashed data q even) (if even then L0 (nth q wires w0) else L1 (nth q wires w0))).

  Lemma cot_send_loop_eq data wires : forall fuel m pad i,
    cot_send_loop E Delta fuel m pad data wires i
    = batch_loop (fun m pad i => cot_send_step E Delta m pad data wires i) (length wires) fuel m pad i.
  Proof.
    induction fuel; intros; cbn [cot_send_loop batch_loop]; [reflexivity|].
    destruct (cot_send_step E Delta m pad data wires i) as [[[out m'] pad']|]; [rewrite IHfuel|]; reflexivity.
  Qed.

  Lemma cot_send_eq data wires :
    cot_send E Delta data wires = Some (map (cot_msg data wires) (seq 0 (2 * length wires))).
  Proof.
    unfold cot_send. rewrite cot_send_loop_eq.
    apply batch_loop_all with (L := 2 * otBatchSize); [|apply repeat_length].
    intros i cs pad Hi Hpad. pose proof bs_eq as Hbs. unfold cot_send_step. cbv zeta.
    replace (Nat.min (i + otBatchSize) (length wires) - i) with (Nat.min otBatchSize (length wires - i)) by lia.
    set (cnt := Nat.min otBatchSize (length wires - i)).
    destruct (send_hash data cs pad i cnt Hpad) as (cs' & pad2 & -> & Hl2 & H2); [lia|].
    eexists cs', _. split; [|rewrite map_length, seq_length; exact Hl2].
    rewrite (map_seq_shift _ (2 * i)). do 3 f_equal.
    apply firstn_map_nth with (d := 0%N); [rewrite map_length, seq_length; lia|].
    intros idx Hidx. rewrite nth_map_seq by lia.
    destruct (Nat.ltb_spec idx (2 * cnt)); [|lia].
    unfold cot_msg. rewrite H2, !at2_shift by lia. reflexivity.
  Qed.

  Definition cot_out (rcvd : list N) (flags : list bool) (msgs : list N) (q : nat) : N :=
    N.lxor (if nth q flags false then nth (2 * q + 1) msgs 0%N else nth (2 * q) msgs 0%N)
           (hsh (N.of_nat q) (nth q rcvd 0%N)).

  Lemma cot_recv_loop_eq rcvd flags msgs : forall fuel m pad i,
    cot_recv_loop E fuel m pad rcvd flags msgs i
    = batch_loop (fun m pad i => cot_recv_step E m pad rcvd flags msgs i) (length flags) fuel m pad i.
  Proof.
    induction fuel; intros; cbn [cot_recv_loop batch_loop]; [reflexivity|].
    destruct (cot_recv_step E m pad rcvd flags msgs i) as [[[out m'] pad']|]; [rewrite IHfuel|]; reflexivity.
  Qed.

  Lemma cot_receive_eq rcvd flags msgs :
    length rcvd = length flags ->
    cot_receive E rcvd flags msgs = Some (map (cot_out rcvd flags msgs) (seq 0 (length flags))).
  Proof.
    intros Hrl. unfold cot_receive.
    rewrite cot_recv_loop_eq, (batch_loop_all _ (cot_out rcvd flags msgs) 1 _ otBatchSize), Nat.mul_1_l;
      [reflexivity | | apply repeat_length].
    intros i cs pad Hi Hpad. unfold cot_recv_step. cbv zeta.
    destruct (recv_hash rcvd cs pad i Hpad) as (cs' & pad2 & -> & Hl2 & H2).
    exists cs', pad2. split; [|exact Hl2].
    rewrite !Nat.mul_1_l, (map_seq_shift _ i).
    do 3 f_equal. apply map_ext_in. intros j Hj. apply in_seq in Hj.
    unfold cot_out. rewrite H2 by lia. reflexivity.
  Qed.

  Theorem cot_correct data rcvd flags wires :
    length wires = length flags -> length rcvd = length flags ->
    (forall q, q < length flags ->
       nth q rcvd 0%N = N.lxor (nth q data 0%N) (if nth q flags false then Delta else 0%N)) ->
    exists msgs result,
      cot_send E Delta data wires = Some msgs /\
      cot_receive E rcvd flags msgs = Some result /\
      length result = length flags /\
      forall q, q < length flags -> nth q result 0%N = pick (nth q wires w0) (nth q flags false).
  Proof.
    intros Hw Hr Hrel. eexists _, _.
    split; [apply cot_send_eq|]. split; [apply cot_receive_eq, Hr|].
    split; [rewrite map_length, seq_length; reflexivity|].
    intros q Hq. rewrite nth_map_seq by exact Hq. unfold cot_out.
    rewrite !nth_map_seq, Hrel by lia. unfold cot_msg, hashed, pick. rewrite at2_even, at2_odd.
    destruct (nth q flags false); [|rewrite N.lxor_0_r]; xor_solve.
  Qed.

  Definition rot_wire (data : list N) (q : nat) : wire := mkWire (hashed data q true) (hashed data q false).

  Lemma rot_send_loop_eq data n : forall fuel m pad i,
    rot_send_loop E Delta fuel m pad data n i
    = batch_loop (fun m pad i => rot_send_step E Delta m pad data n i) n fuel m pad i.
  Proof.
    induction fuel; intros; cbn [rot_send_loop batch_loop]; [reflexivity|].
    destruct (rot_send_step E Delta m pad data n i) as [[[out m'] pad']|]; [rewrite IHfuel|]; reflexivity.
  Qed.

  Lemma rot_send_eq data n : rot_send E Delta data n = Some (map (rot_wire data) (seq 0 n)).
  Proof.
    unfold rot_send.
    rewrite rot_send_loop_eq, (batch_loop_all _ (rot_wire data) 1 _ (2 * otBatchSize)), Nat.mul_1_l;
      [reflexivity | | apply repeat_length].
    intros i cs pad Hi Hpad. pose proof bs_eq as Hbs. unfold rot_send_step. cbv zeta.
    replace (Nat.min (i + otBatchSize) n - i) with (Nat.min otBatchSize (n - i)) by lia.
    set (cnt := Nat.min otBatchSize (n - i)).
    destruct (send_hash data cs pad i cnt Hpad) as (cs' & pad2 & -> & Hl2 & H2); [lia|].
    exists cs', pad2. split; [|exact Hl2].
    rewrite !Nat.mul_1_l, (map_seq_shift _ i).
    do 3 f_equal. apply map_ext_in. intros j Hj. apply in_seq in Hj.
    rewrite !H2 by lia.
    replace (2 * i + 2 * j) with (2 * (i + j)) by lia.
    replace (2 * i + (2 * j + 1)) with (2 * (i + j) + 1) by lia.
    rewrite at2_even, at2_odd. reflexivity.
  Qed.

  Lemma rot_recv_loop_eq rcvd n : forall fuel m pad i,
    rot_recv_loop E fuel m pad rcvd n i
    = batch_loop (fun m pad i => rot_recv_step E m pad rcvd n i) n fuel m pad i.
  Proof.
    induction fuel; intros; cbn [rot_recv_loop batch_loop]; [reflexivity|].
    destruct (rot_recv_step E m pad rcvd n i) as [[[out m'] pad']|]; [rewrite IHfuel|]; reflexivity.
  Qed.

  Lemma rot_receive_eq rcvd :
    rot_receive E rcvd (length rcvd) = Some (map (fun q => hsh (N.of_nat q) (nth q rcvd 0%N)) (seq 0 (length rcvd))).
  Proof.
    unfold rot_receive.
    rewrite rot_recv_loop_eq, (batch_loop_all _ (fun q => hsh (N.of_nat q) (nth q rcvd 0%N)) 1 _ otBatchSize), Nat.mul_1_l;
      [reflexivity | | apply repeat_length].
    intros i cs pad Hi Hpad. unfold rot_recv_step. cbv zeta.
    destruct (recv_hash rcvd cs pad i Hpad) as (cs' & pad2 & -> & Hl2 & H2).
    exists cs', pad2. split; [|exact Hl2].
    rewrite !Nat.mul_1_l, (map_seq_shift _ i), Hl2.
    do 3 f_equal. apply firstn_map_nth with (d := 0%N); [lia | exact H2].
  Qed.

  Theorem rot_correct data rcvd flags :
    length rcvd = length flags ->
    (forall q, q < length flags ->
       nth q rcvd 0%N = N.lxor (nth q data 0%N) (if nth q flags false then Delta else 0%N)) ->
    exists wires result,
      rot_send E Delta data (length flags) = Some wires /\
      rot_receive E rcvd (length flags) = Some result /\
      length wires = length flags /\ length result = length flags /\
      forall q, q < length flags -> nth q result 0%N = pick (nth q wires w0) (nth q flags false).
  Proof.
    intros Hr Hrel. eexists _, _.
    split; [apply rot_send_eq|]. split; [rewrite <- Hr; apply rot_receive_eq|].
    rewrite !map_length, !seq_length. split; [reflexivity|]. split; [exact Hr|].
    intros q Hq. rewrite Hr, nth_map_seq by exact Hq.
    rewrite nth_indep with (d' := rot_wire data 0), (map_nth (rot_wire data)), seq_nth, Hrel
      by (rewrite ?map_length, ?seq_length; exact Hq).
    unfold pick, rot_wire. destruct (nth q flags false); cbn [L0 L1]; [reflexivity|].
    rewrite N.lxor_0_r. reflexivity.
  Qed.
End CotProofs.

(* (p, p) -> (p', p'): both IKNP ends start at the same stream offset and stay
   in lock step; mal = None is the semi-honest mode, Some _ the malicious one. *)
Theorem cot_over_iknp g0 g1 Delta E tailfix clr p (flags : list bool) (mal : option (N * N)) (wires : list wire) :
  (Delta < 2 ^ 128)%N -> length wires = length flags ->
  exists us data rcvd cvs cvr p' msgs result,
    run_op g0 g1 Delta tailfix clr (p, p) (OpLabels flags mal) = Some (ResLabels us data rcvd cvs cvr, (p', p')) /\
    cot_send E Delta data wires = Some msgs /\
    cot_receive E rcvd flags msgs = Some result /\
    length result = length flags /\
    forall q, q < length flags -> nth q result 0%N = pick (nth q wires w0) (nth q flags false).
Proof.
  intros HD Hw.
  destruct (run_op_labels g0 g1 Delta HD tailfix clr flags mal p)
    as (us & data & rcvd & cvs & cvr & p' & Hrun & Hls & Hlr & Hrel).
  destruct (cot_correct E Delta data rcvd flags wires Hw Hlr Hrel) as (msgs & res & H1 & H2 & H3 & H4).
  exists us, data, rcvd, cvs, cvr, p', msgs, res. auto.
Qed.

Theorem rot_over_iknp g0 g1 Delta E tailfix clr p (flags : list bool) (mal : option (N * N)) :
  (Delta < 2 ^ 128)%N ->
  exists us data rcvd cvs cvr p' wires result,
    run_op g0 g1 Delta tailfix clr (p, p) (OpLabels flags mal) = Some (ResLabels us data rcvd cvs cvr, (p', p')) /\
    rot_send E Delta data (length flags) = Some wires /\
    rot_receive E rcvd (length flags) = Some result /\
    length wires = length flags /\ length result = length flags /\
    forall q, q < length flags -> nth q result 0%N = pick (nth q wires w0) (nth q flags false).
Proof.
  intros HD.
  destruct (run_op_labels g0 g1 Delta HD tailfix clr flags mal p)
    as (us & data & rcvd & cvs & cvr & p' & Hrun & Hls & Hlr & Hrel).
  destruct (rot_correct E Delta data rcvd flags Hlr Hrel) as (ws & res & H1 & H2 & H3 & H4 & H5).
  exists us, data, rcvd, cvs, cvr, p', ws, res. repeat (split; [assumption|]). assumption.
Qed.
