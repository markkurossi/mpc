(* vole.Sender.Mul / Receiver.Mul (vole/vole.go, model Vole.v; C20): the
   outputs are additive shares of the products modulo p for every vector
   length, every modulus 0 < p <= 2^256, every integer x_i and every y_i in
   [0, 2^256); every transmitted element survives bytes32 / SetBytes; the IKNP
   chunking covers exactly the requested rows. *)
From Coq Require Import ZArith NArith List Bool Lia Arith.
From Mpc Require Import Gen.Consts Base.ListFacts Base.Codec Base.CodecProof OT.Vole.
Import ListNotations.
Open Scope Z_scope.

Lemma be_zero k : be k 0%N = repeat 0%N k.
Proof.
  induction k as [|k IH]; [reflexivity|].
  cbn [be]. change (0 / 256)%N with 0%N. change (0 mod 256)%N with 0%N.
  rewrite IH. change [0%N] with (repeat 0%N 1). rewrite <- repeat_app.
  f_equal. lia.
Qed.

Lemma be_lead j : forall k x, (x < 256 ^ N.of_nat j)%N ->
  be (k + j) x = repeat 0%N k ++ be j x.
Proof.
  induction j as [|j IH]; intros k x Hx.
  - cbn in Hx. assert (x = 0%N) by lia. subst x.
    rewrite Nat.add_0_r. cbn [be]. rewrite app_nil_r. apply be_zero.
  - replace (k + S j)%nat with (S (k + j)) by lia. cbn [be].
    rewrite IH.
    + rewrite app_assoc. reflexivity.
    + rewrite Nat2N.inj_succ, N.pow_succ_r' in Hx.
      apply N.div_lt_upper_bound; lia.
Qed.

Lemma nbytes_bound a : (a < 256 ^ N.of_nat (nbytes a))%N.
Proof.
  pose proof (big_bytes_roundtrip a) as H. unfold big_bytes in H.
  rewrite of_be_be in H.
  assert (Hnz : (256 ^ N.of_nat (nbytes a) <> 0)%N) by (apply N.pow_nonzero; lia).
  pose proof (N.mod_upper_bound a _ Hnz). lia.
Qed.

Lemma nbytes_le_32 a : (a < 2 ^ 256)%N -> (nbytes a <= 32)%nat.
Proof.
  intros Ha. unfold nbytes.
  destruct (N.eq_dec a 0) as [->|Hnz]; [cbn; lia|].
  rewrite N.size_log2 by exact Hnz.
  assert (N.log2 a < 256)%N by (apply N.log2_lt_pow2; [lia|exact Ha]).
  assert (N.to_nat (N.succ (N.log2 a)) <= 256)%nat by lia.
  assert ((N.to_nat (N.succ (N.log2 a)) + 7) / 8 < 33)%nat by (apply Nat.div_lt_upper_bound; lia).
  lia.
Qed.

Lemma bytes32_abs v : Z.abs v < 2 ^ 256 -> bytes32 v = Some (be 32 (Z.abs_N v)).
Proof.
  intros Hv. unfold bytes32, big_bytes. rewrite be_length.
  assert (Ha : (Z.abs_N v < 2 ^ 256)%N).
  { apply N2Z.inj_lt. rewrite N2Z.inj_abs_N. exact Hv. }
  pose proof (nbytes_le_32 _ Ha) as Hn.
  destruct (Nat.leb_spec (nbytes (Z.abs_N v)) 32) as [_|]; [|lia].
  f_equal.
  replace 32%nat with ((32 - nbytes (Z.abs_N v)) + nbytes (Z.abs_N v))%nat at 2 by lia.
  symmetry. apply be_lead. apply nbytes_bound.
Qed.

Lemma bytes32_nonneg v : 0 <= v < 2 ^ 256 -> bytes32 v = Some (be 32 (Z.to_N v)).
Proof.
  intros Hv. rewrite bytes32_abs by (rewrite Z.abs_eq; lia).
  f_equal. f_equal. rewrite <- (Z.abs_eq v) at 2 by lia.
  destruct v; cbn; try reflexivity; lia.
Qed.

Lemma pow256_32 : (256 ^ N.of_nat 32 = 2 ^ 256)%N.
Proof. reflexivity. Qed.

Lemma bytes32_roundtrip v : 0 <= v < 2 ^ 256 ->
  exists bs, bytes32 v = Some bs /\ length bs = 32%nat /\ set_bytes bs = v.
Proof.
  intros Hv. exists (be 32 (Z.to_N v)). split; [apply bytes32_nonneg; exact Hv|].
  split; [apply be_length|].
  unfold set_bytes. rewrite of_be_be, pow256_32.
  rewrite N.mod_small.
  - apply Z2N.id; lia.
  - change (2 ^ 256)%N with (Z.to_N (2 ^ 256)). apply Z2N.inj_lt; lia.
Qed.

Lemma bytes32_roundtrip_field p v : p <= 2 ^ 256 -> 0 <= v < p ->
  exists bs, bytes32 v = Some bs /\ length bs = 32%nat /\ set_bytes bs = v.
Proof. intros Hp Hv. apply bytes32_roundtrip. lia. Qed.

Example bytes32_panics : bytes32 (2 ^ 256) = None.
Proof. vm_compute. reflexivity. Qed.
Example bytes32_negative : bytes32 (-3) = bytes32 3.
Proof. vm_compute. reflexivity. Qed.

Lemma pack32_unpack vs : Forall (fun v => 0 <= v < 2 ^ 256) vs ->
  exists bs, pack32 vs = Some bs /\ length bs = (length vs * 32)%nat /\
             map set_bytes (blocks32 (length vs) bs) = vs.
Proof.
  induction 1 as [|v vs Hv _ IH].
  - exists []. cbn. auto.
  - destruct IH as (bs & Hp & Hl & Hm).
    destruct (bytes32_roundtrip v Hv) as (b & Hb & Hbl & Hbv).
    exists (b ++ bs). cbn [pack32 length blocks32 map]. rewrite Hb, Hp.
    split; [reflexivity|]. split; [rewrite app_length; lia|].
    rewrite (firstn_app_exact b bs 32 Hbl), (skipn_app_exact b bs 32 Hbl).
    rewrite Hbv, Hm. reflexivity.
Qed.

Lemma unpack32_pack p vs bs : pack32 vs = Some bs ->
  map set_bytes (blocks32 (length vs) bs) = vs ->
  unpack32 (length vs) p bs = map (fun v => gomod v p) vs.
Proof.
  intros _ Hm. unfold unpack32. rewrite <- Hm at 2. rewrite map_map. reflexivity.
Qed.

Inductive Forall3 {A B C : Type} (R : A -> B -> C -> Prop) : list A -> list B -> list C -> Prop :=
| Forall3_nil : Forall3 R [] [] []
| Forall3_cons a b c la lb lc :
    R a b c -> Forall3 R la lb lc -> Forall3 R (a :: la) (b :: lb) (c :: lc).

Lemma gomod_pos x p : 0 < p -> gomod x p = x mod p.
Proof. intros. unfold gomod. rewrite Z.abs_eq by lia. reflexivity. Qed.

Lemma gomod_range x p : p <> 0 -> 0 <= gomod x p < Z.abs p.
Proof. intros. unfold gomod. apply Z.mod_pos_bound. lia. Qed.

Lemma u_of_rel p r x y : 0 < p -> (u_of p r x (gomod y p) - r) mod p = (x * y) mod p.
Proof.
  intros Hp. unfold u_of. rewrite !gomod_pos by exact Hp.
  rewrite Zminus_mod_idemp_l.
  replace (r + (x * (y mod p)) mod p - r) with ((x * (y mod p)) mod p) by ring.
  rewrite Z.mod_mod by lia. apply Z.mul_mod_idemp_r. lia.
Qed.

Lemma u_of_range p r x y : 0 < p -> 0 <= u_of p r x y < p.
Proof. intros Hp. unfold u_of. rewrite (gomod_pos _ p Hp). apply Z.mod_pos_bound. exact Hp. Qed.

Lemma sender_us_length p : forall rs xs ys,
  length rs = length xs -> length ys = length xs -> length (sender_us p rs xs ys) = length xs.
Proof.
  induction rs as [|r rs IH]; intros [|x xs] [|y ys] H1 H2; cbn in *; try lia.
  rewrite IH; lia.
Qed.

(* u is what Receiver.Mul returns, r what Sender.Mul returns *)
Theorem vole_shares : forall p xs ys rs,
  0 < p -> length rs = length xs -> length ys = length xs ->
  Forall3 (fun u r xy => (u - r) mod p = (fst xy * snd xy) mod p)
          (sender_us p rs xs (map (fun y => gomod y p) ys)) rs (combine xs ys).
Proof.
  intros p xs. induction xs as [|x xs IH]; intros [|y ys] [|r rs] Hp H1 H2; cbn in *; try lia.
  - constructor.
  - constructor.
    + cbn. apply u_of_rel; exact Hp.
    + apply IH; lia.
Qed.

Lemma sender_us_range p : forall rs xs ys, 0 < p ->
  Forall (fun u => 0 <= u < p) (sender_us p rs xs ys).
Proof.
  induction rs as [|r rs IH]; intros [|x xs] [|y ys] Hp; cbn; try constructor.
  - apply u_of_range; exact Hp.
  - apply IH; exact Hp.
Qed.

Lemma Forall_map_iff {A B} (f : A -> B) (P : B -> Prop) l :
  Forall P (map f l) <-> Forall (fun a => P (f a)) l.
Proof. apply Forall_map. Qed.

(* correlated OT as IKNPSender.Send / IKNPReceiver.Receive document it:
   t_i = s_i xor c_i * Delta *)
Definition iknp_cot (delta : N) (choices : list bool) (s t : list N) : Prop :=
  length s = length choices /\ length t = length choices /\
  forall i, (i < length choices)%nat ->
    nth i t 0%N = N.lxor (nth i s 0%N) (if nth i choices false then delta else 0%N).

Lemma nth_ext_N (a b : list N) : length a = length b ->
  (forall i, (i < length a)%nat -> nth i a 0%N = nth i b 0%N) -> a = b.
Proof.
  revert b. induction a as [|x a IH]; intros [|y b] Hl H; cbn in *; try lia; [reflexivity|].
  f_equal.
  - apply (H 0%nat). lia.
  - apply IH; [lia|]. intros i Hi. apply (H (S i)). lia.
Qed.

(* Receiver.Mul passes all-false flags *)
Lemma iknp_cot_false delta m s t : iknp_cot delta (repeat false m) s t -> t = s /\ length s = m.
Proof.
  intros (Hs & Ht & H). rewrite repeat_length in *. split; [|exact Hs].
  apply nth_ext_N; [lia|]. intros i Hi. rewrite H by lia.
  rewrite nth_repeat. apply N.lxor_0_r.
Qed.

Section Session.
  Variable expand : N -> N.

  Lemma mask_range p l : 0 < p -> 0 <= mask expand p l < p.
  Proof. intros Hp. unfold mask. rewrite gomod_pos by exact Hp. apply Z.mod_pos_bound; exact Hp. Qed.

  Lemma Forall_lt_weaken p l : p <= 2 ^ 256 ->
    Forall (fun u => 0 <= u < p) l -> Forall (fun u => 0 <= u < 2 ^ 256) l.
  Proof. intros Hp. apply Forall_impl. intros; lia. Qed.

  Lemma receiver_y_ok labels ys yb :
    length ys <> 0%nat -> length labels = length ys -> pack32 ys = Some yb -> receiver_y labels ys = VOk yb.
  Proof.
    intros Hm Hl Hp. unfold receiver_y. cbv zeta.
    rewrite (proj2 (Nat.eqb_neq _ _) Hm), Hl, Nat.eqb_refl, Hp. reflexivity.
  Qed.

  Lemma sender_mul_ok labels xs p yb ub :
    length xs <> 0%nat -> length labels = length xs -> p <> 0 -> length yb = (length xs * 32)%nat ->
    pack32 (sender_us p (map (mask expand p) labels) xs (unpack32 (length xs) p yb)) = Some ub ->
    sender_mul expand labels xs p yb = VOk (map (mask expand p) labels, ub).
  Proof.
    intros Hm Hl Hp Hy Hu. unfold sender_mul. cbv zeta.
    rewrite (proj2 (Nat.eqb_neq _ _) Hm), Hl, Nat.eqb_refl, (proj2 (Z.eqb_neq _ _) Hp), Hy, Nat.eqb_refl, Hu.
    reflexivity.
  Qed.

  Lemma receiver_us_ok m p ub : length ub = (m * 32)%nat -> p <> 0 -> receiver_us m p ub = VOk (unpack32 m p ub).
  Proof.
    intros Hl Hp. unfold receiver_us. rewrite Hl, Nat.eqb_refl, (proj2 (Z.eqb_neq _ _) Hp). reflexivity.
  Qed.

  (* Sender.Mul(xs, p) against Receiver.Mul(ys, p); delta and expand are
     arbitrary, the IKNP layer enters through iknp_cot only *)
  Theorem vole_session_correct : forall delta slabels rlabels xs ys p,
    0 < p <= 2 ^ 256 ->
    length ys = length xs ->
    iknp_cot delta (repeat false (length xs)) slabels rlabels ->
    Forall (fun y => 0 <= y < 2 ^ 256) ys ->
    exists o, vole_session expand slabels rlabels xs ys p = VOk o /\
      vo_rs o = map (fun l => Z.of_N (expand l) mod p) slabels /\
      length (vo_rs o) = length xs /\ length (vo_us o) = length xs /\
      Forall (fun r => 0 <= r < p) (vo_rs o) /\ Forall (fun u => 0 <= u < p) (vo_us o) /\
      Forall3 (fun u r xy => (u - r) mod p = (fst xy * snd xy) mod p)
              (vo_us o) (vo_rs o) (combine xs ys) /\
      length (vo_yb o) = (length xs * 32)%nat /\ length (vo_ub o) = (length xs * 32)%nat /\
      map set_bytes (blocks32 (length xs) (vo_yb o)) = ys /\
      map set_bytes (blocks32 (length xs) (vo_ub o)) = vo_us o.
  Proof.
    intros delta slabels rlabels xs ys p Hp Hly Hcot Hys.
    destruct (iknp_cot_false _ _ _ _ Hcot) as [-> Hls].
    unfold vole_session. rewrite Hly, Nat.eqb_refl. cbn [negb].
    destruct (Nat.eqb_spec (length xs) 0) as [Hm0|Hm0].
    - (* empty vectors: both return nil, nothing is sent *)
      destruct xs; [|discriminate]. destruct ys; [|discriminate]. destruct slabels; [|discriminate].
      eexists. split; [reflexivity|]. cbn. repeat split; try constructor.
    - destruct (pack32_unpack ys Hys) as (yb & Hyp & Hyl & Hym).
      rewrite (receiver_y_ok slabels ys yb) by (rewrite ?Hly; assumption).
      set (rs := map (mask expand p) slabels).
      set (us := sender_us p rs xs (map (fun v => gomod v p) ys)).
      assert (Hrl : length rs = length xs) by (unfold rs; rewrite map_length; exact Hls).
      assert (Hul : length us = length xs).
      { unfold us. apply sender_us_length; [exact Hrl|rewrite map_length; exact Hly]. }
      assert (Hur : Forall (fun u => 0 <= u < p) us) by (apply sender_us_range; lia).
      destruct (pack32_unpack us (Forall_lt_weaken p us ltac:(lia) Hur)) as (ub & Hup & Hubl & Hum).
      rewrite Hly in Hyl. rewrite Hul in Hubl.
      rewrite (sender_mul_ok slabels xs p yb ub), (receiver_us_ok (length xs) p ub); try assumption; try lia.
      2:{ rewrite <- Hly, (unpack32_pack p ys yb Hyp Hym). exact Hup. }
      eexists. split; [reflexivity|]. cbn [vo_rs vo_us vo_yb vo_ub].
      replace (unpack32 (length xs) p ub) with (unpack32 (length us) p ub) by (rewrite Hul; reflexivity).
      rewrite (unpack32_pack p us ub Hup Hum).
      assert (Hfix : map (fun v => gomod v p) us = us).
      { clear - Hur Hp. induction Hur as [|u l Hu _ IH]; [reflexivity|].
        cbn. rewrite IH. f_equal. rewrite gomod_pos by lia. apply Z.mod_small; exact Hu. }
      rewrite Hfix.
      split; [unfold rs; apply map_ext; intros l; unfold mask; apply gomod_pos; lia|].
      split; [exact Hrl|]. split; [exact Hul|].
      split; [unfold rs; apply Forall_map_iff; apply Forall_forall; intros l _; apply mask_range; lia|].
      split; [exact Hur|].
      split; [apply vole_shares; [lia|exact Hrl|exact Hly]|].
      split; [exact Hyl|].
      split; [exact Hubl|].
      split; [rewrite <- Hly; exact Hym|].
      rewrite <- Hul. exact Hum.
  Qed.

  (* the receiver's labels are only length-checked *)
  Lemma vole_receiver_labels_unused : forall slabels rl1 rl2 xs ys p,
    length rl1 = length rl2 ->
    vole_session expand slabels rl1 xs ys p = vole_session expand slabels rl2 xs ys p.
  Proof.
    intros. unfold vole_session, receiver_y. rewrite H. reflexivity.
  Qed.
End Session.

Example vole_session_example :
  match vole_session (fun l => (l * 1000003)%N) [11; 12; 13]%N [11; 12; 13]%N [3; 6; -2] [5; 0; 6] 7 with
  | VOk o => vo_rs o = [2; 6; 3] /\ vo_us o = [3; 6; 5]
  | VErr _ => False
  end.
Proof. vm_compute. split; reflexivity. Qed.

(* y outside [0, 2^256): a negative y is transmitted as |y| (the relation
   fails), a y >= 2^256 makes the receiver panic *)
Example vole_negative_y_wrong :
  exists o, vole_session (fun l => l) [1%N] [1%N] [5] [-3] 65537 = VOk o /\
            (nth 0 (vo_us o) 0 - nth 0 (vo_rs o) 0) mod 65537 <> (5 * -3) mod 65537.
Proof. eexists. split; [vm_compute; reflexivity|]. vm_compute. discriminate. Qed.
Example vole_oversized_y_panics :
  vole_session (fun l => l) [1%N] [1%N] [5] [2 ^ 256] 65537 = VErr 2.
Proof. vm_compute. reflexivity. Qed.

(* a modulus above 2^256: a share of 2^256 or more makes the sender panic in bytes32 *)
Example vole_large_p_panics :
  vole_session (fun _ => (2 ^ 256)%N) [1%N] [1%N] [0] [0] (2 ^ 257) = VErr 2.
Proof. vm_compute. reflexivity. Qed.

Lemma iknp_chunks_nonpos f n : n <= 0 -> iknp_chunks f n = [].
Proof. intros. destruct f; cbn; [reflexivity|]. destruct (Z.leb_spec n 0); [reflexivity|lia]. Qed.

(* the total ceil(n/8) is what every column stream advances by: row r of the
   extension is bit r mod 8 of byte r/8 of the stream, whatever the number of
   chunks *)
Theorem iknp_chunks_total : forall fuel n, 0 <= n -> (Z.to_nat n <= fuel)%nat ->
  zsum (iknp_chunks fuel n) = (n + 7) / 8 /\
  Forall (fun br => 0 < br <= ot_chunkByteRows) (iknp_chunks fuel n).
Proof.
  induction fuel as [|f IH]; intros n Hn Hf.
  - assert (n = 0) by lia. subst. cbn. split; [reflexivity|constructor].
  - cbn [iknp_chunks]. destruct (Z.leb_spec n 0) as [H0|H0].
    + assert (n = 0) by lia. subst. cbn. split; [reflexivity|constructor].
    + unfold ot_chunkRows, ot_chunkByteRows in *.
      destruct (Z.le_gt_cases n 512) as [Hs|Hb].
      * rewrite Z.min_r by lia. rewrite Z.sub_diag, iknp_chunks_nonpos by lia.
        cbn [zsum fold_right]. split; [lia|].
        constructor; [|constructor].
        split; [apply Z.div_str_pos; lia|].
        assert ((n + 7) / 8 < 65) by (apply Z.div_lt_upper_bound; lia). lia.
      * rewrite Z.min_l by lia.
        destruct (IH (n - 512) ltac:(lia) ltac:(lia)) as [Hsum Hall].
        cbn [zsum fold_right] in *. fold (zsum (iknp_chunks f (n - 512))). rewrite Hsum.
        change ((512 + 7) / 8) with 64.
        split.
        -- replace (n + 7) with ((n - 512 + 7) + 64 * 8) by ring.
           rewrite Z.div_add by lia. ring.
        -- constructor; [lia|exact Hall].
Qed.
