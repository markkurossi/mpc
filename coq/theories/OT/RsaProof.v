(* The RSA OT of ot/rsa.go (model Rsa.v; C06) delivers the chosen label, from
   (m^e)^d mod n = m, the fixed-width left padding (be_fixed_of_be) and the
   PKCS#1 block round trip (parse_encryption_block). *)
From Coq Require Import ZArith List Bool Arith Lia Zpow_facts.
From Mpc Require Import OT.Rsa.
Import ListNotations.
Local Open Scope Z_scope.

Definition is_byte (b : Z) : Prop := 0 <= b < 256.

Lemma le_fixed_of_le l : Forall is_byte l -> le_fixed (length l) (of_le l) = l.
Proof.
  induction 1 as [|b l Hb _ IH]; [reflexivity|].
  cbn [length le_fixed of_le]. unfold is_byte in Hb.
  assert (Hm : forall x, (b + 256 * x) mod 256 = b) by (intros; Z.div_mod_to_equations; lia).
  assert (Hd : forall x, (b + 256 * x) / 256 = x) by (intros; Z.div_mod_to_equations; lia).
  rewrite Hm, Hd.
  rewrite IH. reflexivity.
Qed.

(* leading zeros of l included: big.Int.Bytes drops them, the left-padding
   copy(mbBytes[size-len(b):], b) of the Go code puts them back *)
Lemma be_fixed_of_be l : Forall is_byte l -> be_fixed (length l) (of_be l) = l.
Proof.
  intros H. unfold be_fixed, of_be. rewrite <- (rev_length l).
  rewrite le_fixed_of_le by (apply Forall_rev; assumption). apply rev_involutive.
Qed.

Lemma le_fixed_length m v : length (le_fixed m v) = m.
Proof. revert v. induction m; intros v; simpl; auto. Qed.

Lemma le_fixed_bytes m v : Forall is_byte (le_fixed m v).
Proof.
  revert v. induction m; intros v; simpl; constructor; auto.
  unfold is_byte. apply Z.mod_pos_bound. lia.
Qed.

Lemma of_le_le_fixed m v : 0 <= v < 256 ^ Z.of_nat m -> of_le (le_fixed m v) = v.
Proof.
  revert v. induction m as [|m IH]; intros v Hv.
  - simpl in *. lia.
  - cbn [le_fixed of_le]. rewrite Nat2Z.inj_succ, Z.pow_succ_r in Hv by lia.
    rewrite IH.
    + pose proof (Z.div_mod v 256). lia.
    + split; [apply Z.div_pos; lia|]. apply Z.div_lt_upper_bound; lia.
Qed.

Lemma of_be_be_fixed m v : 0 <= v < 256 ^ Z.of_nat m -> of_be (be_fixed m v) = v.
Proof. intros H. unfold of_be, be_fixed. rewrite rev_involutive. apply of_le_le_fixed. assumption. Qed.

Lemma be_fixed_length m v : length (be_fixed m v) = m.
Proof. unfold be_fixed. rewrite rev_length. apply le_fixed_length. Qed.

Lemma be_fixed_bytes m v : Forall is_byte (be_fixed m v).
Proof. unfold be_fixed. apply Forall_rev. apply le_fixed_bytes. Qed.

Lemma after_zero_pad padLen data : after_zero (repeat 255 padLen ++ 0 :: data) = Some data.
Proof. induction padLen; simpl; auto. Qed.

Lemma parse_encryption_block blockLen data eb :
  encryption_block blockLen data = Some eb ->
  parse_block eb = Some data /\ length eb = blockLen /\ (Forall is_byte data -> Forall is_byte eb).
Proof.
  unfold encryption_block. destruct (Nat.ltb_spec blockLen (3 + length data + 8)); [discriminate|].
  intros E. inversion E; subst eb; clear E.
  split; [|split].
  - unfold parse_block. cbn [length]. rewrite app_length, repeat_length. cbn [length].
    destruct (Nat.ltb_spec (S (S (blockLen - 3 - length data + S (length data)))) 4); [lia|].
    cbn. apply after_zero_pad.
  - cbn [length]. rewrite app_length, repeat_length. cbn [length]. lia.
  - intros Hd. constructor; [unfold is_byte; lia|]. constructor; [unfold is_byte; lia|].
    apply Forall_app. split.
    + apply Forall_forall. intros x Hx. apply repeat_spec in Hx. subst. unfold is_byte. lia.
    + constructor; [unfold is_byte; lia|assumption].
Qed.

Lemma powmod_pos_spec x p m : 0 < m -> powmod_pos x p m = (x ^ Zpos p) mod m.
Proof.
  intros Hm. induction p as [p IH|p IH|].
  - cbn [powmod_pos]. rewrite IH.
    replace (Zpos p~1) with (Zpos p + Zpos p + 1) by lia.
    rewrite !Z.pow_add_r, Z.pow_1_r by lia.
    rewrite Z.mul_mod_idemp_l by lia.
    set (X := x ^ Z.pos p).
    rewrite (Z.mul_mod (X mod m * (X mod m)) x), (Z.mul_mod (X * X) x) by lia.
    rewrite <- (Z.mul_mod X X) by lia. reflexivity.
  - cbn [powmod_pos]. rewrite IH.
    replace (Zpos p~0) with (Zpos p + Zpos p) by lia.
    rewrite Z.pow_add_r by lia. rewrite <- Z.mul_mod by lia. reflexivity.
  - cbn [powmod_pos]. rewrite Z.pow_1_r. reflexivity.
Qed.

Lemma Zpowmod_spec x y m : 0 < m -> Zpowmod x y m = (x ^ y) mod m.
Proof.
  intros Hm. destruct y as [|p|p]; cbn [Zpowmod].
  - reflexivity.
  - rewrite powmod_pos_spec by assumption. symmetry. apply Zpower_mod. assumption.
  - reflexivity.
Qed.

Example Zpowmod_kat : Zpowmod (-7) 1031 1000003 = ((-7) ^ 1031) mod 1000003.
Proof. apply Zpowmod_spec. reflexivity. Qed.

Section RsaProofs.
  Variables n e d : Z.
  Variable msz : nat.
  Variable powmod : Z -> Z -> Z.
  Hypothesis n_pos : 0 < n.
  Hypothesis powmod_spec : forall x y, powmod x y = (x ^ y) mod n.
  (* RSA correctness for this key pair *)
  Hypothesis rsa_inv : forall m, 0 <= m < n -> ((m ^ e) ^ d) mod n = m.
  Hypothesis msz_ok : (27 <= msz)%nat.     (* room for 3 + 8 padding bytes and a 16-byte label *)

  Lemma send_k_chosen xb k : 0 <= k < n -> send_k d powmod (recv_v n e powmod xb k) xb = k.
  Proof.
    intros Hk. unfold send_k, recv_v. rewrite !powmod_spec.
    rewrite Zpower_mod by assumption.
    rewrite Zminus_mod_idemp_l.
    replace (xb + k ^ e mod n - xb) with (k ^ e mod n) by lia.
    rewrite Z.mod_mod by lia.
    rewrite <- Zpower_mod by assumption.
    apply rsa_inv. assumption.
  Qed.

  Lemma send_recv_msg label v x :
    0 <= label < 2 ^ 128 ->
    exists mp, send_msg d msz powmod label v x = Some mp /\
               recv_msg msz mp (send_k d powmod v x) = Some label.
  Proof.
    intros Hl. unfold send_msg.
    destruct (encryption_block msz (be_fixed 16 label)) as [eb|] eqn:Eeb.
    2:{ unfold encryption_block in Eeb. rewrite be_fixed_length in Eeb.
        destruct (Nat.ltb_spec msz (3 + 16 + 8)); [lia|discriminate]. }
    destruct (parse_encryption_block _ _ _ Eeb) as (Hp & Hlen & Hb).
    exists (of_be eb + send_k d powmod v x). split; [reflexivity|].
    unfold recv_msg.
    replace (of_be eb + send_k d powmod v x - send_k d powmod v x) with (of_be eb) by lia.
    rewrite <- Hlen. rewrite be_fixed_of_be by (apply Hb, be_fixed_bytes).
    rewrite Hp. f_equal. apply of_be_be_fixed. change (256 ^ Z.of_nat 16) with (2 ^ 128). assumption.
  Qed.

  (* RSA.Send against RSA.Receive; the sender's randoms x0, x1 are arbitrary
     integers, the receiver's k is in [0, n) *)
  Theorem rsa_correct l0 l1 x0 x1 k (flag : bool) :
    0 <= l0 < 2 ^ 128 -> 0 <= l1 < 2 ^ 128 -> 0 <= k < n ->
    exists v m0p m1p,
      rsa_transfer n e d msz powmod l0 l1 x0 x1 k flag = Some (v, m0p, m1p, if flag then l1 else l0).
  Proof.
    intros H0 H1 Hk. unfold rsa_transfer. cbv zeta.
    set (v := recv_v n e powmod (if flag then x1 else x0) k).
    destruct (send_recv_msg l0 v x0 H0) as (m0p & Hs0 & Hr0).
    destruct (send_recv_msg l1 v x1 H1) as (m1p & Hs1 & Hr1).
    exists v, m0p, m1p. rewrite Hs0, Hs1.
    (* the sender's k for the chosen index is the receiver's *)
    destruct flag; unfold v in Hr0, Hr1.
    - rewrite send_k_chosen in Hr1 by assumption. rewrite Hr1. reflexivity.
    - rewrite send_k_chosen in Hr0 by assumption. rewrite Hr0. reflexivity.
  Qed.
End RsaProofs.

(* with the executable exponentiation no hypothesis about powmod is left *)
Theorem rsa_correct_exec n e d msz :
  0 < n -> (forall m, 0 <= m < n -> ((m ^ e) ^ d) mod n = m) -> (27 <= msz)%nat ->
  forall l0 l1 x0 x1 k (flag : bool),
  0 <= l0 < 2 ^ 128 -> 0 <= l1 < 2 ^ 128 -> 0 <= k < n ->
  exists v m0p m1p,
    rsa_transfer n e d msz (fun x y => Zpowmod x y n) l0 l1 x0 x1 k flag
    = Some (v, m0p, m1p, if flag then l1 else l0).
Proof.
  intros Hn Hinv Hm. apply rsa_correct; auto.
  intros x y. apply Zpowmod_spec. assumption.
Qed.
