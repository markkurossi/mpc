(* Chou-Orlandi (ot/co.go, model Co.v) delivers the chosen label (C06, C18):
   from the group laws, a*(b*G + c*A) - c*(a*A) = b*(a*G), hence
   mask_sender(choice) = mask_receiver. *)
From Coq Require Import NArith List Bool Arith Lia.
From Mpc Require Import Base.Label OT.Co.
Import ListNotations.

Lemma xor_trunc_involutive mask m : xor_trunc mask (xor_trunc mask m) = firstn (length mask) m.
Proof.
  revert m. induction mask as [|x mask IH]; intros [|y m]; try reflexivity.
  unfold xor_trunc in *. cbn [combine map fst snd length firstn]. f_equal.
  - generalize x, y. intros a b. xor_solve.
  - apply IH.
Qed.

Section CoProofs.
  Variable G : Type.
  Variables (gadd : G -> G -> G) (gneg : G -> G) (gzero : G) (smul : N -> G -> G) (Gen : G).
  Variable kdf : G -> N -> N.
  Hypothesis add_assoc : forall P Q R, gadd (gadd P Q) R = gadd P (gadd Q R).
  Hypothesis add_0_r : forall P, gadd P gzero = P.
  Hypothesis add_neg : forall P, gadd P (gneg P) = gzero.
  Hypothesis smul_add : forall a P Q, smul a (gadd P Q) = gadd (smul a P) (smul a Q).
  Hypothesis smul_comm : forall a b P, smul a (smul b P) = smul b (smul a P).

  Notation GenerateCOSenderSetup := (GenerateCOSenderSetup G gneg smul Gen).
  Notation BuildCOChoices := (BuildCOChoices G gadd smul Gen).

  Lemma dh_point a b (bit : bool) :
    let A := smul a Gen in
    let B := if bit then gadd (smul b Gen) A else smul b Gen in
    (if bit then gadd (smul a B) (gneg (smul a A)) else smul a B) = smul b A.
  Proof.
    cbv zeta. destruct bit.
    - rewrite smul_add, add_assoc, add_neg, add_0_r. apply smul_comm.
    - apply smul_comm.
  Qed.

  Lemma masks_agree a scalars bits wires : forall idx,
    length scalars = length bits -> length wires = length bits ->
    let s := GenerateCOSenderSetup a in
    dec_masks (receiver_masks G smul kdf (s_A G s) idx scalars) bits
              (enc_masks (sender_masks G gadd smul kdf s idx (BuildCOChoices (s_A G s) scalars bits)) wires)
    = map (fun p => pick (fst p) (snd p)) (combine wires bits).
  Proof.
    cbv zeta. revert scalars wires.
    induction bits as [|bit bits IH]; intros scalars wires idx Hs Hw.
    - destruct scalars; [|discriminate]. destruct wires; [|discriminate]. reflexivity.
    - destruct scalars as [|b scalars]; [discriminate|]. destruct wires as [|w wires]; [discriminate|].
      cbn [BuildCOChoices Co.BuildCOChoices sender_masks receiver_masks enc_masks dec_masks combine map fst snd
             GenerateCOSenderSetup Co.GenerateCOSenderSetup s_a s_A s_AaInv].
      f_equal.
      + pose proof (dh_point a b bit) as Hdh. cbv zeta in Hdh.
        destruct bit; cbn [pick fst snd].
        * rewrite Hdh. generalize (kdf (smul b (smul a Gen)) idx), (L1 w). intros m l. xor_solve.
        * rewrite Hdh. generalize (kdf (smul b (smul a Gen)) idx), (L0 w). intros m l. xor_solve.
      + apply (IH scalars wires (idx + 1)%N); simpl in *; lia.
  Qed.

  (* CO.Send against CO.Receive *)
  Theorem co_correct a scalars bits wires :
    length scalars = length bits -> length wires = length bits ->
    co_transfer G gadd gneg smul Gen kdf a scalars bits wires
    = Some (map (fun p => pick (fst p) (snd p)) (combine wires bits)).
  Proof.
    intros Hs Hw. unfold co_transfer, EncryptCOCiphertexts, DecryptCOCiphertexts. cbv zeta.
    assert (Hp : forall A sc bs, length sc = length bs -> length (BuildCOChoices A sc bs) = length bs).
    { intros A sc. induction sc as [|x sc IH]; intros [|y bs] H; try discriminate; [reflexivity|].
      cbn [BuildCOChoices Co.BuildCOChoices length]. f_equal. apply IH. simpl in H. lia. }
    assert (He : forall ms ws, length ms = length ws -> length (enc_masks ms ws) = length ws).
    { induction ms as [|[m0 m1] ms IH]; intros [|w ws] H; try discriminate; [reflexivity|].
      cbn [enc_masks length]. f_equal. apply IH. simpl in H. lia. }
    assert (Hm : forall s idx ps, length (sender_masks G gadd smul kdf s idx ps) = length ps).
    { intros s idx ps. revert idx. induction ps as [|P ps IH]; intros idx; [reflexivity|].
      cbn [sender_masks length]. f_equal. apply IH. }
    rewrite Hp by assumption. rewrite Hw, Nat.eqb_refl. cbn [negb].
    rewrite He by (rewrite Hm, Hp by assumption; lia).
    rewrite Hs, Hw, !Nat.eqb_refl. cbn [andb negb].
    f_equal. apply masks_agree; assumption.
  Qed.

  (* COSenderXfer / COReceiverXfer *)
  Theorem xfer_mask_agree a b (bit : bool) :
    let A := smul a Gen in
    let B := xfer_receiver_point G gadd smul Gen A b bit in
    let ms := xfer_sender_masks G gadd gneg smul Gen kdf a B in
    (if bit then snd ms else fst ms) = xfer_receiver_mask G smul kdf A b.
  Proof.
    cbv zeta. unfold xfer_sender_masks, xfer_receiver_point, xfer_receiver_mask. cbv zeta.
    pose proof (dh_point a b bit) as Hdh. cbv zeta in Hdh.
    destruct bit; cbn [fst snd]; rewrite Hdh; reflexivity.
  Qed.

  Variable kdfb : G -> list N.
  (* firstn: Go's xor() truncates to the mask length (32 bytes) *)
  Theorem xfer_correct a b (bit : bool) m0 m1 :
    xfer_transfer G gadd gneg smul Gen kdfb a b bit m0 m1
    = firstn (length (kdfb (smul b (smul a Gen)))) (if bit then m1 else m0).
  Proof.
    unfold xfer_transfer, xfer_receiver_point, xfer_encrypt, xfer_decrypt. cbv zeta. cbn [fst snd].
    pose proof (dh_point a b bit) as Hdh. cbv zeta in Hdh.
    destruct bit; rewrite Hdh; apply xor_trunc_involutive.
  Qed.
End CoProofs.
