(* The carry-less multiplication of the C15 check (model Gf128.v): clmul is the
   product of GF(2)[X] (commutative, bilinear over xor, no zero divisors,
   degrees add), and the Go routines compute it: clmul64 on 64-bit operands,
   mul128Generic (limb decomposition) and mul128Ref on all 128-bit operands
   return split128 (clmul a b). *)
From Coq Require Import NArith List Bool Lia.
From Mpc Require Base.Label.
From Mpc Require Import OT.Gf128.
Import ListNotations.
Local Open Scope N_scope.

Lemma double_lxor : forall a b, N.double (N.lxor a b) = N.lxor (N.double a) (N.double b).
Proof.
  intros a b. apply N.bits_inj; intro m.
  rewrite N.lxor_spec, !N.double_spec.
  destruct (N.eq_dec m 0) as [->|Hm].
  - rewrite !N.testbit_even_0. reflexivity.
  - destruct (N.succ_pred m Hm). rewrite <- (N.succ_pred m Hm), !N.double_bits_succ, N.lxor_spec. reflexivity.
Qed.

Lemma double_shiftl : forall a, N.double a = N.shiftl a 1.
Proof. intros a. rewrite N.double_spec, N.shiftl_mul_pow2. change (2^1) with 2. lia. Qed.

Lemma lt_pow2_bits : forall x k, x < 2^k <-> (forall m, k <= m -> N.testbit x m = false).
Proof.
  intros x k; split.
  - intros Hx m Hm. rewrite <- (N.mod_small x (2^k) Hx). apply N.mod_pow2_bits_high; assumption.
  - intros H. assert (E : x mod 2^k = x).
    { apply N.bits_inj; intro m. destruct (N.lt_ge_cases m k) as [Hl|Hg].
      - apply N.mod_pow2_bits_low; assumption.
      - rewrite N.mod_pow2_bits_high by assumption. symmetry; apply H; assumption. }
    rewrite <- E. apply N.mod_lt. apply N.pow_nonzero. discriminate.
Qed.

Lemma lxor_lt_pow2 : forall a b k, a < 2^k -> b < 2^k -> N.lxor a b < 2^k.
Proof.
  intros a b k Ha Hb. apply lt_pow2_bits; intros m Hm.
  rewrite N.lxor_spec.
  rewrite (proj1 (lt_pow2_bits a k) Ha m Hm), (proj1 (lt_pow2_bits b k) Hb m Hm). reflexivity.
Qed.

Lemma mod_pow2_lxor : forall a b k, (N.lxor a b) mod 2^k = N.lxor (a mod 2^k) (b mod 2^k).
Proof.
  intros a b k. apply N.bits_inj; intro m. rewrite N.lxor_spec.
  destruct (N.lt_ge_cases m k) as [Hl|Hg].
  - rewrite !N.mod_pow2_bits_low by assumption. apply N.lxor_spec.
  - rewrite !N.mod_pow2_bits_high by assumption. reflexivity.
Qed.

Lemma div_pow2_lxor : forall a b k, (N.lxor a b) / 2^k = N.lxor (a / 2^k) (b / 2^k).
Proof. intros a b k. rewrite <- !N.shiftr_div_pow2. apply N.shiftr_lxor. Qed.

(* disjoint supports: addition is xor *)
Lemma add_shift_lxor : forall lo hi k, lo < 2^k -> lo + 2^k * hi = N.lxor lo (N.shiftl hi k).
Proof.
  intros lo hi k Hlo. rewrite N.shiftl_mul_pow2, (N.mul_comm hi).
  apply N.add_nocarry_lxor.
  apply N.bits_inj; intro m. rewrite N.land_spec, N.bits_0.
  destruct (N.lt_ge_cases m k) as [Hl|Hg].
  - rewrite N.mul_comm, <- N.shiftl_mul_pow2, N.shiftl_spec_low by assumption. apply andb_false_r.
  - rewrite (proj1 (lt_pow2_bits lo k) Hlo m Hg). reflexivity.
Qed.

Lemma split_lxor_shift : forall x k, x = N.lxor (x mod 2^k) (N.shiftl (x / 2^k) k).
Proof.
  intros x k. rewrite <- add_shift_lxor.
  - rewrite N.add_comm. apply N.div_mod. apply N.pow_nonzero; discriminate.
  - apply N.mod_lt. apply N.pow_nonzero; discriminate.
Qed.

Lemma div_lt_pow2 : forall x n k, x < 2^(n + k) -> x / 2^k < 2^n.
Proof.
  intros x n k H. apply N.div_lt_upper_bound.
  - apply N.pow_nonzero; discriminate.
  - rewrite <- N.pow_add_r, N.add_comm. exact H.
Qed.

Lemma lowbits_mod : forall k x, lowbits k x = x mod 2^k.
Proof. intros. apply N.land_ones. Qed.

Lemma highbits_div : forall k x, highbits k x = x / 2^k.
Proof. intros. apply N.shiftr_div_pow2. Qed.

Lemma split128_eq : forall x, split128 x = (x mod 2^128, x / 2^128).
Proof. intros. unfold split128. rewrite lowbits_mod, highbits_div. reflexivity. Qed.

Lemma split128_lxor : forall a b, split128 (N.lxor a b) = pxor (split128 a) (split128 b).
Proof. intros a b. rewrite !split128_eq. unfold pxor; cbn [fst snd]. rewrite mod_pow2_lxor, div_pow2_lxor. reflexivity. Qed.

Lemma join_split128 : forall x, join128 (split128 x) = x.
Proof.
  intros x. rewrite split128_eq. unfold join128; cbn [fst snd]. rewrite N.add_comm. symmetry.
  apply N.div_mod. apply N.pow_nonzero; discriminate.
Qed.

Lemma split128_inj : forall a b, split128 a = split128 b -> a = b.
Proof. intros a b H. rewrite <- (join_split128 a), <- (join_split128 b), H. reflexivity. Qed.

Lemma split128_0 : split128 0 = (0, 0).
Proof. reflexivity. Qed.

Lemma split128_unique : forall x lo hi, lo < 2^128 -> lo + 2^128 * hi = x -> split128 x = (lo, hi).
Proof.
  intros x lo hi Hlo E. rewrite split128_eq. f_equal.
  - symmetry. apply (N.mod_unique x (2^128) hi lo Hlo). rewrite <- E. lia.
  - symmetry. apply (N.div_unique x (2^128) hi lo Hlo). rewrite <- E. lia.
Qed.

Lemma pxor_comm : forall p q, pxor p q = pxor q p.
Proof. intros [a b] [c d]. unfold pxor; simpl. rewrite (N.lxor_comm a), (N.lxor_comm b). reflexivity. Qed.

Lemma pxor_assoc : forall p q r, pxor (pxor p q) r = pxor p (pxor q r).
Proof. intros [a b] [c d] [e f]. unfold pxor; simpl. rewrite !N.lxor_assoc. reflexivity. Qed.

Lemma pxor_0_r : forall p, pxor p (0, 0) = p.
Proof. intros [a b]. unfold pxor; simpl. rewrite !N.lxor_0_r. reflexivity. Qed.

Lemma pxor_0_l : forall p, pxor (0, 0) p = p.
Proof. intros [a b]. unfold pxor; simpl. reflexivity. Qed.

Lemma clmul_pos_0_r : forall p, clmul_pos p 0 = 0.
Proof. induction p; simpl; rewrite ?IHp; reflexivity. Qed.

Lemma clmul_pos_lxor_r : forall p b c,
  clmul_pos p (N.lxor b c) = N.lxor (clmul_pos p b) (clmul_pos p c).
Proof.
  induction p; intros b c; simpl.
  - rewrite IHp, double_lxor. Label.xor_solve.
  - rewrite IHp, double_lxor. reflexivity.
  - reflexivity.
Qed.

Lemma clmul_pos_double_r : forall p b, clmul_pos p (N.double b) = N.double (clmul_pos p b).
Proof.
  induction p; intros b; simpl.
  - rewrite IHp, double_lxor. reflexivity.
  - rewrite IHp. reflexivity.
  - reflexivity.
Qed.

Lemma clmul_pos_1_r : forall p, clmul_pos p 1 = Npos p.
Proof. induction p; simpl; rewrite ?IHp; reflexivity. Qed.

Lemma succ_double_lxor : forall b, N.succ_double b = N.lxor 1 (N.double b).
Proof. intros [|q]; reflexivity. Qed.

Lemma clmul_pos_comm : forall p q, clmul_pos p (Npos q) = clmul_pos q (Npos p).
Proof.
  induction p; intros q; simpl.
  - change (Npos p~1) with (N.succ_double (Npos p)).
    rewrite succ_double_lxor, clmul_pos_lxor_r, clmul_pos_1_r, clmul_pos_double_r, IHp. reflexivity.
  - change (Npos p~0) with (N.double (Npos p)).
    rewrite clmul_pos_double_r, IHp. reflexivity.
  - rewrite clmul_pos_1_r. reflexivity.
Qed.

Lemma clmul_0_l : forall b, clmul 0 b = 0.
Proof. reflexivity. Qed.

Lemma clmul_0_r : forall a, clmul a 0 = 0.
Proof. intros [|p]; simpl; [reflexivity | apply clmul_pos_0_r]. Qed.

Lemma clmul_comm : forall a b, clmul a b = clmul b a.
Proof.
  intros [|p] [|q]; simpl; try reflexivity.
  - symmetry; apply clmul_pos_0_r.
  - apply clmul_pos_0_r.
  - apply clmul_pos_comm.
Qed.

Lemma clmul_1_l : forall b, clmul 1 b = b.
Proof. reflexivity. Qed.

Lemma clmul_1_r : forall a, clmul a 1 = a.
Proof. intros a. rewrite clmul_comm. reflexivity. Qed.

Lemma clmul_lxor_r : forall a b c, clmul a (N.lxor b c) = N.lxor (clmul a b) (clmul a c).
Proof. intros [|p] b c; simpl; [reflexivity | apply clmul_pos_lxor_r]. Qed.

Lemma clmul_lxor_l : forall a b c, clmul (N.lxor a b) c = N.lxor (clmul a c) (clmul b c).
Proof. intros a b c. rewrite (clmul_comm (N.lxor a b) c), (clmul_comm a c), (clmul_comm b c). apply clmul_lxor_r. Qed.

Lemma clmul_double_r : forall a b, clmul a (N.double b) = N.double (clmul a b).
Proof. intros [|p] b; simpl; [reflexivity | apply clmul_pos_double_r]. Qed.

Lemma clmul_double_l : forall a b, clmul (N.double a) b = N.double (clmul a b).
Proof. intros a b. rewrite (clmul_comm (N.double a) b), (clmul_comm a b). apply clmul_double_r. Qed.

Lemma clmul_shiftl_l : forall a b k, clmul (N.shiftl a k) b = N.shiftl (clmul a b) k.
Proof.
  intros a b k. induction k using N.peano_ind.
  - rewrite !N.shiftl_0_r. reflexivity.
  - rewrite !N.shiftl_succ_r, clmul_double_l, IHk. reflexivity.
Qed.

Lemma clmul_shiftl_r : forall a b k, clmul a (N.shiftl b k) = N.shiftl (clmul a b) k.
Proof. intros a b k. rewrite clmul_comm, clmul_shiftl_l, clmul_comm. reflexivity. Qed.

Lemma clmul_pow2_l : forall k b, clmul (2^k) b = N.shiftl b k.
Proof. intros k b. rewrite <- (N.shiftl_1_l k), clmul_shiftl_l, clmul_1_l. reflexivity. Qed.

Lemma clmul_pow2_r : forall a k, clmul a (2^k) = N.shiftl a k.
Proof. intros a k. rewrite clmul_comm. apply clmul_pow2_l. Qed.

Lemma double_eq_0 : forall a, N.double a = 0 -> a = 0.
Proof. intros [|p]; simpl; [reflexivity | discriminate]. Qed.

Lemma clmul_pos_odd_nonzero : forall q p, clmul_pos p~1 (Npos q) <> 0.
Proof.
  induction q; intros p.
  - (* q odd: the product is odd *)
    cbn [clmul_pos]. intro H.
    assert (T : N.testbit (N.lxor (Npos q~1) (N.double (clmul_pos p (Npos q~1)))) 0 = true).
    { rewrite N.lxor_spec, N.double_spec, N.testbit_even_0. reflexivity. }
    rewrite H in T. discriminate.
  - change (Npos q~0) with (N.double (Npos q)).
    rewrite clmul_pos_double_r. intro H. apply double_eq_0 in H. exact (IHq p H).
  - rewrite clmul_pos_1_r. discriminate.
Qed.

Lemma clmul_pos_nonzero : forall p q, clmul_pos p (Npos q) <> 0.
Proof.
  induction p; intros q.
  - apply clmul_pos_odd_nonzero.
  - simpl. intro H. apply double_eq_0 in H. exact (IHp q H).
  - simpl. discriminate.
Qed.

(* GF(2)[X] is an integral domain *)
Theorem clmul_eq_0 : forall a b, clmul a b = 0 -> a = 0 \/ b = 0.
Proof.
  intros [|p] [|q] H; auto.
  exfalso. exact (clmul_pos_nonzero p q H).
Qed.

Corollary clmul_neq_0 : forall a b, a <> 0 -> b <> 0 -> clmul a b <> 0.
Proof. intros a b Ha Hb H. destruct (clmul_eq_0 a b H); contradiction. Qed.

Corollary clmul_cancel_r : forall a b c, c <> 0 -> clmul a c = clmul b c -> a = b.
Proof.
  intros a b c Hc H.
  assert (E : clmul (N.lxor a b) c = 0) by (rewrite clmul_lxor_l, H; apply N.lxor_nilpotent).
  destruct (clmul_eq_0 _ _ E) as [E1|E1]; [apply N.lxor_eq; exact E1 | contradiction].
Qed.

Lemma double_lt_pow2 : forall x k, x < 2^k -> N.double x < 2^(N.succ k).
Proof. intros x k H. rewrite N.double_spec, N.pow_succ_r'. lia. Qed.

Lemma clmul_pos_bound : forall p b n m, Npos p < 2^n -> b < 2^m -> clmul_pos p b < 2^(n + m).
Proof.
  induction p; intros b n m Hp Hb.
  - destruct (N.eq_dec n 0) as [->|Hn]; [simpl in Hp; lia|].
    rewrite <- (N.succ_pred n Hn) in *. set (n' := N.pred n) in *.
    assert (Hp' : Npos p < 2^n').
    { rewrite N.pow_succ_r' in Hp. change (Npos p~1) with (2 * Npos p + 1) in Hp. lia. }
    simpl. apply lxor_lt_pow2.
    + eapply N.lt_le_trans; [exact Hb|]. apply N.pow_le_mono_r; lia.
    + rewrite N.add_succ_l. apply double_lt_pow2. apply IHp; assumption.
  - destruct (N.eq_dec n 0) as [->|Hn]; [simpl in Hp; lia|].
    rewrite <- (N.succ_pred n Hn) in *. set (n' := N.pred n) in *.
    assert (Hp' : Npos p < 2^n').
    { rewrite N.pow_succ_r' in Hp. change (Npos p~0) with (2 * Npos p) in Hp. lia. }
    simpl. rewrite N.add_succ_l. apply double_lt_pow2. apply IHp; assumption.
  - simpl. eapply N.lt_le_trans; [exact Hb|]. apply N.pow_le_mono_r; lia.
Qed.

Lemma clmul_bound : forall a b n m, a < 2^n -> b < 2^m -> clmul a b < 2^(n + m).
Proof.
  intros [|p] b n m Ha Hb; simpl.
  - apply N.neq_0_lt_0. apply N.pow_nonzero; discriminate.
  - apply clmul_pos_bound; assumption.
Qed.

Definition split64 (x : N) : N * N := (x mod 2^64, x / 2^64).

Lemma mod_pow2_succ : forall b i,
  b mod 2^(N.succ i) = N.lxor (b mod 2^i) (if N.testbit b i then 2^i else 0).
Proof.
  intros b i. apply N.bits_inj; intro m. rewrite N.lxor_spec.
  destruct (N.lt_ge_cases m i) as [Hl|Hg].
  - rewrite !N.mod_pow2_bits_low by lia.
    destruct (N.testbit b i).
    + rewrite N.pow2_bits_false by lia. rewrite xorb_false_r; reflexivity.
    + rewrite N.bits_0, xorb_false_r; reflexivity.
  - rewrite (N.mod_pow2_bits_high b i m) by assumption. simpl.
    destruct (N.eq_dec m i) as [->|Hne].
    + rewrite N.mod_pow2_bits_low by lia.
      destruct (N.testbit b i); [rewrite N.pow2_bits_true | rewrite N.bits_0]; reflexivity.
    + rewrite N.mod_pow2_bits_high by lia.
      destruct (N.testbit b i); [rewrite N.pow2_bits_false by lia | rewrite N.bits_0]; reflexivity.
Qed.

Lemma clmul64_step_spec : forall a b i,
  a < 2^64 -> i < 64 ->
  clmul64_step a b i (split64 (clmul (b mod 2^i) a))
  = split64 (clmul (b mod 2^(N.succ i)) a).
Proof.
  intros a b i Ha Hi. unfold clmul64_step, split64. rewrite lowbits_mod.
  rewrite mod_pow2_succ, clmul_lxor_l.
  destruct (N.testbit b i).
  - rewrite clmul_pow2_l.
    rewrite mod_pow2_lxor, div_pow2_lxor.
    destruct (N.eqb_spec i 0) as [->|Hne].
    + rewrite N.shiftl_0_r, (N.mod_small a) by exact Ha.
      rewrite (N.div_small a) by exact Ha. rewrite N.lxor_0_r. reflexivity.
    + rewrite <- (N.shiftr_div_pow2 (N.shiftl a i)), N.shiftr_shiftl_r by lia. reflexivity.
  - rewrite clmul_0_l, N.lxor_0_r. reflexivity.
Qed.

Lemma clmul64_loop_spec : forall fuel a b i,
  a < 2^64 -> i + N.of_nat fuel <= 64 ->
  clmul64_loop fuel i a b (split64 (clmul (b mod 2^i) a))
  = split64 (clmul (b mod 2^(i + N.of_nat fuel)) a).
Proof.
  induction fuel; intros a b i Ha Hi.
  - simpl. rewrite N.add_0_r. reflexivity.
  - cbn [clmul64_loop]. rewrite Nat2N.inj_succ in Hi.
    rewrite clmul64_step_spec by (try assumption; lia).
    rewrite IHfuel by (try assumption; lia). do 4 f_equal. rewrite Nat2N.inj_succ. lia.
Qed.

Theorem clmul64_spec : forall a b, a < 2^64 -> b < 2^64 -> clmul64 a b = split64 (clmul a b).
Proof.
  intros a b Ha Hb. unfold clmul64.
  assert (E : (0, 0) = split64 (clmul (b mod 2^0) a)).
  { change (2^0) with 1. rewrite N.mod_1_r. reflexivity. }
  rewrite E.
  rewrite clmul64_loop_spec by (simpl; lia).
  change (0 + N.of_nat 64) with 64. rewrite (N.mod_small b) by exact Hb.
  rewrite clmul_comm. reflexivity.
Qed.

Lemma mod_lt_pow2 : forall x k, x mod 2^k < 2^k.
Proof. intros. apply N.mod_lt. apply N.pow_nonzero; discriminate. Qed.

Theorem clmul_generic : forall a b, a < 2^128 -> b < 2^128 ->
  mul128_generic a b = split128 (clmul a b).
Proof.
  intros a b Ha Hb. unfold mul128_generic. rewrite !lowbits_mod, !highbits_div.
  set (a0 := a mod 2^64). set (a1 := a / 2^64).
  set (b0 := b mod 2^64). set (b1 := b / 2^64).
  assert (Ha0 : a0 < 2^64) by apply mod_lt_pow2.
  assert (Hb0 : b0 < 2^64) by apply mod_lt_pow2.
  assert (Ha1 : a1 < 2^64) by (apply div_lt_pow2; exact Ha).
  assert (Hb1 : b1 < 2^64) by (apply div_lt_pow2; exact Hb).
  rewrite !clmul64_spec by assumption. unfold split64.
  set (p00 := clmul a0 b0). set (p01 := clmul a0 b1).
  set (p10 := clmul a1 b0). set (p11 := clmul a1 b1).
  assert (B00 : p00 < 2^(64+64)) by (apply clmul_bound; assumption).
  assert (B01 : p01 < 2^(64+64)) by (apply clmul_bound; assumption).
  assert (B10 : p10 < 2^(64+64)) by (apply clmul_bound; assumption).
  assert (B11 : p11 < 2^(64+64)) by (apply clmul_bound; assumption).
  assert (M1 : N.lxor (p00 / 2^64) (N.lxor (p01 mod 2^64) (p10 mod 2^64)) < 2^64).
  { apply lxor_lt_pow2; [apply div_lt_pow2; exact B00 | apply lxor_lt_pow2; apply mod_lt_pow2]. }
  symmetry. apply split128_unique.
  - pose proof (mod_lt_pow2 p00 64). change (2^128) with (2^64 * 2^64). nia.
  - assert (M2 : N.lxor (N.lxor (p01 / 2^64) (p10 / 2^64)) (p11 mod 2^64) < 2^64).
    { apply lxor_lt_pow2; [apply lxor_lt_pow2; apply div_lt_pow2; assumption | apply mod_lt_pow2]. }
    rewrite (add_shift_lxor (p00 mod 2^64)) by apply mod_lt_pow2.
    rewrite (add_shift_lxor (N.lxor (N.lxor (p01 / 2^64) (p10 / 2^64)) (p11 mod 2^64))) by exact M2.
    rewrite add_shift_lxor.
    2:{ apply lxor_lt_pow2.
        - eapply N.lt_le_trans; [apply mod_lt_pow2|]. apply N.pow_le_mono_r; lia.
        - apply lt_pow2_bits. intros m Hm.
          rewrite N.shiftl_spec_high' by lia.
          apply (proj1 (lt_pow2_bits _ 64) M1). lia. }
    (* right-hand side: expand a and b into limbs *)
    match goal with |- ?L = _ => set (LHS := L) end.
    rewrite (split_lxor_shift a 64), (split_lxor_shift b 64).
    fold a0 a1 b0 b1.
    rewrite !clmul_lxor_l, !clmul_lxor_r, !clmul_shiftl_l, !clmul_shiftl_r.
    fold p00 p01 p10 p11.
    rewrite (split_lxor_shift p00 64) at 1.
    rewrite (split_lxor_shift p01 64) at 1.
    rewrite (split_lxor_shift p10 64) at 1.
    rewrite (split_lxor_shift p11 64) at 1.
    subst LHS.
    rewrite !N.shiftl_lxor, !N.shiftl_shiftl.
    change (64 + 64) with 128. change (64 + 128) with 192. change (128 + 64) with 192.
    (* both sides are xors of the same eight terms *)
    Label.xor_solve.
Qed.

Lemma mul128_ref_loop_spec : forall fuel a b i,
  mul128_ref_loop fuel i a b (clmul (a mod 2^i) b) = clmul (a mod 2^(i + N.of_nat fuel)) b.
Proof.
  induction fuel; intros a b i.
  - simpl. rewrite N.add_0_r. reflexivity.
  - cbn [mul128_ref_loop].
    replace (if N.testbit a i then N.lxor (clmul (a mod 2^i) b) (N.shiftl b i) else clmul (a mod 2^i) b)
      with (clmul (a mod 2^(N.succ i)) b).
    + rewrite IHfuel. do 3 f_equal. rewrite Nat2N.inj_succ. lia.
    + rewrite mod_pow2_succ, clmul_lxor_l. destruct (N.testbit a i).
      * rewrite clmul_pow2_l. reflexivity.
      * rewrite clmul_0_l, N.lxor_0_r. reflexivity.
Qed.

Theorem mul128_ref_spec : forall a b, a < 2^128 -> b < 2^128 -> mul128_ref a b = split128 (clmul a b).
Proof.
  intros a b Ha Hb. unfold mul128_ref. rewrite lowbits_mod.
  assert (E : 0 = clmul (a mod 2^0) (b mod 2^128)).
  { change (2^0) with 1. rewrite N.mod_1_r. reflexivity. }
  rewrite E at 2.
  rewrite mul128_ref_loop_spec. change (0 + N.of_nat 128) with 128.
  rewrite !N.mod_small by assumption. reflexivity.
Qed.

Lemma inn_prdt_split : forall a b, inn_prdt a b = split128 (inn256 a b).
Proof.
  induction a as [|x a IH]; intros [|y b]; simpl; try reflexivity.
  rewrite split128_lxor, IH. reflexivity.
Qed.

Lemma inn256_app : forall a1 b1 a2 b2, length a1 = length b1 ->
  inn256 (a1 ++ a2) (b1 ++ b2) = N.lxor (inn256 a1 b1) (inn256 a2 b2).
Proof.
  induction a1 as [|x a1 IH]; intros [|y b1] a2 b2 H; simpl in *; try discriminate.
  - reflexivity.
  - rewrite IH by lia. rewrite N.lxor_assoc. reflexivity.
Qed.

Lemma inn256_nil_r : forall a, inn256 a [] = 0.
Proof. intros [|x a]; reflexivity. Qed.
