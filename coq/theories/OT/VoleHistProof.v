(* A vole Sender/Receiver pair reused for any history of Mul calls (model
   VoleHist.v; C20).  The IKNP correlation, a hypothesis of VoleProof.v, is
   discharged here by IknpProof.run_op_labels (the executable IKNP model of
   ot/iknp.go, property C06) at whatever stream offset the earlier calls of
   the history left the pair. *)
From Coq Require Import ZArith NArith List Bool Lia Arith.
From Mpc Require Import Gen.Consts Base.ListFacts Base.Codec OT.Iknp OT.IknpProof OT.Vole OT.VoleProof OT.VoleHist.
Import ListNotations.
Local Open Scope nat_scope.

(* 2^256: the elements travel as 32-byte blocks (bytes32) *)
Definition vcall_ok (c : vcall) : Prop :=
  let '(xs, ys, p) := c in
  (0 < p <= 2 ^ 256)%Z /\ length ys = length xs /\ Forall (fun y => (0 <= y < 2 ^ 256)%Z) ys.

Definition vcall_shares (c : vcall) (o : vole_out) : Prop :=
  let '(xs, ys, p) := c in
  length (vo_rs o) = length xs /\ length (vo_us o) = length xs /\
  Forall (fun r => (0 <= r < p)%Z) (vo_rs o) /\ Forall (fun u => (0 <= u < p)%Z) (vo_us o) /\
  Forall3 (fun u r xy => ((u - r) mod p = (fst xy * snd xy) mod p)%Z)
          (vo_us o) (vo_rs o) (combine xs ys) /\
  map set_bytes (blocks32 (length xs) (vo_yb o)) = ys /\
  map set_bytes (blocks32 (length xs) (vo_ub o)) = vo_us o.

Section Hist.
  Variables g0 g1 : nat -> nat -> N.
  Variable Delta : N.
  Variable expand : N -> N.
  Hypothesis HD : (Delta < 2 ^ 128)%N.

  Lemma vole_call_ok c p0 : vcall_ok c ->
    exists o p1, vole_call g0 g1 Delta expand (p0, p0) c = (VOk o, (p1, p1)) /\ vcall_shares c o.
  Proof.
    destruct c as [[xs ys] p]. intros (Hp & Hlen & Hys).
    unfold vole_call. rewrite Hlen, Nat.eqb_refl. cbn [negb].
    destruct (length xs =? 0)%nat eqn:Hm.
    - apply Nat.eqb_eq in Hm. exists (mkVoleOut [] [] [] []), p0. split; [reflexivity|].
      destruct xs; [|discriminate]. destruct ys; [|discriminate].
      cbn. repeat split; constructor.
    - (* one extension of m labels with all-false flags, at the offset the history has reached *)
      destruct (run_op_labels g0 g1 Delta HD true true (repeat false (length xs)) None p0)
        as (us & sent & rcvd & cvs & cvr & p1 & Hop & Hcot).
      rewrite Hop.
      destruct (vole_session_correct expand Delta sent rcvd xs ys p Hp Hlen Hcot Hys)
        as (o & Ho & _ & H1 & H2 & H3 & H4 & H5 & _ & _ & H6 & H7).
      exists o, p1. split; [rewrite Ho; reflexivity|].
      unfold vcall_shares. tauto.
  Qed.

  (* every call has its own length (0 included) and its own modulus; p0 is
     any common stream offset *)
  Theorem vole_history_correct : forall calls p0,
    Forall vcall_ok calls ->
    exists outs, vole_history g0 g1 Delta expand (p0, p0) calls = map VOk outs /\
                 Forall2 vcall_shares calls outs.
  Proof.
    induction calls as [|c calls IH]; intros p0 Hok.
    - exists []. split; [reflexivity|constructor].
    - inversion Hok as [|c' l' Hc Hrest]; subst.
      destruct (vole_call_ok c p0 Hc) as (o & p1 & Hcall & Hsh).
      destruct (IH p1 Hrest) as (outs & Hh & Hall).
      exists (o :: outs). split.
      + cbn [vole_history]. rewrite Hcall, Hh. reflexivity.
      + constructor; assumption.
  Qed.

  Theorem vole_offsets_lockstep : forall calls p0,
    Forall vcall_ok calls ->
    Forall (fun st => fst st = snd st) (vole_offsets g0 g1 Delta expand (p0, p0) calls).
  Proof.
    induction calls as [|c calls IH]; intros p0 Hok; [constructor|].
    inversion Hok as [|c' l' Hc Hrest]; subst.
    destruct (vole_call_ok c p0 Hc) as (o & p1 & Hcall & _).
    cbn [vole_offsets]. constructor; [reflexivity|].
    rewrite Hcall. cbn [snd]. apply IH. assumption.
  Qed.
End Hist.

(* a history in which one call has vectors of different lengths ends there *)
Example vole_history_length_mismatch :
  vole_history (fun i r => N.of_nat ((i * 7 + r * 13) mod 256)) (fun i r => N.of_nat ((i + r) mod 256)) 5%N
               (fun l => l) (0, 0) [([1; 2]%Z, [3]%Z, 7%Z); ([1]%Z, [1]%Z, 7%Z)] = [VErr 3].
Proof. vm_compute. reflexivity. Qed.

(* non-vacuity: a history of four calls (lengths 3, 0, 9, 1; moduli 7, 7,
   65537, 2) satisfies the hypotheses and computes; the offsets move by
   ceil(m/8) bytes per call: 0, 1, 1, 3 *)
Definition ex_g0 (i r : nat) : N := N.of_nat ((i * 7 + r * 13 + i * r) mod 256).
Definition ex_g1 (i r : nat) : N := N.of_nat ((i * 3 + r * 5 + 1) mod 256).
Definition ex_calls : list vcall :=
  [([3; 6; -2]%Z, [5; 0; 6]%Z, 7%Z); ([], [], 7%Z);
   ([1; 2; 3; 4; 5; 6; 7; 8; 9]%Z, [9; 8; 7; 6; 5; 4; 3; 2; 1]%Z, 65537%Z); ([1]%Z, [1]%Z, 2%Z)].

Example vole_history_example_ok : Forall vcall_ok ex_calls.
Proof.
  unfold ex_calls. repeat constructor; vm_compute; discriminate.
Qed.

Example vole_history_example_offsets :
  vole_offsets ex_g0 ex_g1 (2 ^ 127 + 5)%N (fun l => l) (0, 0) ex_calls = [(0, 0); (1, 1); (1, 1); (3, 3)].
Proof. vm_compute. reflexivity. Qed.

Example vole_history_example_runs :
  length (vole_history ex_g0 ex_g1 (2 ^ 127 + 5)%N (fun l => l) (0, 0) ex_calls) = 4 /\
  forallb (fun r => match r with VOk _ => true | VErr _ => false end)
          (vole_history ex_g0 ex_g1 (2 ^ 127 + 5)%N (fun l => l) (0, 0) ex_calls) = true.
Proof.
  destruct (vole_history_correct ex_g0 ex_g1 (2 ^ 127 + 5)%N (fun l => l) eq_refl ex_calls 0
              vole_history_example_ok) as (outs & -> & Hsh).
  split.
  - rewrite map_length, <- (Forall2_len _ _ _ Hsh). reflexivity.
  - clear Hsh. induction outs as [|o outs IH]; [reflexivity|exact IH].
Qed.
