(* The malicious-mode check of ot/iknp.go (model Kos.v; C15).
   The check on expanded rows is algebra: the sender's 256-bit value is
   T xor S xor (X xor x^)*Delta, with T, X the honest response for the
   sender's chi and S the error syndrome.  The bridge (loop_bridge) shows that
   the chunk loops of receive/send produce exactly the rows t_i resp.
   q_i = t_i xor (b_i ? Delta : 0) xor (e_i & Delta); on these the theorems of
   Props/C15.v are proved. *)
From Coq Require Import NArith List Bool Arith Lia ZifyNat.
From Mpc Require Base.Label.
From Mpc Require Import Base.ListFacts OT.Gf128 OT.Gf128Proof OT.Kos.
Import ListNotations.

Lemma bits_to_N_testbit : forall l i, N.testbit (bits_to_N l) (N.of_nat i) = nth i l false.
Proof.
  induction l as [|b l IH]; intros i.
  - simpl. destruct i; reflexivity.
  - cbn [bits_to_N]. destruct i as [|i].
    + simpl N.of_nat. rewrite N.testbit_0_r. reflexivity.
    + rewrite Nat2N.inj_succ, N.testbit_succ_r. simpl. apply IH.
Qed.

Lemma bits_to_N_lt : forall l, (bits_to_N l < 2 ^ N.of_nat (length l))%N.
Proof.
  induction l as [|b l IH].
  - simpl. lia.
  - cbn [bits_to_N length]. rewrite Nat2N.inj_succ, N.pow_succ_r'.
    destruct b; simpl N.b2n; lia.
Qed.

Lemma row_of_testbit : forall f j, j < K -> N.testbit (row_of f) (N.of_nat j) = f j.
Proof. intros f j H. unfold row_of. rewrite bits_to_N_testbit. apply nth_map_seq. exact H. Qed.

Lemma row_of_lt : forall f, (row_of f < 2^128)%N.
Proof.
  intros f. unfold row_of.
  pose proof (bits_to_N_lt (map f (seq 0 K))) as H. rewrite map_length, seq_length in H. exact H.
Qed.

Lemma row_of_high : forall f m, (128 <= m)%N -> N.testbit (row_of f) m = false.
Proof. intros f m H. apply (proj1 (lt_pow2_bits _ 128) (row_of_lt f)). exact H. Qed.

Lemma row_of_ext : forall f g, (forall j, j < K -> f j = g j) -> row_of f = row_of g.
Proof.
  intros f g H. unfold row_of. f_equal. apply map_ext_in. intros j Hj.
  apply in_seq in Hj. apply H. lia.
Qed.

Lemma byte_of_testbit : forall f t, t < 8 -> N.testbit (byte_of f) (N.of_nat t) = f t.
Proof. intros f t H. unfold byte_of. rewrite bits_to_N_testbit. apply nth_map_seq. exact H. Qed.

Lemma label_eq_bits : forall a b, (a < 2^128)%N -> (b < 2^128)%N ->
  (forall j, j < K -> N.testbit a (N.of_nat j) = N.testbit b (N.of_nat j)) -> a = b.
Proof.
  intros a b Ha Hb H. apply N.bits_inj; intro m.
  destruct (N.lt_ge_cases m 128) as [Hl|Hg].
  - rewrite <- (N2Nat.id m). apply H. unfold K. lia.
  - rewrite (proj1 (lt_pow2_bits a 128) Ha m Hg), (proj1 (lt_pow2_bits b 128) Hb m Hg). reflexivity.
Qed.

Lemma row_of_lxor : forall f g, N.lxor (row_of f) (row_of g) = row_of (fun j => xorb (f j) (g j)).
Proof.
  intros f g. apply label_eq_bits.
  - apply lxor_lt_pow2; apply row_of_lt.
  - apply row_of_lt.
  - intros j Hj. rewrite N.lxor_spec, !row_of_testbit by exact Hj. reflexivity.
Qed.

Lemma row_of_land : forall f d,
  N.land (row_of f) d = row_of (fun j => f j && N.testbit d (N.of_nat j)).
Proof.
  intros f d. apply label_eq_bits.
  - apply lt_pow2_bits. intros m Hm. rewrite N.land_spec, row_of_high by exact Hm. reflexivity.
  - apply row_of_lt.
  - intros j Hj. rewrite N.land_spec, !row_of_testbit by exact Hj. reflexivity.
Qed.

Lemma row_of_const : forall d, (d < 2^128)%N -> row_of (fun j => N.testbit d (N.of_nat j)) = d.
Proof.
  intros d Hd. apply label_eq_bits; [apply row_of_lt | exact Hd |].
  intros j Hj. apply row_of_testbit. exact Hj.
Qed.

Lemma row_of_false : row_of (fun _ => false) = 0%N.
Proof.
  apply label_eq_bits; [apply row_of_lt | reflexivity |].
  intros j Hj. rewrite row_of_testbit by exact Hj. reflexivity.
Qed.

Lemma land_ones128 : forall x, (x < 2^128)%N -> N.land x ones128 = x.
Proof. intros x H. unfold ones128. rewrite N.land_ones. apply N.mod_small. exact H. Qed.

Lemma lowbits128_lt : forall x, (lowbits 128 x < 2^128)%N.
Proof. intros x. rewrite lowbits_mod. apply mod_lt_pow2. Qed.

(* sum_{k < cnt} chi(s+k) * q(o+k) as a 256-bit polynomial *)
Fixpoint isum (chi q : nat -> N) (s o cnt : nat) : N :=
  match cnt with
  | O => 0%N
  | S c => N.lxor (clmul (chi s) (q o)) (isum chi q (S s) (S o) c)
  end.

(* xor_{k < cnt, b(o+k)} chi(s+k) *)
Fixpoint csum (chi : nat -> N) (b : nat -> bool) (s o cnt : nat) : N :=
  match cnt with
  | O => 0%N
  | S c => N.lxor (if b o then chi s else 0%N) (csum chi b (S s) (S o) c)
  end.

Lemma inn256_isum : forall chi q n s o,
  inn256 (map chi (seq s n)) (map q (seq o n)) = isum chi q s o n.
Proof. induction n; intros s o; simpl; [reflexivity | rewrite IHn; reflexivity]. Qed.

Lemma isum_ext : forall chi q q' n s o,
  (forall i, o <= i < o + n -> q i = q' i) -> isum chi q s o n = isum chi q' s o n.
Proof.
  induction n; intros s o H; simpl; [reflexivity|].
  rewrite (H o) by lia. rewrite (IHn (S s) (S o)); [reflexivity|]. intros i Hi. apply H. lia.
Qed.

Lemma lxor_interchange : forall a b c d, N.lxor (N.lxor a b) (N.lxor c d) = N.lxor (N.lxor a c) (N.lxor b d).
Proof. intros. Label.xor_solve. Qed.

Lemma isum_lxor : forall chi q1 q2 n s o,
  isum chi (fun i => N.lxor (q1 i) (q2 i)) s o n = N.lxor (isum chi q1 s o n) (isum chi q2 s o n).
Proof.
  induction n; intros s o; simpl; [reflexivity|].
  rewrite IHn, clmul_lxor_r. apply lxor_interchange.
Qed.

Lemma isum_choice : forall chi (b : nat -> bool) d n s o,
  isum chi (fun i => if b i then d else 0%N) s o n = clmul (csum chi b s o n) d.
Proof.
  induction n; intros s o; simpl; [reflexivity|].
  rewrite IHn, clmul_lxor_l. f_equal. destruct (b o); [reflexivity | rewrite clmul_0_r, clmul_0_l; reflexivity].
Qed.

Lemma syndrome_isum : forall chi delta e start cnt i,
  syndrome chi delta e start i cnt = isum chi (fun k => N.land (e k) delta) (start + i) i cnt.
Proof.
  induction cnt; intros i; simpl; [reflexivity|].
  rewrite IHcnt, Nat.add_succ_r. reflexivity.
Qed.

Lemma xsum_csum : forall chi (b : nat -> bool) n s o,
  (forall i, (chi i < 2^128)%N) ->
  xsum chi s (map b (seq o n)) = csum chi b s o n.
Proof.
  induction n; intros s o H; simpl; [reflexivity|].
  rewrite IHn by exact H. f_equal. destruct (b o); simpl.
  - apply land_ones128, H.
  - apply N.land_0_r.
Qed.

Lemma inn256_firstn : forall a rows, inn256 a rows = inn256 a (firstn (length a) rows).
Proof.
  induction a as [|x a IH]; intros [|y rows]; simpl; try reflexivity.
  rewrite <- IH. reflexivity.
Qed.

(* the 1024-blocked loop is the flat sum *)
Lemma inn_blocks_flat : forall fuel chi start rows, length rows <= fuel ->
  inn_blocks fuel chi start rows = split128 (inn256 (map chi (seq start (length rows))) rows).
Proof.
  induction fuel; intros chi start rows H.
  - destruct rows; [reflexivity | simpl in H; lia].
  - destruct rows as [|y rows]; [reflexivity|].
    cbn [inn_blocks]. set (R := y :: rows) in *.
    set (count := min chiBlock (length R)).
    assert (Hc1 : 1 <= count) by (unfold count, chiBlock, R; simpl; lia).
    assert (Hc2 : count <= length R) by (unfold count; lia).
    rewrite IHfuel by (rewrite skipn_length; lia).
    rewrite inn_prdt_split, <- split128_lxor. f_equal.
    assert (E1 : length (skipn count R) = length R - count) by apply skipn_length.
    rewrite E1.
    assert (E2 : seq start (length R) = seq start count ++ seq (start + count) (length R - count)).
    { rewrite <- seq_app. f_equal. lia. }
    rewrite E2, map_app.
    rewrite (inn256_firstn (map chi (seq start count)) R), map_length, seq_length.
    transitivity (inn256 (map chi (seq start count) ++ map chi (seq (start + count) (length R - count)))
                         (firstn count R ++ skipn count R)).
    + rewrite inn256_app; [reflexivity|].
      rewrite map_length, seq_length, firstn_length. lia.
    + rewrite firstn_skipn. reflexivity.
Qed.

Lemma isum_zero : forall chi q n s o, (forall i, o <= i < o + n -> q i = 0%N) -> isum chi q s o n = 0%N.
Proof.
  induction n; intros s o H; simpl; [reflexivity|].
  rewrite (H o) by lia. rewrite clmul_0_r, IHn; [reflexivity|]. intros i Hi. apply H. lia.
Qed.

Lemma isum_single : forall chi q n s o i0,
  (forall i, o <= i < o + n -> i <> i0 -> q i = 0%N) -> o <= i0 < o + n ->
  isum chi q s o n = clmul (chi (s + (i0 - o))) (q i0).
Proof.
  induction n; intros s o i0 H Hi; [lia|]. simpl.
  destruct (Nat.eq_dec o i0) as [->|Hne].
  - rewrite Nat.sub_diag, Nat.add_0_r. rewrite isum_zero; [apply N.lxor_0_r|].
    intros i Hi'. apply H; lia.
  - rewrite (H o) by lia. rewrite clmul_0_r, N.lxor_0_l.
    rewrite (IHn (S s) (S o) i0); [f_equal; f_equal; lia | | lia].
    intros i Hi' Hn. apply H; lia.
Qed.

Lemma isum_app : forall chi q a b s o,
  isum chi q s o (a + b) = N.lxor (isum chi q s o a) (isum chi q (s + a) (o + a) b).
Proof.
  induction a; intros b s o; simpl.
  - rewrite !Nat.add_0_r. reflexivity.
  - rewrite IHa, N.lxor_assoc. do 2 f_equal; f_equal; lia.
Qed.

Lemma isum_shift : forall chi q k m s o, isum chi q s o m = isum chi (fun i => q (i - k)) s (k + o) m.
Proof.
  induction m; intros s o; cbn [isum]; [reflexivity|].
  rewrite (IHm (S s) (S o)), Nat.add_succ_r. replace (k + o - k) with o by lia. reflexivity.
Qed.

Lemma csum_xorb : forall chi R1 R2 m s o,
  csum chi (fun i => xorb (R1 i) (R2 i)) s o m = N.lxor (csum chi R1 s o m) (csum chi R2 s o m).
Proof.
  induction m; intros s o; simpl; [reflexivity|]. rewrite IHm.
  destruct (R1 o), (R2 o); simpl; Label.xor_solve.
Qed.

Lemma csum_none : forall chi R m s o, (forall i, o <= i < o + m -> R i = false) -> csum chi R s o m = 0%N.
Proof.
  induction m; intros s o H; simpl; [reflexivity|].
  rewrite (H o) by lia. rewrite IHm; [reflexivity|]. intros i Hi. apply H. lia.
Qed.

Lemma csum_single : forall chi a m s o, o <= a < o + m ->
  csum chi (fun i => Nat.eqb i a) s o m = chi (s + (a - o)).
Proof.
  induction m; intros s o H; [lia|]. simpl.
  destruct (Nat.eqb_spec o a) as [->|Hne].
  - rewrite Nat.sub_diag, Nat.add_0_r. rewrite csum_none; [apply N.lxor_0_r|].
    intros i Hi. apply Nat.eqb_neq. lia.
  - rewrite N.lxor_0_l, IHm by lia. f_equal. lia.
Qed.

Lemma land_lt_pow2 : forall a d k, (a < 2^k)%N -> (N.land a d < 2^k)%N.
Proof.
  intros a d k H. apply lt_pow2_bits. intros m Hm.
  rewrite N.land_spec, (proj1 (lt_pow2_bits a k) H m Hm). reflexivity.
Qed.

Lemma err_row_zero : forall E i, (forall j, j < K -> E j i = false) -> err_row E i = 0%N.
Proof. intros E i H. unfold err_row. rewrite <- row_of_false. apply row_of_ext. exact H. Qed.

Lemma err_row_noerr : forall i, err_row noerr i = 0%N.
Proof. intros. apply err_row_zero. reflexivity. Qed.

Lemma err_row_confined : forall E i0 i, (forall j i, E j i = true -> i = i0) -> i <> i0 -> err_row E i = 0%N.
Proof.
  intros E i0 i Hrow Hne. apply err_row_zero. intros j _.
  destruct (E j i) eqn:Ej; [destruct Hne; exact (Hrow j i Ej) | reflexivity].
Qed.

Lemma syndrome2_isum : forall chi delta E0 E1 n,
  syndrome2 chi delta E0 E1 n
  = N.lxor (isum chi (fun k => N.land (err_row E0 k) delta) 0 0 n)
           (isum chi (fun k => N.land (err_row E1 k) delta) n 0 checkRows).
Proof. intros. unfold syndrome2. rewrite !syndrome_isum, (Nat.add_0_r n). reflexivity. Qed.

Lemma syndrome2_zero : forall chi delta E0 E1 n,
  (forall i, i < n -> N.land (err_row E0 i) delta = 0%N) ->
  (forall k, k < checkRows -> N.land (err_row E1 k) delta = 0%N) ->
  syndrome2 chi delta E0 E1 n = 0%N.
Proof.
  intros chi delta E0 E1 n H0 H1. rewrite syndrome2_isum, !isum_zero; [reflexivity | |]; intros i Hi.
  - apply H1. lia.
  - apply H0. lia.
Qed.

(* the symbolic model: the coefficients as independent indeterminates, taken
   at the generic point Y_i = X^(128 i); products with 128-bit polynomials
   occupy disjoint bit ranges, so a sum vanishes only if every term does *)
Definition gchi (i : nat) : N := (2 ^ (128 * N.of_nat i))%N.

Lemma isum_generic_low : forall d m s o k,
  (k < 128 * N.of_nat s)%N -> N.testbit (isum gchi d s o m) k = false.
Proof.
  induction m; intros s o k Hk; cbn [isum]; [apply N.bits_0|].
  rewrite N.lxor_spec, IHm by lia. unfold gchi. rewrite clmul_pow2_l.
  rewrite N.shiftl_spec_low by exact Hk. reflexivity.
Qed.

Lemma isum_generic_zero : forall d m s o,
  (forall i, (d i < 2^128)%N) -> isum gchi d s o m = 0%N -> forall k, k < m -> d (o + k) = 0%N.
Proof.
  induction m; intros s o Hd Hz k Hk; [lia|]. cbn [isum] in Hz.
  apply N.lxor_eq in Hz. unfold gchi in Hz at 1. rewrite clmul_pow2_l in Hz.
  assert (Hd0 : d o = 0%N).
  { apply N.bits_inj; intro b. rewrite N.bits_0.
    destruct (N.lt_ge_cases b 128) as [Hl|Hg].
    - assert (T : N.testbit (N.shiftl (d o) (128 * N.of_nat s)) (b + 128 * N.of_nat s) = N.testbit (d o) b).
      { rewrite N.shiftl_spec_high' by lia. f_equal. lia. }
      rewrite <- T, Hz. apply isum_generic_low. lia.
    - apply (proj1 (lt_pow2_bits (d o) 128) (Hd o) b Hg). }
  destruct k as [|k]; [rewrite Nat.add_0_r; exact Hd0|].
  rewrite Hd0, N.shiftl_0_l in Hz. symmetry in Hz.
  replace (o + S k) with (S o + k) by lia. apply (IHm (S s) (S o) Hd Hz k). lia.
Qed.

(* in the symbolic model any set of flips that leaves some used row
   inconsistent has a non-zero syndrome: always detected *)
Theorem syndrome2_generic : forall delta E0 E1 n,
  syndrome2 gchi delta E0 E1 n = 0%N <->
  (forall i, i < n -> N.land (err_row E0 i) delta = 0%N) /\
  (forall k, k < checkRows -> N.land (err_row E1 k) delta = 0%N).
Proof.
  intros delta E0 E1 n. split; [|intros [H0 H1]; apply syndrome2_zero; assumption].
  rewrite syndrome2_isum.
  set (d := fun i => if Nat.ltb i n then N.land (err_row E0 i) delta else N.land (err_row E1 (i - n)) delta).
  assert (Hd : forall i, (d i < 2^128)%N).
  { intros i. unfold d. destruct (Nat.ltb i n); apply land_lt_pow2; unfold err_row; apply row_of_lt. }
  assert (E : N.lxor (isum gchi (fun k => N.land (err_row E0 k) delta) 0 0 n)
                     (isum gchi (fun k => N.land (err_row E1 k) delta) n 0 checkRows)
              = isum gchi d 0 0 (n + checkRows)).
  { rewrite isum_app, (isum_shift _ _ n checkRows), Nat.add_0_r. cbn [Nat.add]. apply (f_equal2 N.lxor).
    - apply isum_ext. intros i Hi. unfold d. rewrite (proj2 (Nat.ltb_lt i n)) by lia. reflexivity.
    - apply isum_ext. intros i Hi. unfold d. rewrite (proj2 (Nat.ltb_ge i n)) by lia. reflexivity. }
  rewrite E. intros Hz. pose proof (isum_generic_zero d (n + checkRows) 0 0 Hd Hz) as Hall. split.
  - intros i Hi. specialize (Hall i ltac:(lia)). cbn [Nat.add] in Hall. unfold d in Hall.
    assert (Hl : Nat.ltb i n = true) by (apply Nat.ltb_lt; lia). rewrite Hl in Hall. exact Hall.
  - intros k Hk. specialize (Hall (n + k) ltac:(lia)). cbn [Nat.add] in Hall. unfold d in Hall.
    assert (Hl : Nat.ltb (n + k) n = false) by (apply Nat.ltb_ge; lia). rewrite Hl in Hall.
    replace (n + k - n) with k in Hall by lia. exact Hall.
Qed.

(* The coefficient of a matrix position is a DISTINCT position of the chi
   stream: payload row i uses chi(i), check row k uses chi(n + k).  (The
   1024-row blocks of the payload loop and the final 256-row call of prgLabels
   continue one stream; nothing restarts.) *)
Definition coeff_idx (n batch row : nat) : nat := if Nat.eqb batch 0 then row else n + row.

Lemma coeff_idx_injective : forall n b1 r1 b2 r2,
  b1 <= 1 -> b2 <= 1 -> (b1 = 0 -> r1 < n) -> (b2 = 0 -> r2 < n) ->
  coeff_idx n b1 r1 = coeff_idx n b2 r2 -> b1 = b2 /\ r1 = r2.
Proof.
  intros n b1 r1 b2 r2 H1 H2 Hr1 Hr2. unfold coeff_idx.
  destruct b1 as [|[|b1]]; destruct b2 as [|[|b2]]; simpl; try lia;
    try (specialize (Hr1 eq_refl)); try (specialize (Hr2 eq_refl)); lia.
Qed.

Lemma eqb_pair : forall (q : N * N) t0 t1, (N.eqb (fst q) t0 && N.eqb (snd q) t1 = true) <-> q = (t0, t1).
Proof.
  intros [a c] t0 t1; simpl. rewrite andb_true_iff, !N.eqb_eq. split.
  - intros [-> ->]; reflexivity.
  - intros H; inversion H; auto.
Qed.

(* the sender's test with the stream positions explicit *)
Lemma sender_check_positions : forall chi delta (q qc : nat -> N) n x t0 t1,
  sender_check chi delta (map q (seq 0 n)) (map qc (seq 0 checkRows)) x t0 t1 = true <->
  split128 (N.lxor (N.lxor (isum chi q (coeff_idx n 0 0) 0 n) (isum chi qc (coeff_idx n 1 0) 0 checkRows))
                   (clmul x delta)) = (t0, t1).
Proof.
  intros. unfold sender_check. rewrite eqb_pair.
  rewrite !map_length, !seq_length.
  rewrite inn_blocks_flat by (rewrite map_length, seq_length; lia).
  rewrite map_length, seq_length.
  rewrite inn_prdt_split. unfold mul128. rewrite <- !split128_lxor.
  rewrite !inn256_isum. unfold coeff_idx. simpl Nat.eqb. cbv iota. rewrite Nat.add_0_r. reflexivity.
Qed.

Lemma split128_tag : forall T S c p,
  split128 (N.lxor (N.lxor T S) c) = p -> S = N.lxor c (N.lxor (join128 p) T).
Proof. intros T S c p <-. rewrite join_split128. Label.xor_solve. Qed.

Lemma tag_split128 : forall T S c lo hi, (lo < 2^128)%N ->
  S = N.lxor c (N.lxor (join128 (lo, hi)) T) -> split128 (N.lxor (N.lxor T S) c) = (lo, hi).
Proof.
  intros T S c lo hi Hlo ->. apply split128_unique; [exact Hlo|].
  change (lo + 2^128 * hi)%N with (join128 (lo, hi)). Label.xor_solve.
Qed.

Lemma lxor_regroup : forall t1 c1 s1 t2 c2 s2 x,
  N.lxor (N.lxor (N.lxor (N.lxor t1 c1) s1) (N.lxor (N.lxor t2 c2) s2)) x
  = N.lxor (N.lxor (N.lxor t1 t2) (N.lxor s1 s2)) (N.lxor x (N.lxor c1 c2)).
Proof. intros. Label.xor_solve. Qed.

Section Check.
  Variable chi : nat -> N.
  Variable delta : N.
  Variable n : nat.
  (* payload batch: receiver rows, choices, bit errors;  check batch likewise *)
  Variables t tc : nat -> N.
  Variables b bc : nat -> bool.
  Variables E0 E1 : nat -> nat -> bool.

  Definition qrow (t : nat -> N) (b : nat -> bool) (e : nat -> N) (i : nat) : N :=
    N.lxor (N.lxor (t i) (if b i then delta else 0%N)) (N.land (e i) delta).

  (* honest response for this chi *)
  Definition honest_T : N := N.lxor (isum chi t 0 0 n) (isum chi tc n 0 checkRows).
  Definition honest_X : N := N.lxor (csum chi b 0 0 n) (csum chi bc n 0 checkRows).

  (* the 256-bit value the sender compares with (t0, t1) *)
  Definition sender_Q (xh : N) : N :=
    N.lxor (N.lxor (isum chi (qrow t b (err_row E0)) 0 0 n) (isum chi (qrow tc bc (err_row E1)) n 0 checkRows))
           (clmul xh delta).

  Lemma isum_qrow : forall t b e s o m,
    isum chi (qrow t b e) s o m
    = N.lxor (N.lxor (isum chi t s o m) (clmul (csum chi b s o m) delta))
             (isum chi (fun k => N.land (e k) delta) s o m).
  Proof.
    intros t0 b0 e0 s o m. unfold qrow.
    rewrite (isum_lxor chi (fun i => N.lxor (t0 i) (if b0 i then delta else 0%N))).
    rewrite (isum_lxor chi t0), isum_choice. reflexivity.
  Qed.

  (* Q = T xor S xor (x^ xor X) * Delta *)
  Lemma sender_Q_eq : forall xh,
    sender_Q xh = N.lxor (N.lxor honest_T (syndrome2 chi delta E0 E1 n)) (clmul (N.lxor xh honest_X) delta).
  Proof.
    intros xh. unfold sender_Q, honest_T, honest_X.
    rewrite syndrome2_isum, !isum_qrow, !clmul_lxor_l. apply lxor_regroup.
  Qed.

  Lemma check_iff : forall xh t0h t1h,
    sender_check chi delta (map (qrow t b (err_row E0)) (seq 0 n)) (map (qrow tc bc (err_row E1)) (seq 0 checkRows))
                 xh t0h t1h = true
    <-> split128 (N.lxor (N.lxor honest_T (syndrome2 chi delta E0 E1 n)) (clmul (N.lxor xh honest_X) delta))
        = (t0h, t1h).
  Proof.
    intros. rewrite sender_check_positions, <- sender_Q_eq.
    unfold coeff_idx. simpl Nat.eqb. cbv iota. rewrite Nat.add_0_r. reflexivity.
  Qed.
End Check.

Lemma mapi_from_length : forall {A B} (f : nat -> A -> B) l i, length (mapi_from f i l) = length l.
Proof. induction l; intros i; simpl; [reflexivity | rewrite IHl; reflexivity]. Qed.

Lemma nth_mapi_from : forall {A B} (f : nat -> A -> B) l i k d d',
  k < length l -> nth k (mapi_from f i l) d' = f (i + k) (nth k l d).
Proof.
  induction l as [|x l IH]; intros i k d d' H; simpl in H; [lia|].
  destruct k as [|k]; simpl.
  - rewrite Nat.add_0_r. reflexivity.
  - rewrite (IH (S i) k d d') by lia. f_equal. lia.
Qed.

Lemma create_labels_cols : forall (G : nat -> nat -> N) w cnt,
  create_labels (map (fun j => map (G j) (seq 0 w)) (seq 0 K)) w cnt
  = map (fun r => row_of (fun j => N.testbit (G j (r / 8)) (N.of_nat (r mod 8)))) (seq 0 (min (8 * w) cnt)).
Proof.
  intros G w cnt. unfold create_labels. apply map_ext_in. intros r Hr.
  apply in_seq in Hr. cbv zeta. unfold row_of. rewrite map_map. f_equal.
  apply map_ext_in. intros j Hj.
  rewrite nth_map_seq; [reflexivity|].
  apply Nat.div_lt_upper_bound; lia.
Qed.

Lemma recv_chunk_col : forall g0 g1 bb ofs pos w j k, j < K -> k < w ->
  col_byte (recv_chunk g0 g1 bb ofs pos w) j k
  = N.lxor (N.lxor (g1 j (pos + k)) (g0 j (pos + k))) (bb (ofs / 8 + k)).
Proof.
  intros. unfold col_byte, recv_chunk. cbv zeta.
  rewrite (nth_map_seq _ K j []) by assumption. rewrite nth_map_seq by assumption.
  rewrite nth_map_seq by assumption. reflexivity.
Qed.

Lemma recv_chunk_shape : forall g0 g1 bb ofs pos w,
  length (recv_chunk g0 g1 bb ofs pos w) = K /\
  forall j, j < K -> length (nth j (recv_chunk g0 g1 bb ofs pos w) []) = w.
Proof.
  intros. unfold recv_chunk. cbv zeta. split.
  - rewrite map_length, seq_length. reflexivity.
  - intros j Hj. rewrite (nth_map_seq _ K j []) by assumption. rewrite map_length, seq_length. reflexivity.
Qed.

Lemma byte_of_ext : forall f g, (forall t, t < 8 -> f t = g t) -> byte_of f = byte_of g.
Proof.
  intros f g H. unfold byte_of. f_equal. apply map_ext_in. intros t Ht. apply in_seq in Ht. apply H. lia.
Qed.

Lemma tamper_col_length : forall Ej col row, length (tamper_col Ej row col) = length col.
Proof. induction col; intros row; simpl; [reflexivity | rewrite IHcol; reflexivity]. Qed.

Lemma tamper_col_nth : forall Ej col row k, k < length col ->
  nth k (tamper_col Ej row col) 0%N = N.lxor (nth k col 0%N) (byte_of (fun t => Ej (t + (8 * k + row)))).
Proof.
  induction col as [|v col IH]; intros row k Hk; simpl in Hk; [lia|].
  destruct k as [|k]; cbn [tamper_col nth].
  - reflexivity.
  - rewrite IH by lia. f_equal. apply byte_of_ext. intros t _. f_equal. lia.
Qed.

Lemma tamper_chunk_col : forall E ofs c j k, j < length c -> k < length (nth j c []) ->
  col_byte (tamper_chunk E ofs c) j k = N.lxor (col_byte c j k) (err_byte E j (ofs / 8 + k)).
Proof.
  intros E ofs c j k Hj Hk. unfold col_byte, tamper_chunk, mapi. cbv zeta.
  rewrite (nth_mapi_from _ c 0 j [] []) by assumption. cbn [Nat.add].
  rewrite tamper_col_nth by assumption. f_equal. unfold err_byte.
  apply byte_of_ext. intros t _. f_equal. lia.
Qed.

Lemma chunk_w_tamper : forall E ofs c, chunk_w (tamper_chunk E ofs c) = chunk_w c.
Proof.
  intros E ofs [|col c]; [reflexivity|].
  unfold chunk_w, tamper_chunk, mapi. cbn [mapi_from nth]. apply tamper_col_length.
Qed.

Lemma chunk_w_recv : forall g0 g1 bb ofs pos w, chunk_w (recv_chunk g0 g1 bb ofs pos w) = w.
Proof. intros. unfold chunk_w. apply (proj2 (recv_chunk_shape g0 g1 bb ofs pos w)). unfold K; lia. Qed.

Lemma bitpos_div : forall p r, (8 * p + r) / 8 = p + r / 8.
Proof. intros. rewrite (Nat.mul_comm 8 p), Nat.div_add_l by lia. reflexivity. Qed.
Lemma bitpos_mod : forall p r, (8 * p + r) mod 8 = r mod 8.
Proof. intros. rewrite Nat.add_comm, (Nat.mul_comm 8 p), Nat.mod_add by lia. reflexivity. Qed.
Lemma bitpos_recompose : forall o r, o mod 8 = 0 -> 8 * (o / 8 + r / 8) + r mod 8 = o + r.
Proof.
  intros o r H. pose proof (Nat.div_mod o 8). pose proof (Nat.div_mod r 8). lia.
Qed.

(* bit j of the row the sender derives: g0 bit, plus (choice xor error) where Delta selects *)
Definition q_bit (g0 : nat -> nat -> N) (delta : N) (bl : list bool) (E : nat -> nat -> bool)
           (pos ofs r j : nat) : bool :=
  xorb (sbit (g0 j) (8 * pos + r))
       (N.testbit delta (N.of_nat j) && xorb (nth (ofs + r) bl false) (E j (ofs + r))).

Lemma recv_row : forall g0 pos r,
  row_of (fun j => N.testbit (g0 j (pos + r / 8)) (N.of_nat (r mod 8))) = stream_row g0 pos r.
Proof.
  intros. unfold stream_row. apply row_of_ext. intros j _. unfold sbit.
  rewrite bitpos_div, bitpos_mod. reflexivity.
Qed.

Lemma send_row : forall g0 g1 bl delta E ofs pos w r,
  ofs mod 8 = 0 -> r < 8 * w ->
  row_of (fun j =>
    N.testbit (N.lxor (sender_streams g0 g1 delta j (pos + r / 8))
                 (if N.testbit delta (N.of_nat j)
                  then col_byte (tamper_chunk E ofs (recv_chunk g0 g1 (bbuf bl) ofs pos w)) j (r / 8)
                  else 0%N))
              (N.of_nat (r mod 8)))
  = row_of (q_bit g0 delta bl E pos ofs r).
Proof.
  intros g0 g1 bl delta E ofs pos w r Hofs Hr.
  assert (Hk : r / 8 < w) by (apply Nat.div_lt_upper_bound; lia).
  assert (Hm : r mod 8 < 8) by (apply Nat.mod_upper_bound; lia).
  apply row_of_ext. intros j Hj. unfold q_bit, sender_streams, sbit.
  rewrite bitpos_div, bitpos_mod.
  destruct (N.testbit delta (N.of_nat j)).
  - destruct (recv_chunk_shape g0 g1 (bbuf bl) ofs pos w) as [HL HW].
    rewrite tamper_chunk_col by (rewrite ?HL, ?HW; assumption).
    rewrite recv_chunk_col by assumption.
    rewrite !N.lxor_spec. unfold bbuf, err_byte.
    rewrite !byte_of_testbit by exact Hm.
    rewrite !bitpos_recompose by exact Hofs.
    destruct (N.testbit (g1 j (pos + r / 8)) (N.of_nat (r mod 8))),
             (N.testbit (g0 j (pos + r / 8)) (N.of_nat (r mod 8))),
             (nth (ofs + r) bl false), (E j (ofs + r)); reflexivity.
  - rewrite N.lxor_0_r. simpl. rewrite xorb_false_r. reflexivity.
Qed.

Lemma recv_labels : forall g0 pos w cnt,
  create_labels (map (fun j => map (fun k => g0 j (pos + k)) (seq 0 w)) (seq 0 K)) w cnt
  = map (stream_row g0 pos) (seq 0 (min (8 * w) cnt)).
Proof. intros. rewrite create_labels_cols. apply map_ext. intros r. apply recv_row. Qed.

Lemma send_labels : forall g0 g1 bl delta E ofs pos w cnt, ofs mod 8 = 0 ->
  create_labels
    (map (fun j => map (fun k => N.lxor (sender_streams g0 g1 delta j (pos + k))
                                   (if N.testbit delta (N.of_nat j)
                                    then col_byte (tamper_chunk E ofs (recv_chunk g0 g1 (bbuf bl) ofs pos w)) j k
                                    else 0%N)) (seq 0 w)) (seq 0 K)) w cnt
  = map (fun r => row_of (q_bit g0 delta bl E pos ofs r)) (seq 0 (min (8 * w) cnt)).
Proof.
  intros g0 g1 bl delta E ofs pos w cnt Hofs. rewrite create_labels_cols.
  apply map_ext_in. intros r Hr. apply in_seq in Hr. apply send_row; [exact Hofs|lia].
Qed.

Lemma receive_loop_done : forall fuel g0 g1 bb n ofs pos,
  n <= ofs -> receive_loop fuel g0 g1 bb n ofs pos = ([], [], pos).
Proof.
  intros fuel g0 g1 bb n ofs pos H. destruct fuel; cbn [receive_loop]; [reflexivity|].
  destruct (Nat.leb_spec n ofs); [reflexivity|lia].
Qed.

Lemma send_loop_done : forall cs s delta n ofs pos,
  n <= ofs -> send_loop cs s delta n ofs pos = Some ([], pos, cs).
Proof.
  intros cs s delta n ofs pos H.
  destruct cs; cbn [send_loop]; destruct (Nat.leb_spec n ofs); (reflexivity || lia).
Qed.

(* one chunk in numbers: rows = min 512 (n - ofs) rows in w = ceil(rows / 8)
   byte-rows.  The sender counts 8 w rows where the receiver counts rows;
   the two differ only in the last chunk. *)
Lemma chunk_arith : forall n ofs rows w,
  ofs < n -> ofs mod 8 = 0 -> rows = min 512 (n - ofs) -> w = (rows + 7) / 8 ->
  0 < rows /\ w <= 64 /\ min (8 * w) (n - ofs) = rows /\ (ofs + rows < n -> 8 * w = rows) /\
  ((ofs + rows) mod 8 = 0 \/ n <= ofs + rows) /\ (n <= ofs + rows -> n <= ofs + 8 * w) /\
  batch_bytes (n - ofs) = w + batch_bytes (n - (ofs + rows)).
Proof. intros n ofs rows w Hlt Hofs -> ->. unfold batch_bytes. repeat split; lia. Qed.

Opaque K.
(* [ofs'] is the row count of the sender and of the adversary, [ofs] the
   receiver's; they are equal until the last chunk has gone *)
Lemma loop_bridge : forall fuel g0 g1 bl delta E n ofs ofs' pos cs ls pos' rest,
  (ofs mod 8 = 0 \/ n <= ofs) -> (ofs' = ofs \/ n <= ofs /\ n <= ofs') -> n - ofs < fuel ->
  receive_loop fuel g0 g1 (bbuf bl) n ofs pos = (cs, ls, pos') ->
  ls = map (stream_row g0 pos) (seq 0 (n - ofs)) /\
  pos' = pos + batch_bytes (n - ofs) /\
  send_loop (tamper_chunks E ofs' cs ++ rest) (sender_streams g0 g1 delta) delta n ofs' pos
  = Some (map (fun r => row_of (q_bit g0 delta bl E pos ofs r)) (seq 0 (n - ofs)), pos', rest).
Proof.
  induction fuel; intros g0 g1 bl delta E n ofs ofs' pos cs ls pos' rest Hofs Hofs' Hfuel Hrecv; [lia|].
  destruct (Nat.le_gt_cases n ofs) as [Hle|Hlt].
  - rewrite receive_loop_done in Hrecv by exact Hle. injection Hrecv as <- <- <-.
    replace (n - ofs) with 0 by lia. cbn [tamper_chunks app seq map].
    rewrite send_loop_done by lia. change (batch_bytes 0) with 0. rewrite Nat.add_0_r. auto.
  - destruct Hofs as [Hofs|Hofs]; [|clear IHfuel; lia]. destruct Hofs' as [->|[Hle _]]; [|clear IHfuel; lia].
    cbn [receive_loop] in Hrecv. destruct (Nat.leb_spec n ofs) as [?|_]; [clear IHfuel; lia|].
    change chunkRows with 512 in Hrecv.
    remember (min 512 (n - ofs)) as rows eqn:Hrows.
    remember ((rows + 7) / 8) as w eqn:Hw.
    destruct (chunk_arith n ofs rows w Hlt Hofs Hrows Hw) as (Hr0 & Hw64 & Hmin & Hfull & Hnext & Hlast & Hbb).
    clear Hrows Hw.
    destruct (receive_loop fuel g0 g1 (bbuf bl) n (ofs + rows) (pos + w)) as [[cs1 ls1] pos1] eqn:Hrec.
    injection Hrecv as <- <- <-.
    destruct (IHfuel g0 g1 bl delta E n (ofs + rows) (ofs + 8 * w) (pos + w) cs1 ls1 pos1 rest Hnext)
      as (-> & -> & Hsend);
      [clear IHfuel; destruct (Nat.le_gt_cases n (ofs + rows)); [right|left]; auto; lia | clear - Hfuel Hr0 Hlt; lia | exact Hrec |].
    clear IHfuel Hfuel Hnext Hlast Hrec.
    (* this chunk on both sides, then the rows after it *)
    rewrite recv_labels, Hmin.
    cbn [tamper_chunks app send_loop]. destruct (Nat.leb_spec n ofs) as [?|_]; [lia|].
    rewrite chunk_w_tamper, chunk_w_recv.
    destruct (Nat.ltb_spec chunkByteRows w) as [Hbig|_]; [unfold chunkByteRows in Hbig; lia|].
    rewrite (send_labels g0 g1 bl delta E ofs pos w (n - ofs) Hofs), Hmin, Hsend, Hbb, Nat.add_assoc.
    set (m := n - (ofs + rows)) in *.
    replace (n - ofs) with (rows + m) by (unfold m; lia).
    rewrite !seq_app, !map_app. cbn [Nat.add].
    rewrite (map_seq_shift (stream_row g0 pos) rows).
    rewrite (map_seq_shift (fun r => row_of (q_bit g0 delta bl E pos ofs r)) rows).
    assert (Hlater : forall r, In r (seq 0 m) -> 8 * (pos + w) + r = 8 * pos + (rows + r)).
    { intros r Hr. apply in_seq in Hr. rewrite <- Hfull by (unfold m in Hr; lia). lia. }
    rewrite (map_ext_in (stream_row g0 (pos + w)) (fun r => stream_row g0 pos (rows + r)) (seq 0 m)).
    2:{ intros r Hr. unfold stream_row. rewrite (Hlater r Hr). reflexivity. }
    rewrite (map_ext_in (fun r => row_of (q_bit g0 delta bl E (pos + w) (ofs + rows) r))
                        (fun r => row_of (q_bit g0 delta bl E pos ofs (rows + r))) (seq 0 m)).
    2:{ intros r Hr. unfold q_bit. rewrite (Hlater r Hr), (Nat.add_assoc ofs rows r). reflexivity. }
    auto.
Qed.
Transparent K.

Lemma q_bit_qrow : forall g0 delta bl E pos r, (delta < 2^128)%N ->
  row_of (q_bit g0 delta bl E pos 0 r)
  = qrow delta (stream_row g0 pos) (fun i => nth i bl false) (err_row E) r.
Proof.
  intros g0 delta bl E pos r Hd. unfold qrow. apply label_eq_bits.
  - apply row_of_lt.
  - apply lxor_lt_pow2; [apply lxor_lt_pow2|].
    + apply row_of_lt.
    + destruct (nth r bl false); [exact Hd | reflexivity].
    + apply land_lt_pow2, row_of_lt.
  - intros j Hj. rewrite row_of_testbit by exact Hj.
    rewrite !N.lxor_spec, N.land_spec. unfold stream_row, err_row.
    rewrite !row_of_testbit by exact Hj. unfold q_bit. change (0 + r) with r.
    destruct (nth r bl false); rewrite ?N.bits_0;
      generalize (sbit (g0 j) (8 * pos + r)) as s0;
      generalize (N.testbit delta (N.of_nat j)) as dj; generalize (E j r) as ej; intros ej dj s0;
      destruct s0, dj, ej; reflexivity.
Qed.

Lemma list_as_map_nth : forall (l : list bool), l = map (fun i => nth i l false) (seq 0 (length l)).
Proof.
  induction l as [|x l IH]; [reflexivity|].
  cbn [length seq map nth]. f_equal. rewrite <- seq_shift, map_map. exact IH.
Qed.

Lemma bcv_length : forall b0 b1, length (bcv_of b0 b1) = checkRows.
Proof. intros. unfold bcv_of. rewrite map_length, seq_length. reflexivity. Qed.


Lemma mapi_from_id : forall {A} (f : nat -> A -> A) l i, (forall k x, f k x = x) -> mapi_from f i l = l.
Proof. induction l; intros i H; simpl; [reflexivity | rewrite H, IHl by exact H; reflexivity]. Qed.

Lemma err_byte_noerr : forall j k, err_byte noerr j k = 0%N.
Proof. reflexivity. Qed.

Lemma tamper_chunks_noerr : forall cs ofs, tamper_chunks noerr ofs cs = cs.
Proof.
  induction cs as [|c cs IH]; intros ofs; simpl; [reflexivity|].
  rewrite IH. f_equal. unfold tamper_chunk, mapi. cbv zeta. apply mapi_from_id. intros j col.
  generalize (8 * (ofs / 8)). induction col as [|v col IHc]; intros row; cbn [tamper_col]; [reflexivity|].
  rewrite IHc. f_equal. change (byte_of (fun t => noerr j (t + row))) with 0%N. apply N.lxor_0_r.
Qed.

Lemma tamper_noerr : forall tr, tamper_bits noerr noerr tr = tr.
Proof. intros [p c s x t0 t1]. unfold tamper_bits, tamper; simpl. rewrite !tamper_chunks_noerr. reflexivity. Qed.

Lemma corr_holds_rows : forall delta (q t : nat -> N) bl o,
  (forall i, i < length bl -> corr_row delta (q (o + i)) (t (o + i)) (nth i bl false) = true) ->
  corr_holds delta (map q (seq o (length bl))) (map t (seq o (length bl))) bl = true.
Proof.
  induction bl as [|x bl IH]; intros o H; [reflexivity|].
  cbn [length seq map corr_holds]. apply andb_true_iff. split.
  - specialize (H 0 ltac:(simpl; lia)). rewrite Nat.add_0_r in H. exact H.
  - apply IH. intros i Hi. specialize (H (S i) ltac:(simpl; lia)).
    rewrite Nat.add_succ_r in H. exact H.
Qed.

Lemma corr_holds_rows_inv : forall delta (q t : nat -> N) bl o,
  corr_holds delta (map q (seq o (length bl))) (map t (seq o (length bl))) bl = true ->
  forall i, i < length bl -> corr_row delta (q (o + i)) (t (o + i)) (nth i bl false) = true.
Proof.
  induction bl as [|x bl IH]; intros o H i Hi; [simpl in Hi; lia|].
  cbn [length seq map corr_holds] in H. apply andb_true_iff in H. destruct H as [H1 H2].
  destruct i as [|i].
  - rewrite Nat.add_0_r. exact H1.
  - rewrite Nat.add_succ_r. apply (IH (S o) H2 i). simpl in Hi. lia.
Qed.

Lemma corr_row_qrow : forall delta t (b : nat -> bool) e i,
  corr_row delta (qrow delta t b e i) (t i) (b i) = true <-> N.land (e i) delta = 0%N.
Proof.
  intros delta t b e i. unfold corr_row, qrow. rewrite N.eqb_eq.
  set (d := N.land (e i) delta). split; intros H.
  - apply N.bits_inj; intro m. rewrite N.bits_0.
    apply (f_equal (fun x => N.testbit x m)) in H.
    destruct (b i); rewrite ?N.lxor_spec, ?N.bits_0 in H;
      destruct (N.testbit (t i) m), (N.testbit delta m), (N.testbit d m); simpl in H; congruence.
  - rewrite H. destruct (b i); Label.xor_solve.
Qed.

Lemma forall_or_exists_lt : forall n (P : nat -> Prop), (forall i, {P i} + {~ P i}) ->
  (forall i, i < n -> P i) \/ (exists i, i < n /\ ~ P i).
Proof.
  induction n; intros P dec; [left; intros; lia|].
  destruct (IHn P dec) as [H|[i [Hi Hn]]].
  - destruct (dec n) as [Hp|Hp].
    + left. intros i Hi. destruct (Nat.eq_dec i n) as [->|]; [exact Hp | apply H; lia].
    + right. exists n. split; [lia | exact Hp].
  - right. exists i. split; [lia | exact Hn].
Qed.

Lemma lxor_mask_neq : forall a m, m <> 0%N -> N.lxor a m <> a.
Proof.
  intros a m Hm H. apply Hm. transitivity (N.lxor (N.lxor a m) a); [Label.xor_solve|].
  rewrite H. apply N.lxor_nilpotent.
Qed.

Definition flip1 (j0 i0 : nat) : nat -> nat -> bool := fun j i => Nat.eqb j j0 && Nat.eqb i i0.

Definition colflips (j0 : nat) (R : nat -> bool) : nat -> nat -> bool := fun j i => Nat.eqb j j0 && R i.

Definition pairset (a b : nat) : nat -> bool := fun i => xorb (Nat.eqb i a) (Nat.eqb i b).
Definition nowhere : nat -> bool := fun _ => false.

(* the same 64-bit pattern in both 64-bit halves of a label, e.g. bit k and bit k+64 *)
Definition mirrored (m : N) : N := (m + 2^64 * m)%N.

Lemma colflips_row : forall delta j0 R i, j0 < K -> N.testbit delta (N.of_nat j0) = true ->
  N.land (err_row (colflips j0 R) i) delta = if R i then (2 ^ N.of_nat j0)%N else 0%N.
Proof.
  intros delta j0 R i Hj Hd. unfold err_row. rewrite row_of_land.
  apply label_eq_bits.
  - apply row_of_lt.
  - destruct (R i); [|reflexivity]. apply N.pow_lt_mono_r; [lia|]. unfold K in Hj. lia.
  - intros j Hj'. rewrite row_of_testbit by exact Hj'. unfold colflips.
    destruct (R i).
    + rewrite N.pow2_bits_eqb, andb_true_r.
      destruct (Nat.eqb_spec j j0) as [->|Hne].
      * rewrite Hd, N.eqb_refl. reflexivity.
      * simpl. symmetry. apply N.eqb_neq. intros Heq. apply Hne. apply Nat2N.inj. symmetry. exact Heq.
    + rewrite andb_false_r, N.bits_0. reflexivity.
Qed.

Lemma colflips_syndrome : forall chi delta j0 R0 R1 n, j0 < K -> N.testbit delta (N.of_nat j0) = true ->
  syndrome2 chi delta (colflips j0 R0) (colflips j0 R1) n = 0%N <->
  N.lxor (csum chi R0 0 0 n) (csum chi R1 n 0 checkRows) = 0%N.
Proof.
  intros chi delta j0 R0 R1 n Hj Hd. rewrite syndrome2_isum.
  rewrite (isum_ext _ _ (fun k => if R0 k then (2 ^ N.of_nat j0)%N else 0%N) n)
    by (intros; apply colflips_row; assumption).
  rewrite (isum_ext _ _ (fun k => if R1 k then (2 ^ N.of_nat j0)%N else 0%N) checkRows)
    by (intros; apply colflips_row; assumption).
  rewrite !isum_choice, <- clmul_lxor_l. split; intros Hs.
  - destruct (clmul_eq_0 _ _ Hs) as [H|H]; [exact H|].
    exfalso. revert H. apply N.pow_nonzero. discriminate.
  - rewrite Hs. reflexivity.
Qed.

Section Run.
  Variables g0 g1 : nat -> nat -> N.
  Variable chi_of : N -> nat -> N.
  Variable bl : list bool.
  Variables b0 b1 seed : N.
  Variable pos : nat.
  Variable delta : N.
  Hypothesis Hdelta : (delta < 2^128)%N.

  Let n := length bl.
  Let pos1 := pos + batch_bytes n.
  Let S_ := sender_run (sender_streams g0 g1 delta) delta chi_of.
  Let chi := prg_label chi_of seed.

  Definition t_ := stream_row g0 pos.
  Definition tc_ := stream_row g0 (pos + batch_bytes (length bl)).
  Definition b_ := fun i => nth i bl false.
  Definition bc_ := fun i => nth i (bcv_of b0 b1) false.

  (* kept folded while the runs are taken apart: unary 256 and 128, the blocked products *)
  Opaque bcv_of checkRows K inn_blocks inn_prdt xsum pxor.

  Lemma chi_lt : forall sd i, (prg_label chi_of sd i < 2^128)%N.
  Proof. intros. apply lowbits128_lt. Qed.

  Lemma receiver_run_spec : forall sd tr res pos',
    receiver_run g0 g1 chi_of bl b0 b1 sd pos = (tr, res, pos') ->
    res = map t_ (seq 0 n) /\
    tr_seed tr = sd /\
    tr_x tr = honest_X (prg_label chi_of sd) n b_ bc_ /\
    (tr_t0 tr, tr_t1 tr) = split128 (honest_T (prg_label chi_of sd) n t_ tc_) /\
    pos' = pos + batch_bytes n + batch_bytes checkRows /\
    forall E0 E1,
      send_loop (tamper_chunks E0 0 (tr_payload tr) ++ tamper_chunks E1 0 (tr_check tr))
                (sender_streams g0 g1 delta) delta n 0 pos
      = Some (map (qrow delta t_ b_ (err_row E0)) (seq 0 n), pos1, tamper_chunks E1 0 (tr_check tr)) /\
      send_loop (tamper_chunks E1 0 (tr_check tr)) (sender_streams g0 g1 delta) delta checkRows 0 pos1
      = Some (map (qrow delta tc_ bc_ (err_row E1)) (seq 0 checkRows), pos1 + batch_bytes checkRows, []).
  Proof.
    intros sd tr res pos' H. unfold receiver_run in H.
    destruct (receive g0 g1 bl pos) as [[cs1 res1] p1] eqn:R1.
    destruct (receive g0 g1 (bcv_of b0 b1) p1) as [[cs2 cv] p2] eqn:R2.
    injection H as Htr Hres Hpos. subst res pos'.
    unfold receive in R1, R2. rewrite bcv_length in R2. fold n in R1.
    pose proof (fun E rest => loop_bridge (S n) g0 g1 bl delta E n 0 0 pos cs1 res1 p1 rest
                  (or_introl eq_refl) (or_introl eq_refl) ltac:(lia) R1) as B1.
    destruct (B1 noerr []) as [Hres1 [Hp1 _]]. rewrite Nat.sub_0_r in Hres1, Hp1.
    fold pos1 in Hp1. subst p1.
    pose proof (fun E rest => loop_bridge (S checkRows) g0 g1 (bcv_of b0 b1) delta E checkRows 0 0 pos1 cs2 cv p2 rest
                  (or_introl eq_refl) (or_introl eq_refl) ltac:(lia) R2) as B2.
    destruct (B2 noerr []) as [Hcv [Hp2 _]]. rewrite Nat.sub_0_r in Hcv, Hp2.
    set (c := prg_label chi_of sd) in *.
    assert (Hc : forall i, (c i < 2^128)%N) by (intro; apply chi_lt).
    subst tr. cbn [tr_seed tr_x tr_t0 tr_t1 tr_payload tr_check].
    split; [exact Hres1|]. split; [reflexivity|]. split; [|split; [|split]].
    - unfold honest_X. f_equal.
      + rewrite (list_as_map_nth bl) at 1. apply xsum_csum. exact Hc.
      + rewrite (list_as_map_nth (bcv_of b0 b1)) at 1. rewrite bcv_length. apply xsum_csum. exact Hc.
    - rewrite <- surjective_pairing.
      rewrite inn_blocks_flat by (rewrite Hres1, map_length, seq_length; fold n; lia).
      rewrite inn_prdt_split, <- split128_lxor. f_equal.
      rewrite Hres1, Hcv, map_length, seq_length. fold n.
      unfold honest_T. rewrite !inn256_isum. reflexivity.
    - subst p2. unfold pos1. reflexivity.
    - intros E0 E1. split.
      + destruct (B1 E0 (tamper_chunks E1 0 cs2)) as [_ [_ Hs]]. rewrite Hs, Nat.sub_0_r.
        f_equal. f_equal. f_equal. apply map_ext. intros r. apply q_bit_qrow. exact Hdelta.
      + destruct (B2 E1 []) as [_ [_ Hs]]. rewrite app_nil_r in Hs. rewrite Hs, Nat.sub_0_r. subst p2.
        f_equal. f_equal. f_equal. apply map_ext. intros r. apply q_bit_qrow. exact Hdelta.
  Qed.

  Variables (tr : transcript) (res : list N) (pos' : nat).
  Hypothesis Hrun : receiver_run g0 g1 chi_of bl b0 b1 seed pos = (tr, res, pos').

  (* the sender's decision on a tampered message sequence: never an I/O error,
     bit errors keep the message structure *)
  Lemma sender_run_spec : forall E0 E1 seed' xh t0h t1h,
    S_ (tamper E0 E1 seed' xh t0h t1h tr) n pos
    = if sender_check (prg_label chi_of seed') delta
           (map (qrow delta t_ b_ (err_row E0)) (seq 0 n))
           (map (qrow delta tc_ bc_ (err_row E1)) (seq 0 checkRows)) xh t0h t1h
      then Accept (map (qrow delta t_ b_ (err_row E0)) (seq 0 n)) else Reject.
  Proof.
    intros E0 E1 seed' xh t0h t1h.
    destruct (receiver_run_spec _ _ _ _ Hrun) as (_ & _ & _ & _ & _ & Hs).
    destruct (Hs E0 E1) as [S1 S2].
    unfold S_, sender_run, tamper. cbn [tr_payload tr_check tr_seed tr_x tr_t0 tr_t1].
    rewrite S1, S2. reflexivity.
  Qed.

  (* with trh the honest response for the seed the sender received: acceptance
     means that the syndrome equals the deviation of the response *)
  Lemma accept_only_if : forall E0 E1 seed' xh t0h t1h trh resh posh out,
    receiver_run g0 g1 chi_of bl b0 b1 seed' pos = (trh, resh, posh) ->
    S_ (tamper E0 E1 seed' xh t0h t1h tr) n pos = Accept out ->
    out = map (qrow delta t_ b_ (err_row E0)) (seq 0 n) /\
    syndrome2 (prg_label chi_of seed') delta E0 E1 n
    = N.lxor (clmul (N.lxor xh (tr_x trh)) delta)
             (N.lxor (join128 (t0h, t1h)) (join128 (tr_t0 trh, tr_t1 trh))).
  Proof.
    intros E0 E1 seed' xh t0h t1h trh resh posh out Hh Ha. rewrite sender_run_spec in Ha.
    destruct (sender_check _ _ _ _ xh t0h t1h) eqn:Hc; [|discriminate]. injection Ha as <-.
    split; [reflexivity|].
    destruct (receiver_run_spec _ _ _ _ Hh) as (_ & _ & -> & -> & _). rewrite join_split128.
    apply split128_tag, check_iff. exact Hc.
  Qed.

  (* the converse needs the received t0 to be a label *)
  Theorem accept_iff : forall E0 E1 seed' xh t0h t1h trh resh posh out,
    receiver_run g0 g1 chi_of bl b0 b1 seed' pos = (trh, resh, posh) ->
    (t0h < 2^128)%N ->
    (S_ (tamper E0 E1 seed' xh t0h t1h tr) n pos = Accept out
     <->
     out = map (qrow delta t_ b_ (err_row E0)) (seq 0 n) /\
     syndrome2 (prg_label chi_of seed') delta E0 E1 n
     = N.lxor (clmul (N.lxor xh (tr_x trh)) delta)
              (N.lxor (join128 (t0h, t1h)) (join128 (tr_t0 trh, tr_t1 trh)))).
  Proof.
    intros E0 E1 seed' xh t0h t1h trh resh posh out Hh Ht0. split.
    - apply accept_only_if with (1 := Hh).
    - intros [-> Hs]. rewrite sender_run_spec.
      destruct (sender_check _ _ _ _ xh t0h t1h) eqn:Hc; [reflexivity|].
      apply not_true_iff_false in Hc. destruct Hc.
      destruct (receiver_run_spec _ _ _ _ Hh) as (_ & _ & HX & HT & _).
      rewrite HX, HT, join_split128 in Hs.
      apply check_iff, tag_split128; assumption.
  Qed.
  Transparent bcv_of checkRows K inn_blocks inn_prdt xsum pxor.

  Lemma tr_t0_lt : (tr_t0 tr < 2^128)%N.
  Proof.
    destruct (receiver_run_spec _ _ _ _ Hrun) as (_ & _ & _ & HT & _).
    apply (f_equal fst) in HT. cbn [fst] in HT. rewrite HT. unfold split128. cbn [fst]. apply lowbits128_lt.
  Qed.

  Lemma corr_outputs : forall E0,
    corr_holds delta (map (qrow delta t_ b_ (err_row E0)) (seq 0 n)) res bl = true
    <-> forall i, i < n -> N.land (err_row E0 i) delta = 0%N.
  Proof.
    intros E0. destruct (receiver_run_spec _ _ _ _ Hrun) as (-> & _). unfold n. split.
    - intros H i Hi. pose proof (corr_holds_rows_inv _ _ _ _ _ H i Hi) as Hr.
      simpl Nat.add in Hr. apply corr_row_qrow in Hr. exact Hr.
    - intros H. apply corr_holds_rows. intros i Hi. simpl Nat.add.
      apply (corr_row_qrow delta t_ b_). apply H. exact Hi.
  Qed.

  Lemma accept_bits_iff : forall E0 E1 out,
    S_ (tamper_bits E0 E1 tr) n pos = Accept out <->
    out = map (qrow delta t_ b_ (err_row E0)) (seq 0 n) /\ syndrome2 chi delta E0 E1 n = 0%N.
  Proof.
    intros E0 E1 out. unfold tamper_bits.
    destruct (receiver_run_spec _ _ _ _ Hrun) as (_ & -> & _).
    rewrite (accept_iff E0 E1 seed _ _ _ tr res pos' out Hrun tr_t0_lt), !N.lxor_nilpotent. reflexivity.
  Qed.

  Lemma reject_if : forall E0 E1 (P : Prop),
    (forall out, S_ (tamper_bits E0 E1 tr) n pos = Accept out -> P) -> ~ P ->
    S_ (tamper_bits E0 E1 tr) n pos = Reject.
  Proof.
    intros E0 E1 P H HP. unfold tamper_bits in *. rewrite sender_run_spec in *.
    destruct (sender_check _ _ _ _ _ _ _); [destruct HP; exact (H _ eq_refl) | reflexivity].
  Qed.

  Lemma masked_errors_accepted : forall E0 E1,
    (forall i, i < n -> N.land (err_row E0 i) delta = 0%N) ->
    (forall k, k < checkRows -> N.land (err_row E1 k) delta = 0%N) ->
    S_ (tamper_bits E0 E1 tr) n pos = Accept (map (qrow delta t_ b_ (err_row noerr)) (seq 0 n)) /\
    corr_holds delta (map (qrow delta t_ b_ (err_row noerr)) (seq 0 n)) res bl = true.
  Proof.
    intros E0 E1 H0 H1. split.
    - apply accept_bits_iff. split; [|apply syndrome2_zero; assumption].
      apply map_ext_in. intros i Hi. apply in_seq in Hi. unfold qrow.
      rewrite H0, err_row_noerr by lia. reflexivity.
    - apply corr_outputs. intros i _. rewrite err_row_noerr. reflexivity.
  Qed.

  Theorem honest_accepts :
    exists out, S_ tr n pos = Accept out /\ corr_holds delta out res bl = true.
  Proof.
    eexists. rewrite <- (tamper_noerr tr) at 1.
    apply masked_errors_accepted; intros i _; rewrite err_row_noerr; reflexivity.
  Qed.

  (* the adversary: arbitrary bit errors and arbitrary replacement of seed and
     response *)
  Theorem tamper_sound : forall E0 E1 seed' xh t0h t1h trh resh posh out,
    receiver_run g0 g1 chi_of bl b0 b1 seed' pos = (trh, resh, posh) ->
    S_ (tamper E0 E1 seed' xh t0h t1h tr) n pos = Accept out ->
    corr_holds delta out res bl = true \/
    forge_event (prg_label chi_of seed') delta E0 E1 n
                (N.lxor xh (tr_x trh))
                (N.lxor (join128 (t0h, t1h)) (join128 (tr_t0 trh, tr_t1 trh))).
  Proof.
    intros E0 E1 seed' xh t0h t1h trh resh posh out Hh Ha.
    destruct (accept_only_if _ _ _ _ _ _ _ _ _ _ Hh Ha) as [-> Hs].
    destruct (forall_or_exists_lt n (fun i => N.land (err_row E0 i) delta = 0%N)) as [Hz|Hnz].
    - intros i. apply N.eq_dec.
    - left. apply corr_outputs. exact Hz.
    - right. split; [exact Hnz | exact Hs].
  Qed.

  Theorem unselected_column_harmless : forall E0 E1,
    (forall j i, j < K -> E0 j i = true -> N.testbit delta (N.of_nat j) = false) ->
    (forall j i, j < K -> E1 j i = true -> N.testbit delta (N.of_nat j) = false) ->
    S_ (tamper_bits E0 E1 tr) n pos = S_ tr n pos /\
    exists out, S_ (tamper_bits E0 E1 tr) n pos = Accept out /\ corr_holds delta out res bl = true.
  Proof.
    intros E0 E1 H0 H1.
    assert (Z : forall E, (forall j i, j < K -> E j i = true -> N.testbit delta (N.of_nat j) = false) ->
                forall i, N.land (err_row E i) delta = 0%N).
    { intros E HE i. unfold err_row. rewrite row_of_land, <- row_of_false. apply row_of_ext.
      intros j Hj. destruct (E j i) eqn:Ej; [rewrite (HE j i Hj Ej)|]; reflexivity. }
    destruct (masked_errors_accepted E0 E1) as [Ha Hc]; [intros; apply Z; assumption ..|].
    destruct (masked_errors_accepted noerr noerr) as [Hh _]; [intros; apply Z; discriminate ..|].
    rewrite tamper_noerr in Hh. split.
    - rewrite Ha, Hh. reflexivity.
    - eexists. split; [exact Ha | exact Hc].
  Qed.

  Theorem multi_flip_detected : forall E0 E1,
    syndrome2 chi delta E0 E1 n <> 0%N -> S_ (tamper_bits E0 E1 tr) n pos = Reject.
  Proof.
    intros E0 E1 Hs. apply reject_if with (2 := Hs). intros out Ha. apply accept_bits_iff in Ha. apply Ha.
  Qed.

  Theorem selected_row_detected : forall E0 i0,
    i0 < n ->
    (forall j i, E0 j i = true -> i = i0) ->
    N.land (err_row E0 i0) delta <> 0%N ->
    chi i0 <> 0%N ->
    S_ (tamper_bits E0 noerr tr) n pos = Reject.
  Proof.
    intros E0 i0 Hi0 Hrow Hnz Hchi. apply multi_flip_detected. rewrite syndrome2_isum.
    rewrite (isum_zero _ _ checkRows) by (intros i _; rewrite err_row_noerr; reflexivity).
    rewrite N.lxor_0_r, (isum_single _ _ n 0 0 i0), Nat.sub_0_r.
    - apply clmul_neq_0; assumption.
    - intros i _ Hne. rewrite (err_row_confined E0 i0) by assumption. reflexivity.
    - lia.
  Qed.

  Theorem selected_check_row_detected : forall E1 i0,
    i0 < checkRows ->
    (forall j i, E1 j i = true -> i = i0) ->
    N.land (err_row E1 i0) delta <> 0%N ->
    chi (n + i0) <> 0%N ->
    S_ (tamper_bits noerr E1 tr) n pos = Reject.
  Proof.
    intros E1 i0 Hi0 Hrow Hnz Hchi. apply multi_flip_detected. rewrite syndrome2_isum.
    rewrite (isum_zero _ _ n) by (intros i _; rewrite err_row_noerr; reflexivity).
    rewrite N.lxor_0_l, (isum_single _ _ checkRows n 0 i0), Nat.sub_0_r.
    - apply clmul_neq_0; assumption.
    - intros i _ Hne. rewrite (err_row_confined E1 i0) by assumption. reflexivity.
    - lia.
  Qed.

  Corollary single_flip_detected : forall j0 i0,
    j0 < K -> i0 < n -> N.testbit delta (N.of_nat j0) = true ->
    chi i0 <> 0%N ->
    S_ (tamper_bits (flip1 j0 i0) noerr tr) n pos = Reject.
  Proof.
    intros j0 i0 Hj Hi Hd Hchi. apply (selected_row_detected (flip1 j0 i0) i0 Hi); [| |exact Hchi].
    - intros j i H. unfold flip1 in H. apply andb_true_iff in H. destruct H as [_ H].
      apply Nat.eqb_eq in H. exact H.
    - intros H.
      assert (T : N.testbit (N.land (err_row (flip1 j0 i0) i0) delta) (N.of_nat j0) = true).
      { rewrite N.land_spec, Hd. unfold err_row. rewrite row_of_testbit by exact Hj.
        unfold flip1. rewrite !Nat.eqb_refl. reflexivity. }
      rewrite H, N.bits_0 in T. discriminate.
  Qed.

  Theorem column_flips_accept_iff : forall j0 R0 R1 out,
    j0 < K -> N.testbit delta (N.of_nat j0) = true ->
    (S_ (tamper_bits (colflips j0 R0) (colflips j0 R1) tr) n pos = Accept out <->
     out = map (qrow delta t_ b_ (err_row (colflips j0 R0))) (seq 0 n) /\
     N.lxor (csum chi R0 0 0 n) (csum chi R1 n 0 checkRows) = 0%N).
  Proof. intros j0 R0 R1 out Hj Hd. rewrite accept_bits_iff, colflips_syndrome by assumption. reflexivity. Qed.

  Theorem column_flips_break_correlation : forall j0 R0 i,
    j0 < K -> N.testbit delta (N.of_nat j0) = true -> i < n -> R0 i = true ->
    corr_holds delta (map (qrow delta t_ b_ (err_row (colflips j0 R0))) (seq 0 n)) res bl = false.
  Proof.
    intros j0 R0 i Hj Hd Hi HR.
    destruct (corr_holds _ _ _ _) eqn:Hc; [|reflexivity]. exfalso.
    pose proof (proj1 (corr_outputs (colflips j0 R0)) Hc i Hi) as Hz.
    rewrite colflips_row, HR in Hz by assumption.
    revert Hz. apply N.pow_nonzero. discriminate.
  Qed.

  (* The full "never silently accepts" statement is false.  A GF(2)-linear
     dependency among the chi coefficients of a set of rows (R0 on the payload
     batch, R1 on the check batch) lets an adversary flip the same selected
     column in all those rows: the sender accepts (the response is untouched)
     and its outputs are inconsistent.  The receiver chooses the seed itself
     and the seed is not bound to the transmitted matrix, so the dependency can
     be computed before the matrix is altered; among more than 128 coefficients
     of 128 bits a dependency always exists. *)
  Theorem chi_dependency_forge : forall j0 R0 R1 i,
    j0 < K -> N.testbit delta (N.of_nat j0) = true -> i < n -> R0 i = true ->
    N.lxor (csum chi R0 0 0 n) (csum chi R1 n 0 checkRows) = 0%N ->
    exists out,
      S_ (tamper_bits (colflips j0 R0) (colflips j0 R1) tr) n pos = Accept out /\
      corr_holds delta out res bl = false.
  Proof.
    intros j0 R0 R1 i Hj Hd Hi HR Hdep. eexists. split.
    - apply column_flips_accept_iff; [exact Hj | exact Hd |]. split; [reflexivity | exact Hdep].
    - apply (column_flips_break_correlation j0 R0 i); assumption.
  Qed.

  Theorem pair_payload_accept_iff : forall j0 a b out,
    j0 < K -> N.testbit delta (N.of_nat j0) = true -> a < n -> b < n ->
    (S_ (tamper_bits (colflips j0 (pairset a b)) (colflips j0 nowhere) tr) n pos = Accept out <->
     out = map (qrow delta t_ b_ (err_row (colflips j0 (pairset a b)))) (seq 0 n) /\
     chi (coeff_idx n 0 a) = chi (coeff_idx n 0 b)).
  Proof.
    intros j0 a b out Hj Hd Ha Hb. rewrite column_flips_accept_iff by assumption.
    unfold pairset. rewrite csum_xorb, !csum_single by lia.
    rewrite (csum_none _ nowhere) by reflexivity.
    rewrite N.lxor_0_r, !Nat.sub_0_r. cbn [Nat.add coeff_idx Nat.eqb].
    split; intros [Ho He]; (split; [exact Ho|]).
    - apply N.lxor_eq. exact He.
    - rewrite He. apply N.lxor_nilpotent.
  Qed.

  Theorem pair_payload_check_accept_iff : forall j0 a k out,
    j0 < K -> N.testbit delta (N.of_nat j0) = true -> a < n -> k < checkRows ->
    (S_ (tamper_bits (colflips j0 (fun i => Nat.eqb i a)) (colflips j0 (fun i => Nat.eqb i k)) tr) n pos = Accept out <->
     out = map (qrow delta t_ b_ (err_row (colflips j0 (fun i => Nat.eqb i a)))) (seq 0 n) /\
     chi (coeff_idx n 0 a) = chi (coeff_idx n 1 k)).
  Proof.
    intros j0 a k out Hj Hd Ha Hk. rewrite column_flips_accept_iff by assumption.
    rewrite !csum_single by lia.
    rewrite !Nat.sub_0_r. cbn [Nat.add coeff_idx Nat.eqb].
    split; intros [Ho He]; (split; [exact Ho|]).
    - apply N.lxor_eq. exact He.
    - rewrite He. apply N.lxor_nilpotent.
  Qed.

  Corollary pair_payload_detected : forall j0 a b,
    j0 < K -> N.testbit delta (N.of_nat j0) = true -> a < n -> b < n ->
    chi (coeff_idx n 0 a) <> chi (coeff_idx n 0 b) ->
    S_ (tamper_bits (colflips j0 (pairset a b)) (colflips j0 nowhere) tr) n pos = Reject.
  Proof.
    intros j0 a b Hj Hd Ha Hb Hne. apply reject_if with (2 := Hne).
    intros out Hacc. apply pair_payload_accept_iff in Hacc; try assumption. apply Hacc.
  Qed.

  Corollary pair_payload_check_detected : forall j0 a k,
    j0 < K -> N.testbit delta (N.of_nat j0) = true -> a < n -> k < checkRows ->
    chi (coeff_idx n 0 a) <> chi (coeff_idx n 1 k) ->
    S_ (tamper_bits (colflips j0 (fun i => Nat.eqb i a)) (colflips j0 (fun i => Nat.eqb i k)) tr) n pos = Reject.
  Proof.
    intros j0 a k Hj Hd Ha Hk Hne. apply reject_if with (2 := Hne).
    intros out Hacc. apply pair_payload_check_accept_iff in Hacc; try assumption. apply Hacc.
  Qed.

  (* a chi stream that repeats a coefficient (e.g. one that restarts for every
     block / for the check batch) is refuted: the two flips cancel, the sender
     accepts and output a is wrong *)
  Theorem repeated_coefficient_payload_check_forge : forall j0 a k,
    j0 < K -> N.testbit delta (N.of_nat j0) = true -> a < n -> k < checkRows ->
    chi (coeff_idx n 0 a) = chi (coeff_idx n 1 k) ->
    exists out,
      S_ (tamper_bits (colflips j0 (fun i => Nat.eqb i a)) (colflips j0 (fun i => Nat.eqb i k)) tr) n pos = Accept out /\
      corr_holds delta out res bl = false.
  Proof.
    intros j0 a k Hj Hd Ha Hk He. eexists. split.
    - apply pair_payload_check_accept_iff; try assumption. split; [reflexivity | exact He].
    - apply (column_flips_break_correlation j0 (fun i => Nat.eqb i a) a Hj Hd Ha). apply Nat.eqb_refl.
  Qed.

  Theorem repeated_coefficient_payload_forge : forall j0 a b,
    j0 < K -> N.testbit delta (N.of_nat j0) = true -> a < n -> b < n -> a <> b ->
    chi (coeff_idx n 0 a) = chi (coeff_idx n 0 b) ->
    exists out,
      S_ (tamper_bits (colflips j0 (pairset a b)) (colflips j0 nowhere) tr) n pos = Accept out /\
      corr_holds delta out res bl = false.
  Proof.
    intros j0 a b Hj Hd Ha Hb Hab He. eexists. split.
    - apply pair_payload_accept_iff; try assumption. split; [reflexivity | exact He].
    - apply (column_flips_break_correlation j0 (pairset a b) a Hj Hd Ha). unfold pairset. rewrite Nat.eqb_refl.
      destruct (Nat.eqb_spec a b); [contradiction | reflexivity].
  Qed.

  (* matrix, seed and x untouched, the tag (t0, t1) replaced by any other pair
     of naturals: the sender's comparison is a full equality of both 128-bit
     halves *)
  Theorem tag_alteration_rejected : forall t0h t1h,
    (t0h, t1h) <> (tr_t0 tr, tr_t1 tr) ->
    S_ (tamper noerr noerr (tr_seed tr) (tr_x tr) t0h t1h tr) n pos = Reject.
  Proof.
    intros t0h t1h Hne. rewrite sender_run_spec.
    destruct (sender_check _ _ _ _ (tr_x tr) t0h t1h) eqn:Hc; [exfalso | reflexivity].
    destruct honest_accepts as [out [Ha _]].
    rewrite <- (tamper_noerr tr) in Ha at 1. unfold tamper_bits in Ha. rewrite sender_run_spec in Ha.
    destruct (sender_check _ _ _ _ (tr_x tr) (tr_t0 tr) (tr_t1 tr)) eqn:Hh; [|discriminate].
    apply check_iff in Hc. apply check_iff in Hh.
    apply Hne. rewrite <- Hc, <- Hh. reflexivity.
  Qed.

  Corollary tag_mask_rejected : forall m0 m1,
    (m0 <> 0%N \/ m1 <> 0%N) ->
    S_ (tamper noerr noerr (tr_seed tr) (tr_x tr) (N.lxor (tr_t0 tr) m0) (N.lxor (tr_t1 tr) m1) tr) n pos = Reject.
  Proof.
    intros m0 m1 Hm. apply tag_alteration_rejected. intros H. injection H as H0 H1.
    destruct Hm as [Hm|Hm]; [exact (lxor_mask_neq _ _ Hm H0) | exact (lxor_mask_neq _ _ Hm H1)].
  Qed.

  Corollary mirrored_tag_alteration_rejected : forall k,
    (k < 64)%N ->
    S_ (tamper noerr noerr (tr_seed tr) (tr_x tr) (N.lxor (tr_t0 tr) (mirrored (2^k))) (tr_t1 tr) tr) n pos = Reject /\
    S_ (tamper noerr noerr (tr_seed tr) (tr_x tr) (tr_t0 tr) (N.lxor (tr_t1 tr) (mirrored (2^k))) tr) n pos = Reject.
  Proof.
    intros k Hk.
    assert (Hm : mirrored (2^k) <> 0%N).
    { unfold mirrored. pose proof (N.pow_nonzero 2 k ltac:(discriminate)). lia. }
    split.
    - rewrite <- (N.lxor_0_r (tr_t1 tr)) at 1. apply tag_mask_rejected. left. exact Hm.
    - rewrite <- (N.lxor_0_r (tr_t0 tr)) at 1. apply tag_mask_rejected. right. exact Hm.
  Qed.
End Run.

(* closed witness of the refutation: two rows with equal coefficients *)
Theorem never_silent_refuted :
  exists g0 g1 chi_of bl b0 b1 seed pos delta E0 E1 tr res pos' out,
    (delta < 2^128)%N /\
    receiver_run g0 g1 chi_of bl b0 b1 seed pos = (tr, res, pos') /\
    sender_run (sender_streams g0 g1 delta) delta chi_of (tamper_bits E0 E1 tr) (length bl) pos = Accept out /\
    corr_holds delta out res bl = false.
Proof.
  set (g := fun (_ _ : nat) => 0%N). set (chi_of := fun (_ : N) (_ : nat) => 1%N).
  set (bl := [false; false]).
  destruct (receiver_run g g chi_of bl 0%N 0%N 0%N 0) as [[tr res] pos'] eqn:Hrun.
  destruct (chi_dependency_forge g g chi_of bl 0%N 0%N 0%N 0 1%N eq_refl tr res pos' Hrun 0
              (fun i => Nat.ltb i 2) (fun _ => false) 0) as [out [Ha Hc]];
    try reflexivity; try (unfold K; simpl; lia).
  exists g, g, chi_of, bl, 0%N, 0%N, 0%N, 0, 1%N,
         (colflips 0 (fun i => Nat.ltb i 2)), (colflips 0 (fun _ => false)), tr, res, pos', out.
  repeat split; assumption.
Qed.

Example mirrored_mask_example : mirrored (2^3) = (2^3 + 2^67)%N /\ mirrored (2^3) <> 0%N.
Proof. split; [reflexivity | discriminate]. Qed.
