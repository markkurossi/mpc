(* The IKNP extension of ot/iknp.go (model Iknp.v; C06).  createLabels is a
   bit transpose (label_bit), so the column relation q = t xor x*Delta of one
   chunk (qcols_nth) is the row relation "receiver's label k = sender's label k
   xor x_k*Delta" (chunk_labels).  A joint induction over the chunk loops of
   receiver and sender (labels_loops, bits_loops) shows that the sender
   consumes exactly the receiver's chunks and both stream offsets stay equal,
   which carries to sessions of arbitrary operations (run_ops_ok). *)
From Coq Require Import NArith ZArith List Bool Arith Lia Btauto ZifyNat ZifyN.
From Mpc Require Import Gen.Consts Base.ListFacts Base.Label OT.Iknp.
Import ListNotations.
Local Open Scope nat_scope.

(* constants (regenerated from ot/iknp.go; a changed constant breaks here) *)
Lemma K_eq : K = 128. Proof. reflexivity. Qed.
Lemma chunkByteRows_eq : chunkByteRows = 64. Proof. reflexivity. Qed.
Lemma chunkRows_eq : chunkRows = 512. Proof. reflexivity. Qed.
Lemma chunk_consts : chunkRows = chunkByteRows * 8 /\ chunkSize = chunkByteRows * K.
Proof. split; reflexivity. Qed.
Global Opaque K chunkByteRows chunkRows chunkSize.

Lemma xor_into_length a b : length (xor_into a b) = length a.
Proof. revert b. induction a as [|x a IH]; intros [|y b]; simpl; auto. Qed.

Lemma xor_into_nth a b r :
  r < length a -> r < length b -> nth r (xor_into a b) 0%N = N.lxor (nth r a 0%N) (nth r b 0%N).
Proof.
  revert b r. induction a as [|x a IH]; intros [|y b] r Ha Hb; simpl in *; try lia.
  destruct r; [reflexivity|]. apply IH; lia.
Qed.

Lemma nth_nil_N r : nth r (@nil N) 0%N = 0%N.
Proof. destruct r; reflexivity. Qed.

Lemma flat_map8_length {A} (f : nat -> list A) w :
  (forall r, length (f r) = 8) -> length (flat_map f (seq 0 w)) = w * 8.
Proof.
  intros Hf. induction w as [|w IH]; [reflexivity|].
  rewrite seq_S, flat_map_app, app_length, IH. simpl. rewrite app_nil_r, Hf. lia.
Qed.

Lemma flat_map8_nth {A} (f : nat -> list A) w k d :
  (forall r, length (f r) = 8) -> k < w * 8 ->
  nth k (flat_map f (seq 0 w)) d = nth (k mod 8) (f (k / 8)) d.
Proof.
  intros Hf. induction w as [|w IH]; intros Hk; [lia|].
  rewrite seq_S, flat_map_app. change (flat_map f [0 + w]) with (f w ++ []). rewrite app_nil_r.
  destruct (Nat.lt_ge_cases k (w * 8)) as [Hlt|Hge].
  - rewrite app_nth1 by (rewrite flat_map8_length; auto). auto.
  - rewrite app_nth2 by (rewrite flat_map8_length; auto).
    rewrite flat_map8_length by auto.
    replace (k / 8) with w by lia. replace (k mod 8) with (k - w * 8) by lia. reflexivity.
Qed.

Lemma concat_cols_length (F : nat -> list N) w m :
  (forall i, length (F i) = w) -> length (concat (map F (seq 0 m))) = m * w.
Proof.
  intros HF. induction m as [|m IH]; [reflexivity|].
  rewrite seq_S, map_app, concat_app, app_length, IH. simpl. rewrite app_nil_r, HF. lia.
Qed.

(* buf[j*w + row] of the column-major buffer is byte `row` of column j *)
Lemma nth_concat_cols (F : nat -> list N) w m j r :
  (forall i, length (F i) = w) -> j < m -> r < w ->
  nth (j * w + r) (concat (map F (seq 0 m))) 0%N = nth r (F j) 0%N.
Proof.
  intros HF. induction m as [|m IH]; intros Hj Hr; [lia|].
  rewrite seq_S, map_app, concat_app. simpl. rewrite app_nil_r.
  destruct (Nat.eq_dec j m) as [->|Hne].
  - rewrite app_nth2 by (rewrite (concat_cols_length F w); auto; lia).
    rewrite (concat_cols_length F w) by auto. f_equal. lia.
  - assert (Hlt : j * w + r < length (concat (map F (seq 0 m)))).
    { rewrite (concat_cols_length F w) by auto.
      assert ((j + 1) * w <= m * w) by (apply Nat.mul_le_mono_r; lia). lia. }
    rewrite app_nth1 by exact Hlt. apply IH; lia.
Qed.

Lemma bits_to_N_spec l k : N.testbit (bits_to_N l) (N.of_nat k) = nth k l false.
Proof.
  revert k. induction l as [|b l IH]; intros k.
  - simpl bits_to_N. rewrite N.bits_0. destruct k; reflexivity.
  - simpl bits_to_N. destruct k as [|k].
    + simpl. destruct b.
      * rewrite N.succ_double_spec. apply N.testbit_odd_0.
      * rewrite N.double_spec. apply N.testbit_even_0.
    + rewrite Nat2N.inj_succ. simpl nth. destruct b.
      * rewrite N.succ_double_spec, N.testbit_odd_succ by apply N.le_0_l. apply IH.
      * rewrite N.double_spec, N.testbit_even_succ by apply N.le_0_l. apply IH.
Qed.

(* Go bit index j (Label.Bit) <-> bit position p of the 128-bit number *)
Definition colinv (p : nat) : nat := if p <? 64 then p + 64 else p - 64.

Lemma colbit_colinv p : p < 128 -> colbit (colinv p) = N.of_nat p.
Proof.
  intros H. unfold colbit, colinv.
  destruct (p <? 64) eqn:E.
  - apply Nat.ltb_lt in E. replace (p + 64 <? 64) with false by (symmetry; apply Nat.ltb_ge; lia).
    f_equal. lia.
  - apply Nat.ltb_ge in E. replace (p - 64 <? 64) with true by (symmetry; apply Nat.ltb_lt; lia).
    f_equal. lia.
Qed.

Lemma colinv_lt p : p < 128 -> colinv p < 128.
Proof. unfold colinv. destruct (p <? 64) eqn:E; [apply Nat.ltb_lt in E|apply Nat.ltb_ge in E]; lia. Qed.

Lemma colinv_64 : colinv 64 = 0. Proof. reflexivity. Qed.

Lemma lbit_colinv D p : p < 128 -> lbit D (colinv p) = N.testbit D (N.of_nat p).
Proof. intros H. unfold lbit. rewrite colbit_colinv by assumption. reflexivity. Qed.

Lemma testbit_high D p : (D < 2 ^ 128)%N -> 128 <= p -> N.testbit D (N.of_nat p) = false.
Proof.
  intros HD Hp. rewrite <- (N.mod_small D (2 ^ 128)) by assumption.
  apply N.mod_pow2_bits_high. lia.
Qed.

(* createLabels is a transpose *)
Lemma label_bit bs bit p :
  N.testbit (label_of_bytes bs bit) (N.of_nat p)
  = if p <? 128 then N.testbit (nth (colinv p) bs 0%N) bit else false.
Proof.
  unfold label_of_bytes. cbv zeta. rewrite N.lor_spec.
  set (bits := map (fun b => N.testbit b bit) bs).
  assert (Hb : forall k, nth k bits false = N.testbit (nth k bs 0%N) bit).
  { intros k. unfold bits.
    change false with ((fun b => N.testbit b bit) 0%N) at 1. apply map_nth. }
  destruct (Nat.lt_ge_cases p 64) as [Hlt|Hge].
  - rewrite N.shiftl_spec_low by lia. rewrite orb_false_l.
    rewrite bits_to_N_spec, nth_firstn_lt, nth_skipn, Hb by assumption.
    replace (p <? 128) with true by (symmetry; apply Nat.ltb_lt; lia).
    unfold colinv. replace (p <? 64) with true by (symmetry; apply Nat.ltb_lt; lia).
    f_equal. f_equal. lia.
  - rewrite N.shiftl_spec_high by lia.
    replace (N.of_nat p - 64)%N with (N.of_nat (p - 64)) by lia.
    rewrite !bits_to_N_spec.
    rewrite (nth_overflow (firstn 64 (skipn 64 bits))) by (rewrite firstn_length; lia).
    rewrite orb_false_r.
    destruct (Nat.lt_ge_cases p 128) as [Hlt|Hge2].
    + replace (p <? 128) with true by (symmetry; apply Nat.ltb_lt; lia).
      rewrite nth_firstn_lt, Hb by lia.
      unfold colinv. replace (p <? 64) with false by (symmetry; apply Nat.ltb_ge; lia).
      reflexivity.
    + replace (p <? 128) with false by (symmetry; apply Nat.ltb_ge; lia).
      apply nth_overflow. rewrite firstn_length. lia.
Qed.

Lemma createLabels_length len cols w : length (createLabels len cols w) = Nat.min (w * 8) len.
Proof.
  unfold createLabels. rewrite firstn_length, flat_map8_length.
  - lia.
  - intros r. rewrite map_length, seq_length. reflexivity.
Qed.

Lemma createLabels_nth len cols w k :
  k < Nat.min (w * 8) len ->
  nth k (createLabels len cols w) 0%N
  = label_of_bytes (map (fun col => nth (k / 8) col 0%N) cols) (N.of_nat (k mod 8)).
Proof.
  intros Hk. unfold createLabels. rewrite nth_firstn_lt by assumption.
  rewrite flat_map8_nth.
  - cbv zeta. rewrite nth_map_seq by lia. reflexivity.
  - intros r. rewrite map_length, seq_length. reflexivity.
  - lia.
Qed.

Lemma nth_map_cols (cols : list (list N)) r j :
  nth j (map (fun col => nth r col 0%N) cols) 0%N = nth r (nth j cols []) 0%N.
Proof.
  rewrite <- (map_nth (fun col => nth r col 0%N) cols [] j).
  f_equal. symmetry. apply nth_nil_N.
Qed.

Lemma createLabels_bit len cols w k p :
  k < Nat.min (w * 8) len ->
  N.testbit (nth k (createLabels len cols w) 0%N) (N.of_nat p)
  = if p <? 128 then N.testbit (nth (k / 8) (nth (colinv p) cols []) 0%N) (N.of_nat (k mod 8)) else false.
Proof.
  intros Hk. rewrite createLabels_nth, label_bit by assumption.
  destruct (p <? 128); [|reflexivity].
  rewrite nth_map_cols. reflexivity.
Qed.

Lemma horner8 b0 b1 b2 b3 b4 b5 b6 b7 :
  (N.b2n b0 + 2 * N.b2n b1 + 4 * N.b2n b2 + 8 * N.b2n b3 + 16 * N.b2n b4 + 32 * N.b2n b5 + 64 * N.b2n b6 + 128 * N.b2n b7
   = 2 * (2 * (2 * (2 * (2 * (2 * (2 * (2 * 0 + N.b2n b7) + N.b2n b6) + N.b2n b5) + N.b2n b4) + N.b2n b3) + N.b2n b2)
          + N.b2n b1) + N.b2n b0)%N.
Proof. lia. Qed.

Lemma byte_of_bits_spec f bit : bit < 8 -> N.testbit (byte_of_bits f) (N.of_nat bit) = f bit.
Proof.
  intros H. unfold byte_of_bits. rewrite horner8.
  do 8 (destruct bit as [|bit]; [apply N.testbit_0_r | rewrite Nat2N.inj_succ, N.testbit_succ_r]).
  lia.
Qed.

Lemma pack_bits_length b : length (pack_bits b) = (length b + 7) / 8.
Proof. unfold pack_bits. rewrite map_length, seq_length. reflexivity. Qed.

Lemma pack_bits_bit b i :
  i < length b -> N.testbit (nth (i / 8) (pack_bits b) 0%N) (N.of_nat (i mod 8)) = nth i b false.
Proof.
  intros H. unfold pack_bits. rewrite nth_map_seq by lia.
  rewrite byte_of_bits_spec by lia. f_equal. lia.
Qed.

Lemma cbyte_bit C k bit :
  bit < 8 -> N.testbit (cbyte C k) (N.of_nat bit) = N.testbit C (N.of_nat (8 * k + bit)).
Proof.
  intros H. unfold cbyte. rewrite N.land_spec, N.shiftr_spec by apply N.le_0_l.
  change 255%N with (N.ones 8). rewrite N.ones_spec_low by lia. rewrite andb_true_r.
  f_equal. lia.
Qed.

Lemma set_bits_spec P ofs m R i :
  N.testbit (set_bits P ofs m R) (N.of_nat i)
  = N.testbit R (N.of_nat i) || ((ofs <=? i) && (i <? ofs + m) && P (i - ofs)).
Proof.
  unfold set_bits. revert R. induction m as [|m IH]; intros R.
  - cbn [seq fold_left].
    destruct (Nat.leb_spec ofs i), (Nat.ltb_spec i (ofs + 0)); try lia;
      cbn [andb]; rewrite orb_false_r; reflexivity.
  - rewrite seq_S, fold_left_app. cbn [fold_left]. rewrite Nat.add_0_l.
    pose proof (IH R) as H1.
    set (R1 := fold_left _ (seq 0 m) R) in *.
    assert (Hb : N.testbit (if P m then N.lor R1 (N.shiftl 1 (N.of_nat (ofs + m))) else R1) (N.of_nat i)
                 = N.testbit R1 (N.of_nat i) || (P m && (ofs + m =? i))).
    { destruct (P m); [|rewrite orb_false_r; reflexivity].
      rewrite N.lor_spec, N.shiftl_1_l, N.pow2_bits_eqb. f_equal. rewrite andb_true_l.
      destruct (Nat.eqb_spec (ofs + m) i), (N.eqb_spec (N.of_nat (ofs + m)) (N.of_nat i));
        try reflexivity; lia. }
    rewrite Hb, H1.
    destruct (Nat.eqb_spec (ofs + m) i) as [E|E].
    + subst i. replace (ofs + m - ofs) with m by lia.
      destruct (Nat.leb_spec ofs (ofs + m)); [|lia].
      destruct (Nat.ltb_spec (ofs + m) (ofs + m)); [lia|].
      destruct (Nat.ltb_spec (ofs + m) (ofs + S m)); [|lia].
      cbn [andb]. rewrite orb_false_r, andb_true_r. reflexivity.
    + rewrite andb_false_r, orb_false_r.
      destruct (Nat.ltb_spec i (ofs + m)), (Nat.ltb_spec i (ofs + S m)); try lia; reflexivity.
Qed.

Lemma nth_map_combine_seq {A} (f : nat * N -> A) (l : list N) r d :
  r < length l -> nth r (map f (combine (seq 0 (length l)) l)) d = f (r, nth r l 0%N).
Proof.
  intros H.
  rewrite nth_indep with (d' := f (0, 0%N))
    by (rewrite map_length, combine_length, seq_length; lia).
  rewrite map_nth, combine_nth by (rewrite seq_length; reflexivity).
  rewrite seq_nth by lia. reflexivity.
Qed.

(* one chunk of the loops, in numbers: ofs rows are done (a multiple of 512),
   the chunk takes rows = min 512 (n - ofs) rows in w = ceil(rows / 8) byte-rows.
   The divisions are confined to these lemmas; the loop proofs use their
   conclusions with rows and w as variables. *)
Lemma chunk_arith n ofs rows w :
  ofs < n -> ofs mod 512 = 0 -> rows = Nat.min 512 (n - ofs) -> w = (rows + 7) / 8 ->
  0 < rows <= n - ofs /\ rows <= 512 /\ rows <= w * 8 /\ Nat.min (w * 8) (n - ofs) = rows /\
  (n - ofs <= 512 -> n <= ofs + rows) /\ (512 < n - ofs -> w * 8 = rows) /\
  ((ofs + rows) mod 512 = 0 \/ n <= ofs + rows) /\
  ofs / 8 + w <= (n + 7) / 8 /\
  w + (n - (ofs + rows) + 7) / 8 = (n - ofs + 7) / 8 /\
  S ((n - (ofs + rows) + 511) / 512) = (n - ofs + 511) / 512.
Proof. intros Hlt Hal -> ->. repeat split; lia. Qed.

Lemma chunk_row_arith ofs k :
  ofs mod 512 = 0 -> (ofs + k) / 8 = ofs / 8 + k / 8 /\ (ofs + k) mod 8 = k mod 8.
Proof. intros H. split; lia. Qed.

(* the same for the packed-bit loops; 8 * (w / 8) is where the word-wise xor
   of the choices stops without the tail fix *)
Lemma chunk_arith_bits n ofs rows w :
  ofs < n -> ofs mod 512 = 0 -> rows = Nat.min 512 (n - ofs) -> w = (rows + 7) / 8 ->
  (forall row, row < rows ->
     row / 8 < w /\
     (row / 8 <? 8 * (w / 8)) = ((ofs + row) / 64 <? (n + 7) / 64) /\
     8 * (8 * (ofs / 64) + row / 8) + row mod 8 = ofs + row) /\
  (forall i, ofs + rows <= i < n ->
     w + (i - (ofs + rows)) / 8 = (i - ofs) / 8 /\ (i - (ofs + rows)) mod 8 = (i - ofs) mod 8).
Proof.
  intros Hlt Hal -> ->. split.
  - intros row Hrow. split; [lia|]. split; [|lia].
    destruct (Nat.ltb_spec (row / 8) (8 * (((Nat.min 512 (n - ofs) + 7) / 8) / 8))),
             (Nat.ltb_spec ((ofs + row) / 64) ((n + 7) / 64)); try reflexivity; lia.
  - intros i Hi. split; lia.
Qed.

(* a window [ofs, n) of bit positions filled in two steps *)
Lemma window_empty ofs n i : n <= ofs -> (ofs <=? i) && (i <? n) = false.
Proof. intros H. destruct (Nat.leb_spec ofs i), (Nat.ltb_spec i n); try reflexivity; lia. Qed.

Lemma window_split ofs rows n i (A : bool) (P Q' Q : nat -> bool) :
  ofs + rows <= n ->
  (forall j, j < rows -> P j = Q (ofs + j)) ->
  (forall j, ofs + rows <= j < n -> Q' j = Q j) ->
  (A || ((ofs <=? i) && (i <? ofs + rows) && P (i - ofs))) || ((ofs + rows <=? i) && (i <? n) && Q' i)
  = A || ((ofs <=? i) && (i <? n) && Q i).
Proof.
  intros Hn HP HQ.
  destruct (Nat.leb_spec ofs i), (Nat.ltb_spec i (ofs + rows)), (Nat.leb_spec (ofs + rows) i), (Nat.ltb_spec i n);
    try lia; cbn [andb orb]; rewrite ?orb_false_r; try reflexivity.
  - rewrite HP by lia. replace (ofs + (i - ofs)) with i by lia. reflexivity.
  - rewrite HQ by lia. reflexivity.
Qed.

Section Proofs.
  Variables g0 g1 : nat -> nat -> N.
  Variable Delta : N.
  Hypothesis HDelta : (Delta < 2 ^ 128)%N.

  Lemma prg_length g pos len : length (prg g pos len) = len.
  Proof. unfold prg. rewrite map_length, seq_length. reflexivity. Qed.

  Lemma prg_nth g pos len r : r < len -> nth r (prg g pos len) 0%N = g (pos + r).
  Proof. intros H. unfold prg. rewrite nth_map_seq by assumption. reflexivity. Qed.

  Lemma tcols_nth pos w i r :
    i < K -> r < w -> nth r (nth i (tcols g0 pos w) []) 0%N = g0 i (pos + r).
  Proof. intros Hi Hr. unfold tcols. rewrite nth_map_seq by assumption. apply prg_nth. assumption. Qed.

  (* the u column of the receiver: G1 xor G0 xor x, byte by byte *)
  Definition ucol_spec (F : nat -> list N) (pos w : nat) (xs : nat -> N) : Prop :=
    (forall i, length (F i) = w) /\
    (forall i r, i < K -> r < w ->
       nth r (F i) 0%N = N.lxor (N.lxor (g1 i (pos + r)) (g0 i (pos + r))) (xs r)).

  Lemma ucols_spec bbuf ofs pos w :
    ofs / 8 + w <= length bbuf ->
    exists F, ucols g0 g1 bbuf ofs pos w = map F (seq 0 K)
              /\ ucol_spec F pos w (fun r => nth (ofs / 8 + r) bbuf 0%N).
  Proof.
    intros Hlen.
    exists (fun i => xor_into (xor_into (prg (g1 i) pos w) (prg (g0 i) pos w)) (skipn (ofs / 8) bbuf)).
    split; [reflexivity|]. split.
    - intros i. rewrite !xor_into_length. apply prg_length.
    - intros i r Hi Hr.
      rewrite xor_into_nth.
      + rewrite xor_into_nth by (rewrite prg_length; assumption).
        rewrite !prg_nth by assumption. rewrite nth_skipn. reflexivity.
      + rewrite xor_into_length, prg_length. assumption.
      + rewrite skipn_length. lia.
  Qed.

  Lemma ucols_bits_spec tailfix C ofs pos w :
    exists F, ucols_bits g0 g1 tailfix C ofs pos w = map F (seq 0 K)
              /\ ucol_spec F pos w
                   (fun r => if r <? (if tailfix then w else 8 * (w / 8))
                             then cbyte C (8 * (ofs / 64) + r) else 0%N).
  Proof.
    exists (fun i => xor_choice_bytes (xor_into (prg (g1 i) pos w) (prg (g0 i) pos w)) C
                       (8 * (ofs / 64)) (if tailfix then w else 8 * (w / 8))).
    split; [reflexivity|]. split.
    - intros i. unfold xor_choice_bytes.
      rewrite map_length, combine_length, seq_length, xor_into_length, prg_length. lia.
    - intros i r Hi Hr. unfold xor_choice_bytes.
      rewrite nth_map_combine_seq by (rewrite xor_into_length, prg_length; assumption).
      cbn [fst snd].
      rewrite xor_into_nth by (rewrite prg_length; assumption).
      rewrite !prg_nth by assumption.
      destruct (r <? _); [reflexivity|]. rewrite N.lxor_0_r. reflexivity.
  Qed.

  Lemma chunk_length (F : nat -> list N) w : (forall i, length (F i) = w) ->
    length (concat (map F (seq 0 K))) = K * w.
  Proof. intros HF. apply concat_cols_length. assumption. Qed.

  Lemma chunk_firstn (F : nat -> list N) w n : (forall i, length (F i) = w) -> n = w * K ->
    firstn n (concat (map F (seq 0 K))) = concat (map F (seq 0 K)).
  Proof.
    intros HF ->. apply firstn_all2. rewrite (chunk_length F w) by assumption. lia.
  Qed.

  Lemma K_pos : 0 < K. Proof. rewrite K_eq. lia. Qed.

  Lemma chunk_div (F : nat -> list N) w : (forall i, length (F i) = w) ->
    length (concat (map F (seq 0 K))) / K = w /\ length (concat (map F (seq 0 K))) mod K = 0.
  Proof.
    intros HF. rewrite (chunk_length F w) by assumption. pose proof K_pos. split.
    - rewrite Nat.mul_comm. apply Nat.div_mul. lia.
    - rewrite Nat.mul_comm. apply Nat.mod_mul. lia.
  Qed.

  (* the sender's matrix: q = t xor x*Delta, column by column *)
  Lemma qcols_nth F w xs pos i r :
    ucol_spec F pos w xs -> i < K -> r < w ->
    nth r (nth i (qcols g0 g1 Delta (concat (map F (seq 0 K))) pos w) []) 0%N
    = N.lxor (g0 i (pos + r)) (if lbit Delta i then xs r else 0%N).
  Proof.
    intros [HF HU] Hi Hr. unfold qcols. rewrite nth_map_seq by assumption.
    unfold sender_g. destruct (lbit Delta i).
    - rewrite xor_into_nth.
      + rewrite prg_nth by assumption. rewrite nth_skipn.
        rewrite (nth_concat_cols F w) by assumption.
        rewrite HU by assumption.
        generalize (g1 i (pos + r)), (g0 i (pos + r)), (xs r). intros a b c. xor_solve.
      + rewrite prg_length. assumption.
      + rewrite skipn_length, (chunk_length F w) by assumption.
        assert ((i + 1) * w <= K * w) by (apply Nat.mul_le_mono_r; lia). lia.
    - rewrite prg_nth by assumption. rewrite N.lxor_0_r. reflexivity.
  Qed.

  Lemma qcols_col0 F w xs pos r :
    ucol_spec F pos w xs -> r < w ->
    nth r (nth 0 (qcols g0 g1 Delta (concat (map F (seq 0 K))) pos w) []) 0%N
    = N.lxor (g0 0 (pos + r)) (if lbit Delta 0 then xs r else 0%N).
  Proof. intros HU Hr. apply qcols_nth; auto. apply K_pos. Qed.

  (* one chunk: every label of the sender differs from the receiver's by x_k * Delta *)
  Lemma chunk_labels F w xs pos len k :
    ucol_spec F pos w xs -> k < Nat.min (w * 8) len ->
    nth k (createLabels len (tcols g0 pos w) w) 0%N
    = N.lxor (nth k (createLabels len (qcols g0 g1 Delta (concat (map F (seq 0 K))) pos w) w) 0%N)
             (if N.testbit (xs (k / 8)) (N.of_nat (k mod 8)) then Delta else 0%N).
  Proof.
    intros HU Hk. apply N.bits_inj. intros p.
    rewrite <- (N2Nat.id p). set (q := N.to_nat p). clearbody q. clear p.
    rewrite N.lxor_spec, !createLabels_bit by assumption.
    destruct (Nat.ltb_spec q 128) as [Hq|Hq].
    - assert (Hj : colinv q < K) by (rewrite K_eq; apply colinv_lt; assumption).
      assert (Hr : k / 8 < w) by lia.
      rewrite tcols_nth, (qcols_nth F w xs) by assumption.
      rewrite N.lxor_spec, lbit_colinv by assumption.
      destruct (N.testbit Delta (N.of_nat q)) eqn:ED,
               (N.testbit (xs (k / 8)) (N.of_nat (k mod 8))) eqn:EX;
        cbv iota; rewrite ?N.lxor_spec, ?N.bits_0, ?ED, ?EX; btauto.
    - destruct (N.testbit (xs (k / 8)) (N.of_nat (k mod 8)));
        rewrite ?N.bits_0, ?(testbit_high Delta q) by assumption; reflexivity.
  Qed.
  Lemma receive_loop_done f n bbuf ofs pos :
    n <= ofs -> receive_loop g0 g1 f n bbuf ofs pos = Some ([], [], pos).
  Proof. intros H. destruct f; cbn [receive_loop]; destruct (Nat.leb_spec n ofs); (reflexivity || lia). Qed.

  Lemma send_loop_done chunks n ofs pos :
    n <= ofs -> send_loop g0 g1 Delta chunks n ofs pos = Some ([], chunks, pos).
  Proof. intros H. destruct chunks; cbn [send_loop]; destruct (Nat.leb_spec n ofs); (reflexivity || lia). Qed.

  (* one receive()/send() pair from row ofs on: the sender consumes exactly
     the receiver's messages, both streams end at the same offset, and the
     labels are correlated row by row *)
  Definition labels_run (b : list bool) (fuel ofs pos : nat) (rest : list (list N)) : Prop :=
    exists us rl sl pos',
      receive_loop g0 g1 fuel (length b) (pack_bits b) ofs pos = Some (us, rl, pos') /\
      length us = (length b - ofs + 511) / 512 /\ pos' = pos + (length b - ofs + 7) / 8 /\
      send_loop g0 g1 Delta (us ++ rest) (length b) ofs pos = Some (sl, rest, pos') /\
      length rl = length b - ofs /\ length sl = length b - ofs /\
      forall k, k < length b - ofs ->
        nth k rl 0%N = N.lxor (nth k sl 0%N) (if nth (ofs + k) b false then Delta else 0%N).

  Lemma labels_done b fuel ofs pos rest : length b <= ofs -> labels_run b fuel ofs pos rest.
  Proof.
    intros H. exists [], [], [], pos.
    rewrite receive_loop_done, send_loop_done by assumption.
    replace (length b - ofs) with 0 by lia.
    split; [reflexivity|]. split; [reflexivity|]. split; [symmetry; apply Nat.add_0_r|]. split; [reflexivity|].
    split; [reflexivity|]. split; [reflexivity|]. intros k Hk. lia.
  Qed.

  Lemma labels_loops (b : list bool) :
    forall fuel ofs pos rest,
      (ofs mod 512 = 0 \/ length b <= ofs) -> length b - ofs <= fuel -> labels_run b fuel ofs pos rest.
  Proof.
    induction fuel as [|fuel IH]; intros ofs pos rest Hal Hfuel;
      (destruct (Nat.le_gt_cases (length b) ofs) as [Hle|Hlt]; [apply labels_done; assumption|]);
      [lia|].
    destruct Hal as [Hal|Hal]; [|clear IH; lia].
    unfold labels_run. set (n := length b) in *.
    cbn [receive_loop]. destruct (Nat.leb_spec n ofs) as [?|_]; [clear IH; lia|]. rewrite chunkRows_eq.
    remember (Nat.min 512 (n - ofs)) as rows eqn:Hrows.
    remember ((rows + 7) / 8) as w eqn:Hw.
    destruct (chunk_arith n ofs rows w Hlt Hal Hrows Hw)
      as (Hr0 & _ & Hrw & Hmin & Hlast & Hfull & Hnext & Hbb & Hpos & Hcnt).
    clear Hrows Hw.
    destruct (IH (ofs + rows) (pos + w) rest Hnext) as (us' & rl' & sl' & pos'' & HR & Hus & Hp & HS & HLr & HLs & Hrel);
      [clear - Hfuel Hr0; lia|].
    fold n in HR, HS, Hus, Hp, HLr, HLs, Hrel. clear IH Hfuel.
    (* the chunk count and the stream offset; no division is left in the context after this *)
    rewrite <- Hcnt, <- Hpos, <- Hus, Nat.add_assoc, <- Hp. clear Hcnt Hpos Hus Hp.
    destruct (ucols_spec (pack_bits b) ofs pos w) as [F [HFe HU]].
    { rewrite pack_bits_length. exact Hbb. }
    clear Hbb. pose proof (fun k => chunk_row_arith ofs k Hal) as Hrowk. clear Hal.
    rewrite HFe, (chunk_firstn F w) by (try apply HU; rewrite K_eq; reflexivity).
    set (chunk := concat (map F (seq 0 K))).
    rewrite HR.
    exists (chunk :: us'), (createLabels (n - ofs) (tcols g0 pos w) w ++ rl'),
           (createLabels (n - ofs) (qcols g0 g1 Delta chunk pos w) w ++ sl'), pos''.
    split; [reflexivity|]. split; [reflexivity|]. split; [reflexivity|].
    split.
    { (* the sender advances by 8 w rows, the receiver by rows: they differ only after the last chunk *)
      assert (HS' : send_loop g0 g1 Delta (us' ++ rest) n (ofs + w * 8) (pos + w) = Some (sl', rest, pos'')).
      { destruct (Nat.le_gt_cases (n - ofs) 512) as [Hl|Hf].
        - rewrite send_loop_done in HS |- * by lia. exact HS.
        - rewrite (Hfull Hf). exact HS. }
      destruct (chunk_div F w (proj1 HU)) as [Hdiv Hmod]. fold chunk in Hdiv, Hmod.
      rewrite <- app_comm_cons. cbn [send_loop]. destruct (Nat.leb_spec n ofs) as [?|_]; [lia|].
      rewrite Hmod, Nat.eqb_refl. cbn [negb]. rewrite Hdiv, HS'. reflexivity. }
    split; [rewrite app_length, createLabels_length; lia|].
    split; [rewrite app_length, createLabels_length; lia|].
    intros k Hk.
    destruct (Nat.lt_ge_cases k rows) as [Hkr|Hkr].
    - rewrite !app_nth1 by (rewrite createLabels_length; lia).
      unfold chunk. rewrite (chunk_labels F w _ pos (n - ofs) k HU) by lia.
      f_equal.
      destruct (Hrowk k) as [Hd Hm]. rewrite <- Hd, <- Hm.
      rewrite pack_bits_bit by (fold n; lia). reflexivity.
    - rewrite !app_nth2 by (rewrite createLabels_length; lia).
      rewrite !createLabels_length, Hmin.
      rewrite Hrel by lia. replace (ofs + rows + (k - rows)) with (ofs + k) by lia. reflexivity.
  Qed.

  Lemma recvbits_loop_done tailfix f n C ofs pos R :
    n <= ofs -> recvbits_loop g0 g1 tailfix f n C ofs pos R = Some ([], R, pos).
  Proof. intros H. destruct f; cbn [recvbits_loop]; destruct (Nat.leb_spec n ofs); (reflexivity || lia). Qed.

  Lemma sendbits_loop_done chunks n ofs pos R :
    n <= ofs -> sendbits_loop g0 g1 Delta chunks n ofs pos R = Some (R, chunks, pos).
  Proof. intros H. destruct chunks; cbn [sendbits_loop]; destruct (Nat.leb_spec n ofs); (reflexivity || lia). Qed.

  (* the receiver's output bit i: bit of column 0 of its t matrix *)
  Definition rho (ofs pos i : nat) : bool :=
    N.testbit (g0 0 (pos + (i - ofs) / 8)) (N.of_nat ((i - ofs) mod 8)).
  (* whether choice bit i reaches the u matrix in ReceiveBits *)
  Definition cov (tailfix : bool) (n i : nat) : bool := tailfix || (i / 64 <? (n + 7) / 64).

  (* one ReceiveBits/SendBits pair from row ofs on: what the two result
     vectors gain in the window [ofs, n) *)
  Definition bits_run tailfix C n (fuel ofs pos : nat) (Rr Rs : N) (rest : list (list N)) : Prop :=
    exists us Rr' Rs' pos',
      recvbits_loop g0 g1 tailfix fuel n C ofs pos Rr = Some (us, Rr', pos') /\
      sendbits_loop g0 g1 Delta (us ++ rest) n ofs pos Rs = Some (Rs', rest, pos') /\
      forall i,
        N.testbit Rr' (N.of_nat i)
        = N.testbit Rr (N.of_nat i) || ((ofs <=? i) && (i <? n) && rho ofs pos i) /\
        N.testbit Rs' (N.of_nat i)
        = N.testbit Rs (N.of_nat i)
          || ((ofs <=? i) && (i <? n)
              && xorb (rho ofs pos i) (lbit Delta 0 && cov tailfix n i && N.testbit C (N.of_nat i))).

  Lemma bits_done tailfix C n fuel ofs pos Rr Rs rest : n <= ofs -> bits_run tailfix C n fuel ofs pos Rr Rs rest.
  Proof.
    intros H. exists [], Rr, Rs, pos.
    rewrite recvbits_loop_done, sendbits_loop_done by assumption.
    split; [reflexivity|]. split; [reflexivity|].
    intros i. rewrite window_empty by assumption. cbn [andb]. rewrite !orb_false_r. split; reflexivity.
  Qed.

  Lemma bits_loops tailfix C n :
    forall fuel ofs pos Rr Rs rest,
      (ofs mod 512 = 0 \/ n <= ofs) -> n - ofs <= fuel -> bits_run tailfix C n fuel ofs pos Rr Rs rest.
  Proof.
    induction fuel as [|fuel IH]; intros ofs pos Rr Rs rest Hal Hfuel;
      (destruct (Nat.le_gt_cases n ofs) as [Hle|Hlt]; [apply bits_done; assumption|]);
      [lia|].
    destruct Hal as [Hal|Hal]; [|clear IH; lia].
    unfold bits_run. cbn [recvbits_loop]. destruct (Nat.leb_spec n ofs) as [?|_]; [clear IH; lia|]. rewrite chunkRows_eq.
    remember (Nat.min 512 (n - ofs)) as rows eqn:Hrows.
    remember ((rows + 7) / 8) as w eqn:Hw.
    destruct (chunk_arith n ofs rows w Hlt Hal Hrows Hw) as (Hr0 & Hr512 & Hrw & Hmin & _ & _ & Hnext & _).
    destruct (chunk_arith_bits n ofs rows w Hlt Hal Hrows Hw) as (Hrow & Hlater).
    clear Hrows Hw.
    destruct (ucols_bits_spec tailfix C ofs pos w) as [F [HFe HU]].
    rewrite HFe, (chunk_firstn F w) by (try apply HU; reflexivity).
    set (chunk := concat (map F (seq 0 K))).
    set (xs := fun r => if r <? (if tailfix then w else 8 * (w / 8))
                        then cbyte C (8 * (ofs / 64) + r) else 0%N) in *.
    set (Pr := fun row => lbit (nth row (createLabels 512 (tcols g0 pos w) w) 0%N) 0).
    set (Ps := fun row => N.testbit (nth (row / 8) (nth 0 (qcols g0 g1 Delta chunk pos w) []) 0%N)
                                    (N.of_nat (row mod 8))).
    destruct (IH (ofs + rows) (pos + w) (set_bits Pr ofs rows Rr) (set_bits Ps ofs rows Rs) rest Hnext)
      as (us' & Rr' & Rs' & pos'' & HR & HS & Hb); [clear - Hfuel Hr0; lia|].
    clear IH Hfuel Hnext Hal.
    (* closed forms of the two bit predicates on this chunk *)
    assert (HPr : forall row, row < rows -> Pr row = rho ofs pos (ofs + row)).
    { intros row Hr. destruct (Hrow row Hr) as (Hrw8 & _).
      unfold Pr, lbit. change (colbit 0) with (N.of_nat 64).
      rewrite createLabels_bit by lia. change (64 <? 128) with true. cbv iota.
      rewrite colinv_64, tcols_nth by (try apply K_pos; assumption).
      unfold rho. replace (ofs + row - ofs) with row by lia. reflexivity. }
    assert (HPs : forall row, row < rows ->
              Ps row = xorb (rho ofs pos (ofs + row))
                            (lbit Delta 0 && cov tailfix n (ofs + row) && N.testbit C (N.of_nat (ofs + row)))).
    { intros row Hr. destruct (Hrow row Hr) as (Hrw8 & Hcv & Hidx).
      unfold Ps, chunk. rewrite (qcols_col0 F w xs) by assumption.
      rewrite N.lxor_spec. unfold rho. replace (ofs + row - ofs) with row by lia. f_equal.
      destruct (lbit Delta 0); [|rewrite N.bits_0; reflexivity]. rewrite andb_true_l.
      unfold xs, cov.
      replace (row / 8 <? (if tailfix then w else 8 * (w / 8)))
        with (tailfix || ((ofs + row) / 64 <? (n + 7) / 64))
        by (destruct tailfix; [symmetry; apply Nat.ltb_lt; exact Hrw8|symmetry; exact Hcv]).
      destruct (tailfix || _); [|rewrite N.bits_0; reflexivity].
      rewrite cbyte_bit by (apply Nat.mod_upper_bound; discriminate).
      rewrite andb_true_l, Hidx. reflexivity. }
    assert (Hrho : forall i, ofs + rows <= i < n -> rho (ofs + rows) (pos + w) i = rho ofs pos i).
    { intros i Hi. destruct (Hlater i Hi) as [Hd Hm]. unfold rho. rewrite Hm, <- Hd, Nat.add_assoc. reflexivity. }
    clear Hrow Hlater.
    rewrite HR.
    exists (chunk :: us'), Rr', Rs', pos''.
    split; [reflexivity|].
    split.
    { destruct (chunk_div F w (proj1 HU)) as [Hdiv Hmod]. fold chunk in Hdiv, Hmod.
      rewrite <- app_comm_cons. cbn [sendbits_loop]. destruct (Nat.leb_spec n ofs) as [?|_]; [lia|].
      rewrite Hmod, Nat.eqb_refl. cbn [negb]. rewrite Hdiv, Hmin. exact HS. }
    intros i. destruct (Hb i) as [-> ->]. rewrite !set_bits_spec.
    split.
    - apply window_split; [lia|exact HPr|exact Hrho].
    - apply (window_split ofs rows n i _ Ps
               (fun j => xorb (rho (ofs + rows) (pos + w) j) (lbit Delta 0 && cov tailfix n j && N.testbit C (N.of_nat j)))
               (fun j => xorb (rho ofs pos j) (lbit Delta 0 && cov tailfix n j && N.testbit C (N.of_nat j))));
        [lia|exact HPs|].
      intros j Hj. rewrite Hrho by assumption. reflexivity.
  Qed.
End Proofs.

(* what an operation must deliver.  Label form: received_i = sent_i xor
   choice_i*Delta.  Packed-bit form: r_i = s_i xor (choice_i and
   Delta.Bit(0)) at every position i < n the choice reaches the u matrix
   ([cov]: all of them with the tail fix); at the other positions r_i = s_i.
   The result buffers may hold anything when they are cleared first (clr),
   otherwise they must be fresh. *)
Definition op_ok (Delta : N) (tailfix clr : bool) (o : op) (r : opres) : Prop :=
  match o, r with
  | OpLabels b _, ResLabels _ sent rcvd _ _ =>
      length sent = length b /\ length rcvd = length b /\
      forall i, i < length b ->
        nth i rcvd 0%N = N.lxor (nth i sent 0%N) (if nth i b false then Delta else 0%N)
  | OpBits n C Rs0 Rr0, ResBits _ Rs Rr =>
      (clr = true \/ (Rs0 = 0%N /\ Rr0 = 0%N)) ->
      forall i, i < n ->
        N.testbit Rr (N.of_nat i)
        = xorb (N.testbit Rs (N.of_nat i))
               (lbit Delta 0 && cov tailfix n i && N.testbit C (N.of_nat i))
  | _, _ => False
  end.

Lemma bcv_of_length b0 b1 : length (bcv_of b0 b1) = 256.
Proof. unfold bcv_of. rewrite app_length, !map_length, !seq_length. reflexivity. Qed.

Lemma clear_words_bit n R i : i < n -> N.testbit (clear_words n R) (N.of_nat i) = false.
Proof.
  intros H. unfold clear_words. rewrite N.ldiff_spec, N.ones_spec_low by lia.
  apply andb_false_r.
Qed.

Section Sessions.
  Variables g0 g1 : nat -> nat -> N.
  Variable Delta : N.
  Hypothesis HDelta : (Delta < 2 ^ 128)%N.
  Variables tailfix clr : bool.

  Lemma receive_send b p rest :
    exists us rl sl p',
      receive g0 g1 b p = Some (us, rl, p') /\
      length us = (length b + 511) / 512 /\ p' = p + (length b + 7) / 8 /\
      send g0 g1 Delta (us ++ rest) (length b) p = Some (sl, rest, p') /\
      length rl = length b /\ length sl = length b /\
      forall k, k < length b ->
        nth k rl 0%N = N.lxor (nth k sl 0%N) (if nth k b false then Delta else 0%N).
  Proof.
    destruct (labels_loops g0 g1 Delta HDelta b (length b) 0 p rest) as (us & rl & sl & p' & H);
      [left; reflexivity|lia|].
    rewrite Nat.sub_0_r in H. exists us, rl, sl, p'. exact H.
  Qed.

  Lemma run_op_ok o p :
    exists r p', run_op g0 g1 Delta tailfix clr (p, p) o = Some (r, (p', p')) /\ op_ok Delta tailfix clr o r.
  Proof.
    destruct o as [b mal|n C Rs0 Rr0].
    - destruct mal as [[b0 b1]|].
      + destruct (receive_send b p []) as (us & rl & sl & p1 & HR & _).
        destruct (receive_send (bcv_of b0 b1) p1 []) as (us2 & cv & cvs & p2 & HR2 & _ & _ & HS2 & _).
        destruct (receive_send b p us2) as (us' & rl' & sl' & p1' & HR' & _ & _ & HS' & HLr & HLs & Hrel).
        rewrite HR in HR'. inversion HR'; subst us' rl' p1'. clear HR'.
        rewrite app_nil_r, bcv_of_length in HS2.
        exists (ResLabels (us ++ us2) sl' rl cvs cv), p2. split.
        * unfold run_op, Receive, Send. rewrite HR, HR2, HS', HS2. reflexivity.
        * cbn [op_ok]. auto.
      + destruct (receive_send b p []) as (us & rl & sl & p1 & HR & _ & _ & HS & HLr & HLs & Hrel).
        rewrite app_nil_r in HS.
        exists (ResLabels us sl rl [] []), p1. split.
        * unfold run_op, Receive, Send. rewrite HR, HS. reflexivity.
        * cbn [op_ok]. auto.
    - set (Rr1 := if clr then clear_words n Rr0 else Rr0).
      set (Rs1 := if clr then clear_words n Rs0 else Rs0).
      destruct (bits_loops g0 g1 Delta HDelta tailfix C n n 0 p Rr1 Rs1 [])
        as (us & Rr & Rs & p' & HR & HS & Hb); [left; reflexivity|lia|].
      rewrite app_nil_r in HS.
      exists (ResBits us Rs Rr), p'. split.
      + unfold run_op, ReceiveBits, SendBits. fold Rr1 Rs1. rewrite HR, HS. reflexivity.
      + cbn [op_ok]. intros Hfresh i Hi. destruct (Hb i) as [H1 H2]. rewrite H1, H2.
        assert (Hz : N.testbit Rr1 (N.of_nat i) = false /\ N.testbit Rs1 (N.of_nat i) = false).
        { unfold Rr1, Rs1. destruct Hfresh as [->|[-> ->]].
          - split; apply clear_words_bit; assumption.
          - destruct clr; rewrite ?clear_words_bit by assumption; rewrite ?N.bits_0; split; reflexivity. }
        destruct Hz as [-> ->]. cbn [orb].
        destruct (Nat.leb_spec 0 i); [|lia]. destruct (Nat.ltb_spec i n); [|lia]. cbn [andb].
        destruct (rho g0 0 p i), (lbit Delta 0 && cov tailfix n i && N.testbit C (N.of_nat i)); reflexivity.
  Qed.

  Corollary run_op_labels flags mal p :
    exists us sent rcvd cvs cvr p',
      run_op g0 g1 Delta tailfix clr (p, p) (OpLabels flags mal) = Some (ResLabels us sent rcvd cvs cvr, (p', p')) /\
      length sent = length flags /\ length rcvd = length flags /\
      forall i, i < length flags ->
        nth i rcvd 0%N = N.lxor (nth i sent 0%N) (if nth i flags false then Delta else 0%N).
  Proof.
    destruct (run_op_ok (OpLabels flags mal) p) as ([us sent rcvd cvs cvr|] & p' & Hrun & Hok); [|contradiction].
    exists us, sent, rcvd, cvs, cvr, p'. exact (conj Hrun Hok).
  Qed.

  (* any sequence of operations: both parties stay in lock step (equal
     stream offsets, every chunk consumed) and every operation delivers *)
  Theorem run_ops_ok ops : forall p,
    exists rs p', run_ops g0 g1 Delta tailfix clr (p, p) ops = Some (rs, (p', p'))
                  /\ Forall2 (op_ok Delta tailfix clr) ops rs.
  Proof.
    induction ops as [|o ops IH]; intros p.
    - exists [], p. split; [reflexivity|constructor].
    - destruct (run_op_ok o p) as (r & p1 & Hr & Hok).
      destruct (IH p1) as (rs & p2 & Hrs & Hoks).
      exists (r :: rs), p2. split.
      + cbn [run_ops]. rewrite Hr, Hrs. reflexivity.
      + constructor; assumption.
  Qed.

  Corollary run_ops_impl (Q : op -> opres -> Prop) ops p :
    (forall o r, op_ok Delta tailfix clr o r -> Q o r) ->
    exists rs p', run_ops g0 g1 Delta tailfix clr (p, p) ops = Some (rs, (p', p')) /\ Forall2 Q ops rs.
  Proof.
    intros HQ. destruct (run_ops_ok ops p) as (rs & p' & H & Hok).
    exists rs, p'. split; [exact H|]. clear H.
    induction Hok; constructor; auto.
  Qed.
End Sessions.

(* the label form does not depend on tailfix / clr *)
Theorem iknp_labels g0 g1 Delta tailfix clr ops p :
  (Delta < 2 ^ 128)%N ->
  exists rs p', run_ops g0 g1 Delta tailfix clr (p, p) ops = Some (rs, (p', p')) /\
    Forall2 (fun o r => match o, r with
                        | OpLabels b _, ResLabels _ sent rcvd _ _ =>
                            length sent = length b /\ length rcvd = length b /\
                            forall i, i < length b ->
                              nth i rcvd 0%N = N.lxor (nth i sent 0%N) (if nth i b false then Delta else 0%N)
                        | OpLabels _ _, ResBits _ _ _ => False
                        | OpBits _ _ _ _, _ => True
                        end) ops rs.
Proof.
  intros HD. apply run_ops_impl; [exact HD|].
  intros [b mal|n C Rs0 Rr0] [us sent rcvd cvs cvr|us Rs Rr]; cbn [op_ok]; auto.
Qed.

Theorem iknp_lockstep g0 g1 Delta tailfix clr ops p :
  (Delta < 2 ^ 128)%N ->
  exists rs p', run_ops g0 g1 Delta tailfix clr (p, p) ops = Some (rs, (p', p')).
Proof.
  intros HD. destruct (run_ops_ok g0 g1 Delta HD tailfix clr ops p) as (rs & p' & H & _). eauto.
Qed.

Lemma cov_full tailfix n i : (tailfix = true \/ n mod 64 = 0) -> i < n -> cov tailfix n i = true.
Proof.
  intros [->|H] Hi; unfold cov; [reflexivity|].
  rewrite orb_true_iff. right. apply Nat.ltb_lt. lia.
Qed.

(* packed-bit form with the tail fix (commit eae031e) and clear(result)
   (commit 7d31e72): every count n, whatever the result buffers held before *)
Theorem iknp_bits g0 g1 Delta ops p :
  (Delta < 2 ^ 128)%N ->
  exists rs p', run_ops g0 g1 Delta true true (p, p) ops = Some (rs, (p', p')) /\
    Forall2 (fun o r => match o, r with
                        | OpBits n C _ _, ResBits _ Rs Rr =>
                            forall i, i < n ->
                              N.testbit Rr (N.of_nat i)
                              = xorb (N.testbit Rs (N.of_nat i)) (lbit Delta 0 && N.testbit C (N.of_nat i))
                        | OpBits _ _ _ _, ResLabels _ _ _ _ _ => False
                        | OpLabels _ _, _ => True
                        end) ops rs.
Proof.
  intros HD. apply run_ops_impl; [exact HD|].
  intros [b mal|n C Rs0 Rr0] [us sent rcvd cvs cvr|us Rs Rr]; cbn [op_ok]; auto.
  intros Ho i Hi. rewrite (Ho (or_introl eq_refl) i Hi), cov_full, andb_true_r by auto. reflexivity.
Qed.

(* tailfix / clr = false is the code before commits eae031e / 7d31e72, kept as
   a regression record (finding F4).  For either version choice bit i reaches
   the u matrix iff tailfix or i/64 < (n+7)/64. *)
Theorem iknp_bits_exact g0 g1 Delta tailfix clr ops p :
  (Delta < 2 ^ 128)%N ->
  exists rs p', run_ops g0 g1 Delta tailfix clr (p, p) ops = Some (rs, (p', p')) /\
    Forall2 (fun o r => match o, r with
                        | OpBits n C Rs0 Rr0, ResBits _ Rs Rr =>
                            (clr = true \/ (Rs0 = 0%N /\ Rr0 = 0%N)) -> forall i, i < n ->
                              N.testbit Rr (N.of_nat i)
                              = xorb (N.testbit Rs (N.of_nat i))
                                  (lbit Delta 0 && (tailfix || (i / 64 <? (n + 7) / 64)) && N.testbit C (N.of_nat i))
                        | OpBits _ _ _ _, ResLabels _ _ _ _ _ => False
                        | OpLabels _ _, _ => True
                        end) ops rs.
Proof.
  intros HD. apply run_ops_impl; [exact HD|].
  intros [b mal|n C Rs0 Rr0] [us sent rcvd cvs cvr|us Rs Rr]; cbn [op_ok]; auto.
Qed.

(* the code before the two commits is right for counts that are multiples of
   64, on fresh buffers *)
Theorem iknp_bits_prefix_partial g0 g1 Delta ops p :
  (Delta < 2 ^ 128)%N ->
  exists rs p', run_ops g0 g1 Delta false false (p, p) ops = Some (rs, (p', p')) /\
    Forall2 (fun o r => match o, r with
                        | OpBits n C Rs0 Rr0, ResBits _ Rs Rr =>
                            n mod 64 = 0 -> Rs0 = 0%N -> Rr0 = 0%N -> forall i, i < n ->
                              N.testbit Rr (N.of_nat i)
                              = xorb (N.testbit Rs (N.of_nat i)) (lbit Delta 0 && N.testbit C (N.of_nat i))
                        | OpBits _ _ _ _, ResLabels _ _ _ _ _ => False
                        | OpLabels _ _, _ => True
                        end) ops rs.
Proof.
  intros HD. apply run_ops_impl; [exact HD|].
  intros [b mal|n C Rs0 Rr0] [us sent rcvd cvs cvr|us Rs Rr]; cbn [op_ok]; auto.
  intros Ho Hc H1 H2 i Hi. rewrite (Ho (or_intror (conj H1 H2)) i Hi).
  rewrite cov_full by auto. rewrite andb_true_r. reflexivity.
Qed.

(* F4: the packed-bit statement fails for the code before eae031e: all-zero
   PRG streams, Delta.Bit(0) only, n = 65, all-ones choices; position 64 is
   delivered wrongly *)
Definition refute_g (_ _ : nat) : N := 0%N.
Definition refute_Delta : N := N.shiftl 1 64.
Definition refute_n : nat := 65.
Definition refute_C : N := N.ones 65.

Theorem iknp_bits_prefix_refuted :
  (refute_Delta < 2 ^ 128)%N /\
  exists us Rs Rr p',
    run_ops refute_g refute_g refute_Delta false false (0, 0) [OpBits refute_n refute_C 0 0]
    = Some ([ResBits us Rs Rr], p') /\
    exists i, i < refute_n /\
      N.testbit Rr (N.of_nat i)
      <> xorb (N.testbit Rs (N.of_nat i)) (lbit refute_Delta 0 && N.testbit refute_C (N.of_nat i)).
Proof.
  split; [reflexivity|].
  destruct (run_op_ok refute_g refute_g refute_Delta eq_refl false false (OpBits refute_n refute_C 0 0) 0)
    as ([|us Rs Rr] & p' & Hrun & Hok); [contradiction|].
  exists us, Rs, Rr, (p', p'). split; [cbn [run_ops]; rewrite Hrun; reflexivity|].
  exists 64. split; [unfold refute_n; lia|].
  (* position 64 lies in the ninth choice byte, which the u matrix does not receive: cov = false *)
  rewrite (Hok (or_intror (conj eq_refl eq_refl)) 64) by (unfold refute_n; lia).
  change (cov false refute_n 64) with false. change (lbit refute_Delta 0) with true.
  change (N.testbit refute_C (N.of_nat 64)) with true.
  destruct (N.testbit Rs (N.of_nat 64)); discriminate.
Qed.

(* F4b: without clear(result) a dirty receiver buffer breaks the relation
   (n = 64, zero streams, zero choices, receiver buffer holding a stale 1) *)
Example iknp_bits_prefix_dirty_refuted :
  match run_ops refute_g refute_g refute_Delta true false (0, 0) [OpBits 64 0 0 1] with
  | Some ([ResBits _ Rs Rr], _) => N.testbit Rr 0 = true /\ N.testbit Rs 0 = false
  | _ => False
  end.
Proof. vm_compute. split; reflexivity. Qed.

(* non-vacuity: the inputs of both refutations are delivered correctly by the code with both fixes *)
Example iknp_bits_now_example :
  match run_ops refute_g refute_g refute_Delta true true (0, 0)
                [OpBits refute_n refute_C 0 0; OpBits 64 0 0 1] with
  | Some ([ResBits _ Rs Rr; ResBits _ Rs2 Rr2], _) =>
      forallb (fun i => Bool.eqb (N.testbit Rr (N.of_nat i))
                          (xorb (N.testbit Rs (N.of_nat i)) (lbit refute_Delta 0 && N.testbit refute_C (N.of_nat i))))
              (seq 0 refute_n)
      && N.eqb Rr2 Rs2
  | _ => false
  end = true.
Proof. vm_compute. reflexivity. Qed.

(* non-vacuity of the label statement: a concrete two-chunk session *)
Example iknp_labels_example :
  match run_ops (fun i p => N.of_nat ((i * 7 + p * 13) mod 256)) (fun i p => N.of_nat ((i * 11 + p * 5 + 3) mod 256))
                (N.ones 128) true true (0, 0) [OpLabels (map (fun i => Nat.odd i) (seq 0 515)) None] with
  | Some ([ResLabels us sent rcvd _ _], (p1, p2)) =>
      (length us =? 2) && (p1 =? 65) && (p2 =? 65) &&
      forallb (fun i => N.eqb (nth i rcvd 0%N) (N.lxor (nth i sent 0%N) (if Nat.odd i then N.ones 128 else 0%N))) (seq 0 515)
  | _ => false
  end = true.
Proof.
  set (g0 := fun i p => N.of_nat ((i * 7 + p * 13) mod 256)).
  set (g1 := fun i p => N.of_nat ((i * 11 + p * 5 + 3) mod 256)).
  set (b := map (fun i => Nat.odd i) (seq 0 515)).
  assert (Hlen : length b = 515) by (unfold b; rewrite map_length, seq_length; reflexivity).
  destruct (receive_send g0 g1 (N.ones 128) eq_refl b 0 [])
    as (us & rl & sl & p' & HR & Hus & Hp & HS & _ & _ & Hrel).
  rewrite app_nil_r in HS. rewrite Hlen in Hus, Hp, Hrel.
  cbn [run_ops run_op]. unfold Receive, Send. rewrite HR, HS. cbv beta iota.
  rewrite Hus, Hp. change (((515 + 511) / 512 =? 2) && (0 + (515 + 7) / 8 =? 65)) with true. cbn [andb].
  apply forallb_forall. intros i Hi. apply in_seq in Hi. apply N.eqb_eq.
  rewrite Hrel by lia. unfold b. rewrite nth_map_seq by lia. reflexivity.
Qed.
