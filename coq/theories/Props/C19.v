(* Props/C19.v — property C19: the peer-to-peer mesh always forms completely
   and consistently.  Model: Proto/Mesh.v (threads = main + accept goroutine
   per party, one atomic step per lock-delimited region of p2p/network.go,
   schedule = list of thread ids).  [true] = the code as it is now (acceptConn
   stores the connection and decrements need[c] in ONE critical section, /repo
   commit 753a572); [false] = the acceptConn before that commit, kept as a
   regression record of finding F11 (notes/C19-findings.md). *)
From Coq Require Import NArith Arith List Bool.
From Mpc Require Import Proto.Mesh Proto.MeshProof Proto.MeshFixedProof Proto.MeshLive.
From Mpc Require Proto.MeshWire Proto.MeshWireProof.
Import ListNotations.
From Mpc Require Gen.State Base.StateExpected Base.StateCheck Base.StatePkgs.

(* REGRESSION RECORD (finding F11, fixed in /repo by commit 753a572): with the
   old three-step acceptConn the property is REFUTED.  There are a number of
   parties (2), a number of connections (1) and a FAIR schedule (it can be
   cut into more rounds, each scheduling every thread, than the run has
   steps) on which mesh formation does not complete: the leader's Connect
   returns with the peer table [0] because need[0] reached 0 before addPeer
   ran, the network info is sent to nobody, and party 1 waits for it for
   ever — whatever is appended to the schedule.  It was replayed on the real
   code of that time through the verifYield hook; the same hook-driven
   schedules now pass (harness c19, freeze cases). *)
Theorem C19_old_acceptConn_refuted :
  exists n k sched,
    n = 2 /\ k = 1 /\ fair n k sched /\
    (exists st, run_mesh false n k sched = Stuck st) /\
    (forall ext, exists st, run_mesh false n k (sched ++ ext) = Stuck st /\
                            p_main (g_party st 1) = MRecvInfo /\
                            (exists t, p_ret (g_party st 0) = Some ([0], t))).
Proof. exact complete_refuted. Qed.
Print Assumptions C19_old_acceptConn_refuted.

(* C19_complete.  The code as it is now: for every number of parties n >= 2,
   every number of connections 1 <= k <= 256 and EVERY FAIR schedule (one that
   can be cut into at least round_bound n k consecutive segments each of which
   schedules every one of the 2n threads at least once; round_bound exceeds the
   number of non-stuttering steps any run can make) the run ends in the final
   state: every Connect has returned nil, every accept thread is idle with an
   empty backlog, every party's table — now and at the moment its Connect
   returned — has Peers = 0..n-1 with all k connections stored, and for every
   pair i, j and every c the c-th connection to j at i is the very link that
   is the c-th connection to i at j ([complete], i.e. run_mesh = Final).
   Proof: a global invariant (MeshFixedProof.v), deadlock freedom (in a reachable
   state in which no thread is enabled the mesh is complete) and a measure
   (3 x program-counter rank + 2 x backlog length + accept-thread bit, summed
   over the parties) that every non-stuttering step strictly decreases
   (MeshLive.v).
   THREAD CREATION ORDER: in Proto/Mesh.v the accept thread of a joining party
   is created by the step MRecvInfo — the step that processes the leader's peer
   list and sets need[] (connectPeerToLeader), i.e. AFTER the sync with the
   leader; before that step connections dialled to the party wait in its
   listener backlog.  C19_complete is proved for THAT order: an accept loop
   started before need[] is set would meet need[c] = 0 ("too many connections")
   and is not the model.  Harness c19 freezes the statement order (go nw.accept
   after connectPeerToLeader in connectPeer; key
   c19:thread-creation-order:unmodelled:...) and runs slow-leader-link scenarios
   (one party's data from the leader delayed by 100..400 ms).
   USABLE FROM THE MOMENT CONNECT RETURNS: the theorem speaks about the tables.
   That the byte stream of a link is continuous across the handshake — the
   accepting side consumes exactly the hello and loses no byte the dialler
   queued behind it (no read-ahead into a discarded buffer) — is NOT part of
   the model (a link carries one hello and the leader's info, nothing else); it
   is tied by harness c19: in every scenario each party sends a tagged message
   on every connection immediately after its own Connect returns, and it must
   be the first thing the other end receives on the matching (peer, index)
   (key c19:early-data-lost:party<i>-><j>:conn<k>).
   TIME IS NOT MODELLED: a schedule is just an interleaving, so the theorem
   holds whatever real-time delay lies between two steps — in particular
   between a party's Join and its Connect, between an accept and the arrival of
   the hello, between any two parties' starts ("every order and timing in which
   the parties start").  Conversely, any real-time bound in the implementation
   that can fire between two steps of a fair schedule (a read deadline on an
   accepted connection, a dial or hello timeout, a context deadline) is
   behaviour OUTSIDE this model: an implementation with such a timer on the
   mesh-formation path does NOT refine the model and the theorem says nothing
   about it.  The tie therefore includes (harness c19) late-start scenarios
   (one party calls Connect 1.2 .. 6 s after the others) and a source inventory
   of every timer / deadline / use of package time or context in p2p/network.go
   and p2p/peer.go, which must equal the list the model was written against
   (today: empty); key c19:timing-inventory:unmodelled:<site>. *)
Theorem C19_complete :
  forall n k, 2 <= n -> 1 <= k -> k <= 256 ->
  forall sched, fair n k sched ->
    run_mesh true n k sched = Final (run_from true n k (init n) sched).
Proof. exact mesh_complete. Qed.
Print Assumptions C19_complete.

(* Safety half, for ALL schedules (fair or not) and all prefixes: if party
   i's Connect has returned nil, the peer table the caller saw at that moment,
   and the table now, are complete. *)
Theorem C19_complete_at_return :
  forall n k, 2 <= n -> 1 <= k -> k <= 256 ->
  forall (sched : list nat) (i : nat), i < n ->
    let st := run_from true n k (init n) sched in
    p_main (g_party st i) = MDone ->
    (exists ps t, p_ret (g_party st i) = Some (ps, t) /\ tab_complete n k i ps t = true) /\
    tab_complete n k i (p_peers (g_party st i)) (p_conns (g_party st i)) = true.
Proof. exact fixed_return_complete. Qed.
Print Assumptions C19_complete_at_return.

(* The invariant whose failure was F11, proved for the code as it is now for
   all n, k, schedules: while the accept goroutine of party i runs, need[c] = 0
   implies that every party whose connection c party i accepts (everybody for
   the leader, 1..i-1 for party i) is in Peers with Conns[c] stored. *)
Theorem C19_need_zero_means_stored :
  forall n k, 2 <= n -> 1 <= k -> k <= 256 ->
  forall (sched : list nat) (i c : nat), i < n -> c < k ->
    let st := run_from true n k (init n) sched in
    running (p_acc (g_party st i)) -> p_need (g_party st i) c = 0 ->
    forall j, In j (aside n i) ->
      In j (p_peers (g_party st i)) /\ exists l, p_conns (g_party st i) j c = Some l.
Proof. exact fixed_need_zero_stored. Qed.
Print Assumptions C19_need_zero_means_stored.

(* C19_no_dup_cross.  For all n >= 2, 1 <= k <= 256, ALL schedules and all
   prefixes: (1) no error state is ever reached — no Connect fails and no accept
   thread dies; in particular Peer.SetConn never finds a slot already set (no
   (i,j,c) is written twice: a second write is an error in the model) and
   acceptConn never reports "too many connections"; (2) whenever both ends of a
   pair have stored their c-th connection, it is the SAME link, and a link
   stored at both ends is stored under the same index (the connection id
   carried in the hello on the accepting side = the dial index on the dialling
   side).  (3) below: every stored connection joins the right two parties. *)
(* "Data sent on the k-th connection arrives there; nothing lost, duplicated": the mesh model
   ends when Connect returns; what travels on an established link afterwards is the byte
   stream of one p2p.Conn pair, and that part of the statement is discharged by COMPOSING the
   theorems here (the k-th connection at one end is the very link that is the k-th at the
   other end: C19_complete, C19_no_dup_cross) with C11 (C11_roundtrip: over any fragmentation
   of the transport, the values received on a Conn are the values sent, in order).  The
   composition is tied to the real sockets by harness c19: after the mesh has formed, some
   scenarios of every run stream a few hundred thousand tagged, numbered records (Uint32 and
   Label mix) over every connection in both directions with the receivers starting late, and
   check order and content end to end (key c19:post-connect-stream:<i><->j#k:...). *)
Theorem C19_no_dup_cross :
  forall n k, 2 <= n -> 1 <= k -> k <= 256 ->
  forall sched, let st := run_from true n k (init n) sched in
    (forall i, i < n ->
       (forall code, p_main (g_party st i) <> MErr code) /\
       (forall code, p_acc (g_party st i) <> ADead code) /\ p_ldone (g_party st i) = false) /\
    (forall i j c c' l l', i < n -> j < n -> i <> j ->
       p_conns (g_party st i) j c = Some l -> p_conns (g_party st j) i c' = Some l' ->
       (c = c' -> l = l') /\ (l = l' -> c = c')).
Proof. exact mesh_no_dup_cross. Qed.
Print Assumptions C19_no_dup_cross.

(* (3) whatever is stored as Conns[c] of peer j in party i's table is a link
   whose two ends are exactly i and j *)
Theorem C19_no_cross_party :
  forall n k, 2 <= n -> 1 <= k -> k <= 256 ->
  forall (sched : list nat) (i j c l : nat), i < n ->
    let st := run_from true n k (init n) sched in
    p_conns (g_party st i) j c = Some l ->
    l < g_nlinks st /\
    ((l_from (g_link st l) = i /\ l_to (g_link st l) = j) \/
     (l_from (g_link st l) = j /\ l_to (g_link st l) = i)).
Proof. exact fixed_conn_endpoints. Qed.
Print Assumptions C19_no_cross_party.

(* STATE INVENTORY (finite obligation on the model regenerated from the source, checked by
   computation).  The struct fields and package-level variables of the Go packages this
   property is anchored in — p2p — as emitted from /repo's current
   source by harness/gen_state.go (Gen/State.v) are exactly those the models above were written
   against (Base/StateExpected.v).  A new field or variable (a cache, a memo, a pool, a counter,
   a changed field type) is state the models do not have: this obligation then breaks and the
   property is no longer shown to hold until the change has been reviewed against the model. *)
Theorem C19_state_inventory :
  Mpc.Base.StateCheck.state_unchanged Mpc.Gen.State.state_inventory Mpc.Base.StateExpected.expected_state
    Mpc.Base.StatePkgs.pkgs_C19 = true.
Proof. vm_compute. reflexivity. Qed.
Print Assumptions C19_state_inventory.

(* ---- the wire side of mesh formation (Proto/MeshWire.v: hello format of
   dial / connectPeerToLeader / acceptConn, dial rule of Join / connectPeer) ---- *)

(* For EVERY number of connections k <= 256, every connection id c < k, every
   party id and every address (both below 2^32 in value resp. length) and every
   byte string that follows: acceptConn's parse of the bytes dial writes
   (magic = connMagic | (c & 0xff), id, address) yields exactly (c, id, address)
   and leaves exactly the bytes that follow. *)
Theorem C19_hello_roundtrip : forall k c id addr rest,
  c < k -> k <= 256 -> (N.of_nat id < 4294967296)%N -> (N.of_nat (length addr) < 4294967296)%N ->
  MeshWire.dec_hello k (MeshWire.enc_hello c id addr ++ rest) = MeshWire.HOk c id addr rest.
Proof. exact MeshWireProof.hello_roundtrip. Qed.
Print Assumptions C19_hello_roundtrip.

(* For EVERY byte string whatsoever: if acceptConn's parse accepts it as
   (c, id, addr) then c < numConns, the first word has connMagic in its upper 24
   bits and c is its low byte. *)
Theorem C19_hello_accept_sound : forall k bs c id addr rest,
  MeshWire.dec_hello k bs = MeshWire.HOk c id addr rest ->
  c < k /\ exists magic r1, MeshWire.rd32 bs = Some (magic, r1) /\
                            N.land magic MeshWire.connMagicMask = MeshWire.connMagic /\
                            c = N.to_nat (magic mod 256)%N.
Proof. exact MeshWireProof.hello_accept_sound. Qed.
Print Assumptions C19_hello_accept_sound.

(* For every first word m whose upper 24 bits are not connMagic (as sent:
   reduced to 32 bits), every id, address and trailing bytes: never accepted. *)
Theorem C19_hello_wrong_magic_rejected : forall k m id addr rest c i a r,
  N.land (m mod 4294967296)%N MeshWire.connMagicMask <> MeshWire.connMagic ->
  MeshWire.dec_hello k (MeshWire.be32 m ++ MeshWire.be32 id ++ MeshWire.enc_str addr ++ rest)
  <> MeshWire.HOk c i a r.
Proof. exact MeshWireProof.hello_wrong_magic_rejected. Qed.
Print Assumptions C19_hello_wrong_magic_rejected.

(* For every numConns k and every connection id k <= c < 256: the hello dial
   would write for c is rejected as "invalid connection ID c from peer id". *)
Theorem C19_hello_bad_connid_rejected : forall k c id addr rest,
  k <= c -> c < 256 -> (N.of_nat id < 4294967296)%N -> (N.of_nat (length addr) < 4294967296)%N ->
  MeshWire.dec_hello k (MeshWire.enc_hello c id addr ++ rest) = MeshWire.HBadConnID c id.
Proof. exact MeshWireProof.hello_bad_connid. Qed.
Print Assumptions C19_hello_bad_connid_rejected.

(* For EVERY number of parties n, every two different parties i, j < n and every
   connection id c: exactly one of them dials the other (p2p.Join's dial of the
   leader = connection 0, connectPeer's loop otherwise); no party dials the same
   (peer, c) twice. *)
Theorem C19_dial_exactly_one : forall n i j c, i < n -> j < n -> i <> j ->
  (In j (MeshWire.all_dials n i c) <-> ~ In i (MeshWire.all_dials n j c)).
Proof. exact MeshWireProof.dial_exactly_one. Qed.
Print Assumptions C19_dial_exactly_one.

Theorem C19_dial_nodup : forall n i c, NoDup (MeshWire.all_dials n i c).
Proof. exact MeshWireProof.all_dials_nodup. Qed.
Print Assumptions C19_dial_nodup.

(* For every n, every party j < n and every connection id c: the parties that
   dial j for c are exactly in_dialers n j (1..n-1 for the leader, 1..j-1
   otherwise), without repetition, and their number is the value need[c] is
   initialised to (Connect: NumParties - 1; connectPeerToLeader: numAccept). *)
Theorem C19_in_dialers_spec : forall n j i c, j < n ->
  (In i (MeshWire.in_dialers n j) <-> i < n /\ In j (MeshWire.all_dials n i c)).
Proof. exact MeshWireProof.in_dialers_spec. Qed.
Print Assumptions C19_in_dialers_spec.

Theorem C19_need_counts_inbound : forall n j, j < n ->
  MeshWire.need_init n j = length (MeshWire.in_dialers n j) /\ NoDup (MeshWire.in_dialers n j).
Proof. exact MeshWireProof.need_counts_inbound. Qed.
Print Assumptions C19_need_counts_inbound.
