(* Props/C15.v — property C15: malicious-mode OT extension detects a deviating
   receiver.  Only statements closed by [exact], each followed by Print
   Assumptions.

   Setting common to the protocol theorems: arbitrary PRG byte streams g0 g1
   (column -> byte index -> byte), an arbitrary chi function of the seed
   chi_of, arbitrary choices bl (hence every batch size, chunk count and
   n mod 8), arbitrary receiver randomness b0 b1 seed, arbitrary stream
   position pos, every 128-bit Delta.  [receiver_run] is IKNPReceiver.Receive
   (b, result, true): it yields the message sequence tr, the receiver's labels
   res and the new stream position; [sender_run] is IKNPSender.Send(n, true) on
   a (possibly rewritten) message sequence with the sender's streams
   (column j: g1 j if Delta_j else g0 j).

   Scope.  The theorems are about the IKNP/KOS core (IKNPReceiver.Receive /
   IKNPSender.Send with malicious = true).  The exported wrappers that offer
   malicious mode - ot.COT and ot.ROT (NewCOT / NewROT with malicious = true;
   vole and gmw call IKNP only with malicious = false or through the bit form,
   which has no check) - are thin: X.Send = IKNPSender.Send(n, true) followed by
   the hashed pads.  They are not modelled; harness/c15wrap.go ties their ERROR
   PROPAGATION to the core on every run: each deviation of the catalogue that
   the direct IKNPSender.Send rejects must make COT.Send / ROT.Send return a
   non-nil error with nothing sent and no wire set, each accepted one must not
   fail, honest wrapper runs must transfer the chosen labels; plus a static
   inventory of deferred closures in ot/*.go that overwrite a named result.
   Build environments: mul128 is the amd64 assembly or mul128Generic (no other
   implementation, no purego tag); C15_clmul_generic is about the model with
   unbounded naturals, the harness ties BOTH dispatches - amd64 and a
   GOARCH=386 child (32-bit uint) built and run on every check - to clmul. *)
From Coq Require Import ZArith NArith List Bool.
From Mpc Require Import OT.Gf128 OT.Gf128Proof OT.Kos OT.KosProof OT.ChiStream OT.ChiStreamProof OT.RunC15 Gen.Consts.
Import ListNotations.
From Mpc Require Gen.State Base.StateExpected Base.StateCheck Base.StatePkgs.
Local Open Scope nat_scope.

(* For all 128-bit operands: the Go limb decomposition mul128Generic (four
   64x64 shift-and-xor products recombined) computes the (lo, hi) halves of the
   polynomial product over GF(2). *)
Theorem C15_clmul_generic :
  forall a b, (a < 2^128)%N -> (b < 2^128)%N -> mul128_generic a b = split128 (clmul a b).
Proof. exact clmul_generic. Qed.
Print Assumptions C15_clmul_generic.

(* likewise the bit-by-bit reference mul128Ref the Go tests compare against *)
Theorem C15_clmul_ref :
  forall a b, (a < 2^128)%N -> (b < 2^128)%N -> mul128_ref a b = split128 (clmul a b).
Proof. exact mul128_ref_spec. Qed.
Print Assumptions C15_clmul_ref.

(* clmul is bilinear over xor (all naturals, unbounded) *)
Theorem C15_clmul_bilinear :
  forall a b c, clmul (N.lxor a b) c = N.lxor (clmul a c) (clmul b c) /\
                clmul a (N.lxor b c) = N.lxor (clmul a b) (clmul a c).
Proof. intros a b c. exact (conj (clmul_lxor_l a b c) (clmul_lxor_r a b c)). Qed.
Print Assumptions C15_clmul_bilinear.

(* the unreduced product has no zero divisors (all naturals): this is what
   makes a single inconsistent row always detectable *)
Theorem C15_clmul_integral : forall a b, clmul a b = 0%N -> a = 0%N \/ b = 0%N.
Proof. exact clmul_eq_0. Qed.
Print Assumptions C15_clmul_integral.

(* (1) Every honest malicious-mode run is accepted and the sender's outputs
   satisfy t_i = q_i xor b_i*Delta for the receiver's choices. *)
Theorem C15_honest_accepts :
  forall g0 g1 chi_of bl b0 b1 seed pos delta tr res pos',
    (delta < 2^128)%N ->
    receiver_run g0 g1 chi_of bl b0 b1 seed pos = (tr, res, pos') ->
    exists out,
      sender_run (sender_streams g0 g1 delta) delta chi_of tr (length bl) pos = Accept out /\
      corr_holds delta out res bl = true.
Proof. intros. eapply honest_accepts; eassumption. Qed.
Print Assumptions C15_honest_accepts.

(* (2) Exact acceptance condition.  The adversary xors an ARBITRARY error
   matrix into the transmitted u (E0 on the payload batch incl. padding rows,
   E1 on the 256-row check batch) and replaces seed, x, t0, t1 by ARBITRARY
   values.  With trh the honest response for the seed the sender received, the
   sender accepts iff the error syndrome  sum_i chi_i * (e_i & Delta)  equals
   (x' xor x_h) * Delta  xor  (t' xor t_h)   as 256-bit polynomials — and then
   outputs the rows t_i xor b_i*Delta xor (e_i & Delta).
   (t0' < 2^128 only says the received t0 is a label.) *)
Theorem C15_accept_iff :
  forall g0 g1 chi_of bl b0 b1 pos delta, (delta < 2^128)%N ->
  forall seed tr res pos' E0 E1 seed' x' t0' t1' trh resh posh out,
    receiver_run g0 g1 chi_of bl b0 b1 seed pos = (tr, res, pos') ->
    receiver_run g0 g1 chi_of bl b0 b1 seed' pos = (trh, resh, posh) ->
    (t0' < 2^128)%N ->
    (sender_run (sender_streams g0 g1 delta) delta chi_of (tamper E0 E1 seed' x' t0' t1' tr) (length bl) pos = Accept out
     <->
     out = map (qrow delta (t_ g0 pos) (b_ bl) (err_row E0)) (seq 0 (length bl)) /\
     syndrome2 (prg_label chi_of seed') delta E0 E1 (length bl)
     = N.lxor (clmul (N.lxor x' (tr_x trh)) delta)
              (N.lxor (join128 (t0', t1')) (join128 (tr_t0 trh, tr_t1 trh)))).
Proof. intros. eapply accept_iff; eassumption. Qed.
Print Assumptions C15_accept_iff.

(* (2') Soundness in the form of the property: if the sender accepts a
   rewritten message sequence, then either its outputs still satisfy the
   correlation for the receiver's ORIGINAL choices, or the forge event holds:
   some payload row is inconsistent and yet the linear relation above holds
   among the chi coefficients. *)
Theorem C15_tamper_sound :
  forall g0 g1 chi_of bl b0 b1 seed pos delta, (delta < 2^128)%N ->
  forall tr res pos', receiver_run g0 g1 chi_of bl b0 b1 seed pos = (tr, res, pos') ->
  forall E0 E1 seed' x' t0' t1' trh resh posh out,
    receiver_run g0 g1 chi_of bl b0 b1 seed' pos = (trh, resh, posh) ->
    sender_run (sender_streams g0 g1 delta) delta chi_of (tamper E0 E1 seed' x' t0' t1' tr) (length bl) pos = Accept out ->
    corr_holds delta out res bl = true \/
    forge_event (prg_label chi_of seed') delta E0 E1 (length bl)
                (N.lxor x' (tr_x trh))
                (N.lxor (join128 (t0', t1')) (join128 (tr_t0 trh, tr_t1 trh))).
Proof. exact tamper_sound. Qed.
Print Assumptions C15_tamper_sound.

(* (3) Any set of bit errors confined to columns j with Delta_j = 0 (any rows,
   both batches): the sender's result is identical to the untampered run's —
   accepted, same outputs, correlation intact. *)
Theorem C15_unselected_column_harmless :
  forall g0 g1 chi_of bl b0 b1 seed pos delta, (delta < 2^128)%N ->
  forall tr res pos', receiver_run g0 g1 chi_of bl b0 b1 seed pos = (tr, res, pos') ->
  forall E0 E1,
    (forall j i, j < K -> E0 j i = true -> N.testbit delta (N.of_nat j) = false) ->
    (forall j i, j < K -> E1 j i = true -> N.testbit delta (N.of_nat j) = false) ->
    sender_run (sender_streams g0 g1 delta) delta chi_of (tamper_bits E0 E1 tr) (length bl) pos
    = sender_run (sender_streams g0 g1 delta) delta chi_of tr (length bl) pos /\
    exists out,
      sender_run (sender_streams g0 g1 delta) delta chi_of (tamper_bits E0 E1 tr) (length bl) pos = Accept out /\
      corr_holds delta out res bl = true.
Proof. exact unselected_column_harmless. Qed.
Print Assumptions C15_unselected_column_harmless.

(* (4) A single flipped bit at (column j0, payload row i0) with Delta_j0 = 1
   and chi_i0 <> 0 is rejected ("OT extension check failed"). *)
Theorem C15_selected_column_detected :
  forall g0 g1 chi_of bl b0 b1 seed pos delta, (delta < 2^128)%N ->
  forall tr res pos', receiver_run g0 g1 chi_of bl b0 b1 seed pos = (tr, res, pos') ->
  forall j0 i0,
    j0 < K -> i0 < length bl -> N.testbit delta (N.of_nat j0) = true ->
    prg_label chi_of seed i0 <> 0%N ->
    sender_run (sender_streams g0 g1 delta) delta chi_of (tamper_bits (flip1 j0 i0) noerr tr) (length bl) pos = Reject.
Proof. exact single_flip_detected. Qed.
Print Assumptions C15_selected_column_detected.

(* (4') multi-flip, one row: ANY set of flips inside one payload row i0 whose
   restriction to the selected columns is non-empty is rejected when chi_i0 <> 0
   (no zero divisors). *)

(* (4'') ... and the same for a row of the 256-row check batch *)
Theorem C15_selected_row_detected :
  forall g0 g1 chi_of bl b0 b1 seed pos delta, (delta < 2^128)%N ->
  forall tr res pos', receiver_run g0 g1 chi_of bl b0 b1 seed pos = (tr, res, pos') ->
  (forall E0 i0,
    i0 < length bl -> (forall j i, E0 j i = true -> i = i0) ->
    N.land (err_row E0 i0) delta <> 0%N -> prg_label chi_of seed i0 <> 0%N ->
    sender_run (sender_streams g0 g1 delta) delta chi_of (tamper_bits E0 noerr tr) (length bl) pos = Reject) /\
  (forall E1 i0,
    i0 < checkRows -> (forall j i, E1 j i = true -> i = i0) ->
    N.land (err_row E1 i0) delta <> 0%N -> prg_label chi_of seed (length bl + i0) <> 0%N ->
    sender_run (sender_streams g0 g1 delta) delta chi_of (tamper_bits noerr E1 tr) (length bl) pos = Reject).
Proof. intros. split; intros; [eapply selected_row_detected | eapply selected_check_row_detected]; eassumption. Qed.
Print Assumptions C15_selected_row_detected.

(* (4''') multi-flip, one column: a selected column j0 flipped in the payload
   rows of an arbitrary set R0 and the check rows of an arbitrary set R1 is
   accepted IFF the chi coefficients of those rows xor to zero. *)
Theorem C15_column_flips_accept_iff :
  forall g0 g1 chi_of bl b0 b1 seed pos delta, (delta < 2^128)%N ->
  forall tr res pos', receiver_run g0 g1 chi_of bl b0 b1 seed pos = (tr, res, pos') ->
  forall j0 R0 R1 out,
    j0 < K -> N.testbit delta (N.of_nat j0) = true ->
    (sender_run (sender_streams g0 g1 delta) delta chi_of
                (tamper_bits (colflips j0 R0) (colflips j0 R1) tr) (length bl) pos = Accept out <->
     out = map (qrow delta (t_ g0 pos) (b_ bl) (err_row (colflips j0 R0))) (seq 0 (length bl)) /\
     N.lxor (csum (prg_label chi_of seed) R0 0 0 (length bl))
            (csum (prg_label chi_of seed) R1 (length bl) 0 checkRows) = 0%N).
Proof. exact column_flips_accept_iff. Qed.
Print Assumptions C15_column_flips_accept_iff.

(* The property's "never silently accepts an inconsistent state" is FALSE of
   the faithful model as a universal statement: whenever the chi coefficients
   of a set of rows containing a payload row xor to zero, flipping one selected
   column in exactly those rows (response untouched) is accepted and the
   outputs violate the correlation.  (The receiver picks the seed itself and
   the seed is not bound to the transmitted matrix; among >128 coefficients a
   dependency always exists — the harness computes one for the real AES-CTR
   chi stream and replays it against the Go code: notes/C15-findings.md.) *)
Theorem C15_chi_dependency_forge :
  forall g0 g1 chi_of bl b0 b1 seed pos delta tr res pos' j0 R0 R1 i,
    (delta < 2^128)%N ->
    receiver_run g0 g1 chi_of bl b0 b1 seed pos = (tr, res, pos') ->
    j0 < K -> N.testbit delta (N.of_nat j0) = true ->
    i < length bl -> R0 i = true ->
    N.lxor (csum (prg_label chi_of seed) R0 0 0 (length bl))
           (csum (prg_label chi_of seed) R1 (length bl) 0 checkRows) = 0%N ->
    exists out,
      sender_run (sender_streams g0 g1 delta) delta chi_of
                 (tamper_bits (colflips j0 R0) (colflips j0 R1) tr) (length bl) pos = Accept out /\
      corr_holds delta out res bl = false.
Proof. intros. eapply chi_dependency_forge; eassumption. Qed.
Print Assumptions C15_chi_dependency_forge.

(* closed witness of the refutation (bit errors only, response untouched) *)
Theorem C15_never_silent_refuted :
  exists g0 g1 chi_of bl b0 b1 seed pos delta E0 E1 tr res pos' out,
    (delta < 2^128)%N /\
    receiver_run g0 g1 chi_of bl b0 b1 seed pos = (tr, res, pos') /\
    sender_run (sender_streams g0 g1 delta) delta chi_of (tamper_bits E0 E1 tr) (length bl) pos = Accept out /\
    corr_holds delta out res bl = false.
Proof. exact never_silent_refuted. Qed.
Print Assumptions C15_never_silent_refuted.

(* ---- coefficient positions and multi-flip deviations ---------------------- *)

(* The chi coefficients are ONE stream indexed by position: payload row i
   uses position coeff_idx n 0 i = i, check row k uses coeff_idx n 1 k = n + k.
   Distinct matrix positions (rows the sender uses) get distinct stream
   positions - the blocks of 1024 payload rows and the 256 check rows continue
   the stream, nothing restarts. *)
Theorem C15_coeff_positions_distinct :
  forall n b1 r1 b2 r2,
    b1 <= 1 -> b2 <= 1 -> (b1 = 0 -> r1 < n) -> (b2 = 0 -> r2 < n) ->
    coeff_idx n b1 r1 = coeff_idx n b2 r2 -> b1 = b2 /\ r1 = r2.
Proof. exact coeff_idx_injective. Qed.
Print Assumptions C15_coeff_positions_distinct.

(* ... and these are the positions the sender's test reads (every chi, Delta,
   rows q / qc, n): the 1024-blocked loop plus the check-batch call compute
   sum_{i<n} chi(i)*q_i xor sum_{k<256} chi(n+k)*qc_k xor x*Delta and compare it
   with (t0, t1).  (The receiver side uses the same positions: part of
   C15_honest_accepts / C15_accept_iff.) *)
Theorem C15_sender_check_positions :
  forall chi delta (q qc : nat -> N) n x t0 t1,
    sender_check chi delta (map q (seq 0 n)) (map qc (seq 0 checkRows)) x t0 t1 = true <->
    split128 (N.lxor (N.lxor (isum chi q (coeff_idx n 0 0) 0 n) (isum chi qc (coeff_idx n 1 0) 0 checkRows))
                     (clmul x delta)) = (t0, t1).
Proof. exact sender_check_positions. Qed.
Print Assumptions C15_sender_check_positions.

(* ANY set of flipped positions (both batches, any rows and columns), response
   untouched: a non-zero syndrome sum_p chi(idx p) * (e_p & Delta) is rejected. *)
Theorem C15_multi_flip_detected :
  forall g0 g1 chi_of bl b0 b1 seed pos delta, (delta < 2^128)%N ->
  forall tr res pos', receiver_run g0 g1 chi_of bl b0 b1 seed pos = (tr, res, pos') ->
  forall E0 E1,
    syndrome2 (prg_label chi_of seed) delta E0 E1 (length bl) <> 0%N ->
    sender_run (sender_streams g0 g1 delta) delta chi_of (tamper_bits E0 E1 tr) (length bl) pos = Reject.
Proof. exact multi_flip_detected. Qed.
Print Assumptions C15_multi_flip_detected.

(* Symbolic model: with the coefficients as independent indeterminates
   (generic point Y_p = X^(128 p), distinct stream positions -> distinct
   indeterminates) the syndrome of ANY error pattern vanishes iff no row the
   sender uses is inconsistent: every multi-flip deviation that leaves an
   inconsistent state is detected; acceptance of an inconsistent state needs a
   non-trivial relation among the actual coefficients (C15_tamper_sound). *)
Theorem C15_symbolic_multi_flip_detected :
  forall delta E0 E1 n,
    syndrome2 gchi delta E0 E1 n = 0%N <->
    (forall i, i < n -> N.land (err_row E0 i) delta = 0%N) /\
    (forall k, k < checkRows -> N.land (err_row E1 k) delta = 0%N).
Proof. exact syndrome2_generic. Qed.
Print Assumptions C15_symbolic_multi_flip_detected.

(* two flips in one selected column at payload rows a, b: accepted IFF the two
   stream positions carry the same coefficient *)
Theorem C15_pair_payload_accept_iff :
  forall g0 g1 chi_of bl b0 b1 seed pos delta, (delta < 2^128)%N ->
  forall tr res pos', receiver_run g0 g1 chi_of bl b0 b1 seed pos = (tr, res, pos') ->
  forall j0 a b out,
    j0 < K -> N.testbit delta (N.of_nat j0) = true -> a < length bl -> b < length bl ->
    (sender_run (sender_streams g0 g1 delta) delta chi_of
                (tamper_bits (colflips j0 (pairset a b)) (colflips j0 nowhere) tr) (length bl) pos = Accept out <->
     out = map (qrow delta (t_ g0 pos) (b_ bl) (err_row (colflips j0 (pairset a b)))) (seq 0 (length bl)) /\
     prg_label chi_of seed (coeff_idx (length bl) 0 a) = prg_label chi_of seed (coeff_idx (length bl) 0 b)).
Proof. exact pair_payload_accept_iff. Qed.
Print Assumptions C15_pair_payload_accept_iff.

(* the same (row, column) flipped in the payload batch (row a) and in the check
   batch (row k): accepted IFF chi(a) = chi(n + k) *)
Theorem C15_pair_payload_check_accept_iff :
  forall g0 g1 chi_of bl b0 b1 seed pos delta, (delta < 2^128)%N ->
  forall tr res pos', receiver_run g0 g1 chi_of bl b0 b1 seed pos = (tr, res, pos') ->
  forall j0 a k out,
    j0 < K -> N.testbit delta (N.of_nat j0) = true -> a < length bl -> k < checkRows ->
    (sender_run (sender_streams g0 g1 delta) delta chi_of
                (tamper_bits (colflips j0 (fun i => Nat.eqb i a)) (colflips j0 (fun i => Nat.eqb i k)) tr) (length bl) pos = Accept out <->
     out = map (qrow delta (t_ g0 pos) (b_ bl) (err_row (colflips j0 (fun i => Nat.eqb i a)))) (seq 0 (length bl)) /\
     prg_label chi_of seed (coeff_idx (length bl) 0 a) = prg_label chi_of seed (coeff_idx (length bl) 1 k)).
Proof. exact pair_payload_check_accept_iff. Qed.
Print Assumptions C15_pair_payload_check_accept_iff.

(* hence, when the coefficients at the two (distinct) stream positions differ
   - hypothesis made visible; AES-CTR yields pairwise different blocks, the
   harness checks it for every observed seed - both pair shapes are rejected *)


Theorem C15_pair_flip_detected :
  forall g0 g1 chi_of bl b0 b1 seed pos delta, (delta < 2^128)%N ->
  forall tr res pos', receiver_run g0 g1 chi_of bl b0 b1 seed pos = (tr, res, pos') ->
  forall j0, j0 < K -> N.testbit delta (N.of_nat j0) = true ->
  (forall a b, a < length bl -> b < length bl ->
    prg_label chi_of seed (coeff_idx (length bl) 0 a) <> prg_label chi_of seed (coeff_idx (length bl) 0 b) ->
    sender_run (sender_streams g0 g1 delta) delta chi_of
               (tamper_bits (colflips j0 (pairset a b)) (colflips j0 nowhere) tr) (length bl) pos = Reject) /\
  (forall a k, a < length bl -> k < checkRows ->
    prg_label chi_of seed (coeff_idx (length bl) 0 a) <> prg_label chi_of seed (coeff_idx (length bl) 1 k) ->
    sender_run (sender_streams g0 g1 delta) delta chi_of
               (tamper_bits (colflips j0 (fun i => Nat.eqb i a)) (colflips j0 (fun i => Nat.eqb i k)) tr) (length bl) pos = Reject).
Proof. intros. split; intros; [eapply pair_payload_detected | eapply pair_payload_check_detected]; eassumption. Qed.
Print Assumptions C15_pair_flip_detected.

(* refutation for a stream that REPEATS a coefficient (e.g. one restarting at
   counter 0 for every 1024-row block or for the check batch): the two flips
   cancel, the sender accepts, output a violates the correlation *)


Theorem C15_repeated_coefficient_refuted :
  forall g0 g1 chi_of bl b0 b1 seed pos delta, (delta < 2^128)%N ->
  forall tr res pos', receiver_run g0 g1 chi_of bl b0 b1 seed pos = (tr, res, pos') ->
  forall j0, j0 < K -> N.testbit delta (N.of_nat j0) = true ->
  (forall a k, a < length bl -> k < checkRows ->
    prg_label chi_of seed (coeff_idx (length bl) 0 a) = prg_label chi_of seed (coeff_idx (length bl) 1 k) ->
    exists out,
      sender_run (sender_streams g0 g1 delta) delta chi_of
                 (tamper_bits (colflips j0 (fun i => Nat.eqb i a)) (colflips j0 (fun i => Nat.eqb i k)) tr) (length bl) pos = Accept out /\
      corr_holds delta out res bl = false) /\
  (forall a b, a < length bl -> b < length bl -> a <> b ->
    prg_label chi_of seed (coeff_idx (length bl) 0 a) = prg_label chi_of seed (coeff_idx (length bl) 0 b) ->
    exists out,
      sender_run (sender_streams g0 g1 delta) delta chi_of
                 (tamper_bits (colflips j0 (pairset a b)) (colflips j0 nowhere) tr) (length bl) pos = Accept out /\
      corr_holds delta out res bl = false).
Proof.
  intros. split; intros;
    [eapply repeated_coefficient_payload_check_forge | eapply repeated_coefficient_payload_forge]; eassumption.
Qed.
Print Assumptions C15_repeated_coefficient_refuted.

(* the model's constants are those of ot/iknp.go as regenerated this run *)
Theorem C15_consts :
  (Z.of_nat K = ot_K /\ Z.of_nat chunkRows = ot_chunkRows /\ Z.of_nat chunkByteRows = ot_chunkByteRows
   /\ Z.of_nat (K * chunkByteRows) = ot_chunkSize)%Z.
Proof. exact c15_consts_ok. Qed.
Print Assumptions C15_consts.

(* Alteration of the challenge response alone: matrix, seed and x untouched,
   the tag (t0, t1) replaced by ANY other pair of naturals is rejected - the
   sender's verdict is the full equality of BOTH 128-bit halves of the 256-bit
   tag (C15_accept_iff states the same with N equalities of join128 pairs). *)
Theorem C15_tag_alteration_rejected :
  forall g0 g1 chi_of bl b0 b1 seed pos delta, (delta < 2^128)%N ->
  forall tr res pos', receiver_run g0 g1 chi_of bl b0 b1 seed pos = (tr, res, pos') ->
  forall t0' t1',
    (t0', t1') <> (tr_t0 tr, tr_t1 tr) ->
    sender_run (sender_streams g0 g1 delta) delta chi_of
               (tamper noerr noerr (tr_seed tr) (tr_x tr) t0' t1' tr) (length bl) pos = Reject.
Proof. exact tag_alteration_rejected. Qed.
Print Assumptions C15_tag_alteration_rejected.

(* in particular the "mirrored" masks: the same pattern in both 64-bit halves
   of one tag label (bit k together with bit k+64), on t0 or on t1 *)
Theorem C15_mirrored_tag_alteration_rejected :
  forall g0 g1 chi_of bl b0 b1 seed pos delta, (delta < 2^128)%N ->
  forall tr res pos', receiver_run g0 g1 chi_of bl b0 b1 seed pos = (tr, res, pos') ->
  forall k, (k < 64)%N ->
    sender_run (sender_streams g0 g1 delta) delta chi_of
               (tamper noerr noerr (tr_seed tr) (tr_x tr) (N.lxor (tr_t0 tr) (mirrored (2^k))) (tr_t1 tr) tr) (length bl) pos = Reject /\
    sender_run (sender_streams g0 g1 delta) delta chi_of
               (tamper noerr noerr (tr_seed tr) (tr_x tr) (tr_t0 tr) (N.lxor (tr_t1 tr) (mirrored (2^k))) tr) (length bl) pos = Reject.
Proof. exact mirrored_tag_alteration_rejected. Qed.
Print Assumptions C15_mirrored_tag_alteration_rejected.

(* STATE INVENTORY (finite obligation on the model regenerated from the source, checked by
   computation).  The struct fields and package-level variables of the Go packages this
   property is anchored in — ot — as emitted from /repo's current
   source by harness/gen_state.go (Gen/State.v) are exactly those the models above were written
   against (Base/StateExpected.v).  A new field or variable (a cache, a memo, a pool, a counter,
   a changed field type) is state the models do not have: this obligation then breaks and the
   property is no longer shown to hold until the change has been reviewed against the model. *)
Theorem C15_state_inventory :
  Mpc.Base.StateCheck.state_unchanged Mpc.Gen.State.state_inventory Mpc.Base.StateExpected.expected_state
    Mpc.Base.StatePkgs.pkgs_C15 = true.
Proof. vm_compute. reflexivity. Qed.
Print Assumptions C15_state_inventory.

(* CHI STREAM (OT/ChiStream.v: newPrg/prg/prgLabels and the block loops of
   IKNPSender.Send / IKNPReceiver.Receive over `var chi [1024]Label`, array
   overwritten in place on a prefix).  For EVERY keystream block function blk
   (AES_seed(counter) in Go), EVERY stream position pos, EVERY array of at
   least 256 entries with arbitrary (stale) content and EVERY batch size n
   (n = 0, 1, k*1024 +- 1, ...): the pairs (coefficient, row) the sender
   multiplies are exactly  (label drawn at byte pos+16*i, payload row i), i < n,
   then (label at pos+16*(n+r), check row r), r < 256, and the stream ends at
   pos + 16*(n+256).  Hypothesis non-vacuous: chi_array0_ok (the Go array);
   chi_schedule_run instantiates it at n = 1030, across the in-place block boundary. *)
Theorem C15_chi_schedule :
  forall (blk : nat -> list N) pos arr n,
    checkRows <= length arr ->
    chi_schedule blk pos arr n =
      (map (fun i => (lab_at blk (pos + 16 * i), i)) (seq 0 n),
       map (fun r => (lab_at blk (pos + 16 * (n + r)), r)) (seq 0 checkRows),
       pos + 16 * (n + checkRows)).
Proof. exact chi_schedule_spec. Qed.
Print Assumptions C15_chi_schedule.

(* ... hence, for every blk, pos, arr, n: the row indices met by the payload
   loop are 0, 1, ..., n-1 in order: every payload row index < n is covered by
   exactly one chi coefficient, no index >= n by any; the check batch covers
   rows 0..255 *)
Theorem C15_chi_rows_covered_once :
  forall (blk : nat -> list N) pos arr n,
    checkRows <= length arr ->
    let '(ps, cs, _) := chi_schedule blk pos arr n in
    map snd ps = seq 0 n /\ map snd cs = seq 0 checkRows /\
    (forall i, i < n -> count_occ Nat.eq_dec (map snd ps) i = 1) /\
    (forall i, n <= i -> count_occ Nat.eq_dec (map snd ps) i = 0).
Proof. exact chi_rows_covered_once. Qed.
Print Assumptions C15_chi_rows_covered_once.

(* for every blk and every c: 16 bytes drawn at byte position 16*c are
   keystream block c alone (Label.SetBytes of it) - with the fresh stream of
   newPrg(seed) (pos = 0) coefficient i is a function of (seed, i) only *)
Theorem C15_chi_coefficient_is_block :
  forall (blk : nat -> list N) c, lab_at blk (16 * c) = lab_block blk c.
Proof. exact lab_at_block. Qed.
Print Assumptions C15_chi_coefficient_is_block.
