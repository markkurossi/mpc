(* Props/C14.v — property C14: circuit files round-trip; parsers reject malformed files gracefully.
   Only statements closed by [exact], each followed by Print Assumptions.
   [ParseMPCLC] = [parse_mpclc true true] models circuit.ParseMPCLC as it is now (gate bound check
   99bac0d, io.ReadFull in parseString dace4fa).  The pre-fix variant [ParseMPCLC_prefix] and its
   refutation witnesses (findings F9, F10, fixed) stay in IO/MarshalProof.v as a regression record. *)
From Coq Require Import NArith ZArith List Bool.
From Mpc Require Import Gen.Consts Circuit.Circuit IO.Marshal IO.MarshalProof IO.MarshalRoundTrip IO.ParseFile IO.ParseFileProof IO.RunC14.
Import ListNotations.
From Mpc Require Gen.State Base.StateExpected Base.StateCheck Base.StatePkgs.

(* FULL (MPCLC round trip): for every circuit c with
   - header counts and list lengths below 2^32, names and type texts shorter than 2^32 bytes,
     Bits in int32 range, [printable] types (concrete bool/int/uint/string/struct with
     0 <= Bits < 2^31, arrays [N]T with 0 <= N < 2^31 and slices []T of such types),
     compound members recursively the same ([wf_io]),
   - NumGates = number of gates, input bits <= NumWires, every gate input in range and defined
     before use, every wire assigned, NO GATE WRITES AN INPUT WIRE ([parse_sound]; true of every
     compiler output and generated circuit; since commit 407ba55 the parsers reject such gates),
   parsing the written bytes yields exactly [norm c] (everything except IsConcrete/MinBits/struct
   field detail/slice ArraySize of the types and Input1 of INV gates) and writing [norm c] gives
   the same bytes.  No restriction on name lengths relative to the bufio buffer. *)
Theorem C14_mpclc_roundtrip :
  forall c, wf_marshal c -> ParseMPCLC (Marshal c) = Ok (norm c) /\ Marshal (norm c) = Marshal c.
Proof. exact mpclc_roundtrip. Qed.
Print Assumptions C14_mpclc_roundtrip.

(* FULL (Bristol round trip): for every circuit c with NumGates, NumWires <= MaxInt32,
   0 <= Bits < 2^31 for every argument, at least one input bit, and the invariant [parse_sound]
   (which includes: no gate writes an input wire),
   parsing the written text yields [bristol_norm c] (counts, argument sizes as uintN named
   NI<i>/NO<i>, the gates) and writing that gives the same bytes. *)
Theorem C14_bristol_roundtrip :
  forall c, wf_bristol c ->
    ParseBristol (MarshalBristol c) = Ok (bristol_norm c) /\ MarshalBristol (bristol_norm c) = MarshalBristol c.
Proof. exact bristol_roundtrip. Qed.
Print Assumptions C14_bristol_roundtrip.

(* FULL (type text): for every printable type t, types.Parse of Info.String t is [strip t]
   (IsConcrete, MinBits = Bits, no struct fields, array Bits recomputed, slice size 0) and
   printing that gives the same text. *)
Theorem C14_type_roundtrip :
  forall t, printable t -> Parse (info_string t) = Ok (strip t) /\ info_string (strip t) = info_string t.
Proof. exact type_roundtrip. Qed.
Print Assumptions C14_type_roundtrip.

(* FULL (soundness, MPCLC): for ALL byte strings, if ParseMPCLC returns a circuit then
   0 <= input bits <= NumWires, the number of gates equals the header's NumGates, every gate
   input is in range and defined before use (an input wire or the output of an earlier gate),
   every gate output is in range and not an input wire, and every wire is assigned. *)
Theorem C14_mpclc_parse_sound : forall bs c, ParseMPCLC bs = Ok c -> parse_sound c.
Proof. exact (mpclc_sound true true). Qed.
Print Assumptions C14_mpclc_parse_sound.

(* FULL (soundness, Bristol): the same for ALL byte strings offered to ParseBristol. *)
Theorem C14_bristol_parse_sound : forall bs c, ParseBristol bs = Ok c -> parse_sound c.
Proof. exact bristol_sound. Qed.
Print Assumptions C14_bristol_parse_sound.

(* FULL (graceful, MPCLC): for all byte strings (no size bound) ParseMPCLC returns a circuit or
   an error: it never panics and the recursion fuel |bs|+1 is never exhausted (every stage
   consumes input). *)
Theorem C14_mpclc_total : forall bs, ok_or_err (ParseMPCLC bs).
Proof. exact mpclc_ok_or_err. Qed.
Print Assumptions C14_mpclc_total.

(* FULL (graceful, Bristol): for all byte strings ParseBristol returns a circuit or an error:
   none of its index expressions (line[0], line[2+i], line[2+n1+i], inputs[0], outputs[0]) can go
   out of range, and it is structurally recursive on the list of lines. *)
Theorem C14_bristol_total : forall bs, ok_or_err (ParseBristol bs).
Proof. exact bristol_total. Qed.
Print Assumptions C14_bristol_total.

(* FULL: for all type texts types.Parse returns a type or an error. *)
Theorem C14_types_parse_total : forall val, ok_or_err (Parse val).
Proof. exact Parse_ok. Qed.
Print Assumptions C14_types_parse_total.

(* FULL (codec): for all fields l1, all following bytes l2 and every buffer state b, io.ReadFull
   through the buffered reader returns exactly l1 and leaves exactly l2. *)
Theorem C14_read_full_exact :
  forall l1 l2 b, rd_ok (l1 ++ l2, b) ->
    exists b', read_full (nlen l1) (l1 ++ l2, b) = Ok (l1, (l2, b')) /\ rd_ok (l2, b') /\
               (nlen l1 <= b -> b' = b - nlen l1)%N.
Proof. exact read_full_exact. Qed.
Print Assumptions C14_read_full_exact.

(* non-vacuity: a circuit with all gate kinds, a struct argument with compound members and an
   array argument satisfies the hypotheses of both round-trip theorems *)
Theorem C14_roundtrip_hypotheses_inhabited : wf_marshal ex_circuit /\ wf_bristol ex_circuit.
Proof. exact (conj ex_wf_marshal ex_wf_bristol). Qed.
Print Assumptions C14_roundtrip_hypotheses_inhabited.

(* FULL (entry point Circuit.MarshalFormat, the format-dispatching writer used by the compiler's
   Params.CircOut/CircFormat and by apps/garbled): for every format string, circuit and output,
   if it writes anything then the format is "mpclc" or "bristol", the bytes are exactly those of
   Marshal resp. MarshalBristol, and (under the round-trip hypotheses) they parse back. *)
Theorem C14_marshal_format_roundtrip :
  forall c f bs, MarshalFormat f c = Some bs ->
    (f = s_mpclc /\ bs = Marshal c /\ (wf_marshal c -> ParseMPCLC bs = Ok (norm c))) \/
    (f = s_bristol /\ bs = MarshalBristol c /\ (wf_bristol c -> ParseBristol bs = Ok (bristol_norm c))).
Proof. exact marshal_format_roundtrip. Qed.
Print Assumptions C14_marshal_format_roundtrip.

(* FULL (input wires are never overwritten; C01 and C04 rely on it): for ALL byte strings, a circuit
   returned by ParseMPCLC or ParseBristol has no gate whose output id is below the number of input
   wires — i.e. a file in which some gate writes an input wire (e.g. XOR w w w) is rejected by
   both parsers (commit 407ba55: the check sits after the input-not-set checks and before the
   wiresSeen range check of the gate's output; all three are errors). *)
Theorem C14_parse_rejects_input_overwrite :
  forall bs c, ParseMPCLC bs = Ok c \/ ParseBristol bs = Ok c ->
    forall g, In g (c_gates c) -> (io_size (c_inputs c) <= Z.of_N (g_out g))%Z.
Proof. exact parse_rejects_input_overwrite. Qed.
Print Assumptions C14_parse_rejects_input_overwrite.

(* ---- front doors: circuit.IsFilename, circuit.Parse(file) (IO/ParseFile.v) ---- *)

(* FULL (which parser for which name): for EVERY file name (any byte string) the parser that
   circuit.Parse selects is ParseMPCLC exactly when the name ends in ".mpclc", ParseBristol exactly
   when it ends in ".circ" or ".bristol", and none ("unsupported circuit format") exactly when
   IsFilename is false. *)
Theorem C14_select_parser_spec :
  forall file,
    (select_parser file = SelMPCLC <-> has_suffix file s_dot_mpclc = true) /\
    (select_parser file = SelBristol <-> has_suffix file s_dot_circ = true \/ has_suffix file s_dot_bristol = true) /\
    (select_parser file = SelNone <-> IsFilename file = false).
Proof. exact select_parser_spec. Qed.
Print Assumptions C14_select_parser_spec.

(* FULL: for every file name at most one of the three suffixes matches, so the order of the tests
   in Parse / IsFilename is immaterial and no name is claimed by both formats. *)
Theorem C14_suffixes_exclusive :
  forall s,
    (has_suffix s s_dot_mpclc = true -> has_suffix s s_dot_circ = false /\ has_suffix s s_dot_bristol = false) /\
    (has_suffix s s_dot_bristol = true -> has_suffix s s_dot_circ = false /\ has_suffix s s_dot_mpclc = false) /\
    (has_suffix s s_dot_circ = true -> has_suffix s s_dot_bristol = false /\ has_suffix s s_dot_mpclc = false).
Proof. exact suffixes_exclusive. Qed.
Print Assumptions C14_suffixes_exclusive.

(* FULL: for every base name (empty, or itself ending in another suffix, e.g. "x.circ" + ".mpclc")
   and every file content, Parse(base + suffix) IS the parser of that suffix. *)
Theorem C14_parse_file_dispatch :
  forall base bs,
    ParseFile (base ++ s_dot_mpclc) (Some bs) = ParseMPCLC bs /\
    ParseFile (base ++ s_dot_bristol) (Some bs) = ParseBristol bs /\
    ParseFile (base ++ s_dot_circ) (Some bs) = ParseBristol bs.
Proof. exact parse_file_dispatch. Qed.
Print Assumptions C14_parse_file_dispatch.

(* FULL: IsFilename and Parse agree: a name IsFilename rejects is never parsed, whatever the file
   holds (and whether it exists). *)
Theorem C14_parse_file_unsupported :
  forall file content, IsFilename file = false -> ParseFile file content = Err.
Proof. exact parse_file_unsupported. Qed.
Print Assumptions C14_parse_file_unsupported.

(* FULL (graceful, front door): for every file name, every file content and a missing file,
   circuit.Parse returns a circuit or an error. *)
Theorem C14_parse_file_total : forall file content, ok_or_err (ParseFile file content).
Proof. exact parse_file_total. Qed.
Print Assumptions C14_parse_file_total.

(* FULL (soundness, front door): every circuit circuit.Parse returns, for any name and content,
   satisfies [parse_sound]. *)
Theorem C14_parse_file_sound : forall file content c, ParseFile file content = Ok c -> parse_sound c.
Proof. exact parse_file_sound. Qed.
Print Assumptions C14_parse_file_sound.

(* FULL (round trip through both front doors): for every format string f, circuit c and base
   name: what MarshalFormat(f) writes, stored under base + "." + f, is read back by circuit.Parse
   as the normal form of c (the format names of the writer ARE the suffixes of the reader);
   Bristol text is also read back under base + ".circ". *)
Theorem C14_front_door_roundtrip :
  forall base f c bs, MarshalFormat f c = Some bs ->
    (f = s_mpclc /\ bs = Marshal c /\
     (wf_marshal c -> ParseFile (base ++ [46%N] ++ f) (Some bs) = Ok (norm c))) \/
    (f = s_bristol /\ bs = MarshalBristol c /\
     (wf_bristol c -> ParseFile (base ++ [46%N] ++ f) (Some bs) = Ok (bristol_norm c) /\
                      ParseFile (base ++ s_dot_circ) (Some bs) = Ok (bristol_norm c))).
Proof. exact front_door_roundtrip. Qed.
Print Assumptions C14_front_door_roundtrip.

(* FULL (a file of one format under the other format's name): for EVERY circuit c (no hypothesis
   at all) and every base name, the bytes Marshal writes are REJECTED by ParseBristol and hence by
   circuit.Parse under a ".circ" / ".bristol" name — never misread as some other circuit; more
   generally ParseBristol rejects every byte string that starts with the first MAGIC byte 'c'
   (every truncation / extension / mutation of an MPCLC file that keeps its first byte). *)
Theorem C14_mpclc_file_under_bristol_name :
  forall base c,
    ParseBristol (Marshal c) = Err /\
    ParseFile (base ++ s_dot_circ) (Some (Marshal c)) = Err /\
    ParseFile (base ++ s_dot_bristol) (Some (Marshal c)) = Err.
Proof. exact (fun base c => conj (mpclc_file_as_bristol_rejected c) (mpclc_file_under_bristol_name base c)). Qed.
Print Assumptions C14_mpclc_file_under_bristol_name.

Theorem C14_bristol_rejects_magic_byte : forall t, ParseBristol (c99 :: t) = Err.
Proof. exact bristol_rejects_c99. Qed.
Print Assumptions C14_bristol_rejects_magic_byte.

(* FULL (Circuit.Stats after a parse): for every file name and content, if circuit.Parse returns a
   circuit with Stats st then st is the histogram of its gate kinds (slots Count/NumLevels/MaxWidth
   zero), Stats.Count() = the header's NumGates, NumXOR() + NumNonXOR() = Count(), and Cost() is
   the sum of the per-gate costs (XOR/XNOR 0, AND/INV 2, OR 3). *)
Theorem C14_parse_file_stats :
  forall file content c st, ParseFileStats file content = Ok (c, st) ->
    parse_sound c /\ st = parse_stats (c_gates c) /\ Z.of_N (stats_count st) = c_numgates c /\
    (stats_numxor st + stats_numnonxor st = stats_count st)%N /\
    stats_cost st = fold_right (fun g a => (gate_cost (g_op g) + a)%N) 0%N (c_gates c).
Proof. exact parse_file_stats. Qed.
Print Assumptions C14_parse_file_stats.

(* FULL: for every gate list (any length) the parsers' `stats[op]++` loop yields exactly the
   per-kind counts followed by three zero slots. *)
Theorem C14_parse_stats_spec :
  forall gs, parse_stats gs =
    [count_op XOR gs; count_op XNOR gs; count_op AND gs; count_op OR gs; count_op INV gs; 0%N; 0%N; 0%N].
Proof. exact parse_stats_spec. Qed.
Print Assumptions C14_parse_stats_spec.

(* FULL: for every circuit, the normal forms both round trips return carry the Stats of the
   circuit that was written. *)
Theorem C14_stats_roundtrip :
  forall c, parse_stats (c_gates (norm c)) = parse_stats (c_gates c) /\
            parse_stats (c_gates (bristol_norm c)) = parse_stats (c_gates c).
Proof. exact stats_roundtrip. Qed.
Print Assumptions C14_stats_roundtrip.

(* STATE INVENTORY (finite obligation on the model regenerated from the source, checked by
   computation).  The struct fields and package-level variables of the Go packages this
   property is anchored in — circuit, types — as emitted from /repo's current
   source by harness/gen_state.go (Gen/State.v) are exactly those the models above were written
   against (Base/StateExpected.v).  A new field or variable (a cache, a memo, a pool, a counter,
   a changed field type) is state the models do not have: this obligation then breaks and the
   property is no longer shown to hold until the change has been reviewed against the model. *)
Theorem C14_state_inventory :
  Mpc.Base.StateCheck.state_unchanged Mpc.Gen.State.state_inventory Mpc.Base.StateExpected.expected_state
    Mpc.Base.StatePkgs.pkgs_C14 = true.
Proof. vm_compute. reflexivity. Qed.
Print Assumptions C14_state_inventory.
