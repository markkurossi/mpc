(* Props/C11.v — property C11: the connection layer (p2p.Conn) is a faithful,
   ordered, typed byte stream.  Only statements closed by [exact], each
   followed by Print Assumptions.  Model: Proto/Conn.v; proofs: Proto/ConnProof.v.
   The buffer sizes are universally quantified (>= 16 bytes, the largest
   fixed-size value); C11_real_sizes instantiates them with the constants
   regenerated from /repo/p2p/protocol.go. *)
From Coq Require Import ZArith NArith List Bool.
From Mpc Require Import Gen.Consts Base.Codec Proto.Conn Proto.ConnProof Proto.ConnErr Proto.ConnErrProof Proto.RunC11.
Import ListNotations.
From Mpc Require Gen.State Base.StateExpected Base.StateCheck Base.StatePkgs.

(* For every number of ring buffers, every write-buffer size, every sequence
   of send ops (any values, any payload sizes, Flush placed anywhere) in which
   Close, if present, is last: the chunks handed to the writer followed by
   the bytes still in the buffer are the concatenation of the encodings of
   the sent values, in order.  Flushes and buffer boundaries only change the
   chunking. *)
Theorem C11_stream_is_concat :
  forall (nbuf wcap : N), (0 < wcap)%N -> forall (ops : list op), close_only_last ops ->
    wire_bytes (run_sender nbuf wcap ops) ++ s_buf (run_sender nbuf wcap ops)
    = concat (map encode (values_of ops)).
Proof. exact stream_is_concat. Qed.
Print Assumptions C11_stream_is_concat.

(* ... and when the sequence ends with Flush or Close nothing stays behind:
   the transport carries exactly that concatenation (Close delivers
   everything still buffered). *)
Theorem C11_flushed_stream_is_concat :
  forall (nbuf wcap : N), (0 < wcap)%N -> forall (ops : list op), close_only_last ops -> ends_flushed ops ->
    wire_bytes (run_sender nbuf wcap ops) = concat (map encode (values_of ops)).
Proof. exact wire_is_concat. Qed.
Print Assumptions C11_flushed_stream_is_concat.

(* Round trip.  For all buffer sizes >= 16, every op sequence ending in Flush
   or Close (Close only last) whose data/string/size-list lengths fit the
   uint32 length prefix, every placement of Flushes, and EVERY segmentation
   [frags] of the byte stream by the transport (each underlying Read returns
   at most the rest of the current segment and at most the slice offered),
   whether the transport reports io.EOF together with its final bytes
   ([eofdata] = true) or only on the following Read:
   the matching typed receives return exactly the sent values, in order;
   nothing is left in window or transport; Stats.Recvd = Stats.Sent = the
   number of bytes on the wire.  The sent value of an integer op is its
   uint16/uint32 truncation ([value_of]); C11_domain says the truncation is
   the identity inside the width. *)
Theorem C11_roundtrip :
  forall (nbuf wcap rcap : N) (ops : list op) (frags : list N) (eofdata : bool),
    (16 <= wcap)%N -> (16 <= rcap)%N ->
    close_only_last ops -> ends_flushed ops -> Forall op_in_domain ops ->
    Forall (ty_fits rcap) (types_of ops) ->
    let s := run_sender nbuf wcap ops in
    let out := recv_all rcap (types_of ops) (r_init (mkT (wire_bytes s) frags eofdata 0)) in
    snd out = Some (values_of ops) /\
    all (fst out) = [] /\
    r_recvd (fst out) = s_sent s /\ s_sent s = nlen (wire_bytes s).
Proof. exact roundtrip. Qed.
Print Assumptions C11_roundtrip.

(* bytes, 16- and 32-bit integers, labels and size lists inside their width
   are transmitted as themselves *)
Theorem C11_domain :
  (forall b, (b < 256)%N -> value_of (OByte b) = Some (VByte b)) /\
  (forall v, (0 <= v < 65536)%Z -> value_of (OU16 v) = Some (VU16 (Z.to_N v))) /\
  (forall v, (0 <= v < 4294967296)%Z -> value_of (OU32 v) = Some (VU32 (Z.to_N v))) /\
  (forall l, (l < 2 ^ 128)%N -> value_of (OLabel l) = Some (VLabel l)) /\
  (forall l, Forall (fun v => 0 <= v < 4294967296)%Z l -> value_of (OSizes l) = Some (VSizes (map Z.to_N l))).
Proof. exact value_of_in_range. Qed.
Print Assumptions C11_domain.

(* Receiver refinement.  For every read-buffer size >= 16, every receiver
   state satisfying the window invariant (ReadEnd = ReadStart + |window| <=
   readBufSize), every transport state (any remaining stream, any
   segmentation, EOF delivered with the final bytes or after them — the
   transport is a component of the receiver state [r]) and every receive type: the typed receive computes the
   abstract parser on (window ++ rest of the stream): when the parser yields
   (v, rest') the receive returns v and leaves exactly rest' (invariant kept,
   Recvd advanced by the bytes pulled from the transport); when the parser
   fails (the stream ends first) the receive returns io.EOF.  Includes
   ReceiveData of any length (Fill is asked for min(need, readBufSize)). *)
Theorem C11_recv_refines :
  forall (rcap : N), (16 <= rcap)%N -> forall (t : ty) (r : receiver), ty_fits rcap t -> RInv rcap r ->
    refines rcap r (recv_ty rcap t r) (parse_ty t (all r)).
Proof. exact recv_ty_refines. Qed.
Print Assumptions C11_recv_refines.

(* ... and for whole receive sequences (any types, matching the sender or not) *)
Theorem C11_recv_all_refines :
  forall (rcap : N), (16 <= rcap)%N -> forall (tys : list ty) (r : receiver), Forall (ty_fits rcap) tys -> RInv rcap r ->
    let out := recv_all rcap tys r in
    RInv rcap (fst out) /\ pulled r (fst out) /\
    match parse_all tys (all r) with
    | Some (vs, rest) => snd out = Some vs /\ all (fst out) = rest
    | None => snd out = None
    end.
Proof. exact recv_all_refines. Qed.
Print Assumptions C11_recv_all_refines.

(* Fill bound.  Under the window invariant the only error a typed receive can
   return is EOF: never ESpin (= Fill called with more than the buffer can
   hold, where the Go read loop would not terminate), never fuel exhaustion. *)
Theorem C11_fill_bound :
  forall (rcap : N), (16 <= rcap)%N -> forall t r r' e, ty_fits rcap t -> RInv rcap r ->
    recv_ty rcap t r = (r', inr e) -> e = EEOF.
Proof. exact recv_ty_only_eof. Qed.
Print Assumptions C11_fill_bound.

(* Stats, sender side: after any op sequence Sent = bytes handed to the writer,
   Flushed = number of chunks, every chunk is non-empty and at most one
   buffer long. *)
Theorem C11_stats_sender :
  forall (nbuf wcap : N), (0 < wcap)%N -> (16 <= wcap)%N -> forall ops, Forall (raw_fits wcap) ops ->
    let s := run_sender nbuf wcap ops in
    s_sent s = nlen (wire_bytes s) /\ s_flushed s = nlen (s_chunks s) /\
    Forall (fun c => (0 < nlen (snd c) <= wcap)%N) (s_chunks s).
Proof. exact sender_counters. Qed.
Print Assumptions C11_stats_sender.

(* Counters after ANY op sequence over the whole op vocabulary — the Send*
   methods, Flush, Close AND the in-place write API (NeedSpace(n) followed by a
   store at WriteBuf[WritePos:], op [ORaw], whose buffer rollover happens
   inside NeedSpace) — for all buffer sizes, without any size hypothesis:
   Sent = number of bytes handed to the writer, Flushed = number of chunks,
   no chunk is empty.  (C11_stats_sender adds the chunk-size bound under the
   domain [raw_fits]: the caller stores at most the n bytes it asked for and
   n fits a buffer.)  The round-trip, refinement and stats theorems range over
   the same vocabulary; the in-place read (Fill(k), ReadBuf[ReadStart:..],
   type [TRaw k]) is in the domain when k <= readBufSize ([ty_fits]). *)
Theorem C11_stats_counters :
  forall (nbuf wcap : N) (ops : list op), KInv (run_sender nbuf wcap ops).
Proof. exact KInv_run. Qed.
Print Assumptions C11_stats_counters.

(* Stats agree with the bytes moved.  For all buffer sizes >= 16, every op
   sequence, every segmentation, EOF with or after the final bytes, and ANY
   sequence of typed receives (matching or not, complete or not, failing or
   not): Sent = number of bytes handed to the transport; Recvd + what the
   transport still holds = that number (Recvd = bytes pulled from the
   transport, including payloads larger than the read buffer, whose bytes all
   pass through Fill); if the receiver has consumed the stream exactly then
   Recvd = Sent; and for a script ending in Flush/Close received by the
   matching sequence this is the case (with the values of C11_roundtrip). *)
Theorem C11_stats_agree :
  forall (nbuf wcap rcap : N) (ops : list op) (frags : list N) (eofdata : bool) (tys : list ty),
    (16 <= wcap)%N -> (16 <= rcap)%N -> Forall (ty_fits rcap) tys ->
    let s := run_sender nbuf wcap ops in
    let out := recv_all rcap tys (r_init (mkT (wire_bytes s) frags eofdata 0)) in
    s_sent s = nlen (wire_bytes s) /\
    (r_recvd (fst out) + nlen (t_stream (r_t (fst out))))%N = nlen (wire_bytes s) /\
    (all (fst out) = [] -> r_recvd (fst out) = s_sent s) /\
    (close_only_last ops -> ends_flushed ops -> Forall op_in_domain ops -> tys = types_of ops ->
     snd out = Some (values_of ops) /\ r_recvd (fst out) = s_sent s).
Proof. exact stats_agree. Qed.
Print Assumptions C11_stats_agree.

(* Ring ownership.  In every state reachable by ANY interleaving of the main
   thread (NewConn, stores into the write buffer, Flush = send + receive,
   Close = close + drain) and the writer goroutine (allocate, take, Write,
   return, finish) over the two bounded channels, for every number of
   buffers and arbitrary buffer contents: the buffer main may store into is
   not queued on toWriter, not held by the writer, not in fromWriter, and all
   buffers in the system are pairwise distinct. *)
Theorem C11_ring_ownership :
  forall (nb : nat) (mem0 : nat -> list N) (g : ring) (b : nat),
    reachable nb mem0 g -> g_cur g = Some b ->
    ~ In b (map fst (g_toW g)) /\ ~ In b (hand (g_w g)) /\ ~ In b (g_fromW g) /\ NoDup (order nb g).
Proof. exact ring_ownership. Qed.
Print Assumptions C11_ring_ownership.

(* Write order = flush order, with aliasing: the conn.Write calls so far, the
   slice in the writer's hand and the queued slices, read from the shared
   buffers as they are NOW, equal the contents recorded when Flush sent them. *)
Theorem C11_ring_write_order :
  forall (nb : nat) (mem0 : nat -> list N) (g : ring), reachable nb mem0 g ->
    g_written g ++ in_hand g ++ map (content (g_mem g)) (g_toW g) = g_flushed g.
Proof. exact ring_write_order. Qed.
Print Assumptions C11_ring_write_order.

(* Close delivers everything: once Close has returned every flushed chunk has
   been written, in flush order. *)
Theorem C11_ring_close_delivers_all :
  forall (nb : nat) (mem0 : nat -> list N) (g : ring), reachable nb mem0 g ->
    g_main g = MClosed -> g_written g = g_flushed g.
Proof. exact ring_close_delivers_all. Qed.
Print Assumptions C11_ring_close_delivers_all.

(* The channel sends never block (the channels have one slot per buffer). *)
Theorem C11_ring_sends_never_block :
  forall (nb : nat) (mem0 : nat -> list N) (g : ring), reachable nb mem0 g ->
    (forall b, g_main g = MFill -> g_cur g = Some b -> (length (g_toW g) < nb)%nat) /\
    (forall b, g_w g = WWrote b -> (length (g_fromW g) < nb)%nat) /\
    (forall k, g_w g = WAlloc k -> (k < nb)%nat -> (length (g_fromW g) < nb)%nat).
Proof. exact ring_sends_never_block. Qed.
Print Assumptions C11_ring_sends_never_block.

(* The ring rotates: the k-th buffer main obtains is buffer (k-1) mod nb —
   the buffer identity [flush_buf] of the sender model computes. *)
Theorem C11_ring_rotation :
  forall (nb : nat) (mem0 : nat -> list N) (g : ring) (b : nat), reachable nb mem0 g ->
    g_main g = MFill -> g_cur g = Some b -> (0 < g_acq g)%nat /\ b = ((g_acq g - 1) mod nb)%nat.
Proof. exact ring_rotation. Qed.
Print Assumptions C11_ring_rotation.

(* Every Flush sends buffer (number of earlier Flushes) mod nb: in every
   reachable state of the ring system in which main is between two Flushes. *)
Theorem C11_ring_flush_buffer :
  forall (nb : nat) (mem0 : nat -> list N) (g : ring) (b : nat), reachable nb mem0 g ->
    g_main g = MFill -> g_cur g = Some b -> b = (length (g_flushed g) mod nb)%nat.
Proof. exact ring_flush_buffer. Qed.
Print Assumptions C11_ring_flush_buffer.

(* The functional sender model and the ring system agree.  For every number
   of buffers > 0, every buffer size, every op sequence, and ANY reachable
   state of the ring system (any interleaving of main and writer) in which
   main is between two Flushes and has flushed the chunks the functional
   sender computes: main's write buffer is the buffer the functional model
   names (its "(cur+1) mod numBuffers" is what the channels deliver), the
   i-th chunk of the functional model is in buffer i mod numBuffers (the
   buffer the ring's main held at its i-th Flush, C11_ring_flush_buffer), and
   the conn.Write calls made so far are a prefix of the model's chunks. *)
Theorem C11_sender_ring_agree :
  forall (nbuf wcap : N), (0 < nbuf)%N -> forall (ops : list op) (mem0 : nat -> list N) (g : ring),
    let s := run_sender nbuf wcap ops in
    reachable (N.to_nat nbuf) mem0 g -> g_main g = MFill ->
    g_flushed g = wire_chunks s ->
    g_cur g = Some (N.to_nat (s_cur s)) /\
    map fst (s_chunks s) = ids nbuf (length (s_chunks s)) /\
    (exists rest, wire_chunks s = g_written g ++ rest).
Proof. exact sender_ring_agree. Qed.
Print Assumptions C11_sender_ring_agree.

(* ... and such executions exist for every op sequence (the hypothesis above is
   not vacuous): an execution whose main flushes exactly the functional
   model's chunks and whose writer has written all of them. *)
Theorem C11_sender_ring_exists :
  forall (nbuf wcap : N) (ops : list op) (mem0 : nat -> list N), (0 < nbuf)%N -> (16 <= wcap)%N ->
    exists g, reachable (N.to_nat nbuf) mem0 g /\ g_main g = MFill /\
              g_flushed g = wire_chunks (run_sender nbuf wcap ops) /\
              g_written g = wire_chunks (run_sender nbuf wcap ops).
Proof. exact (fun nbuf wcap ops mem0 Hn _ => sender_ring_exists nbuf wcap ops mem0 Hn). Qed.
Print Assumptions C11_sender_ring_exists.

(* ======================= TRANSPORT FAULTS (model Proto/ConnErr.v, proofs Proto/ConnErrProof.v)

   Write side, small-step system over ALL interleavings of the main thread (NewConn, Flush =
   send + receive + read of c.writerErr, Close = Flush + close + drain + read) and the writer
   goroutine (allocate, take, conn.Write — which may FAIL, any Write, any number of them —,
   record the error, give the buffer back, finish), for EVERY number of buffers.
   [e_out] = outcome of every conn.Write so far, [e_res] = what every completed flush attempt
   returned, [e_att] = slices handed to the writer, [e_close] = result of Close's second phase. *)

(* Latest detection.  A flush attempt j that returned nil is ordered after the Writes
   0 .. j+1-nb: they have been made and none of them failed. *)
Theorem C11_ring_err_flush_nil_means :
  forall (nb : nat) (e : ering) (j i : nat), ereach nb e ->
    nth_error (e_res e) j = Some false -> (i + nb <= j + 1)%nat -> nth_error (e_out e) i = Some false.
Proof. exact ering_flush_nil_means. Qed.
Print Assumptions C11_ring_err_flush_nil_means.

(* ... the other way round: once Write i has failed, flush attempt i+nb-1 and every later
   one return the error (with three buffers: at most two more Flushes succeed). *)
Theorem C11_ring_err_failed_write_reported :
  forall (nb : nat) (e : ering) (i j : nat) (b : bool), ereach nb e ->
    nth_error (e_out e) i = Some true -> (i + nb <= j + 1)%nat -> nth_error (e_res e) j = Some b -> b = true.
Proof. exact ering_failed_write_reported. Qed.
Print Assumptions C11_ring_err_failed_write_reported.

(* No spurious error: flush attempt j returns the error only if the Write of one of the
   chunks 0..j has failed. *)
Theorem C11_ring_err_no_spurious_error :
  forall (nb : nat) (e : ering) (j : nat), ereach nb e ->
    nth_error (e_res e) j = Some true -> exists i, (i <= j)%nat /\ nth_error (e_out e) i = Some true.
Proof. exact ering_error_means_failed_write. Qed.
Print Assumptions C11_ring_err_no_spurious_error.

(* Sticky: after a flush attempt returned the error every later one (of Flush, of a Send*
   that needs room, of Close) returns it. *)
Theorem C11_ring_err_sticky :
  forall (nb : nat) (e : ering) (j k : nat) (b : bool), ereach nb e -> (j <= k)%nat ->
    nth_error (e_res e) j = Some true -> nth_error (e_res e) k = Some b -> b = true.
Proof. exact ering_error_sticky. Qed.
Print Assumptions C11_ring_err_sticky.

(* Close.  When Close has come back from its second phase (its Flush returned nil, toWriter
   closed, fromWriter drained) every slice handed to the writer has been offered to the
   transport, and Close returned the error exactly when one of these Writes failed. *)
Theorem C11_ring_err_close_reports :
  forall (nb : nat) (e : ering) (r : bool), ereach nb e -> e_close e = Some r ->
    length (e_out e) = e_att e /\ r = anyb (e_out e).
Proof. exact ering_close_reports. Qed.
Print Assumptions C11_ring_err_close_reports.

(* The channel operations never block on a full channel — also after Flushes that returned
   the error, where c.WriteBuf keeps aliasing a buffer the writer owns, the buffer taken from
   fromWriter is dropped and the same slice is handed to the writer again. *)
Theorem C11_ring_err_sends_never_block :
  forall (nb : nat) (e : ering), ereach nb e ->
    (e_main e = EIdle -> (e_toW e < nb)%nat) /\
    (e_w e = XRet -> (e_fromW e < nb)%nat) /\
    (forall k, e_w e = XAlloc k -> (k < nb)%nat -> (e_fromW e < nb)%nat).
Proof. exact ering_sends_never_block. Qed.
Print Assumptions C11_ring_err_sends_never_block.

(* No deadlock: in every reachable state in which main is inside NewConn, Flush or Close some
   step is enabled (main's receive, or a step of the writer; conn.Write itself is assumed to
   return), whatever Writes failed before. *)
Theorem C11_ring_err_no_deadlock :
  forall (nb : nat) (e : ering), (0 < nb)%nat -> ereach nb e ->
    e_main e <> EIdle -> e_main e <> EClosed -> exists e', estep nb e e'.
Proof. exact ering_no_deadlock. Qed.
Print Assumptions C11_ring_err_no_deadlock.

(* "No chunk after the failed one reaches the transport" is FALSE of the code (the writer
   goroutine records the error and goes on with the queued slices): an execution in which
   Write 0 fails and Write 1 is made and succeeds ... *)
Theorem C11_ring_err_no_write_after_failure_refuted :
  exists e, ereach 3 e /\ e_out e = [true; false].
Proof. exact ering_write_after_failed_write. Qed.
Print Assumptions C11_ring_err_no_write_after_failure_refuted.

(* ... what holds instead: as long as no flush attempt has returned the error, at most nb-1
   slices have been handed to the writer after the chunk whose Write failed. *)
Theorem C11_ring_err_chunks_after_failure_partial :
  forall (nb : nat) (e : ering) (i : nat), (0 < nb)%nat -> ereach nb e ->
    nth_error (e_out e) i = Some true -> anyb (e_res e) = false -> (e_att e <= i + nb)%nat.
Proof. exact ering_chunks_after_failure_bounded. Qed.
Print Assumptions C11_ring_err_chunks_after_failure_partial.

(* Write side, functional model: [fl i] = None | Some n says whether the i-th conn.Write fails
   (after accepting n bytes); [lag] fixes the schedule (flush attempt j sees the failures of the
   Writes i with i + lag <= j; the correspondence cases run lag = numBuffers-1, which by the
   theorems above is the latest any interleaving reports).  For all buffer sizes, fault
   functions, schedules and scripts: *)

(* without faults the model IS the sender of Conn.v and every call returns nil — all the
   fault-free theorems above speak about the same function *)
Theorem C11_werr_conservative :
  forall (nbuf wcap : N) (lag : nat) (ops : list op),
    frun nbuf wcap (fun _ => None) lag s_init ops = (run_sender nbuf wcap ops, map (fun _ => false) ops).
Proof. exact werr_conservative. Qed.
Print Assumptions C11_werr_conservative.

(* as long as no call has returned the error, state, chunks and counters are those of the
   fault-free sender (whatever Writes have failed unnoticed) *)
Theorem C11_werr_until_reported :
  forall (nbuf wcap : N) (fl : nat -> option N) (lag : nat) (ops : list op) (s : sender),
    anyb (snd (frun nbuf wcap fl lag s ops)) = false ->
    fst (frun nbuf wcap fl lag s ops) = fold_left (step nbuf wcap) ops s.
Proof. exact werr_until_reported. Qed.
Print Assumptions C11_werr_until_reported.

(* once a call has returned the error and the Conn is still open, EVERY later Flush and
   EVERY later Close returns it, whatever is called in between (any ops, any state) *)
Theorem C11_werr_sticky :
  forall (nbuf wcap : N) (fl : nat -> option N) (lag : nat), (0 < wcap)%N ->
  forall (ops : list op) (s : sender) (o : op) (s1 : sender),
    fstep nbuf wcap fl lag s o = (s1, true) -> s_closed s1 = false ->
    Forall2 (fun o st => o = OFlush \/ o = OClose -> st = true) ops (snd (frun nbuf wcap fl lag s1 ops)).
Proof. exact werr_sticky. Qed.
Print Assumptions C11_werr_sticky.

(* a script ending in Close all of whose calls returned nil: no Write failed and the transport
   accepted exactly the concatenation of the encodings of the values sent *)
Theorem C11_werr_close_nil_delivers :
  forall (nbuf wcap : N) (fl : nat -> option N) (lag : nat) (ops : list op), (0 < wcap)%N ->
    close_only_last (ops ++ [OClose]) ->
    anyb (snd (frun nbuf wcap fl lag s_init (ops ++ [OClose]))) = false ->
    let s := fst (frun nbuf wcap fl lag s_init (ops ++ [OClose])) in
    s = run_sender nbuf wcap (ops ++ [OClose]) /\
    wire_accepted fl s = concat (map encode (values_of (ops ++ [OClose]))) /\
    any_fail fl (attempts s) = false.
Proof. exact werr_close_nil_delivers. Qed.
Print Assumptions C11_werr_close_nil_delivers.

(* "no byte reaches the transport after a failed Write" is FALSE: a Write that fails once
   leaves a hole in the stream the transport accepts (values 1, 2 sent; 2 alone arrives) while
   all four calls return nil *)
Theorem C11_werr_no_bytes_after_failure_refuted :
  exists (fl : nat -> option N) (ops : list op),
    let '(s, st) := frun 3 16 fl 2 s_init ops in
    failing fl 0 = true /\ st = [false; false; false; false] /\
    wire_accepted fl s = [0; 0; 0; 2]%N /\ concat (map encode (values_of ops)) = [0; 0; 0; 1; 0; 0; 0; 2]%N.
Proof. exact werr_bytes_after_failed_write. Qed.
Print Assumptions C11_werr_no_bytes_after_failure_refuted.

(* Read side.  For every read-buffer size >= 16, every stream (ANY bytes, not only a
   sender's), every segmentation, every point [p] after which the transport fails (None:
   never), the error coming with the last bytes or on the following Read, and every sequence
   of typed receives: each value returned as a success is the value the WHOLE stream carries
   at that place (never a partially filled one); the receive that fails is the first whose
   value is not complete before [p], and it returns the transport's error. *)
Theorem C11_rfault_no_partial_value :
  forall (rcap : N), (16 <= rcap)%N ->
  forall (tys : list ty) (stream frags : list N) (eofdata : bool) (p : option N)
         (r' : receiver) (vs : list val) (e : option rerr), Forall (ty_fits rcap) tys ->
    recv_upto rcap tys (r_init (cut_transport p stream frags eofdata)) = (r', vs, e) ->
    (exists rest, parse_all (firstn (length vs) tys) stream = Some (vs, rest)) /\
    (e = None -> length vs = length tys) /\
    (forall e', e = Some e' -> e' = EEOF /\ (length vs < length tys)%nat /\
       exists rest', parse_all (firstn (length vs) tys) (t_stream (cut_transport p stream frags eofdata)) = Some (vs, rest') /\
                     parse_ty (nth (length vs) tys TByte) rest' = None).
Proof. exact rfault_no_partial_value. Qed.
Print Assumptions C11_rfault_no_partial_value.

(* ... with the sender: the stream of any script of the domain cut ANYWHERE: what the matching
   receives return is a prefix of the values sent, all of them iff no receive failed. *)
Theorem C11_rfault_roundtrip_prefix :
  forall (nbuf wcap rcap : N) (ops : list op) (frags : list N) (eofdata : bool) (p : option N)
         (r' : receiver) (vs : list val) (e : option rerr),
    (16 <= wcap)%N -> (16 <= rcap)%N ->
    close_only_last ops -> ends_flushed ops -> Forall op_in_domain ops ->
    Forall (ty_fits rcap) (types_of ops) ->
    recv_upto rcap (types_of ops)
      (r_init (cut_transport p (wire_bytes (run_sender nbuf wcap ops)) frags eofdata)) = (r', vs, e) ->
    vs = firstn (length vs) (values_of ops) /\
    (e = None -> vs = values_of ops) /\
    (forall e', e = Some e' -> e' = EEOF /\ (length vs < length (values_of ops))%nat).
Proof. exact rfault_roundtrip_prefix. Qed.
Print Assumptions C11_rfault_roundtrip_prefix.

(* The constants of /repo/p2p/protocol.go (regenerated into Gen/Consts.v on
   every run) satisfy the size hypotheses of the theorems above. *)
Theorem C11_real_sizes :
  (16 <= c_wcap)%N /\ (16 <= c_rcap)%N /\ (0 < c_nbuf)%N /\
  c_nbuf = Z.to_N p2p_numBuffers /\ c_wcap = Z.to_N p2p_writeBufSize /\ c_rcap = Z.to_N p2p_readBufSize.
Proof. exact real_sizes_ok. Qed.
Print Assumptions C11_real_sizes.

(* STATE INVENTORY (finite obligation on the model regenerated from the source, checked by
   computation).  The struct fields and package-level variables of the Go packages this
   property is anchored in — p2p — as emitted from /repo's current
   source by harness/gen_state.go (Gen/State.v) are exactly those the models above were written
   against (Base/StateExpected.v).  A new field or variable (a cache, a memo, a pool, a counter,
   a changed field type) is state the models do not have: this obligation then breaks and the
   property is no longer shown to hold until the change has been reviewed against the model. *)
Theorem C11_state_inventory :
  Mpc.Base.StateCheck.state_unchanged Mpc.Gen.State.state_inventory Mpc.Base.StateExpected.expected_state
    Mpc.Base.StatePkgs.pkgs_C11 = true.
Proof. vm_compute. reflexivity. Qed.
Print Assumptions C11_state_inventory.
