(* Props/C13.v — property C13: input and output value encoding is lossless
   and consistent.  Only statements closed by [exact], each followed by
   Print Assumptions.  All theorems are about the model of the code as it is
   in /repo now: [parse], [set], [sizes], [input_sizes], [instantiate],
   [split], [result] are the definitions the executable entry point run_c13
   (the correspondence) runs.  The refutations/partial statements about the
   code before the fix commits 8d9a986 / 19f0a68 / a0b0be5 are kept in
   IO/IOArgProof.v as a regression record (lemmas with "old" in the name).  The two
   [_refuted] theorems below concern defects that are still in the code
   (known findings: signed inferred sizes, nested-struct sizes overlap); the
   restricted statements that do hold are proved beside them. *)
From Coq Require Import ZArith NArith List Bool.
From Mpc Require Import Gen.Consts IO.IOArg IO.IOArgProof IO.IOResults IO.IOResultsProof IO.IOTypes IO.IOTypesProof IO.RunC13.
Import ListNotations.
From Mpc Require Gen.State Base.StateExpected Base.StateCheck Base.StatePkgs.
Open Scope Z_scope.

(* The executed model follows the repaired code: setInt writes exactly
   Type.Bits bits with sign extension, Result works on a copy, bitLen tests
   bit 1.  (Reverting one of the three [_now] switches of IO/IOArg.v breaks
   this statement and the proofs below.) *)
Theorem C13_now_is :
  set = set_fixed /\ result = result_fixed /\ sizes = sizes_fixed /\
  set_int_now = set_int_fixed /\ result_tint_now = result_tint_fixed /\ bit_len_now = bit_len_fixed.
Proof. exact (conj eq_refl (conj eq_refl (conj eq_refl (conj eq_refl (conj eq_refl eq_refl))))). Qed.
Print Assumptions C13_now_is.

(* ---- (1) Parse: little-endian two's complement, declaration order ---- *)

(* every width b, signed or not, every string s that SetString(s,0) reads as z
   (decimal, 0x, 0b, 0o, sign, separators): the wires are bit i of z for i < b,
   which as an unsigned number is z mod 2^b *)
Theorem C13_parse_int_bits :
  forall (signed : bool) (b : nat) (s : list N) (z : Z),
    set_string s = Some z ->
    exists r, parse (leaf_arg (if signed then TyInt b else TyUint b)) [s] = Ok r /\
      wires r b = wires z b /\ from_bits (wires r b) = z mod 2 ^ Z.of_nat b.
Proof. exact parse_int_bits. Qed.
Print Assumptions C13_parse_int_bits.

(* every string: accepted exactly as one of the six bool spellings, one wire *)
Theorem C13_parse_bool_bits :
  forall s r, parse (leaf_arg TyBool) [s] = Ok r ->
    (mem_str s bool_false_spellings = true /\ wires r 1 = [false]) \/
    (mem_str s bool_true_spellings = true /\ wires r 1 = [true]).
Proof. exact parse_bool_bits. Qed.
Print Assumptions C13_parse_bool_bits.

(* every element type of non-zero width, every length n > 0, every literal:
   it is read as k = ceil(bitlen/e) big-endian e-bit elements (bitlen = digit
   count * 4 for 0x literals, BitLen otherwise), accepted iff k <= n, element
   i < k on wires [i*e, (i+1)*e) little-endian, zero elements after it *)
Theorem C13_parse_array_bits :
  forall el n s val r,
    (0 < bits_of el)%nat -> (0 < n)%nat -> set_string s = Some val ->
    parse (leaf_arg (TyArray el n)) [s] = Ok r ->
    let e := bits_of el in let k := literal_elems s val e in
    (k <= n)%nat /\ 0 <= r < 2 ^ Z.of_nat (n * e) /\
    wires r (n * e) = concat (map (array_elem_wires val k e) (seq 0 n)).
Proof. exact parse_array_bits. Qed.
Print Assumptions C13_parse_array_bits.

Theorem C13_parse_slice_bits :
  forall el n s val r,
    (0 < bits_of el)%nat -> set_string s = Some val ->
    parse (leaf_arg (TySlice el n)) [s] = Ok r ->
    let e := bits_of el in let k := literal_elems s val e in
    0 <= r < 2 ^ Z.of_nat (k * e) /\
    wires r (k * e) = concat (map (array_elem_wires val k e) (seq 0 k)).
Proof. exact parse_slice_bits. Qed.
Print Assumptions C13_parse_slice_bits.

(* every element list l (elements < 2^e): element i of the literal whose value
   spells l first-element-most-significant is l[i] *)
Theorem C13_array_literal_elements :
  forall e l i,
    Forall (fun x => 0 <= x < 2 ^ Z.of_nat e) l -> (i < length l)%nat ->
    wires (chunk (be_value e l) (length l) e i) e = wires (nth i l 0) e.
Proof. exact chunk_be_value. Qed.
Print Assumptions C13_array_literal_elements.

(* every compound argument (any members, nested or ill-formed included), every
   input list Parse accepts: one input per member, and the argument's wires
   are the members' own Type.Bits wires concatenated in declaration order *)
Theorem C13_parse_compound_order :
  forall t c cs ins r,
    parse (IOArg t (c :: cs)) ins = Ok r ->
    length ins = length (c :: cs) /\
    exists rs, member_values parse (c :: cs) ins = Some rs /\ length rs = length (c :: cs) /\
      wires r (total_bits (c :: cs)) = member_wires (c :: cs) rs.
Proof. exact parse_compound_wires. Qed.
Print Assumptions C13_parse_compound_order.

(* ---- (2) Set (Go values) and Parse (text) put the same bits on the wires ---- *)

(* Every list of leaf member types (bool, intN/uintN of any width, arrays and
   slices of integer elements >= 8 bits, any length incl. 0), every Go value
   in its domain (negative, min, max; short, empty or nil byte arrays), every
   spelling of it: Set and Parse both succeed and both put the canonical wires
   of the members, in declaration order, on the argument's wires *)
Theorem C13_set_eq_parse :
  forall t m ms ss vs,
    members_spelled (m :: ms) ss vs ->
    exists rs rp,
      set (IOArg t (map leaf_arg (m :: ms))) vs = Ok rs /\
      parse (IOArg t (map leaf_arg (m :: ms))) ss = Ok rp /\
      wires rs (sum_bits (m :: ms)) = gins_wires (m :: ms) vs /\
      wires rp (sum_bits (m :: ms)) = gins_wires (m :: ms) vs.
Proof. exact set_eq_parse_fixed_compound. Qed.
Print Assumptions C13_set_eq_parse.

(* the same for a single (non-compound) argument *)
Theorem C13_set_eq_parse_single :
  forall m s v, gin_domain m v -> spells m s v ->
    exists rs rp, set (leaf_arg m) [v] = Ok rs /\ parse (leaf_arg m) [s] = Ok rp /\
      wires rs (bits_of m) = wires rp (bits_of m).
Proof. exact set_eq_parse_fixed_single. Qed.
Print Assumptions C13_set_eq_parse_single.

(* ---- (3) no member's value disturbs the bits of another member ---- *)

(* Parse: every compound argument whatsoever (nested, ill-formed), any two
   accepted input lists that agree on member j: member j's wires are equal *)
Theorem C13_parse_independent :
  forall t c cs ins ins' r r' j a s,
    parse (IOArg t (c :: cs)) ins = Ok r -> parse (IOArg t (c :: cs)) ins' = Ok r' ->
    nth_error (c :: cs) j = Some a -> nth_error ins j = Some s -> nth_error ins' j = Some s ->
    segment (wires r (total_bits (c :: cs))) (offset_of (c :: cs) j) (i_bits (a_type a))
    = segment (wires r' (total_bits (c :: cs))) (offset_of (c :: cs) j) (i_bits (a_type a)).
Proof. exact parse_independent. Qed.
Print Assumptions C13_parse_independent.

(* Set: all leaf member lists, any two in-domain value lists that agree on
   member j: member j's wires are equal *)
Theorem C13_set_independent :
  forall t m ms vs vs' j mj vj,
    Forall2 gin_domain (m :: ms) vs -> Forall2 gin_domain (m :: ms) vs' ->
    nth_error (m :: ms) j = Some mj -> nth_error vs j = Some vj -> nth_error vs' j = Some vj ->
    exists r r', set (IOArg t (map leaf_arg (m :: ms))) vs = Ok r /\
                 set (IOArg t (map leaf_arg (m :: ms))) vs' = Ok r' /\
      segment (wires r (sum_bits (m :: ms))) (sum_bits (firstn j (m :: ms))) (bits_of mj)
      = segment (wires r' (sum_bits (m :: ms))) (sum_bits (firstn j (m :: ms))) (bits_of mj).
Proof. exact set_fixed_independent. Qed.
Print Assumptions C13_set_independent.

(* Set with a caller-supplied destination: every previous content of the
   destination (nil, zero, all ones, an earlier encoding of other values),
   every argument (ill-formed included), every input list: the outcome —
   value, error or panic — is that of Set on a fresh destination; so the wires
   of a short / nil array or of a shorter slice never keep earlier bits, and
   with C13_set_eq_parse the reused form equals Parse of the text as well *)
Theorem C13_set_ignores_previous_content :
  forall prev io inputs, set_into prev io inputs = set io inputs.
Proof. exact set_into_now_ignores_prev. Qed.
Print Assumptions C13_set_ignores_previous_content.

(* Set on EVERY argument (nested, ill-formed Infos, any Go values, any start
   offset): it only writes at or above its offset, so nothing written later
   disturbs the wires below *)
Theorem C13_set_keeps_lower_wires :
  forall io result inputs ofs r' ofs',
    set_at set_int_now io result inputs ofs = Ok (r', ofs') ->
    (ofs <= ofs')%nat /\ keeps_below result r' ofs.
Proof. exact set_at_fixed_keeps. Qed.
Print Assumptions C13_set_keeps_lower_wires.

(* IO.Split: every argument list, every value (negative included): part j is
   a non-negative number below 2^Bits_j with the value's wires at offset j *)
Theorem C13_split_member :
  forall io inp j a, nth_error io j = Some a ->
    exists x, nth_error (split io inp) j = Some x /\
      0 <= x < 2 ^ Z.of_nat (i_bits (a_type a)) /\
      wires x (i_bits (a_type a)) = wires (Z.shiftr inp (Z.of_nat (offset_of io j))) (i_bits (a_type a)).
Proof. exact split_member. Qed.
Print Assumptions C13_split_member.

(* … and Split undoes the packing of Parse, for every compound argument *)
Theorem C13_parse_split_roundtrip :
  forall t c cs ins r j a s,
    parse (IOArg t (c :: cs)) ins = Ok r ->
    nth_error (c :: cs) j = Some a -> nth_error ins j = Some s ->
    exists x p, parse a [s] = Ok x /\ nth_error (split (c :: cs) r) j = Some p /\
      0 <= p < 2 ^ Z.of_nat (i_bits (a_type a)) /\
      wires p (i_bits (a_type a)) = wires x (i_bits (a_type a)).
Proof. exact parse_split_roundtrip. Qed.
Print Assumptions C13_parse_split_roundtrip.

(* ---- (4) the inferred sizes match what is written ---- *)

(* Sizes: every Go integer value: the inferred width holds uint64(v) *)
Theorem C13_sizes_int :
  forall z, go_int_range z ->
    sizes [GInt z] = Ok [bit_len_now (uint64_conv z)] /\
    uint64_conv z < 2 ^ Z.of_nat (bit_len_now (uint64_conv z)).
Proof. exact (fun z _ => sizes_fixed_int z). Qed.
Print Assumptions C13_sizes_int.

(* Go value versus text: every uint64 value z INCLUDING 0, every spelling of
   it SetString reads (not a 0x literal, not the <n>x<hex> form; 0 written
   "0"): circuit.Sizes of the Go value and circuit.InputSizes of the text
   infer the same, non-zero, size — for 0 one bit (bitLen(0) = 1, "0" -> 1),
   so an unsized argument gets the same type and at least one wire from
   either form *)
Theorem C13_sizes_value_eq_text :
  forall s z,
    0 <= z < 2 ^ 64 -> set_string s = Some z ->
    match_hex_input s = None -> has_prefix s_0x s = false ->
    (z = 0 -> s = s_0) ->
    exists n, sizes [GInt z] = Ok [n] /\ input_sizes [s] = Ok [n] /\ (0 < n)%nat.
Proof. exact sizes_eq_input_sizes. Qed.
Print Assumptions C13_sizes_value_eq_text.

(* every byte slice: Sizes is the number of bits Set writes for it *)
Theorem C13_sizes_bytes :
  forall l, sizes [GBytes l] = Ok [(length l * 8)%nat].
Proof. exact (sizes_bytes bit_len_now). Qed.
Print Assumptions C13_sizes_bytes.

(* InputSizes: every string SetString reads (other than the bool spellings and
   the <n>x<hex> repeat form): the size is the bit length Parse itself assigns
   to the literal *)
Theorem C13_input_size_literal :
  forall s z,
    set_string s = Some z ->
    mem_str s bool_false_spellings = false -> mem_str s bool_true_spellings = false ->
    match_hex_input s = None ->
    input_size s = Ok (literal_bit_len s z).
Proof. exact input_size_literal. Qed.
Print Assumptions C13_input_size_literal.

(* InstantiateWithSizes on whole FLAT struct templates: every list of leaf
   templates (bool, int, uint, []T / [n]T with non-struct T of non-zero
   width), every size list at least as long: member i is instantiated from
   size i, Bits is the sum *)
Theorem C13_instantiate_flat_struct :
  forall ms szs,
    ms <> [] -> Forall leaf_template_ok ms -> (length ms <= length szs)%nat ->
    instantiate (template_of (TyStruct ms)) szs
    = Ok (Info types_TStruct (sum_bits (resize_all ms szs)) 0 None
               (map info_of (resize_all ms szs)) true).
Proof. exact instantiate_flat_struct. Qed.
Print Assumptions C13_instantiate_flat_struct.

(* structs that MIX declared-width members (bool, intN, uintN, [n]T) with
   unsized ones (int, uint, []T), in every order, every size list at least as
   long (so also sizes below / equal to / above the declared widths): every
   declared member comes out exactly as declared, every unsized member i takes
   size i, Bits is the sum *)
Theorem C13_instantiate_mixed_struct :
  forall ms szs b0 a0,
    ms <> [] -> Forall member_ok_mixed ms -> (length ms <= length szs)%nat ->
    instantiate (Info types_TStruct b0 a0 None (map mtemplate ms) false) szs
    = Ok (Info types_TStruct (sum_bits (mresize_all ms szs)) a0 None
               (map info_of (mresize_all ms szs)) true).
Proof. exact instantiate_mixed_struct. Qed.
Print Assumptions C13_instantiate_mixed_struct.

(* the frame statement on its own: a concrete type is left exactly as it is
   by InstantiateWithSizes, whatever size is inferred for its value *)
Theorem C13_instantiate_declared_frame :
  forall t sz rest, declared_ok t -> instantiate (info_of t) (sz :: rest) = Ok (info_of t).
Proof. exact instantiate_declared_frame. Qed.
Print Assumptions C13_instantiate_declared_frame.

(* … NESTED struct templates: false (known finding): struct{struct{uint,uint},uint}
   with sizes [10,1,3] gives the last member size 1 *)
Theorem C13_instantiate_nested_refuted :
  exists t szs t',
    instantiate (template_of t) szs = Ok t' /\ length szs = length (leaves t) /\
    Forall leaf_template_ok (leaves t) /\
    (fix flat (i : info) : list info :=
       match i with Info _ _ _ _ fs _ =>
         if kind_is i types_TStruct then flat_map flat fs else [i] end) t'
    <> map info_of (resize_all (leaves t) szs).
Proof. exact instantiate_nested_refuted. Qed.
Print Assumptions C13_instantiate_nested_refuted.

(* end to end, unsized uint argument, text form: every spelling of z >= 0
   (not a bool spelling / 0x literal): InputSizes -> InstantiateWithSizes ->
   Parse loses nothing *)
Theorem C13_unsized_uint_lossless :
  forall s z,
    set_string s = Some z -> 0 <= z ->
    mem_str s bool_false_spellings = false -> mem_str s bool_true_spellings = false ->
    match_hex_input s = None -> has_prefix s_0x s = false ->
    exists n r,
      input_sizes [s] = Ok [n] /\
      instantiate (template_of (TyUint 0)) [n] = Ok (info_of (TyUint n)) /\
      parse (leaf_arg (TyUint n)) [s] = Ok r /\ from_bits (wires r n) = z.
Proof. exact unsized_uint_lossless. Qed.
Print Assumptions C13_unsized_uint_lossless.

(* end to end, a whole flat struct of unsized uint members, text form: every
   non-empty list of spellings of non-negative integers (not bool spellings /
   0x literals): InputSizes, InstantiateWithSizes of the struct template and
   Parse of the instantiated compound argument all succeed; member i has the
   width inferred from input i, that width holds value i, and the wires are
   the values in declaration order *)
Theorem C13_unsized_uint_struct_lossless :
  forall s0 ss z0 zs,
    Forall2 plain_spelling (s0 :: ss) (z0 :: zs) ->
    exists szs t r,
      input_sizes (s0 :: ss) = Ok szs /\ length szs = length (s0 :: ss) /\
      instantiate (template_of (TyStruct (map (fun _ => TyUint 0) (s0 :: ss)))) szs = Ok t /\
      t = Info types_TStruct (sum_bits (map TyUint szs)) 0 None (map info_of (map TyUint szs)) true /\
      parse (IOArg t (map leaf_arg (map TyUint szs))) (s0 :: ss) = Ok r /\
      wires r (sum_bits (map TyUint szs)) = uint_wires (z0 :: zs) szs /\
      Forall2 (fun z n => z < 2 ^ Z.of_nat n) (z0 :: zs) szs.
Proof. exact unsized_uint_struct_lossless. Qed.
Print Assumptions C13_unsized_uint_struct_lossless.

(* end to end, unsized uint argument, Go-value form: Sizes ->
   InstantiateWithSizes -> Set loses nothing, every uint64 value *)
Theorem C13_unsized_uint_sizes_lossless :
  forall z, 0 <= z < 2 ^ 64 ->
    exists n r,
      sizes [GInt z] = Ok [n] /\
      instantiate (template_of (TyUint 0)) [n] = Ok (info_of (TyUint n)) /\
      set (leaf_arg (TyUint n)) [GInt z] = Ok r /\ from_bits (wires r n) = z.
Proof. exact unsized_uint_sizes_lossless. Qed.
Print Assumptions C13_unsized_uint_sizes_lossless.

(* end to end, unsized array/slice argument: every literal, every non-struct
   element type of non-zero width: the instantiated slice has exactly the k
   elements Parse reads from the literal and Parse puts them on its wires *)
Theorem C13_unsized_slice_lossless :
  forall el s val,
    is_struct el = false -> (0 < bits_of el)%nat ->
    set_string s = Some val ->
    mem_str s bool_false_spellings = false -> mem_str s bool_true_spellings = false ->
    match_hex_input s = None ->
    let e := bits_of el in let k := literal_elems s val e in
    exists sz r,
      input_sizes [s] = Ok [sz] /\
      instantiate (template_of (TySlice el 0)) [sz] = Ok (info_of (TySlice el k)) /\
      parse (leaf_arg (TySlice el k)) [s] = Ok r /\
      0 <= r < 2 ^ Z.of_nat (k * e) /\
      wires r (k * e) = concat (map (array_elem_wires val k e) (seq 0 k)).
Proof. exact unsized_slice_lossless. Qed.
Print Assumptions C13_unsized_slice_lossless.

(* for SIGNED unsized integers the inferred width has no room for the sign
   (known finding): "128" -> 8 bits *)
Theorem C13_input_size_signed_refuted :
  exists s z n, set_string s = Some z /\ input_size s = Ok n /\
    ~ (- 2 ^ (Z.of_nat n - 1) <= z < 2 ^ (Z.of_nat n - 1)).
Proof. exact input_size_signed_refuted. Qed.
Print Assumptions C13_input_size_signed_refuted.

(* ---- (5) Result inverts the encoding, is repeatable, leaves its argument ---- *)

(* every type (well-formed or not), every big.Int value: the argument after
   the call is the argument *)
Theorem C13_result_pure :
  forall t r o r', result t r = Ok (o, r') -> r' = r.
Proof. exact result_fixed_arg_unchanged. Qed.
Print Assumptions C13_result_pure.

(* … and decoding the value that is left decodes the same Go value again *)
Theorem C13_result_repeatable :
  forall t r o r', result t r = Ok (o, r') -> result t r' = Ok (o, r').
Proof. exact result_fixed_repeatable. Qed.
Print Assumptions C13_result_repeatable.

(* every width b >= 1, every signed value of that width: the wire value
   z mod 2^b decodes to z (as intN for b <= 64, *big.Int above) *)
Theorem C13_result_inverse_int :
  forall b z, (0 < b)%nat -> - 2 ^ (Z.of_nat b - 1) <= z < 2 ^ (Z.of_nat b - 1) ->
    result (info_of (TyInt b)) (z mod 2 ^ Z.of_nat b)
    = Ok (go_int true b z, z mod 2 ^ Z.of_nat b).
Proof. exact result_fixed_int_inverse. Qed.
Print Assumptions C13_result_inverse_int.

Theorem C13_result_inverse_uint :
  forall b z, 0 <= z < 2 ^ Z.of_nat b ->
    result (info_of (TyUint b)) z = Ok (go_int false b z, z).
Proof. exact (result_uint_inverse result_tint_now). Qed.
Print Assumptions C13_result_inverse_uint.

Theorem C13_result_inverse_bool :
  forall v : bool, result (info_of TyBool) (Z.b2z v) = Ok (OBool v, Z.b2z v).
Proof. exact (result_bool_inverse result_tint_now). Qed.
Print Assumptions C13_result_inverse_bool.

(* arrays and slices: every supported element type, every length, every
   element list: element i of the Go slice is Result of element i's wire
   value; argument unchanged *)
Theorem C13_result_inverse_array :
  forall (slice : bool) el n ek ew (us : list Z),
    elem_go_type (info_of el) = Some (ek, ew) ->
    Forall (fun x => 0 <= x < 2 ^ Z.of_nat (bits_of el)) us -> length us = n ->
    (forall u, In u us -> exists o a, result_scalar result_tint_now (info_of el) u = Ok (o, a)) ->
    result (info_of (if slice then TySlice el n else TyArray el n)) (le_value (bits_of el) us)
    = Ok (OSlice ek ew (map (scalar_out result_tint_now (info_of el)) us), le_value (bits_of el) us).
Proof. exact (result_array_inverse result_tint_now). Qed.
Print Assumptions C13_result_inverse_array.

(* signed elements: every width, every length, every in-range element list *)
Theorem C13_result_inverse_int_array :
  forall (slice : bool) b n (zs : list Z),
    (0 < b)%nat -> length zs = n ->
    Forall (fun z => - 2 ^ (Z.of_nat b - 1) <= z < 2 ^ (Z.of_nat b - 1)) zs ->
    let r := le_value b (map (fun z => z mod 2 ^ Z.of_nat b) zs) in
    exists ek ew,
      result (info_of (if slice then TySlice (TyInt b) n else TyArray (TyInt b) n)) r
      = Ok (OSlice ek ew (map (go_int true b) zs), r).
Proof. exact result_fixed_int_array_inverse. Qed.
Print Assumptions C13_result_inverse_int_array.

(* ---- (6) whole output lists: mpc.Results, Outputs.Split -> Results, round trips ---- *)

(* mpc.Results with an outputs list, every outputs list (ill-formed types
   included), every value list (negative / oversized values included): it
   returns exactly when there is an output for every value and Result returns
   on every (value, output) pair, and then item i is Result(values[i], outputs[i]) *)
Theorem C13_results_per_output :
  forall rs outs l,
    results (Some outs) rs = Ok l <->
    (length rs <= length outs)%nat /\
    Forall2 (fun ro x => result (a_type (snd ro)) (fst ro) = Ok x) (combine rs outs) l.
Proof. exact results_per_output. Qed.
Print Assumptions C13_results_per_output.

(* … and with fewer outputs than values it panics (outputs[idx]), whatever the values *)
Theorem C13_results_short_outputs_panic :
  forall rs outs, (length outs < length rs)%nat -> results (Some outs) rs = Panic.
Proof. exact results_short_outputs. Qed.
Print Assumptions C13_results_short_outputs_panic.

(* nil outputs: every value list: every value comes back as the *big.Int it is *)
Theorem C13_results_nil_outputs :
  forall rs, results None rs = Ok (map (fun r => (OBig r, r)) rs).
Proof. exact results_nil_outputs. Qed.
Print Assumptions C13_results_nil_outputs.

(* every outputs list (nil included), every value list: the values after the
   call are the values, and a second call on them returns the same Go values *)
Theorem C13_results_pure :
  forall outputs rs l, results outputs rs = Ok l -> map snd l = rs.
Proof. exact results_arg_unchanged. Qed.
Print Assumptions C13_results_pure.

Theorem C13_results_repeatable :
  forall outputs rs l, results outputs rs = Ok l -> results outputs (map snd l) = Ok l.
Proof. exact results_repeatable. Qed.
Print Assumptions C13_results_repeatable.

(* one member of any leaf type (bool, intN/uintN of any width, arrays and
   slices of integer elements of any length, given short / nil included),
   every in-domain Go value: the number its canonical wires spell decodes to
   exactly that value (arrays: the bytes, two's complement per element, then
   zeros), argument unchanged *)
Theorem C13_result_inverse_member :
  forall m v, gin_domain m v -> out_ok m ->
    result (info_of m) (from_bits (gin_wires m v)) = Ok (decoded m v, from_bits (gin_wires m v)).
Proof. exact decode_member. Qed.
Print Assumptions C13_result_inverse_member.

(* THE OUTPUT PIPELINE of every runner, Outputs.Split(raw) then Results: every
   list of leaf output types, every in-domain value list, every raw value
   whose output wires carry the canonical wires of the values (whatever is
   above them; negative raw values included): exactly the values come out,
   output by output *)
Theorem C13_output_pipeline :
  forall ms vs raw,
    Forall2 gin_domain ms vs -> Forall out_ok ms ->
    wires raw (sum_bits ms) = gins_wires ms vs ->
    output_values (map leaf_arg ms) raw = Ok (decoded_all ms vs).
Proof. exact output_values_canonical. Qed.
Print Assumptions C13_output_pipeline.

(* … output j is the value of member j alone (no other member's value reaches it) *)
Theorem C13_output_independent :
  forall ms vs j mj vj,
    nth_error ms j = Some mj -> nth_error vs j = Some vj ->
    nth_error (decoded_all ms vs) j = Some (decoded mj vj, from_bits (gin_wires mj vj)).
Proof. exact decoded_all_nth. Qed.
Print Assumptions C13_output_independent.

(* ROUND TRIP, text form: every non-empty list of leaf member types, every
   in-domain value list, every spelling list of it: Parse accepts, and the
   parsed value handed through Split and Results is the value list *)
Theorem C13_roundtrip_text :
  forall t m ms ss vs,
    members_spelled (m :: ms) ss vs -> Forall out_ok (m :: ms) ->
    exists rp, parse (IOArg t (map leaf_arg (m :: ms))) ss = Ok rp /\
      output_values (map leaf_arg (m :: ms)) rp = Ok (decoded_all (m :: ms) vs).
Proof. exact roundtrip_text. Qed.
Print Assumptions C13_roundtrip_text.

(* ROUND TRIP, Go-value form *)
Theorem C13_roundtrip_value :
  forall t m ms vs,
    Forall2 gin_domain (m :: ms) vs -> Forall out_ok (m :: ms) ->
    exists rs, set (IOArg t (map leaf_arg (m :: ms))) vs = Ok rs /\
      output_values (map leaf_arg (m :: ms)) rs = Ok (decoded_all (m :: ms) vs).
Proof. exact roundtrip_value. Qed.
Print Assumptions C13_roundtrip_value.

(* the same for a single, non-compound argument (Parse returns a NEGATIVE
   big.Int for a negative literal; its two's-complement wires decode to the value) *)
Theorem C13_roundtrip_text_single :
  forall m s v, gin_domain m v -> spells m s v -> out_ok m ->
    exists rp, parse (leaf_arg m) [s] = Ok rp /\
      output_values [leaf_arg m] rp = Ok [(decoded m v, from_bits (gin_wires m v))].
Proof. exact roundtrip_text_single. Qed.
Print Assumptions C13_roundtrip_text_single.

Theorem C13_roundtrip_value_single :
  forall m v, gin_domain m v -> out_ok m ->
    exists rs, set (leaf_arg m) [v] = Ok rs /\
      output_values [leaf_arg m] rs = Ok [(decoded m v, from_bits (gin_wires m v))].
Proof. exact roundtrip_value_single. Qed.
Print Assumptions C13_roundtrip_value_single.

(* array literals of EVERY element type Result decodes (bool, intN / uintN of
   any width also above 64 bits, stringN), every length n > 0, every literal in
   every spelling Parse accepts (0x with odd digit counts, decimal, binary,
   separators, short literals): element i of the Go slice Result returns for
   the parsed value is Result of the literal's i-th e-bit group (first group
   most significant), zero elements after a short literal *)
Theorem C13_parse_array_result :
  forall el n s val r,
    elem_ok el -> (0 < bits_of el)%nat -> (0 < n)%nat -> set_string s = Some val ->
    parse (leaf_arg (TyArray el n)) [s] = Ok r ->
    let e := bits_of el in let k := literal_elems s val e in
    result (info_of (TyArray el n)) r
    = Ok (OSlice (fst (elem_tag el)) (snd (elem_tag el))
                 (map (fun i => scalar_out result_tint_now (info_of el) (literal_elem val k e i)) (seq 0 n)), r).
Proof. exact parse_array_result. Qed.
Print Assumptions C13_parse_array_result.

Theorem C13_parse_slice_result :
  forall el s val r,
    elem_ok el -> (0 < bits_of el)%nat -> set_string s = Some val ->
    let e := bits_of el in let k := literal_elems s val e in
    parse (leaf_arg (TySlice el k)) [s] = Ok r ->
    result (info_of (TySlice el k)) r
    = Ok (OSlice (fst (elem_tag el)) (snd (elem_tag el))
                 (map (fun i => scalar_out result_tint_now (info_of el) (literal_elem val k e i)) (seq 0 k)), r).
Proof. exact parse_slice_result. Qed.
Print Assumptions C13_parse_slice_result.

(* IO.Size of every argument list is the number of wires Split / Parse walk over *)
Theorem C13_io_size :
  forall io, io_size io = total_bits io.
Proof. exact io_size_total. Qed.
Print Assumptions C13_io_size.

Theorem C13_io_size_leaves :
  forall ms, io_size (map leaf_arg ms) = sum_bits ms.
Proof. exact io_size_leaves. Qed.
Print Assumptions C13_io_size_leaves.

(* ---- (7) the text mpc.PrintResults prints reads back as the value ---- *)

(* every Go-integer output (intN / uintN, N <= 64), EVERY value: the text
   printed without -base is accepted by big.Int.SetString(s, 0) as the value *)
Theorem C13_print_int_reparse :
  forall signed w z, set_string (print_value 0 (OInt signed w z)) = Some z.
Proof. exact print_int_reparse. Qed.
Print Assumptions C13_print_int_reparse.

(* every *big.Int output (N > 64), every non-negative value ("0x…") *)
Theorem C13_print_big_reparse :
  forall z, 0 <= z -> set_string (print_value 0 (OBig z)) = Some z.
Proof. exact print_big_reparse. Qed.
Print Assumptions C13_print_big_reparse.

(* … false for negative *big.Int values: -1 is printed "0x-1", which SetString rejects *)
Theorem C13_print_big_negative_refuted :
  exists z, z < 0 /\ set_string (print_value 0 (OBig z)) = None.
Proof. exact print_big_negative_refuted. Qed.
Print Assumptions C13_print_big_negative_refuted.

(* with -base 10 every integer output of every width and sign reads back *)
Theorem C13_print_base10_reparse :
  forall o z, (exists signed w, o = OInt signed w z) \/ o = OBig z ->
    set_string (print_value 10 o) = Some z.
Proof. exact print_base10_reparse. Qed.
Print Assumptions C13_print_base10_reparse.

(* in terms of argument types: every width b, signed or not, every value
   (non-negative when b > 64): IOArg.Parse for that type on the text
   PrintResults prints for the value returns the value *)
Theorem C13_print_parse_roundtrip :
  forall (signed : bool) b z, (b <= 64)%nat \/ 0 <= z ->
    parse (leaf_arg (if signed then TyInt b else TyUint b)) [print_value 0 (go_int signed b z)] = Ok z.
Proof. exact print_parse_roundtrip. Qed.
Print Assumptions C13_print_parse_roundtrip.

(* every non-empty byte-array output: it is printed as two hex digits per
   byte, first element first, and "0x" + that text parsed for the same array
   type puts the same bytes on the wires *)
Theorem C13_print_bytes_reparse :
  forall l, l <> [] -> Forall (fun x => (x < 256)%N) l ->
    let m := TyArray (TyUint 8) (length l) in
    print_value 0 (decoded m (GBytes l)) = hex_bytes l /\
    exists r, parse (leaf_arg m) [[48; 120]%N ++ hex_bytes l] = Ok r /\
      wires r (bits_of m) = gin_wires m (GBytes l).
Proof. exact print_bytes_reparse. Qed.
Print Assumptions C13_print_bytes_reparse.

(* ---- (8) sizes of whole argument lists ---- *)

(* InputSizes / Sizes of every list: accepted exactly when every member is,
   size i depends on member i alone *)
Theorem C13_input_sizes_pointwise :
  forall ss ns, input_sizes ss = Ok ns <-> Forall2 (fun s n => input_size s = Ok n) ss ns.
Proof. exact input_sizes_iff. Qed.
Print Assumptions C13_input_sizes_pointwise.

Theorem C13_sizes_pointwise :
  forall vs ns, sizes vs = Ok ns <-> Forall2 (fun v n => sizes [v] = Ok [n]) vs ns.
Proof. exact sizes_iff. Qed.
Print Assumptions C13_sizes_pointwise.

(* Go values versus text for whole argument lists: every list of uint64
   (incl. 0), bool, []byte (any length) and nil values, every list of
   spellings of them (plain integer spellings, the six bool spellings, 0x
   byte literals, "_"): circuit.Sizes and circuit.InputSizes infer the same
   size list, one size per argument *)
Theorem C13_sizes_value_eq_text_list :
  forall vs ss, Forall2 size_spelled vs ss ->
    exists ns, sizes vs = Ok ns /\ input_sizes ss = Ok ns /\ length ns = length vs.
Proof. exact sizes_eq_input_sizes_list. Qed.
Print Assumptions C13_sizes_value_eq_text_list.

(* ---- (9) string outputs ---- *)

(* every stringN output (N = 8 * length), every byte content (NUL bytes
   anywhere, bytes >= 0x80): Result renders exactly one rune per byte, byte 0
   first (printable as itself in UTF-8, anything else \u00XX); argument unchanged *)
Theorem C13_result_string :
  forall l, Forall (fun x => (x < 256)%N) l ->
    result (info_of (TyString (length l * 8))) (str_value l) = Ok (OStr (render l), str_value l).
Proof. exact result_string. Qed.
Print Assumptions C13_result_string.

(* decoding a string output is LOSSLESS: every two byte contents (any bytes,
   NUL and the backslash included; F44 repaired: the backslash is escaped as
   \, so every '\' of the Go string starts a 6-character escape) that
   give the same Go string are equal *)
Theorem C13_result_string_lossless :
  forall l1 l2,
    Forall (fun x => (x < 256)%N) l1 -> Forall (fun x => (x < 256)%N) l2 ->
    map_fst (result (info_of (TyString (length l1 * 8))) (str_value l1))
    = map_fst (result (info_of (TyString (length l2 * 8))) (str_value l2)) ->
    l1 = l2.
Proof. exact result_string_lossless. Qed.
Print Assumptions C13_result_string_lossless.

(* ---- (10) the text form of argument types ---- *)

(* every type without struct members (bool, intN / uintN / stringN, arrays and
   slices of those, arrays of arrays), widths within int32: types.Parse of the
   text Info.String prints for it is the type again, a slice without its length *)
Theorem C13_types_parse_text :
  forall t, text_ok t -> types_parse (info_text (info_of t)) = Ok (info_of (reparsed t)).
Proof. exact types_parse_text. Qed.
Print Assumptions C13_types_parse_text.

(* … for scalar and array types exactly the Info the codec theorems above are about *)
Theorem C13_types_parse_text_exact :
  forall t, text_ok t -> slice_free t -> types_parse (info_text (info_of t)) = Ok (info_of t).
Proof. exact types_parse_text_exact. Qed.
Print Assumptions C13_types_parse_text_exact.

(* STATE INVENTORY (finite obligation on the model regenerated from the source, checked by
   computation).  The struct fields and package-level variables of the Go packages this
   property is anchored in — ., circuit, types — as emitted from /repo's current
   source by harness/gen_state.go (Gen/State.v) are exactly those the models above were written
   against (Base/StateExpected.v).  A new field or variable (a cache, a memo, a pool, a counter,
   a changed field type) is state the models do not have: this obligation then breaks and the
   property is no longer shown to hold until the change has been reviewed against the model. *)
Theorem C13_state_inventory :
  Mpc.Base.StateCheck.state_unchanged Mpc.Gen.State.state_inventory Mpc.Base.StateExpected.expected_state
    Mpc.Base.StatePkgs.pkgs_C13 = true.
Proof. vm_compute. reflexivity. Qed.
Print Assumptions C13_state_inventory.
