(* Props/C16.v — property C16: the garbler never reports a wrong result under
   message corruption.  Only statements closed by [exact] + Print Assumptions. *)
From Coq Require Import NArith List Bool.
From Mpc Require Import Base.Label Base.Codec Circuit.Circuit Circuit.Garble
     Proto.Session Proto.SessionProof Proto.Conn Proto.ConnProof Proto.SessionRx Proto.SessionRxProof
     Circuit.GGarble Proto.SpanView Proto.SpanViewProof.
Import ListNotations.
From Mpc Require Gen.State Base.StateExpected Base.StateCheck Base.StatePkgs.

(* Whatever label list reaches the garbler (arbitrary corruption of either
   direction: key, tables, input labels, OT traffic and returned labels all
   influence the garbler's result ONLY through this list), a successful
   decode means: every returned label is exactly one of the two labels of
   its output wire — the one for the bit the garbler reports.  An unknown
   label or a short list is an error, never a value. *)
Theorem C16_decode_sound :
  forall ws ls bs, decode_all ws ls = Some bs ->
    length bs = length ws /\
    forall i, (i < length ws)%nat -> nth i ls 0%N = pick (nth i ws w0) (nth i bs false).
Proof. exact decode_all_sound. Qed.
Print Assumptions C16_decode_sound.

(* For every block-function family, randomness, key, circuit and inputs and
   EVERY returned label list: if the garbler accepts, then for each output bit
   either the bit is the correct one and the returned label is the honest
   label, or the bit is wrong and the other party produced the honest label
   xor R — the value C04 shows is never transmitted.  (The final
   cryptographic step "nobody without R can compute L xor R" is the named
   assumption.) *)
Theorem C16_wrong_implies_forgery :
  forall (pi_of_key : list N -> N -> N) (rnd : nat -> N) (key : list N) (scratch : list wire)
         (c : circ2) (x y : list bool) (returned : list N) (bits : list bool),
    wf2 c = true -> length x = n0 c -> length y = n1 c ->
    let g := garble (pi_of_key key) rnd scratch (cc c) in
    garbler_finish c g returned = Some bits ->
    length bits = noutputs (cc c) /\
    forall i, (i < noutputs (cc c))%nat ->
      let honest := pick (nth i (out_wires c g) w0) (nth i (eval_plain (cc c) (x ++ y)) false) in
      (nth i bits false = nth i (eval_plain (cc c) (x ++ y)) false /\ nth i returned 0%N = honest) \/
      (nth i bits false <> nth i (eval_plain (cc c) (x ++ y)) false /\
       nth i returned 0%N = lxor honest (gR g)).
Proof.
  exact (fun pi_of_key rnd key scratch c x y returned bits Hwf _ _ =>
           garbler_wrong_implies_forgery pi_of_key rnd key scratch c _ returned bits Hwf).
Qed.
Print Assumptions C16_wrong_implies_forgery.

(* the garbler refuses any OT range other than exactly the evaluator's input wires *)
Theorem C16_range_check :
  forall c off cnt, garbler_range_ok c off cnt = true <->
                    off = N.of_nat (n0 c) /\ cnt = N.of_nat (n1 c).
Proof. exact range_check_spec. Qed.
Print Assumptions C16_range_check.

(* the evaluator rejects a table count other than the circuit's gate count *)
Theorem C16_gate_count_check :
  forall c key cnt rest, cnt <> N.of_nat (length (gates (cc c))) ->
    evaluator_first c (MData key :: MU32 cnt :: rest) = None.
Proof. exact gate_count_check. Qed.
Print Assumptions C16_gate_count_check.

(* BYTE LEVEL (composition with the connection layer of C11).  For every block-
   function family, randomness, key, circuit and inputs, and for EVERY byte string
   [bytes] that reaches the garbler after the OT — whoever produced it — read
   through p2p.Conn with any buffer size >= 16 under EVERY read fragmentation, with
   or without EOF delivered together with data: if the garbler's result loop
   returns bits, then at least 16 * noutputs bytes arrived and for each output i
   either the bit is the correct one and the i-th 16-byte block of the stream IS
   the honest label, or the bit is wrong and that block is the honest label xor R
   (the value C04 shows is never transmitted).  Corrupting any byte of a returned
   label therefore yields an error unless it produces exactly that forgery. *)
Theorem C16_bytes_wrong_implies_forgery :
  forall (pi_of_key : list N -> N -> N) (rcap : N) (rnd : nat -> N) (key : list N) (scratch : list wire)
         (c : circ2) (x y : list bool) (bytes frags : list N) (eofdata : bool) (bits : list bool),
    (16 <= rcap)%N -> wf2 c = true -> length x = n0 c -> length y = n1 c ->
    let g := garble (pi_of_key key) rnd scratch (cc c) in
    snd (garbler_rx_result rcap c g (r_init (mkT bytes frags eofdata 0))) = Some bits ->
    (16 * noutputs (cc c) <= length bytes)%nat /\ length bits = noutputs (cc c) /\
    forall i, (i < noutputs (cc c))%nat ->
      let honest := pick (nth i (out_wires c g) w0) (nth i (eval_plain (cc c) (x ++ y)) false) in
      (nth i bits false = nth i (eval_plain (cc c) (x ++ y)) false /\ block16 i bytes = honest) \/
      (nth i bits false <> nth i (eval_plain (cc c) (x ++ y)) false /\
       block16 i bytes = lxor honest (gR g)).
Proof.
  exact (fun pi_of_key rcap rnd key scratch c x y bytes frags eofdata bits Hcap Hwf _ _ =>
           garbler_rx_result_sound pi_of_key rcap rnd key scratch c _ bytes frags eofdata bits Hcap Hwf).
Qed.
Print Assumptions C16_bytes_wrong_implies_forgery.

(* a truncated stream (fewer than 16 * noutputs bytes ever arrive) is an error,
   never a value — under every fragmentation *)
Theorem C16_bytes_short_is_error :
  forall (rcap : N) (c : circ2) (g : garbled) (bytes frags : list N) (eofdata : bool),
    (16 <= rcap)%N -> (length bytes < 16 * noutputs (cc c))%nat ->
    snd (garbler_rx_result rcap c g (r_init (mkT bytes frags eofdata 0))) = None.
Proof. exact garbler_rx_short_is_error. Qed.
Print Assumptions C16_bytes_short_is_error.

(* the OT query at the byte level: whatever 8 bytes arrive, the garbler goes on
   to the OT only when they are exactly (n0, n1) big endian *)
Theorem C16_bytes_query :
  forall (rcap : N) (c : circ2) (bytes frags : list N) (eofdata : bool),
    (16 <= rcap)%N ->
    snd (garbler_rx_query rcap c (r_init (mkT bytes frags eofdata 0))) = Some true ->
    (8 <= length bytes)%nat /\
    of_be (firstn 4 bytes) = N.of_nat (n0 c) /\ of_be (firstn 4 (skipn 4 bytes)) = N.of_nat (n1 c).
Proof. exact garbler_rx_query_sound. Qed.
Print Assumptions C16_bytes_query.

(* THE FORGERY IS NOT A LINEAR FUNCTION OF THE VIEW (idealised symbolic execution of
   Circuit/GGarble.v: values are GF(2)-combinations of basis elements and R; the hash is
   a memoising random oracle).  For EVERY permute-bit assignment, EVERY wf circuit with
   at most 2^32 tweaks and EVERY input, with view = everything label-dependent the
   garbler transmits (one label per input wire + every garbled row):
   (a) no GF(2)-linear combination of the view — EVERY selection [sel] — equals R;
   (b) no two elements of the span are R apart: for EVERY value h, if h is in the span
       then h xor R (the forgery for an honest label h) is not;
   (c) the view is linearly independent (a combination that is 0 selects nothing),
       i.e. its rank is its length.
   This closes the gap between C16_wrong_implies_forgery and C04 (which only excludes R
   and R-pairs VERBATIM in the transcript) for linear adversaries. *)
Theorem C16_forgery_not_in_span :
  forall (perm : nat -> bool) (c : circuit) (x : list bool),
    wf c = true -> (tweaks_of (gates c) <= 2 ^ 32)%N ->
    let view := sym_transcript perm c x in
    (forall sel, span_xor sel view <> Rsym) /\
    (forall h, in_span h view -> ~ in_span (lxor h Rsym) view) /\
    (forall sel, span_xor sel view = 0%N -> forall i, (i < length view)%nat -> nth i sel false = false).
Proof. exact forgery_not_in_span. Qed.
Print Assumptions C16_forgery_not_in_span.

(* Composed with the garbler's label test (sym_accepts = BitFromLabel on symbolic values):
   for every permute-bit assignment, wf circuit, input, every wire w with L1 = L0 xor R,
   every plain value v of that wire whose honest label (pick w v) the evaluator can derive
   linearly from the view, and EVERY response that is a linear function of the view
   (every selection): if the garbler accepts the response, the bit it decodes is v. *)
Theorem C16_linear_response_right_bit :
  forall (perm : nat -> bool) (c : circuit) (x : list bool) (w : wire) (v : bool)
         (sel : list bool) (b : bool),
    wf c = true -> (tweaks_of (gates c) <= 2 ^ 32)%N ->
    L1 w = lxor (L0 w) Rsym ->
    let view := sym_transcript perm c x in
    in_span (pick w v) view ->
    sym_accepts w (span_xor sel view) = Some b -> b = v.
Proof. exact linear_response_right_bit. Qed.
Print Assumptions C16_linear_response_right_bit.

(* The executable span test that run_c16 evaluates on the generated circuits of every
   run (Gaussian elimination on bitsets, SpanView.in_span_b) is sound (a positive answer
   exhibits a combination), hence on the view of EVERY wf circuit, permute-bit assignment
   and input it never reports R in the span nor two span elements R apart. *)
Theorem C16_span_test_sound :
  forall v tr, in_span_b v tr = true -> in_span v tr.
Proof. exact in_span_b_sound. Qed.
Print Assumptions C16_span_test_sound.

Theorem C16_span_test_never_fires :
  forall (perm : nat -> bool) (c : circuit) (x : list bool),
    wf c = true -> (tweaks_of (gates c) <= 2 ^ 32)%N ->
    let view := sym_transcript perm c x in
    in_span_b Rsym view = false /\
    forall h, in_span_b h view = true -> in_span_b (lxor h Rsym) view = false.
Proof. exact span_test_never_fires. Qed.
Print Assumptions C16_span_test_never_fires.

(* STATE INVENTORY (finite obligation on the model regenerated from the source, checked by
   computation).  The struct fields and package-level variables of the Go packages this
   property is anchored in — circuit, compiler/ssa — as emitted from /repo's current
   source by harness/gen_state.go (Gen/State.v) are exactly those the models above were written
   against (Base/StateExpected.v).  A new field or variable (a cache, a memo, a pool, a counter,
   a changed field type) is state the models do not have: this obligation then breaks and the
   property is no longer shown to hold until the change has been reviewed against the model. *)
Theorem C16_state_inventory :
  Mpc.Base.StateCheck.state_unchanged Mpc.Gen.State.state_inventory Mpc.Base.StateExpected.expected_state
    Mpc.Base.StatePkgs.pkgs_C16 = true.
Proof. vm_compute. reflexivity. Qed.
Print Assumptions C16_state_inventory.
