(* Props/C02.v — property C02: in the two-party protocol both parties obtain
   f(x, y).  Only statements closed by [exact] + Print Assumptions. *)
From Coq Require Import NArith List Bool.
From Mpc Require Import Base.Label Base.Codec Base.CodecProof Circuit.Circuit Circuit.Garble
     Proto.Session Proto.SessionProof Proto.Conn Proto.ConnProof Proto.SessionConn Proto.SessionOT.
Import ListNotations.
From Mpc Require Gen.State Base.StateExpected Base.StateCheck Base.StatePkgs.

(* For every key-indexed family of block functions, every random stream,
   every key, every scratch content, every well-formed two-party circuit and
   every pair of inputs, with an OT that delivers exactly the chosen label
   (the ideal functionality; discharged per implementation by C06): the
   session model runs to completion, garbler and evaluator return the SAME
   values, equal to the plain evaluation of the circuit on (x, y) split per
   declared output. *)
Theorem C02_session_correct :
  forall (pi_of_key : list N -> N -> N) (rnd : nat -> N) (key : list N) (scratch : list wire)
         (c : circ2) (x y : list bool),
    wf2 c = true -> length x = n0 c -> length y = n1 c ->
    let r := split_bits (outs c) (bits_to_N (eval_plain (cc c) (x ++ y))) in
    exists g2e e2g,
      run_session pi_of_key ideal_ot rnd key scratch c x y = Ok r r g2e e2g /\
      r = map bits_to_N (chunks (outs c) (eval_plain (cc c) (x ++ y))).
Proof. exact session_correct. Qed.
Print Assumptions C02_session_correct.

(* IO.Split cuts the result value into the declared outputs, in order *)
Theorem C02_split_spec :
  forall sizes bs, length bs = fold_right Nat.add 0%nat sizes ->
    split_bits sizes (bits_to_N bs) = map bits_to_N (chunks sizes bs)
    /\ concat (chunks sizes bs) = bs.
Proof. intros sizes bs H. split; [exact (split_bits_spec sizes bs H) | exact (concat_chunks sizes bs H)]. Qed.
Print Assumptions C02_split_spec.

(* the result value survives big.Int.Bytes() / SetBytes() (leading zero bytes dropped) *)
Theorem C02_result_bytes_roundtrip : forall v, of_be (big_bytes v) = v.
Proof. exact big_bytes_roundtrip. Qed.
Print Assumptions C02_result_bytes_roundtrip.

(* the evaluator parses the garbler's first flight (key, per-gate row counts and
   rows, input labels) back exactly, whatever follows on the channel *)
Theorem C02_first_flight_roundtrip :
  forall c key g x rest, length (gTables g) = length (gates (cc c)) ->
    evaluator_first c (garbler_first key g (n0 c) x ++ rest)
    = Some (mkFF key (gTables g) (garbler_inputs g (n0 c) x), rest).
Proof. exact evaluator_first_roundtrip. Qed.
Print Assumptions C02_first_flight_roundtrip.

(* "Arbitrary transport fragmentation": the typed FIFO channel of the session
   model is what p2p.Conn implements (C11).  For all buffer sizes >= 16, every
   list of session messages that fit the wire formats (uint32 counts, 128-bit
   labels, data below 4 GiB), EVERY read segmentation of the transport and
   whether or not EOF arrives together with the last bytes: the messages sent
   through the Conn model and flushed are received as exactly the same typed
   values in order, and the bytes on the wire are [enc_msgs] (the bytes the
   correspondence check compares with the implementation's transcript). *)
Theorem C02_messages_over_conn :
  forall (nbuf wcap rcap : N) (ms : list msg) (frags : list N) (eofdata : bool),
    (16 <= wcap)%N -> (16 <= rcap)%N -> Forall msg_ok ms ->
    let s := run_sender nbuf wcap (session_ops ms) in
    wire_bytes s = enc_msgs ms /\
    snd (recv_all rcap (map ty_of_msg ms) (r_init (mkT (wire_bytes s) frags eofdata 0%N)))
    = Some (map val_of_msg ms).
Proof. exact session_msgs_over_conn. Qed.
Print Assumptions C02_messages_over_conn.

(* The session theorem for ANY oblivious transfer that delivers exactly the
   chosen label at every position (the C06 specification). *)
Theorem C02_session_correct_any_ot :
  forall (pi_of_key : list N -> N -> N) (ot : list wire -> list bool -> option (list N))
         (rnd : nat -> N) (key : list N) (scratch : list wire) (c : circ2) (x y : list bool),
    ot_correct ot ->
    wf2 c = true -> length x = n0 c -> length y = n1 c ->
    let r := Codec.split_bits (outs c) (Codec.bits_to_N (eval_plain (cc c) (x ++ y))) in
    exists g2e e2g, run_session pi_of_key ot rnd key scratch c x y = Ok r r g2e e2g.
Proof. exact session_correct_any_ot. Qed.
Print Assumptions C02_session_correct_any_ot.

(* ... discharged inside Coq for the library's IKNP-based correlated OT, in the
   semi-honest and the malicious mode ([mal]), for every PRG stream family,
   every 128-bit Delta, every MITCCRH cipher family and stream offset: the
   composition of the C06 COT model with the session model gives both parties
   f(x, y). *)
Theorem C02_session_correct_cot :
  forall (pi_of_key : list N -> N -> N) (g0 g1 : nat -> nat -> N) (Delta : N) (E : N -> N -> N)
         (p : nat) (mal : option (N * N))
         (rnd : nat -> N) (key : list N) (scratch : list wire) (c : circ2) (x y : list bool),
    (Delta < 2 ^ 128)%N ->
    wf2 c = true -> length x = n0 c -> length y = n1 c ->
    let r := Codec.split_bits (outs c) (Codec.bits_to_N (eval_plain (cc c) (x ++ y))) in
    exists g2e e2g,
      run_session pi_of_key (cot_ot g0 g1 Delta E p mal) rnd key scratch c x y = Ok r r g2e e2g.
Proof. exact session_correct_cot. Qed.
Print Assumptions C02_session_correct_cot.

(* ... and for Chou-Orlandi over any abelian group with scalar multiplication
   satisfying the stated laws (the EC group is the instance), any mask
   derivation, sender scalar and receiver scalar stream. *)
Theorem C02_session_correct_co :
  forall (pi_of_key : list N -> N -> N)
         (G : Type) (gadd : G -> G -> G) (gneg : G -> G) (gzero : G) (smul : N -> G -> G) (Gen : G)
         (kdf : G -> N -> N) (a : N) (sc : nat -> N)
         (rnd : nat -> N) (key : list N) (scratch : list wire) (c : circ2) (x y : list bool),
    (forall P Q R, gadd (gadd P Q) R = gadd P (gadd Q R)) ->
    (forall P, gadd P gzero = P) ->
    (forall P, gadd P (gneg P) = gzero) ->
    (forall a P Q, smul a (gadd P Q) = gadd (smul a P) (smul a Q)) ->
    (forall a b P, smul a (smul b P) = smul b (smul a P)) ->
    wf2 c = true -> length x = n0 c -> length y = n1 c ->
    let r := Codec.split_bits (outs c) (Codec.bits_to_N (eval_plain (cc c) (x ++ y))) in
    exists g2e e2g,
      run_session pi_of_key (co_ot G gadd gneg smul Gen kdf a sc) rnd key scratch c x y = Ok r r g2e e2g.
Proof. exact session_correct_co. Qed.
Print Assumptions C02_session_correct_co.

(* ------------------------------------------------------------------ *)
(* TERMINATION ("both terminate without error"; the flush discipline of
   p2p.Conn).  Model: Proto/Live.v — two communication skeletons over two FIFO
   channels with sender-side write buffers; Send buffers, Flush delivers, a
   Send MAY flush on its own (buffer full: a schedule choice), Receive blocks
   until a message is in the channel and fails on a message of another kind.
   The skeletons are REGENERATED from the Go source of circuit.Garbler,
   circuit.Evaluator and the OT implementations on every run (Gen/Skel.v,
   harness/gen_skel.go). *)
From Mpc Require Import Proto.Live Proto.LiveProof Gen.Skel Proto.LiveInst Proto.LiveInstProof.

(* For every pair of skeletons the checker accepts, EVERY environment (loop
   counts and branch outcomes as arbitrary functions of label and enclosing
   iteration indices, the same for both parties), EVERY choice of automatic
   flushes and EVERY fair schedule (one that can be cut into at least
   [round_bound] = |garbler actions| + |evaluator actions| rounds each of which
   schedules both parties): the run ends with both programs finished, every
   receive having met a message of the expected kind, and all write buffers
   and channels empty.  Unbounded: induction over schedules and loop counts. *)
Theorem C02_live_generic :
  forall g e, well_flushed g e = true ->
  forall (en : env) (sched : list choice), fair g e en sched -> run_live g e en sched = Done.
Proof. exact well_flushed_live. Qed.
Print Assumptions C02_live_generic.

(* what Done says about the final configuration *)
Theorem C02_live_done_spec :
  forall g e en sched, run_live g e en sched = Done ->
  let s := run_cfg sched (init_cfg (flat en [] g) (flat en [] e)) in
  bad s = false /\ hp (cG s) = [] /\ hb (cG s) = [] /\ hc (cG s) = [] /\
  hp (cE s) = [] /\ hb (cE s) = [] /\ hc (cE s) = [].
Proof. exact done_spec. Qed.
Print Assumptions C02_live_done_spec.

(* the translator classified every use of the connection in the current source *)
Theorem C02_live_translator_clean : skel_gen_errors = [].
Proof. exact skel_translator_clean. Qed.
Print Assumptions C02_live_translator_clean.

(* the skeletons generated from the CURRENT source are accepted, per OT kind
   (CO; RSA; COT over CO semi-honest; COT over CO malicious) ... *)
Theorem C02_live_co : well_flushed (garbler_skel KCo) (evaluator_skel KCo) = true.
Proof. exact (live_all KCo). Qed.
Print Assumptions C02_live_co.
Theorem C02_live_rsa : well_flushed (garbler_skel KRsa) (evaluator_skel KRsa) = true.
Proof. exact (live_all KRsa). Qed.
Print Assumptions C02_live_rsa.
Theorem C02_live_cot : well_flushed (garbler_skel KCot) (evaluator_skel KCot) = true.
Proof. exact (live_all KCot). Qed.
Print Assumptions C02_live_cot.
Theorem C02_live_cot_malicious :
  well_flushed (garbler_skel KCotMalicious) (evaluator_skel KCotMalicious) = true.
Proof. exact (live_all KCotMalicious). Qed.
Print Assumptions C02_live_cot_malicious.

(* ... hence every session terminates: all circuits (all gate counts, rows per
   gate, input and output widths = all environments), all interleavings *)
Theorem C02_session_terminates_co :
  forall (en : env) (sched : list choice),
    fair (garbler_skel KCo) (evaluator_skel KCo) en sched ->
    run_live (garbler_skel KCo) (evaluator_skel KCo) en sched = Done.
Proof. exact (session_terminates KCo). Qed.
Print Assumptions C02_session_terminates_co.
Theorem C02_session_terminates_rsa :
  forall (en : env) (sched : list choice),
    fair (garbler_skel KRsa) (evaluator_skel KRsa) en sched ->
    run_live (garbler_skel KRsa) (evaluator_skel KRsa) en sched = Done.
Proof. exact (session_terminates KRsa). Qed.
Print Assumptions C02_session_terminates_rsa.
Theorem C02_session_terminates_cot :
  forall (en : env) (sched : list choice),
    fair (garbler_skel KCot) (evaluator_skel KCot) en sched ->
    run_live (garbler_skel KCot) (evaluator_skel KCot) en sched = Done.
Proof. exact (session_terminates KCot). Qed.
Print Assumptions C02_session_terminates_cot.
Theorem C02_session_terminates_cot_malicious :
  forall (en : env) (sched : list choice),
    fair (garbler_skel KCotMalicious) (evaluator_skel KCotMalicious) en sched ->
    run_live (garbler_skel KCotMalicious) (evaluator_skel KCotMalicious) en sched = Done.
Proof. exact (session_terminates KCotMalicious). Qed.
Print Assumptions C02_session_terminates_cot_malicious.

(* The converse for the important failure.  A session in miniature (first
   flight flushed, the evaluator's two SendUint32 + Flush, the reply): with the
   evaluator's Flush it is accepted; with that ONE Flush deleted it is
   rejected, and on the alternating schedule (n complete rounds for every n,
   so fair for every bound; no automatic flush) the run is stuck for ever in
   the same configuration: the garbler blocked in ReceiveUint32, the two
   integers in the evaluator's write buffer, the evaluator blocked in
   ReceiveLabel. *)
Theorem C02_missing_flush_refuted :
  exists (g : prog) (e_ok e_bad : prog) (en : env),
    well_flushed g e_ok = true /\
    well_flushed g e_bad = false /\
    forall n, count_rounds false false (alt n) = n /\
              ((12 <= n)%nat -> run_live g e_bad en (alt n) = Unfinished mini_stuck) /\
              exists s, run_live g e_bad en (alt n) = Unfinished s.
Proof. exact missing_flush_refuted. Qed.
Print Assumptions C02_missing_flush_refuted.

(* STATE INVENTORY (finite obligation on the model regenerated from the source, checked by
   computation).  The struct fields and package-level variables of the Go packages this
   property is anchored in — circuit, ot, p2p — as emitted from /repo's current
   source by harness/gen_state.go (Gen/State.v) are exactly those the models above were written
   against (Base/StateExpected.v).  A new field or variable (a cache, a memo, a pool, a counter,
   a changed field type) is state the models do not have: this obligation then breaks and the
   property is no longer shown to hold until the change has been reviewed against the model. *)
Theorem C02_state_inventory :
  Mpc.Base.StateCheck.state_unchanged Mpc.Gen.State.state_inventory Mpc.Base.StateExpected.expected_state
    Mpc.Base.StatePkgs.pkgs_C02 = true.
Proof. vm_compute. reflexivity. Qed.
Print Assumptions C02_state_inventory.

(* ERROR EXITS (Proto/LiveAbort.v; what the code does is written at the top of
   that file: the protocol functions return the error and leave the connection
   alone, their CALLER calls Conn.Close, which flushes and then closes).
   For EVERY pair of skeletons accepted by the checker, EVERY environment,
   EVERY abort point of the garbler and of the evaluator ([Some r]: the party
   returns an error when r or fewer actions are left — any point of its
   program, in particular each Receive; [Some 0]: normal return followed by
   the caller's Close; [None]: never), EVERY choice of automatic flushes and of
   write errors towards a closed peer and EVERY fair schedule: no receive sees
   a message of the wrong kind and BOTH parties have returned — normally, or
   with an error after which the connection was closed, or with EOF / a write
   error caused by the peer's close.  Nobody is left blocked. *)
From Mpc Require Import Proto.LiveAbort Proto.LiveAbortProof.
Theorem C02_abort_live :
  forall g e, well_flushed g e = true ->
  forall (en : env) (ag ae : option nat) (sched : asched), afair g e en sched ->
    let s := arun_live g e en (mkSpec ag ae true) sched in
    bad (base s) = false /\
    ((stG s = Run /\ hp (cG (base s)) = []) \/ stG s = Closed \/ (stG s = Failed /\ stE s = Closed)) /\
    ((stE s = Run /\ hp (cE (base s)) = []) \/ stE s = Closed \/ (stE s = Failed /\ stG s = Closed)).
Proof. exact abort_live. Qed.
Print Assumptions C02_abort_live.

(* the same for the sessions generated from the current source, every OT kind *)
Theorem C02_abort_live_sessions :
  forall (k : otkind) (en : env) (ag ae : option nat) (sched : asched),
    afair (garbler_skel k) (evaluator_skel k) en sched ->
    let s := arun_live (garbler_skel k) (evaluator_skel k) en (mkSpec ag ae true) sched in
    bad (base s) = false /\
    ((stG s = Run /\ hp (cG (base s)) = []) \/ stG s = Closed \/ (stG s = Failed /\ stE s = Closed)) /\
    ((stE s = Run /\ hp (cE (base s)) = []) \/ stE s = Closed \/ (stE s = Failed /\ stG s = Closed)).
Proof. exact abort_live_sessions. Qed.
Print Assumptions C02_abort_live_sessions.

(* In every state reachable in such a run (AInv holds there: C02_abort_reachable),
   once the peer has closed, each scheduling of a party that has not returned
   makes it advance (the measure = remaining actions of the running parties
   drops): its Send/Flush is executed or fails, its Receive delivers a message
   still in flight or fails with EOF — nothing blocks. *)
Theorem C02_closed_peer_never_blocks :
  forall sp s a w, closes sp = true -> AInv s ->
    (stE s = Closed -> stG s = Run -> hp (cG (base s)) <> [] -> (am (astep sp (CG a) w s) < am s)%nat) /\
    (stG s = Closed -> stE s = Run -> hp (cE (base s)) <> [] -> (am (astep sp (CE a) w s) < am s)%nat).
Proof. exact closed_peer_never_blocks. Qed.
Print Assumptions C02_closed_peer_never_blocks.

Theorem C02_abort_reachable :
  forall g e, well_flushed g e = true ->
  forall en ag ae sched, AInv (arun_live g e en (mkSpec ag ae true) sched).
Proof. exact reachable_ainv. Qed.
Print Assumptions C02_abort_reachable.

(* The variant in which the caller does NOT close after an error return is
   refuted: in the miniature session (accepted by the checker) the evaluator
   returns an error at its first Receive; with the close the garbler fails
   with EOF after 6 rounds of the alternating schedule; without it, for every
   n, n complete rounds leave the garbler blocked in ReceiveUint32 for ever. *)
Theorem C02_abort_no_close_refuted :
  exists (g e : prog) (en : env) (ae : option nat),
    well_flushed g e = true /\
    (forall n, (6 <= n)%nat ->
       let s := arun_live g e en (mkSpec None ae true) (alt' n) in
       stE s = Closed /\ stG s = Failed) /\
    forall n, count_rounds false false (map fst (alt' n)) = n /\
              afin (arun_live g e en (mkSpec None ae false) (alt' n)) = false /\
              ((6 <= n)%nat -> arun_live g e en (mkSpec None ae false) (alt' n) = abort_stuck).
Proof. exact no_close_refuted. Qed.
Print Assumptions C02_abort_no_close_refuted.
