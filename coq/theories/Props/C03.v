(* Props/C03.v — property C03: the compiled circuit computes what the MPCL
   program means.  Only statements closed by [exact], each followed by
   Print Assumptions.

   WHAT IS AND IS NOT PROVED.  The property quantifies over the programs the Go
   compiler /repo/compiler accepts; the Go compiler is not an object of these
   theorems.  Proved here: the reference semantics (Lang/Mini.v, [exec_mini])
   is implemented by the LOWERING SCHEME modelled in Lang/Lower.v (bindings,
   merge by branch condition, return decision tree, dead/alive branches, loop
   unrolling, call inlining, mov/smov and operand typing) under the
   instruction semantics of Lang/Ssa.v.  Checked on every run (not proved):
   the Go compiler agrees with [exec_mini] on the generated programs
   (source-level tie), the SSA listing the Go compiler prints evaluates under
   [eval_ssa] to what the real circuit computes (SSA tie, which is what
   connects circuitgen.go and the builders to Lang/Ssa.v), and [lower] itself
   agrees with both on the same programs.  DESIGN's C03_circuit_of_ssa (gates
   of every instruction = its arithmetic meaning) is NOT proved here. *)
From Coq Require Import ZArith NArith List Bool.
From Mpc Require Import Gen.Consts Gen.Thresholds Lang.Mini Lang.Ssa Lang.Lower Lang.LowerProof
     Lang.RunC03 Lang.RunC03Proof Lang.CircGen Lang.CircGenProof Lang.CircGenCompose
     Lang.CircEmbed Lang.CircEmbedProof.
Import ListNotations.
From Mpc Require Gen.State Base.StateExpected Base.StateCheck Base.StatePkgs.

(* FULL statement for the model.  For every Mini program p (any number of
   functions; expressions over bool/intN/uintN of any width N with + - * / %
   & | ^ &^ comparisons && || ! unary minus, constant shifts, casts, constant
   and run-time array indexing, struct fields; statements: declarations with
   Go scoping and shadowing, assignments, element/field stores, if/else with
   early return at any depth, for loops with compile-time bounds and returns
   inside them, calls with several results) that is typed (width-consistent,
   calls go to earlier functions, every path returns) and for every input
   vector: evaluating the lowered SSA program yields exactly the outputs of
   the reference interpreter.  Unbounded: induction over expressions,
   statements, iteration counts and the list of functions. *)
Theorem C03_lower_correct :
  forall p inp, typed p -> eval_ssa (lower p) inp = exec_mini p inp.
Proof. exact lower_correct. Qed.
Print Assumptions C03_lower_correct.

(* Expression level, all widths, all environments: the instructions emitted
   for an expression extend the value list and define an operand whose value
   is the value of the expression and whose width is its static width. *)
Theorem C03_lower_expr_correct : forall e ce en G vs wd c o,
  env_ok vs ce en G -> wt_expr G e = Some wd ->
  lower_expr ce e (length vs) = (c, o) ->
  exists tail, run_code c vs = vs ++ tail /\ length tail = length c /\
     ok (vs ++ tail) o (eval e en) /\ opnd_bits o = wd.
Proof. exact lower_expr_ok. Qed.
Print Assumptions C03_lower_expr_correct.

(* The same statement is FALSE for the binding discipline the Go compiler
   actually uses (one flat scope per function: Codegen.Scope() is constant,
   Bindings.Merge keeps names declared in a branch) — [lower_flat]: a
   declaration in a nested block that re-uses an outer name overwrites the
   outer variable.  Witness by computation; the harness replays the same
   program on the real compiler (finding C03-F1). *)
Theorem C03_lower_flat_refuted :
  exists p inp, typed p /\ eval_ssa (lower_flat p) inp <> exec_mini p inp.
Proof. exact lower_flat_refuted. Qed.
Print Assumptions C03_lower_flat_refuted.

(* Instruction-level witness of finding C03-F2: with the literal left in its
   32-bit container (as the compiler emits it) `a > 5` on a = -1 : int8
   evaluates to true under the instruction semantics, to false under the
   reference semantics. *)
Theorem C03_literal_container_witness :
  eval_ssa (mkSprog [8%nat] [mkInstr Oigt [OVar 0 (mkSty true 8); OConst 32 5 (mkSty true 32)] (mkSty false 1) 0]
                    [OVar 1 (mkSty false 1)]) [255%N] = [1%N]
  /\ exec_mini [mkFunc [(0%nat, TInt 8)] [TBool] (SReturn [EBin Gt (TInt 8) (EVar 0) (ELit (TInt 8) 5)])] [255%N] = [0%N].
Proof. exact literal_container_witness. Qed.
Print Assumptions C03_literal_container_witness.

(* The opcode numbers by which the harness's SSA listings are decoded are the
   ssa.Operand values regenerated from compiler/ssa/instructions.go. *)
Theorem C03_opcode_enum :
  map dec_opcode
      [compiler_ssa_Iadd; compiler_ssa_Uadd; compiler_ssa_Isub; compiler_ssa_Usub;
       compiler_ssa_Imult; compiler_ssa_Umult; compiler_ssa_Idiv; compiler_ssa_Udiv;
       compiler_ssa_Imod; compiler_ssa_Umod; compiler_ssa_Band; compiler_ssa_Bor;
       compiler_ssa_Bxor; compiler_ssa_Bclr; compiler_ssa_Ilt; compiler_ssa_Ult;
       compiler_ssa_Ile; compiler_ssa_Ule; compiler_ssa_Igt; compiler_ssa_Ugt;
       compiler_ssa_Ige; compiler_ssa_Uge; compiler_ssa_Eq; compiler_ssa_Neq;
       compiler_ssa_And; compiler_ssa_Or; compiler_ssa_Not; compiler_ssa_Mov;
       compiler_ssa_Smov; compiler_ssa_Lshift; compiler_ssa_Rshift; compiler_ssa_Srshift;
       compiler_ssa_Slice; compiler_ssa_Amov; compiler_ssa_Index; compiler_ssa_Phi;
       compiler_ssa_Concat; compiler_ssa_Bts; compiler_ssa_Btc; compiler_ssa_Circ;
       compiler_ssa_Builtin; compiler_ssa_Ret; compiler_ssa_GC]
  = [Oiadd; Ouadd; Oisub; Ousub; Oimult; Oumult; Oidiv; Oudiv; Oimod; Oumod;
     Oband; Obor; Obxor; Obclr; Oilt; Oult; Oile; Oule; Oigt; Ougt; Oige; Ouge;
     Oeq; Oneq; Oand; Oor; Onot; Omov; Osmov; Olshift; Orshift; Osrshift;
     Oslice; Oamov; Oindex; Ophi;
     Oconcat; Obts; Obtc; Ounsupported; Ohamming;
     Ounsupported; Ounsupported].
Proof. exact opcode_enum_ok. Qed.
Print Assumptions C03_opcode_enum.

(* Frame property of a store  arr[from:to] = v  (opcode amov, Assign.SSA on an
   element or field, copy()): for every value list, every value operand ov of
   ANY width (a literal in its 32/64-bit container, a source array longer than
   the destination range), every array operand and all bounds from <= to <=
   width of the result: every bit of the result outside [from,to) is the bit of
   the array operand (cut / zero-padded to the result width) ... *)
Theorem C03_amov_frame : forall vs ov oa from to out aux i,
  (from <= to)%nat -> (to <= s_bits out)%nat ->
  (i < N.of_nat from \/ N.of_nat to <= i)%N ->
  N.testbit (eval_instr vs (mkInstr Oamov [ov; oa; kconst from; kconst to] out aux)) i
  = N.testbit (norm (s_bits out) (opnd_val vs oa)) i.
Proof. exact amov_instr_frame. Qed.
Print Assumptions C03_amov_frame.

(* ... and the bits [from,to) are the low to-from bits of the value. *)
Theorem C03_amov_slot : forall vs ov oa from to out aux,
  (from <= to)%nat -> (to <= s_bits out)%nat ->
  slice_sem from (to - from) (eval_instr vs (mkInstr Oamov [ov; oa; kconst from; kconst to] out aux))
  = norm (to - from) (opnd_val vs ov).
Proof. exact amov_instr_slot. Qed.
Print Assumptions C03_amov_slot.

(* The same at the source level (Mini.store_sem, the meaning of x[k] = e and
   x.f = e): bits outside the slot keep the value of x. *)
Theorem C03_store_frame : forall tw off w a v i, (off + w <= tw)%nat ->
  (i < N.of_nat off \/ N.of_nat (off + w) <= i)%N ->
  N.testbit (store_sem tw off w a v) i = N.testbit (norm tw a) i.
Proof. exact store_sem_frame. Qed.
Print Assumptions C03_store_frame.

(* ---------------------------------------------------------------------------
   The SSA -> circuit step (compiler/ssa/circuitgen.go).  WHAT IS AND IS NOT PROVED.  Lang/CircGen.v is a Gallina model of
   ssa.Program.CompileCircuit up to and including prog.Circuit(cc)
   (compiler/ssa/circuitgen.go: operand wires from the wire allocator with the
   constant cast, the switch over the opcodes, Ret; program.go: input wires and
   DefineConstants) on top of the builder transcriptions of C07.  Proved here,
   for the model: gate-by-gate evaluation of the generated gate list returns
   exactly eval_ssa — for every program satisfying the executable side
   conditions cg_wf, all widths, all inputs; composed with C03_lower_correct:
   exactly exec_mini.  The model is tied to the Go code on every run
   (harness/c03cg.go, modes 4/5 of run_c03): for the REAL SSA listing of every
   generated program the model's gate list equals, gate for gate after canonical
   wire renumbering, Compiler.Gates as it stands after prog.Circuit(cc) (before
   the optimisation passes of C09 and Compiler.Compile), and its evaluation
   equals the outputs of the real circuit; the value of cg_wf on the real
   program is part of the compared observable.
   COVERED: every opcode for which Program.Circuit has a case and that can
   occur without native circuit files — the arithmetic, bitwise, comparison,
   logical, move / shift / slice / amov / index / phi opcodes, concat, bts, btc
   (peephole.go), builtin (circuits.Hamming), circ (the embedding of a parsed
   native circuit file, Lang/CircEmbed.v: argument flattening and zero padding,
   allocation of result and intermediate wires, renumbering of the sub-circuit's
   gates — for EVERY sub-circuit meeting circ_ok), ret; the four divisions with a
   zero divisor, operands of any two widths and (unsigned) a narrower result
   (Builders/DivProof.v proves NewUDivider / NewIDivider for every operand and
   destination width and every divisor; Lang/CircGenDivProof.v instantiates them
   at circuitgen's calling convention: nil quotient or remainder).  cg_wf's side conditions are
   the width relations of a typed listing (result no wider than the operands of
   an adder / subtractor / multiplier / bitwise operation, 1-bit results of
   comparisons, ...) and the conditions under which the Go code itself returns
   an error or indexes out of range (slice / amov bounds, NewMUX widths, ...).
   circ: an instruction of Lang/Ssa.v defines one value, the listing line
   "circ a.. r0 .. rm" several: Ocirc defines the concatenation of all results
   (the wires circOut of Program.Circuit) and the harness lets one slice
   instruction per r_j follow (slice emits no gate).  The sub-circuit is
   instr.Circ as it stands in memory after the real circuit.Parse.
   NOT modelled: the floating point opcodes and builtins other than Hamming
   (decode to Ounsupported, which cg_wf rejects).  Targets: Yao (utils.NewParams) everything; GMW everything but
   division (the Goldschmidt divider is not exact: C07 findings F31-F33).
   The passes after circuitgen are C09's. *)

(* For every SSA program p (any number of inputs and instructions, any widths)
   that satisfies the executable predicate cg_wf (at least one input wire; per
   instruction the operand count of its opcode and the width relations listed in
   Lang/CircGen.v) and every input vector: evaluating the gates that
   circuit_of_ssa emits for p, one by one in emission order, from the input
   bits, yields on the output wires exactly the values eval_ssa p inp.
   Unbounded: induction over the instruction list with the invariant "the wires
   registered for every value defined so far carry its value", per opcode the
   C07 builder theorem for every width; the emitted list is proved single
   assignment and defined-before-use, so gate-by-gate evaluation is the unique
   consistent valuation.  Opcodes covered: iadd uadd isub usub imult umult idiv
   udiv imod umod (zero divisor included) band bor bxor bclr ilt ult ile ule igt
   ugt ige uge eq neq and or not mov smov lshift rshift srshift slice amov index
   phi concat bts btc builtin(hamming), circ (any number of circ steps, every
   sub-circuit meeting circ_ok, any number and widths of arguments and results;
   its meaning is Circuit.eval_plain of the sub-circuit — the model of
   circuit.Circuit.Compute that C01 is stated about — on the concatenated zero
   padded arguments: C03_circ_meaning), and ret. *)
Theorem C03_circuitgen_correct : forall p inp,
  cg_wf p = true ->
  eval_circuit (circuit_of_ssa p) (input_bits (sp_inputs p) inp) = eval_ssa p inp.
Proof. exact circuitgen_correct. Qed.
Print Assumptions C03_circuitgen_correct.

(* GMW target (Params.Target = utils.TargetGMW: Kogge-Stone adders and
   subtractors, Wallace multiplier), every program without a division
   (cg_wf_tg true p = cg_wf p and no idiv udiv imod umod), every threshold. *)
Theorem C03_circuitgen_correct_gmw : forall thr p inp,
  cg_wf_tg true p = true ->
  eval_circuit (circuit_of_ssa_gen multiplierArrayTresholds thr true p) (input_bits (sp_inputs p) inp)
  = eval_ssa p inp.
Proof. exact circuitgen_correct_gmw. Qed.
Print Assumptions C03_circuitgen_correct_gmw.

(* The hypotheses are honest about the ORDER of the gates: eval_circuit evaluates
   the list gate by gate in emission order, which is meaningful because for
   every program meeting cg_wf_tg (either target, every threshold) the
   generated list is single assignment (wfc_b) and defined before use (dbu) —
   proved, not assumed.  (Real lists that are not defined-before-use exist —
   GMW target, a division with a result narrower than its operands: the
   Goldschmidt divider leaves the result wires undriven — and there cg_wf_tg is
   false on both sides of the correspondence.) *)
Theorem C03_circuitgen_structure : forall tg thr p, cg_wf_tg tg p = true ->
  let c := circuit_of_ssa_gen multiplierArrayTresholds thr tg p in
  Mpc.Builders.Emit.wfc_b (N.of_nat (cc_ninp c)) (cc_gates c) = true /\
  Mpc.Builders.StructProof.dbu (N.of_nat (cc_ninp c)) (cc_gates c).
Proof. exact circuitgen_structure. Qed.
Print Assumptions C03_circuitgen_structure.

(* The same for every value of Params.CircMultArrayTreshold (the Karatsuba /
   array switch of NewMultiplier), with the threshold table regenerated from
   circ_multiplier_params.go. *)
Theorem C03_circuitgen_correct_any_threshold : forall thr p inp,
  cg_wf p = true ->
  eval_circuit (circuit_of_ssa_gen multiplierArrayTresholds thr false p) (input_bits (sp_inputs p) inp)
  = eval_ssa p inp.
Proof. exact circuitgen_correct_gen. Qed.
Print Assumptions C03_circuitgen_correct_any_threshold.

(* Source to gates: for every typed Mini program p whose lowering satisfies
   cg_wf and every input vector, the generated circuit computes the outputs of
   the reference interpreter.  (Mini, the documented core of MPCL, has no native
   call, so the lowering never emits circ; programs with circ steps are covered
   by C03_circuitgen_correct and the C03_circ_* theorems below.) *)
Theorem C03_compile_correct : forall p inp,
  typed p -> cg_wf (lower p) = true ->
  eval_circuit (circuit_of_ssa (lower p)) (input_bits (sp_inputs (lower p)) inp) = exec_mini p inp.
Proof. exact compile_correct. Qed.
Print Assumptions C03_compile_correct.

(* What cg_wf leaves out, as a statement: only the opcodes without a model
   (a builtin other than Hamming, floating point: they decode to Ounsupported). *)
Theorem C03_cg_wf_excludes : forall i, cg_wf_instr i = true -> i_op i <> Ounsupported.
Proof. exact cg_wf_instr_opcodes. Qed.
Print Assumptions C03_cg_wf_excludes.

(* Non-vacuity: a concrete program (signed compare, subtract, multiply, xor,
   arithmetic shift, cast, run-time index, conditional early return; 24 SSA
   instructions, 519 gates) meets both hypotheses ... *)
Theorem C03_cg_example_hypotheses : typed ex_prog /\ cg_wf (lower ex_prog) = true.
Proof. exact ex_hypotheses. Qed.
Print Assumptions C03_cg_example_hypotheses.

(* ... and its generated circuit, evaluated in the kernel, returns the reference
   outputs on an input of either branch. *)
Theorem C03_cg_example_runs :
  (20 <= length (sp_code (lower ex_prog)))%nat /\
  (300 <= length (cc_gates (circuit_of_ssa (lower ex_prog))))%nat /\
  eval_circuit (circuit_of_ssa (lower ex_prog)) (input_bits [8; 8]%nat [100; 7]%N) = exec_mini ex_prog [100; 7]%N /\
  exec_mini ex_prog [100; 7]%N = [93; 6; 0]%N /\
  eval_circuit (circuit_of_ssa (lower ex_prog)) (input_bits [8; 8]%nat [200; 77]%N) = exec_mini ex_prog [200; 77]%N /\
  exec_mini ex_prog [200; 77]%N = [208; 8; 1]%N.
Proof. exact ex_runs. Qed.
Print Assumptions C03_cg_example_runs.

(* Non-vacuity for the opcodes the lowering never emits and for GMW: an SSA
   program with concat, bts, btc, hamming, udiv / umod with a literal divisor
   in a wider container and a narrower result, idiv with operands of different widths, imod
   satisfies cg_wf, so its circuit returns eval_ssa (C03_circuitgen_correct at this
   program), whose value is computed; a division-free variant satisfies
   cg_wf_tg true and its GMW circuit, evaluated in the kernel, does too. *)
Theorem C03_cg_example_new_opcodes :
  cg_wf ex_ssa = true /\
  eval_circuit (circuit_of_ssa ex_ssa) (input_bits [8; 8; 8]%nat [200; 249; 0x5a]%N)
  = eval_ssa ex_ssa [200; 249; 0x5a]%N /\
  eval_ssa ex_ssa [200; 249; 0x5a]%N = [51290; 1; 1; 6; 40; 83; 4; 0]%N.
Proof. exact (conj ex_ssa_wf (conj (proj1 ex_ssa_runs) (proj1 (proj2 ex_ssa_runs)))). Qed.
Print Assumptions C03_cg_example_new_opcodes.

Theorem C03_cg_example_gmw :
  cg_wf_tg true ex_ssa_gmw = true /\ cg_wf_tg true ex_ssa = false /\
  eval_circuit (circuit_of_ssa_gen multiplierArrayTresholds 0 true ex_ssa_gmw)
               (input_bits [8; 8; 8]%nat [200; 249; 0x5a]%N)
  = eval_ssa ex_ssa_gmw [200; 249; 0x5a]%N.
Proof. exact (conj (proj1 ex_ssa_gmw_wf) (conj (proj2 ex_ssa_gmw_wf) (proj1 ex_ssa_gmw_runs))). Qed.
Print Assumptions C03_cg_example_gmw.

(* ---------------------------------------------------------------------------
   circ — native circuit files (compiler/ssa/circuitgen.go "case Circ:").
   The meaning Lang/Ssa.v gives the instruction, for every value list, every
   sub-circuit, every argument list: the sub-circuit evaluated as by
   Circuit.Compute (Circuit.eval_plain) on the bits of argument k (brought to its
   declared width like every operand) zero padded to the width of the circuit's
   input k, all concatenated; the result wires read as one number. *)
Theorem C03_circ_meaning : forall vs ins c args out aux,
  eval_instr vs (mkInstr (Ocirc ins c) args out aux)
  = bits_val (Mpc.Circuit.Circuit.eval_plain c (circ_input vs args ins)).
Proof. exact circ_instr_meaning. Qed.
Print Assumptions C03_circ_meaning.

(* What cg_wf demands of a circ instruction, for every instruction: one argument
   per input of the sub-circuit and none wider than it, the input widths add up
   to the sub-circuit's input wires, the result has its output wires, and
   circ_ok: Circuit.wf (ids in range, gate inputs assigned before use, outputs
   assigned, no gate writes an input wire) + no wire written twice (the Go
   compiler panics there) + no output wire that is an input wire. *)
Theorem C03_cg_wf_circ : forall ins c args out aux,
  cg_wf_instr (mkInstr (Ocirc ins c) args out aux) = true <->
  args_fit args ins = true /\ tot ins = Mpc.Circuit.Circuit.ninputs c /\
  s_bits out = Mpc.Circuit.Circuit.noutputs c /\ circ_ok c = true.
Proof. exact cg_wf_circ. Qed.
Print Assumptions C03_cg_wf_circ.

(* The embedding by itself, in the vocabulary of the builder theorems of C07: for
   EVERY sub-circuit c meeting circ_ok, every list ws of argument wire vectors
   that fit the input widths ins, either target: from every well-formed compiler
   state the embedding returns ob = noutputs c result wires and only appends
   gates, and in EVERY wire valuation consistent with the gate list the result
   wires carry Circuit.eval_plain c of the values of the argument wires, each
   argument followed by zeros up to its input width.  Unbounded: induction over
   the sub-circuit's gate list. *)
Theorem C03_circ_embed_semantics : forall t ins ob c ws,
  circ_ok c = true -> Forall2 (fun w n => (length w <= n)%nat) ws ins ->
  tot ins = Mpc.Circuit.Circuit.ninputs c -> ob = Mpc.Circuit.Circuit.noutputs c ->
  Mpc.Builders.EmitProof.okp t (embed_circ ins ob c ws) (fun o => length o = ob)
      (fun o e => map e o = Mpc.Circuit.Circuit.eval_plain c (flat_bits e ws ins)).
Proof. exact okp_embed_circ. Qed.
Print Assumptions C03_circ_embed_semantics.

(* ... and it keeps the enclosing gate list single assignment and defined before
   use (wfst), defines every result wire, and leaves every wire defined before
   defined: for every compiler state, every sub-circuit meeting circ_ok, every
   list of defined argument wires that fit. *)
Theorem C03_circ_embed_structure : forall ninp ins ob c ws s,
  Mpc.Builders.StructProof.wfst ninp s -> circ_ok c = true ->
  Forall2 (fun w n => Forall (Mpc.Builders.StructProof.defd ninp s) w /\ (length w <= n)%nat) ws ins ->
  tot ins = Mpc.Circuit.Circuit.ninputs c -> ob = Mpc.Circuit.Circuit.noutputs c ->
  Mpc.Builders.StructProof.oks (ninp := ninp) (embed_circ ins ob c ws) s
    (fun o s' => after ninp s s' /\ Forall (Mpc.Builders.StructProof.defd ninp s') o).
Proof. exact embed_circ_s. Qed.
Print Assumptions C03_circ_embed_structure.

(* End to end for a call by itself: for EVERY sub-circuit c meeting circ_ok with
   at least one input wire, every split ins of its input wires into arguments
   and every input vector, the program "return native(c, x0, .., xk)" compiles
   to a circuit that computes exactly Circuit.eval_plain c on the input bits. *)
Theorem C03_circ_call_correct : forall ins c inp,
  circ_ok c = true -> tot ins = Mpc.Circuit.Circuit.ninputs c -> (1 <= Mpc.Circuit.Circuit.ninputs c)%nat ->
  eval_circuit (circuit_of_ssa (circ_call ins c)) (input_bits ins inp)
  = [bits_val (Mpc.Circuit.Circuit.eval_plain c (input_bits ins inp))].
Proof. exact circ_call_correct. Qed.
Print Assumptions C03_circ_call_correct.

(* Non-vacuity: a 2-bit adder with carry (all five gate kinds) meets circ_ok; a
   program calling it with a one-wire constant for its 2-bit input (zero
   padding), taking its two results apart and adding to one of them meets cg_wf
   for both targets ... *)
Theorem C03_circ_example_hypotheses :
  circ_ok ex_adder2 = true /\ cg_wf ex_circ = true /\ cg_wf_tg true ex_circ = true.
Proof. exact ex_circ_wf. Qed.
Print Assumptions C03_circ_example_hypotheses.

(* ... and on ALL its 8 inputs the generated circuits (Yao and GMW), evaluated in
   the kernel, return eval_ssa, which is a + 1 + c, its carry, (a + 1 + c) + a. *)
Theorem C03_circ_example_runs :
  map (fun v => eval_circuit (circuit_of_ssa ex_circ) (input_bits [2; 1]%nat v)) ex_circ_inputs
  = map (eval_ssa ex_circ) ex_circ_inputs /\
  map (fun v => eval_circuit (circuit_of_ssa_gen multiplierArrayTresholds 0 true ex_circ)
                             (input_bits [2; 1]%nat v)) ex_circ_inputs
  = map (eval_ssa ex_circ) ex_circ_inputs /\
  map (eval_ssa ex_circ) ex_circ_inputs
  = [[1; 0; 1; 1]; [2; 0; 3; 2]; [3; 0; 1; 3]; [0; 1; 3; 4];
     [2; 0; 2; 2]; [3; 0; 0; 3]; [0; 1; 2; 4]; [1; 1; 0; 5]]%N.
Proof. exact ex_circ_runs. Qed.
Print Assumptions C03_circ_example_runs.

(* circ_ok is strictly stronger than Circuit.wf (C01's hypothesis): a second
   write to an intermediate wire and an output wire that is an input wire are wf
   but not circ_ok. *)
Theorem C03_circ_ok_excludes :
  Mpc.Circuit.Circuit.wf ex_overwrite = true /\ circ_ok ex_overwrite = false /\
  Mpc.Circuit.Circuit.wf ex_passthrough = true /\ circ_ok ex_passthrough = false.
Proof. exact ex_circ_ok_excludes. Qed.
Print Assumptions C03_circ_ok_excludes.

(* The decoder of the harness's listings builds Ocirc from the exported
   instr.Circ; gate operations by the regenerated circuit.Operation values. *)
Theorem C03_circ_decode :
  (forall s, Mpc.Base.Sx.getZ (Mpc.Base.Sx.nthx 0 s) = compiler_ssa_Circ ->
     i_op (dec_instr s)
     = Ocirc (Mpc.Base.Sx.getLnat (Mpc.Base.Sx.nthx 5 s))
             (dec_circuit (Mpc.Base.Sx.nthx 6 s) (Mpc.Base.Sx.nthx 7 s))) /\
  map cop_of_Z [circuit_XOR; circuit_XNOR; circuit_AND; circuit_OR; circuit_INV]
  = [Mpc.Circuit.Circuit.XOR; Mpc.Circuit.Circuit.XNOR; Mpc.Circuit.Circuit.AND;
     Mpc.Circuit.Circuit.OR; Mpc.Circuit.Circuit.INV].
Proof. exact circ_decode_ok. Qed.
Print Assumptions C03_circ_decode.

(* STATE INVENTORY (finite obligation on the model regenerated from the source, checked by
   computation).  The struct fields and package-level variables of the Go packages this
   property is anchored in — compiler, compiler/ast, compiler/circuits, compiler/ssa — as emitted from /repo's current
   source by harness/gen_state.go (Gen/State.v) are exactly those the models above were written
   against (Base/StateExpected.v).  A new field or variable (a cache, a memo, a pool, a counter,
   a changed field type) is state the models do not have: this obligation then breaks and the
   property is no longer shown to hold until the change has been reviewed against the model. *)
Theorem C03_state_inventory :
  Mpc.Base.StateCheck.state_unchanged Mpc.Gen.State.state_inventory Mpc.Base.StateExpected.expected_state
    Mpc.Base.StatePkgs.pkgs_C03 = true.
Proof. vm_compute. reflexivity. Qed.
Print Assumptions C03_state_inventory.
